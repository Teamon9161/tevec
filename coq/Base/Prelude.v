(* Base/Prelude.v — lists, windows, the Ok/Panic result monad.  Stdlib only, axiom-free. *)
From Coq Require Export List Arith ZArith Lia Bool.
Export ListNotations.

Set Implicit Arguments.

(* ------------------------------------------------------------------ *)
(* Result monad: Rust panics (debug build: usize underflow, assert!, unwrap) are values *)

Inductive panic_kind := Underflow | Overflow | AssertFail | UnwrapNone | OtherPanic.

Inductive res (A : Type) : Type :=
| Ok (a : A)
| Panic (k : panic_kind).
Arguments Ok {A} a.
Arguments Panic {A} k.

Definition bind {A B} (r : res A) (f : A -> res B) : res B :=
  match r with Ok a => f a | Panic k => Panic k end.
Notation "'do' x <- r ; k" := (bind r (fun x => k)) (at level 200, x name, r at level 100, k at level 200).

Definition usub (a b : nat) : res nat := if b <=? a then Ok (a - b) else Panic Underflow.

Definition is_ok {A} (r : res A) : bool := match r with Ok _ => true | Panic _ => false end.

(* ------------------------------------------------------------------ *)
(* Windows *)

(* positions max(0,i+1-w) ..= i of xs *)
Definition wstart (w i : nat) : nat := S i - w.
Definition win {T} (w i : nat) (xs : list T) : list T :=
  firstn (S i - wstart w i) (skipn (wstart w i) xs).

(* sub-sequence a..b (exclusive) *)
Definition seg {T} (a b : nat) (xs : list T) : list T := firstn (b - a) (skipn a xs).

Lemma win_seg {T} w i (xs : list T) : win w i xs = seg (wstart w i) (S i) xs.
Proof. reflexivity. Qed.

Lemma seg_length {T} a b (xs : list T) : b <= length xs -> length (seg a b xs) = b - a.
Proof. intros Hb. unfold seg. rewrite firstn_length, skipn_length. lia. Qed.

Lemma nth_error_ext {T} (l1 l2 : list T) :
  (forall i, nth_error l1 i = nth_error l2 i) -> l1 = l2.
Proof.
  revert l2; induction l1 as [|a l1 IH]; intros l2 H.
  - destruct l2; [reflexivity|]. specialize (H 0). discriminate.
  - destruct l2 as [|b l2]; [specialize (H 0); discriminate|].
    pose proof (H 0) as H0. cbn in H0. injection H0 as ->. f_equal.
    apply IH. intros i. exact (H (S i)).
Qed.

Lemma nth_error_skipn {T} n i (xs : list T) : nth_error (skipn n xs) i = nth_error xs (n + i).
Proof.
  revert xs; induction n as [|n IH]; intros xs; [reflexivity|].
  destruct xs as [|x xs]; [destruct i; reflexivity|]. cbn [skipn plus nth_error]. apply IH.
Qed.

Lemma nth_error_firstn {T} n i (xs : list T) :
  nth_error (firstn n xs) i = if i <? n then nth_error xs i else None.
Proof.
  revert i xs; induction n as [|n IH]; intros i xs.
  - destruct i; reflexivity.
  - destruct xs as [|x xs].
    { rewrite firstn_nil. destruct i; cbn [nth_error]; destruct (Nat.ltb _ _); reflexivity. }
    destruct i as [|i]; [reflexivity|]. cbn [firstn nth_error]. rewrite IH.
    change (S i <? S n) with (i <? n). reflexivity.
Qed.

Lemma nth_error_seg {T} a b i (xs : list T) :
  nth_error (seg a b xs) i = if i <? b - a then nth_error xs (a + i) else None.
Proof. unfold seg. rewrite nth_error_firstn, nth_error_skipn. reflexivity. Qed.

Lemma seg_snoc {T} a b (xs : list T) x :
  a <= b -> nth_error xs b = Some x -> seg a (S b) xs = seg a b xs ++ [x].
Proof.
  intros Hab Hx. unfold seg.
  replace (S b - a) with (S (b - a)) by lia.
  assert (Hn : nth_error (skipn a xs) (b - a) = Some x).
  { rewrite nth_error_skipn. replace (a + (b - a)) with b by lia. exact Hx. }
  generalize dependent (skipn a xs). generalize (b - a). clear.
  induction n as [|n IH]; intros l Hn.
  - destruct l; [discriminate|]. cbn in Hn. injection Hn as ->. reflexivity.
  - destruct l as [|y l]; [discriminate|]. cbn [firstn app]. f_equal. apply IH. exact Hn.
Qed.

Lemma seg_cons {T} a b (xs : list T) x :
  a < b -> nth_error xs a = Some x -> seg a b xs = x :: seg (S a) b xs.
Proof.
  intros Hab Hx. apply nth_error_ext. intros i. rewrite nth_error_seg.
  destruct i as [|i]; cbn [nth_error].
  - replace (0 <? b - a) with true by (symmetry; apply Nat.ltb_lt; lia).
    rewrite Nat.add_0_r. exact Hx.
  - rewrite nth_error_seg. replace (S a + i) with (a + S i) by lia.
    destruct (S i <? b - a) eqn:E1; destruct (i <? b - S a) eqn:E2; try reflexivity;
      [apply Nat.ltb_lt in E1; apply Nat.ltb_ge in E2 | apply Nat.ltb_ge in E1; apply Nat.ltb_lt in E2]; lia.
Qed.

Lemma seg_nil {T} a (xs : list T) : seg a a xs = [].
Proof. unfold seg. rewrite Nat.sub_diag. reflexivity. Qed.

Lemma seg_all {T} (xs : list T) : seg 0 (length xs) xs = xs.
Proof. unfold seg. cbn [skipn]. rewrite Nat.sub_0_r. apply firstn_all. Qed.

Lemma seg_firstn {T} a b k (xs : list T) : b <= k -> seg a b (firstn k xs) = seg a b xs.
Proof.
  intros Hk. apply nth_error_ext. intros i. rewrite !nth_error_seg.
  destruct (i <? b - a) eqn:E; [|reflexivity].
  rewrite nth_error_firstn. apply Nat.ltb_lt in E.
  replace (a + i <? k) with true; [reflexivity|]. symmetry. apply Nat.ltb_lt. lia.
Qed.

(* ------------------------------------------------------------------ *)
(* Stateful map: thread a state through a callback, collect the outputs *)

Section Run.
  Context {S X O : Type}.
  Variable g : S -> X -> S * O.

  Fixpoint run (s : S) (args : list X) : list O :=
    match args with
    | [] => []
    | a :: rest => let '(s', o) := g s a in o :: run s' rest
    end.

  Fixpoint state_after (s : S) (args : list X) : S :=
    match args with
    | [] => s
    | a :: rest => state_after (fst (g s a)) rest
    end.

  Lemma run_length s args : length (run s args) = length args.
  Proof. revert s; induction args as [|a r IH]; intros s; cbn; [reflexivity|].
         destruct (g s a). cbn. f_equal. apply IH. Qed.

  Lemma run_app s a1 a2 : run s (a1 ++ a2) = run s a1 ++ run (state_after s a1) a2.
  Proof. revert s; induction a1 as [|a r IH]; intros s; cbn; [reflexivity|].
         destruct (g s a) eqn:E. cbn. f_equal. apply IH. Qed.

  Lemma state_after_app s a1 a2 : state_after s (a1 ++ a2) = state_after (state_after s a1) a2.
  Proof. revert s; induction a1 as [|a r IH]; intros s; cbn; [reflexivity|]. apply IH. Qed.

  Lemma run_nth s args i a :
    nth_error args i = Some a ->
    nth_error (run s args) i = Some (snd (g (state_after s (firstn i args)) a)).
  Proof.
    revert s args; induction i as [|i IH]; intros s args Ha.
    - destruct args as [|b r]; [discriminate|]. cbn in Ha. injection Ha as ->.
      cbn. destruct (g s a). reflexivity.
    - destruct args as [|b r]; [discriminate|]. cbn in Ha. cbn [run firstn state_after].
      destruct (g s b) eqn:E. cbn [nth_error fst]. apply IH. exact Ha.
  Qed.

  Lemma run_firstn s args k : run s (firstn k args) = firstn k (run s args).
  Proof.
    revert s args; induction k as [|k IH]; intros s args; [reflexivity|].
    destruct args as [|a r]; [reflexivity|]. cbn. destruct (g s a). cbn. f_equal. apply IH.
  Qed.
End Run.

Lemma nth_error_repeat {T} (x : T) n i : nth_error (repeat x n) i = if i <? n then Some x else None.
Proof.
  revert i; induction n as [|n IH]; intros i; [destruct i; reflexivity|].
  destruct i as [|i]; [reflexivity|]. cbn [repeat nth_error]. rewrite IH. reflexivity.
Qed.

Lemma nth_error_combine {X Y} (l1 : list X) (l2 : list Y) i :
  nth_error (combine l1 l2) i =
  match nth_error l1 i, nth_error l2 i with Some a, Some b => Some (a, b) | _, _ => None end.
Proof.
  revert l2 i; induction l1 as [|a l1 IH]; intros l2 i.
  - destruct i; reflexivity.
  - destruct l2 as [|b l2]; [destruct i; cbn; [reflexivity|destruct (nth_error l1 i); reflexivity]|].
    destruct i as [|i]; [reflexivity|]. cbn. apply IH.
Qed.

Lemma nth_error_app {T} (l1 l2 : list T) i :
  nth_error (l1 ++ l2) i = if i <? length l1 then nth_error l1 i else nth_error l2 (i - length l1).
Proof.
  destruct (i <? length l1) eqn:E.
  - apply nth_error_app1. apply Nat.ltb_lt. exact E.
  - apply nth_error_app2. apply Nat.ltb_ge. exact E.
Qed.

Lemma nth_error_seq a n i : nth_error (seq a n) i = if i <? n then Some (a + i) else None.
Proof.
  revert a i; induction n as [|n IH]; intros a i; [destruct i; reflexivity|].
  destruct i as [|i]; cbn [seq nth_error].
  - cbn. f_equal. lia.
  - rewrite IH. change (S i <? S n) with (i <? n). destruct (i <? n); [f_equal; lia|reflexivity].
Qed.

(* map with index *)
Definition mapi {X Y} (h : nat -> X -> Y) (xs : list X) : list Y :=
  map (fun p => h (fst p) (snd p)) (combine (seq 0 (length xs)) xs).

Lemma mapi_length {X Y} (h : nat -> X -> Y) xs : length (mapi h xs) = length xs.
Proof. unfold mapi. rewrite map_length, combine_length, seq_length. lia. Qed.

Lemma nth_error_mapi {X Y} (h : nat -> X -> Y) xs i :
  nth_error (mapi h xs) i = option_map (h i) (nth_error xs i).
Proof.
  unfold mapi. rewrite nth_error_map, nth_error_combine, nth_error_seq.
  destruct (i <? length xs) eqn:E.
  - cbn. destruct (nth_error xs i); reflexivity.
  - apply Nat.ltb_ge in E. apply nth_error_None in E. rewrite E. reflexivity.
Qed.

Lemma mapi_ext {X Y} (h k : nat -> X -> Y) xs :
  (forall i v, nth_error xs i = Some v -> h i v = k i v) -> mapi h xs = mapi k xs.
Proof.
  intros H. apply nth_error_ext. intros i. rewrite !nth_error_mapi.
  destruct (nth_error xs i) eqn:E; [cbn; f_equal; apply H; exact E|reflexivity].
Qed.

Lemma map_mapi {X Y Z} (g : Y -> Z) (h : nat -> X -> Y) xs : map g (mapi h xs) = mapi (fun i v => g (h i v)) xs.
Proof. unfold mapi. rewrite map_map. reflexivity. Qed.

Lemma mapi_fst_seq {X} (xs : list X) : mapi (fun i _ => i) xs = seq 0 (length xs).
Proof.
  apply nth_error_ext. intros i. rewrite nth_error_mapi, nth_error_seq.
  destruct (i <? length xs) eqn:E.
  - apply Nat.ltb_lt in E. destruct (nth_error xs i) eqn:E2; [reflexivity|].
    apply nth_error_None in E2. lia.
  - apply Nat.ltb_ge in E. apply nth_error_None in E. rewrite E. reflexivity.
Qed.

Lemma mapi_firstn {X Y} (h : nat -> X -> Y) xs k : mapi h (firstn k xs) = firstn k (mapi h xs).
Proof.
  apply nth_error_ext. intros i. rewrite nth_error_mapi, !nth_error_firstn, nth_error_mapi.
  destruct (i <? k); reflexivity.
Qed.

Lemma mapi_snoc {X Y} (h : nat -> X -> Y) (xs : list X) x : mapi h (xs ++ [x]) = mapi h xs ++ [h (length xs) x].
Proof.
  apply nth_error_ext. intros i.
  rewrite nth_error_mapi, !nth_error_app, mapi_length, nth_error_mapi.
  destruct (i <? length xs) eqn:E; [reflexivity|]. apply Nat.ltb_ge in E.
  destruct (i - length xs) as [|j] eqn:Ej.
  - assert (i = length xs) by lia. subst i. reflexivity.
  - cbn. destruct j; reflexivity.
Qed.

Lemma mapi_cons {X Y} (h : nat -> X -> Y) a l : mapi h (a :: l) = h 0 a :: mapi (fun i => h (S i)) l.
Proof.
  apply nth_error_ext. intros i. rewrite nth_error_mapi. destruct i as [|i]; [reflexivity|].
  cbn [nth_error]. rewrite nth_error_mapi. reflexivity.
Qed.

Lemma flat_map_positions_app {X Y} (h : nat -> X -> Y) (xs ys : list X) n :
  n <= length xs ->
  flat_map (fun i => match nth_error (xs ++ ys) i with Some v => [h i v] | None => [] end) (seq 0 n)
  = flat_map (fun i => match nth_error xs i with Some v => [h i v] | None => [] end) (seq 0 n).
Proof.
  induction n as [|n IHn]; intros Hn; [reflexivity|].
  rewrite seq_S, !flat_map_app. f_equal; [apply IHn; lia|]. cbn.
  rewrite nth_error_app1 by lia. reflexivity.
Qed.

(* flat_map over positions of singleton-or-nothing = mapi *)
Lemma flat_map_positions {X Y} (h : nat -> X -> Y) (xs : list X) :
  flat_map (fun i => match nth_error xs i with Some v => [h i v] | None => [] end)
           (seq 0 (length xs)) = mapi h xs.
Proof.
  induction xs as [|x xs IH] using rev_ind; [reflexivity|].
  rewrite app_length. cbn [length]. rewrite Nat.add_1_r, seq_S, flat_map_app. cbn [flat_map plus].
  rewrite nth_error_app2, Nat.sub_diag by lia. cbn [nth_error]. rewrite app_nil_r.
  rewrite flat_map_positions_app by lia. rewrite IH, mapi_snoc. reflexivity.
Qed.

(* ------------------------------------------------------------------ *)
(* Further facts on lists and windows, all arguments but the types explicit *)

Unset Implicit Arguments.

Lemma ltb_true a b : a < b -> (a <? b) = true.
Proof. apply Nat.ltb_lt. Qed.
Lemma ltb_false a b : b <= a -> (a <? b) = false.
Proof. apply Nat.ltb_ge. Qed.

Lemma usub_ok a b : b <= a -> usub a b = Ok (a - b).
Proof. intros H. unfold usub. rewrite (proj2 (Nat.leb_le b a) H). reflexivity. Qed.

Lemma In_seg {X} (a b : nat) (l : list X) x : In x (seg a b l) -> In x l.
Proof.
  intros H. apply In_nth_error in H. destruct H as [n Hn]. rewrite nth_error_seg in Hn.
  destruct (n <? b - a); [|discriminate]. apply nth_error_In with (a + n). exact Hn.
Qed.

Lemma firstn_S_nth {T} (l : list T) k a : nth_error l k = Some a -> firstn (S k) l = firstn k l ++ [a].
Proof.
  intros H. pose proof (@seg_snoc _ 0 k l a (Nat.le_0_l k) H) as E. unfold seg in E. cbn [skipn] in E.
  rewrite !Nat.sub_0_r in E. exact E.
Qed.

Lemma nth_error_rev {T} (l : list T) i :
  nth_error (rev l) i = if i <? length l then nth_error l (length l - 1 - i) else None.
Proof.
  induction l as [|a l IH]; [destruct i; reflexivity|]. cbn [rev length].
  rewrite nth_error_app, rev_length, IH.
  destruct (Nat.ltb_spec i (length l)) as [Hi|Hi].
  - rewrite ltb_true by lia. replace (S (length l) - 1 - i) with (S (length l - 1 - i)) by lia. reflexivity.
  - destruct (Nat.eq_dec i (length l)) as [->|Hne].
    + rewrite ltb_true, Nat.sub_diag by lia. replace (S (length l) - 1 - length l) with 0 by lia. reflexivity.
    + rewrite ltb_false by lia. destruct (i - length l) as [|[|j]] eqn:E; [lia|reflexivity|reflexivity].
Qed.

Lemma repeat_snoc {T} (x : T) n : repeat x n ++ [x] = repeat x (S n).
Proof. induction n as [|n IH]; [reflexivity|]. cbn [repeat app]. rewrite IH. reflexivity. Qed.

Lemma filter_length_le {T} (p : T -> bool) (l : list T) : length (filter p l) <= length l.
Proof. induction l as [|a l IH]; [apply le_n|]. cbn [filter]. destruct (p a); cbn [length]; lia. Qed.

Lemma win_firstn {T} w i k (xs : list T) : i < k -> win w i (firstn k xs) = win w i xs.
Proof. intros Hi. rewrite !win_seg. apply seg_firstn. lia. Qed.

Lemma win_map {X Y} (f : X -> Y) w i (l : list X) : win w i (map f l) = map f (win w i l).
Proof. unfold win. rewrite skipn_map, firstn_map. reflexivity. Qed.

Lemma win_length {X} w i (xs : list X) : i < length xs -> length (win w i xs) = S i - wstart w i.
Proof. intros Hi. rewrite win_seg. apply seg_length. lia. Qed.

Lemma win_length_min {T} w i (xs : list T) :
  1 <= w -> i < length xs -> length (win w i xs) = Nat.min (S i) w.
Proof. intros Hw Hi. rewrite win_length by exact Hi. unfold wstart. lia. Qed.

Lemma nth_win {X} w i j (xs : list X) dflt :
  i < length xs -> wstart w i + j <= i ->
  nth j (win w i xs) dflt = nth (wstart w i + j) xs dflt.
Proof.
  intros Hi Hj. apply nth_error_nth. rewrite win_seg, nth_error_seg, ltb_true by lia.
  apply nth_error_nth'. lia.
Qed.

(* a window at least as long as the prefix (in particular w >= len) is the whole prefix 0..=i: nothing ever leaves *)
Lemma win_covers_prefix {X} w i (xs : list X) : S i <= w -> win w i xs = firstn (S i) xs.
Proof.
  intros H. unfold win, wstart. replace (S i - w) with 0 by lia. rewrite Nat.sub_0_r. reflexivity.
Qed.

Lemma win_length_le {T} w i (xs : list T) : 1 <= w -> length (win w i xs) <= w.
Proof. intros Hw. unfold win, wstart. rewrite firstn_length. lia. Qed.

(* `match e with Some m => option_map S (pos m) | None => None end`: the 1-based offset of the position found for e *)
Lemma offset_meaning {M} (e : option M) (pos : M -> option nat) (o : nat) :
  match e with Some m => option_map S (pos m) | None => None end = Some o ->
  exists m, e = Some m /\ 1 <= o /\ pos m = Some (o - 1).
Proof.
  intros H. destruct e as [m|]; [|discriminate]. exists m. split; [reflexivity|].
  destruct (pos m) as [j|]; [|discriminate]. injection H as <-.
  split; [apply le_n_S, Nat.le_0_l|]. cbn. rewrite Nat.sub_0_r. reflexivity.
Qed.

Lemma map_fst_combine {A B} (l : list A) (m : list B) : length l <= length m -> map fst (combine l m) = l.
Proof.
  revert m. induction l as [|x l IH]; intros [|b m] H; try reflexivity; [cbn in H; lia|].
  cbn. f_equal. apply IH. cbn in H. lia.
Qed.
Lemma map_snd_combine {A B} (l : list A) (m : list B) : length m <= length l -> map snd (combine l m) = m.
Proof.
  revert m. induction l as [|x l IH]; intros [|b m] H; try reflexivity; [cbn in H; lia|].
  cbn. f_equal. apply IH. cbn in H. lia.
Qed.
