(* Spec/Calendar.v — executable proleptic-Gregorian calendar (the specification the time properties
   C16/C17 talk about; chrono is compared with it by the correspondence run).
   Days are counted from 1970-01-01 (day 0).  Algorithms: H. Hinnant, "chrono-compatible low-level
   date algorithms" (days_from_civil / civil_from_days), restructured into an era part (400-year
   cycles of 146097 days) and an era-local part, which divides by constants only, so that the
   round-trip proofs are linear integer arithmetic inside one era (Proofs/Calendar.v).  Definitions only. *)
From Coq Require Import ZArith Bool.
Local Open Scope Z_scope.

Definition civil := (Z * Z * Z)%type.          (* (year, month 1..12, day 1..31) *)

Definition is_leap (y : Z) : bool :=
  ((y mod 4 =? 0) && negb (y mod 100 =? 0)) || (y mod 400 =? 0).

Definition days_in_month (y m : Z) : Z :=
  if m =? 2 then (if is_leap y then 29 else 28)
  else if (m =? 4) || (m =? 6) || (m =? 9) || (m =? 11) then 30 else 31.

Definition valid_civilb (c : civil) : bool :=
  let '(y, m, d) := c in (1 <=? m) && (m <=? 12) && (1 <=? d) && (d <=? days_in_month y m).
Definition valid_civil (c : civil) : Prop := valid_civilb c = true.

(* ---- era-local parts: a 400-year era starts on 1 March of a year divisible by 400 ------------- *)

(* day-of-era (0..146096) of (year-of-era 0..399 counted from March, month, day) *)
Definition doe_of_parts (yoe m d : Z) : Z :=
  let mp := if 2 <? m then m - 3 else m + 9 in
  let doy := (153 * mp + 2) / 5 + d - 1 in
  yoe * 365 + yoe / 4 - yoe / 100 + doy.

(* inverse: day-of-era -> (year-of-era, month, day) *)
Definition parts_of_doe (doe : Z) : Z * Z * Z :=
  let yoe := (doe - doe / 1460 + doe / 36524 - doe / 146096) / 365 in
  let doy := doe - (365 * yoe + yoe / 4 - yoe / 100) in
  let mp := (5 * doy + 2) / 153 in
  let d := doy - (153 * mp + 2) / 5 + 1 in
  let m := if mp <? 10 then mp + 3 else mp - 9 in
  (yoe, m, d).

(* ---- the two conversions ------------------------------------------------------------------------ *)

Definition days_of_civil (c : civil) : Z :=
  let '(y0, m, d) := c in
  let y := if m <=? 2 then y0 - 1 else y0 in
  let era := y / 400 in
  let yoe := y - era * 400 in
  era * 146097 + doe_of_parts yoe m d - 719468.

Definition civil_of_days (z0 : Z) : civil :=
  let z := z0 + 719468 in
  let era := z / 146097 in
  let doe := z - era * 146097 in
  let '(yoe, m, d) := parts_of_doe doe in
  let y := yoe + era * 400 in
  (if m <=? 2 then y + 1 else y, m, d).

(* ---- month arithmetic with end-of-month clamping ------------------------------------------------ *)

Definition add_months (c : civil) (k : Z) : civil :=
  let '(y, m, d) := c in
  let t := y * 12 + (m - 1) + k in
  let y' := t / 12 in
  let m' := t mod 12 + 1 in
  (y', m', Z.min d (days_in_month y' m')).

(* ---- the laws the time model is proved against (a Section hypothesis in Proofs/TimeCal.v; proved for
        the executable functions above in Proofs/Calendar.v: calendar_lawful) ----------------------- *)

Record CalendarLaws (cod : Z -> civil) (doc : civil -> Z) : Prop := {
  cl_days_civil_days : forall z, doc (cod z) = z;
  cl_civil_days_civil : forall c, valid_civil c -> cod (doc c) = c;
  cl_valid : forall z, valid_civil (cod z);
}.
