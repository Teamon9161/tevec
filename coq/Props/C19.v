(* Props/C19.v — property C19: generators and collectors build exactly the requested sequence.
   Model: Model/Create.v (linspace.rs, create.rs after the `fix:` commit named there), Model/Collect.v (own.rs, trusted.rs,
   uninit.rs).  `z_ops true` = i32/i64, `z_ops false` = u64/usize, `q_ops` = the float code read in
   exact rational arithmetic (the binary64 instance lives in Run/RunC19.v and is what the
   correspondence run executes; it is the same polymorphic definition). *)
From Coq Require Import QArith.
From Tevec Require Import Base.Prelude Model.Driver Model.Create Model.Collect
     Proofs.Create Proofs.CreateQ Proofs.Collect.
Local Open Scope Z_scope.

(* ============================================================================ range ======= *)
(* (1) signed integers, every start/end/step (defaults 0 and 1), step <> 0, every backend:
       the result is the progression a, a+st, ..., and k is in it  <->  a + st*k lies strictly
       before the end in the direction of the step.  The count (one computation in the code) and
       the elements (another) are tied together by the <->: none missing, none beyond. *)
Theorem C19_range_int :
  forall (trusted : bool) (start : option Z) (e : Z) (step : option Z),
    let a := dflt 0 start in
    let st := dflt 1 step in
    st <> 0 ->
    exists n : nat,
      create_range (z_ops true) trusted start e step = Done (progression a st n) /\
      forall k : nat, (k < n)%nat <-> before st (a + st * Z.of_nat k) e.
Proof. exact create_range_Z_signed. Qed.

(* the same as a statement about membership *)
Theorem C19_range_int_members :
  forall (trusted : bool) (start : option Z) (e : Z) (step : option Z),
    let a := dflt 0 start in
    let st := dflt 1 step in
    st <> 0 ->
    exists out, create_range (z_ops true) trusted start e step = Done out /\
      forall x, In x out <-> exists k : nat, x = a + st * Z.of_nat k /\ before st x e.
Proof.
  intros trusted start e step.
  cbv zeta. intros Hst.
  destruct (@create_range_Z_signed trusted start e step Hst) as (n & Hr & Hk).
  eexists. split; [exact Hr|]. intros x. rewrite progression_In. split.
  - intros (k & Hlt & ->). exists k. split; [reflexivity|]. apply Hk. exact Hlt.
  - intros (k & -> & Hb). exists k. split; [apply Hk; exact Hb|reflexivity].
Qed.

(* empty span (the start itself is not before the end) -> [] — no panic, no element *)
Theorem C19_range_int_empty_span :
  forall (trusted : bool) (start : option Z) (e : Z) (step : option Z),
    let a := dflt 0 start in
    let st := dflt 1 step in
    st <> 0 -> ~ before st a e ->
    create_range (z_ops true) trusted start e step = Done [].
Proof.
  intros trusted start e step.
  cbv zeta. intros Hst Hnb.
  destruct (@create_range_Z_signed trusted start e step Hst) as (n & Hr & Hk).
  destruct n as [|n]; [exact Hr|]. exfalso. apply Hnb.
  specialize (Hk 0%nat). rewrite Z.mul_0_r, Z.add_0_r in Hk. apply Hk. lia.
Qed.

(* (2) unsigned integers: arguments >= 0, step > 0; in particular no unsigned subtraction underflows *)
Theorem C19_range_unsigned :
  forall (trusted : bool) (start : option Z) (e : Z) (step : option Z),
    let a := dflt 0 start in
    let st := dflt 1 step in
    0 <= a -> 0 <= e -> 0 < st ->
    exists n : nat,
      create_range (z_ops false) trusted start e step = Done (progression a st n) /\
      forall k : nat, (k < n)%nat <-> a + st * Z.of_nat k < e.
Proof.
  intros trusted start e step.
  cbv zeta. intros Ha He Hst.
  destruct (@range_new_Z_unsigned (dflt 0 start) e (dflt 1 step) Ha He Hst) as (n & Hr & Hk).
  exists n. split; [|exact Hk]. exact (create_range_of (z_ops false) trusted start e step Hr).
Qed.

(* (3) the float code in exact arithmetic (Q): same statement *)
Theorem C19_range_exact_rational :
  forall (trusted : bool) (start : option Q) (e : Q) (step : option Q),
    let a := dfltQ 0%Q start in
    let st := dfltQ 1%Q step in
    ~ (st == 0)%Q ->
    exists n : nat,
      create_range q_ops trusted start e step = Done (map (elemQ a st) (seq 0 n)) /\
      forall k : nat, (k < n)%nat <-> beforeQ st (elemQ a st k) e.
Proof. exact create_range_Q. Qed.

(* ========================================================================= linspace ======= *)
(* (4) integers: n elements a + k*step with the truncated step the code computes; first = a;
       constant step; last = end when n-1 divides the span *)
Theorem C19_linspace_int :
  forall (trusted : bool) (start : option Z) (e : Z) (n : nat),
    create_linspace (z_ops true) trusted start e n
    = Done (progression (dflt 0 start) (lin_step (dflt 0 start) e n) n).
Proof.
  intros trusted start e n.
  exact (create_linspace_of (z_ops true) trusted start e n (linspace_new_Z_signed (dflt 0 start) e n)).
Qed.

Theorem C19_linspace_unsigned :
  forall (trusted : bool) (start : option Z) (e : Z) (n : nat),
    dflt 0 start <= e ->
    create_linspace (z_ops false) trusted start e n
    = Done (progression (dflt 0 start) (lin_step (dflt 0 start) e n) n).
Proof.
  intros trusted start e n Hle. apply (create_linspace_of (z_ops false)).
  rewrite linspace_new_Z_unsigned by exact Hle. apply linspace_new_Z_signed.
Qed.

Theorem C19_linspace_int_shape :
  forall (a b : Z) (n : nat),
    let out := progression a (lin_step a b n) n in
    length out = n /\
    ((1 <= n)%nat -> nth_error out 0 = Some a) /\
    (forall k x y, nth_error out k = Some x -> nth_error out (S k) = Some y -> y - x = lin_step a b n) /\
    ((2 <= n)%nat -> (Z.of_nat (n - 1) | b - a) -> nth_error out (n - 1) = Some b).
Proof.
  intros a b n.
  cbv zeta. split; [apply progression_length|]. split; [|split].
  - intros Hn. rewrite progression_nth by lia. f_equal. cbn. ring.
  - intros k x y Hx Hy.
    assert (Hk : (S k < n)%nat).
    { rewrite <- (progression_length a (lin_step a b n) n). apply nth_error_Some. congruence. }
    rewrite progression_nth in Hx, Hy by lia. injection Hx as <-. injection Hy as <-. lia.
  - intros Hn [c Hc]. rewrite progression_nth by lia. f_equal. unfold lin_step.
    replace (1 <? n)%nat with true by (symmetry; apply Nat.ltb_lt; lia).
    rewrite Hc, Z.quot_mul by lia. lia.
Qed.

(* (5) floats in exact arithmetic: n elements, first == a, constant step, last == end for n >= 2 *)
Theorem C19_linspace_exact_rational :
  forall (trusted : bool) (start : option Q) (e : Q) (n : nat),
    create_linspace q_ops trusted start e n
    = Done (map (elemQ (dfltQ 0%Q start) (lin_stepQ (dfltQ 0%Q start) e n)) (seq 0 n)).
Proof. exact create_linspace_Q. Qed.

Theorem C19_linspace_exact_rational_shape :
  forall (a b : Q) (n : nat),
    (elemQ a (lin_stepQ a b n) 0 == a)%Q /\
    (forall k, elemQ a (lin_stepQ a b n) (S k) - elemQ a (lin_stepQ a b n) k == lin_stepQ a b n)%Q /\
    ((2 <= n)%nat -> (elemQ a (lin_stepQ a b n) (n - 1) == b)%Q).
Proof. exact linspace_Q_shape. Qed.

(* (6) the Linspace iterator is a double-ended queue over its remaining elements, for every
       Number dictionary: any interleaving of next / next_back pops the front / the back of
       `ls_to_list`, and size_hint is exactly the number of elements left (never underflows) *)
Theorem C19_linspace_iterator_double_ended :
  forall (A : Type) (N : num_ops A) (sc : list bool) (s : linspace A),
    (ls_index s <= ls_len s)%nat ->
    ls_script N sc s = map (fun p => (fst p, Ok (snd p))) (deque_script sc (ls_to_list N s)).
Proof. exact (@ls_script_spec). Qed.

(* `for v in iter` over a Linspace ends, exhausted, having yielded exactly its elements *)
Theorem C19_linspace_iterator_drain :
  forall (A : Type) (N : num_ops A) (fuel : nat) (s : linspace A),
    (ls_len s - ls_index s <= fuel)%nat ->
    fst (ls_drain N fuel s) = ls_to_list N s /\ fst (ls_next N (snd (ls_drain N fuel s))) = None.
Proof. exact (@ls_drain_spec). Qed.

(* ======================================================================= collectors ======= *)
(* (7) full n v = repeat v n, on every backend *)
Theorem C19_full :
  forall (A : Type) (b : backend) (n : nat) (v : A), full b n v = Done (repeat v n).
Proof. intros A b n v. apply collect_from_trusted_exact. Qed.

(* (8) trusted / explicit-length collection is the identity on the item sequence when the announced
       length is the real one; the raw collector writes slots 0..len-1 once each, in order *)
Theorem C19_collect_trusted_identity :
  forall (A : Type) (b : backend) (items : list A),
    collect_from_trusted b (exact_iter items) = Done items.
Proof. exact (@collect_from_trusted_exact). Qed.

Theorem C19_collect_with_len_identity :
  forall (A : Type) (b : backend) (items : list A),
    collect_with_len b items (length items) = Done items.
Proof. intros A b items. apply (collect_from_trusted_exact b items). Qed.

(* whatever is announced: a collection that completes has neither reordered, dropped nor
   invented an item (a wrong announcement can only surface as an exposed uninitialised tail or a
   write past the allocation, never as a wrong `Done`) *)
Theorem C19_collect_never_alters :
  forall (A : Type) (b : backend) (it : titer A) (out : list A),
    collect_from_trusted b it = Done out -> out = ti_items it.
Proof.
  intros A b it out.
  destruct b; cbn [collect_from_trusted].
  - intros H. apply collect_trusted_done in H. tauto.
  - unfold collect_from_iter, collect_plain. intros [= <-]. reflexivity.
Qed.

Theorem C19_collect_short_announcement_exposed :
  forall (A : Type) (hint : nat) (items : list A),
    (length items < hint)%nat ->
    collect_trusted hint items = Uninit (map Some items ++ repeat None (hint - length items)).
Proof. exact (@collect_trusted_long_hint). Qed.

(* (9) optional -> null-encoded: position by position None becomes the null value, Some v stays v,
       and (canonical nulls, DESIGN 5.4) the output is null exactly where the input was None *)
Theorem C19_collect_opt_null_encoded :
  forall (A : Type) (none : A) (is_none : A -> bool) (items : list (option A)),
    is_none none = true ->
    (forall v, In (Some v) items -> is_none v = false) ->
    exists out, collect_from_opt_iter none items = Done out /\ length out = length items /\
      forall i o, nth_error items i = Some o ->
        exists x, nth_error out i = Some x /\
          (o = None -> x = none) /\ (forall v, o = Some v -> x = v) /\
          (is_none x = true <-> o = None).
Proof.
  intros A none is_none items Hn Hcanon. eexists. split; [reflexivity|]. split; [apply map_length|].
  intros i o Hi. exists (unwrap_or none o). split.
  - rewrite nth_error_map, Hi. reflexivity.
  - split; [intros ->; reflexivity|]. split; [intros v ->; reflexivity|].
    destruct o as [v|]; cbn [unwrap_or].
    + rewrite (Hcanon v) by (eapply nth_error_In; exact Hi). split; discriminate.
    + rewrite Hn. split; reflexivity.
Qed.

(* (10) fallible collection: Ok of all the items when none fails, else the FIRST error; every item
        sequence falls in one of the two cases.  Plain, trusted, raw and default bodies alike. *)
Theorem C19_try_collect_all_ok :
  forall (A E : Type) (hint : nat) (xs : list A),
    try_collect_from_iter (TI hint (map (@inl A E) xs)) = TOk (Done xs).
Proof. exact (@try_collect_ok). Qed.

Theorem C19_try_collect_first_error :
  forall (A E : Type) (hint : nat) (xs : list A) (e : E) (rest : list (A + E)),
    try_collect_from_iter (TI hint (map (@inl A E) xs ++ inr e :: rest)) = TErr e.
Proof. exact (@try_collect_err). Qed.

Theorem C19_try_collect_trusted_all_ok :
  forall (A E : Type) (b : backend) (xs : list A),
    try_collect_from_trusted b (exact_iter (map (@inl A E) xs)) = TOk (Done xs).
Proof. exact (@try_collect_trusted_ok). Qed.

Theorem C19_try_collect_trusted_first_error :
  forall (A E : Type) (b : backend) (xs : list A) (e : E) (rest : list (A + E)),
    try_collect_from_trusted b (exact_iter (map (@inl A E) xs ++ inr e :: rest)) = TErr e.
Proof. exact (@try_collect_trusted_err). Qed.

Theorem C19_try_collect_cases_exhaustive :
  forall (A E : Type) (items : list (A + E)),
    (exists xs, items = map (@inl A E) xs)
    \/ (exists xs e rest, items = map (@inl A E) xs ++ inr e :: rest).
Proof. exact (@items_shape). Qed.

(* ================================================================== write_trust_iter ======= *)
(* (11) under the TrustedLen contract (announced = actual length), for every previous buffer
        content `old`:
        - equal length: Ok, slots 0..len-1 written once each in order, buffer = the items;
        - singleton: Ok, every slot written once, buffer = len copies;
        - len = 0: Ok and nothing written, whatever the iterator;
        - otherwise: Err and not one slot written (the buffer is exactly what it was). *)
Theorem C19_write_trust_iter :
  forall (A : Type) (old : list (option A)) (items : list A),
    let len := length old in
    let r := write_trust_iter len (exact_iter items) in
    (len = length items ->
       fst r = WOk /\ map fst (snd r) = seq 0 len /\ apply_writes (snd r) old = map Some items) /\
    (forall v, items = [v] -> len <> 0%nat ->
       fst r = WOk /\ map fst (snd r) = seq 0 len /\ apply_writes (snd r) old = repeat (Some v) len) /\
    (len = 0%nat -> r = (WOk, [])) /\
    (len <> 0%nat -> len <> length items -> length items <> 1%nat ->
       r = (WErr, []) /\ apply_writes (snd r) old = old).
Proof. exact (@write_trust_iter_spec). Qed.

(* the outcome is decided by the three lengths alone, and is never a panic *)
Theorem C19_write_trust_iter_status :
  forall (A : Type) (len : nat) (items : list A),
    fst (write_trust_iter len (exact_iter items))
    = if ((len =? 0) || ((len =? length items) || (length items =? 1)))%nat%bool then WOk else WErr.
Proof. exact (@write_trust_iter_status). Qed.

(* even when the announced length is wrong: the slots written are a prefix 0..k-1, each once, never
   out of bounds; Err means nothing was written; Ok means everything was *)
Theorem C19_write_trust_iter_no_partial_state :
  forall (A : Type) (len : nat) (it : titer A),
    exists k, (k <= len)%nat /\ map fst (snd (write_trust_iter len it)) = seq 0 k
    /\ (fst (write_trust_iter len it) = WErr -> k = 0%nat)
    /\ (fst (write_trust_iter len it) = WOk -> k = len).
Proof. exact (@write_trust_iter_slots). Qed.

(* ============================================================ Vec1Mut / sort_unstable_by ======= *)
(* (12) apply_mut_with: equal lengths -> f is applied once per position, in order, to (self[i],
        other[i]); different lengths -> Err, no call made, self unchanged *)
Theorem C19_apply_mut_with :
  forall (T OT : Type) (f : T -> OT -> T) (xs : list T) (ys : list OT),
    (length xs = length ys ->
       exists out, apply_mut_with f xs ys = (true, out, combine xs ys) /\ length out = length xs /\
         forall i x y, nth_error xs i = Some x -> nth_error ys i = Some y -> nth_error out i = Some (f x y))
    /\ (length xs <> length ys -> apply_mut_with f xs ys = (false, xs, [])).
Proof.
  intros T OT f xs ys. unfold apply_mut_with. split; intros H.
  - rewrite H, Nat.eqb_refl. eexists. split; [reflexivity|]. split.
    + rewrite map_length, combine_length. lia.
    + intros i x y Hx Hy. rewrite nth_error_map, nth_error_combine, Hx, Hy. reflexivity.
  - rewrite (proj2 (Nat.eqb_neq _ _) H). reflexivity.
Qed.

Theorem C19_get_mut :
  forall (T : Type) (xs : list T) (i : nat),
    ((i < length xs)%nat -> exists x, get_mut xs i = Some x /\ nth_error xs i = Some x)
    /\ ((length xs <= i)%nat -> get_mut xs i = None).
Proof.
  intros T xs i. unfold get_mut. split; intros H.
  - rewrite (proj2 (Nat.ltb_lt _ _) H).
    destruct (nth_error xs i) as [x|] eqn:E; [exists x; auto|]. apply nth_error_None in E. lia.
  - rewrite (proj2 (Nat.ltb_ge _ _) H). reflexivity.
Qed.

(* (13) sort_unstable_by with a total comparison: Ok, and the vector afterwards is a sorted
        permutation of what it was (also on the copy-out / write-back path) *)
Theorem C19_sort_unstable_by :
  forall (T : Type) (leb : T -> T -> bool),
    (forall x y, leb x y = false -> leb y x = true) ->
    forall xs : list T,
      sort_unstable_by leb xs = (true, isort leb xs)
      /\ Sorted.Sorted (fun x y => leb x y = true) (isort leb xs)
      /\ Permutation.Permutation (isort leb xs) xs.
Proof. exact (@sort_unstable_by_spec). Qed.

Example C19_mut_examples :
  apply_mut_with (fun v o => 10 * v + o) [1; 2; 3] [7; 8; 9] = (true, [17; 28; 39], [(1, 7); (2, 8); (3, 9)])
  /\ apply_mut_with (fun v o => 10 * v + o) [1; 2; 3] [7; 8] = (false, [1; 2; 3], [])
  /\ sort_unstable_by Z.leb [3; 1; 2; 1] = (true, [1; 1; 2; 3])
  /\ (forall x y, Z.leb x y = false -> Z.leb y x = true).
Proof. split; [|split; [|split]]; try (vm_compute; reflexivity). intros x y H. apply Z.leb_le. apply Z.leb_gt in H. lia. Qed.

(* ======================================================================= non-vacuity ======= *)
(* non-divisible spans in both directions, an empty span, defaults *)
Example C19_range_examples :
  create_range (z_ops true) true (Some 0) 5 (Some 2) = Done [0; 2; 4]
  /\ create_range (z_ops true) true (Some 5) 0 (Some (-2)) = Done [5; 3; 1]
  /\ create_range (z_ops true) false (Some 3) 0 (Some 1) = Done []
  /\ create_range (z_ops true) true None 3 None = Done [0; 1; 2]
  /\ create_range (z_ops false) true (Some 5) 2 None = Done []
  /\ create_range (z_ops false) true (Some 1) 6 (Some 2) = Done [1; 3; 5].
Proof. vm_compute. repeat split. Qed.

Example C19_range_premises_satisfiable :
  dflt 1 (Some 2) <> 0 /\ before 2 (0 + 2 * Z.of_nat 2) 5 /\ ~ before 2 (0 + 2 * Z.of_nat 3) 5
  /\ ~ before 1 3 0.
Proof. vm_compute. repeat split; intros H; discriminate. Qed.

Example C19_range_rational_example :
  exists out, create_range q_ops true (Some (1#1)%Q) (2#1)%Q (Some (3#10)%Q) = Done out
              /\ length out = 4%nat.
Proof. eexists. split; [vm_compute; reflexivity|reflexivity]. Qed.

Example C19_linspace_examples :
  create_linspace (z_ops true) true (Some 1) 4 3 = Done [1; 2; 3]
  /\ create_linspace (z_ops true) true (Some 1) 7 3 = Done [1; 4; 7]
  /\ create_linspace (z_ops true) true None 0 2 = Done [0; 0]
  /\ create_linspace (z_ops true) true (Some 9) 1 1 = Done [9]
  /\ create_linspace (z_ops true) true (Some 9) 1 0 = Done []
  /\ (Z.of_nat (3 - 1) | 7 - 1).
Proof. vm_compute. repeat split. exists 3. reflexivity. Qed.

Example C19_linspace_iterator_example :
  ls_script (z_ops true) [true; false; false; true; true] (LS 10 3 0 4)
  = [(Some 10, Ok 3%nat); (Some 19, Ok 2%nat); (Some 16, Ok 1%nat); (Some 13, Ok 0%nat); (None, Ok 0%nat)].
Proof. vm_compute. reflexivity. Qed.

Example C19_collect_examples :
  collect_with_len BRaw [7; 8; 9] 3 = Done [7; 8; 9]
  /\ collect_with_len BRaw [7; 8] 3 = Uninit [Some 7; Some 8; None]
  /\ collect_from_opt_iter (-1) [Some 4; None; Some 6] = Done [4; -1; 6]
  /\ try_collect_from_trusted BRaw (exact_iter [inl 1; inr 50; inl 2; inr 60]) = @TErr Z Z 50
  /\ try_collect_from_trusted BRaw (exact_iter [inl 1; inl 2]) = @TOk Z Z (Done [1; 2]).
Proof. vm_compute. repeat split. Qed.

Example C19_write_examples :
  write_trust_iter 3 (exact_iter [7; 8; 9]) = (WOk, [(0%nat, 7); (1%nat, 8); (2%nat, 9)])
  /\ write_trust_iter 3 (exact_iter [7]) = (WOk, [(0%nat, 7); (1%nat, 7); (2%nat, 7)])
  /\ write_trust_iter 3 (exact_iter [7; 8]) = (WErr, [])
  /\ write_trust_iter 0 (exact_iter [7; 8]) = (WOk, [])
  /\ write_trust_iter 3 (to_trust [7; 8] 3) = (WPanic UnwrapNone, [(0%nat, 7); (1%nat, 8)]).
Proof. vm_compute. repeat split. Qed.

(* `range` of create.rs before that `fix:` commit (in the model: range_old) does not satisfy (1): witnesses *)
Example C19_range_refuted_before_fix :
  create_range_old (z_ops true) (Some 0) 5 (Some 2) = Done [0; 2]
  /\ create_range_old (z_ops true) (Some 5) 0 (Some (-2)) = Done [5; 3]
  /\ create_range_old (z_ops true) (Some 3) 0 (Some 1) = Panicked Overflow.
Proof. exact range_old_loses_last. Qed.

Print Assumptions C19_range_int.
Print Assumptions C19_range_int_members.
Print Assumptions C19_range_int_empty_span.
Print Assumptions C19_range_unsigned.
Print Assumptions C19_range_exact_rational.
Print Assumptions C19_linspace_int.
Print Assumptions C19_linspace_unsigned.
Print Assumptions C19_linspace_int_shape.
Print Assumptions C19_linspace_exact_rational.
Print Assumptions C19_linspace_exact_rational_shape.
Print Assumptions C19_linspace_iterator_double_ended.
Print Assumptions C19_linspace_iterator_drain.
Print Assumptions C19_full.
Print Assumptions C19_collect_trusted_identity.
Print Assumptions C19_collect_with_len_identity.
Print Assumptions C19_collect_never_alters.
Print Assumptions C19_collect_short_announcement_exposed.
Print Assumptions C19_collect_opt_null_encoded.
Print Assumptions C19_try_collect_all_ok.
Print Assumptions C19_try_collect_first_error.
Print Assumptions C19_try_collect_trusted_all_ok.
Print Assumptions C19_try_collect_trusted_first_error.
Print Assumptions C19_try_collect_cases_exhaustive.
Print Assumptions C19_write_trust_iter.
Print Assumptions C19_write_trust_iter_status.
Print Assumptions C19_write_trust_iter_no_partial_state.
Print Assumptions C19_apply_mut_with.
Print Assumptions C19_get_mut.
Print Assumptions C19_sort_unstable_by.

(* ==== (Proofs/Audit19.v) announcements that are WRONG in either direction, `empty`,
   every Number dictionary (binary64 included).  notes/C19.md has the clause-by-clause matrix. ======== *)
From Coq Require Import Floats.
From Tevec Require Import Proofs.Audit19.
From Tevec Require Run.RunC19.

(* (14) plain collection ignores the size hint altogether: item-dropping sources (filter, take_while:
        upper bound too large), under-reporting sources — the items, in order, for every hint *)
Theorem C19_collect_plain_any_hint :
  forall (A : Type) (hint : nat) (items : list A), collect_from_iter (TI hint items) = Done items.
Proof. reflexivity. Qed.

Theorem C19_empty : forall A : Type, @empty A = Done [].
Proof. reflexivity. Qed.

(* optional -> null-encoded as one equation (length 0 included; the source's hint is never read) *)
Theorem C19_collect_opt_closed_form :
  forall (A : Type) (none : A) (items : list (option A)),
    collect_from_opt_iter none items = Done (map (fun o => match o with Some v => v | None => none end) items).
Proof. reflexivity. Qed.

(* (15) trusted collection against ANY announcement: the default body ignores it; the raw body is the
        identity iff the announcement is exact, exposes hint - n unwritten slots when it is too long and
        writes past the allocation (model: Panicked OtherPanic; undefined behaviour) when too short *)
Theorem C19_collect_trusted_any_announcement :
  forall (A : Type) (hint : nat) (items : list A),
    collect_from_trusted BDefault (TI hint items) = Done items /\
    (hint = length items -> collect_from_trusted BRaw (TI hint items) = Done items) /\
    ((length items < hint)%nat ->
       collect_from_trusted BRaw (TI hint items)
       = Uninit (map Some items ++ repeat None (hint - length items))) /\
    ((hint < length items)%nat -> collect_from_trusted BRaw (TI hint items) = Panicked OtherPanic).
Proof. intros A hint items. split; [reflexivity|apply collect_trusted_trichotomy]. Qed.

Theorem C19_collect_trusted_done_iff :
  forall (A : Type) (b : backend) (hint : nat) (items : list A),
    collect_from_trusted b (TI hint items) = Done items <-> (b = BDefault \/ hint = length items).
Proof.
  intros A b hint items.
  split.
  - destruct b; [|left; reflexivity]. intros H. right.
    cbn [collect_from_trusted ti_hint ti_items] in H. apply collect_trusted_done in H. tauto.
  - intros [->| ->]; [reflexivity|]. destruct b; [|reflexivity].
    apply collect_trusted_exact.
Qed.

Theorem C19_collect_with_len_any_announcement :
  forall (A : Type) (b : backend) (items : list A) (len : nat),
    collect_with_len b items len
    = match b with
      | BDefault => Done items
      | BRaw => if (len <? length items)%nat then Panicked OtherPanic
                else if (length items <? len)%nat
                     then Uninit (map Some items ++ repeat None (len - length items))
                     else Done items
      end.
Proof.
  intros A b items len.
  unfold collect_with_len, to_trust. destruct b; [apply collect_trusted_spec | reflexivity].
Qed.

(* (16) fallible trusted collection against ANY announcement, raw body: with no error among the items
        the three cases of (15); with a first error e after the Ok items xs: Err e for every announcement
        that is not shorter than xs (too long included: nothing is exposed, the vector is abandoned) —
        a shorter one overran the allocation before the error was reached *)
Theorem C19_try_collect_trusted_any_announcement :
  forall (A E : Type) (hint : nat) (xs : list A) (e : E) (rest : list (A + E)),
    try_collect_from_trusted BDefault (TI hint (map (@inl A E) xs)) = TOk (Done xs) /\
    try_collect_from_trusted BDefault (TI hint (map (@inl A E) xs ++ inr e :: rest)) = TErr e /\
    try_collect_from_trusted BRaw (TI hint (map (@inl A E) xs))
    = (if (hint <? length xs)%nat then TOk (Panicked OtherPanic)
       else if (length xs <? hint)%nat then TOk (Uninit (map Some xs ++ repeat None (hint - length xs)))
            else TOk (Done xs)) /\
    try_collect_from_trusted BRaw (TI hint (map (@inl A E) xs ++ inr e :: rest))
    = (if (hint <? length xs)%nat then TOk (Panicked OtherPanic) else TErr e).
Proof.
  intros A E hint xs e rest. split; [apply try_collect_ok|]. split; [apply try_collect_err|].
  split; [apply try_collect_trusted_raw_all_ok|apply try_collect_trusted_raw_err].
Qed.

(* the source is pulled up to and including the first error, and no further *)
Theorem C19_try_collect_pulls_stop_at_first_error :
  forall (A E : Type) (xs : list A) (e : E) (rest : list (A + E)),
    pulled (map (@inl A E) xs) = length xs /\
    pulled (map (@inl A E) xs ++ inr e :: rest) = S (length xs).
Proof. exact (@pulled_shape). Qed.

(* (17) write_trust_iter against ANY announcement and ANY previous buffer content:
        empty buffer: Ok, nothing read or written;  announced = buffer length <= actual: Ok, the first
        len items at slots 0..len-1 (surplus items are not pulled);  announced = buffer length > actual:
        the `unwrap` panics after the available items were written to a prefix — a panic, not an Err;
        announced = 1 <> buffer length: broadcast of the first item (panic when there is none);
        otherwise Err with the buffer untouched *)
Theorem C19_write_trust_iter_any_announcement :
  forall (A : Type) (old : list (option A)) (hint : nat) (items : list A),
    let len := length old in
    let r := write_trust_iter len (TI hint items) in
    (len = 0%nat -> r = (WOk, [])) /\
    (len <> 0%nat -> len = hint -> (len <= length items)%nat ->
       r = (WOk, combine (seq 0 len) (firstn len items))
       /\ apply_writes (snd r) old = map Some (firstn len items)) /\
    (len <> 0%nat -> len = hint -> (length items < len)%nat ->
       r = (WPanic UnwrapNone, combine (seq 0 (length items)) items)
       /\ apply_writes (snd r) old = map Some items ++ skipn (length items) old) /\
    (len <> 0%nat -> len <> hint -> hint = 1%nat ->
       match items with
       | [] => r = (WPanic UnwrapNone, [])
       | v :: _ => r = (WOk, map (fun i => (i, v)) (seq 0 len))
                   /\ apply_writes (snd r) old = repeat (Some v) len
       end) /\
    (len <> 0%nat -> len <> hint -> hint <> 1%nat -> r = (WErr, []) /\ apply_writes (snd r) old = old).
Proof.
  intros A old hint items. cbv zeta. unfold write_trust_iter. cbn [ti_hint ti_items].
  split; [intros ->; reflexivity|].
  split.
  { intros H0 He Hle. rewrite (proj2 (Nat.eqb_neq _ _) H0), (proj2 (Nat.eqb_eq _ _) He), write_each_gen.
    rewrite (proj2 (Nat.leb_le _ _) Hle), Nat.min_l by exact Hle. split; [reflexivity|]. cbn [snd].
    pose proof (apply_writes_prefix (firstn (length old) items) [] old) as H.
    rewrite firstn_length, Nat.min_l in H by exact Hle. cbn [length app] in H.
    rewrite H by lia. rewrite skipn_all. apply app_nil_r. }
  split.
  { intros H0 He Hlt. rewrite (proj2 (Nat.eqb_neq _ _) H0), (proj2 (Nat.eqb_eq _ _) He), write_each_gen.
    rewrite (proj2 (Nat.leb_gt _ _) Hlt), Nat.min_r by lia. rewrite firstn_all2 by lia.
    split; [reflexivity|]. cbn [snd]. apply (apply_writes_prefix items [] old). lia. }
  split.
  { intros H0 Hne H1.
    rewrite (proj2 (Nat.eqb_neq _ _) H0), (proj2 (Nat.eqb_neq _ _) Hne), (proj2 (Nat.eqb_eq _ _) H1).
    destruct items as [|v rest]; [reflexivity|]. split; [reflexivity|]. cbn [snd].
    apply (apply_writes_broadcast v [] old). reflexivity. }
  intros H0 Hne H1.
  rewrite (proj2 (Nat.eqb_neq _ _) H0), (proj2 (Nat.eqb_neq _ _) Hne), (proj2 (Nat.eqb_neq _ _) H1).
  split; reflexivity.
Qed.

(* "reports a length mismatch without partial undefined state", whatever the iterator announces *)
Theorem C19_write_trust_iter_err_untouched :
  forall (A : Type) (old : list (option A)) (it : titer A),
    fst (write_trust_iter (length old) it) = WErr ->
    snd (write_trust_iter (length old) it) = [] /\
    apply_writes (snd (write_trust_iter (length old) it)) old = old.
Proof.
  intros A old it H. destruct (write_trust_iter_slots (length old) it) as (k & _ & Hs & He & _).
  specialize (He H). subst k. cbn [seq] in Hs.
  destruct (snd (write_trust_iter (length old) it)); [split; reflexivity|discriminate].
Qed.

(* (18) generators for EVERY Number dictionary (integer, rational, binary64 ... — no law of the
        arithmetic is used): linspace = exactly n elements, element k = start + step * k in the
        dictionary's arithmetic, or the panic of the step computation; range likewise with the count the
        code computed; the empty-span rule *)
Theorem C19_linspace_any_number_type :
  forall (A : Type) (N : num_ops A) (trusted : bool) (start : option A) (e : A) (n : nat),
    match linspace_new N (dflt_zero N start) e n with
    | Ok s => create_linspace N trusted start e n
              = Done (map (elem_at N (dflt_zero N start) (ls_step s)) (seq 0 n))
    | Panic k => create_linspace N trusted start e n = Panicked k
    end.
Proof. exact (@create_linspace_any). Qed.

Theorem C19_range_any_number_type :
  forall (A : Type) (N : num_ops A) (trusted : bool) (start : option A) (e : A) (step : option A),
    match range_new N (dflt_zero N start) e (dflt_one N step) with
    | Ok s => create_range N trusted start e step
              = Done (map (elem_at N (dflt_zero N start) (dflt_one N step)) (seq 0 (ls_len s)))
    | Panic k => create_range N trusted start e step = Panicked k
    end.
Proof. exact (@create_range_any). Qed.

Theorem C19_range_empty_span_any_number_type :
  forall (A : Type) (N : num_ops A) (trusted : bool) (start : option A) (e : A) (step : option A),
    (if gtb N (dflt_one N step) (n_zero N)
     then n_leb N e (dflt_zero N start) else geb N e (dflt_zero N start)) = true ->
    create_range N trusted start e step = Done [].
Proof. exact (@create_range_empty_any). Qed.

Theorem C19_progression_shape_any_number_type :
  forall (A : Type) (N : num_ops A) (a st : A) (n : nat),
    length (map (elem_at N a st) (seq 0 n)) = n /\
    forall k, (k < n)%nat -> nth_error (map (elem_at N a st) (seq 0 n)) k = Some (elem_at N a st k).
Proof. intros A N a st n. split; [apply map_elem_length|intros k; apply map_elem_nth]. Qed.

(* (19) AT BINARY64 (the dictionary Run/RunC19.v executes and the run compares with Rust, bit for bit):
        linspace never panics and has exactly n elements fl(start + fl(step * fl(k))), step = fl(fl(end - start) / fl(n-1));
        range is a capacity-overflow panic of the count cast or `count` elements fl(start + fl(step * fl(k))) *)
Theorem C19_linspace_binary64 :
  forall (trusted : bool) (start : option float) (e : float) (n : nat),
    let a := match start with Some v => v | None => PrimFloat.zero end in
    create_linspace Run.RunC19.f_ops trusted start e n = Done (map (f_elem a (f_lin_step a e n)) (seq 0 n)).
Proof.
  intros trusted start e n. cbv zeta. pose proof (create_linspace_any Run.RunC19.f_ops trusted start e n) as H.
  unfold linspace_new in H. cbn [Run.RunC19.f_ops n_sub n_div bind n_of_usize n_zero] in H.
  unfold f_lin_step. destruct (1 <? n)%nat; cbn [bind] in H; exact H.
Qed.

Theorem C19_range_binary64_shape :
  forall (trusted : bool) (start : option float) (e : float) (step : option float),
    let a := match start with Some v => v | None => PrimFloat.zero end in
    let st := match step with Some v => v | None => PrimFloat.one end in
    create_range Run.RunC19.f_ops trusted start e step = Panicked Overflow
    \/ exists count : nat,
         create_range Run.RunC19.f_ops trusted start e step = Done (map (f_elem a st) (seq 0 count)).
Proof.
  intros trusted start e step. cbv zeta. pose proof (create_range_any Run.RunC19.f_ops trusted start e step) as H.
  destruct (range_new Run.RunC19.f_ops (dflt_zero Run.RunC19.f_ops start) e (dflt_one Run.RunC19.f_ops step)) as [s|k] eqn:E.
  - right. exists (ls_len s). exact H.
  - left. rewrite H. f_equal.
    revert E. unfold range_new. cbn [Run.RunC19.f_ops n_sub n_div bind n_to_usize].
    destruct (if gtb _ _ _ then _ else _); [discriminate|].
    unfold Run.RunC19.f_to_usize.
    match goal with |- context [Prim2SF ?x] => destruct (Prim2SF x) as [sg|[|]| |[|] m ex] end;
      cbn [bind]; try discriminate; try (intros [= <-]; reflexivity).
    destruct (_ <? _); cbn [bind]; [intros [= <-]; reflexivity|discriminate].
Qed.

(* ---- non-vacuity of the implications (14)-(19) ---- *)
Example C19_any_announcement_examples :
  collect_from_trusted BRaw (TI 2 [7; 8; 9]) = Panicked OtherPanic
  /\ collect_from_trusted BRaw (TI 4 [7; 8; 9]) = Uninit [Some 7; Some 8; Some 9; None]
  /\ collect_from_iter (TI 0 [7; 8; 9]) = Done [7; 8; 9]
  /\ try_collect_from_trusted BRaw (TI 5 [inl 1; inr 50; inl 2]) = @TErr Z Z 50
  /\ try_collect_from_trusted BRaw (TI 0 [inl 1; inr 50; inl 2]) = @TOk Z Z (Panicked OtherPanic)
  /\ write_trust_iter 2 (TI 2 [7; 8; 9]) = (WOk, [(0%nat, 7); (1%nat, 8)])
  /\ write_trust_iter 3 (TI 1 [7; 8; 9]) = (WOk, [(0%nat, 7); (1%nat, 7); (2%nat, 7)])
  /\ write_trust_iter 3 (TI 1 (@nil Z)) = (WPanic UnwrapNone, [])
  /\ write_trust_iter 3 (TI 2 [7; 8; 9]) = (WErr, []).
Proof. vm_compute. repeat split. Qed.

Example C19_binary64_examples :
  create_linspace Run.RunC19.f_ops true (Some 1%float) 2%float 5
  = Done [1%float; 1.25%float; 1.5%float; 1.75%float; 2%float]
  /\ create_range Run.RunC19.f_ops true (Some 0.5%float) (-0.25)%float (Some (-0.25)%float)
     = Done [0.5%float; 0.25%float; 0%float]
  /\ create_range Run.RunC19.f_ops true (Some 0%float) infinity (Some 1%float) = Panicked Overflow
  /\ (if gtb Run.RunC19.f_ops 1%float 0%float then n_leb Run.RunC19.f_ops 0%float 3%float
      else geb Run.RunC19.f_ops 0%float 3%float) = true.
Proof. vm_compute. repeat split. Qed.

Print Assumptions C19_collect_plain_any_hint.
Print Assumptions C19_empty.
Print Assumptions C19_collect_opt_closed_form.
Print Assumptions C19_collect_trusted_any_announcement.
Print Assumptions C19_collect_trusted_done_iff.
Print Assumptions C19_collect_with_len_any_announcement.
Print Assumptions C19_try_collect_trusted_any_announcement.
Print Assumptions C19_try_collect_pulls_stop_at_first_error.
Print Assumptions C19_write_trust_iter_any_announcement.
Print Assumptions C19_write_trust_iter_err_untouched.
Print Assumptions C19_linspace_any_number_type.
Print Assumptions C19_range_any_number_type.
Print Assumptions C19_range_empty_span_any_number_type.
Print Assumptions C19_progression_shape_any_number_type.
Print Assumptions C19_linspace_binary64.
Print Assumptions C19_range_binary64_shape.

(* ==== UninitVec::set, the CHECKED single-slot write (uninit.rs:32-40; Model/Collect.v `uninit_set`, Proofs/LooseEnds.v).
   The interpreters `run_uninit_set` / `run_uninit_set_buf` of Run/RunC19.v run this definition. ======================== *)
From Coq Require Import Permutation.
From Tevec Require Import Proofs.LooseEnds.
Local Open Scope nat_scope.

(* (20) for every buffer (whatever was written before), index and value: `idx < len` -> Ok, ONE uset call, at idx, the
        slot idx replaced and every other slot and the length unchanged; otherwise Err, NO uset call, buffer unchanged.
        Ok <-> idx < len; the only other status is Err (never a panic); no uset call ever names a slot outside 0..len.
        The buffer model drops an out-of-range store silently (`set_nth`), so the bound is stated on the CALLS. *)
Theorem C19_uninit_set_total :
  forall (A : Type) (buf : list (option A)) (idx : nat) (v : A),
    let len := length buf in
    (idx < len ->
       uninit_set len idx v = (WOk, [(idx, v)])
       /\ fst (uninit_set_buf buf idx v) = WOk
       /\ length (snd (uninit_set_buf buf idx v)) = len
       /\ forall j, nth_error (snd (uninit_set_buf buf idx v)) j
                    = if j =? idx then Some (Some v) else nth_error buf j)
    /\ (len <= idx ->
          uninit_set len idx v = (WErr, []) /\ uninit_set_buf buf idx v = (WErr, buf))
    /\ (fst (uninit_set len idx v) = WOk <-> idx < len)
    /\ (fst (uninit_set len idx v) <> WOk -> fst (uninit_set len idx v) = WErr)
    /\ (forall w, In w (snd (uninit_set len idx v)) -> w = (idx, v) /\ fst w < len).
Proof. exact (@uninit_set_total). Qed.

(* (21) any sequence of `set` calls on one buffer, in closed form: call k is Ok iff ITS index is in range (no call
        influences the status of another), and the buffer afterwards is the buffer after exactly the accepted uset calls,
        in call order; the length never changes *)
Theorem C19_uninit_set_sequence :
  forall (A : Type) (buf : list (option A)) (calls : list (nat * A)),
    uninit_set_seq buf calls
    = (map (fun c => if fst c <? length buf then WOk else WErr) calls,
       apply_writes (filter (fun c => fst c <? length buf) calls) buf)
    /\ length (snd (uninit_set_seq buf calls)) = length buf.
Proof. intros A buf calls. split; [apply uninit_set_seq_closed|apply uninit_set_seq_length]. Qed.

(* (22) `len` successive sets at 0, 1, ..., len-1 — over ANY previous content of the buffer: every call Ok, the buffer is
        exposable (`assume_init` defined) and is exactly the written values *)
Theorem C19_uninit_set_fills_buffer :
  forall (A : Type) (old : list (option A)) (items : list A),
    length items = length old ->
    uninit_set_seq old (combine (seq 0 (length old)) items) = (repeat WOk (length old), map Some items)
    /\ assume_init (snd (uninit_set_seq old (combine (seq 0 (length old)) items))) = Some items
    /\ finish (snd (uninit_set_seq old (combine (seq 0 (length old)) items))) = Done items.
Proof. exact (@uninit_set_fill). Qed.

(* (23) the same in ANY order (each slot named once) on a fresh buffer: all Ok, a complete output, slot j = the value
        set at j; and a slot that no call names keeps the buffer from being exposable, whatever else was set *)
Theorem C19_uninit_set_fills_buffer_any_order :
  forall (A : Type) (calls : list (nat * A)) (n : nat),
    Permutation (map fst calls) (seq 0 n) ->
    fst (uninit_set_seq (repeat None n) calls) = repeat WOk n
    /\ exists l, finish (snd (uninit_set_seq (repeat None n) calls)) = Done l /\ length l = n
                 /\ forall j v, In (j, v) calls -> nth_error l j = Some v.
Proof. exact (@uninit_set_fill_any_order). Qed.

Theorem C19_uninit_set_missing_slot_not_exposable :
  forall (A : Type) (calls : list (nat * A)) (n j : nat),
    j < n -> ~ In j (map fst calls) ->
    assume_init (snd (uninit_set_seq (repeat None n) calls)) = None.
Proof. exact (@uninit_set_missing_slot). Qed.

(* ---- non-vacuity: inside / at the end / past the end; an overwritten buffer; a permuted fill; a missing slot;
        a call past the end in the middle of a sequence is refused alone ---- *)
Example C19_uninit_set_examples :
  uninit_set 3 2 7%Z = (WOk, [(2, 7%Z)])
  /\ uninit_set 3 3 7%Z = (WErr, [])
  /\ uninit_set 0 0 7%Z = (WErr, [])
  /\ uninit_set_buf [Some 1%Z; None; Some 3%Z] 1 9%Z = (WOk, [Some 1%Z; Some 9%Z; Some 3%Z])
  /\ uninit_set_buf [Some 1%Z; None; Some 3%Z] 3 9%Z = (WErr, [Some 1%Z; None; Some 3%Z])
  /\ uninit_set_seq [Some 5%Z; None] (combine (seq 0 2) [7%Z; 8%Z]) = ([WOk; WOk], [Some 7%Z; Some 8%Z])
  /\ Permutation (map fst [(2, 30%Z); (0, 10%Z); (1, 20%Z)]) (seq 0 3)
  /\ finish (snd (uninit_set_seq (repeat None 3) [(2, 30%Z); (0, 10%Z); (1, 20%Z)])) = Done [10%Z; 20%Z; 30%Z]
  /\ uninit_set_seq (repeat None 3) [(0, 10%Z); (3, 99%Z); (2, 30%Z)] = ([WOk; WErr; WOk], [Some 10%Z; None; Some 30%Z])
  /\ ~ In 1 (map fst [(0, 10%Z); (3, 99%Z); (2, 30%Z)]).
Proof.
  repeat split; try (vm_compute; reflexivity).
  - cbn. apply (Permutation_cons_app [0; 1] [] 2). reflexivity.
  - cbn. intros [H|[H|[H|[]]]]; discriminate.
Qed.

Print Assumptions C19_uninit_set_total.
Print Assumptions C19_uninit_set_sequence.
Print Assumptions C19_uninit_set_fills_buffer.
Print Assumptions C19_uninit_set_fills_buffer_any_order.
Print Assumptions C19_uninit_set_missing_slot_not_exposable.
