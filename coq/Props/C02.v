(* Props/C02.v — property C02: rolling drivers call back once per position with exactly the right
   window.                                                                                       *)
From Tevec Require Import Base.Prelude Model.Driver Proofs.Driver Model.DriverDispatch Proofs.Audit02.

(* (1) once per position, in increasing order, carrying x_i — for EVERY stateful callback:
       both bodies perform the call list  mapi (fun i x_i => (removed_i, x_i)) xs. *)
Theorem C02_once_in_order_returned :
  forall (T St O : Type) (f : St -> option T * T -> St * O) (s0 : St) (xs : list T) (w : nat),
    1 <= w ->
    rolling_apply_default w f s0 xs = Done (run f s0 (mapi (fun i v => (removed w xs i, v)) xs)).
Proof. intros; apply rolling_apply_default_eq; assumption. Qed.

Theorem C02_once_in_order_buffer :
  forall (T St O : Type) (f : St -> option T * T -> St * O) (s0 : St) (xs : list T) (w : nat),
    1 <= w ->
    rolling_apply_to w f s0 xs = Done (run f s0 (mapi (fun i v => (removed_to w xs i, v)) xs)).
Proof. intros; apply rolling_apply_to_eq; assumption. Qed.

Theorem C02_once_in_order_idx_returned :
  forall (T St O : Type) (f : St -> option nat * nat * T -> St * O) (s0 : St) (xs : list T) (w : nat),
    1 <= w ->
    rolling_apply_idx_default w f s0 xs
    = Done (run f s0 (mapi (fun i v => (start_of w i, i, v)) xs)).
Proof. intros; apply rolling_apply_idx_default_eq; assumption. Qed.

Theorem C02_once_in_order_idx_buffer :
  forall (T St O : Type) (f : St -> option nat * nat * T -> St * O) (s0 : St) (xs : list T) (w : nat),
    1 <= w ->
    rolling_apply_idx_to w f s0 xs
    = Done (run f s0 (mapi (fun i v => (start_of (Nat.min w (length xs)) i, i, v)) xs)).
Proof. intros; apply rolling_apply_idx_to_eq; assumption. Qed.

(* (2) the removed argument: element i-(w-1) from position w-1 on, nothing during warm-up *)
Theorem C02_removed_arg_returned :
  forall (T : Type) (w : nat) (xs : list T) (i : nat),
    1 <= w -> i < length xs ->
    (w - 1 <= i -> removed w xs i = nth_error xs (i - (w - 1)) /\ removed w xs i <> None) /\
    (i < w - 1 -> removed w xs i = None).
Proof.
  intros T w xs i Hw Hi. unfold removed. split; intros H.
  - rewrite ltb_false by lia. split; [reflexivity|].
    destruct (nth_error_Some_lt xs (i - (w - 1))) as [u Hu]; [lia|]. congruence.
  - rewrite ltb_true by lia. reflexivity.
Qed.

Theorem C02_removed_arg_buffer :
  forall (T : Type) (w : nat) (xs : list T) (i : nat),
    1 <= w -> i < length xs ->
    (w - 1 <= i -> removed_to w xs i = nth_error xs (i - (w - 1))) /\
    (i < Nat.min w (length xs) - 1 -> removed_to w xs i = None).
Proof.
  intros T w xs i Hw Hi. split; intros H.
  - rewrite removed_to_eq by lia. apply C02_removed_arg_returned; assumption.
  - unfold removed_to, removed. rewrite ltb_true by lia. reflexivity.
Qed.

Theorem C02_start_index :
  forall (w len i : nat), i < len -> (w <= len \/ S i < len) ->
    start_of (Nat.min w len) i = start_of w i.
Proof. exact start_of_min_eq. Qed.

(* (3) slice forms pass exactly win w i xs = positions max(0,i-w+1)..=i, on both bodies *)
Theorem C02_slice_arg_returned :
  forall (T St O : Type) (f : St -> list T -> St * O) (s0 : St) (xs : list T) (w : nat),
    1 <= w ->
    rolling_custom_default w f s0 xs
    = Done (run f s0 (map (fun i => win w i xs) (seq 0 (length xs)))).
Proof. intros; apply rolling_custom_default_eq; assumption. Qed.

Theorem C02_slice_arg_buffer :
  forall (T St O : Type) (f : St -> list T -> St * O) (s0 : St) (xs : list T) (w : nat),
    1 <= w ->
    rolling_custom_to w f s0 xs = Done (run f s0 (map (fun i => win w i xs) (seq 0 (length xs)))).
Proof. intros; apply rolling_custom_to_eq; assumption. Qed.

(* (4) output placement: result k of the run is stored at position k; the output is as long as the input *)
Theorem C02_output_placement :
  forall (St X O : Type) (g : St -> X -> St * O) (s0 : St) (args : list X) (i : nat) (a : X),
    nth_error args i = Some a ->
    nth_error (run g s0 args) i = Some (snd (g (state_after g s0 (firstn i args)) a)).
Proof. exact (@run_nth). Qed.

Theorem C02_output_length :
  forall (St X O : Type) (g : St -> X -> St * O) (s0 : St) (args : list X),
    length (run g s0 args) = length args.
Proof. exact (@run_length). Qed.

(* (5) the two bodies differ only in the removed value at the final position when w > len ... *)
Theorem C02_bodies_same_removed :
  forall (T : Type) (w : nat) (xs : list T) (i : nat),
    i < length xs -> (w <= length xs \/ S i < length xs) -> removed_to w xs i = removed w xs i.
Proof. exact (@removed_to_eq). Qed.

(* ... which no output can depend on: for every add-emit-remove callback the two bodies agree *)
Theorem C02_bodies_agree :
  forall (T St O : Type) (pre : St -> T -> St) (emit : St -> O) (post : St -> option T -> St)
         (w : nat) (s0 : St) (xs : list T),
    1 <= w ->
    rolling_apply_to w (aer pre emit post) s0 xs = rolling_apply_default w (aer pre emit post) s0 xs.
Proof. intros. apply rolling_apply_bodies_agree_total. Qed.

(* non-vacuity: a concrete run exercising w > len and w <= len *)
Example C02_example :
  rolling_apply_to 2 (fun (s : nat) (a : option nat * nat) => (s + 1, (s, a))) 0 [7; 8; 9]
  = Done [(0, (None, 7)); (1, (Some 7, 8)); (2, (Some 8, 9))]
  /\ rolling_apply_default 5 (fun (s : nat) (a : option nat * nat) => (s + 1, (s, a))) 0 [7; 8]
  = Done [(0, (None, 7)); (1, (None, 8))]
  /\ rolling_apply_to 5 (fun (s : nat) (a : option nat * nat) => (s + 1, (s, a))) 0 [7; 8]
  = Done [(0, (None, 7)); (1, (Some 7, 8))].
Proof. vm_compute. auto. Qed.

(* ======================================================================================================
   EVERY window, 0 included, and the two-series entry points in every combination of lengths.
   `bad_window w xs` = (w = 0 and xs non-empty) - the assertion `window > 0 || len == 0`.  The statements
   are equalities between the entry point and a closed form with the panics in the order of the code.     *)
Theorem C02_every_window_returned :
  forall (T St O : Type) (w : nat) (f : St -> option T * T -> St * O) (s0 : St) (xs : list T),
    rolling_apply_default w f s0 xs =
    if bad_window w xs then Panicked AssertFail
    else Done (run f s0 (mapi (fun i v => (removed w xs i, v)) xs)).
Proof. exact @rolling_apply_default_total. Qed.

Theorem C02_every_window_buffer :
  forall (T St O : Type) (w : nat) (f : St -> option T * T -> St * O) (s0 : St) (xs : list T),
    rolling_apply_to w f s0 xs =
    if bad_window w xs then Panicked AssertFail
    else Done (run f s0 (mapi (fun i v => (removed_to w xs i, v)) xs)).
Proof. exact @rolling_apply_to_total. Qed.

Theorem C02_every_window_idx_returned :
  forall (T St O : Type) (w : nat) (f : St -> option nat * nat * T -> St * O) (s0 : St) (xs : list T),
    rolling_apply_idx_default w f s0 xs =
    if bad_window w xs then Panicked AssertFail
    else Done (run f s0 (mapi (fun i v => (start_of w i, i, v)) xs)).
Proof. exact @rolling_apply_idx_default_total. Qed.

Theorem C02_every_window_idx_buffer :
  forall (T St O : Type) (w : nat) (f : St -> option nat * nat * T -> St * O) (s0 : St) (xs : list T),
    rolling_apply_idx_to w f s0 xs =
    if bad_window w xs then Panicked AssertFail
    else Done (run f s0 (mapi (fun i v => (start_of (Nat.min w (length xs)) i, i, v)) xs)).
Proof. exact @rolling_apply_idx_to_total. Qed.

(* slice forms: the returned path computes `window - 1` first - underflow at window 0 even on an empty series *)
Theorem C02_every_window_slice_returned :
  forall (T St O : Type) (w : nat) (f : St -> list T -> St * O) (s0 : St) (xs : list T),
    rolling_custom_default w f s0 xs =
    if w =? 0 then Panicked Underflow else Done (run f s0 (windows w xs)).
Proof. exact @rolling_custom_default_total. Qed.

Theorem C02_every_window_slice_buffer :
  forall (T St O : Type) (w : nat) (f : St -> list T -> St * O) (s0 : St) (xs : list T),
    rolling_custom_to w f s0 xs =
    if bad_window w xs then Panicked AssertFail else Done (run f s0 (windows w xs)).
Proof. exact @rolling_custom_to_total. Qed.

Theorem C02_bodies_agree_every_window :
  forall (T St O : Type) (pre : St -> T -> St) (emit : St -> O) (post : St -> option T -> St)
         (w : nat) (s0 : St) (xs : list T),
    rolling_apply_to w (aer pre emit post) s0 xs = rolling_apply_default w (aer pre emit post) s0 xs.
Proof. exact @rolling_apply_bodies_agree_total. Qed.

(* ---- two series.  Returned path (default trait method): the window is asserted on the FIRST series only,
   then the two series are zipped (one call per pair, the result has min(len xs, len ys) entries). ---- *)
Theorem C02_two_series_returned :
  forall (T1 T2 St O : Type) (w : nat) (f : St -> option (T1 * T2) * (T1 * T2) -> St * O) (s0 : St)
         (xs : list T1) (ys : list T2),
    rolling2_apply_default w f s0 xs ys =
    if bad_window w xs then Panicked AssertFail
    else Done (run f s0 (mapi (fun i v => (removed w (combine xs ys) i, v)) (combine xs ys))).
Proof. exact @rolling2_apply_default_total. Qed.

(* caller buffer / Vec, ndarray fast path: `other.len() >= len` is asserted first, then the window *)
Theorem C02_two_series_buffer :
  forall (T1 T2 St O : Type) (w : nat) (f : St -> option (T1 * T2) * (T1 * T2) -> St * O) (s0 : St)
         (xs : list T1) (ys : list T2),
    rolling2_apply_to w f s0 xs ys =
    if length ys <? length xs then Panicked AssertFail
    else if bad_window w xs then Panicked AssertFail
    else Done (run f s0 (mapi (fun i v => (removed_to w (combine xs ys) i, v)) (combine xs ys))).
Proof. exact @rolling2_apply_to_total. Qed.

Theorem C02_two_series_idx_returned :
  forall (T1 T2 St O : Type) (w : nat) (f : St -> option nat * nat * (T1 * T2) -> St * O) (s0 : St)
         (xs : list T1) (ys : list T2),
    rolling2_apply_idx_default w f s0 xs ys =
    if bad_window w xs then Panicked AssertFail
    else Done (run f s0 (mapi (fun i v => (start_of w i, i, v)) (combine xs ys))).
Proof. exact @rolling2_apply_idx_default_total. Qed.

Theorem C02_two_series_idx_buffer :
  forall (T1 T2 St O : Type) (w : nat) (f : St -> option nat * nat * (T1 * T2) -> St * O) (s0 : St)
         (xs : list T1) (ys : list T2),
    rolling2_apply_idx_to w f s0 xs ys =
    if length ys <? length xs then Panicked AssertFail
    else if bad_window w xs then Panicked AssertFail
    else Done (run f s0 (mapi (fun i v => (start_of (Nat.min w (length (combine xs ys))) i, i, v))
                              (combine xs ys))).
Proof. exact @rolling2_apply_idx_to_total. Qed.

(* rolling2_custom (both paths): the lengths, then `window - 1`; the callback gets the two windows *)
Theorem C02_two_series_slice :
  forall (T1 T2 St O : Type) (w : nat) (f : St -> list T1 * list T2 -> St * O) (s0 : St)
         (xs : list T1) (ys : list T2),
    rolling2_custom_default w f s0 xs ys =
    if length ys <? length xs then Panicked AssertFail
    else if w =? 0 then Panicked Underflow
    else Done (run f s0 (map (fun i => (win w i xs, win w i ys)) (seq 0 (length xs)))).
Proof. exact @rolling2_custom_default_total. Qed.

(* the start iterator of rolling2_apply_idx counts to len SELF; zipped it is the one-series argument list *)
Theorem C02_two_series_start_iterator :
  forall (T1 T2 : Type) (w : nat) (xs : list T1) (ys : list T2),
    args_iter_idx2 w xs ys = args_iter_idx w (combine xs ys).
Proof. exact @args_iter_idx2_eq. Qed.

(* where the window check on the zipped series and the check of the code (on the first series) differ *)
Theorem C02_window_check_first_vs_zipped :
  forall (T1 T2 : Type) (w : nat) (xs : list T1) (ys : list T2),
    bad_window w (combine xs ys) <> bad_window w xs <-> w = 0 /\ xs <> [] /\ ys = [].
Proof.
  intros T1 T2 w xs ys. unfold bad_window.
  destruct w as [|w]; [|cbn; split; [congruence|intros (H & _); discriminate]].
  destruct xs as [|x xs]; [cbn; split; [congruence|intros (_ & H & _); congruence]|].
  destruct ys as [|y ys]; cbn; split; try congruence.
  - intros _. repeat split; discriminate.
  - intros (_ & _ & H). discriminate.
Qed.

Theorem C02_two_series_returned_window0 :
  forall (T1 T2 St O : Type) (f : St -> option (T1 * T2) * (T1 * T2) -> St * O)
         (g : St -> option nat * nat * (T1 * T2) -> St * O) (s0 : St) (xs : list T1) (ys : list T2),
    xs <> [] ->
    rolling2_apply_default 0 f s0 xs ys = Panicked AssertFail /\
    rolling2_apply_idx_default 0 g s0 xs ys = Panicked AssertFail.
Proof.
  intros; split; [apply rolling2_apply_default_window0|apply rolling2_apply_idx_default_window0]; assumption.
Qed.

(* the first failing check, in the order of the code (compared with the panic MESSAGE by the harness) *)
Theorem C02_two_series_check_returned :
  forall (T1 T2 : Type) (w : nat) (xs : list T1) (ys : list T2),
    (check2_default w xs ys = Some GWindow <-> w = 0 /\ xs <> []) /\
    (check2_default w xs ys = None <-> 1 <= w \/ xs = []).
Proof.
  intros T1 T2 w xs ys. unfold check2_default.
  destruct (bad_window_cases w xs) as [(Hb & H0 & Hx)|(Hb & H)]; rewrite Hb.
  - split; split; try tauto; try discriminate. intros [H|H]; [lia|contradiction].
  - split; split; try tauto; try discriminate. intros (H0 & Hx). destruct H; [lia|contradiction].
Qed.

Theorem C02_two_series_check_buffer :
  forall (T1 T2 : Type) (w : nat) (xs : list T1) (ys : list T2),
    (check2_to w xs ys = Some GShorter <-> length ys < length xs) /\
    (check2_to w xs ys = Some GWindow <-> length xs <= length ys /\ w = 0 /\ xs <> []) /\
    (check2_to w xs ys = None <-> length xs <= length ys /\ (1 <= w \/ xs = [])).
Proof.
  intros T1 T2 w xs ys. unfold check2_to. destruct (length ys <? length xs) eqn:E.
  - apply Nat.ltb_lt in E. repeat split; try tauto; try discriminate; intros; lia.
  - apply Nat.ltb_ge in E.
    destruct (bad_window_cases w xs) as [(Hb & H0 & Hx)|(Hb & H)]; rewrite Hb.
    + repeat split; try tauto; try discriminate; try lia. intros (_ & [H|H]); [lia|contradiction].
    + repeat split; try tauto; try discriminate; try lia. intros (_ & H0 & Hx). destruct H; [lia|contradiction].
Qed.

Theorem C02_two_series_bodies_agree :
  forall (T1 T2 St O : Type) (pre : St -> T1 * T2 -> St) (emit : St -> O) (post : St -> option (T1 * T2) -> St)
         (w : nat) (s0 : St) (xs : list T1) (ys : list T2),
    length xs <= length ys ->
    rolling2_apply_to w (aer pre emit post) s0 xs ys = rolling2_apply_default w (aer pre emit post) s0 xs ys.
Proof. intros; apply rolling2_apply_bodies_agree; assumption. Qed.

Theorem C02_two_series_idx_bodies_agree :
  forall (T1 T2 St O : Type) (pre : St -> nat -> T1 * T2 -> St) (emit : St -> O) (post : St -> option nat -> St)
         (w : nat) (s0 : St) (xs : list T1) (ys : list T2),
    w <= length xs <= length ys ->
    rolling2_apply_idx_to w (aer_idx pre emit post) s0 xs ys
    = rolling2_apply_idx_default w (aer_idx pre emit post) s0 xs ys.
Proof. intros. apply rolling2_apply_idx_bodies_agree_every_window. lia. Qed.

(* a shorter second series is where the two paths differ by design *)
Theorem C02_two_series_shorter_second :
  forall (T1 T2 St O : Type) (w : nat) (f : St -> option (T1 * T2) * (T1 * T2) -> St * O) (s0 : St)
         (xs : list T1) (ys : list T2),
    length ys < length xs -> 1 <= w ->
    rolling2_apply_to w f s0 xs ys = Panicked AssertFail /\
    exists l, rolling2_apply_default w f s0 xs ys = Done l /\ length l = length ys.
Proof.
  intros T1 T2 St O w f s0 xs ys Hlt Hw. split.
  - unfold rolling2_apply_to. rewrite ltb_true by exact Hlt. reflexivity.
  - rewrite rolling2_apply_default_total, bad_window_false by exact Hw.
    eexists. split; [reflexivity|]. rewrite run_length, mapi_length, combine_length. lia.
Qed.

(* non-vacuity of the implications above; the corner: window 0, empty second series *)
Example C02_example_two_series :
  let f := fun (s : nat) (a : option (nat * nat) * (nat * nat)) => (s + 1, (s, a)) in
  let g := fun (s : nat) (a : option nat * nat * (nat * nat)) => (s + 1, (s, a)) in
  rolling2_apply_default 0 f 0 [7; 8] (@nil nat) = Panicked AssertFail
  /\ rolling2_apply_idx_default 0 g 0 [7; 8] (@nil nat) = Panicked AssertFail
  /\ rolling2_apply_default 0 f 0 (@nil nat) [1] = Done []
  /\ rolling2_apply_default 2 f 0 [7; 8; 9] [1; 2] = Done [(0, (None, (7, 1))); (1, (Some (7, 1), (8, 2)))]
  /\ rolling2_apply_to 2 f 0 [7; 8; 9] [1; 2] = Panicked AssertFail
  /\ rolling2_apply_to 2 f 0 [7; 8] [1; 2; 3] = Done [(0, (None, (7, 1))); (1, (Some (7, 1), (8, 2)))]
  /\ rolling2_apply_idx_to 1 g 0 [7; 8] [1; 2; 3] = rolling2_apply_idx_default 1 g 0 [7; 8] [1; 2; 3]
  /\ (bad_window 0 (combine [7] (@nil nat)) = false /\ bad_window 0 [7] = true)
  /\ check2_to 0 [7; 8] [1] = Some GShorter /\ check2_to 0 [7; 8] [1; 2] = Some GWindow
  /\ check2_default 0 [7; 8] [1] = Some GWindow /\ check2_custom 0 (@nil nat) (@nil nat) = Some GUnderflow
  /\ rolling_custom_default 0 (fun (s : nat) (l : list nat) => (s, l)) 0 (@nil nat) = Panicked Underflow.
Proof. vm_compute. repeat split. Qed.

(* ======================================================================================================
   The remaining clauses of the statement (notes/C02.md has the clause-by-clause matrix):
   the number / order / arguments of the invocations as an observation of an arbitrary callback, the
   window as a set of positions, the corner cases of the statement (window = 1, len = 0, window > len) for
   every entry point and both bodies, the exact place where the two bodies differ, the agreement
   theorems at every window, EVERY backend x both output paths (Model/DriverDispatch.v), the lazy iterator.  *)

(* (A1) any callback, wrapped so that it also records what it receives: the k-th stored result was computed
        after exactly the first k+1 arguments, in order - and the results are those of the bare callback.
        With the closed forms `Done (run f s0 <call list>)` above (which hold for every f, hence for
        `logged f`) this is "exactly once per position, in increasing order, with these arguments". *)
Theorem C02_call_trace :
  forall (St X O : Type) (f : St -> X -> St * O) (args : list X) (s0 : St) (i : nat) (a : X),
    nth_error args i = Some a ->
    nth_error (run (logged f) (s0, []) args) i
    = Some (snd (f (state_after f s0 (firstn i args)) a), firstn (S i) args).
Proof.
  intros St X O f args s0 i a Ha.
  rewrite run_logged, nth_error_combine, (run_nth f s0 args i Ha), nth_error_map, nth_error_seq.
  rewrite ltb_true by (apply nth_error_Some; congruence). reflexivity.
Qed.

Theorem C02_call_trace_results_unchanged :
  forall (St X O : Type) (f : St -> X -> St * O) (args : list X) (s0 : St) (l : list X),
    map fst (run (logged f) (s0, l) args) = run f s0 args.
Proof.
  intros. rewrite run_logged. apply map_fst_combine. rewrite map_length, seq_length, run_length. lia.
Qed.

(* (A2) "exactly the sub-sequence max(0,i-w+1)..=i": length and every element of the window, nothing beyond *)
Theorem C02_slice_positions :
  forall (X : Type) (w i : nat) (xs : list X),
    1 <= w -> i < length xs ->
    length (win w i xs) = Nat.min w (S i) /\
    (forall j, j < Nat.min w (S i) -> nth_error (win w i xs) j = nth_error xs (S i - Nat.min w (S i) + j)) /\
    (forall j, Nat.min w (S i) <= j -> nth_error (win w i xs) j = None).
Proof.
  intros X w i xs Hw Hi. rewrite win_seg. unfold wstart.
  assert (Hl : length (seg (S i - w) (S i) xs) = Nat.min w (S i)) by (rewrite seg_length by lia; lia).
  split; [exact Hl|]. split.
  - intros j Hj. rewrite nth_error_seg, ltb_true by lia. f_equal. lia.
  - intros j Hj. apply nth_error_None. rewrite Hl. exact Hj.
Qed.

(* (A3) two series: the removed pair is the pair of the removed elements of each series *)
Theorem C02_removed_pair :
  forall (T T2 : Type) (w : nat) (xs : list T) (ys : list T2) (i : nat),
    removed w (combine xs ys) i =
    match removed w xs i, removed w ys i with Some a, Some b => Some (a, b) | _, _ => None end.
Proof. intros. unfold removed. destruct (i <? w - 1); [reflexivity|]. apply nth_error_combine. Qed.

(* (A4) where exactly the two bodies report something different: window longer than the series, final position *)
Theorem C02_bodies_differ_exactly_at :
  forall (T : Type) (w : nat) (xs : list T) (i : nat),
    1 <= w -> i < length xs ->
    (removed_to w xs i <> removed w xs i <-> length xs < w /\ S i = length xs).
Proof.
  intros T w xs i Hw Hi. split.
  - intros Hne. assert (~ (w <= length xs \/ S i < length xs)); [|lia].
    intros Hc. apply Hne, removed_to_eq; assumption.
  - intros [Hgt E]. rewrite removed_to_longer, removed_longer by lia.
    rewrite (proj2 (Nat.eqb_eq _ _) E). destruct xs; [cbn in Hi; lia|discriminate].
Qed.

(* ... and a callback that returns what it was told to remove does tell them apart there: the clause
   "unspecified" of the statement is needed *)
Theorem C02_bodies_differ_observably :
  forall (T : Type) (w : nat) (xs : list T),
    length xs < w -> xs <> [] ->
    rolling_apply_to w (fun (s : unit) (a : option T * T) => (s, fst a)) tt xs
    <> rolling_apply_default w (fun (s : unit) (a : option T * T) => (s, fst a)) tt xs.
Proof.
  intros T w xs Hw Hne. rewrite rolling_apply_to_eq, rolling_apply_default_eq by lia.
  rewrite !(run_stateless (@fst (option T) T)). unfold args_to. rewrite !map_mapi. intros H. injection H as H.
  assert (Hn : 0 < length xs) by (destruct xs; [congruence|cbn; lia]).
  apply (f_equal (fun l => nth_error l (length xs - 1))) in H. rewrite !nth_error_mapi in H.
  destruct (nth_error_Some_lt xs (length xs - 1)) as [v Hv]; [lia|]. rewrite Hv in H. injection H.
  apply C02_bodies_differ_exactly_at; lia.
Qed.

(* (A5) for EVERY callback the two bodies are equal as soon as the window fits (or the series is empty) *)
Theorem C02_bodies_equal_when_window_fits :
  forall (T St O : Type) (w : nat) (f : St -> option T * T -> St * O) (g : St -> option nat * nat * T -> St * O)
         (s0 : St) (xs : list T),
    w <= length xs \/ xs = [] ->
    rolling_apply_to w f s0 xs = rolling_apply_default w f s0 xs /\
    rolling_apply_idx_to w g s0 xs = rolling_apply_idx_default w g s0 xs.
Proof.
  intros T St O w f g s0 xs Hfit.
  rewrite rolling_apply_to_total, rolling_apply_default_total, rolling_apply_idx_to_total, rolling_apply_idx_default_total.
  destruct Hfit as [Hle | ->]; [|rewrite bad_window_nil; split; reflexivity].
  destruct (bad_window w xs); [split; reflexivity|]. unfold args_to, args_to_idx. rewrite Nat.min_l by exact Hle.
  split; [|reflexivity]. do 2 f_equal. apply mapi_ext. intros i v Hv. f_equal.
  apply removed_to_eq; [apply nth_error_Some; congruence | left; exact Hle].
Qed.

Theorem C02_slice_bodies_equal :
  forall (T St O : Type) (w : nat) (f : St -> list T -> St * O) (s0 : St) (xs : list T),
    1 <= w -> rolling_custom_to w f s0 xs = rolling_custom_default w f s0 xs.
Proof. intros. rewrite rolling_custom_to_eq, rolling_custom_default_eq by assumption. reflexivity. Qed.

(* (A6) index form, add-emit-remove callbacks: the bodies agree at EVERY window (w <= len is not needed) *)
Theorem C02_idx_bodies_agree_every_window :
  forall (T St O : Type) (pre : St -> nat -> T -> St) (emit : St -> O) (post : St -> option nat -> St)
         (w : nat) (s0 : St) (xs : list T),
    rolling_apply_idx_to w (aer_idx pre emit post) s0 xs
    = rolling_apply_idx_default w (aer_idx pre emit post) s0 xs.
Proof. exact @rolling_apply_idx_bodies_agree_every_window. Qed.

Theorem C02_two_series_idx_bodies_agree_every_window :
  forall (T1 T2 St O : Type) (pre : St -> nat -> T1 * T2 -> St) (emit : St -> O) (post : St -> option nat -> St)
         (w : nat) (s0 : St) (xs : list T1) (ys : list T2),
    length xs <= length ys ->
    rolling2_apply_idx_to w (aer_idx pre emit post) s0 xs ys
    = rolling2_apply_idx_default w (aer_idx pre emit post) s0 xs ys.
Proof. intros; apply rolling2_apply_idx_bodies_agree_every_window; assumption. Qed.

(* (A7) window = 1: the element at i is also the window start, the slice is the singleton *)
Theorem C02_window_one :
  forall (T St O : Type) (f : St -> option T * T -> St * O) (g : St -> option nat * nat * T -> St * O)
         (h : St -> list T -> St * O) (s0 : St) (xs : list T),
    (rolling_apply_default 1 f s0 xs = Done (run f s0 (map (fun v => (Some v, v)) xs)) /\
     rolling_apply_to 1 f s0 xs = Done (run f s0 (map (fun v => (Some v, v)) xs))) /\
    (rolling_apply_idx_default 1 g s0 xs = Done (run g s0 (mapi (fun i v => (Some i, i, v)) xs)) /\
     rolling_apply_idx_to 1 g s0 xs = Done (run g s0 (mapi (fun i v => (Some i, i, v)) xs))) /\
    (rolling_custom_default 1 h s0 xs = Done (run h s0 (map (fun v => [v]) xs)) /\
     rolling_custom_to 1 h s0 xs = Done (run h s0 (map (fun v => [v]) xs))).
Proof.
  intros. rewrite rolling_apply_default_eq, rolling_apply_to_eq, rolling_apply_idx_default_eq, rolling_apply_idx_to_eq,
    rolling_custom_default_eq, rolling_custom_to_eq, windows_one by lia.
  unfold args_to, args_to_idx. rewrite <- (mapi_const_map (fun v => (Some v, v))).
  repeat split; do 2 f_equal; apply mapi_ext; intros i v Hv;
    assert (Hi : i < length xs) by (apply nth_error_Some; congruence).
  - rewrite removed_one, Hv. reflexivity.
  - unfold removed_to. rewrite Nat.min_l, removed_one, Hv by lia. reflexivity.
  - rewrite start_of_one. reflexivity.
  - rewrite Nat.min_l, start_of_one by lia. reflexivity.
Qed.

(* (A8) len = 0: no call, empty output, for every window - except `window - 1` of the returned slice form *)
Theorem C02_empty_series :
  forall (T St O : Type) (w : nat) (f : St -> option T * T -> St * O) (g : St -> option nat * nat * T -> St * O)
         (h : St -> list T -> St * O) (s0 : St),
    rolling_apply_default w f s0 [] = Done [] /\ rolling_apply_to w f s0 [] = Done [] /\
    rolling_apply_idx_default w g s0 [] = Done [] /\ rolling_apply_idx_to w g s0 [] = Done [] /\
    rolling_custom_to w h s0 [] = Done [] /\
    rolling_custom_default w h s0 [] = (if w =? 0 then Panicked Underflow else Done []).
Proof.
  intros. rewrite empty_default, empty_to, empty_idx_default, empty_idx_to, empty_custom_to, rolling_custom_default_total.
  repeat split.
Qed.

(* (A9) window > len: the returned body never reports a removed element / start index; the two-phase body
        reports element 0 / index 0 at the final position only; the slices are the prefixes *)
Theorem C02_window_longer_remove_form :
  forall (T St O : Type) (w : nat) (f : St -> option T * T -> St * O) (s0 : St) (xs : list T),
    length xs < w ->
    rolling_apply_default w f s0 xs = Done (run f s0 (map (fun v => (None, v)) xs)) /\
    rolling_apply_to w f s0 xs
    = Done (run f s0 (mapi (fun i v => (if S i =? length xs then nth_error xs 0 else None, v)) xs)).
Proof.
  intros T St O w f s0 xs Hw. rewrite rolling_apply_default_eq, rolling_apply_to_eq by lia.
  unfold args_to. rewrite <- (mapi_const_map (fun v => (None, v))).
  split; do 2 f_equal; apply mapi_ext; intros i v Hv;
    assert (Hi : i < length xs) by (apply nth_error_Some; congruence).
  - rewrite removed_longer by assumption. reflexivity.
  - rewrite removed_to_longer by lia. reflexivity.
Qed.

Theorem C02_window_longer_index_form :
  forall (T St O : Type) (w : nat) (f : St -> option nat * nat * T -> St * O) (s0 : St) (xs : list T),
    length xs < w ->
    rolling_apply_idx_default w f s0 xs = Done (run f s0 (mapi (fun i v => (None, i, v)) xs)) /\
    rolling_apply_idx_to w f s0 xs
    = Done (run f s0 (mapi (fun i v => (if S i =? length xs then Some 0 else None, i, v)) xs)).
Proof.
  intros T St O w f s0 xs Hw. rewrite rolling_apply_idx_default_eq, rolling_apply_idx_to_eq by lia.
  unfold args_to_idx.
  split; do 2 f_equal; apply mapi_ext; intros i v Hv;
    assert (Hi : i < length xs) by (apply nth_error_Some; congruence).
  - rewrite (start_of_longer w (length xs)) by assumption. reflexivity.
  - rewrite start_of_clamped_longer by lia. reflexivity.
Qed.

Theorem C02_window_longer_slice_form :
  forall (T St O : Type) (w : nat) (f : St -> list T -> St * O) (s0 : St) (xs : list T),
    1 <= w -> length xs <= w ->
    rolling_custom_default w f s0 xs = Done (run f s0 (map (fun i => firstn (S i) xs) (seq 0 (length xs)))) /\
    rolling_custom_to w f s0 xs = Done (run f s0 (map (fun i => firstn (S i) xs) (seq 0 (length xs)))).
Proof.
  intros T St O w f s0 xs H1 Hw. rewrite rolling_custom_default_eq, rolling_custom_to_eq by exact H1.
  rewrite windows_longer by exact Hw. split; reflexivity.
Qed.

(* (A10) EVERY backend x both output paths (Model/DriverDispatch.v: Vec, [T], [T; N], the three ndarray types
         override with the index body on both paths; VecDeque, the option view, Polars keep the trait default;
         Arc<V> forwards to V).  Closed forms for every window, 0 included. *)
Theorem C02_backend_remove_form :
  forall (T St O : Type) (b : backend) (out : bool) (w : nat) (f : St -> option T * T -> St * O) (s0 : St) (xs : list T),
    rolling_apply_on b out w f s0 xs =
    if bad_window w xs then Panicked AssertFail
    else Done (run f s0 (mapi (fun i v => (if fast b || out then removed_to w xs i else removed w xs i, v)) xs)).
Proof.
  intros. unfold rolling_apply_on. rewrite on_cases, rolling_apply_to_total, rolling_apply_default_total.
  destruct (fast b || out), (bad_window w xs); reflexivity.
Qed.

Theorem C02_backend_index_form :
  forall (T St O : Type) (b : backend) (out : bool) (w : nat) (f : St -> option nat * nat * T -> St * O) (s0 : St)
         (xs : list T),
    rolling_apply_idx_on b out w f s0 xs =
    if bad_window w xs then Panicked AssertFail
    else Done (run f s0 (mapi (fun i v => (start_of (if fast b || out then Nat.min w (length xs) else w) i, i, v)) xs)).
Proof.
  intros. unfold rolling_apply_idx_on. rewrite on_cases, rolling_apply_idx_to_total, rolling_apply_idx_default_total.
  destruct (fast b || out), (bad_window w xs); reflexivity.
Qed.

Theorem C02_backend_slice_form :
  forall (T St O : Type) (b : backend) (out : bool) (w : nat) (f : St -> list T -> St * O) (s0 : St) (xs : list T),
    rolling_custom_on b out w f s0 xs =
    if fast b then (if bad_window w xs then Panicked AssertFail else Done (run f s0 (windows w xs)))
    else (if w =? 0 then Panicked Underflow else Done (run f s0 (windows w xs))).
Proof.
  intros. unfold rolling_custom_on. rewrite rolling_custom_to_total, rolling_custom_default_total. reflexivity.
Qed.

Theorem C02_backend_two_series_remove_form :
  forall (T1 T2 St O : Type) (b : backend) (out : bool) (w : nat)
         (f : St -> option (T1 * T2) * (T1 * T2) -> St * O) (s0 : St) (xs : list T1) (ys : list T2),
    rolling2_apply_on b out w f s0 xs ys =
    if fast b || out then
      (if length ys <? length xs then Panicked AssertFail
       else if bad_window w xs then Panicked AssertFail
       else Done (run f s0 (mapi (fun i v => (removed_to w (combine xs ys) i, v)) (combine xs ys))))
    else
      (if bad_window w xs then Panicked AssertFail
       else Done (run f s0 (mapi (fun i v => (removed w (combine xs ys) i, v)) (combine xs ys)))).
Proof.
  intros. unfold rolling2_apply_on. rewrite on_cases, rolling2_apply_to_total, rolling2_apply_default_total.
  reflexivity.
Qed.

Theorem C02_backend_two_series_index_form :
  forall (T1 T2 St O : Type) (b : backend) (out : bool) (w : nat)
         (f : St -> option nat * nat * (T1 * T2) -> St * O) (s0 : St) (xs : list T1) (ys : list T2),
    rolling2_apply_idx_on b out w f s0 xs ys =
    if fast b || out then
      (if length ys <? length xs then Panicked AssertFail
       else if bad_window w xs then Panicked AssertFail
       else Done (run f s0 (mapi (fun i v => (start_of (Nat.min w (length (combine xs ys))) i, i, v)) (combine xs ys))))
    else
      (if bad_window w xs then Panicked AssertFail
       else Done (run f s0 (mapi (fun i v => (start_of w i, i, v)) (combine xs ys)))).
Proof.
  intros. unfold rolling2_apply_idx_on. rewrite on_cases, rolling2_apply_idx_to_total, rolling2_apply_idx_default_total.
  reflexivity.
Qed.

Theorem C02_backend_two_series_slice_form :
  forall (T1 T2 St O : Type) (b : backend) (out : bool) (w : nat) (f : St -> list T1 * list T2 -> St * O) (s0 : St)
         (xs : list T1) (ys : list T2),
    rolling2_custom_on b out w f s0 xs ys =
    if length ys <? length xs then Panicked AssertFail
    else if w =? 0 then Panicked Underflow
    else Done (run f s0 (map (fun i => (win w i xs, win w i ys)) (seq 0 (length xs)))).
Proof. intros. apply rolling2_custom_default_total. Qed.

(* Arc<V> is V; on the overriding backends the output path does not matter *)
Theorem C02_backend_arc_and_fast_path :
  forall (T St O : Type) (b : backend) (out : bool) (w : nat) (f : St -> option T * T -> St * O)
         (g : St -> option nat * nat * T -> St * O) (h : St -> list T -> St * O) (s0 : St) (xs : list T),
    (rolling_apply_on (BArc b) out w f s0 xs = rolling_apply_on b out w f s0 xs /\
     rolling_apply_idx_on (BArc b) out w g s0 xs = rolling_apply_idx_on b out w g s0 xs /\
     rolling_custom_on (BArc b) out w h s0 xs = rolling_custom_on b out w h s0 xs) /\
    (fast b = true ->
     rolling_apply_on b false w f s0 xs = rolling_apply_on b true w f s0 xs /\
     rolling_apply_idx_on b false w g s0 xs = rolling_apply_idx_on b true w g s0 xs /\
     rolling_custom_on b false w h s0 xs = rolling_custom_on b true w h s0 xs).
Proof.
  intros. split; [repeat split|]. intros Hb. unfold rolling_apply_on, rolling_apply_idx_on, rolling_custom_on.
  rewrite Hb. repeat split.
Qed.

(* what must NOT depend on the backend or the path: every callback when the window fits; add-emit-remove
   callbacks always; the slice form at every window >= 1 *)
Theorem C02_backends_agree_when_window_fits :
  forall (T St O : Type) (b1 b2 : backend) (o1 o2 : bool) (w : nat) (f : St -> option T * T -> St * O)
         (g : St -> option nat * nat * T -> St * O) (s0 : St) (xs : list T),
    w <= length xs \/ xs = [] ->
    rolling_apply_on b1 o1 w f s0 xs = rolling_apply_on b2 o2 w f s0 xs /\
    rolling_apply_idx_on b1 o1 w g s0 xs = rolling_apply_idx_on b2 o2 w g s0 xs.
Proof.
  intros T St O b1 b2 o1 o2 w f g s0 xs H.
  destruct (C02_bodies_equal_when_window_fits T St O w f g s0 xs H). split; apply on_agree; assumption.
Qed.

Theorem C02_backends_agree_add_emit_remove :
  forall (T St O : Type) (pre : St -> T -> St) (emit : St -> O) (post : St -> option T -> St)
         (prei : St -> nat -> T -> St) (posti : St -> option nat -> St)
         (b1 b2 : backend) (o1 o2 : bool) (w : nat) (s0 : St) (xs : list T),
    rolling_apply_on b1 o1 w (aer pre emit post) s0 xs = rolling_apply_on b2 o2 w (aer pre emit post) s0 xs /\
    rolling_apply_idx_on b1 o1 w (aer_idx prei emit posti) s0 xs
    = rolling_apply_idx_on b2 o2 w (aer_idx prei emit posti) s0 xs.
Proof.
  intros. split; apply on_agree; [apply rolling_apply_bodies_agree_total|apply rolling_apply_idx_bodies_agree_every_window].
Qed.

Theorem C02_backends_agree_two_series_add_emit_remove :
  forall (T1 T2 St O : Type) (pre : St -> T1 * T2 -> St) (emit : St -> O) (post : St -> option (T1 * T2) -> St)
         (prei : St -> nat -> T1 * T2 -> St) (posti : St -> option nat -> St)
         (b1 b2 : backend) (o1 o2 : bool) (w : nat) (s0 : St) (xs : list T1) (ys : list T2),
    length xs <= length ys ->
    rolling2_apply_on b1 o1 w (aer pre emit post) s0 xs ys = rolling2_apply_on b2 o2 w (aer pre emit post) s0 xs ys /\
    rolling2_apply_idx_on b1 o1 w (aer_idx prei emit posti) s0 xs ys
    = rolling2_apply_idx_on b2 o2 w (aer_idx prei emit posti) s0 xs ys.
Proof.
  intros. split; apply on_agree;
    [apply rolling2_apply_bodies_agree|apply rolling2_apply_idx_bodies_agree_every_window]; assumption.
Qed.

Theorem C02_backends_agree_slice_form :
  forall (T St O : Type) (b1 b2 : backend) (o1 o2 : bool) (w : nat) (f : St -> list T -> St * O) (s0 : St) (xs : list T),
    1 <= w -> rolling_custom_on b1 o1 w f s0 xs = rolling_custom_on b2 o2 w f s0 xs.
Proof.
  intros. unfold rolling_custom_on. rewrite rolling_custom_to_eq, rolling_custom_default_eq by assumption.
  destruct (fast b1), (fast b2); reflexivity.
Qed.

(* window 0 is the one place where the slice form depends on the backend *)
Theorem C02_backend_slice_form_window0 :
  forall (T St O : Type) (b : backend) (out : bool) (f : St -> list T -> St * O) (s0 : St) (xs : list T),
    rolling_custom_on b out 0 f s0 xs =
    if fast b then (match xs with [] => Done [] | _ => Panicked AssertFail end) else Panicked Underflow.
Proof.
  intros. rewrite C02_backend_slice_form. destruct (fast b); [|reflexivity]. destruct xs; reflexivity.
Qed.

(* output placement per entry point: either the window assertion, or an output as long as the input whose
   slot i holds the callback's result on the i-th argument (which carries x_i) in the state after the first i *)
Theorem C02_backend_output_placement :
  forall (T St O : Type) (b : backend) (out : bool) (w : nat) (f : St -> option T * T -> St * O) (s0 : St) (xs : list T),
    (bad_window w xs = true /\ rolling_apply_on b out w f s0 xs = Panicked AssertFail) \/
    (bad_window w xs = false /\ exists l args, rolling_apply_on b out w f s0 xs = Done l /\
       length args = length xs /\ length l = length xs /\
       (forall i v, nth_error xs i = Some v -> exists r, nth_error args i = Some (r, v)) /\
       (forall i a, nth_error args i = Some a ->
          nth_error l i = Some (snd (f (state_after f s0 (firstn i args)) a)))).
Proof.
  intros. rewrite C02_backend_remove_form. destruct (bad_window w xs); [left; auto|]. right. split; [reflexivity|].
  eexists. eexists. split; [reflexivity|]. split; [apply mapi_length|].
  split; [rewrite run_length; apply mapi_length|]. split.
  - intros i v Hv. rewrite nth_error_mapi, Hv. cbn [option_map]. eexists. reflexivity.
  - intros i a Ha. apply run_nth. exact Ha.
Qed.

(* (A11) the lazy iterator (view.rs:310): `window - 1` when it is built; pulling k items runs the callback on
         the first k windows in order and on nothing else; draining it is the returned slice form *)
Theorem C02_lazy_iterator :
  forall (T St O : Type) (k w : nat) (f : St -> list T -> St * O) (s0 : St) (xs : list T),
    rolling_custom_iter_take k w f s0 xs =
    if w =? 0 then Panicked Underflow else Done (run f s0 (firstn k (windows w xs))).
Proof. exact @rolling_custom_iter_take_total. Qed.

Theorem C02_lazy_iterator_prefix :
  forall (T St O : Type) (k w : nat) (f : St -> list T -> St * O) (s0 : St) (xs : list T),
    1 <= w ->
    rolling_custom_iter_take k w f s0 xs = Done (firstn k (run f s0 (windows w xs))) /\
    length (firstn k (run f s0 (windows w xs))) = Nat.min k (length xs).
Proof.
  intros T St O k w f s0 xs Hw. rewrite rolling_custom_iter_take_total. destruct w; [lia|]. cbn [Nat.eqb].
  rewrite run_firstn. split; [reflexivity|]. rewrite firstn_length, run_length, windows_length. reflexivity.
Qed.

Theorem C02_lazy_iterator_drained :
  forall (T St O : Type) (k w : nat) (f : St -> list T -> St * O) (s0 : St) (xs : list T),
    length xs <= k -> rolling_custom_iter_take k w f s0 xs = rolling_custom_default w f s0 xs.
Proof.
  intros T St O k w f s0 xs Hk. rewrite rolling_custom_iter_take_total, rolling_custom_default_total.
  rewrite firstn_all2 by (rewrite windows_length; exact Hk). reflexivity.
Qed.

(* non-vacuity of the implications (A1)-(A11) *)
Example C02_example_audit :
  let f := fun (s : nat) (a : option nat * nat) => (s + 1, (s, a)) in
  let g := fun (s : nat) (a : option nat * nat * nat) => (s + 1, (s, a)) in
  let h := fun (s : nat) (l : list nat) => (s + 1, (s, l)) in
  nth_error (run (logged f) (0, []) [(None, 7); (Some 7, 8)]) 1
    = Some ((1, (Some 7, 8)), [(None, 7); (Some 7, 8)])
  /\ win 2 2 [5; 6; 7; 8] = [6; 7] /\ Nat.min 2 (S 2) = 2
  /\ removed 2 (combine [1; 2; 3] [4; 5; 6]) 2 = Some (2, 5)
  /\ (removed_to 5 [7; 8] 1 = Some 7 /\ removed 5 [7; 8] 1 = None)
  /\ rolling_apply_to 2 f 0 [7; 8; 9] = rolling_apply_default 2 f 0 [7; 8; 9]
  /\ rolling_apply_idx_to 5 (aer_idx (fun s e v => s + e + v) (fun s => s) (fun s st => s)) 0 [7; 8]
     = rolling_apply_idx_default 5 (aer_idx (fun s e v => s + e + v) (fun s => s) (fun s st => s)) 0 [7; 8]
  /\ rolling_apply_to 1 f 0 [7; 8] = Done [(0, (Some 7, 7)); (1, (Some 8, 8))]
  /\ rolling_apply_idx_to 5 g 0 [7; 8] = Done [(0, (None, 0, 7)); (1, (Some 0, 1, 8))]
  /\ rolling_apply_idx_default 5 g 0 [7; 8] = Done [(0, (None, 0, 7)); (1, (None, 1, 8))]
  /\ rolling_custom_to 5 h 0 [7; 8] = Done [(0, [7]); (1, [7; 8])]
  /\ rolling_apply_on (BArc BDeque) false 5 f 0 [7; 8] = Done [(0, (None, 7)); (1, (None, 8))]
  /\ rolling_apply_on (BArc BDeque) true 5 f 0 [7; 8] = Done [(0, (None, 7)); (1, (Some 7, 8))]
  /\ rolling_apply_on BNdView false 5 f 0 [7; 8] = Done [(0, (None, 7)); (1, (Some 7, 8))]
  /\ rolling_custom_on BVec false 0 h 0 [7] = Panicked AssertFail
  /\ rolling_custom_on BDeque false 0 h 0 [7] = Panicked Underflow
  /\ rolling_custom_on BVec false 0 h 0 [] = Done []
  /\ rolling_custom_on BDeque true 0 h 0 [] = Panicked Underflow
  /\ rolling2_apply_on BDeque false 1 (fun (s : nat) a => (s, a)) 0 [7; 8] [1] = Done [(Some (7, 1), (7, 1))]
  /\ rolling2_apply_on BVec false 1 (fun (s : nat) (a : option (nat * nat) * (nat * nat)) => (s, a)) 0 [7; 8] [1]
     = Panicked AssertFail
  /\ rolling_custom_iter_take 2 2 h 0 [7; 8; 9] = Done [(0, [7]); (1, [7; 8])]
  /\ rolling_custom_iter_take 0 0 h 0 [7] = Panicked Underflow
  /\ rolling_custom_iter_take 9 2 h 0 [7; 8; 9] = rolling_custom_default 2 h 0 [7; 8; 9].
Proof. vm_compute. repeat split. Qed.

Print Assumptions C02_once_in_order_returned.
Print Assumptions C02_once_in_order_buffer.
Print Assumptions C02_once_in_order_idx_returned.
Print Assumptions C02_once_in_order_idx_buffer.
Print Assumptions C02_removed_arg_returned.
Print Assumptions C02_removed_arg_buffer.
Print Assumptions C02_start_index.
Print Assumptions C02_slice_arg_returned.
Print Assumptions C02_slice_arg_buffer.
Print Assumptions C02_output_placement.
Print Assumptions C02_output_length.
Print Assumptions C02_bodies_same_removed.
Print Assumptions C02_bodies_agree.
Print Assumptions C02_every_window_returned.
Print Assumptions C02_every_window_buffer.
Print Assumptions C02_every_window_idx_returned.
Print Assumptions C02_every_window_idx_buffer.
Print Assumptions C02_every_window_slice_returned.
Print Assumptions C02_every_window_slice_buffer.
Print Assumptions C02_bodies_agree_every_window.
Print Assumptions C02_two_series_returned.
Print Assumptions C02_two_series_buffer.
Print Assumptions C02_two_series_idx_returned.
Print Assumptions C02_two_series_idx_buffer.
Print Assumptions C02_two_series_slice.
Print Assumptions C02_two_series_start_iterator.
Print Assumptions C02_window_check_first_vs_zipped.
Print Assumptions C02_two_series_returned_window0.
Print Assumptions C02_two_series_check_returned.
Print Assumptions C02_two_series_check_buffer.
Print Assumptions C02_two_series_bodies_agree.
Print Assumptions C02_two_series_idx_bodies_agree.
Print Assumptions C02_two_series_shorter_second.
Print Assumptions C02_call_trace.
Print Assumptions C02_call_trace_results_unchanged.
Print Assumptions C02_slice_positions.
Print Assumptions C02_removed_pair.
Print Assumptions C02_bodies_differ_exactly_at.
Print Assumptions C02_bodies_differ_observably.
Print Assumptions C02_bodies_equal_when_window_fits.
Print Assumptions C02_slice_bodies_equal.
Print Assumptions C02_idx_bodies_agree_every_window.
Print Assumptions C02_two_series_idx_bodies_agree_every_window.
Print Assumptions C02_window_one.
Print Assumptions C02_empty_series.
Print Assumptions C02_window_longer_remove_form.
Print Assumptions C02_window_longer_index_form.
Print Assumptions C02_window_longer_slice_form.
Print Assumptions C02_backend_remove_form.
Print Assumptions C02_backend_index_form.
Print Assumptions C02_backend_slice_form.
Print Assumptions C02_backend_two_series_remove_form.
Print Assumptions C02_backend_two_series_index_form.
Print Assumptions C02_backend_two_series_slice_form.
Print Assumptions C02_backend_arc_and_fast_path.
Print Assumptions C02_backends_agree_when_window_fits.
Print Assumptions C02_backends_agree_add_emit_remove.
Print Assumptions C02_backends_agree_two_series_add_emit_remove.
Print Assumptions C02_backends_agree_slice_form.
Print Assumptions C02_backend_slice_form_window0.
Print Assumptions C02_backend_output_placement.
Print Assumptions C02_lazy_iterator.
Print Assumptions C02_lazy_iterator_prefix.
Print Assumptions C02_lazy_iterator_drained.
