(* Props/C08.v — property C08: NaN and None are the same null, and nulls are transparent to the valid
   aggregations.  The lemmas are in Proofs/ViewBase.v, NullView.v, NullOrder.v, EncRolling.v, EncMaps.v, CastOutput.v,
   EncRank.v, TransQuantile.v, TransRank.v, TransPartition.v, RankTransparent.v, QIdxFloat.v, Audit08.v, Audit08Float.v.

   Reading guide.  A : the inner numeric type (any carrier: the theorems use no law of the numeric class, so
   they hold bit for bit at binary64 as well as at option R and Z);  T with D : IsNone T A : an element type
   with its null dictionary — IsNone_float (NaN is the null, unwrap = id), IsNone_option (None), the option
   view's own dictionary IsNone_view (what `.opt()` / OptIter iterates over).
     same_view D1 D2 a b   to_opt a = to_opt b : the two elements encode the same logical value
     SameView D1 D2 xs ys  pointwise (Forall2): the two series encode the same logical series
     vals xs               the non-null elements, unwrapped, in order
     NullInsert xs ys      ys is xs with null elements inserted at arbitrary positions
     PairInsert zs zs'     zs' is the zipped pair series zs with pairs inserted that are not pairwise complete
                           ((null, null), (null, v), (v, null) with v arbitrary): pairwise deletion
   Groups: C08_encoding_* (a), C08_output_encoding (b), C08_transparent_* (c); then the quantile at binary64, the rank
   map at a generic carrier, and the clause-by-clause theorems of notes/C08.md "Audit matrix".               *)
From Coq Require Import Reals List ZArith.
From Tevec Require Import Base.Prelude Base.Num Base.XR Model.Driver Model.Features Model.Cmp Model.Norm
     Model.Binary Model.Reg Model.Fdiff Model.Agg Model.NullView
     Proofs.AggGeneric Proofs.ViewBase Proofs.NullView Proofs.EncRolling.
From Tevec Require Model.SortCmp Model.Quantile Model.Rank Model.Partition Model.MapOps Model.Cast Proofs.Cast Proofs.NullOrder
     Proofs.EncMaps Proofs.CastOutput Proofs.EncRank Proofs.TransQuantile Proofs.TransRank Proofs.TransPartition.
Import ListNotations.

(* ======================= (a) re-encoding the input ======================================================= *)

(* what "the same logical series" means: equal option views; the view `.opt()` itself is such an encoding, and
   so is the Option<f64> rendering of a float series *)
Theorem C08_encoding_same_view_iff :
  forall {A T1 T2} (D1 : IsNone T1 A) (D2 : IsNone T2 A) (xs1 : list T1) (xs2 : list T2),
    SameView D1 D2 xs1 xs2 <-> opt_view xs1 = opt_view xs2.
Proof. intros. apply same_view_opt_view. Qed.

Theorem C08_encoding_option_view :
  forall {A T} (D : IsNone T A) (dflt : A) (xs : list T), SameView D (IsNone_view dflt) xs (opt_view xs).
Proof. intros. apply view_same_view. Qed.

Theorem C08_encoding_float_vs_option :
  forall {A} {NA : Num A} (xs : list A),
    SameView IsNone_float IsNone_option xs (map (fun x => if nisnan x then None else Some x) xs).
Proof.
  intros A NA xs. unfold SameView. induction xs as [|x xs IH]; [constructor|]. cbn [map]. constructor; [|exact IH].
  unfold same_view, to_opt. cbn [is_none unwrap IsNone_float IsNone_option]. destruct (nisnan x); reflexivity.
Qed.

(* the valid elements are the same *)
Theorem C08_encoding_valid_elements :
  forall {A T1 T2} (D1 : IsNone T1 A) (D2 : IsNone T2 A) (xs1 : list T1) (xs2 : list T2),
    SameView D1 D2 xs1 xs2 -> vals xs1 = vals xs2 /\ length xs1 = length xs2.
Proof. intros A T1 T2 D1 D2 xs1 xs2 H. split; [apply (vals_same_view H)|apply (Forall2_len H)]. Qed.

(* ---- aggregations (Model/Agg.v), every carrier, every statistic carrier F and cast tof, every min_periods *)
Theorem C08_encoding_aggregations :
  forall {A} {NA : Num A} {T1 T2} (D1 : IsNone T1 A) (D2 : IsNone T2 A) {F} {NF : Num F} (tof : A -> F)
         (xs1 : list T1) (xs2 : list T2),
    SameView D1 D2 xs1 xs2 ->
    count_valid xs1 = count_valid xs2 /\ count_none xs1 = count_none xs2 /\
    vsum xs1 = vsum xs2 /\ vmean tof xs1 = vmean tof xs2 /\
    vmin xs1 = vmin xs2 /\ vmax xs1 = vmax xs2 /\
    vargmin xs1 = vargmin xs2 /\ vargmax xs1 = vargmax xs2 /\
    option_map (to_opt (H := D1)) (vfirst xs1) = option_map (to_opt (H := D2)) (vfirst xs2) /\
    option_map (to_opt (H := D1)) (vlast xs1) = option_map (to_opt (H := D2)) (vlast xs2) /\
    (forall mp, vmean_var tof mp xs1 = vmean_var tof mp xs2 /\ vvar tof mp xs1 = vvar tof mp xs2 /\
                vstd tof mp xs1 = vstd tof mp xs2 /\ vskew tof mp xs1 = vskew tof mp xs2 /\
                vkurt tof mp xs1 = vkurt tof mp xs2) /\
    (forall (v1 : T1) (v2 : T2), same_view D1 D2 v1 v2 -> vcount_value v1 xs1 = vcount_value v2 xs2).
Proof.
  intros A NA T1 T2 D1 D2 F NF tof xs1 xs2 HS.
  destruct (agg_of_vals tof _ _ (vals_same_view HS)) as (Hcv & Hsum & Hmean & Hmin & Hmax & _ & _ & Hmom & _).
  split; [exact Hcv|]. split; [apply count_none_same_view; exact HS|].
  split; [exact Hsum|]. split; [exact Hmean|]. split; [exact Hmin|]. split; [exact Hmax|].
  split; [apply vargmin_same_view; exact HS|]. split; [apply vargmax_same_view; exact HS|].
  split; [apply vfirst_same_view; exact HS|]. split; [apply vlast_same_view; exact HS|].
  split; [exact Hmom|]. intros v1 v2 E. apply vcount_value_same_view; assumption.
Qed.

(* two series, each re-encoded independently (f64 x Option<f64>, ...) *)
Theorem C08_encoding_two_series :
  forall {A} {NA : Num A} {F} {NF : Num F} (tof : A -> F) {T1 T2 U1 U2}
         (D1 : IsNone T1 A) (D2 : IsNone T2 A) (E1 : IsNone U1 A) (E2 : IsNone U2 A)
         (xs : list T1) (ys : list T2) (xs' : list U1) (ys' : list U2) (mp : nat),
    SameView D1 E1 xs xs' -> SameView D2 E2 ys ys' ->
    vcov tof mp xs ys = vcov tof mp xs' ys' /\ vcorr_pearson tof mp xs ys = vcorr_pearson tof mp xs' ys'.
Proof.
  intros A NA F NF tof T1 T2 U1 U2 D1 D2 E1 E2 xs ys xs' ys' mp HX HY.
  pose proof (vpairs_same_view HX HY) as HP. split; [apply vcov_pairs; exact HP|apply vcorr_pairs; exact HP].
Qed.

(* ---- order statistics (Model/Quantile.v): every q (also out of range / NaN), every method *)
Theorem C08_encoding_order_statistics :
  forall {A} {NA : Num A} {NF : SortCmp.NumFloor A} {T1 T2} (D1 : IsNone T1 A) (D2 : IsNone T2 A)
         (xs1 : list T1) (xs2 : list T2),
    SameView D1 D2 xs1 xs2 ->
    (forall q m, Quantile.vquantile (DT := D1) q m xs1 = Quantile.vquantile (DT := D2) q m xs2) /\
    Quantile.vmedian (DT := D1) xs1 = Quantile.vmedian (DT := D2) xs2 /\
    (forall (sc1 : T1) (sc2 : T2) m, same_view D1 D2 sc1 sc2 ->
       Quantile.vpercentile_of (DT := D1) sc1 m xs1 = Quantile.vpercentile_of (DT := D2) sc2 m xs2).
Proof.
  intros A NA NF T1 T2 D1 D2 xs1 xs2 HS. split; [|split].
  - intros q m. apply NullOrder.vquantile_same_view. exact HS.
  - apply NullOrder.vmedian_same_view. exact HS.
  - intros sc1 sc2 m E. apply NullOrder.vpercentile_of_same_view; assumption.
Qed.

(* ---- rolling families: both driver bodies, EVERY window (0 included), every min_periods ------------------ *)
(* the generic statement: two add-emit-remove features whose steps agree on related elements *)
Theorem C08_encoding_rolling_generic :
  forall {T1 T2 St O} (Rel : T1 -> T2 -> Prop) (F1 : feat T1 St O) (F2 : feat T2 St O),
    f_init F1 = f_init F2 -> (forall s, f_emit F1 s = f_emit F2 s) ->
    (forall s a b, Rel a b -> f_pre F1 s a = f_pre F2 s b) ->
    (forall s, f_post F1 s None = f_post F2 s None) ->
    (forall s a b, Rel a b -> f_post F1 s (Some a) = f_post F2 s (Some b)) ->
    forall xs1 xs2 w body, Forall2 Rel xs1 xs2 -> ts_run F1 body w xs1 = ts_run F2 body w xs2.
Proof. intros T1 T2 St O Rel F1 F2 H1 H2 H3 H4 H5 xs1 xs2 w body HF. apply (ts_run_rel (R := Rel)); assumption. Qed.

(* ts_vsum ts_vmean ts_vvar ts_vstd ts_vskew ts_vkurt (any emit function of the power sums), ts_vewm, ts_vwma *)
Theorem C08_encoding_rolling_moments :
  forall {A} {NA : Num A} {T1 T2} (D1 : IsNone T1 A) (D2 : IsNone T2 A) (xs1 : list T1) (xs2 : list T2) (w : nat) (body : bool),
    SameView D1 D2 xs1 xs2 ->
    (forall emit, ts_run (mom_feat (DT := D1) emit) body w xs1 = ts_run (mom_feat (DT := D2) emit) body w xs2) /\
    (forall w0 mp, ts_run (ts_vewm_f (DT := D1) w0 mp) body w xs1 = ts_run (ts_vewm_f (DT := D2) w0 mp) body w xs2) /\
    (forall w0 mp, ts_run (ts_vwma_f (DT := D1) w0 mp) body w xs1 = ts_run (ts_vwma_f (DT := D2) w0 mp) body w xs2).
Proof.
  intros A NA T1 T2 D1 D2 xs1 xs2 w body HS. split; [|split].
  - intros emit. apply mom_same_view. exact HS.
  - intros w0 mp. apply ewm_same_view. exact HS.
  - intros w0 mp. apply wma_same_view. exact HS.
Qed.

(* ts_vzscore, ts_vreg ts_vtsf ts_vreg_slope ts_vreg_intercept ts_vreg_resid_mean (any emit function of the trend sums) *)
Theorem C08_encoding_rolling_zscore_trend :
  forall {A} {NA : Num A} {T1 T2} (D1 : IsNone T1 A) (D2 : IsNone T2 A) (xs1 : list T1) (xs2 : list T2) (w : nat) (body : bool),
    SameView D1 D2 xs1 xs2 ->
    (forall mp, ts_vzscore (DT := D1) body w mp xs1 = ts_vzscore (DT := D2) body w mp xs2) /\
    (forall emit, ts_run (tr_feat (DT := D1) emit) body w xs1 = ts_run (tr_feat (DT := D2) emit) body w xs2).
Proof.
  intros A NA T1 T2 D1 D2 xs1 xs2 w body HS. split.
  - intros mp. apply zscore_same_view. exact HS.
  - intros emit. apply trend_same_view. exact HS.
Qed.

(* ts_vmin ts_vmax ts_vargmin ts_vargmax ts_vrank ts_vminmaxnorm: the window-index family *)
Theorem C08_encoding_rolling_cmp :
  forall {A} {NA : Num A} {T1 T2} (D1 : IsNone T1 A) (D2 : IsNone T2 A) (xs1 : list T1) (xs2 : list T2)
         (w : nat) (mp : option nat) (body : bool),
    SameView D1 D2 xs1 xs2 ->
    ts_vmin (DT := D1) body w mp xs1 = ts_vmin (DT := D2) body w mp xs2 /\
    ts_vmax (DT := D1) body w mp xs1 = ts_vmax (DT := D2) body w mp xs2 /\
    ts_vargmin (DT := D1) body w mp xs1 = ts_vargmin (DT := D2) body w mp xs2 /\
    ts_vargmax (DT := D1) body w mp xs1 = ts_vargmax (DT := D2) body w mp xs2 /\
    (forall {B} {NB : Num B} pct rev,
       ts_vrank (DT := D1) (B := B) body w mp pct rev xs1 = ts_vrank (DT := D2) (B := B) body w mp pct rev xs2) /\
    (forall tmin tmax, ts_vminmaxnorm (DT := D1) tmin tmax body w mp xs1 = ts_vminmaxnorm (DT := D2) tmin tmax body w mp xs2).
Proof.
  intros A NA T1 T2 D1 D2 xs1 xs2 w mp body HS.
  split; [apply ts_vext_same_view; exact HS|]. split; [apply ts_vext_same_view; exact HS|].
  split; [apply ts_varg_same_view; exact HS|]. split; [apply ts_varg_same_view; exact HS|].
  split.
  - intros B NB pct rev. apply ts_vrank_same_view. exact HS.
  - intros tmin tmax. apply ts_vminmaxnorm_same_view. exact HS.
Qed.

(* ts_vcov ts_vcorr ts_vregx_alpha ts_vregx_beta ts_vregx_all (any emit function of the cross sums) and the three
   residual statistics; the two series are re-encoded independently *)
Theorem C08_encoding_rolling_two_series :
  forall {A} {NA : Num A} {T1 T2 U1 U2} (D1 : IsNone T1 A) (D2 : IsNone T2 A) (E1 : IsNone U1 A) (E2 : IsNone U2 A)
         (xs : list T1) (ys : list T2) (xs' : list U1) (ys' : list U2) (w : nat) (body : bool),
    SameView D1 E1 xs xs' -> SameView D2 E2 ys ys' ->
    (forall {O} (emit : @csum A -> O),
       ts_run2 (csum_feat (D1 := D1) (D2 := D2) emit) body w xs ys =
       ts_run2 (csum_feat (D1 := E1) (D2 := E2) emit) body w xs' ys') /\
    (forall k mp, ts_vregx_resid (D1 := D1) (D2 := D2) k body w mp xs ys =
                  ts_vregx_resid (D1 := E1) (D2 := E2) k body w mp xs' ys').
Proof.
  intros A NA T1 T2 U1 U2 D1 D2 E1 E2 xs ys xs' ys' w body HX HY. split.
  - intros O emit. apply csum_same_view; assumption.
  - intros k mp. apply resid_same_view; assumption.
Qed.

Theorem C08_encoding_rolling_vfdiff :
  forall {A} {NA : Num A} {T1 T2} (D1 : IsNone T1 A) (D2 : IsNone T2 A) (d : A) (xs1 : list T1) (xs2 : list T2)
         (w : nat) (mp : option nat) (body : bool),
    SameView D1 D2 xs1 xs2 -> ts_vfdiff (DT := D1) body d w mp xs1 = ts_vfdiff (DT := D2) body d w mp xs2.
Proof. intros. apply vfdiff_same_view. assumption. Qed.

(* ---- maps (Model/MapOps.v): the results are element-wise related (same nullness, same unwrapped value) *)
Theorem C08_encoding_maps :
  forall {T1 T2 I} (d1 : MapOps.NullDict T1 I) (d2 : MapOps.NullDict T2 I),
    EncMaps.none_rel d1 d2 ->
    forall (xs1 : list T1) (xs2 : list T2), Forall2 (EncMaps.mrel d1 d2) xs1 xs2 ->
    (forall n v1 v2, EncMaps.opt_mrel d1 d2 v1 v2 ->
       EncMaps.res_rel d1 d2 (MapOps.vshift d1 n v1 xs1) (MapOps.vshift d2 n v2 xs2)) /\
    (forall v1 v2, EncMaps.opt_mrel d1 d2 v1 v2 ->
       EncMaps.res_rel d1 d2 (MapOps.ffill d1 v1 xs1) (MapOps.ffill d2 v2 xs2) /\
       EncMaps.res_rel d1 d2 (MapOps.bfill d1 v1 xs1) (MapOps.bfill d2 v2 xs2)) /\
    (forall v1 v2, EncMaps.mrel d1 d2 v1 v2 ->
       Forall2 (EncMaps.mrel d1 d2) (MapOps.fill d1 v1 xs1) (MapOps.fill d2 v2 xs2)) /\
    (forall ltb lo1 lo2 hi1 hi2, EncMaps.mrel d1 d2 lo1 lo2 -> EncMaps.mrel d1 d2 hi1 hi2 ->
       EncMaps.res_rel d1 d2 (MapOps.vclip d1 ltb lo1 hi1 xs1) (MapOps.vclip d2 ltb lo2 hi2 xs2)) /\
    (forall {F} (o : MapOps.FOps F) cast1 cast2 n, EncMaps.cast_rel d1 d2 o cast1 cast2 ->
       MapOps.vpct_change d1 o cast1 n xs1 = MapOps.vpct_change d2 o cast2 n xs2) /\
    (forall iabs, EncMaps.imap_rel d1 d2 iabs ->
       EncMaps.res_rel d1 d2 (MapOps.vabs d1 iabs xs1) (MapOps.vabs d2 iabs xs2)).
Proof.
  intros T1 T2 I d1 d2 Hn xs1 xs2 HS.
  split; [intros; apply EncMaps.vshift_rel; assumption|].
  split; [intros v1 v2 Hv; split; [apply EncMaps.ffill_rel|apply EncMaps.bfill_rel]; assumption|].
  split; [intros; apply EncMaps.fill_rel; assumption|].
  split; [intros; apply EncMaps.vclip_rel; assumption|].
  split; [intros F o cast1 cast2 n Hc; apply EncMaps.vpct_rel; assumption|].
  intros iabs Hi. apply EncMaps.vabs_rel; assumption.
Qed.

(* the relation is satisfied by the two real dictionaries (f64 with NaN, Option<f64>) on canonical encodings *)
Theorem C08_encoding_maps_instances :
  forall {A} (inan : A -> bool) (nanv : A), inan nanv = true ->
    EncMaps.none_rel (MapOps.dict_float inan nanv) (MapOps.dict_opt inan) /\
    (forall xs : list A, Forall2 (EncMaps.mrel (MapOps.dict_float inan nanv) (MapOps.dict_opt inan)) xs
                                 (map (fun x => if inan x then None else Some x) xs)) /\
    (forall f : A -> A, (forall x, inan x = true -> inan (f x) = true) ->
                        EncMaps.imap_rel (MapOps.dict_float inan nanv) (MapOps.dict_opt inan) f).
Proof.
  intros A inan nanv H. split; [apply EncMaps.none_rel_float_opt; exact H|].
  split; [apply EncMaps.mrel_float_opt|apply EncMaps.imap_rel_float_opt].
Qed.

(* ---- the rank map `vrank` (vec_map.rs:112-276, Model/Rank.v) and the partitions (Model/Partition.v) ------------- *)
(* The following statement quantifies over
   ARBITRARY `IsNoneX` instances, i.e. over an arbitrary `==` (PartialEq) on the two element types, and the run-length
   loop of vrank detects ties with `==`: as it stands the statement is FALSE (C08_encoding_vrank_statement_refuted
   below: same series, same dictionary, two different `==`).  This is a defect of the recorded statement, not of the
   code or of the model: the missing hypothesis is that `==` agrees under the two encodings on non-null elements
   (EncRank.EqbView — true for f64 `==` vs Option<f64> `==`, C08_encoding_vrank_instances).  With it the statement holds
   for every carrier, every pct / rev: C08_encoding_vrank.                                                              *)
Definition C08_encoding_vrank_statement : Prop :=
  forall (A : Type) (NA : Num A) (T1 T2 : Type) (D1 : IsNone T1 A) (D2 : IsNone T2 A)
         (DX1 : SortCmp.IsNoneX T1 A) (DX2 : SortCmp.IsNoneX T2 A) (pct rev : bool) (xs1 : list T1) (xs2 : list T2),
    SameView D1 D2 xs1 xs2 ->
    Tevec.Model.Rank.vrank (DT := D1) (DX := DX1) pct rev xs1 = Tevec.Model.Rank.vrank (DT := D2) (DX := DX2) pct rev xs2.

Theorem C08_encoding_vrank_statement_refuted : ~ C08_encoding_vrank_statement.
Proof.
  intros H.
  specialize (H Z NumZ Z Z IsNone_float IsNone_float
                {| SortCmp.tnone := Ok 0%Z; SortCmp.teqb := fun _ _ => true |}
                {| SortCmp.tnone := Ok 0%Z; SortCmp.teqb := fun _ _ => false |}
                false false [1%Z; 2%Z] [1%Z; 2%Z]).
  assert (HS : SameView (IsNone_float (H := NumZ)) (IsNone_float (H := NumZ)) [1%Z; 2%Z] [1%Z; 2%Z])
    by (repeat constructor).
  specialize (H HS). vm_compute in H. discriminate H.
Qed.

(* vrank under re-encoding: EQUAL outputs (same nullness, same rank value at every position), every carrier, every
   pair of dictionaries whose `==` agree on non-null elements, every pct / rev, every series (also length 0 / 1, all
   null, ties) *)
Theorem C08_encoding_vrank :
  forall (A : Type) (NA : Num A) (T1 T2 : Type) (D1 : IsNone T1 A) (D2 : IsNone T2 A)
         (DX1 : SortCmp.IsNoneX T1 A) (DX2 : SortCmp.IsNoneX T2 A) (pct rev : bool) (xs1 : list T1) (xs2 : list T2),
    EncRank.EqbView D1 D2 DX1 DX2 -> SameView D1 D2 xs1 xs2 ->
    Tevec.Model.Rank.vrank (DT := D1) (DX := DX1) pct rev xs1 = Tevec.Model.Rank.vrank (DT := D2) (DX := DX2) pct rev xs2.
Proof. intros A NA T1 T2 D1 D2 DX1 DX2 pct rev xs1 xs2 HE HS. apply EncRank.vrank_view; assumption. Qed.

(* the hypotheses on `==` and on `T::none()` hold for the real dictionaries, in every combination *)
Theorem C08_encoding_vrank_instances :
  forall (A : Type) (NA : Num A),
    EncRank.EqbView (IsNone_float (A := A)) IsNone_option SortCmp.IsNoneX_float SortCmp.IsNoneX_option /\
    EncRank.EqbView (IsNone_option (A := A)) IsNone_float SortCmp.IsNoneX_option SortCmp.IsNoneX_float /\
    EncRank.EqbView (IsNone_float (A := A)) IsNone_float SortCmp.IsNoneX_float SortCmp.IsNoneX_float /\
    EncRank.EqbView (IsNone_option (A := A)) IsNone_option SortCmp.IsNoneX_option SortCmp.IsNoneX_option /\
    (nisnan (nnan (A := A)) = true ->
     EncRank.tnone_rel (IsNone_float (A := A)) IsNone_option SortCmp.IsNoneX_float SortCmp.IsNoneX_option /\
     EncRank.tnone_rel (IsNone_option (A := A)) IsNone_float SortCmp.IsNoneX_option SortCmp.IsNoneX_float).
Proof.
  intros A NA. split; [apply EncRank.eqb_view_float_option|]. split; [apply EncRank.eqb_view_option_float|].
  split; [apply EncRank.eqb_view_of_unwrap; apply EncRank.eqb_unwrap_float|].
  split; [apply EncRank.eqb_view_of_unwrap; apply EncRank.eqb_unwrap_option|].
  intros H. split; [apply EncRank.tnone_rel_float_option|apply EncRank.tnone_rel_option_float]; exact H.
Qed.

(* the concrete reading: a float series (NaN = null) and its Option rendering have the same ranks, for EVERY carrier *)
Theorem C08_encoding_vrank_float_vs_option :
  forall (A : Type) (NA : Num A) (pct rev : bool) (xs : list A),
    Tevec.Model.Rank.vrank (DT := IsNone_float) (DX := SortCmp.IsNoneX_float) pct rev xs =
    Tevec.Model.Rank.vrank (DT := IsNone_option) (DX := SortCmp.IsNoneX_option) pct rev
                           (map (fun x => if nisnan x then None else Some x) xs).
Proof.
  intros A NA pct rev xs. apply EncRank.vrank_view; [apply C08_encoding_float_vs_option|apply EncRank.eqb_view_float_option].
Qed.

(* vpartition returns elements of the input type: same panic, or outputs with pointwise equal option views — stated
   both ways; varg_partition returns indices: EQUAL outputs.  Every kth, sort, rev.  (The order of ties is unspecified
   in std; this is about the model's deterministic stable sort, whose ties keep the input order under both encodings.) *)
Theorem C08_encoding_partition :
  forall (A : Type) (NA : Num A) (T1 T2 : Type) (D1 : IsNone T1 A) (D2 : IsNone T2 A)
         (DX1 : SortCmp.IsNoneX T1 A) (DX2 : SortCmp.IsNoneX T2 A) (kth : nat) (sort rev : bool)
         (xs1 : list T1) (xs2 : list T2),
    SameView D1 D2 xs1 xs2 ->
    Tevec.Model.Partition.varg_partition (DT := D1) kth sort rev xs1
      = Tevec.Model.Partition.varg_partition (DT := D2) kth sort rev xs2 /\
    (EncRank.tnone_rel D1 D2 DX1 DX2 ->
     EncRank.res_view D1 D2 (Tevec.Model.Partition.vpartition (DT := D1) (DX := DX1) kth sort rev xs1)
                            (Tevec.Model.Partition.vpartition (DT := D2) (DX := DX2) kth sort rev xs2) /\
     EncRank.res_opt_view (D := D1) (Tevec.Model.Partition.vpartition (DT := D1) (DX := DX1) kth sort rev xs1)
       = EncRank.res_opt_view (D := D2) (Tevec.Model.Partition.vpartition (DT := D2) (DX := DX2) kth sort rev xs2)).
Proof.
  intros A NA T1 T2 D1 D2 DX1 DX2 kth sort rev xs1 xs2 HS. split; [apply EncRank.varg_partition_view; exact HS|].
  intros HT. pose proof (EncRank.vpartition_view D1 D2 DX1 DX2 xs1 xs2 HS kth sort rev HT) as H.
  split; [exact H|apply EncRank.res_view_opt_view; exact H].
Qed.

(* ======================= (b) the encoding of the output ================================================== *)
(* a result (f64, or Option<f64> for the rolling extrema) cast into f64 / f32 / Option<f64> / Option<i32>: null goes
   to null (None for the optional outputs), non-null to non-null; the casts never panic *)
Theorem C08_output_encoding :
  forall (F : Type) (X : Model.Cast.Ext F), Proofs.Cast.ExtLaws X ->
  forall (s t : Model.Cast.ty) (v : Model.Cast.val s) (w : Model.Cast.val t),
    In s CastOutput.result_tys -> In t CastOutput.output_tys -> Model.Cast.cast X s t v = Ok w ->
    (Model.Cast.is_none X s v = true -> Model.Cast.is_none X t w = true) /\
    (Model.Cast.canonical X s v = true -> Model.Cast.is_none X s v = false -> Model.Cast.is_none X t w = false) /\
    (Model.Cast.is_none X s v = true ->
     forall b (E : t = Model.Cast.Opt b), eq_rect t Model.Cast.val w (Model.Cast.Opt b) E = None).
Proof. exact CastOutput.output_encoding. Qed.

Theorem C08_output_cast_total :
  forall (F : Type) (X : Model.Cast.Ext F) (s t : Model.Cast.ty) (v : Model.Cast.val s),
    In s CastOutput.result_tys -> In t CastOutput.output_tys -> exists w, Model.Cast.cast X s t v = Ok w.
Proof. exact CastOutput.output_cast_total. Qed.

(* ======================= (c) nulls are transparent ======================================================== *)
Theorem C08_transparent_valid :
  forall {A T} {D : IsNone T A} (xs ys : list T), NullInsert xs ys -> vals ys = vals xs.
Proof. intros. apply vals_null_insert. assumption. Qed.

(* insertion by a boolean pattern (true = a null here) is an insertion; deleting every null is the extreme case *)
Theorem C08_transparent_patterns :
  forall {A T} {D : IsNone T A} (nl : T) (p : list bool) (xs : list T),
    is_none nl = true -> NullInsert xs (insert_pat nl p xs) /\ NullInsert (valid_elems xs) xs.
Proof. intros A T D nl p xs H. split; [apply insert_pat_insert; exact H|apply null_insert_valid_elems]. Qed.

(* counts of valid elements, sums, means, variances, higher moments, extrema, first / last valid value, counting a
   non-null value: every carrier, every dictionary, every insertion pattern, every min_periods *)
Theorem C08_transparent_aggregations :
  forall {A} {NA : Num A} {T} {D : IsNone T A} {F} {NF : Num F} (tof : A -> F) (xs ys : list T),
    NullInsert xs ys ->
    count_valid ys = count_valid xs /\ vsum ys = vsum xs /\ vmean tof ys = vmean tof xs /\
    vmin ys = vmin xs /\ vmax ys = vmax xs /\
    option_map unwrap (vfirst ys) = option_map unwrap (vfirst xs) /\
    option_map unwrap (vlast ys) = option_map unwrap (vlast xs) /\
    (forall mp, vmean_var tof mp ys = vmean_var tof mp xs /\ vvar tof mp ys = vvar tof mp xs /\
                vstd tof mp ys = vstd tof mp xs /\ vskew tof mp ys = vskew tof mp xs /\
                vkurt tof mp ys = vkurt tof mp xs) /\
    (forall v : T, not_none v = true -> vcount_value v ys = vcount_value v xs).
Proof.
  intros A NA T D F NF tof xs ys H.
  destruct (agg_of_vals tof _ _ (vals_null_insert H)) as (Hcv & Hsum & Hmean & Hmin & Hmax & Hf & Hl & Hmom & Hc & _).
  repeat (split; [assumption|]). intros v Hv. apply Hc; [reflexivity|exact Hv].
Qed.

(* percentile rank of a score: every carrier, every score (null or not), every method *)
Theorem C08_transparent_percentile_of :
  forall {A} {NA : Num A} {T} {D : IsNone T A} (sc : T) (m : Quantile.pmethod) (xs ys : list T),
    NullInsert xs ys -> Quantile.vpercentile_of sc m ys = Quantile.vpercentile_of sc m xs.
Proof. intros. apply NullOrder.vpercentile_of_insert. assumption. Qed.

(* quantiles and the median of a float series (exact reals; the instance of C08_transparent_quantile_index_law at
   C08_quantile_index_law_real): every q — in range, out of range, NaN — every method *)
Theorem C08_transparent_quantile :
  forall (q : XR) (m : Quantile.qmethod) (xs ys : list XR),
    NullInsert (D := IsNoneXR) xs ys ->
    Quantile.vquantile q m ys = Quantile.vquantile q m xs /\ Quantile.vmedian ys = Quantile.vmedian xs.
Proof. intros q m xs ys H. exact (TransQuantile.vquantile_insert_law TransRank.qidx_law_xr q m xs ys H). Qed.

(* ---- quantile / median transparency at EVERY carrier (no Reals, no order law) ------------------------------------ *)
(* the model of std's sort under sort_cmp / sort_cmp_rev puts the sorted non-null elements first and the nulls last,
   whatever the comparison of two non-null values does; the sorted non-null part is literally the same term for a series
   and for the series with nulls inserted *)
Theorem C08_transparent_sort :
  forall {A} {NA : Num A} {T} {D : IsNone T A} (rev : bool) (xs ys : list T),
    SortCmp.isort (SortCmp.cmp_dir rev) ys
      = SortCmp.isort (SortCmp.cmp_dir rev) (filter not_none ys) ++ filter is_none ys /\
    (NullInsert xs ys -> filter not_none ys = filter not_none xs).
Proof. intros A NA T D rev xs ys. split; [apply TransQuantile.isort_split|apply filter_valid_insert]. Qed.

(* every successful quantile / median of the original series is the quantile / median of the series with nulls
   inserted — the same term, hence bit for bit at binary64: every carrier, every dictionary, every q (in range, out of
   range, NaN), every method, every insertion pattern.  (For an index j = ceil((n-1) q) >= n — which the law-free
   `NumFloor` class does not exclude — select_nth_unstable_by may panic on the shorter series only; hence `Ok r`.) *)
Theorem C08_transparent_quantile_generic :
  forall {A} {NA : Num A} {NF : SortCmp.NumFloor A} {T} {D : IsNone T A} (q : A) (m : Quantile.qmethod) (xs ys : list T),
    NullInsert xs ys ->
    (forall r, Quantile.vquantile q m xs = Ok r -> Quantile.vquantile q m ys = Ok r) /\
    (forall r, Quantile.vmedian xs = Ok r -> Quantile.vmedian ys = Ok r).
Proof.
  intros A NA NF T D q m xs ys H. split; intros r Hr.
  - apply (TransQuantile.vquantile_insert_ok _ _ _ _ _ H Hr).
  - apply (TransQuantile.vmedian_insert_ok _ _ _ H Hr).
Qed.

(* outright equality for every carrier whose ceil satisfies the index law ceil((n-1) q) <= n-1 for q in [0, 1] *)
Theorem C08_transparent_quantile_index_law :
  forall {A} {NA : Num A} {NF : SortCmp.NumFloor A} {T} {D : IsNone T A},
    TransQuantile.QIdxLaw (A := A) ->
    forall (q : A) (m : Quantile.qmethod) (xs ys : list T),
      NullInsert xs ys ->
      Quantile.vquantile q m ys = Quantile.vquantile q m xs /\ Quantile.vmedian ys = Quantile.vmedian xs.
Proof. intros A NA NF T D HL q m xs ys H. apply TransQuantile.vquantile_insert_law; assumption. Qed.

(* the index law holds at option R *)
Theorem C08_quantile_index_law_real : TransQuantile.QIdxLaw (A := XR) (NF := OrderXR.NumFloorXR).
Proof. exact TransRank.qidx_law_xr. Qed.

(* re-encoding and insertion composed, for the order statistics: a float series against an optional series with extra
   Nones, every carrier *)
Theorem C08_transparent_quantile_across_encodings :
  forall {A} {NA : Num A} {NF : SortCmp.NumFloor A} {T1 T2} (D1 : IsNone T1 A) (D2 : IsNone T2 A)
         (q : A) (m : Quantile.qmethod) (xs : list T1) (xs' ys : list T2),
    SameView D1 D2 xs xs' -> NullInsert xs' ys ->
    (forall r, Quantile.vquantile (DT := D1) q m xs = Ok r -> Quantile.vquantile (DT := D2) q m ys = Ok r) /\
    (forall (sc1 : T1) (sc2 : T2) pm, same_view D1 D2 sc1 sc2 ->
       Quantile.vpercentile_of (DT := D2) sc2 pm ys = Quantile.vpercentile_of (DT := D1) sc1 pm xs).
Proof.
  intros A NA NF T1 T2 D1 D2 q m xs xs' ys HS HI. split.
  - intros r Hr. apply (TransQuantile.vquantile_insert_ok _ _ _ _ _ HI).
    rewrite <- (NullOrder.vquantile_same_view D1 D2 q m _ _ HS). exact Hr.
  - intros sc1 sc2 pm E. rewrite (NullOrder.vpercentile_of_insert sc2 pm _ _ HI). symmetry.
    apply NullOrder.vpercentile_of_same_view; assumption.
Qed.

(* ---- vpartition under null insertion: every carrier ------------------------------------------------------------------ *)
(* read through the option view, the partition (the kth + 1 first elements of the sorted series, padded with T::none())
   is a function of the non-null elements only, so inserting nulls does not change it; T::none() must be a null (on the
   integer types it panics, and then a short series panics where a longer one needs no padding) *)
Theorem C08_transparent_partition :
  forall {A} {NA : Num A} {T} {D : IsNone T A} {DX : SortCmp.IsNoneX T A} (kth : nat) (sort rev : bool) (pad : T)
         (xs ys : list T),
    SortCmp.tnone = Ok pad -> is_none pad = true -> NullInsert xs ys ->
    EncRank.res_opt_view (Tevec.Model.Partition.vpartition kth sort rev ys)
    = EncRank.res_opt_view (Tevec.Model.Partition.vpartition kth sort rev xs) /\
    EncRank.res_opt_view (Tevec.Model.Partition.vpartition kth sort rev xs)
    = Ok (TransPartition.part_of_valid kth sort rev pad (filter not_none xs)).
Proof.
  intros A NA T D DX kth sort rev pad xs ys HT HP HI.
  split; [apply (TransPartition.vpartition_insert kth sort rev pad); assumption|
          apply TransPartition.vpartition_by_valid; assumption].
Qed.

(* ---- the rank map under null insertion (option R) ------------------------------------------------------------------ *)
From Tevec Require Proofs.RankTransparent.

(* the ranks of the original elements are unchanged and the inserted positions carry the null rank: the output for the
   series with nulls inserted by pattern p is the output for the original series with null ranks inserted by p *)
Theorem C08_transparent_rank :
  forall (pct rev : bool) (p : list bool) (xs : list XR),
    Tevec.Model.Rank.vrank (DX := Proofs.Partition.IsNoneXXR) pct rev (insert_pat None p xs)
    = insert_pat (Some None) p (Tevec.Model.Rank.vrank (DX := Proofs.Partition.IsNoneXXR) pct rev xs).
Proof.
  intros pct rev p xs.
  exact (RankTransparent.vrank_insert_pat_generic RankTransparent.rank_unit_law_xr pct rev None p xs eq_refl).
Qed.

(* the same for the inductive relation: every insertion is a pattern insertion, and an original element found at
   position i of xs and at position j of ys has the same rank slot *)
Theorem C08_transparent_rank_insert :
  forall (pct rev : bool) (xs ys : list XR),
    NullInsert (D := IsNoneXR) xs ys ->
    (exists p, ys = insert_pat None p xs /\
               Tevec.Model.Rank.vrank (DX := Proofs.Partition.IsNoneXXR) pct rev ys
               = insert_pat (Some None) p (Tevec.Model.Rank.vrank (DX := Proofs.Partition.IsNoneXXR) pct rev xs)) /\
    (forall i j x, nth_error xs i = Some x -> nth_error ys j = Some x ->
       nth_error (Tevec.Model.Rank.vrank (DX := Proofs.Partition.IsNoneXXR) pct rev ys) j
       = nth_error (Tevec.Model.Rank.vrank (DX := Proofs.Partition.IsNoneXXR) pct rev xs) i).
Proof.
  intros pct rev xs ys H. split.
  - assert (Hu : forall v : XR, is_none v = true -> v = None) by (intros [r|] Hv; [discriminate Hv|reflexivity]).
    destruct (null_insert_pattern Hu H) as [p ->]. exists p. split; [reflexivity|apply C08_transparent_rank].
  - intros i j x Hi Hj. apply (TransRank.vrank_insert_same_slot pct rev xs ys i j x H Hi Hj).
Qed.

(* The rank map under null insertion at a generic carrier — proved at
   the end of this file (C08_transparent_rank_generic, C08_transparent_rank_generic_closes_full_statement).  Without a
   law it is false: a series with ONE valid element of length 1 takes the early return and gets the literal 1.0 (`none`),
   the same element in a longer series gets `1 as f64 / 1 as f64` from the loop (C08_transparent_rank_law_necessary);
   with that one law the statement holds: relational induction through the run-length loop along the position
   embedding, Proofs/RankTransparent.v. *)
Definition C08_transparent_rank_generic_full_statement : Prop :=
  forall (A : Type) (NA : Num A) (T : Type) (D : IsNone T A) (DX : SortCmp.IsNoneX T A),
    ndiv (nofnat (A := A) 1) (nofnat 1) = none ->
    forall (pct rev : bool) (nl : T) (p : list bool) (xs : list T), is_none nl = true ->
      Tevec.Model.Rank.vrank pct rev (insert_pat nl p xs) = insert_pat (Some nnan) p (Tevec.Model.Rank.vrank pct rev xs).

(* two series with pairwise deletion: inserting pairs that are not pairwise complete *)
Theorem C08_transparent_two_series :
  forall {A} {NA : Num A} {F} {NF : Num F} (tof : A -> F) {T1 T2} {D1 : IsNone T1 A} {D2 : IsNone T2 A}
         (xs xs' : list T1) (ys ys' : list T2) (mp : nat),
    PairInsert (combine xs ys) (combine xs' ys') ->
    vcov tof mp xs' ys' = vcov tof mp xs ys /\ vcorr_pearson tof mp xs' ys' = vcorr_pearson tof mp xs ys.
Proof.
  intros A NA F NF tof T1 T2 D1 D2 xs xs' ys ys' mp H. pose proof (vpairs_pair_insert H) as HP.
  split; [apply vcov_pairs; exact HP|apply vcorr_pairs; exact HP].
Qed.

(* re-encoding and insertion compose: e.g. a float series against an optional series with extra Nones *)
Theorem C08_transparent_across_encodings :
  forall {A} {NA : Num A} {T1 T2} (D1 : IsNone T1 A) (D2 : IsNone T2 A) {F} {NF : Num F} (tof : A -> F)
         (xs : list T1) (xs' ys : list T2) (mp : nat),
    SameView D1 D2 xs xs' -> NullInsert xs' ys ->
    count_valid ys = count_valid xs /\ vsum ys = vsum xs /\ vmean tof ys = vmean tof xs /\
    vvar tof mp ys = vvar tof mp xs /\ vskew tof mp ys = vskew tof mp xs /\ vkurt tof mp ys = vkurt tof mp xs /\
    vmin ys = vmin xs /\ vmax ys = vmax xs.
Proof.
  intros A NA T1 T2 D1 D2 F NF tof xs xs' ys mp HS HI.
  assert (HV : vals ys = vals xs) by (rewrite (vals_null_insert HI); symmetry; apply vals_same_view; exact HS).
  destruct (agg_of_vals tof _ _ HV) as (Hcv & Hsum & Hmean & Hmin & Hmax & _ & _ & Hmom & _).
  destruct (Hmom mp) as (_ & Hvar & _ & Hskew & Hkurt). repeat (split; [assumption|]). exact Hmax.
Qed.

(* ======================= non-vacuity ========================================================================= *)
Example C08_ex_same_view :
  SameView (IsNone_float (H := NumZ)) (IsNone_option (H := NumZ)) [3%Z; 5%Z] [Some 3%Z; Some 5%Z].
Proof. repeat constructor. Qed.
(* a carrier with a null: option R, None is the NaN *)
Example C08_ex_same_view_null :
  SameView IsNoneXR (IsNone_view (Some 0%R)) [Some 1%R; None; Some 2%R] [Some (Some 1%R); None; Some (Some 2%R)].
Proof. repeat constructor. Qed.
Example C08_ex_null_insert :
  NullInsert (D := IsNoneXR) [Some 1%R; Some 2%R] [None; Some 1%R; None; None; Some 2%R; None].
Proof. repeat (first [apply ni_nil | apply ni_keep | apply ni_null; [reflexivity|]]). Qed.
Example C08_ex_insert_pat :
  insert_pat None [true; false; true; true] [Some 1%R; Some 2%R] = [None; Some 1%R; None; None; Some 2%R].
Proof. reflexivity. Qed.
Example C08_ex_pair_insert :
  PairInsert (D1 := IsNoneXR) (D2 := IsNoneXR)
             (combine [Some 1%R; Some 2%R] [Some 5%R; Some 7%R])
             (combine [Some 1%R; None; Some 9%R; Some 2%R] [Some 5%R; Some 4%R; None; Some 7%R]).
Proof. cbn [combine]. apply pi_keep. apply pi_null; [reflexivity|]. apply pi_null; [reflexivity|]. apply pi_keep. apply pi_nil. Qed.
(* insertion changes the positional aggregations (which is why they are not in C08_transparent_aggregations) *)
Example C08_ex_positional_not_transparent :
  vargmin (NA := AggNumZ) (DT := IsNone_opt 0%Z) [Some 1%Z] = Some 0 /\
  vargmin (NA := AggNumZ) (DT := IsNone_opt 0%Z) [None; Some 1%Z] = Some 1.
Proof. split; reflexivity. Qed.
Example C08_ex_output_types :
  In (Model.Cast.Plain (Model.Cast.N Model.Cast.F64)) CastOutput.result_tys /\
  In (Model.Cast.Opt (Model.Cast.N Model.Cast.I32)) CastOutput.output_tys.
Proof. split; cbn; auto. Qed.

(* the hypotheses are satisfiable: `==` / T::none() at option R; a successful quantile on an
   integer carrier with an identity floor / ceil (q = 1: the maximum) *)
Example C08_ex_tnone_rel :
  EncRank.tnone_rel (IsNone_float (A := XR)) IsNone_option SortCmp.IsNoneX_float SortCmp.IsNoneX_option.
Proof. apply EncRank.tnone_rel_float_option. reflexivity. Qed.
Example C08_ex_vrank_tie :
  Tevec.Model.Rank.vrank (DT := IsNone_option (H := NumZ)) (DX := SortCmp.IsNoneX_option) false false
                         [Some 7%Z; None; Some 7%Z; Some 7%Z; Some 3%Z]
  = [Some 3%Z; Some 0%Z; Some 3%Z; Some 3%Z; Some 1%Z] /\
  Tevec.Model.Partition.varg_partition (DT := IsNone_option (H := NumZ)) 1 true false [Some 7%Z; None; Some 7%Z; Some 7%Z; Some 3%Z]
  = [4%Z; 0%Z].
Proof. split; vm_compute; reflexivity. Qed.
Example C08_ex_quantile_ok :
  Quantile.vquantile (NA := NumZ) (NF := {| SortCmp.nfloorZ := fun z => z; SortCmp.nceilZ := fun z => z |})
                     (DT := IsNone_option (H := NumZ)) 1%Z Quantile.Lower [Some 3%Z; None; Some 5%Z]
  = Ok (Some 5%Z).
Proof. vm_compute. reflexivity. Qed.
Example C08_ex_rank_pattern :
  insert_pat (Some (@None R)) [true; false; true] [Some (Some 1%R); Some (Some 2%R)]
  = [Some None; Some (Some 1%R); Some None; Some (Some 2%R)].
Proof. reflexivity. Qed.

Example C08_ex_tnone_null :
  SortCmp.tnone (IsNoneX := SortCmp.IsNoneX_option (H := NumZ)) = Ok None /\
  is_none (IsNone := IsNone_option (H := NumZ)) None = true.
Proof. split; reflexivity. Qed.

Print Assumptions C08_encoding_aggregations.
Print Assumptions C08_encoding_order_statistics.
Print Assumptions C08_encoding_rolling_cmp.
Print Assumptions C08_encoding_rolling_two_series.
Print Assumptions C08_encoding_maps.
Print Assumptions C08_output_encoding.
Print Assumptions C08_transparent_aggregations.
Print Assumptions C08_transparent_quantile.
Print Assumptions C08_transparent_two_series.
Print Assumptions C08_encoding_vrank_statement_refuted.
Print Assumptions C08_encoding_vrank.
Print Assumptions C08_encoding_vrank_instances.
Print Assumptions C08_encoding_vrank_float_vs_option.
Print Assumptions C08_encoding_partition.
Print Assumptions C08_transparent_sort.
Print Assumptions C08_transparent_quantile_generic.
Print Assumptions C08_transparent_quantile_index_law.
Print Assumptions C08_quantile_index_law_real.
Print Assumptions C08_transparent_rank.
Print Assumptions C08_transparent_rank_insert.
Print Assumptions C08_transparent_quantile_across_encodings.
Print Assumptions C08_transparent_partition.

(* ---- null transparency of the quantile at binary64 ---------------------------------------------------------------
   Carrier: Coq's primitive `float` (IEEE 754 binary64, instance NumF64 — what the correspondence run evaluates);
   floor / ceiling: QIdxFloat.NumFloorF64 = the instance of Run/RunC12.v.  The index law that
   C08_transparent_quantile_index_law needs is proved in Proofs/QIdxFloat.v (Flocq's specification of IEEE
   arithmetic: (n-1) as f64 * q is rounded monotonically; on either branch the factor is at most 0.5).
   Axioms: the Reals axioms + the standard library's specification of the primitive float operations.           *)
From Coq Require Floats.
From Tevec Require Base.F64 Proofs.QIdxFloat.

Theorem C08_quantile_index_law_binary64 :
  TransQuantile.QIdxLaw (A := PrimFloat.float) (NA := F64.NumF64) (NF := QIdxFloat.NumFloorF64).
Proof. exact QIdxFloat.qidx_law_f64. Qed.

(* inserting nulls anywhere changes neither vquantile nor vmedian at binary64 — the same result bit for bit, the same
   Err, never a panic on either side: every q, every method, every null dictionary over f64 (NaN, Option<f64>) *)
Theorem C08_transparent_quantile_binary64 :
  forall {T} {D : IsNone T PrimFloat.float} (q : PrimFloat.float) (m : Quantile.qmethod) (xs ys : list T),
    NullInsert xs ys ->
    Quantile.vquantile (NF := QIdxFloat.NumFloorF64) q m ys = Quantile.vquantile (NF := QIdxFloat.NumFloorF64) q m xs /\
    Quantile.vmedian (NF := QIdxFloat.NumFloorF64) ys = Quantile.vmedian (NF := QIdxFloat.NumFloorF64) xs.
Proof. intros T D q m xs ys H. apply QIdxFloat.vquantile_null_transparent_f64. exact H. Qed.

(* ---- non-vacuity ---- *)
From Coq Require Import Floats.   (* float literals *)
Example C08_ex_null_insert_binary64 :
  NullInsert (D := F64.IsNoneF64) [3%float; 1%float; 2%float] [PrimFloat.nan; 3%float; 1%float; PrimFloat.nan; 2%float] /\
  Quantile.vquantile (NF := QIdxFloat.NumFloorF64) (DT := F64.IsNoneF64) 0.25%float Quantile.Linear
                     [PrimFloat.nan; 3%float; 1%float; PrimFloat.nan; 2%float] = Ok (Some 1.5%float).
Proof.
  split; [|vm_compute; reflexivity].
  apply ni_null; [reflexivity|]. apply ni_keep, ni_keep. apply ni_null; [reflexivity|]. apply ni_keep, ni_nil.
Qed.

Print Assumptions C08_quantile_index_law_binary64.
Print Assumptions C08_transparent_quantile_binary64.

(* ---- rank transparency at a generic carrier (C08_transparent_rank_generic_full_statement) --------------------------
   Carrier: every `Num A`; dictionary: every `IsNone T A` with every `IsNoneX T A` (an arbitrary `==`); no order law on
   the comparison of two non-null values; the ONE law used is `RankUnitLaw A`: `1 as f64 / 1 as f64 = 1.0`
   (`nofnat 1 / nofnat 1 = none`), which reconciles the literal `1.0` of the length-1 early return with the
   `sum_rank / repeat_num` that the loop writes for a lone valid element followed by nulls.  The law holds at Z,
   option R and binary64 (by computation there: no float axiom), and it is necessary (a carrier where it fails and the
   transparency fails with it).  Proofs: Proofs/RankTransparent.v; the generic theorems rest on no axiom, the
   option R instance of the law is proved over the classical reals.                                               *)
Theorem C08_rank_unit_law_instances :
  RankTransparent.RankUnitLaw Z (NA := NumZ) /\
  RankTransparent.RankUnitLaw XR (NA := NumXR) /\
  RankTransparent.RankUnitLaw PrimFloat.float (NA := F64.NumF64).
Proof.
  split; [exact RankTransparent.rank_unit_law_Z|].
  split; [exact RankTransparent.rank_unit_law_xr|exact RankTransparent.rank_unit_law_f64].
Qed.

(* step (1) of Proofs/RankTransparent.v: the sorted index vector of a series is the sorted index vector of its valid elements,
   re-indexed by the positions of the valid elements (`vphi ys k` = position in ys of the k-th valid element), followed
   by the null positions in input order — whatever the comparator does on two non-null values *)
Theorem C08_transparent_argsort :
  forall {A} {NA : Num A} {T} {D : IsNone T A} (rev : bool) (ys : list T),
    SortCmp.isort (SortCmp.cmp_idx (SortCmp.cmp_dir rev) ys) (seq 0 (length ys))
    = map (RankTransparent.vphi ys)
          (SortCmp.isort (SortCmp.cmp_idx (SortCmp.cmp_dir rev) (filter not_none ys)) (seq 0 (SortCmp.count_valid ys)))
      ++ RankTransparent.npos ys.
Proof. intros A NA T D rev ys. apply RankTransparent.argsort_split. Qed.

(* deleting every null: the ranks of a series are the ranks of its valid elements, put back at the valid slots in order
   (`scatter`), and NaN at the null slots — the rank map is a function of the valid elements and of the null mask *)
Theorem C08_transparent_rank_valid_only :
  forall {A} {NA : Num A} {T} {D : IsNone T A} {DX : SortCmp.IsNoneX T A},
    RankTransparent.RankUnitLaw A ->
    forall (pct rev : bool) (ys : list T),
      Tevec.Model.Rank.vrank pct rev ys
        = RankTransparent.scatter ys (Tevec.Model.Rank.vrank pct rev (filter not_none ys)) /\
      length (Tevec.Model.Rank.vrank pct rev (filter not_none ys)) = SortCmp.count_valid ys.
Proof. intros A NA T D DX HL pct rev ys. apply RankTransparent.vrank_delete_nulls. exact HL. Qed.

(* inserting nulls by ANY pattern leaves the rank of every original element unchanged — the
   same term, hence bit for bit — and gives the inserted positions the null rank; pct and plain ranks, both directions *)
Theorem C08_transparent_rank_generic :
  forall (A : Type) (NA : Num A) (T : Type) (D : IsNone T A) (DX : SortCmp.IsNoneX T A),
    ndiv (nofnat (A := A) 1) (nofnat 1) = none ->
    forall (pct rev : bool) (nl : T) (p : list bool) (xs : list T), is_none nl = true ->
      Tevec.Model.Rank.vrank pct rev (insert_pat nl p xs) = insert_pat (Some nnan) p (Tevec.Model.Rank.vrank pct rev xs).
Proof. intros A NA T D DX HL pct rev nl p xs Hn. apply RankTransparent.vrank_insert_pat_generic; assumption. Qed.

Theorem C08_transparent_rank_generic_closes_full_statement : C08_transparent_rank_generic_full_statement.
Proof. exact C08_transparent_rank_generic. Qed.

(* the inductive insertion (the inserted nulls may be different null elements: NaNs with different payloads, None):
   the pattern is read off the option views *)
Theorem C08_transparent_rank_insert_generic :
  forall {A} {NA : Num A} {T} {D : IsNone T A} {DX : SortCmp.IsNoneX T A},
    RankTransparent.RankUnitLaw A ->
    forall (pct rev : bool) (xs ys : list T),
      NullInsert xs ys ->
      exists p, opt_view ys = insert_pat None p (opt_view xs) /\
                Tevec.Model.Rank.vrank pct rev ys = insert_pat (Some nnan) p (Tevec.Model.Rank.vrank pct rev xs).
Proof. intros A NA T D DX HL pct rev xs ys H. apply RankTransparent.vrank_null_insert_generic; assumption. Qed.

(* re-encoding and insertion composed: e.g. a float series against its Option rendering with extra Nones *)
Theorem C08_transparent_rank_across_encodings :
  forall {A} {NA : Num A} {T1 T2} (D1 : IsNone T1 A) (D2 : IsNone T2 A)
         (DX1 : SortCmp.IsNoneX T1 A) (DX2 : SortCmp.IsNoneX T2 A) (pct rev : bool) (xs : list T1) (xs' ys : list T2),
    RankTransparent.RankUnitLaw A -> EncRank.EqbView D1 D2 DX1 DX2 -> SameView D1 D2 xs xs' -> NullInsert (D := D2) xs' ys ->
    exists p, opt_view (D := D2) ys = insert_pat None p (opt_view (D := D1) xs) /\
              Tevec.Model.Rank.vrank (DT := D2) (DX := DX2) pct rev ys
              = insert_pat (Some nnan) p (Tevec.Model.Rank.vrank (DT := D1) (DX := DX1) pct rev xs).
Proof. intros A NA T1 T2 D1 D2 DX1 DX2 pct rev xs xs' ys HL HE HS HI.
  apply (RankTransparent.vrank_insert_across_encodings D1 D2 DX1 DX2 pct rev xs xs' ys HL HE HS HI).
Qed.

(* AT BINARY64 (Coq's primitive float, the instance the correspondence run evaluates), outright: every null dictionary
   over f64 (NaN is the null; Option<f64>), every `==`; no float axiom is needed — the law is a computation *)
Theorem C08_transparent_rank_binary64 :
  forall {T} {D : IsNone T PrimFloat.float} {DX : SortCmp.IsNoneX T PrimFloat.float}
         (pct rev : bool) (nl : T) (p : list bool) (xs : list T), is_none nl = true ->
    Tevec.Model.Rank.vrank (NA := F64.NumF64) pct rev (insert_pat nl p xs)
    = insert_pat (Some PrimFloat.nan) p (Tevec.Model.Rank.vrank (NA := F64.NumF64) pct rev xs).
Proof.
  intros T D DX pct rev nl p xs Hn.
  apply (RankTransparent.vrank_insert_pat_generic RankTransparent.rank_unit_law_f64 pct rev nl p xs Hn).
Qed.

(* at the integer carrier (ranks computed with the integer arithmetic of NumZ; dictionaries with a null, e.g. Option<i32>) *)
Theorem C08_transparent_rank_integer :
  forall {T} {D : IsNone T Z} {DX : SortCmp.IsNoneX T Z} (pct rev : bool) (nl : T) (p : list bool) (xs : list T),
    is_none nl = true ->
    Tevec.Model.Rank.vrank (NA := NumZ) pct rev (insert_pat nl p xs)
    = insert_pat (Some 0%Z) p (Tevec.Model.Rank.vrank (NA := NumZ) pct rev xs).
Proof.
  intros T D DX pct rev nl p xs Hn.
  apply (RankTransparent.vrank_insert_pat_generic RankTransparent.rank_unit_law_Z pct rev nl p xs Hn).
Qed.

(* the law is necessary: the integers with a division returning 0 — the law fails, and a lone valid element gets rank
   1 alone and rank 0 next to an inserted null *)
Theorem C08_transparent_rank_law_necessary :
  exists (NA : Num Z),
    ~ RankTransparent.RankUnitLaw Z (NA := NA) /\
    Tevec.Model.Rank.vrank (NA := NA) (DT := IsNone_option (H := NA)) (DX := SortCmp.IsNoneX_option (H := NA))
          false false (insert_pat None [true] [Some 5%Z])
    <> insert_pat (Some (nnan (Num := NA))) [true]
         (Tevec.Model.Rank.vrank (NA := NA) (DT := IsNone_option (H := NA)) (DX := SortCmp.IsNoneX_option (H := NA))
                false false [Some 5%Z]).
Proof. exists RankTransparent.NumZ_baddiv. exact RankTransparent.rank_unit_law_necessary. Qed.

(* ---- non-vacuity ---- *)
(* a null element, a pattern, ties, both dictionaries over binary64: the ranks of 3, 1, 3 are 2.5, 1, 2.5 wherever
   the NaNs / Nones are inserted *)
Example C08_ex_rank_insert_binary64 :
  is_none (IsNone := F64.IsNoneF64) PrimFloat.nan = true /\
  insert_pat PrimFloat.nan [true; false; true; false] [3%float; 1%float; 3%float]
    = [PrimFloat.nan; 3%float; PrimFloat.nan; 1%float; 3%float] /\
  Tevec.Model.Rank.vrank (DT := F64.IsNoneF64) (DX := SortCmp.IsNoneX_float) false false
      [PrimFloat.nan; 3%float; PrimFloat.nan; 1%float; 3%float]
    = [Some PrimFloat.nan; Some 2.5%float; Some PrimFloat.nan; Some 1%float; Some 2.5%float] /\
  Tevec.Model.Rank.vrank (DT := F64.IsNoneOptF64) (DX := SortCmp.IsNoneX_option) true true
      [Some 3%float; None; Some 1%float; None]
    = [Some 0.5%float; Some PrimFloat.nan; Some 1%float; Some PrimFloat.nan].
Proof. repeat split; vm_compute; reflexivity. Qed.
(* the lone valid element: early return (`1.0`) vs loop (`1 / 1`) — the case the law is for *)
Example C08_ex_rank_lone_valid_binary64 :
  Tevec.Model.Rank.vrank (DT := F64.IsNoneF64) (DX := SortCmp.IsNoneX_float) true false [7%float] = [Some 1%float] /\
  Tevec.Model.Rank.vrank (DT := F64.IsNoneF64) (DX := SortCmp.IsNoneX_float) true false [PrimFloat.nan; 7%float; PrimFloat.nan]
    = [Some PrimFloat.nan; Some 1%float; Some PrimFloat.nan].
Proof. split; vm_compute; reflexivity. Qed.
(* premises of the across-encodings form *)
Example C08_ex_rank_across_premises :
  SameView (IsNone_float (H := F64.NumF64)) (IsNone_option (H := F64.NumF64)) [3%float; PrimFloat.nan] [Some 3%float; None] /\
  NullInsert (D := IsNone_option (H := F64.NumF64)) [Some 3%float; None] [None; Some 3%float; None].
Proof. split; [repeat constructor|]. apply ni_null; [reflexivity|]. apply ni_keep, ni_keep, ni_nil. Qed.

Print Assumptions C08_rank_unit_law_instances.
Print Assumptions C08_transparent_argsort.
Print Assumptions C08_transparent_rank_valid_only.
Print Assumptions C08_transparent_rank_generic.
Print Assumptions C08_transparent_rank_generic_closes_full_statement.
Print Assumptions C08_transparent_rank_insert_generic.
Print Assumptions C08_transparent_rank_across_encodings.
Print Assumptions C08_transparent_rank_binary64.
Print Assumptions C08_transparent_rank_integer.
Print Assumptions C08_transparent_rank_law_necessary.

(* ---- clause by clause (notes/C08.md "Audit matrix"; lemmas in Proofs/Audit08.v, Audit08Float.v) -------------------
   (A1)-(A2) the mechanism: the null-skipping folds of iter_traits.rs with an ARBITRARY callback; (A3)-(A4) the boolean
   aggregations vany / vall; (A5)-(A7) the masked family of tea-agg; (A8)-(A9) what insertion DOES change, exactly;
   (A10) re-encoding and insertion composed for the whole family; (A11) the canonical-null assumption is necessary;
   (A12)-(A14) binary64 instances. *)
From Tevec Require Proofs.Audit08 Proofs.Audit08Float.

(* (A1) vfold_n / vapply_n (callback on the unwrapped value): any callback, any accumulator; vfold (callback on the
   element): callbacks that agree on elements with equal option views *)
Theorem C08_fold_mechanism_encoding :
  forall {A T1 T2} (D1 : IsNone T1 A) (D2 : IsNone T2 A) (xs1 : list T1) (xs2 : list T2), SameView D1 D2 xs1 xs2 ->
    (forall {U} (f : U -> A -> U) init,
       vfold_n (DT := D1) f init xs1 = vfold_n (DT := D2) f init xs2 /\ vapply_n (DT := D1) f init xs1 = vapply_n (DT := D2) f init xs2)
    /\ (forall {U} (f1 : U -> T1 -> U) (f2 : U -> T2 -> U) init,
          (forall acc a b, same_view D1 D2 a b -> not_none b = true -> f1 acc a = f2 acc b) ->
          vfold (DT := D1) f1 init xs1 = vfold (DT := D2) f2 init xs2).
Proof.
  intros A T1 T2 D1 D2 xs1 xs2 H. split.
  - intros U f init. split; [apply Audit08.vfold_n_same_view|apply Audit08.vapply_n_same_view]; exact H.
  - intros U f1 f2 init Hf. apply Audit08.vfold_same_view; assumption.
Qed.
(* (A2) ... and under null insertion *)
Theorem C08_fold_mechanism_transparent :
  forall {A T} {D : IsNone T A} (xs ys : list T), NullInsert xs ys ->
    (forall {U} (f : U -> A -> U) init, vfold_n f init ys = vfold_n f init xs /\ vapply_n f init ys = vapply_n f init xs)
    /\ (forall {U} (f : U -> T -> U) init, vfold f init ys = vfold f init xs).
Proof.
  intros A T D xs ys H. split.
  - intros U f init. split; [apply Audit08.vfold_n_insert|apply Audit08.vapply_n_insert]; exact H.
  - intros U f init. apply Audit08.vfold_insert. exact H.
Qed.
(* (A3) vany / vall (agg.rs:168, 200): Vec<bool> against Vec<Option<bool>> against the option view *)
Theorem C08_encoding_bool_aggregations :
  forall {T1 T2} (D1 : IsNone T1 bool) (D2 : IsNone T2 bool) (xs1 : list T1) (xs2 : list T2), SameView D1 D2 xs1 xs2 ->
    vany (DB := D1) xs1 = vany (DB := D2) xs2 /\ vall (DB := D1) xs1 = vall (DB := D2) xs2.
Proof. intros T1 T2 D1 D2 xs1 xs2 H. split; [apply Audit08.vany_same_view|apply Audit08.vall_same_view]; exact H. Qed.
(* (A4) nulls are neither true nor false *)
Theorem C08_transparent_bool_aggregations :
  forall {T} (D : IsNone T bool) (xs ys : list T),
    (NullInsert xs ys -> vany (DB := D) ys = vany (DB := D) xs /\ vall (DB := D) ys = vall (DB := D) xs)
    /\ ((forall v, In v xs -> is_none v = true) -> vany (DB := D) xs = false /\ vall (DB := D) xs = true).
Proof.
  intros T D xs ys. split.
  - intros H. split; [apply Audit08.vany_insert|apply Audit08.vall_insert]; exact H.
  - apply Audit08.bool_aggs_all_null.
Qed.
(* (A5) the masked sum / count / mean (tea-agg/src/lib.rs:26-99): data and mask re-encoded independently *)
Theorem C08_encoding_masked :
  forall {A} {NA : Num A} {F} {NF : Num F} (tof : A -> F) {T1 T2 U1 U2}
         (D1 : IsNone T1 A) (D2 : IsNone T2 A) (E1 : IsNone U1 bool) (E2 : IsNone U2 bool)
         (xs1 : list T1) (xs2 : list T2) (m1 : list U1) (m2 : list U2) (mp : nat),
    SameView D1 D2 xs1 xs2 -> SameView E1 E2 m1 m2 ->
    n_vsum_filter (DT := D1) (DU := E1) xs1 m1 = n_vsum_filter (DT := D2) (DU := E2) xs2 m2
    /\ n_sum_filter (DT := D1) (DU := E1) xs1 m1 = n_sum_filter (DT := D2) (DU := E2) xs2 m2
    /\ vmean_filter (DT := D1) (DU := E1) tof mp xs1 m1 = vmean_filter (DT := D2) (DU := E2) tof mp xs2 m2.
Proof. intros. apply Audit08.masked_of_vals, Audit08.mask_zs_same_view; assumption. Qed.
(* (A6) ... transparent to inserted observations that do not count: flag null, flag false, or value null *)
Theorem C08_transparent_masked :
  forall {A} {NA : Num A} {F} {NF : Num F} (tof : A -> F) {T U} {DT : IsNone T A} {DU : IsNone U bool}
         (xs xs' : list T) (m m' : list U) (mp : nat),
    Audit08.MaskInsert (combine xs m) (combine xs' m') ->
    n_vsum_filter xs' m' = n_vsum_filter xs m /\ n_sum_filter xs' m' = n_sum_filter xs m
    /\ vmean_filter tof mp xs' m' = vmean_filter tof mp xs m.
Proof. intros A NA F NF tof T U DT DU xs xs' m m' mp H. apply Audit08.masked_of_vals, Audit08.mask_zs_insert, H. Qed.
(* (A7) an all-true mask selects everything: the masked family is then the valid family of the whole series *)
Theorem C08_masked_all_true :
  forall {T} (xs : list T), mask_filter (DU := IsNone_plain) xs (map (fun _ => true) xs) = xs.
Proof. intros. apply Audit08.masked_all_true. Qed.
(* (A8) what insertion changes, exactly: the length and the number of nulls grow by the number of inserted elements,
   the number of valid elements does not, and count_valid + count_none = len stays true *)
Theorem C08_insertion_changes_exactly :
  forall {A} {NA : Num A} {T} {D : IsNone T A} (xs ys : list T), NullInsert xs ys ->
    length xs <= length ys /\ count_valid ys = count_valid xs
    /\ count_none ys = count_none xs + (length ys - length xs) /\ count_valid ys + count_none ys = length ys.
Proof. intros A NA T D xs ys H. exact (Audit08.insert_counts H). Qed.
(* (A9) counting the NULL value counts the nulls (it is not transparent, and must not be) *)
Theorem C08_count_null_value :
  forall {A} {NA : Num A} {T} {D : IsNone T A} (nl : T) (xs ys : list T), is_none nl = true ->
    vcount_value nl xs = count_none xs
    /\ (NullInsert xs ys -> vcount_value nl ys = vcount_value nl xs + (length ys - length xs)).
Proof.
  intros A NA T D nl xs ys Hn. split; [apply Audit08.vcount_null_is_count_none; exact Hn|].
  intros H. apply Audit08.vcount_null_insert; assumption.
Qed.
(* (A10) re-encoding and insertion composed: the whole aggregation family and every vfold_n-based aggregation *)
Theorem C08_transparent_across_encodings_full :
  forall {A} {NA : Num A} {T1 T2} (D1 : IsNone T1 A) (D2 : IsNone T2 A) {F} {NF : Num F} (tof : A -> F)
         (xs : list T1) (xs' ys : list T2),
    SameView D1 D2 xs xs' -> NullInsert xs' ys ->
    vals ys = vals xs /\
    count_valid ys = count_valid xs /\ vsum ys = vsum xs /\ vmean tof ys = vmean tof xs /\
    vmin ys = vmin xs /\ vmax ys = vmax xs /\
    option_map unwrap (vfirst ys) = option_map unwrap (vfirst xs) /\
    option_map unwrap (vlast ys) = option_map unwrap (vlast xs) /\
    (forall mp, vmean_var tof mp ys = vmean_var tof mp xs /\ vvar tof mp ys = vvar tof mp xs /\
                vstd tof mp ys = vstd tof mp xs /\ vskew tof mp ys = vskew tof mp xs /\
                vkurt tof mp ys = vkurt tof mp xs) /\
    (forall (v1 : T1) (v2 : T2), same_view D1 D2 v1 v2 -> not_none v1 = true -> vcount_value v2 ys = vcount_value v1 xs) /\
    (forall {U} (f : U -> A -> U) init, vfold_n f init ys = vfold_n f init xs).
Proof.
  intros A NA T1 T2 D1 D2 F NF tof xs xs' ys HS HI.
  assert (HV : vals ys = vals xs) by (rewrite (vals_null_insert HI); symmetry; apply vals_same_view; exact HS).
  destruct (agg_of_vals tof _ _ HV) as (Hcv & Hsum & Hmean & Hmin & Hmax & Hf & Hl & Hmom & Hc & Hfold).
  repeat (split; [assumption|]). split; [|exact Hfold].
  intros v1 v2 E Hn. apply Hc; [symmetry; exact E|exact Hn].
Qed.
(* (A11) canonical nulls only (DESIGN 5.4) is a NECESSARY assumption: on every carrier with a NaN, Some(NaN) in an
   optional series is not the null of the float series — it is counted and summed as a valid element *)
Theorem C08_noncanonical_null_excluded :
  forall {A} {NA : Num A}, nisnan (nnan : A) = true ->
    ~ same_view (IsNone_float (A := A)) IsNone_option nnan (Some nnan)
    /\ count_valid (DT := IsNone_float (A := A)) [nnan] = 0 /\ count_valid (DT := IsNone_option (A := A)) [Some nnan] = 1
    /\ vsum (DT := IsNone_float (A := A)) [nnan] = None /\ vsum (DT := IsNone_option (A := A)) [Some nnan] = Some (nadd nzero nnan).
Proof.
  intros A NA H. split; [exact (Audit08.some_nan_not_same_view H)|]. exact (Audit08.some_nan_counts_as_valid H).
Qed.
(* (A12)-(A14) at binary64 (NumF64, what the correspondence evaluates), outright, bit for bit *)
Theorem C08_encoding_aggregations_binary64 :
  forall xs : list PrimFloat.float,
  let ys := map Audit08Float.opt_of_f64 xs in
  count_valid xs = count_valid ys /\ count_none xs = count_none ys /\ vsum xs = vsum ys
  /\ vmean (fun x : PrimFloat.float => x) xs = vmean (fun x : PrimFloat.float => x) ys /\ vmin xs = vmin ys /\ vmax xs = vmax ys
  /\ vargmin xs = vargmin ys /\ vargmax xs = vargmax ys
  /\ (forall mp, vmean_var (fun x : PrimFloat.float => x) mp xs = vmean_var (fun x : PrimFloat.float => x) mp ys
                 /\ vstd (fun x : PrimFloat.float => x) mp xs = vstd (fun x : PrimFloat.float => x) mp ys
                 /\ vskew (fun x : PrimFloat.float => x) mp xs = vskew (fun x : PrimFloat.float => x) mp ys
                 /\ vkurt (fun x : PrimFloat.float => x) mp xs = vkurt (fun x : PrimFloat.float => x) mp ys).
Proof.
  intros xs ys. pose proof (Audit08Float.f64_float_vs_option xs) as HS. fold ys in HS.
  destruct (agg_of_vals (fun x : PrimFloat.float => x) _ _ (vals_same_view HS))
    as (Hcv & Hsum & Hmean & Hmin & Hmax & _ & _ & Hmom & _).
  split; [exact Hcv|]. split; [apply count_none_same_view; exact HS|].
  split; [exact Hsum|]. split; [exact Hmean|]. split; [exact Hmin|]. split; [exact Hmax|].
  split; [apply vargmin_same_view; exact HS|]. split; [apply vargmax_same_view; exact HS|].
  intros mp. destruct (Hmom mp) as (Hmv & _ & Hstd & Hskew & Hkurt). repeat (split; [assumption|]). exact Hkurt.
Qed.
Theorem C08_nan_insertion_binary64 :
  forall (p : list bool) (xs : list PrimFloat.float),
  let ys := insert_pat PrimFloat.nan p xs in
  count_valid ys = count_valid xs /\ vsum ys = vsum xs
  /\ vmean (fun x : PrimFloat.float => x) ys = vmean (fun x : PrimFloat.float => x) xs
  /\ vmin ys = vmin xs /\ vmax ys = vmax xs
  /\ (forall mp, vmean_var (fun x : PrimFloat.float => x) mp ys = vmean_var (fun x : PrimFloat.float => x) mp xs
                 /\ vstd (fun x : PrimFloat.float => x) mp ys = vstd (fun x : PrimFloat.float => x) mp xs
                 /\ vskew (fun x : PrimFloat.float => x) mp ys = vskew (fun x : PrimFloat.float => x) mp xs
                 /\ vkurt (fun x : PrimFloat.float => x) mp ys = vkurt (fun x : PrimFloat.float => x) mp xs)
  /\ count_none ys = (count_none xs + (length ys - length xs))%nat.
Proof.
  intros p xs ys. assert (HI : NullInsert (D := F64.IsNoneF64) xs ys) by (apply insert_pat_insert; reflexivity).
  destruct (agg_of_vals (fun x : PrimFloat.float => x) _ _ (vals_null_insert HI))
    as (Hcv & Hsum & Hmean & Hmin & Hmax & _ & _ & Hmom & _).
  repeat (split; [assumption|]). split.
  - intros mp. destruct (Hmom mp) as (Hmv & _ & Hstd & Hskew & Hkurt). repeat (split; [assumption|]). exact Hkurt.
  - destruct (Audit08.insert_counts HI) as (_ & _ & E & _). exact E.
Qed.
Theorem C08_some_nan_binary64 :
  ~ same_view F64.IsNoneF64 F64.IsNoneOptF64 PrimFloat.nan (Some PrimFloat.nan)
  /\ count_valid (DT := F64.IsNoneF64) [PrimFloat.nan] = 0%nat /\ count_valid (DT := F64.IsNoneOptF64) [Some PrimFloat.nan] = 1%nat.
Proof.
  split; [exact (@Audit08.some_nan_not_same_view PrimFloat.float F64.NumF64 eq_refl)|].
  destruct (@Audit08.some_nan_counts_as_valid PrimFloat.float F64.NumF64 eq_refl) as (H1 & H2 & _). split; [exact H1|exact H2].
Qed.

(* ---- non-vacuity ---- *)
Example C08_ex_audit_bool :
  SameView (IsNone_plain (A := bool)) (IsNone_opt false) [true; false] [Some true; Some false]
  /\ vany (DB := IsNone_opt false) [None; Some false; None] = false /\ vall (DB := IsNone_opt false) [None; Some false; None] = false
  /\ vall (DB := IsNone_opt false) [None; None] = true /\ vany (DB := IsNone_opt false) [None; None] = false.
Proof. split; [repeat constructor|]. vm_compute. auto. Qed.
Example C08_ex_audit_mask_insert :
  (* base: values [1; 2] with flags [true; true]; inserted: (9, false), (null, true), (7, null flag) *)
  Audit08.MaskInsert (D := IsNone_opt 0%Z) (DU := IsNone_opt false)
    (combine [Some 1%Z; Some 2%Z] [Some true; Some true])
    (combine [Some 9%Z; Some 1%Z; None; Some 7%Z; Some 2%Z] [Some false; Some true; Some true; None; Some true])
  /\ n_vsum_filter (NA := AggNumZ) (DT := IsNone_opt 0%Z) (DU := IsNone_opt false)
       [Some 9%Z; Some 1%Z; None; Some 7%Z; Some 2%Z] [Some false; Some true; Some true; None; Some true] = (2, 3%Z).
Proof.
  split; [|vm_compute; reflexivity]. cbn [combine].
  apply Audit08.mi_skip; [reflexivity|]. apply Audit08.mi_keep. apply Audit08.mi_skip; [reflexivity|].
  apply Audit08.mi_skip; [reflexivity|]. apply Audit08.mi_keep. apply Audit08.mi_nil.
Qed.
Example C08_ex_audit_binary64 :
  Audit08Float.opt_of_f64 PrimFloat.nan = None /\ Audit08Float.opt_of_f64 1%float = Some 1%float
  /\ vsum (NA := F64.NumF64) (DT := F64.IsNoneF64) (insert_pat PrimFloat.nan [true; false; true] [1%float; 2.5%float]) = Some 3.5%float.
Proof. vm_compute. auto. Qed.

Print Assumptions C08_fold_mechanism_encoding.
Print Assumptions C08_fold_mechanism_transparent.
Print Assumptions C08_encoding_bool_aggregations.
Print Assumptions C08_transparent_bool_aggregations.
Print Assumptions C08_encoding_masked.
Print Assumptions C08_transparent_masked.
Print Assumptions C08_masked_all_true.
Print Assumptions C08_insertion_changes_exactly.
Print Assumptions C08_count_null_value.
Print Assumptions C08_transparent_across_encodings_full.
Print Assumptions C08_noncanonical_null_excluded.
Print Assumptions C08_encoding_aggregations_binary64.
Print Assumptions C08_nan_insertion_binary64.
Print Assumptions C08_some_nan_binary64.
