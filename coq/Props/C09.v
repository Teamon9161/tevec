(* Props/C09.v — property C09: trusted-length iterators yield exactly as many items as they announce.

   Vocabulary (Model/Iter.v, Proofs/Iter.v):
     it                 iterator states (std adaptors, TrustIter, Linspace, Box)
     consume cs s       the state after the calls cs (false = next(), true = next_back())
     yields s l         plain safe iteration of s (next() until None) produces exactly the items l
     wfb false s        s is built so that every TrustIter below announces its true count (front use)
     wfb true s         same, and no node below is an FnMut map or a padded take (not double-ended)
     build src gs       the pipeline interpreter of the random part of the harness                *)
From Tevec Require Import Base.Prelude Model.Iter Proofs.Iter Model.IterAudit Proofs.Audit09 Proofs.Audit09Collect.
From Tevec Require Model.Collect Model.Driver.

(* (1) the size hint is exact from any point of a front consumption onwards *)
Theorem C09_hint_exact_front :
  forall (s : it) (k : nat) (l : list val),
    wfb false s -> yields (consume (repeat false k) s) l ->
    size_hint (consume (repeat false k) s) = (length l, Some (length l)).
Proof. intros s k l. exact (hint_exact_consume false _ s l (fronts_ok false k)). Qed.

(* (2) ... and from any point of a consumption from EITHER end, for every state std / the library make
       double-ended: all nodes except the FnMut map (order dependent) and the padded take (not double-ended
       in std); next_back through Take / Skip / Zip / Enumerate (computed from len()) included *)
Theorem C09_hint_exact_both_ends :
  forall (s : it) (cs : list bool) (l : list val),
    wfb true s -> yields (consume cs s) l ->
    size_hint (consume cs s) = (length l, Some (length l)).
Proof. intros s cs l. exact (hint_exact_consume true cs s l (all_dirs_ok cs)). Qed.

(* (3) every pipeline of the adaptor grammar, arbitrary parameters, any number of next() calls *)
Theorem C09_hint_exact_pipeline :
  forall (src : source) (gs : list stage) (s : it) (k : nat) (l : list val),
    build src gs = Ok s -> yields (consume (repeat false k) s) l ->
    size_hint (consume (repeat false k) s) = (length l, Some (length l)).
Proof.
  intros src gs s k l Hb. exact (hint_exact_consume false _ s l (fronts_ok false k) (build_wf src gs s Hb)).
Qed.

Theorem C09_pipeline_well_formed :
  forall src gs s, build src gs = Ok s -> wfb false s.
Proof. exact build_wf. Qed.

(* well-formedness is an invariant of every admissible step *)
Theorem C09_step_preserves :
  forall (back b : bool) (s : it) (o : option val) (s' : it),
    (back = true -> b = true) -> wfb b s -> nextd back s = (o, s') ->
    wfb b s' /\
    match o with
    | Some x => if back then elems s = elems s' ++ [x] else elems s = x :: elems s'
    | None => elems s = [] /\ elems s' = []
    end.
Proof.
  intros back b s o s' Hd Hw E. destruct (nextd_sound back b s o s' Hd Hw E) as (Hs & Hw' & _).
  split; [exact Hw' | exact Hs].
Qed.

(* plain iteration of a well-formed state yields exactly its abstract sequence *)
Theorem C09_plain_iteration :
  forall s l, wfb false s -> (yields s l <-> l = elems s).
Proof.
  intros s l Hw. split; [apply yields_is_elems; exact Hw | intros ->; apply yields_elems; exact Hw].
Qed.

(* (4) the adaptors: for ALL parameters they return well-formed states, never panic, and the shift-like
       ones preserve the length of their input *)
Theorem C09_len_preserved_shift :
  forall (n : Z) (v : val) (s : it), wfb false s ->
    exists s', shift n v s = Ok s' /\ wfb false s' /\ length (elems s') = length (elems s).
Proof. exact (shift_wfb false). Qed.

Theorem C09_len_preserved_vshift :
  forall (n : Z) (v : option val) (s : it), wfb false s ->
    exists s', vshift n v s = Ok s' /\ wfb false s' /\ length (elems s') = length (elems s).
Proof. intros n v. exact (shift_wfb false n _). Qed.

Theorem C09_len_preserved_vdiff :
  forall (n : Z) (v : option val) (xs : list val),
    exists s', vdiff n v xs = Ok s' /\ wfb false s' /\ length (elems s') = length xs.
Proof. exact (vdiff_wfb false). Qed.

Theorem C09_len_preserved_vpct_change :
  forall (n : Z) (xs : list val),
    exists s', vpct_change n xs = Ok s' /\ wfb false s' /\ length (elems s') = length xs.
Proof. exact (vpct_change_wfb false). Qed.

Theorem C09_len_preserved_fills :
  forall (v : option val) (w lo hi : val) (s : it), wfb false s ->
    (wfb false (ffill v s) /\ length (elems (ffill v s)) = length (elems s)) /\
    (wfb false (fill w s) /\ length (elems (fill w s)) = length (elems s)) /\
    (wfb false (vclip lo hi s) /\ length (elems (vclip lo hi s)) = length (elems s)) /\
    (wfb false (vabs s) /\ length (elems (vabs s)) = length (elems s)).
Proof.
  intros v w lo hi s Hw.
  exact (conj (ffill_wf v s Hw) (conj (fill_wf false w s Hw) (conj (vclip_wf false lo hi s Hw) (vabs_wf false s Hw)))).
Qed.

Theorem C09_len_preserved_bfill :
  forall (v : option val) (s : it), wfb true s ->
    exists s', bfill v s = Ok s' /\ wfb true s' /\ length (elems s') = length (elems s).
Proof. exact bfill_wf. Qed.

Theorem C09_vcut_well_formed :
  forall tmin tmax bins labels right add s s', wfb false s ->
    vcut tmin tmax bins labels right add s = Some s' ->
    wfb false s' /\ length (elems s') = length (elems s).
Proof. exact (vcut_wfb false). Qed.

Theorem C09_partitions_well_formed :
  forall (kth : nat) (sort : bool) (xs : list val),
    wfb false (vpartition kth sort xs) /\
    length (elems (vpartition kth sort xs)) = kth + 1 /\
    wfb false (varg_partition kth sort xs) /\
    length (elems (varg_partition kth sort xs)) = kth + 1.
Proof.
  intros kth sort xs. destruct (vpartition_wf kth sort xs) as [H1 H2].
  split; [exact H1|]. split; [exact H2|]. apply varg_partition_wf.
Qed.

Theorem C09_rolling_iter_well_formed :
  forall (w : nat) (xs : list val), 1 <= w ->
    exists s', rolling_custom_iter w xs = Ok s' /\ wfb false s' /\ length (elems s') = length xs.
Proof. exact rolling_wf. Qed.

Theorem C09_generators_well_formed :
  forall (a b st : Z) (n : nat),
    (wfb true (linspace a b n) /\ length (elems (linspace a b n)) = n) /\
    wfb true (range_f a b st) /\
    (forall s, range_i a b st = Ok s -> wfb true s) /\
    wfb true (winsorize (map VZ [a; b])).
Proof.
  intros a b st n. split; [apply linspace_wf|]. split; [apply range_f_wf|]. split; [apply range_i_wf|].
  apply winsorize_wf.
Qed.

(* `range` (Model/Create.v: create.rs with the count of its `fix:` commit) announces (and yields) ceil((b - a) / step)
   items, none when nothing lies before b *)
Theorem C09_range_count :
  forall (a b st : Z), (st <> 0)%Z ->
    length (elems (range_f a b st)) = range_count a b st /\
    (range_empty a b st = true -> range_count a b st = 0) /\
    (range_empty a b st = false ->
       let c := Z.of_nat (range_count a b st) in
       (0 < c /\ Z.abs st * (c - 1) < Z.abs (b - a) <= Z.abs st * c)%Z).
Proof.
  intros a b st Hst. split; [|exact (range_count_spec a b st Hst)].
  cbn. rewrite map_length, seq_length. lia.
Qed.

(* (5) the raw collector (allocate hint; write the items through a moving pointer; set_len hint):
       on a well-formed state, at any point of its consumption, it returns exactly the items plain
       iteration yields — and `CDone` means: capacity = number of items, slot k written once with item k *)
Theorem C09_collect_safe :
  forall (b : bool) (cs : list bool) (s : it) (l : list val),
    (forall c, In c cs -> c = true -> b = true) -> wfb b s -> yields (consume cs s) l ->
    collect_raw (consume cs s) = CDone l.
Proof. exact collect_after_consume. Qed.

Theorem C09_collect_done_means_exact :
  forall hint items l, collect_items hint items = CDone l -> hint = Some (length items) /\ l = items.
Proof.
  intros hint items l.
  destruct hint as [cap|]; [|discriminate]. rewrite collect_items_spec.
  destruct (length items <=? cap) eqn:E; [|discriminate]. destruct (cap <=? length items) eqn:E2; [|discriminate].
  apply Nat.leb_le in E, E2. intros [= <-]. split; [f_equal; lia | reflexivity].
Qed.

Theorem C09_collect_safe_pipeline :
  forall src gs s l, build src gs = Ok s -> yields s l -> collect_raw s = CDone l.
Proof.
  intros src gs s l Hb Hy.
  exact (collect_after_consume false [] s l (fun c H => match H with end) (build_wf src gs s Hb) Hy).
Qed.

(* ---- non-vacuity and necessity ------------------------------------------------------------------- *)
(* a pipeline that builds, with a lag beyond the series and a partial consumption in the middle *)
Example C09_example_pipeline :
  exists s, build (SVec [VZ 1; VNull; VZ 3]) [GShift 1 (VZ 0); GAdvance 1; GVShift (-5) None; GTrust] = Ok s
            /\ size_hint s = (2, Some 2) /\ drain s = [VNull; VNull].
Proof. eexists. repeat (split; [reflexivity|]). reflexivity. Qed.

(* a state of the double-ended class, consumed from both ends *)
Example C09_example_both_ends_len_based :
  wfb true (IEnum (IZip (ITake (ITrust (IList [VZ 1; VZ 2; VZ 3; VZ 4]) 4) 3) (ISkip (IRange 0 6) 1)) 0)
  /\ drain (consume [true; false]
             (IEnum (IZip (ITake (ITrust (IList [VZ 1; VZ 2; VZ 3; VZ 4]) 4) 3) (ISkip (IRange 0 6) 1)) 0))
     = [VPair (VZ 1) (VPair (VZ 2) (VZ 2))].
Proof. split; [cbn; auto | reflexivity]. Qed.

Example C09_example_both_ends :
  wfb true (IRev (IChain true true (ITrust (IList [VZ 1; VZ 2]) 2) (ILin 5 2 0 3)))
  /\ size_hint (consume [true; false; true]
                  (IRev (IChain true true (ITrust (IList [VZ 1; VZ 2]) 2) (ILin 5 2 0 3)))) = (2, Some 2).
Proof. split; [cbn; auto | reflexivity]. Qed.

(* the hypothesis is needed: a TrustIter announcing a wrong length breaks the law and the collector *)
Example C09_wrong_length_breaks :
  snd (size_hint (ITrust (IList [VZ 1; VZ 2; VZ 3]) 2)) <> Some (length (drain (ITrust (IList [VZ 1; VZ 2; VZ 3]) 2)))
  /\ collect_raw (ITrust (IList [VZ 1; VZ 2; VZ 3]) 2) = COverflow 2 3
  /\ collect_raw (ITrust (IList [VZ 1]) 2) = CUninit [Some (VZ 1); None].
Proof. split; [discriminate|]. split; reflexivity. Qed.

(* the premises of the adaptor theorems are satisfiable at the critical parameters *)
Example C09_example_shift_band :
  (exists s', shift (-2147483648) (VZ 0) (IList [VZ 1; VZ 2]) = Ok s' /\ drain s' = [VZ 0; VZ 0])
  /\ (exists s', vshift 5 None (IList [VZ 1; VZ 2; VZ 3]) = Ok s' /\ drain s' = [VNull; VNull; VNull])
  /\ (exists s', vdiff (-1) None [VZ 4; VZ 1; VZ 12] = Ok s' /\ drain s' = [VZ 3; VZ (-11); VNull])
  /\ drain (vpartition 4 false [VZ 3; VNull; VZ 1]) = [VZ 3; VZ 1; VNull; VNull; VNull]
  /\ (exists s', vdiff 0 None [VZ 1; VNull] = Ok s' /\ drain s' = [VZ 0; VNull])
  /\ (exists s', vdiff 1 (Some (VZ 9)) [VZ 4; VZ 1; VZ 12] = Ok s' /\ drain s' = [VZ 9; VZ (-3); VZ 11])
  /\ drain (vpartition 3 true [VZ 3; VNull]) = [VZ 3; VNull; VNull; VNull]
  /\ (exists s', range_i 0 5 2 = Ok s' /\ drain s' = [VZ 0; VZ 2; VZ 4])
  /\ (exists s', rolling_custom_iter 2 [VZ 5; VZ 6] = Ok s' /\ length (drain s') = 2)
  /\ rolling_custom_iter 0 [VZ 5] = Panic Underflow.
Proof.
  do 3 (split; [eexists; split; reflexivity|]). split; [reflexivity|].
  do 2 (split; [eexists; split; reflexivity|]). split; [reflexivity|].
  do 2 (split; [eexists; split; reflexivity|]). reflexivity.
Qed.

(* ==== nth / nth_back / last / count / fold / skip / step_by ============================================
   Vocabulary (Model/Iter.v):
     nthd back k s      Iterator::nth(k) (back = false) / DoubleEndedIterator::nth_back(k) (back = true): std's
                        default bodies, which TrustIter inherits (advance_by(k).ok()?; next())
     calls back k s     k+1 calls of next() / next_back() written by hand, no early exit
     and_next back p    one more call unless the previous one returned None
     exec c s           one instruction INext | INextBack | INth k | INthBack k;  run_script cs s
     last_it, count_it, fold_it    Iterator::last / count / fold (rfold) with the state they leave behind
     stepby, sb_next, sb_size_hint std's StepBy around a state (its next() is nth(step - 1) on the source)   *)

(* (6) the size hint is exact after EVERY script over {next, next_back, nth k, nth_back k}; back instructions
       need a double-ended state (b = true), front ones only a front-well-formed one *)
Theorem C09_hint_exact_scripts :
  forall (b : bool) (s : it) (cs : list instr),
    (forall c, In c cs -> instr_back c = true -> b = true) -> wfb b s ->
    size_hint (run_script cs s)
    = (length (drain (run_script cs s)), Some (length (drain (run_script cs s)))).
Proof. intros b s cs Hc Hw. apply (hint_exact_script_drain b); assumption. Qed.

Theorem C09_hint_exact_scripts_yields :
  forall (b : bool) (s : it) (cs : list instr) (l : list val),
    (forall c, In c cs -> instr_back c = true -> b = true) -> wfb b s -> yields (run_script cs s) l ->
    size_hint (run_script cs s) = (length l, Some (length l)).
Proof.
  intros b s cs l Hc Hw Hy. pose proof (wfb_front _ _ (run_script_wf b cs s Hc Hw)) as Hw'.
  rewrite (yields_is_elems _ _ Hw' Hy). apply wfb_exact. exact Hw'.
Qed.

(* every pipeline of the adaptor grammar under every front script (next / nth k in any order) *)
Theorem C09_hint_exact_scripts_pipeline :
  forall (src : source) (gs : list stage) (s : it) (cs : list instr),
    build src gs = Ok s -> (forall c, In c cs -> instr_back c = false) ->
    size_hint (run_script cs s)
    = (length (drain (run_script cs s)), Some (length (drain (run_script cs s)))).
Proof.
  intros src gs s cs Hb Hc. apply (hint_exact_script_drain false); [|exact (build_wf src gs s Hb)].
  intros c Hin Hk. rewrite (Hc c Hin) in Hk. discriminate.
Qed.

(* the next / next_back scripts of theorems (1)-(3) are the scripts without Nth *)
Theorem C09_scripts_generalise_consume :
  forall (cs : list bool) (s : it), run_script (map instr_of_bool cs) s = consume cs s.
Proof.
  induction cs as [|c cs IH]; intros s; [reflexivity|]. cbn [map run_script consume].
  rewrite IH. destruct c; reflexivity.
Qed.

(* the abstract sequence after a script: every instruction cuts k+1 items off the front or the back *)
Theorem C09_script_sequence :
  forall (b : bool) (cs : list instr) (s : it),
    (forall c, In c cs -> instr_back c = true -> b = true) -> wfb b s ->
    elems (run_script cs s) = fold_left (fun l c => cut c l) cs (elems s).
Proof. intros b cs s Hc Hw. apply (run_script_elems b); assumption. Qed.

(* the raw collector is safe after every such script *)
Theorem C09_collect_safe_scripts :
  forall (b : bool) (cs : list instr) (s : it),
    (forall c, In c cs -> instr_back c = true -> b = true) -> wfb b s ->
    collect_raw (run_script cs s) = CDone (drain (run_script cs s)).
Proof.
  intros b cs s Hc Hw. pose proof (wfb_front _ _ (run_script_wf b cs s Hc Hw)) as Hw'.
  rewrite (drain_elems _ Hw'). apply collect_raw_safe. exact Hw'.
Qed.

(* (7) nth k = k+1 x next, on EVERY model state (no well-formedness assumed): item and new state.
       Literally with the early exit of advance_by; and equal to k+1 unconditional calls whenever an item
       comes back; when None comes back, nth stopped at the first None among those calls. *)
Theorem C09_nth_is_iterated_next :
  forall (back : bool) (k : nat) (s : it),
    nthd back k s = Nat.iter k (and_next back) (nextd back s) /\
    (forall x s', nthd back k s = (Some x, s') -> calls back k s = (Some x, s')) /\
    (forall s', nthd back k s = (None, s') -> exists j, j <= k /\ calls back j s = (None, s')).
Proof.
  intros back k s. split; [apply nthd_iter|]. split; [apply nthd_some_calls | apply nthd_none_calls].
Qed.

(* std's own formulation of the default: advance_by(k).ok()?; next() *)
Theorem C09_nth_is_advance_then_next :
  forall (back : bool) (k : nat) (s : it),
    nthd back k s = let '(r, s') := advance_by back k s in if r =? 0 then nextd back s' else (None, s').
Proof.
  intros back.
  unfold nthd. induction k as [|k IH]; intros s; cbn [nth_by advance_by]; [reflexivity|].
  destruct (nextd back s) as [o s1]. destruct o as [x|]; [apply IH | reflexivity].
Qed.

(* on well-formed states the early exit cannot be observed: same item, same remaining sequence, same hint *)
Theorem C09_nth_early_exit_unobservable :
  forall (back b : bool) (k : nat) (s : it),
    (back = true -> b = true) -> wfb b s ->
    fst (nthd back k s) = fst (calls back k s) /\
    elems (snd (nthd back k s)) = elems (snd (calls back k s)) /\
    size_hint (snd (nthd back k s)) = size_hint (snd (calls back k s)) /\
    wfb b (snd (calls back k s)).
Proof.
  intros back b k s Hdir Hw. destruct (nthd back k s) as [o1 s1] eqn:E1. destruct (calls back k s) as [o2 s2] eqn:E2.
  cbn [fst snd].
  destruct (nthd_sound back b Hdir k s o1 s1 Hw E1) as (H1 & Hw1 & _).
  destruct (calls_sound back b Hdir k s o2 s2 Hw E2) as (H2 & Hw2).
  destruct (nth_spec_closed _ _ _ _ _ H1) as [Ho1 He1]. destruct (nth_spec_closed _ _ _ _ _ H2) as [Ho2 He2].
  split; [congruence|]. split; [congruence|]. split; [|exact Hw2].
  rewrite (wfb_exact s1 (wfb_front _ _ Hw1)), (wfb_exact s2 (wfb_front _ _ Hw2)). congruence.
Qed.

(* closed form: nth k returns the k-th item and leaves the items after it; nth_back k mirrors it *)
Theorem C09_nth_closed_form :
  forall (back b : bool) (k : nat) (s : it),
    (back = true -> b = true) -> wfb b s ->
    fst (nthd back k s) = nth_error (if back then rev (elems s) else elems s) k /\
    elems (snd (nthd back k s)) =
      (if back then firstn (length (elems s) - S k) (elems s) else skipn (S k) (elems s)) /\
    wfb b (snd (nthd back k s)).
Proof. intros back b k s Hd Hw. apply nthd_closed; assumption. Qed.

(* (8) full consumption: count() is the announced bound, last() is the last item plain iteration yields
       (= what next_back() returns on a double-ended state), fold visits exactly the yielded items in
       order (rfold: reversed); all leave an exhausted state announcing (0, Some 0) *)
Theorem C09_count_is_hint :
  forall s, wfb false s ->
    fst (count_it s) = length (elems s) /\
    size_hint s = (fst (count_it s), Some (fst (count_it s))) /\
    size_hint (snd (count_it s)) = (0, Some 0).
Proof. exact count_it_sound. Qed.

Theorem C09_last_is_last :
  forall s, wfb false s ->
    fst (last_it s) = nth_error (rev (elems s)) 0 /\ elems (snd (last_it s)) = [] /\
    size_hint (snd (last_it s)) = (0, Some 0).
Proof. exact last_it_sound. Qed.

Theorem C09_last_is_next_back :
  forall s, wfb true s -> fst (last_it s) = fst (next_back s).
Proof.
  intros s Hw. rewrite (proj1 (last_it_sound s (wfb_weaken _ Hw))).
  symmetry. exact (proj1 (nthd_closed true true 0 s (fun _ => eq_refl) Hw)).
Qed.

Theorem C09_fold_visits_yielded :
  forall (A : Type) (back b : bool) (f : A -> val -> A) (acc : A) (s : it),
    (back = true -> b = true) -> wfb b s ->
    fst (fold_it back f acc s) = fold_left f (if back then rev (elems s) else elems s) acc /\
    elems (snd (fold_it back f acc s)) = [].
Proof. intros A back b f acc s Hd Hw. apply (fold_it_sound back b); assumption. Qed.

(* (9) the std adaptors built on nth: Skip::next is nth(n) on the source; StepBy's hint is exact at every
       point of its consumption and it yields every step-th item of its source *)
Theorem C09_skip_next_is_nth :
  forall (b : bool) (s : it) (n : nat), wfb b s ->
    next (ISkip s n) = let '(o, s') := nth_it n s in (o, ISkip s' 0).
Proof.
  intros b s n Hw. unfold next. cbn [depth step]. rewrite (nth_by_fuel b n s Hw). reflexivity.
Qed.

Theorem C09_step_by_hint_exact :
  forall (n : nat) (s : it) (t : stepby) (k : nat),
    wfb false s -> step_by n s = Ok t ->
    sb_size_hint (sb_consume k t)
    = (length (sb_drain (sb_consume k t)), Some (length (sb_drain (sb_consume k t)))).
Proof.
  intros n s t k Hw E. apply sb_hint_exact. apply sb_consume_wf. exact (step_by_wf n s t Hw E).
Qed.

Theorem C09_step_by_yields :
  forall (n : nat) (s : it) (t : stepby),
    wfb false s -> step_by n s = Ok t ->
    sb_drain t = every_nth (length (elems s)) (n - 1) (elems s).
Proof.
  intros n s t Hw E. rewrite (sb_drain_elems t (step_by_wf n s t Hw E)).
  unfold step_by in E. destruct (n =? 0); [discriminate|]. injection E as <-. reflexivity.
Qed.

(* ---- non-vacuity for (6)-(9) ------------------------------------------------------------------------ *)
(* vshift(2) on 7 items, nth(2): item 1.0 (index 2 of [NaN, NaN, 1, 2, 3, 4, 5]), then 4 announced = 4 yielded;
   README of seeded/C09-3: the overriding nth left 5 announced here *)
Example C09_example_nth_vshift :
  exists s, vshift 2 None (IList [VZ 1; VZ 2; VZ 3; VZ 4; VZ 5; VZ 6; VZ 7]) = Ok s /\ wfb false s
    /\ fst (exec (INth 2) s) = Some (VZ 1)
    /\ size_hint (run_script [INth 2] s) = (4, Some 4)
    /\ drain (run_script [INth 2] s) = [VZ 2; VZ 3; VZ 4; VZ 5]
    /\ size_hint (run_script [INth 0; INth 1; INth 0] s) = (3, Some 3)
    /\ fst (exec (INth 7) s) = None /\ size_hint (run_script [INth 7] s) = (0, Some 0).
Proof. eexists. split; [reflexivity|]. split; [cbn; auto|]. repeat (split; [reflexivity|]). reflexivity. Qed.

(* the padded vpartition arm (TrustIter over a padded take), mixed next / nth *)
Example C09_example_nth_vpartition :
  wfb false (vpartition 4 false [VZ 3; VNull; VZ 1])
  /\ size_hint (run_script [INth 1; INext] (vpartition 4 false [VZ 3; VNull; VZ 1])) = (2, Some 2)
  /\ drain (run_script [INth 1; INext] (vpartition 4 false [VZ 3; VNull; VZ 1])) = [VNull; VNull]
  /\ fst (count_it (vpartition 4 false [VZ 3; VNull; VZ 1])) = 5
  /\ fst (last_it (vpartition 0 false [VZ 3; VNull; VZ 1])) = Some (VZ 3).
Proof. split; [cbn; auto|]. repeat (split; [reflexivity|]). reflexivity. Qed.

(* all four instructions on a double-ended state built from a shifted series (vshift(-1) of 5 items) *)
Example C09_example_script_both_ends :
  exists s, vshift (-1) None (IList [VZ 1; VZ 2; VZ 3; VZ 4; VZ 5]) = Ok s /\ wfb true s
    /\ fst (exec (INthBack 1) s) = Some (VZ 5)
    /\ size_hint (run_script [INthBack 1; INth 1; INextBack; INext] s) = (0, Some 0)
    /\ size_hint (run_script [INthBack 1; INth 0] s) = (2, Some 2)
    /\ drain (run_script [INthBack 1; INth 0] s) = [VZ 3; VZ 4]
    /\ fst (last_it s) = fst (next_back s).
Proof. eexists. split; [reflexivity|]. split; [cbn; auto|]. repeat (split; [reflexivity|]). reflexivity. Qed.

(* the hypothesis is needed: the state the seeded `nth` (len -= n, not n + 1) leaves behind is a TrustIter whose
   cached length is one too large; it is not well formed, announces 5 and yields 4, and the collector reads an
   uninitialised slot *)
Example C09_stale_nth_length_breaks :
  ~ wfb false (ITrust (IList [VZ 2; VZ 3; VZ 4; VZ 5]) 5)
  /\ size_hint (ITrust (IList [VZ 2; VZ 3; VZ 4; VZ 5]) 5) = (5, Some 5)
  /\ length (drain (ITrust (IList [VZ 2; VZ 3; VZ 4; VZ 5]) 5)) = 4
  /\ collect_raw (ITrust (IList [VZ 2; VZ 3; VZ 4; VZ 5]) 5)
     = CUninit [Some (VZ 2); Some (VZ 3); Some (VZ 4); Some (VZ 5); None].
Proof. split; [intros [H _]; discriminate H|]. repeat (split; [reflexivity|]). reflexivity. Qed.

(* why (7) keeps the early exit and C09_nth_early_exit_unobservable speaks of observations, not of states: a Zip
   whose second side is exhausted keeps consuming its first side on every further call, so nth(2) and three
   hand-written next() calls leave different states (same item, same remaining sequence, same hint) *)
Example C09_early_exit_visible_in_state :
  fst (nthd false 2 (IZip (IList [VZ 1; VZ 2; VZ 3]) (IList []))) = fst (calls false 2 (IZip (IList [VZ 1; VZ 2; VZ 3]) (IList [])))
  /\ snd (nthd false 2 (IZip (IList [VZ 1; VZ 2; VZ 3]) (IList []))) = IZip (IList [VZ 2; VZ 3]) (IList [])
  /\ snd (calls false 2 (IZip (IList [VZ 1; VZ 2; VZ 3]) (IList []))) = IZip (IList []) (IList []).
Proof. repeat (split; [reflexivity|]). reflexivity. Qed.

(* StepBy over a shifted series: vshift(1).step_by(2) on 7 items after 2 x next(): 2 announced, 2 yielded
   (the seeded nth announced 3); step_by(0) panics *)
Example C09_example_step_by :
  exists s t, vshift 1 None (IList [VZ 1; VZ 2; VZ 3; VZ 4; VZ 5; VZ 6; VZ 7]) = Ok s /\ step_by 2 s = Ok t
    /\ sb_size_hint t = (4, Some 4) /\ sb_drain t = [VNull; VZ 2; VZ 4; VZ 6]
    /\ sb_size_hint (sb_consume 2 t) = (2, Some 2) /\ sb_drain (sb_consume 2 t) = [VZ 4; VZ 6]
    /\ sb_size_hint (sb_consume 4 t) = (0, Some 0)
    /\ step_by 0 s = Panic AssertFail
    /\ next (ISkip s 3) = (Some (VZ 3), ISkip (snd (nth_it 3 s)) 0).
Proof. do 2 eexists. repeat (split; [reflexivity|]). reflexivity. Qed.

(* ==== the remaining clauses of the statement ==============================================================
   notes/C09.md has the clause-by-clause matrix.  Vocabulary (Model/IterAudit.v, Proofs/Audit09.v):
     tis_empty, mabs          TrustedLen::is_empty, MapBasic::abs
     itf, f_next, f_size_hint Filter / FilterMap (own hint (0, upper): inexact) with the padded take, TrustIter and
                              Box the library puts on top; f_wf / f_trusted: well formed / the top announces exactly
     vpartition_f, varg_partition_f   the partition arms as the code builds them (over Filter / FilterMap)
     as_titer, as_try_titer   a state as the collectors of Model/Collect.v see it (len() + the items pulled)       *)

(* (10) statements about EVERY model state, no well-formedness: lower bound = upper bound, so TrustedLen::len()
        never panics and ExactSizeIterator::len()'s assert_eq never fires; shift / vshift never panic and keep the
        ANNOUNCED length (also of an input that lies) *)
Theorem C09_hint_lower_is_upper :
  forall s : it, snd (size_hint s) = Some (fst (size_hint s)) /\ tlen s = Ok (fst (size_hint s)).
Proof. intros s. split; [apply hint_lower_is_upper | apply tlen_total]. Qed.

Theorem C09_shift_total :
  forall (n : Z) (v : val) (w : option val) (s : it),
    (exists s', shift n v s = Ok s' /\ size_hint s' = size_hint s) /\
    (exists s', vshift n w s = Ok s' /\ size_hint s' = size_hint s).
Proof. intros. split; [apply shift_total | apply vshift_total]. Qed.

(* (11) fused behaviour: once an instruction returned None, every later instruction returns None, the hint is
        (0, Some 0) and plain iteration yields nothing - after any further script *)
Theorem C09_fused_after_exhaustion :
  forall (b : bool) (c : instr) (s : it) (cs : list instr) (c' : instr),
    (instr_back c = true -> b = true) -> (forall x, In x cs -> instr_back x = true -> b = true) ->
    (instr_back c' = true -> b = true) ->
    wfb b s -> fst (exec c s) = None ->
    fst (exec c' (run_script cs (snd (exec c s)))) = None /\
    size_hint (run_script cs (snd (exec c s))) = (0, Some 0) /\
    drain (run_script cs (snd (exec c s))) = [].
Proof. intros b c s cs c' H1 H2 H3 Hw Hn. apply (fused b); assumption. Qed.

(* an exhausted state stays exhausted and well formed under every instruction *)
Theorem C09_exhausted_stays_exhausted :
  forall (b : bool) (c : instr) (s : it),
    (instr_back c = true -> b = true) -> wfb b s -> elems s = [] ->
    fst (exec c s) = None /\ elems (snd (exec c s)) = [] /\ wfb b (snd (exec c s)).
Proof. intros b c s H Hw He. apply (exhausted_exec b); assumption. Qed.

(* fold / rfold (hence count, last) leave an exhausted, well-formed state: hint (0, Some 0), every later call None *)
Theorem C09_fold_leaves_exhausted :
  forall (A : Type) (back b : bool) (f : A -> val -> A) (acc : A) (s : it),
    (back = true -> b = true) -> wfb b s ->
    size_hint (snd (fold_it back f acc s)) = (0, Some 0) /\ wfb b (snd (fold_it back f acc s)) /\
    (forall c, (instr_back c = true -> b = true) -> fst (exec c (snd (fold_it back f acc s))) = None).
Proof.
  intros A back b f acc s Hdir Hw. unfold fold_it.
  destruct (fold_n_sound back b f Hdir (S (length (elems s))) s acc Hw ltac:(lia)) as (_ & H2 & H3).
  split; [rewrite (wfb_exact _ (wfb_front _ _ H3)), H2; reflexivity|]. split; [exact H3|].
  intros c Hc. exact (proj1 (exhausted_exec b c _ Hc H3 H2)).
Qed.

(* (12) count / last / fold at EVERY point of a consumption (after every admissible script) *)
Theorem C09_count_at_every_point :
  forall (b : bool) (cs : list instr) (s : it),
    (forall c, In c cs -> instr_back c = true -> b = true) -> wfb b s ->
    size_hint (run_script cs s) = (fst (count_it (run_script cs s)), Some (fst (count_it (run_script cs s)))) /\
    fst (count_it (run_script cs s)) = length (fold_left (fun l c => cut c l) cs (elems s)).
Proof.
  intros b cs s Hc Hw. pose proof (wfb_front _ _ (run_script_wf b cs s Hc Hw)) as Hw'.
  destruct (count_it_sound _ Hw') as (H1 & H2 & _). split; [exact H2|].
  rewrite H1, (run_script_elems b cs s Hc Hw). reflexivity.
Qed.

Theorem C09_last_at_every_point :
  forall (b : bool) (cs : list instr) (s : it),
    (forall c, In c cs -> instr_back c = true -> b = true) -> wfb b s ->
    fst (last_it (run_script cs s)) = nth_error (rev (fold_left (fun l c => cut c l) cs (elems s))) 0.
Proof.
  intros b cs s Hc Hw. pose proof (wfb_front _ _ (run_script_wf b cs s Hc Hw)) as Hw'.
  rewrite (proj1 (last_it_sound _ Hw')), (run_script_elems b cs s Hc Hw). reflexivity.
Qed.

Theorem C09_fold_at_every_point :
  forall (A : Type) (back b : bool) (f : A -> val -> A) (acc : A) (cs : list instr) (s : it),
    (back = true -> b = true) -> (forall c, In c cs -> instr_back c = true -> b = true) -> wfb b s ->
    fst (fold_it back f acc (run_script cs s))
    = fold_left f (let l := fold_left (fun l c => cut c l) cs (elems s) in if back then rev l else l) acc.
Proof.
  intros A back b f acc cs s Hd Hc Hw. pose proof (run_script_wf b cs s Hc Hw) as Hw'.
  rewrite (proj1 (fold_it_sound back b f acc _ Hd Hw')), (run_script_elems b cs s Hc Hw). reflexivity.
Qed.

Theorem C09_count_from_the_back :
  forall s, wfb true s -> fst (fold_it true (fun n (_ : val) => S n) 0 s) = fst (count_it s).
Proof.
  intros s Hw. rewrite (proj1 (fold_it_sound true true _ 0 s (fun _ => eq_refl) Hw)).
  rewrite (proj1 (count_it_sound s (wfb_weaken _ Hw))), fold_left_count, rev_length. reflexivity.
Qed.

(* (13) rejected parameters, totally: which inputs an adaptor refuses and how *)
Theorem C09_rolling_iter_total :
  forall (w : nat) (xs : list val),
    (w = 0 -> rolling_custom_iter w xs = Panic Underflow) /\
    (1 <= w -> exists s', rolling_custom_iter w xs = Ok s' /\ wfb true s' /\ length (elems s') = length xs /\
                          size_hint s' = (length xs, Some (length xs))).
Proof. intros w xs. split; [intros ->; apply rolling_custom_iter_window0 | apply rolling_wfb]. Qed.

Theorem C09_vcut_rejects_exactly :
  forall tmin tmax bins labels right add s,
    vcut tmin tmax bins labels right add s = None <->
    (if add then length labels <> length bins + 1 else length labels + 1 <> length bins).
Proof.
  intros tmin tmax bins labels right add s.
  unfold vcut. destruct add.
  - destruct (length labels =? length bins + 1) eqn:E; cbn [negb].
    + apply Nat.eqb_eq in E. split; [discriminate | intros H; contradiction].
    + apply Nat.eqb_neq in E. split; [intros _; exact E | reflexivity].
  - destruct (length labels + 1 =? length bins) eqn:E; cbn [negb].
    + apply Nat.eqb_eq in E. split; [discriminate | intros H; contradiction].
    + apply Nat.eqb_neq in E. split; [intros _; exact E | reflexivity].
Qed.

Theorem C09_range_int_total :
  forall a b st : Z,
    (range_i a b st = Panic OtherPanic <-> range_empty a b st = false /\ st = 0%Z) /\
    (range_i a b st <> Panic OtherPanic -> range_i a b st = Ok (range_f a b st)).
Proof.
  intros a b st.
  unfold range_i, range_f. destruct (range_empty a b st); cbn [negb andb].
  - split; [split; [discriminate | intros [H _]; discriminate] | reflexivity].
  - destruct (st =? 0)%Z eqn:E.
    + apply Z.eqb_eq in E. split; [split; auto | intros H; contradiction].
    + apply Z.eqb_neq in E. split; [split; [discriminate | intros [_ H]; contradiction] | reflexivity].
Qed.

Theorem C09_range_zero_step :
  forall a b : Z, elems (range_f a b 0) = [] /\ size_hint (range_f a b 0) = (0, Some 0).
Proof.
  intros a b.
  unfold range_f, range_count, range_empty. cbn [Z.ltb Z.compare Z.eqb].
  destruct (a <=? b)%Z; cbn; auto.
Qed.

Theorem C09_step_by_rejects_exactly :
  forall (n : nat) (s : it), step_by n s = Panic AssertFail <-> n = 0.
Proof.
  intros n s.
  unfold step_by. destruct (n =? 0) eqn:E.
  - apply Nat.eqb_eq in E. split; auto.
  - apply Nat.eqb_neq in E. split; [discriminate | intros H; contradiction].
Qed.

(* (14) the adaptors on double-ended inputs, and on inputs already consumed from either end *)
Theorem C09_shift_both_ends :
  forall (b : bool) (n : Z) (v : val) (s : it), wfb b s ->
    exists s', shift n v s = Ok s' /\ wfb b s' /\ length (elems s') = length (elems s).
Proof. intros b n v s Hw. apply shift_wfb. exact Hw. Qed.

Theorem C09_shift_after_any_consumption :
  forall (n : Z) (v : val) (s : it) (cs : list bool), wfb true s ->
    exists s', shift n v (consume cs s) = Ok s' /\ wfb true s' /\
               length (elems s') = length (elems (consume cs s)).
Proof.
  intros n v s cs Hw. apply shift_wfb. apply consume_wf; [apply all_dirs_ok | exact Hw].
Qed.

Theorem C09_lag_adaptors_both_ends :
  forall (n : Z) (v : option val) (xs : list val),
    (exists s', vdiff n v xs = Ok s' /\ wfb true s' /\ length (elems s') = length xs) /\
    (exists s', vpct_change n xs = Ok s' /\ wfb true s' /\ length (elems s') = length xs).
Proof. intros. split; [apply (vdiff_wfb true) | apply (vpct_change_wfb true)]. Qed.

Theorem C09_vcut_both_ends :
  forall b tmin tmax bins labels right add s s', wfb b s ->
    vcut tmin tmax bins labels right add s = Some s' -> wfb b s' /\ length (elems s') = length (elems s).
Proof. intros b tmin tmax bins labels right add s s' Hw E. apply (vcut_wfb b tmin tmax bins labels right add s); assumption. Qed.

(* (15) two public functions the model lacked: TrustedLen::is_empty and MapBasic::abs *)
Theorem C09_is_empty :
  forall (b : bool) (s : it),
    tis_empty s = Ok (fst (size_hint s) =? 0) /\
    (wfb b s -> tis_empty s = Ok (match elems s with [] => true | _ => false end) /\
                (tis_empty s = Ok true <-> fst (next s) = None)).
Proof. intros b s. split; [apply tis_empty_total | apply tis_empty_wf]. Qed.

Theorem C09_abs_well_formed :
  forall (b : bool) (s : it), wfb b s ->
    wfb b (mabs s) /\ length (elems (mabs s)) = length (elems s) /\ mabs s = vabs s.
Proof.
  intros b s Hw. cbn [mabs wfb elems]. rewrite map_length. auto.
Qed.

(* (16) sources whose OWN hint is inexact.  Filter / FilterMap announce (0, inner count): bounds, not a length ... *)
Theorem C09_filter_hint_is_only_a_bound :
  forall (g : val -> option val) (i : it), wfb false i ->
    f_size_hint (FFilterMap g i) = (0, Some (length (elems i))) /\
    length (f_elems (FFilterMap g i)) <= length (elems i).
Proof.
  intros g i Hw. cbn [f_size_hint f_elems]. rewrite (wfb_exact i Hw). split; [reflexivity|].
  induction (elems i) as [|x l IH]; [auto|]. cbn [flat_map]. rewrite app_length. cbn [length].
  destruct (g x); cbn [opt_list length]; lia.
Qed.

(* ... yet under the TrustIter / padded take the library puts on top, the law holds at every point of the
   consumption, provided the declared length is the number of items that pass the filter *)
Theorem C09_hint_exact_over_inexact_source :
  forall (k : nat) (t : itf), f_wf t -> f_trusted t ->
    f_size_hint (f_consume k t) = (length (f_drain (f_consume k t)), Some (length (f_drain (f_consume k t)))).
Proof.
  intros k t Hw Ht. destruct (f_consume_wf k t Hw Ht) as [Hw' Ht'].
  rewrite (f_drain_elems _ Hw'). apply f_exact; assumption.
Qed.

Theorem C09_inexact_source_step :
  forall (t : itf) (o : option val) (t' : itf), f_wf t -> f_next t = (o, t') ->
    match o with Some x => f_elems t = x :: f_elems t' | None => f_elems t = [] /\ f_elems t' = [] end /\
    f_wf t' /\ (f_trusted t -> f_trusted t').
Proof. exact f_next_sound. Qed.

(* the partitions as the code builds them (filter(not_none) / enumerate().filter_map(..) under to_trust(kth+1)):
   well formed for ALL kth, sort, inputs; and Model/Iter.v's idealisation `IList (filter ..)` is observationally
   exact - same hint and same remaining items after any number of next() calls *)
Theorem C09_partitions_over_filter_well_formed :
  forall (kth : nat) (sort : bool) (xs : list val),
    (f_wf (vpartition_f kth sort xs) /\ f_trusted (vpartition_f kth sort xs)) /\
    (f_wf (varg_partition_f kth sort xs) /\ f_trusted (varg_partition_f kth sort xs)) /\
    length (f_elems (vpartition_f kth sort xs)) = kth + 1 /\
    length (f_elems (varg_partition_f kth sort xs)) = kth + 1.
Proof.
  intros kth sort xs. split; [apply vpartition_f_wf|]. split; [apply varg_partition_f_wf|].
  rewrite vpartition_f_elems, varg_partition_f_elems.
  split; [exact (proj2 (vpartition_wf kth sort xs)) | exact (proj2 (varg_partition_wf kth sort xs))].
Qed.

Theorem C09_partition_idealisation_exact :
  forall (k kth : nat) (sort : bool) (xs : list val),
    (f_size_hint (f_consume k (vpartition_f kth sort xs)) = size_hint (consume (repeat false k) (vpartition kth sort xs)) /\
     f_drain (f_consume k (vpartition_f kth sort xs)) = drain (consume (repeat false k) (vpartition kth sort xs))) /\
    (f_size_hint (f_consume k (varg_partition_f kth sort xs))
     = size_hint (consume (repeat false k) (varg_partition kth sort xs)) /\
     f_drain (f_consume k (varg_partition_f kth sort xs)) = drain (consume (repeat false k) (varg_partition kth sort xs))).
Proof. intros. split; [apply vpartition_f_observational | apply varg_partition_f_observational]. Qed.

(* (17) "consequently": EVERY trusted collector of Model/Collect.v (raw Vec / VecDeque / ndarray, the defaults,
        collect_with_len, the fallible ones, write_trust_iter) on a well-formed state at any point of its consumption *)
Theorem C09_collect_every_backend :
  forall (bk : Model.Collect.backend) (b : bool) (cs : list instr) (s : it),
    (forall c, In c cs -> instr_back c = true -> b = true) -> wfb b s ->
    Model.Collect.collect_from_trusted bk (as_titer (run_script cs s)) = Model.Driver.Done (drain (run_script cs s)).
Proof.
  intros bk b cs s Hc Hw. pose proof (wfb_front _ _ (run_script_wf b cs s Hc Hw)) as Hw'.
  rewrite (as_titer_exact _ Hw'), (drain_elems _ Hw'). apply Proofs.Collect.collect_from_trusted_exact.
Qed.

Theorem C09_write_into_buffer :
  forall (old : list (option val)) (s : it), wfb false s ->
    fst (Model.Collect.write_trust_iter (length old) (as_titer s))
    = (if orb (length old =? 0) (orb (length old =? length (elems s)) (length (elems s) =? 1))
       then Model.Collect.WOk else Model.Collect.WErr) /\
    (length old = length (elems s) ->
       let r := Model.Collect.write_trust_iter (length old) (as_titer s) in
       map fst (snd r) = seq 0 (length old) /\ Model.Collect.apply_writes (snd r) old = map Some (elems s)).
Proof.
  intros old s Hw. rewrite (as_titer_exact s Hw). split; [apply Proofs.Collect.write_trust_iter_status|].
  intros Hl. destruct (proj1 (Proofs.Collect.write_trust_iter_spec old (elems s)) Hl) as (_ & H2 & H3).
  split; assumption.
Qed.

Theorem C09_try_collect :
  forall (bk : Model.Collect.backend) (s : it), wfb false s ->
    ((forall v, In v (elems s) -> v <> VErr) ->
       Model.Collect.try_collect_from_trusted bk (as_try_titer s) = Model.Collect.TOk (Model.Driver.Done (elems s))) /\
    (forall xs rest, elems s = xs ++ VErr :: rest -> (forall v, In v xs -> v <> VErr) ->
       Model.Collect.try_collect_from_trusted bk (as_try_titer s) = Model.Collect.TErr tt).
Proof.
  intros bk s Hw. rewrite (as_try_titer_exact s Hw). split.
  - intros Hn. rewrite (res_item_ok _ Hn). apply Proofs.Collect.try_collect_trusted_ok.
  - intros xs rest He Hn. rewrite He, map_app, (res_item_ok _ Hn). cbn [map res_item].
    apply Proofs.Collect.try_collect_trusted_err.
Qed.

(* (18) winsorize for EVERY input (C09_generators_well_formed states it for two-element inputs only) *)
Theorem C09_winsorize_well_formed :
  forall xs : list val, wfb true (winsorize xs) /\ length (elems (winsorize xs)) = length xs.
Proof. exact winsorize_wf. Qed.

(* ---- non-vacuity for (10)-(17) ------------------------------------------------------------------------- *)
Example C09_example_audit :
  (* a lying TrustIter: shift keeps what is announced *)
  (exists s', shift 1 (VZ 0) (ITrust (IList [VZ 1; VZ 2; VZ 3]) 2) = Ok s' /\ size_hint s' = (2, Some 2))
  (* fused: vshift(1) of 2 items, nth(5) exhausts it; afterwards next / next_back / nth return None *)
  /\ (exists s, vshift 1 None (IList [VZ 1; VZ 2]) = Ok s /\ wfb true s /\ fst (exec (INth 5) s) = None
        /\ fst (exec INext (run_script [INextBack; INth 0] (snd (exec (INth 5) s)))) = None
        /\ size_hint (run_script [INextBack; INth 0] (snd (exec (INth 5) s))) = (0, Some 0))
  /\ fst (count_it (run_script [INth 0; INextBack] (IList [VZ 1; VZ 2; VZ 3; VZ 4]))) = 2
  /\ fst (last_it (run_script [INth 0; INextBack] (IList [VZ 1; VZ 2; VZ 3; VZ 4]))) = Some (VZ 3)
  /\ vcut 0 9 [1; 5]%Z [VZ 7] true true (IList []) = None
  /\ (exists s', vcut 0 9 [1; 5]%Z [VZ 7] true false (IList [VZ 3]) = Some s' /\ drain s' = [VZ 7])
  /\ range_i 5 0 0 = Panic OtherPanic /\ range_i 0 5 0 = Ok (range_f 0 5 0) /\ drain (range_f 0 5 0) = []
  /\ tis_empty (IList []) = Ok true /\ tis_empty (ITake (IList [VZ 1]) 1) = Ok false
  /\ drain (mabs (IList [VZ (-2); VNull])) = [VZ 2; VNull]
  (* Filter alone is inexact: announces (0, Some 3), yields 2 *)
  /\ f_size_hint (FFilterMap keep_valid (IList [VZ 3; VNull; VZ 1])) = (0, Some 3)
  /\ f_drain (FFilterMap keep_valid (IList [VZ 3; VNull; VZ 1])) = [VZ 3; VZ 1]
  (* the partition arms over it: exact at every point *)
  /\ f_size_hint (f_consume 1 (vpartition_f 1 false [VZ 3; VNull; VZ 1])) = (1, Some 1)
  /\ f_drain (f_consume 1 (vpartition_f 1 false [VZ 3; VNull; VZ 1])) = [VZ 1]
  /\ f_drain (vpartition_f 3 false [VZ 3; VNull; VZ 1]) = [VZ 3; VZ 1; VNull; VNull]
  /\ f_drain (varg_partition_f 3 false [VZ 3; VNull; VZ 1]) = [VZ 0; VZ 2; VZ (-1); VZ (-1)]
  /\ f_size_hint (f_consume 3 (varg_partition_f 3 false [VZ 3; VNull; VZ 1])) = (1, Some 1)
  (* a TrustIter over a filter with the WRONG declared length is not well formed and breaks the law *)
  /\ f_size_hint (FTrust (FFilterMap keep_valid (IList [VZ 3; VNull])) 2) = (2, Some 2)
  /\ f_drain (FTrust (FFilterMap keep_valid (IList [VZ 3; VNull])) 2) = [VZ 3]
  (* collectors *)
  /\ Model.Collect.collect_from_trusted Model.Collect.BRaw (as_titer (run_script [INext] (IList [VZ 1; VZ 2])))
     = Model.Driver.Done [VZ 2]
  /\ fst (Model.Collect.write_trust_iter 3 (as_titer (IList [VZ 1; VZ 2]))) = Model.Collect.WErr
  /\ Model.Collect.try_collect_from_trusted Model.Collect.BRaw (as_try_titer (IList [VZ 1; VErr; VZ 2]))
     = Model.Collect.TErr tt.
Proof.
  split. { eexists. split; reflexivity. }
  split. { eexists. split; [reflexivity|]. split; [cbn; auto|]. repeat (split; [reflexivity|]). reflexivity. }
  do 3 (split; [reflexivity|]).
  split. { eexists. split; reflexivity. }
  repeat (split; [reflexivity|]). reflexivity.
Qed.

Print Assumptions C09_hint_exact_front.
Print Assumptions C09_hint_exact_both_ends.
Print Assumptions C09_hint_exact_pipeline.
Print Assumptions C09_pipeline_well_formed.
Print Assumptions C09_step_preserves.
Print Assumptions C09_plain_iteration.
Print Assumptions C09_len_preserved_shift.
Print Assumptions C09_len_preserved_vshift.
Print Assumptions C09_len_preserved_vdiff.
Print Assumptions C09_len_preserved_vpct_change.
Print Assumptions C09_len_preserved_fills.
Print Assumptions C09_len_preserved_bfill.
Print Assumptions C09_vcut_well_formed.
Print Assumptions C09_partitions_well_formed.
Print Assumptions C09_rolling_iter_well_formed.
Print Assumptions C09_generators_well_formed.
Print Assumptions C09_range_count.
Print Assumptions C09_collect_safe.
Print Assumptions C09_collect_done_means_exact.
Print Assumptions C09_collect_safe_pipeline.
Print Assumptions C09_hint_exact_scripts.
Print Assumptions C09_hint_exact_scripts_yields.
Print Assumptions C09_hint_exact_scripts_pipeline.
Print Assumptions C09_scripts_generalise_consume.
Print Assumptions C09_script_sequence.
Print Assumptions C09_collect_safe_scripts.
Print Assumptions C09_nth_is_iterated_next.
Print Assumptions C09_nth_is_advance_then_next.
Print Assumptions C09_nth_early_exit_unobservable.
Print Assumptions C09_nth_closed_form.
Print Assumptions C09_count_is_hint.
Print Assumptions C09_last_is_last.
Print Assumptions C09_last_is_next_back.
Print Assumptions C09_fold_visits_yielded.
Print Assumptions C09_skip_next_is_nth.
Print Assumptions C09_step_by_hint_exact.
Print Assumptions C09_step_by_yields.
Print Assumptions C09_hint_lower_is_upper.
Print Assumptions C09_shift_total.
Print Assumptions C09_fused_after_exhaustion.
Print Assumptions C09_exhausted_stays_exhausted.
Print Assumptions C09_fold_leaves_exhausted.
Print Assumptions C09_count_at_every_point.
Print Assumptions C09_last_at_every_point.
Print Assumptions C09_fold_at_every_point.
Print Assumptions C09_count_from_the_back.
Print Assumptions C09_rolling_iter_total.
Print Assumptions C09_vcut_rejects_exactly.
Print Assumptions C09_range_int_total.
Print Assumptions C09_range_zero_step.
Print Assumptions C09_step_by_rejects_exactly.
Print Assumptions C09_shift_both_ends.
Print Assumptions C09_shift_after_any_consumption.
Print Assumptions C09_lag_adaptors_both_ends.
Print Assumptions C09_vcut_both_ends.
Print Assumptions C09_is_empty.
Print Assumptions C09_abs_well_formed.
Print Assumptions C09_filter_hint_is_only_a_bound.
Print Assumptions C09_hint_exact_over_inexact_source.
Print Assumptions C09_inexact_source_step.
Print Assumptions C09_partitions_over_filter_well_formed.
Print Assumptions C09_partition_idealisation_exact.
Print Assumptions C09_collect_every_backend.
Print Assumptions C09_write_into_buffer.
Print Assumptions C09_try_collect.
Print Assumptions C09_winsorize_well_formed.

(* ==== MapValidBasic::drop_none (tea-map/src/valid_iter.rs: `self.filter(T::not_none)`) — Model/IterAudit.v `drop_none`
   (the bare std Filter node of the part above, nothing on top: the result is `impl Iterator`, NOT a TrustedLen),
   Proofs/LooseEnds.v.  `after_valid k xs` = the source items behind the k-th non-null one (what the filter has not
   pulled yet after k calls of next()).  Interpreter: Run/RunC09.v `obs_drop_none`; cases: c09.rs section N. ============ *)
From Tevec Require Import Proofs.LooseEnds.
Local Open Scope nat_scope.

(* (20) drop_none yields exactly the non-null items of its receiver, in order — as one equation, at every point of the
        consumption, per call (the first non-null item left, or None), and spelled out: a subsequence of the source,
        containing x iff x is a non-null source item, of length count_valid *)
Theorem C09_drop_none_items :
  forall (s : it), wfb false s ->
    f_drain (drop_none s) = filter not_none (elems s)
    /\ (forall k, f_drain (f_consume k (drop_none s)) = skipn k (filter not_none (elems s)))
    /\ fst (f_next (drop_none s)) = hd_error (filter not_none (elems s))
    /\ f_drain (snd (f_next (drop_none s))) = tl (filter not_none (elems s))
    /\ subseq (f_drain (drop_none s)) (elems s)
    /\ (forall x, In x (f_drain (drop_none s)) <-> In x (elems s) /\ not_none x = true)
    /\ length (f_drain (drop_none s)) = count_valid (elems s).
Proof.
  intros s Hw. split; [apply drop_none_items; exact Hw|]. split; [intros k; apply drop_none_items_consume; exact Hw|].
  split; [apply drop_none_next; exact Hw|]. split; [apply drop_none_next; exact Hw|]. apply drop_none_spec. exact Hw.
Qed.

(* ... and `filter not_none` is not the implementation restated: ANY subsequence of the source whose items are all
   non-null and that is as long as the number of non-null source items is that list *)
Theorem C09_drop_none_items_characterised :
  forall (s : it) (l : list val), wfb false s ->
    subseq l (elems s) -> (forall x, In x l -> not_none x = true) -> length l = count_valid (elems s) ->
    l = f_drain (drop_none s).
Proof.
  intros s l Hw Hs Hall Hlen. rewrite (drop_none_items s Hw). apply subseq_filter_unique; assumption.
Qed.

(* (21) its size hint, after ANY number k of next() calls: lower bound 0; upper bound = the number of SOURCE items still
        to come (a suffix of the source: nulls included), never fewer than it goes on to yield, and equal to that exactly
        when no null is left in the source *)
Theorem C09_drop_none_hint_is_only_a_bound :
  forall (k : nat) (s : it), wfb false s ->
    f_size_hint (f_consume k (drop_none s)) = (0, Some (length (after_valid k (elems s))))
    /\ (exists pre, elems s = pre ++ after_valid k (elems s))
    /\ length (f_drain (f_consume k (drop_none s))) <= length (after_valid k (elems s))
    /\ (length (f_drain (f_consume k (drop_none s))) = length (after_valid k (elems s))
        <-> forall x, In x (after_valid k (elems s)) -> not_none x = true).
Proof. exact drop_none_hint. Qed.

(* the state after k calls is again a drop_none, of the source advanced behind the k-th non-null item *)
Theorem C09_drop_none_after_consumption :
  forall (k : nat) (s : it), wfb false s ->
    exists s', f_consume k (drop_none s) = drop_none s' /\ wfb false s' /\ elems s' = after_valid k (elems s).
Proof. exact drop_none_consume. Qed.

(* (22) idempotent (the result has to be collected before drop_none applies again: it is not a TrustedLen) *)
Theorem C09_drop_none_idempotent :
  forall (s : it), wfb false s ->
    f_drain (drop_none (IList (f_drain (drop_none s)))) = f_drain (drop_none s).
Proof. exact drop_none_idempotent. Qed.

(* (23) on a null-free receiver: the identity on items, at every point; the upper bound is then the exact count (the
        lower bound is still 0: the type never becomes a TrustedLen) *)
Theorem C09_drop_none_null_free_is_identity :
  forall (s : it), wfb false s -> (forall x, In x (elems s) -> not_none x = true) ->
    f_drain (drop_none s) = elems s
    /\ forall k, f_drain (f_consume k (drop_none s)) = skipn k (elems s)
                 /\ f_size_hint (f_consume k (drop_none s)) = (0, Some (length (skipn k (elems s)))).
Proof. exact drop_none_null_free. Qed.

(* non-vacuity: nulls in front / between / behind; the hint after each call (3 source items left after the first item
   although only 1 will come); all null; null-free; a pre-consumed, mapped receiver *)
Example C09_drop_none_examples :
  let xs := [VNull; VZ 1; VNull; VNull; VZ 2; VNull] in
  f_drain (drop_none (IList xs)) = [VZ 1; VZ 2]
  /\ f_size_hint (drop_none (IList xs)) = (0, Some 6)
  /\ f_size_hint (f_consume 1 (drop_none (IList xs))) = (0, Some 4)
  /\ f_drain (f_consume 1 (drop_none (IList xs))) = [VZ 2]
  /\ f_size_hint (f_consume 2 (drop_none (IList xs))) = (0, Some 1)
  /\ f_size_hint (f_consume 3 (drop_none (IList xs))) = (0, Some 0)
  /\ after_valid 1 xs = [VNull; VNull; VZ 2; VNull]
  /\ f_drain (drop_none (IList [VNull; VNull])) = [] /\ f_size_hint (drop_none (IList [VNull; VNull])) = (0, Some 2)
  /\ f_size_hint (f_consume 1 (drop_none (IList [VNull; VNull]))) = (0, Some 0)
  /\ f_drain (drop_none (IList [VZ 4; VZ 5])) = [VZ 4; VZ 5]
  /\ f_size_hint (f_consume 1 (drop_none (IList [VZ 4; VZ 5]))) = (0, Some 1)
  /\ wfb false (mabs (consume [false; true] (IList xs)))
  /\ f_drain (drop_none (mabs (consume [false; true] (IList (VZ 0 :: VZ (-1) :: xs))))) = [VZ 1; VZ 1; VZ 2]
  /\ subseq [VZ 1; VZ 2] xs /\ count_valid xs = 2.
Proof.
  cbv zeta. do 12 (split; [reflexivity|]). split; [cbn; auto|]. split; [reflexivity|].
  split; [|reflexivity]. apply sub_skip, sub_take, sub_skip, sub_skip, sub_take, sub_skip, sub_nil.
Qed.

Print Assumptions C09_drop_none_items.
Print Assumptions C09_drop_none_items_characterised.
Print Assumptions C09_drop_none_hint_is_only_a_bound.
Print Assumptions C09_drop_none_after_consumption.
Print Assumptions C09_drop_none_idempotent.
Print Assumptions C09_drop_none_null_free_is_identity.
