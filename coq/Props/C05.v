(* Props/C05.v — property C05: rolling outputs are input-length and null exactly during warm-up. *)
From Coq Require Import ZArith Reals List.
From Tevec Require Import Base.Prelude Base.Num Base.XR Spec.Stats Spec.Ols Spec.Extrema Model.Driver
     Model.Features Model.Cmp Model.Norm Model.Binary Model.Reg Model.Fdiff Proofs.Features2 Proofs.Generic Proofs.Norm
     Proofs.Mask Proofs.Mask2 Proofs.Mask3 Proofs.Mask4.
Import ListNotations.

(* (1) one output per input, for EVERY add-emit-remove rolling feature, any carrier, both driver
   bodies (returned / caller buffer / fast path), every window >= 1: never a panic, never an
   unwritten slot; empty in, empty out whatever the window *)
Theorem C05_one_output_per_input :
  forall (T St O : Type) (F : feat T St O) (w : nat) (xs : list T) (body : bool),
    1 <= w -> exists out, ts_run F body w xs = Done out /\ length out = length xs.
Proof. exact @ts_run_total. Qed.

Theorem C05_empty_in_empty_out :
  forall (T St O : Type) (F : feat T St O) (w : nat) (body : bool), ts_run F body w [] = Done [].
Proof. exact @ts_run_empty. Qed.

(* (2) the effective min_periods: omitted means floor(w/2); clamped to w; raised to the intrinsic
   minimum k (0 sum/mean, 2 variance-type, 3 skewness, 4 kurtosis) *)
Theorem C05_effective_min_periods :
  forall (mp : option nat) (w k : nat),
    mp_eff mp w k = Nat.max (Nat.min (match mp with Some m => m | None => w / 2 end) w) k.
Proof. exact mp_eff_value. Qed.

(* (3) the mask: output i is null exactly when the window holds fewer valid observations than the
   effective min_periods (for the mean: or none at all) — and non-null otherwise *)
Theorem C05_mask_ts_vsum :
  forall (body : bool) (w : nat) (mp : option nat) (xs : list XR), 1 <= w ->
    exists out, ts_run (ts_vsum_f w mp) body w xs = Done out /\ length out = length xs /\
      forall i, i < length xs ->
        exists o, nth_error out i = Some o /\ is_null o = below (mp_eff mp w 0) (valid (win w i xs)).
Proof. exact mask_vsum. Qed.

Theorem C05_mask_ts_vmean :
  forall (body : bool) (w : nat) (mp : option nat) (xs : list XR), 1 <= w ->
    exists out, ts_run (ts_vmean_f w mp) body w xs = Done out /\ length out = length xs /\
      forall i, i < length xs ->
        exists o, nth_error out i = Some o /\
          is_null o = orb (below (mp_eff mp w 0) (valid (win w i xs))) (below 1 (valid (win w i xs))).
Proof. exact mask_vmean. Qed.

Theorem C05_mask_ts_vvar :
  forall (body : bool) (w : nat) (mp : option nat) (xs : list XR), 1 <= w ->
    exists out, ts_run (ts_vvar_f w mp) body w xs = Done out /\ length out = length xs /\
      forall i, i < length xs ->
        exists o, nth_error out i = Some o /\ is_null o = below (mp_eff mp w 2) (valid (win w i xs)).
Proof. exact mask_vvar. Qed.

Theorem C05_mask_ts_vstd :
  forall (body : bool) (w : nat) (mp : option nat) (xs : list XR), 1 <= w ->
    exists out, ts_run (ts_vstd_f w mp) body w xs = Done out /\ length out = length xs /\
      forall i, i < length xs ->
        exists o, nth_error out i = Some o /\ is_null o = below (mp_eff mp w 2) (valid (win w i xs)).
Proof. exact mask_vstd. Qed.

Theorem C05_mask_ts_vskew :
  forall (body : bool) (w : nat) (mp : option nat) (xs : list XR), 1 <= w ->
    exists out, ts_run (ts_vskew_f w mp) body w xs = Done out /\ length out = length xs /\
      forall i, i < length xs ->
        exists o, nth_error out i = Some o /\ is_null o = below (mp_eff mp w 3) (valid (win w i xs)).
Proof. exact mask_vskew. Qed.

Theorem C05_mask_ts_vkurt :
  forall (body : bool) (w : nat) (mp : option nat) (xs : list XR), 1 <= w ->
    exists out, ts_run (ts_vkurt_f w mp) body w xs = Done out /\ length out = length xs /\
      forall i, i < length xs ->
        exists o, nth_error out i = Some o /\ is_null o = below (mp_eff mp w 4) (valid (win w i xs)).
Proof. exact mask_vkurt. Qed.

(* (4) the remaining families.  Notation used below:
       V = valid (win w i xs)                    the non-null values of the window max(0,i-w+1)..=i
       P = pairs (win w i xs) (win w i ys)       its pairwise-complete observations (two-series functions)
       below k V = (length V <? k)               "fewer than k valid observations"
   Count-only masks are boolean equations; masks with an undefinedness condition on reals (DESIGN 5.6)
   are stated  is_null o = true <-> below-threshold \/ undefined,  i.e. both directions.               *)

(* (4a) weighted means: null iff below min_periods or no valid element.  For ewm the code's condition is
   "1 - (1 - 2/w)^n = 0"; within a window (n <= w) that is exactly n = 0 (DESIGN 5.6) *)
Theorem C05_ewm_undefined_iff_no_valid :
  forall w n : nat, 1 <= w -> n <= w -> ((1 - (1 - 2 / INR w) ^ n = 0)%R <-> n = 0).
Proof. exact ewm_denominator_zero_iff. Qed.

Theorem C05_mask_ts_vewm :
  forall (body : bool) (w : nat) (mp : option nat) (xs : list XR), 1 <= w ->
    exists out, ts_run (ts_vewm_f w mp) body w xs = Done out /\ length out = length xs /\
      forall i, i < length xs ->
        exists o, nth_error out i = Some o /\
          is_null o = orb (below (mp_eff mp w 0) (valid (win w i xs))) (below 1 (valid (win w i xs))).
Proof. exact mask_vewm. Qed.

Theorem C05_mask_ts_vwma :
  forall (body : bool) (w : nat) (mp : option nat) (xs : list XR), 1 <= w ->
    exists out, ts_run (ts_vwma_f w mp) body w xs = Done out /\ length out = length xs /\
      forall i, i < length xs ->
        exists o, nth_error out i = Some o /\
          is_null o = orb (below (mp_eff mp w 0) (valid (win w i xs))) (below 1 (valid (win w i xs))).
Proof. exact mask_vwma. Qed.

(* (4b) the time-trend regressions (values regressed on t = 1..n): the normal equations are singular exactly
   for n <= 1, so the output is null iff fewer than max(min_periods', 2) valid values *)
Theorem C05_mask_ts_vreg :
  forall (body : bool) (w : nat) (mp : option nat) (xs : list XR), 1 <= w ->
    exists out, ts_run (ts_vreg_f w mp) body w xs = Done out /\ length out = length xs /\
      forall i, i < length xs ->
        exists o, nth_error out i = Some o /\
          is_null o = orb (below (mp_eff mp w 0) (valid (win w i xs))) (below 2 (valid (win w i xs))).
Proof. exact mask_vreg. Qed.

Theorem C05_mask_ts_vtsf :
  forall (body : bool) (w : nat) (mp : option nat) (xs : list XR), 1 <= w ->
    exists out, ts_run (ts_vtsf_f w mp) body w xs = Done out /\ length out = length xs /\
      forall i, i < length xs ->
        exists o, nth_error out i = Some o /\
          is_null o = orb (below (mp_eff mp w 0) (valid (win w i xs))) (below 2 (valid (win w i xs))).
Proof. exact mask_vtsf. Qed.

Theorem C05_mask_ts_vreg_slope :
  forall (body : bool) (w : nat) (mp : option nat) (xs : list XR), 1 <= w ->
    exists out, ts_run (ts_vreg_slope_f w mp) body w xs = Done out /\ length out = length xs /\
      forall i, i < length xs ->
        exists o, nth_error out i = Some o /\
          is_null o = orb (below (mp_eff mp w 0) (valid (win w i xs))) (below 2 (valid (win w i xs))).
Proof. exact mask_vreg_slope. Qed.

Theorem C05_mask_ts_vreg_intercept :
  forall (body : bool) (w : nat) (mp : option nat) (xs : list XR), 1 <= w ->
    exists out, ts_run (ts_vreg_intercept_f w mp) body w xs = Done out /\ length out = length xs /\
      forall i, i < length xs ->
        exists o, nth_error out i = Some o /\
          is_null o = orb (below (mp_eff mp w 0) (valid (win w i xs))) (below 2 (valid (win w i xs))).
Proof. exact mask_vreg_intercept. Qed.

Theorem C05_mask_ts_vreg_resid_mean :
  forall (body : bool) (w : nat) (mp : option nat) (xs : list XR), 1 <= w ->
    exists out, ts_run (ts_vreg_resid_mean_f w mp) body w xs = Done out /\ length out = length xs /\
      forall i, i < length xs ->
        exists o, nth_error out i = Some o /\
          is_null o = orb (below (mp_eff mp w 0) (valid (win w i xs))) (below 2 (valid (win w i xs))).
Proof. exact mask_vreg_resid_mean. Qed.

(* (4c) z-score: null iff the current element is null, or below min_periods, or zero spread in the code's
   sense (population variance <= EPS = 1e-14; a window with <= 1 valid value has variance 0) *)
Theorem C05_mask_ts_vzscore :
  forall (body : bool) (w : nat) (mp : option nat) (xs : list XR), 1 <= w ->
    exists out, ts_vzscore body w mp xs = Done out /\ length out = length xs /\
      forall i, i < length xs ->
        exists o, nth_error out i = Some o /\
          (is_null o = true <->
           nth_error xs i = Some None \/ length (valid (win w i xs)) < mp_eff mp w 0 \/
           (popvarR (valid (win w i xs)) <= EPS)%R).
Proof. exact mask_vzscore. Qed.

Theorem C05_zero_spread_below_two :
  forall V : list R, length V <= 1 -> (popvarR V <= EPS)%R.
Proof. exact popvar_le_eps_single. Qed.

(* (4d) min-max normalisation (lo / hi: the sentinels T::Inner::min_() / max_(), DESIGN 5.2): null iff the
   current element is null, or below min_periods, or greatest = least valid element of the window *)
Theorem C05_mask_ts_vminmaxnorm :
  forall (lo hi : R) (body : bool) (w : nat) (mp : option nat) (xs : list XR), 1 <= w ->
    (forall r, In (Some r) xs -> (lo <= r <= hi)%R) ->
    exists out, ts_vminmaxnorm (Some lo) (Some hi) body w mp xs = Done out /\ length out = length xs /\
      forall i, i < length xs ->
        exists o, nth_error out i = Some o /\
          (is_null o = true <->
           nth_error xs i = Some None \/ length (valid (win w i xs)) < mp_eff mp w 0 \/
           lmaxR (valid (win w i xs)) = lminR (valid (win w i xs))).
Proof. exact mask_vminmaxnorm. Qed.

(* (4e) two-series statistics over the pairwise-complete observations P *)
Theorem C05_mask_ts_vcov :
  forall (body : bool) (w : nat) (mp : option nat) (xs ys : list XR), 1 <= w -> length xs = length ys ->
    exists out, ts_run2 (ts_vcov_f w mp) body w xs ys = Done out /\ length out = length xs /\
      forall i, i < length xs ->
        exists o, nth_error out i = Some o /\
          is_null o = (length (pairs (win w i xs) (win w i ys)) <? mp_eff mp w 2).
Proof. exact mask_vcov. Qed.

(* correlation: undefined when either population variance is <= EPS (zero spread) *)
Theorem C05_mask_ts_vcorr :
  forall (body : bool) (w : nat) (mp : option nat) (xs ys : list XR), 1 <= w -> length xs = length ys ->
    exists out, ts_run2 (ts_vcorr_f w mp) body w xs ys = Done out /\ length out = length xs /\
      forall i, i < length xs ->
        let P := pairs (win w i xs) (win w i ys) in
        exists o, nth_error out i = Some o /\
          (is_null o = true <->
           length P < mp_eff mp w 0 \/ (popvarR (map fst P) <= EPS)%R \/ (popvarR (map snd P) <= EPS)%R).
Proof. exact mask_vcorr. Qed.

(* regressions of the first series on the second: undefined iff the normal equations are singular,
   detB P = n Sbb - Sb^2 = 0, i.e. the regressor is constant over P (C04_singular_iff_constant_regressor;
   in particular whenever P has <= 1 observation, C04_defined_needs_two_observations) *)
Theorem C05_mask_ts_vregx_alpha :
  forall (body : bool) (w : nat) (mp : option nat) (xs ys : list XR), 1 <= w -> length xs = length ys ->
    exists out, ts_run2 (ts_vregx_alpha_f w mp) body w xs ys = Done out /\ length out = length xs /\
      forall i, i < length xs ->
        let P := pairs (win w i xs) (win w i ys) in
        exists o, nth_error out i = Some o /\
          (is_null o = true <-> length P < mp_eff mp w 0 \/ detB P = 0%R).
Proof. exact mask_vregx_alpha. Qed.

Theorem C05_mask_ts_vregx_beta :
  forall (body : bool) (w : nat) (mp : option nat) (xs ys : list XR), 1 <= w -> length xs = length ys ->
    exists out, ts_run2 (ts_vregx_beta_f w mp) body w xs ys = Done out /\ length out = length xs /\
      forall i, i < length xs ->
        let P := pairs (win w i xs) (win w i ys) in
        exists o, nth_error out i = Some o /\
          (is_null o = true <-> length P < mp_eff mp w 0 \/ detB P = 0%R).
Proof. exact mask_vregx_beta. Qed.

(* ts_vregx_all emits (alpha, beta, SSE): each component has the same mask *)
Theorem C05_mask_ts_vregx_all :
  forall (body : bool) (w : nat) (mp : option nat) (xs ys : list XR), 1 <= w -> length xs = length ys ->
    exists out, ts_run2 (ts_vregx_all_f w mp) body w xs ys = Done out /\ length out = length xs /\
      forall i, i < length xs ->
        let P := pairs (win w i xs) (win w i ys) in
        exists o, nth_error out i = Some o /\
          (is_null (fst (fst o)) = true <-> length P < mp_eff mp w 0 \/ detB P = 0%R) /\
          (is_null (snd (fst o)) = true <-> length P < mp_eff mp w 0 \/ detB P = 0%R) /\
          (is_null (snd o) = true <-> length P < mp_eff mp w 0 \/ detB P = 0%R).
Proof. exact mask_vregx_all. Qed.

(* residual mean / std / skew (index-form driver): additionally the skewness needs 3 observations *)
Theorem C05_mask_ts_vregx_resid :
  forall (k : rstat) (body : bool) (w : nat) (mp : option nat) (xs ys : list XR),
    1 <= w -> length xs = length ys ->
    exists out, ts_vregx_resid k body w mp xs ys = Done out /\ length out = length xs /\
      forall i, i < length xs ->
        let P := pairs (win w i xs) (win w i ys) in
        exists o, nth_error out i = Some o /\
          (is_null o = true <->
           length P < mp_eff mp w 0 \/ detB P = 0%R \/ (k = RSkew /\ length P < 3)).
Proof. exact mask_vregx_resid. Qed.

(* (4f) extrema and arg-extrema: integer carrier, ANY null dictionary, axiom-free.  The effective min_periods
   of this family is cmp_mp mp (cmp_window w xs) = mp or min(len, w)/2 (DESIGN 5.3); null iff the valid count
   is below it or the window has no valid element.  onull = is_null for any option type. *)
Theorem C05_cmp_effective_min_periods :
  forall (T : Type) (mp : option nat) (w : nat) (xs : list T),
    cmp_mp mp (cmp_window w xs) = match mp with Some m => m | None => Nat.min (length xs) w / 2 end.
Proof. intros T. exact (@cmp_mp_value T). Qed.

Theorem C05_cmp_effective_min_periods_stable :
  forall (T : Type) (mp : option nat) (w : nat) (xs : list T),
    (mp <> None \/ w <= length xs) ->
    cmp_mp mp (cmp_window w xs) = match mp with Some m => m | None => w / 2 end.
Proof. intros T. exact (@cmp_mp_stable T). Qed.

Theorem C05_mask_ts_vmin :
  forall (T : Type) (DT : IsNone T Z) (body : bool) (w : nat) (mp : option nat) (xs : list T),
    1 <= w -> 1 <= length xs ->
    exists out, ts_vmin body w mp xs = Done out /\ length out = length xs /\
      forall i, i < length xs ->
        exists o, nth_error out i = Some o /\
          onull o = orb (length (validZ (win w i (map to_opt xs))) <? cmp_mp mp (cmp_window w xs))
                        (length (validZ (win w i (map to_opt xs))) <? 1).
Proof. intros T DT. exact mask_vmin. Qed.

Theorem C05_mask_ts_vmax :
  forall (T : Type) (DT : IsNone T Z) (body : bool) (w : nat) (mp : option nat) (xs : list T),
    1 <= w -> 1 <= length xs ->
    exists out, ts_vmax body w mp xs = Done out /\ length out = length xs /\
      forall i, i < length xs ->
        exists o, nth_error out i = Some o /\
          onull o = orb (length (validZ (win w i (map to_opt xs))) <? cmp_mp mp (cmp_window w xs))
                        (length (validZ (win w i (map to_opt xs))) <? 1).
Proof. intros T DT. exact mask_vmax. Qed.

Theorem C05_mask_ts_vargmin :
  forall (T : Type) (DT : IsNone T Z) (body : bool) (w : nat) (mp : option nat) (xs : list T),
    1 <= w -> 1 <= length xs ->
    exists out, ts_vargmin body w mp xs = Done out /\ length out = length xs /\
      forall i, i < length xs ->
        exists o, nth_error out i = Some o /\
          onull o = orb (length (validZ (win w i (map to_opt xs))) <? cmp_mp mp (cmp_window w xs))
                        (length (validZ (win w i (map to_opt xs))) <? 1).
Proof. intros T DT. exact mask_vargmin. Qed.

Theorem C05_mask_ts_vargmax :
  forall (T : Type) (DT : IsNone T Z) (body : bool) (w : nat) (mp : option nat) (xs : list T),
    1 <= w -> 1 <= length xs ->
    exists out, ts_vargmax body w mp xs = Done out /\ length out = length xs /\
      forall i, i < length xs ->
        exists o, nth_error out i = Some o /\
          onull o = orb (length (validZ (win w i (map to_opt xs))) <? cmp_mp mp (cmp_window w xs))
                        (length (validZ (win w i (map to_opt xs))) <? 1).
Proof. intros T DT. exact mask_vargmax. Qed.

(* rolling rank (rank arithmetic in XR): null iff the current element is null (null_at) or the valid count of
   the window, current element included, is below the effective min_periods *)
Theorem C05_mask_ts_vrank :
  forall (T : Type) (DT : IsNone T Z) (body : bool) (w : nat) (mp : option nat) (pct rev : bool)
         (xs : list T),
    1 <= w -> 1 <= length xs ->
    exists out, ts_vrank (B := XR) body w mp pct rev xs = Done out /\ length out = length xs /\
      forall i, i < length xs ->
        exists o, nth_error out i = Some o /\
          is_null o = orb (null_at (map to_opt xs) i)
                          (length (validZ (win w i (map to_opt xs))) <? cmp_mp mp (cmp_window w xs)).
Proof. intros T DT. exact mask_vrank. Qed.

(* DESIGN 5.3 corollaries: explicit min_periods (any length) or omitted with len >= w -> the property's
   threshold `min_periods or floor(w/2)` *)
Corollary C05_mask_ts_vmin_stable :
  forall (T : Type) (DT : IsNone T Z) (body : bool) (w : nat) (mp : option nat) (xs : list T),
    1 <= w -> 1 <= length xs -> (mp <> None \/ w <= length xs) ->
    exists out, ts_vmin body w mp xs = Done out /\ length out = length xs /\
      forall i, i < length xs ->
        exists o, nth_error out i = Some o /\
          onull o = orb (length (validZ (win w i (map to_opt xs))) <? match mp with Some m => m | None => w / 2 end)
                        (length (validZ (win w i (map to_opt xs))) <? 1).
Proof. intros T DT. exact mask_vmin_stable. Qed.

Corollary C05_mask_ts_vmax_stable :
  forall (T : Type) (DT : IsNone T Z) (body : bool) (w : nat) (mp : option nat) (xs : list T),
    1 <= w -> 1 <= length xs -> (mp <> None \/ w <= length xs) ->
    exists out, ts_vmax body w mp xs = Done out /\ length out = length xs /\
      forall i, i < length xs ->
        exists o, nth_error out i = Some o /\
          onull o = orb (length (validZ (win w i (map to_opt xs))) <? match mp with Some m => m | None => w / 2 end)
                        (length (validZ (win w i (map to_opt xs))) <? 1).
Proof. intros T DT. exact mask_vmax_stable. Qed.

Corollary C05_mask_ts_vargmin_stable :
  forall (T : Type) (DT : IsNone T Z) (body : bool) (w : nat) (mp : option nat) (xs : list T),
    1 <= w -> 1 <= length xs -> (mp <> None \/ w <= length xs) ->
    exists out, ts_vargmin body w mp xs = Done out /\ length out = length xs /\
      forall i, i < length xs ->
        exists o, nth_error out i = Some o /\
          onull o = orb (length (validZ (win w i (map to_opt xs))) <? match mp with Some m => m | None => w / 2 end)
                        (length (validZ (win w i (map to_opt xs))) <? 1).
Proof. intros T DT. exact mask_vargmin_stable. Qed.

Corollary C05_mask_ts_vargmax_stable :
  forall (T : Type) (DT : IsNone T Z) (body : bool) (w : nat) (mp : option nat) (xs : list T),
    1 <= w -> 1 <= length xs -> (mp <> None \/ w <= length xs) ->
    exists out, ts_vargmax body w mp xs = Done out /\ length out = length xs /\
      forall i, i < length xs ->
        exists o, nth_error out i = Some o /\
          onull o = orb (length (validZ (win w i (map to_opt xs))) <? match mp with Some m => m | None => w / 2 end)
                        (length (validZ (win w i (map to_opt xs))) <? 1).
Proof. intros T DT. exact mask_vargmax_stable. Qed.

Corollary C05_mask_ts_vrank_stable :
  forall (T : Type) (DT : IsNone T Z) (body : bool) (w : nat) (mp : option nat) (pct rev : bool)
         (xs : list T),
    1 <= w -> 1 <= length xs -> (mp <> None \/ w <= length xs) ->
    exists out, ts_vrank (B := XR) body w mp pct rev xs = Done out /\ length out = length xs /\
      forall i, i < length xs ->
        exists o, nth_error out i = Some o /\
          is_null o = orb (null_at (map to_opt xs) i)
                          (length (validZ (win w i (map to_opt xs))) <? match mp with Some m => m | None => w / 2 end).
Proof. intros T DT. exact mask_vrank_stable. Qed.

(* (4g) fractional difference.  Plain ts_fdiff on a null-free series: one output per input, never null;
   ts_vfdiff: null exactly below min_periods (the weighted sum over the valid elements is never null) *)
Theorem C05_mask_ts_fdiff :
  forall (body : bool) (d : R) (w : nat) (rs : list R), 1 <= w ->
    exists out, ts_fdiff body (Some d) w (fun x : XR => x) (map Some rs) = Done out /\
      length out = length rs /\
      forall i, i < length rs -> exists o, nth_error out i = Some o /\ is_null o = false.
Proof. exact mask_fdiff. Qed.

Theorem C05_mask_ts_vfdiff :
  forall (body : bool) (d : R) (w : nat) (mp : option nat) (xs : list XR), 1 <= w ->
    exists out, ts_vfdiff body (Some d) w mp xs = Done out /\ length out = length xs /\
      forall i, i < length xs ->
        exists o, nth_error out i = Some o /\
          is_null o = below (mp_eff mp w 0) (valid (win w i xs)).
Proof. exact mask_vfdiff. Qed.

(* (5) length / no panic / empty input for the index-form drivers (window-index callbacks).
   (a) empty series: the empty result for EVERY window (0 included), every carrier and null dictionary,
       both bodies — nothing is evaluated, in particular no `window - 1` underflow *)
Theorem C05_index_form_empty_in_empty_out :
  forall (A : Type) (NA : Num A) (T : Type) (DT : IsNone T A) (body : bool) (w : nat) (mp : option nat),
    ts_vmin body w mp (@nil T) = Done [] /\ ts_vmax body w mp (@nil T) = Done [] /\
    ts_vargmin body w mp (@nil T) = Done [] /\ ts_vargmax body w mp (@nil T) = Done [] /\
    (forall (B : Type) (NB : Num B) (pct rev : bool), ts_vrank (B := B) body w mp pct rev (@nil T) = Done []) /\
    (forall tmin tmax : A, ts_vminmaxnorm tmin tmax body w mp (@nil T) = Done []) /\
    (forall (T2 : Type) (D2 : IsNone T2 A) (k : rstat) (ys : list T2),
        ts_vregx_resid k body w mp (@nil T) ys = Done []).
Proof. exact index_form_empty. Qed.

(* (b) every series (empty or not), every window >= 1 — window > len included: this family clamps the window
       to the length — both bodies: a fully written output of the input length.  Axiom-free for the extrema. *)
Theorem C05_extrema_one_output_per_input :
  forall (T : Type) (DT : IsNone T Z) (body : bool) (w : nat) (mp : option nat) (xs : list T), 1 <= w ->
    (exists out, ts_vmin body w mp xs = Done out /\ length out = length xs) /\
    (exists out, ts_vmax body w mp xs = Done out /\ length out = length xs) /\
    (exists out, ts_vargmin body w mp xs = Done out /\ length out = length xs) /\
    (exists out, ts_vargmax body w mp xs = Done out /\ length out = length xs).
Proof. intros T DT. exact extrema_total. Qed.

Theorem C05_rank_one_output_per_input :
  forall (T : Type) (DT : IsNone T Z) (body : bool) (w : nat) (mp : option nat) (pct rev : bool)
         (xs : list T), 1 <= w ->
    exists out, ts_vrank (B := XR) body w mp pct rev xs = Done out /\ length out = length xs.
Proof. intros T DT. exact rank_total. Qed.

(* (c) a window of 0 over a non-empty series is rejected by the driver's `assert!(window > 0)` — for any
       window-index callback, both bodies (the statements above therefore require 1 <= w) *)
Theorem C05_index_form_window_zero_rejected :
  forall (T St O : Type) (body : bool) (cb : St -> option nat * nat * T -> res (St * O)) (s0 : St)
         (xs : list T),
    1 <= length xs -> idx_run body 0 cb s0 xs = Panicked AssertFail.
Proof. intros T St O body cb s0 xs H. apply IdxRun.idx_run_window0. intros ->. inversion H. Qed.

(* (6) the plain families ts_sum .. ts_kurt, ts_ewm, ts_wma (the same closures with the never-null dictionary,
   theorems C01_plain_family_...) on a null-free series: the same masks, the valid count being the window length *)
Theorem C05_mask_ts_sum :
  forall (body : bool) (w : nat) (mp : option nat) (rs : list R), 1 <= w ->
    exists out, ts_run (ts_vsum_f (DT := IsNone_never) w mp) body w (map Some rs) = Done out /\
      length out = length rs /\
      forall i, i < length rs ->
        exists o, nth_error out i = Some o /\ is_null o = below (mp_eff mp w 0) (win w i rs).
Proof. exact mask_plain_sum. Qed.

Theorem C05_mask_ts_mean :
  forall (body : bool) (w : nat) (mp : option nat) (rs : list R), 1 <= w ->
    exists out, ts_run (ts_vmean_f (DT := IsNone_never) w mp) body w (map Some rs) = Done out /\
      length out = length rs /\
      forall i, i < length rs ->
        exists o, nth_error out i = Some o /\ is_null o = orb (below (mp_eff mp w 0) (win w i rs)) (below 1 (win w i rs)).
Proof. exact mask_plain_mean. Qed.

Theorem C05_mask_ts_var :
  forall (body : bool) (w : nat) (mp : option nat) (rs : list R), 1 <= w ->
    exists out, ts_run (ts_vvar_f (DT := IsNone_never) w mp) body w (map Some rs) = Done out /\
      length out = length rs /\
      forall i, i < length rs ->
        exists o, nth_error out i = Some o /\ is_null o = below (mp_eff mp w 2) (win w i rs).
Proof. exact mask_plain_var. Qed.

Theorem C05_mask_ts_std :
  forall (body : bool) (w : nat) (mp : option nat) (rs : list R), 1 <= w ->
    exists out, ts_run (ts_vstd_f (DT := IsNone_never) w mp) body w (map Some rs) = Done out /\
      length out = length rs /\
      forall i, i < length rs ->
        exists o, nth_error out i = Some o /\ is_null o = below (mp_eff mp w 2) (win w i rs).
Proof. exact mask_plain_std. Qed.

Theorem C05_mask_ts_skew :
  forall (body : bool) (w : nat) (mp : option nat) (rs : list R), 1 <= w ->
    exists out, ts_run (ts_vskew_f (DT := IsNone_never) w mp) body w (map Some rs) = Done out /\
      length out = length rs /\
      forall i, i < length rs ->
        exists o, nth_error out i = Some o /\ is_null o = below (mp_eff mp w 3) (win w i rs).
Proof. exact mask_plain_skew. Qed.

Theorem C05_mask_ts_kurt :
  forall (body : bool) (w : nat) (mp : option nat) (rs : list R), 1 <= w ->
    exists out, ts_run (ts_vkurt_f (DT := IsNone_never) w mp) body w (map Some rs) = Done out /\
      length out = length rs /\
      forall i, i < length rs ->
        exists o, nth_error out i = Some o /\ is_null o = below (mp_eff mp w 4) (win w i rs).
Proof. exact mask_plain_kurt. Qed.

Theorem C05_mask_ts_ewm :
  forall (body : bool) (w : nat) (mp : option nat) (rs : list R), 1 <= w ->
    exists out, ts_run (ts_vewm_f (DT := IsNone_never) w mp) body w (map Some rs) = Done out /\
      length out = length rs /\
      forall i, i < length rs ->
        exists o, nth_error out i = Some o /\ is_null o = orb (below (mp_eff mp w 0) (win w i rs)) (below 1 (win w i rs)).
Proof. exact mask_plain_ewm. Qed.

Theorem C05_mask_ts_wma :
  forall (body : bool) (w : nat) (mp : option nat) (rs : list R), 1 <= w ->
    exists out, ts_run (ts_vwma_f (DT := IsNone_never) w mp) body w (map Some rs) = Done out /\
      length out = length rs /\
      forall i, i < length rs ->
        exists o, nth_error out i = Some o /\ is_null o = orb (below (mp_eff mp w 0) (win w i rs)) (below 1 (win w i rs)).
Proof. exact mask_plain_wma. Qed.

Example C05_example_plain_sum :
  exists out, ts_run (ts_vsum_f (A := XR) (DT := IsNone_never) 2 None) true 2 (map Some [1%R; 2%R; 3%R]) = Done out /\
    (exists o, nth_error out 0 = Some o /\ is_null o = false).
Proof.
  destruct (C05_mask_ts_sum true 2 None [1%R; 2%R; 3%R] ltac:(auto)) as (out & H1 & _ & H3).
  exists out. split; [exact H1|exact (H3 0 ltac:(cbn; auto))].
Qed.

(* non-vacuity: a window of 2 over [1, NaN, 3] with min_periods 2 *)
Example C05_example :
  exists out, ts_run (ts_vsum_f (A := XR) 2 (Some 2)) true 2 [Some 1%R; None; Some 3%R] = Done out /\ length out = 3.
Proof. apply C05_one_output_per_input. auto. Qed.

(* non-vacuity of (4)-(5): every premise combination is satisfiable and the masks take both values *)
(* ewm / trend: [NaN, 1, 3], window 2, min_periods 0 — position 0 has no valid value (null), position 2 has two *)
Example C05_example_ewm_both_values :
  exists out, ts_run (ts_vewm_f (A := XR) 2 (Some 0)) false 2 [None; Some 1%R; Some 3%R] = Done out /\
    (exists o, nth_error out 0 = Some o /\ is_null o = true) /\
    (exists o, nth_error out 2 = Some o /\ is_null o = false).
Proof.
  destruct (C05_mask_ts_vewm false 2 (Some 0) [None; Some 1%R; Some 3%R] ltac:(auto)) as (out & H1 & _ & H3).
  exists out. split; [exact H1|]. split; [exact (H3 0 ltac:(cbn; auto))|exact (H3 2 ltac:(cbn; auto))].
Qed.
Example C05_example_trend_both_values :
  exists out, ts_run (ts_vreg_slope_f (A := XR) 2 (Some 0)) true 2 [None; Some 1%R; Some 3%R] = Done out /\
    (exists o, nth_error out 1 = Some o /\ is_null o = true) /\
    (exists o, nth_error out 2 = Some o /\ is_null o = false).
Proof.
  destruct (C05_mask_ts_vreg_slope true 2 (Some 0) [None; Some 1%R; Some 3%R] ltac:(auto)) as (out & H1 & _ & H3).
  exists out. split; [exact H1|]. split; [exact (H3 1 ltac:(cbn; auto))|exact (H3 2 ltac:(cbn; auto))].
Qed.
(* two series of equal length with nulls in both: the premises of (4e) *)
Example C05_example_cov :
  exists out, ts_run2 (ts_vcov_f (A := XR) 2 None) true 2
                      [Some 1%R; None; Some 3%R; Some 4%R] [Some 2%R; Some 5%R; Some 0%R; Some 1%R] = Done out /\
    (exists o, nth_error out 1 = Some o /\ is_null o = true) /\
    (exists o, nth_error out 3 = Some o /\ is_null o = false).
Proof.
  destruct (C05_mask_ts_vcov true 2 None [Some 1%R; None; Some 3%R; Some 4%R]
              [Some 2%R; Some 5%R; Some 0%R; Some 1%R] ltac:(auto) ltac:(reflexivity)) as (out & H1 & _ & H3).
  exists out. split; [exact H1|]. split; [exact (H3 1 ltac:(cbn; auto))|exact (H3 3 ltac:(cbn; auto))].
Qed.
Example C05_example_resid_premises :
  exists out, ts_vregx_resid (A := XR) RSkew false 3 (Some 1) [Some 1%R; None] [Some 2%R; Some 5%R] = Done out /\
    length out = 2.
Proof.
  destruct (C05_mask_ts_vregx_resid RSkew false 3 (Some 1) [Some 1%R; None] [Some 2%R; Some 5%R]
              ltac:(auto) ltac:(reflexivity)) as (out & H1 & H2 & _).
  exists out. split; assumption.
Qed.
(* the bounds premise of the min-max normalisation *)
Example C05_example_minmaxnorm_premise :
  forall r, In (Some r) [Some 1%R; None; Some 3%R] -> (0 <= r <= 4)%R.
Proof. intros r [H|[H|[H|[]]]]; try discriminate; injection H as <-; split; Lra.lra. Qed.
(* extrema family, Option<i32>-like elements: w = 3 > len = 2 with explicit min_periods (5.3 premise, left
   disjunct), and len >= w with omitted min_periods (right disjunct); the mask takes both values *)
Definition C05_Dopt : IsNone (option Z) Z := IsNone_option.
Example C05_example_vmin_both_values :
  ts_vmin (DT := C05_Dopt) true 3 (Some 1) [None; Some 2%Z] = Done [None; Some 2%Z] /\
  (Some 1 <> None \/ 3 <= length [None; Some 2%Z]).
Proof. split; [vm_compute; reflexivity|left; discriminate]. Qed.
Example C05_example_vrank_premises :
  1 <= 2 /\ 1 <= length [Some 5%Z; None; Some 2%Z] /\ ((@None nat) <> None \/ 2 <= length [Some 5%Z; None; Some 2%Z]).
Proof. split; [auto|]. split; [cbn; auto|right; cbn; auto]. Qed.
Example C05_example_window_zero :
  ts_vmin (DT := C05_Dopt) false 0 None [Some 1%Z] = Panicked AssertFail /\
  ts_vmin (DT := C05_Dopt) false 0 None [] = Done [].
Proof. split; vm_compute; reflexivity. Qed.
(* vfdiff: [1, NaN, 3], window 2, min_periods 2: position 1 holds one valid value (null), d = 1/2 *)
Example C05_example_vfdiff :
  exists out, ts_vfdiff (A := XR) true (Some (1 / 2)%R) 2 (Some 2) [Some 1%R; None; Some 3%R] = Done out /\
    (exists o, nth_error out 1 = Some o /\ is_null o = true).
Proof.
  destruct (C05_mask_ts_vfdiff true (1 / 2)%R 2 (Some 2) [Some 1%R; None; Some 3%R] ltac:(auto))
    as (out & H1 & _ & H3).
  exists out. split; [exact H1|exact (H3 1 ltac:(cbn; auto))].
Qed.

Print Assumptions C05_one_output_per_input.
Print Assumptions C05_empty_in_empty_out.
Print Assumptions C05_effective_min_periods.
Print Assumptions C05_mask_ts_vsum.
Print Assumptions C05_mask_ts_vmean.
Print Assumptions C05_mask_ts_vvar.
Print Assumptions C05_mask_ts_vstd.
Print Assumptions C05_mask_ts_vskew.
Print Assumptions C05_mask_ts_vkurt.
Print Assumptions C05_ewm_undefined_iff_no_valid.
Print Assumptions C05_mask_ts_vewm.
Print Assumptions C05_mask_ts_vwma.
Print Assumptions C05_mask_ts_vreg.
Print Assumptions C05_mask_ts_vtsf.
Print Assumptions C05_mask_ts_vreg_slope.
Print Assumptions C05_mask_ts_vreg_intercept.
Print Assumptions C05_mask_ts_vreg_resid_mean.
Print Assumptions C05_mask_ts_vzscore.
Print Assumptions C05_zero_spread_below_two.
Print Assumptions C05_mask_ts_vminmaxnorm.
Print Assumptions C05_mask_ts_vcov.
Print Assumptions C05_mask_ts_vcorr.
Print Assumptions C05_mask_ts_vregx_alpha.
Print Assumptions C05_mask_ts_vregx_beta.
Print Assumptions C05_mask_ts_vregx_all.
Print Assumptions C05_mask_ts_vregx_resid.
Print Assumptions C05_cmp_effective_min_periods.
Print Assumptions C05_cmp_effective_min_periods_stable.
Print Assumptions C05_mask_ts_vmin.
Print Assumptions C05_mask_ts_vmax.
Print Assumptions C05_mask_ts_vargmin.
Print Assumptions C05_mask_ts_vargmax.
Print Assumptions C05_mask_ts_vrank.
Print Assumptions C05_mask_ts_vmin_stable.
Print Assumptions C05_mask_ts_vmax_stable.
Print Assumptions C05_mask_ts_vargmin_stable.
Print Assumptions C05_mask_ts_vargmax_stable.
Print Assumptions C05_mask_ts_vrank_stable.
Print Assumptions C05_mask_ts_fdiff.
Print Assumptions C05_mask_ts_vfdiff.
Print Assumptions C05_index_form_empty_in_empty_out.
Print Assumptions C05_extrema_one_output_per_input.
Print Assumptions C05_rank_one_output_per_input.
Print Assumptions C05_index_form_window_zero_rejected.
Print Assumptions C05_mask_ts_sum.
Print Assumptions C05_mask_ts_mean.
Print Assumptions C05_mask_ts_var.
Print Assumptions C05_mask_ts_std.
Print Assumptions C05_mask_ts_skew.
Print Assumptions C05_mask_ts_kurt.
Print Assumptions C05_mask_ts_ewm.
Print Assumptions C05_mask_ts_wma.

(* ---- (7) the extrema / arg-extrema / rank family at EVERY ordered carrier, incl. binary64 -----------------
   The masks (4f) above are at the integer carrier.  Spec/ExtremaOrd.v states the order laws `OrdLaws A` (a strict weak
   order on the non-NaN elements of the carrier; hypotheses, proved for Z, option R and Coq's primitive binary64 `float`
   in Proofs/Cmp.v / CmpOrdInst.v / CmpOrdFloat.v) and Props/C03.v has the closed forms for every such carrier.  Below: the
   null mask, "one output per input / no panic" as corollaries of those closed forms (Proofs/Mask3.v, MaskOrd.v), for every null
   dictionary `IsNone T A`, every series whose valid elements are not NaN (`valid_not_nan`: automatic when NaN IS the
   null; for Option<f64> it excludes Some(NaN), DESIGN 5.4), every window >= 1, min_periods, position, both bodies.
   `gvalid W` = the non-null elements of the window.  For ts_vmin / ts_vmax a non-null output is moreover never NaN
   (so for an f64 result "the output is NaN" is exactly the mask).  The DESIGN 5.3 form of the threshold follows by
   rewriting with C05_cmp_effective_min_periods_stable, which is carrier-independent.                            *)
From Tevec Require Import Spec.ExtremaOrd Proofs.CmpOrd Base.F64 Proofs.MaskOrd.
From Coq Require Import PrimFloat.

Theorem C05_mask_ts_vmin_ordered :
  forall (A : Type) (NA : Num A), OrdLaws A ->
  forall (T : Type) (DT : IsNone T A) (body : bool) (w : nat) (mp : option nat) (xs : list T),
    valid_not_nan xs -> 1 <= w -> 1 <= length xs ->
    exists out, ts_vmin body w mp xs = Done out /\ length out = length xs /\
      forall i, i < length xs ->
        exists o, nth_error out i = Some o /\
          onull o = orb (length (gvalid (win w i (map to_opt xs))) <? cmp_mp mp (cmp_window w xs))
                        (length (gvalid (win w i (map to_opt xs))) <? 1) /\
          (forall x, o = Some x -> nisnan x = false).
Proof. intros A NA OL T DT. exact (mask_vmin_ord OL). Qed.

Theorem C05_mask_ts_vmax_ordered :
  forall (A : Type) (NA : Num A), OrdLaws A ->
  forall (T : Type) (DT : IsNone T A) (body : bool) (w : nat) (mp : option nat) (xs : list T),
    valid_not_nan xs -> 1 <= w -> 1 <= length xs ->
    exists out, ts_vmax body w mp xs = Done out /\ length out = length xs /\
      forall i, i < length xs ->
        exists o, nth_error out i = Some o /\
          onull o = orb (length (gvalid (win w i (map to_opt xs))) <? cmp_mp mp (cmp_window w xs))
                        (length (gvalid (win w i (map to_opt xs))) <? 1) /\
          (forall x, o = Some x -> nisnan x = false).
Proof. intros A NA OL T DT. exact (mask_vmax_ord OL). Qed.

Theorem C05_mask_ts_vargmin_ordered :
  forall (A : Type) (NA : Num A), OrdLaws A ->
  forall (T : Type) (DT : IsNone T A) (body : bool) (w : nat) (mp : option nat) (xs : list T),
    valid_not_nan xs -> 1 <= w -> 1 <= length xs ->
    exists out, ts_vargmin body w mp xs = Done out /\ length out = length xs /\
      forall i, i < length xs ->
        exists o, nth_error out i = Some o /\
          onull o = orb (length (gvalid (win w i (map to_opt xs))) <? cmp_mp mp (cmp_window w xs))
                        (length (gvalid (win w i (map to_opt xs))) <? 1).
Proof. intros A NA OL T DT. exact (mask_vargmin_ord OL). Qed.

Theorem C05_mask_ts_vargmax_ordered :
  forall (A : Type) (NA : Num A), OrdLaws A ->
  forall (T : Type) (DT : IsNone T A) (body : bool) (w : nat) (mp : option nat) (xs : list T),
    valid_not_nan xs -> 1 <= w -> 1 <= length xs ->
    exists out, ts_vargmax body w mp xs = Done out /\ length out = length xs /\
      forall i, i < length xs ->
        exists o, nth_error out i = Some o /\
          onull o = orb (length (gvalid (win w i (map to_opt xs))) <? cmp_mp mp (cmp_window w xs))
                        (length (gvalid (win w i (map to_opt xs))) <? 1).
Proof. intros A NA OL T DT. exact (mask_vargmax_ord OL). Qed.

(* rolling rank, comparisons of the carrier A, rank arithmetic in option R *)
Theorem C05_mask_ts_vrank_ordered :
  forall (A : Type) (NA : Num A), OrdLaws A ->
  forall (T : Type) (DT : IsNone T A) (body : bool) (w : nat) (mp : option nat) (pct rev : bool) (xs : list T),
    valid_not_nan xs -> 1 <= w -> 1 <= length xs ->
    exists out, ts_vrank (B := XR) body w mp pct rev xs = Done out /\ length out = length xs /\
      forall i, i < length xs ->
        exists o, nth_error out i = Some o /\
          is_null o = orb (null_at (map to_opt xs) i)
                          (length (gvalid (win w i (map to_opt xs))) <? cmp_mp mp (cmp_window w xs)).
Proof. intros A NA OL T DT. exact (mask_vrank_ord OL). Qed.

(* every series (the empty one included), every window >= 1 (window > len included), both bodies: a fully written
   output of the input length, no panic *)
Theorem C05_extrema_one_output_per_input_ordered :
  forall (A : Type) (NA : Num A), OrdLaws A ->
  forall (T : Type) (DT : IsNone T A) (body : bool) (w : nat) (mp : option nat) (xs : list T),
    valid_not_nan xs -> 1 <= w ->
    (exists out, ts_vmin body w mp xs = Done out /\ length out = length xs) /\
    (exists out, ts_vmax body w mp xs = Done out /\ length out = length xs) /\
    (exists out, ts_vargmin body w mp xs = Done out /\ length out = length xs) /\
    (exists out, ts_vargmax body w mp xs = Done out /\ length out = length xs).
Proof. intros A NA OL T DT. exact (extrema_total_ord OL). Qed.

(* ts_vrank needs NO law and NO premise on the series for this, and holds for every OUTPUT carrier B too (in
   particular input and output binary64): its counter is the valid count of the window, a fact about `not_none` alone. *)
Theorem C05_rank_one_output_per_input_any_carrier :
  forall (A : Type) (NA : Num A) (T : Type) (DT : IsNone T A) (B : Type) (NB : Num B)
         (body : bool) (w : nat) (mp : option nat) (pct rev : bool) (xs : list T),
    1 <= w -> exists out, ts_vrank (B := B) body w mp pct rev xs = Done out /\ length out = length xs.
Proof. intros A NA T DT B NB. exact rank_total_any. Qed.

(* binary64, f64 series with NaN as the null: no premise on the series *)
Theorem C05_mask_ts_vmin_binary64 :
  forall (body : bool) (w : nat) (mp : option nat) (xs : list float),
    1 <= w -> 1 <= length xs ->
    exists out, ts_vmin (DT := IsNoneF64) body w mp xs = Done out /\ length out = length xs /\
      forall i, i < length xs ->
        exists o, nth_error out i = Some o /\
          onull o = orb (length (gvalid (win w i (map to_opt xs))) <? cmp_mp mp (cmp_window w xs))
                        (length (gvalid (win w i (map to_opt xs))) <? 1) /\
          (forall x, o = Some x -> nisnan x = false).
Proof. intros body w mp xs. exact (mask_vmin_ord Proofs.CmpOrdFloat.ordlaws_F64 body w mp xs (valid_not_nan_f64 xs)). Qed.

Theorem C05_mask_ts_vmax_binary64 :
  forall (body : bool) (w : nat) (mp : option nat) (xs : list float),
    1 <= w -> 1 <= length xs ->
    exists out, ts_vmax (DT := IsNoneF64) body w mp xs = Done out /\ length out = length xs /\
      forall i, i < length xs ->
        exists o, nth_error out i = Some o /\
          onull o = orb (length (gvalid (win w i (map to_opt xs))) <? cmp_mp mp (cmp_window w xs))
                        (length (gvalid (win w i (map to_opt xs))) <? 1) /\
          (forall x, o = Some x -> nisnan x = false).
Proof. intros body w mp xs. exact (mask_vmax_ord Proofs.CmpOrdFloat.ordlaws_F64 body w mp xs (valid_not_nan_f64 xs)). Qed.

Theorem C05_mask_ts_vargmin_binary64 :
  forall (body : bool) (w : nat) (mp : option nat) (xs : list float),
    1 <= w -> 1 <= length xs ->
    exists out, ts_vargmin (DT := IsNoneF64) body w mp xs = Done out /\ length out = length xs /\
      forall i, i < length xs ->
        exists o, nth_error out i = Some o /\
          onull o = orb (length (gvalid (win w i (map to_opt xs))) <? cmp_mp mp (cmp_window w xs))
                        (length (gvalid (win w i (map to_opt xs))) <? 1).
Proof. intros body w mp xs. exact (mask_vargmin_ord Proofs.CmpOrdFloat.ordlaws_F64 body w mp xs (valid_not_nan_f64 xs)). Qed.

Theorem C05_mask_ts_vargmax_binary64 :
  forall (body : bool) (w : nat) (mp : option nat) (xs : list float),
    1 <= w -> 1 <= length xs ->
    exists out, ts_vargmax (DT := IsNoneF64) body w mp xs = Done out /\ length out = length xs /\
      forall i, i < length xs ->
        exists o, nth_error out i = Some o /\
          onull o = orb (length (gvalid (win w i (map to_opt xs))) <? cmp_mp mp (cmp_window w xs))
                        (length (gvalid (win w i (map to_opt xs))) <? 1).
Proof. intros body w mp xs. exact (mask_vargmax_ord Proofs.CmpOrdFloat.ordlaws_F64 body w mp xs (valid_not_nan_f64 xs)). Qed.

Theorem C05_mask_ts_vrank_binary64_input :
  forall (body : bool) (w : nat) (mp : option nat) (pct rev : bool) (xs : list float),
    1 <= w -> 1 <= length xs ->
    exists out, ts_vrank (DT := IsNoneF64) (B := XR) body w mp pct rev xs = Done out /\ length out = length xs /\
      forall i, i < length xs ->
        exists o, nth_error out i = Some o /\
          is_null o = orb (null_at (map to_opt xs) i)
                          (length (gvalid (win w i (map to_opt xs))) <? cmp_mp mp (cmp_window w xs)).
Proof. intros body w mp pct rev xs. exact (mask_vrank_ord Proofs.CmpOrdFloat.ordlaws_F64 body w mp pct rev xs (valid_not_nan_f64 xs)). Qed.

Theorem C05_extrema_one_output_per_input_binary64 :
  forall (body : bool) (w : nat) (mp : option nat) (xs : list float), 1 <= w ->
    (exists out, ts_vmin (DT := IsNoneF64) body w mp xs = Done out /\ length out = length xs) /\
    (exists out, ts_vmax (DT := IsNoneF64) body w mp xs = Done out /\ length out = length xs) /\
    (exists out, ts_vargmin (DT := IsNoneF64) body w mp xs = Done out /\ length out = length xs) /\
    (exists out, ts_vargmax (DT := IsNoneF64) body w mp xs = Done out /\ length out = length xs).
Proof. intros body w mp xs. exact (extrema_total_ord Proofs.CmpOrdFloat.ordlaws_F64 body w mp xs (valid_not_nan_f64 xs)). Qed.

(* binary64, Option<f64> series (only `None` is null) under the premise of DESIGN 5.4: no element is Some(NaN) *)
Theorem C05_mask_cmp_family_option_binary64 :
  forall (body : bool) (w : nat) (mp : option nat) (xs : list (option float)),
    valid_not_nan (DT := IsNoneOptF64) xs -> 1 <= w -> 1 <= length xs ->
    (exists out, ts_vmin (DT := IsNoneOptF64) body w mp xs = Done out /\ length out = length xs /\
       forall i, i < length xs ->
         exists o, nth_error out i = Some o /\
           onull o = orb (length (gvalid (win w i (map to_opt xs))) <? cmp_mp mp (cmp_window w xs))
                         (length (gvalid (win w i (map to_opt xs))) <? 1) /\
           (forall x, o = Some x -> nisnan x = false)) /\
    (exists out, ts_vmax (DT := IsNoneOptF64) body w mp xs = Done out /\ length out = length xs /\
       forall i, i < length xs ->
         exists o, nth_error out i = Some o /\
           onull o = orb (length (gvalid (win w i (map to_opt xs))) <? cmp_mp mp (cmp_window w xs))
                         (length (gvalid (win w i (map to_opt xs))) <? 1) /\
           (forall x, o = Some x -> nisnan x = false)) /\
    (exists out, ts_vargmin (DT := IsNoneOptF64) body w mp xs = Done out /\ length out = length xs /\
       forall i, i < length xs ->
         exists o, nth_error out i = Some o /\
           onull o = orb (length (gvalid (win w i (map to_opt xs))) <? cmp_mp mp (cmp_window w xs))
                         (length (gvalid (win w i (map to_opt xs))) <? 1)) /\
    (exists out, ts_vargmax (DT := IsNoneOptF64) body w mp xs = Done out /\ length out = length xs /\
       forall i, i < length xs ->
         exists o, nth_error out i = Some o /\
           onull o = orb (length (gvalid (win w i (map to_opt xs))) <? cmp_mp mp (cmp_window w xs))
                         (length (gvalid (win w i (map to_opt xs))) <? 1)) /\
    (forall pct rev,
     exists out, ts_vrank (DT := IsNoneOptF64) (B := XR) body w mp pct rev xs = Done out /\ length out = length xs /\
       forall i, i < length xs ->
         exists o, nth_error out i = Some o /\
           is_null o = orb (null_at (map to_opt xs) i)
                           (length (gvalid (win w i (map to_opt xs))) <? cmp_mp mp (cmp_window w xs))).
Proof.
  intros body w mp xs Hn Hw Hl. split; [|split; [|split; [|split]]].
  - exact (mask_vmin_ord Proofs.CmpOrdFloat.ordlaws_F64 body w mp xs Hn Hw Hl).
  - exact (mask_vmax_ord Proofs.CmpOrdFloat.ordlaws_F64 body w mp xs Hn Hw Hl).
  - exact (mask_vargmin_ord Proofs.CmpOrdFloat.ordlaws_F64 body w mp xs Hn Hw Hl).
  - exact (mask_vargmax_ord Proofs.CmpOrdFloat.ordlaws_F64 body w mp xs Hn Hw Hl).
  - intros pct rev. exact (mask_vrank_ord Proofs.CmpOrdFloat.ordlaws_F64 body w mp pct rev xs Hn Hw Hl).
Qed.

Theorem C05_extrema_one_output_per_input_option_binary64 :
  forall (body : bool) (w : nat) (mp : option nat) (xs : list (option float)),
    valid_not_nan (DT := IsNoneOptF64) xs -> 1 <= w ->
    (exists out, ts_vmin (DT := IsNoneOptF64) body w mp xs = Done out /\ length out = length xs) /\
    (exists out, ts_vmax (DT := IsNoneOptF64) body w mp xs = Done out /\ length out = length xs) /\
    (exists out, ts_vargmin (DT := IsNoneOptF64) body w mp xs = Done out /\ length out = length xs) /\
    (exists out, ts_vargmax (DT := IsNoneOptF64) body w mp xs = Done out /\ length out = length xs).
Proof. intros body w mp xs. exact (extrema_total_ord Proofs.CmpOrdFloat.ordlaws_F64 body w mp xs). Qed.

(* the premise cannot be dropped: on Some(NaN) elements the model of ts_vargmin does not return at all (cf.
   C03_some_nan_is_outside_the_property), so there is no output to have a length or a mask *)
Theorem C05_some_nan_is_outside_the_property :
  ~ (exists out, ts_vargmin (DT := IsNoneOptF64) true 2 (Some 0) [Some nan; Some nan; Some nan] = Done out) /\
  ~ valid_not_nan (DT := IsNoneOptF64) [Some nan; Some nan; Some nan].
Proof. exact optf64_some_nan_no_output. Qed.

(* non-vacuity.  Premise `OrdLaws A`: C03_order_laws_Z / _real / _binary64 (here: binary64).  Premise `valid_not_nan`
   on an Option<f64> series; the f64 masks evaluated: the mask takes both values, +0 / -0 tie, expiring extreme *)
Example C05_example_ordered_premises_binary64 :
  OrdLaws float /\
  valid_not_nan (DT := IsNoneOptF64) [Some 1%float; None; Some 3%float] /\ 1 <= 2 /\
  1 <= length [Some 1%float; None; Some 3%float].
Proof.
  split; [exact Proofs.CmpOrdFloat.ordlaws_F64|]. split; [|split; repeat constructor].
  intros v [<-|[<-|[<-|[]]]] H; try discriminate; reflexivity.
Qed.
Example C05_example_mask_binary64_both_values :
  let xs := [nan; 1%float; nan; nan; (-0)%float; 0%float] in
  1 <= 2 /\ 1 <= length xs /\
  ts_vmin (DT := IsNoneF64) true 2 (Some 1) xs = Done [None; Some 1%float; Some 1%float; None; Some (-0)%float; Some 0%float] /\
  map (fun i => orb (length (gvalid (win 2 i (map (to_opt (H := IsNoneF64)) xs))) <? 1)
                    (length (gvalid (win 2 i (map (to_opt (H := IsNoneF64)) xs))) <? 1)) (seq 0 6)
  = [true; false; false; true; false; false].
Proof. intros xs. split; [repeat constructor|]. split; [repeat constructor|]. split; vm_compute; reflexivity. Qed.
Example C05_example_mask_option_binary64 :
  ts_vargmax (DT := IsNoneOptF64) false 2 None [None; Some 2%float; None; None] = Done [None; Some 2; Some 1; None] /\
  ts_vrank (DT := IsNoneOptF64) (B := float) false 2 (Some 2) false false [Some 2%float; Some 1%float; None]
  = Done [nan; 1%float; nan].
Proof. split; vm_compute; reflexivity. Qed.

Print Assumptions C05_mask_ts_vmin_ordered.
Print Assumptions C05_mask_ts_vmax_ordered.
Print Assumptions C05_mask_ts_vargmin_ordered.
Print Assumptions C05_mask_ts_vargmax_ordered.
Print Assumptions C05_mask_ts_vrank_ordered.
Print Assumptions C05_extrema_one_output_per_input_ordered.
Print Assumptions C05_rank_one_output_per_input_any_carrier.
Print Assumptions C05_mask_ts_vmin_binary64.
Print Assumptions C05_mask_ts_vmax_binary64.
Print Assumptions C05_mask_ts_vargmin_binary64.
Print Assumptions C05_mask_ts_vargmax_binary64.
Print Assumptions C05_mask_ts_vrank_binary64_input.
Print Assumptions C05_extrema_one_output_per_input_binary64.
Print Assumptions C05_mask_cmp_family_option_binary64.
Print Assumptions C05_extrema_one_output_per_input_option_binary64.
Print Assumptions C05_some_nan_is_outside_the_property.

(* ==================================================================================================================
   (8) AUDIT (notes/C05.md "Audit matrix"; Proofs/Audit05.v):
       (8a) window 0 for every entry point;  (8b) huge windows: every window beyond the length behaves like len + 1
       (this is the equivalence the correspondence run relies on when it runs the code at w = 2^40 .. usize::MAX and the
       model at w = len + 1);  (8c) the two-series functions on series of unequal length;  (8d) "null below
       min_periods" at EVERY carrier without any order law for the entry points that had it at ordered carriers or
       option R only;  (8e) min_periods above the window;  (8f) the outcome shape of every entry point.
   ================================================================================================================== *)
From Tevec Require Import Proofs.IdxRun Proofs.Kernels3 Proofs.Features2 Proofs.Audit01 Proofs.Audit03 Proofs.Audit04 Proofs.Audit05.

(* (8a) window 0.  Every add-emit-remove entry point (the 8 null-aware and 8 plain moments / weighted means, z-score,
   the 5 time-trend regressions: any feature F), the 5 two-series cross-sum entry points (any F over pairs), the 3
   residual statistics, and the index-form family: the empty result iff the (first) series is empty, else the driver's
   `assert!(window > 0 || len == 0)` — both bodies, every carrier.  The two fractional differences are the exception:
   their iterator body computes `window - 1` first and panics with "subtract with overflow" EVEN ON THE EMPTY SERIES. *)
Theorem C05_window_zero_every_entry_point :
  forall (A : Type) (NA : Num A) (T : Type) (DT : IsNone T A) (T2 : Type) (D2 : IsNone T2 A),
    (forall (St O : Type) (F : feat T St O) (body : bool) (xs : list T),
        ts_run F body 0 xs = match xs with [] => Done [] | _ :: _ => Panicked AssertFail end) /\
    (forall (St O : Type) (F : feat (T * T2) St O) (body : bool) (xs : list T) (ys : list T2),
        ts_run2 F body 0 xs ys = match xs with [] => Done [] | _ :: _ => Panicked AssertFail end) /\
    (forall (k : rstat) (body : bool) (mp : option nat) (xs : list T) (ys : list T2),
        ts_vregx_resid k body 0 mp xs ys = match xs with [] => Done [] | _ :: _ => Panicked AssertFail end) /\
    (forall (B : Type) (NB : Num B) (body : bool) (mp : option nat) (pct rev : bool) (tmin tmax : A) (xs : list T),
        xs <> [] ->
        ts_vmin body 0 mp xs = Panicked AssertFail /\ ts_vmax body 0 mp xs = Panicked AssertFail /\
        ts_vargmin body 0 mp xs = Panicked AssertFail /\ ts_vargmax body 0 mp xs = Panicked AssertFail /\
        ts_vrank (B := B) body 0 mp pct rev xs = Panicked AssertFail /\
        ts_vminmaxnorm tmin tmax body 0 mp xs = Panicked AssertFail) /\
    (forall (d : A) (cast : T -> A) (mp : option nat) (xs : list T),
        ts_fdiff false d 0 cast xs = Panicked Underflow /\ ts_vfdiff false d 0 mp xs = Panicked Underflow /\
        (xs <> [] -> ts_fdiff true d 0 cast xs = Panicked AssertFail /\ ts_vfdiff true d 0 mp xs = Panicked AssertFail)).
Proof.
  intros A NA T DT T2 D2.
  split; [intros St O F body xs; apply ts_run_window0|].
  split; [intros St O F body xs ys; apply ts_run2_window0|].
  split; [intros k body mp xs ys; apply resid_window0|].
  split.
  - intros B NB body mp pct rev tmin tmax xs Hx.
    split; [apply (cmp_family_window0 sort_cmp); exact Hx|]. split; [apply (cmp_family_window0 sort_cmp_rev); exact Hx|].
    split; [apply (cmp_family_window0 sort_cmp); exact Hx|]. split; [apply (cmp_family_window0 sort_cmp_rev); exact Hx|].
    split; [apply vrank_window0; exact Hx|apply minmaxnorm_window0; exact Hx].
  - intros d cast mp xs. apply fdiff_window0.
Qed.

(* (8b) huge windows.  (i) The driver: a feature run under ANY two windows beyond the length gives the same outcome (no
   element is ever removed) and its window at position i is the whole prefix 0..=i.  (ii) The closures: with an EXPLICIT
   min_periods the gate `min(mp, w) raised to k <= n` cannot tell two such windows apart, since n <= len < w.  Hence
   for every w > len — w = 2^40, usize::MAX included — the call IS the call at w = len + 1: same panic / same outputs, for
   every carrier (binary64 bit for bit), null dictionary (the plain twins are the instance IsNone_never) and both bodies. *)
Theorem C05_huge_window_same_feature :
  forall (T St O : Type) (F : feat T St O) (body : bool) (w1 w2 : nat) (xs : list T),
    length xs < w1 -> length xs < w2 -> ts_run F body w1 xs = ts_run F body w2 xs.
Proof. exact @ts_run_large_window. Qed.

Theorem C05_huge_window_is_expanding :
  forall (T : Type) (w i : nat) (xs : list T), length xs < w -> i < length xs -> win w i xs = firstn (S i) xs.
Proof. intros T w i xs Hw Hi. apply win_covers_prefix. lia. Qed.

Theorem C05_huge_window_moments :
  forall (A : Type) (NA : Num A) (T : Type) (DT : IsNone T A) (body : bool) (w1 w2 m : nat) (xs : list T),
    length xs < w1 -> length xs < w2 ->
    ts_run (ts_vsum_f w1 (Some m)) body w1 xs = ts_run (ts_vsum_f w2 (Some m)) body w2 xs /\
    ts_run (ts_vmean_f w1 (Some m)) body w1 xs = ts_run (ts_vmean_f w2 (Some m)) body w2 xs /\
    ts_run (ts_vvar_f w1 (Some m)) body w1 xs = ts_run (ts_vvar_f w2 (Some m)) body w2 xs /\
    ts_run (ts_vstd_f w1 (Some m)) body w1 xs = ts_run (ts_vstd_f w2 (Some m)) body w2 xs /\
    ts_run (ts_vskew_f w1 (Some m)) body w1 xs = ts_run (ts_vskew_f w2 (Some m)) body w2 xs /\
    ts_run (ts_vkurt_f w1 (Some m)) body w1 xs = ts_run (ts_vkurt_f w2 (Some m)) body w2 xs.
Proof. intros A NA T DT. exact huge_window_moments. Qed.

Theorem C05_huge_window_wma_zscore :
  forall (A : Type) (NA : Num A) (T : Type) (DT : IsNone T A) (body : bool) (w1 w2 m : nat) (xs : list T),
    length xs < w1 -> length xs < w2 ->
    ts_run (ts_vwma_f w1 (Some m)) body w1 xs = ts_run (ts_vwma_f w2 (Some m)) body w2 xs /\
    ts_vzscore body w1 (Some m) xs = ts_vzscore body w2 (Some m) xs.
Proof.
  intros A NA T DT body w1 w2 m xs H1 H2. split; [apply huge_window_wma|apply huge_window_zscore]; assumption.
Qed.

Theorem C05_huge_window_trend :
  forall (A : Type) (NA : Num A) (T : Type) (DT : IsNone T A) (body : bool) (w1 w2 m : nat) (xs : list T),
    length xs < w1 -> length xs < w2 ->
    ts_run (ts_vreg_f w1 (Some m)) body w1 xs = ts_run (ts_vreg_f w2 (Some m)) body w2 xs /\
    ts_run (ts_vtsf_f w1 (Some m)) body w1 xs = ts_run (ts_vtsf_f w2 (Some m)) body w2 xs /\
    ts_run (ts_vreg_slope_f w1 (Some m)) body w1 xs = ts_run (ts_vreg_slope_f w2 (Some m)) body w2 xs /\
    ts_run (ts_vreg_intercept_f w1 (Some m)) body w1 xs = ts_run (ts_vreg_intercept_f w2 (Some m)) body w2 xs /\
    ts_run (ts_vreg_resid_mean_f w1 (Some m)) body w1 xs = ts_run (ts_vreg_resid_mean_f w2 (Some m)) body w2 xs.
Proof. intros A NA T DT. exact huge_window_trends. Qed.

Theorem C05_huge_window_two_series :
  forall (A : Type) (NA : Num A) (T1 : Type) (D1 : IsNone T1 A) (T2 : Type) (D2 : IsNone T2 A)
         (body : bool) (w1 w2 m : nat) (xs : list T1) (ys : list T2),
    length xs < w1 -> length xs < w2 ->
    ts_run2 (ts_vcov_f (D1 := D1) (D2 := D2) w1 (Some m)) body w1 xs ys
      = ts_run2 (ts_vcov_f (D1 := D1) (D2 := D2) w2 (Some m)) body w2 xs ys /\
    ts_run2 (ts_vcorr_f (D1 := D1) (D2 := D2) w1 (Some m)) body w1 xs ys
      = ts_run2 (ts_vcorr_f (D1 := D1) (D2 := D2) w2 (Some m)) body w2 xs ys /\
    ts_run2 (ts_vregx_alpha_f (D1 := D1) (D2 := D2) w1 (Some m)) body w1 xs ys
      = ts_run2 (ts_vregx_alpha_f (D1 := D1) (D2 := D2) w2 (Some m)) body w2 xs ys /\
    ts_run2 (ts_vregx_beta_f (D1 := D1) (D2 := D2) w1 (Some m)) body w1 xs ys
      = ts_run2 (ts_vregx_beta_f (D1 := D1) (D2 := D2) w2 (Some m)) body w2 xs ys /\
    ts_run2 (ts_vregx_all_f (D1 := D1) (D2 := D2) w1 (Some m)) body w1 xs ys
      = ts_run2 (ts_vregx_all_f (D1 := D1) (D2 := D2) w2 (Some m)) body w2 xs ys.
Proof. intros A NA T1 D1 T2 D2. exact huge_window_two_series. Qed.

(* the index-form entry points whose window is not clamped *)
Theorem C05_huge_window_minmaxnorm_resid :
  forall (A : Type) (NA : Num A) (T1 : Type) (D1 : IsNone T1 A) (T2 : Type) (D2 : IsNone T2 A)
         (body : bool) (w1 w2 m : nat) (xs : list T1) (ys : list T2),
    length xs < w1 -> length xs < w2 ->
    (forall tmin tmax : A, ts_vminmaxnorm tmin tmax body w1 (Some m) xs = ts_vminmaxnorm tmin tmax body w2 (Some m) xs) /\
    (forall k : rstat, ts_vregx_resid (D1 := D1) (D2 := D2) k body w1 (Some m) xs ys
                       = ts_vregx_resid (D1 := D1) (D2 := D2) k body w2 (Some m) xs ys).
Proof.
  intros A NA T1 D1 T2 D2 body w1 w2 m xs ys H1 H2.
  split; [intros tmin tmax; apply huge_window_minmaxnorm|intros k; apply huge_window_resid]; assumption.
Qed.

(* the extrema / arg-extrema / rank family clamps the window to the length: EVERY w >= len is w = len — for an omitted
   min_periods too (this is also C03_window_clamped_to_length) *)
Theorem C05_huge_window_cmp_family :
  forall (A : Type) (NA : Num A) (T : Type) (DT : IsNone T A) (body : bool) (w : nat) (mp : option nat) (xs : list T),
    length xs <= w ->
    ts_vmin body w mp xs = ts_vmin body (length xs) mp xs /\
    ts_vmax body w mp xs = ts_vmax body (length xs) mp xs /\
    ts_vargmin body w mp xs = ts_vargmin body (length xs) mp xs /\
    ts_vargmax body w mp xs = ts_vargmax body (length xs) mp xs /\
    (forall (B : Type) (NB : Num B) (pct rev : bool),
        ts_vrank (B := B) body w mp pct rev xs = ts_vrank (B := B) body (length xs) mp pct rev xs).
Proof. intros A NA T DT. exact huge_window_cmp_family. Qed.

(* the two restrictions are needed: an omitted min_periods is floor(w/2) and grows with the window (so for w >= 2 len + 2
   every output is null), and the weights of the exponentially weighted mean are powers of 1 - 2/w *)
Theorem C05_huge_window_needs_explicit_min_periods :
  ts_run (ts_vsum_f (A := Z) (DT := IsNone_option) 3 None) true 3 [Some 1%Z; Some 2%Z]
  <> ts_run (ts_vsum_f (A := Z) (DT := IsNone_option) 9 None) true 9 [Some 1%Z; Some 2%Z].
Proof. exact huge_window_omitted_differs. Qed.
Theorem C05_huge_window_not_for_ewm :
  ts_run (ts_vewm_f (A := Z) (DT := IsNone_option) 2 (Some 1)) true 2 [Some 5%Z]
  <> ts_run (ts_vewm_f (A := Z) (DT := IsNone_option) 3 (Some 1)) true 3 [Some 5%Z].
Proof. exact huge_window_ewm_differs. Qed.

(* (8c) two-series functions on series of UNEQUAL length.  Accepted inputs: the iterator body (returned result of a
   non-Vec backend) takes any lengths and silently stops at the shorter series; the index body (Vec / ndarray / caller
   buffer) asserts `other.len() >= len` first (C04_two_series_first_failing_check has the order of the checks).  On
   every accepted input the masks (4e) hold on the common prefix — the hypothesis `length xs = length ys` is dropped. *)
Theorem C05_two_series_every_input :
  forall (T1 T2 St O : Type) (F : feat (T1 * T2) St O) (body : bool) (w : nat) (xs : list T1) (ys : list T2),
    match check2 body w xs ys with
    | Some g => ts_run2 F body w xs ys = Panicked (guard_kind g)
    | None => exists l, ts_run2 F body w xs ys = Done l /\ length l = Nat.min (length xs) (length ys)
    end.
Proof. exact @ts_run2_by_check. Qed.

(* "exactly one output per input element" is therefore FALSE of the first series when the second is shorter and the
   iterator body runs: fewer outputs than inputs, no panic (replayed on the real code by the C04 / C05 runs) *)
Theorem C05_shorter_second_series_iterator_body_fewer_outputs :
  forall (T1 T2 St O : Type) (F : feat (T1 * T2) St O) (w : nat) (xs : list T1) (ys : list T2),
    1 <= w -> length ys < length xs ->
    exists out, ts_run2 F false w xs ys = Done out /\ length out = length ys /\ length out < length xs.
Proof. exact @shorter_second_iterator_truncates. Qed.

Theorem C05_mask_ts_vcov_any_lengths :
  forall (body : bool) (w : nat) (mp : option nat) (xs ys : list XR),
    1 <= w -> (body = false \/ length xs <= length ys) ->
    exists out, ts_run2 (ts_vcov_f w mp) body w xs ys = Done out /\ length out = Nat.min (length xs) (length ys) /\
      forall i, i < Nat.min (length xs) (length ys) ->
        exists o, nth_error out i = Some o /\
          is_null o = (length (pairs (win w i xs) (win w i ys)) <? mp_eff mp w 2).
Proof. exact mask_vcov_any_lengths. Qed.

Theorem C05_mask_ts_vcorr_any_lengths :
  forall (body : bool) (w : nat) (mp : option nat) (xs ys : list XR),
    1 <= w -> (body = false \/ length xs <= length ys) ->
    exists out, ts_run2 (ts_vcorr_f w mp) body w xs ys = Done out /\ length out = Nat.min (length xs) (length ys) /\
      forall i, i < Nat.min (length xs) (length ys) ->
        exists o, nth_error out i = Some o /\
          (is_null o = true <->
           length (pairs (win w i xs) (win w i ys)) < mp_eff mp w 0 \/
           (popvarR (map fst (pairs (win w i xs) (win w i ys))) <= EPS)%R \/
           (popvarR (map snd (pairs (win w i xs) (win w i ys))) <= EPS)%R).
Proof. exact mask_vcorr_any_lengths. Qed.

Theorem C05_mask_ts_vregx_any_lengths :
  forall (body : bool) (w : nat) (mp : option nat) (xs ys : list XR),
    1 <= w -> (body = false \/ length xs <= length ys) ->
    (exists out, ts_run2 (ts_vregx_alpha_f w mp) body w xs ys = Done out /\ length out = Nat.min (length xs) (length ys) /\
       forall i, i < Nat.min (length xs) (length ys) ->
         exists o, nth_error out i = Some o /\
           (is_null o = true <->
            length (pairs (win w i xs) (win w i ys)) < mp_eff mp w 0 \/ detB (pairs (win w i xs) (win w i ys)) = 0%R)) /\
    (exists out, ts_run2 (ts_vregx_beta_f w mp) body w xs ys = Done out /\ length out = Nat.min (length xs) (length ys) /\
       forall i, i < Nat.min (length xs) (length ys) ->
         exists o, nth_error out i = Some o /\
           (is_null o = true <->
            length (pairs (win w i xs) (win w i ys)) < mp_eff mp w 0 \/ detB (pairs (win w i xs) (win w i ys)) = 0%R)) /\
    (exists out, ts_run2 (ts_vregx_all_f w mp) body w xs ys = Done out /\ length out = Nat.min (length xs) (length ys) /\
       forall i, i < Nat.min (length xs) (length ys) ->
         exists o, nth_error out i = Some o /\
           (is_null (fst (fst o)) = true <->
            length (pairs (win w i xs) (win w i ys)) < mp_eff mp w 0 \/ detB (pairs (win w i xs) (win w i ys)) = 0%R) /\
           (is_null (snd (fst o)) = true <->
            length (pairs (win w i xs) (win w i ys)) < mp_eff mp w 0 \/ detB (pairs (win w i xs) (win w i ys)) = 0%R) /\
           (is_null (snd o) = true <->
            length (pairs (win w i xs) (win w i ys)) < mp_eff mp w 0 \/ detB (pairs (win w i xs) (win w i ys)) = 0%R)).
Proof. exact mask_vregx_any_lengths. Qed.

Theorem C05_mask_ts_vregx_resid_any_lengths :
  forall (k : rstat) (body : bool) (w : nat) (mp : option nat) (xs ys : list XR),
    1 <= w -> (body = false \/ length xs <= length ys) ->
    exists out, ts_vregx_resid k body w mp xs ys = Done out /\ length out = Nat.min (length xs) (length ys) /\
      forall i, i < Nat.min (length xs) (length ys) ->
        exists o, nth_error out i = Some o /\
          (is_null o = true <->
           length (pairs (win w i xs) (win w i ys)) < mp_eff mp w 0 \/ detB (pairs (win w i xs) (win w i ys)) = 0%R \/
           (k = RSkew /\ length (pairs (win w i xs) (win w i ys)) < 3)).
Proof. exact mask_vregx_resid_any_lengths. Qed.

(* (8d) "null below min_periods" at EVERY carrier — no order law, no premise on the data.  `nvalid_win w i xs` = number of
   non-null elements of the window.  ts_vmin / ts_vmax: in particular on Option<f64> series WITH Some(NaN) elements (which
   the ordered theorems (7) exclude); ts_vargmin / ts_vargmax need that a non-null element equals itself (`self_eq_on`:
   every integer, every f64 series with NaN as the null; false only for Some(NaN), where the model does not return);
   ts_vminmaxnorm: whatever the sentinels; ts_vfdiff: whatever the order d (a null d included).  For the other families
   the same statement is C01_below_min_periods_is_nan_every_carrier (8 moment / weighted entry points),
   C03_zscore_nan_every_carrier, C04_below_min_periods_null_any_carrier (cov, corr, regx alpha / beta / all),
   C04_trend_below_min_periods_null_any_carrier, C04_resid_below_min_periods_null_any_carrier; ts_vrank:
   C06_ts_vrank_is_a_function_of_the_window. *)
Theorem C05_below_min_periods_null_every_carrier_extrema :
  forall (A : Type) (NA : Num A) (T : Type) (DT : IsNone T A) (body : bool) (w : nat) (mp : option nat) (xs : list T),
    1 <= w ->
    (exists out, ts_vmin body w mp xs = Done out /\ length out = length xs /\
       forall i, i < length xs -> nvalid_win w i xs < cmp_mp mp (cmp_window w xs) -> nth_error out i = Some None) /\
    (exists out, ts_vmax body w mp xs = Done out /\ length out = length xs /\
       forall i, i < length xs -> nvalid_win w i xs < cmp_mp mp (cmp_window w xs) -> nth_error out i = Some None).
Proof. intros A NA T DT body w mp xs Hw. split; apply ts_vext_below_null; exact Hw. Qed.

Theorem C05_below_min_periods_null_every_carrier_arg_extrema :
  forall (A : Type) (NA : Num A) (T : Type) (DT : IsNone T A) (body : bool) (w : nat) (mp : option nat) (xs : list T),
    1 <= w -> self_eq_on xs ->
    (exists out, ts_vargmin body w mp xs = Done out /\ length out = length xs /\
       forall i, i < length xs -> nvalid_win w i xs < cmp_mp mp (cmp_window w xs) -> nth_error out i = Some None) /\
    (exists out, ts_vargmax body w mp xs = Done out /\ length out = length xs /\
       forall i, i < length xs -> nvalid_win w i xs < cmp_mp mp (cmp_window w xs) -> nth_error out i = Some None).
Proof.
  intros A NA T DT body w mp xs Hw Hs.
  split; apply ts_varg_below_null; try exact Hw; [apply sort_cmp_refl_on|apply sort_cmp_rev_refl_on]; exact Hs.
Qed.

Theorem C05_below_min_periods_null_every_carrier_minmaxnorm :
  forall (A : Type) (NA : Num A) (T : Type) (DT : IsNone T A) (tmin tmax : A) (body : bool) (w : nat)
         (mp : option nat) (xs : list T),
    1 <= w ->
    exists out, ts_vminmaxnorm tmin tmax body w mp xs = Done out /\ length out = length xs /\
      forall i, i < length xs -> nvalid_win w i xs < mp_eff mp w 0 -> nth_error out i = Some nnan.
Proof. intros A NA T DT. exact ts_vminmaxnorm_below_null. Qed.

Theorem C05_below_min_periods_null_every_carrier_vfdiff :
  forall (A : Type) (NA : Num A) (T : Type) (DT : IsNone T A) (body : bool) (d : A) (w : nat) (mp : option nat)
         (xs : list T),
    1 <= w ->
    exists out, ts_vfdiff body d w mp xs = Done out /\ length out = length xs /\
      forall i, i < length xs -> nvalid_win w i xs < mp_eff mp w 0 -> nth_error out i = Some nnan.
Proof. intros A NA T DT. exact ts_vfdiff_below_null. Qed.

(* (8e) min_periods above the window.  Every entry point with `.min(window)` treats it as min_periods = window (the 8
   moment / weighted entry points: C01_min_periods_above_window; here the other 17): the SAME feature record / the same
   call.  The extrema / rank family does not clamp: every output is null (C03_min_periods_above_window_all_null). *)
Theorem C05_min_periods_above_window :
  forall (A : Type) (NA : Num A) (T : Type) (DT : IsNone T A) (T2 : Type) (D2 : IsNone T2 A) (w m : nat),
    w <= m ->
    ts_vzscore_f (DT := DT) w (Some m) = ts_vzscore_f w (Some w) /\
    ts_vreg_f (DT := DT) w (Some m) = ts_vreg_f w (Some w) /\
    ts_vtsf_f (DT := DT) w (Some m) = ts_vtsf_f w (Some w) /\
    ts_vreg_slope_f (DT := DT) w (Some m) = ts_vreg_slope_f w (Some w) /\
    ts_vreg_intercept_f (DT := DT) w (Some m) = ts_vreg_intercept_f w (Some w) /\
    ts_vreg_resid_mean_f (DT := DT) w (Some m) = ts_vreg_resid_mean_f w (Some w) /\
    ts_vcov_f (D1 := DT) (D2 := D2) w (Some m) = ts_vcov_f w (Some w) /\
    ts_vcorr_f (D1 := DT) (D2 := D2) w (Some m) = ts_vcorr_f w (Some w) /\
    ts_vregx_alpha_f (D1 := DT) (D2 := D2) w (Some m) = ts_vregx_alpha_f w (Some w) /\
    ts_vregx_beta_f (D1 := DT) (D2 := D2) w (Some m) = ts_vregx_beta_f w (Some w) /\
    ts_vregx_all_f (D1 := DT) (D2 := D2) w (Some m) = ts_vregx_all_f w (Some w) /\
    (forall tmin tmax body xs, ts_vminmaxnorm (DT := DT) tmin tmax body w (Some m) xs
                               = ts_vminmaxnorm tmin tmax body w (Some w) xs) /\
    (forall k body xs ys, ts_vregx_resid (D1 := DT) (D2 := D2) k body w (Some m) xs ys
                          = ts_vregx_resid k body w (Some w) xs ys) /\
    (forall body d xs, ts_vfdiff (DT := DT) body d w (Some m) xs = ts_vfdiff body d w (Some w) xs).
Proof. intros A NA T DT T2 D2. exact min_periods_above_window_rest. Qed.

(* (8f) the outcome shape of the one-series entry points on EVERY input and carrier: a fully written result with one output
   per input, or — only for window 0 on a non-empty series — the driver's assertion; never a panic inside a closure,
   never an unwritten slot.  Any add-emit-remove feature (26 entry points); ts_vmin / ts_vmax / ts_vrank / ts_vminmaxnorm
   with no premise (also C10_ts_v*_safe); ts_vargmin / ts_vargmax need `self_eq_on` (C05_some_nan_is_outside_the_property
   is the counterexample otherwise). *)
Theorem C05_every_one_series_entry_point_outcome :
  forall (A : Type) (NA : Num A) (T : Type) (DT : IsNone T A) (body : bool) (w : nat) (mp : option nat) (xs : list T),
    (forall (St O : Type) (F : feat T St O), kernel_safe w xs (ts_run F body w xs)) /\
    kernel_safe w xs (ts_vmin body w mp xs) /\ kernel_safe w xs (ts_vmax body w mp xs) /\
    (forall (B : Type) (NB : Num B) (pct rev : bool), kernel_safe w xs (ts_vrank (B := B) body w mp pct rev xs)) /\
    (forall tmin tmax : A, kernel_safe w xs (ts_vminmaxnorm tmin tmax body w mp xs)) /\
    (self_eq_on xs -> kernel_safe w xs (ts_vargmin body w mp xs) /\ kernel_safe w xs (ts_vargmax body w mp xs)).
Proof.
  intros A NA T DT body w mp xs.
  split; [intros St O F; apply ts_run_safe|]. split; [apply ts_vmin_safe|]. split; [apply ts_vmax_safe|].
  split; [intros B NB pct rev; apply ts_vrank_safe|]. split; [intros tmin tmax; apply ts_vminmaxnorm_safe|].
  intros Hs. split; [apply ts_vargmin_safe|apply ts_vargmax_safe]; exact Hs.
Qed.

(* non-vacuity of (8).  Huge windows: premises and both sides evaluated at binary64 (w = 3 = len + 1 against w = 50); unequal
   lengths: second series shorter (iterator body) and longer (both bodies); below min_periods on an Option<f64> series that
   holds Some(NaN): ts_vmin returns, null exactly where the theorem says (positions 0, 1: one valid element < 2) *)
Example C05_example_huge_window_binary64 :
  let xs := [1%float; nan; 3%float] in
  length xs < 4 /\ length xs < 50 /\
  ts_run (ts_vstd_f (NA := NumF64) (DT := IsNoneF64) 4 (Some 2)) false 4 xs
  = ts_run (ts_vstd_f (NA := NumF64) (DT := IsNoneF64) 50 (Some 2)) false 50 xs /\
  ts_vminmaxnorm (DT := IsNoneF64) (-0x1.fffffffffffffp+1023)%float 0x1.fffffffffffffp+1023%float true 4 (Some 7) xs
  = ts_vminmaxnorm (DT := IsNoneF64) (-0x1.fffffffffffffp+1023)%float 0x1.fffffffffffffp+1023%float true 50 (Some 7) xs.
Proof. intros xs. split; [cbn; lia|]. split; [cbn; lia|]. split; vm_compute; reflexivity. Qed.
Example C05_example_unequal_lengths :
  (false = false \/ length [Some 1%R; None; Some 3%R] <= length [Some 2%R; Some 5%R]) /\
  (true = false \/ length [Some 1%R; None] <= length [Some 2%R; Some 5%R; Some 0%R]) /\
  check2 true 2 [Some 1%R; None; Some 3%R] [Some 2%R; Some 5%R] = Some GShorter /\
  check2 false 2 [Some 1%R; None; Some 3%R] [Some 2%R; Some 5%R] = None.
Proof. split; [left; reflexivity|]. split; [right; cbn; lia|]. split; reflexivity. Qed.
Example C05_example_below_min_periods_some_nan :
  ts_vmin (DT := IsNoneOptF64) true 2 (Some 2) [Some nan; None; Some 1%float; Some 2%float]
  = Done [None; None; None; Some 1%float] /\
  map (fun i => nvalid_win (DT := IsNoneOptF64) 2 i [Some nan; None; Some 1%float; Some 2%float]) (seq 0 4) = [1; 1; 1; 2] /\
  self_eq_on (DT := IsNone_option (A := Z)) [Some 1%Z; None].
Proof. split; [vm_compute; reflexivity|]. split; [vm_compute; reflexivity|apply self_eq_on_Z]. Qed.

Print Assumptions C05_window_zero_every_entry_point.
Print Assumptions C05_huge_window_same_feature.
Print Assumptions C05_huge_window_is_expanding.
Print Assumptions C05_huge_window_moments.
Print Assumptions C05_huge_window_wma_zscore.
Print Assumptions C05_huge_window_trend.
Print Assumptions C05_huge_window_two_series.
Print Assumptions C05_huge_window_minmaxnorm_resid.
Print Assumptions C05_huge_window_cmp_family.
Print Assumptions C05_huge_window_needs_explicit_min_periods.
Print Assumptions C05_huge_window_not_for_ewm.
Print Assumptions C05_two_series_every_input.
Print Assumptions C05_shorter_second_series_iterator_body_fewer_outputs.
Print Assumptions C05_mask_ts_vcov_any_lengths.
Print Assumptions C05_mask_ts_vcorr_any_lengths.
Print Assumptions C05_mask_ts_vregx_any_lengths.
Print Assumptions C05_mask_ts_vregx_resid_any_lengths.
Print Assumptions C05_below_min_periods_null_every_carrier_extrema.
Print Assumptions C05_below_min_periods_null_every_carrier_arg_extrema.
Print Assumptions C05_below_min_periods_null_every_carrier_minmaxnorm.
Print Assumptions C05_below_min_periods_null_every_carrier_vfdiff.
Print Assumptions C05_min_periods_above_window.
Print Assumptions C05_every_one_series_entry_point_outcome.
