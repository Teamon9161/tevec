(* Props/C18.v — property C18: parsers are total and round-trip with their formatters.
   The lemmas are in Proofs/Parse*.v, Proofs/CalendarC18.v and Proofs/Audit18.v.                *)
From Coq Require Import List ZArith Lia.
From Tevec Require Import Base.Prelude Model.Parse Spec.DurationC18 Proofs.Parse.
From Tevec Require Import Spec.CalendarC18 Model.ParseDT Proofs.CalendarC18 Proofs.ParseDT.
From Tevec Require Import Proofs.ParseRejects Proofs.ParseWs Proofs.ParseDT2 Proofs.Audit18.
From Tevec Require Model.Time.
Import ListNotations.
Local Open Scope Z_scope.

(* (1) TimeDelta::parse is total: for EVERY string (any list of code points) the scanner neither
       panics (the slice `&duration[start..i]` is always in bounds, nothing is unwrapped, no
       arithmetic overflows) nor runs out of fuel (the loops terminate).                          *)
Theorem C18_total :
  forall s : str, (forall k, parse s <> PPanic k) /\ parse s <> PFuel.
Proof. exact parse_total. Qed.

(* the invariant behind (1), for every reachable scanner state *)
Theorem C18_scanner_invariant :
  forall fuel s rest pos start a,
    (start <= pos)%nat -> (pos + length rest = length s)%nat -> (length rest < fuel)%nat ->
    match scan fuel s rest pos start a with PPanic _ | PFuel => False | _ => True end.
Proof. exact scan_safe. Qed.

(* (2) every well-formed duration string — a sequence of terms  sign? digit+ unit  with unit in
       ns us ms s m h d w mo y — whose numbers, products and running sums stay in range parses
       to the sum of its terms: months and years into the month count, the rest into the fixed
       part.                                                                                      *)
Theorem C18_wellformed :
  forall ts : list term,
    Forall wf_term ts -> Forall term_in_range ts -> partial_sums_in_range ts -> total_in_range ts ->
    parse (render_terms ts) = POk (sumf t_months ts) (fixed_ns ts).
Proof. intros ts Hw Hr Hp Ht. apply (parse_wellformed_ok ts _ _ Hw). auto. Qed.

(* non-vacuity: "2y1mo-3d5h-2m+3s" (the doc-comment example "2y1mo-3d5h-2m3s" with an explicit sign on the last
   term) satisfies every premise of (2) *)
Definition ex_terms : list term :=
  [ mk_term None [50] Uy; mk_term None [49] Umo; mk_term (Some true) [51] Ud;
    mk_term None [53] Uh; mk_term (Some true) [50] Um; mk_term (Some false) [51] Us ].

Example C18_wellformed_example :
  Forall wf_term ex_terms /\ Forall term_in_range ex_terms /\ partial_sums_in_range ex_terms /\
  total_in_range ex_terms /\
  render_terms ex_terms = [50;121; 49;109;111; 45;51;100; 53;104; 45;50;109; 43;51;115] /\
  parse (render_terms ex_terms) = POk 25 (-241317000000000).
Proof.
  split; [repeat constructor; discriminate|].
  split; [repeat constructor|].
  split; [intros k Hk; do 7 (destruct k as [|k]; [vm_compute; auto|]); cbn in Hk; lia|].
  split; [vm_compute; intuition discriminate|].
  split; vm_compute; reflexivity.
Qed.

(* malformed numbers and overflows are errors, not panics (repo: `?` on the i64 parse, checked arithmetic) *)
Example C18_former_panics_are_errors :
  parse [45; 45; 49; 100] = PErr /\                       (* "--1d" *)
  parse [97; 49; 100] = PErr /\                           (* "a1d"  *)
  parse [233; 49; 100] = PErr /\                          (* "é1d"  *)
  parse [57;57;57;57;57;57;57;57;57;57;57;57;57;57;57;57;57;57;57;57;100] = PErr /\  (* 20 digits *)
  parse [50;48;48;48;48;48;48;48;48;48;48;48;48;48;48;119] = PErr /\                 (* 2e14 w *)
  parse [52;50;57;52;57;54;55;50;57;55;109;111] = PErr.   (* "4294967297mo" *)
Proof. vm_compute. repeat split. Qed.

(* (2') the converse of (2): every string the scanner ACCEPTS is a sequence of well-formed terms followed by
       a degenerate tail (nothing, or one arbitrary character followed by digits only: "12", "d", "1d2", "1d "),
       and the value returned is the sum of those terms — the scanner never accepts a string with another
       meaning.  `tail_ok` / `in_language` are defined in Proofs/ParseRejects.v.                     *)
Theorem C18_parse_accepts_grammar :
  forall (s : str) (m ns : Z), parse s = POk m ns ->
    exists (ts : list term) (tail : str),
      s = render_terms ts ++ tail /\ Forall wf_term ts /\ tail_ok ts tail /\
      m = sumf t_months ts /\ ns = fixed_ns ts.
Proof. exact parse_accepts_grammar. Qed.

(* ... contrapositive: a string outside that language is rejected with Err (never a panic: (1)) *)
Theorem C18_parse_rejects : forall s : str, ~ in_language s -> parse s = PErr.
Proof. exact parse_not_in_language_err. Qed.

(* the empty string and the degenerate tail alone are accepted as the zero duration *)
Theorem C18_parse_empty_and_tail_only :
  parse [] = POk 0 0 /\ (forall c ds, Forall (fun d => is_digit d = true) ds -> parse (c :: ds) = POk 0 0).
Proof. split; [exact parse_empty | exact parse_tail_only]. Qed.

(* a first character that is neither a sign nor a digit is rejected unless digits only follow ("a1d", " 1d") *)
Theorem C18_parse_bad_head_rejected :
  forall c r, is_digit c = false -> c <> 43 -> c <> 45 -> ~ Forall (fun d => is_digit d = true) r ->
    parse (c :: r) = PErr.
Proof. exact parse_bad_head_rejected. Qed.

(* white space (char::is_whitespace, the class chrono trims) is never consulted by the scanner and belongs
   to no term: in an accepted string it can only be followed by digits up to the end; anywhere else — leading
   (" 1d"), between terms ("1d 2h") — the string is rejected *)
Theorem C18_parse_whitespace_position :
  forall s m ns, parse s = POk m ns ->
    forall pre c post, s = pre ++ c :: post -> is_ws c = true -> Forall (fun d => is_digit d = true) post.
Proof. exact parse_ws_position. Qed.
Theorem C18_parse_whitespace_rejected :
  forall pre c post, is_ws c = true -> ~ Forall (fun d => is_digit d = true) post ->
    parse (pre ++ c :: post) = PErr.
Proof. exact parse_inner_ws_rejected. Qed.

(* non-vacuity: "1d 2h" and " 1d" satisfy the premises and are errors; "1d " and " " are accepted *)
Example C18_parse_rejects_example :
  is_ws 32 = true /\ ~ Forall (fun d => is_digit d = true) [50; 104] /\
  parse ([49; 100] ++ 32 :: [50; 104]) = PErr /\ parse (32 :: [49; 100]) = PErr /\
  parse [49; 100; 32] = POk 0 86400000000000 /\ parse [32] = POk 0 0 /\
  in_language [49; 100; 32].
Proof.
  split; [reflexivity|]. split.
  { intros H. inversion H as [|? ? _ H2]; subst. inversion H2 as [|? ? H3 _]; subst. discriminate H3. }
  split; [vm_compute; reflexivity|]. split; [vm_compute; reflexivity|].
  split; [vm_compute; reflexivity|]. split; [vm_compute; reflexivity|].
  exists [mk_term None [49] Ud], [32]. split; [reflexivity|]. split.
  { repeat constructor; discriminate. }
  right. exists 32, []. split; [reflexivity|]. split; [constructor|]. intros _. reflexivity.
Qed.

(* (3) date-time text.  The calendar used by the text model is exact: for EVERY day number,
       civil_from_days yields a valid date and days_from_civil maps it back.                      *)
Theorem C18_calendar_inverse :
  forall z : Z,
    let '(y, m, d) := civil_from_days z in
    valid_date y m d = true /\ days_from_civil y m d = z.
Proof. exact civil_roundtrip. Qed.

(* full statement of the round trip: every unit, each of the 11 listed formats (fmt_k 1 is also the
   format strftime uses by default), every non-NaT instant chrono can represent and the format can
   express (whole seconds unless the format has %f, midnight for the date-only formats 2 3 5 9,
   years 0..9999 for the formats 3 4 7 8 whose %Y is followed directly by digits), parsed back with
   the format given explicitly AND through the rule list of DateTime::parse(s, None).
   PROVED in full below (C18_datetime_roundtrip, Proofs/ParseDT2.v); the two `_partial` theorems
   (the default format through the rule list; all 11 formats explicitly; both years 0000..9999) are
   special cases of it.                                                                           *)
Definition expressible (u : Z) (k : nat) (x : Z) (f : dtf) : Prop :=
  (has_frac k = false -> x mod per_sec u = 0) /\
  (date_only k = true -> x mod (86400 * per_sec u) = 0) /\
  (In k [3; 4; 7; 8]%nat -> 0 <= f_y f <= 9999).
Definition C18_datetime_roundtrip_full_statement : Prop :=
  forall u k x f,
    unit_code u -> (k < 11)%nat -> in_i64 x = true -> x <> i64_min ->
    fields_of_instant u x = Some f -> expressible u k x f ->
    dt_format u (fmt_k k) x = Ok (render (fmt_k k) f) /\
    parse_with u (fmt_k k) (render (fmt_k k) f) = Some x /\
    dt_parse u (render (fmt_k k) f) = Some x.

(* partial: the default format "%Y-%m-%d %H:%M:%S.%f", years 0000..9999, all four units
   (u = 0 s, 1 ms, 2 us, 3 ns), every non-NaT instant x: strftime renders the fields f of x, and
   parsing that text — with the format given explicitly, and through the rule list of
   DateTime::parse(s, None) where the first rule must reject it — returns x.                      *)
Theorem C18_datetime_roundtrip_partial :
  forall u x f,
    unit_code u -> in_i64 x = true -> x <> i64_min ->
    fields_of_instant u x = Some f -> 0 <= f_y f <= 9999 ->
    dt_format u fmt_default x = Ok (render fmt_default f) /\
    parse_with u fmt_default (render fmt_default f) = Some x /\
    dt_parse u (render fmt_default f) = Some x.
Proof.
  intros u x f Hu Hx Hn Hf Hy.
  apply (dt_full_roundtrip u 1 x f Hu ltac:(lia) Hx Hn Hf); [discriminate|discriminate|intros _; exact Hy].
Qed.

(* each of the 11 listed formats, format given explicitly, years 0000..9999, all four
   units, every instant the format can express.                                                  *)
Theorem C18_datetime_roundtrip_listed_partial :
  forall u k x f,
    unit_code u -> (k < 11)%nat -> in_i64 x = true -> x <> i64_min ->
    fields_of_instant u x = Some f -> 0 <= f_y f <= 9999 ->
    (has_frac k = false -> x mod per_sec u = 0) ->
    (date_only k = true -> x mod (86400 * per_sec u) = 0) ->
    dt_format u (fmt_k k) x = Ok (render (fmt_k k) f) /\
    parse_with u (fmt_k k) (render (fmt_k k) f) = Some x.
Proof. intros u k x f Hu Hk Hx Hn Hf Hy Hs Hd. apply dt_listed_roundtrip_signed; auto. Qed.

(* ---- the parts of the full statement (Proofs/ParseDT2.v) ----------------------------------------------- *)
(* explicit format, EVERY year chrono represents (-262143..262142; signed rendering `+12345`, `-0001`
   outside 0000..9999) for the formats whose %Y is followed by a literal, a space or the end of the text
   (0 1 2 5 6 9 10); 0000..9999 for the formats 3 4 7 8 whose %Y is followed directly by digits *)
Theorem C18_datetime_roundtrip_listed_all_years :
  forall u k x f,
    unit_code u -> (k < 11)%nat -> in_i64 x = true -> x <> i64_min ->
    fields_of_instant u x = Some f ->
    (y4 k = true -> 0 <= f_y f <= 9999) ->
    (has_frac k = false -> x mod per_sec u = 0) ->
    (date_only k = true -> x mod (86400 * per_sec u) = 0) ->
    dt_format u (fmt_k k) x = Ok (render (fmt_k k) f) /\
    parse_with u (fmt_k k) (render (fmt_k k) f) = Some x.
Proof. exact dt_listed_roundtrip_signed. Qed.

(* no earlier rule of TIME_RULE_VEC reads a text rendered with format k differently: each of the 55 rule
   pairs j < k rejects the text or returns the same instant ... *)
Theorem C18_earlier_rule_unambiguous :
  forall u j k x f,
    unit_code u -> (j < k)%nat -> (k < 11)%nat ->
    fields_of_instant u x = Some f -> (y4 k = true -> 0 <= f_y f <= 9999) ->
    parse_with u (fmt_k k) (render (fmt_k k) f) = Some x ->
    parse_with u (fmt_k j) (render (fmt_k k) f) = None
    \/ parse_with u (fmt_k j) (render (fmt_k k) f) = Some x.
Proof. exact earlier_rule_unambiguous. Qed.
(* ... in fact 53 pairs reject (for every parser state p) and only (4,7), (6,8) accept — with the same meaning *)
Theorem C18_earlier_rule_rejects :
  forall j k f p,
    (j < k)%nat -> (k < 11)%nat -> same_pair j k = false ->
    year_in_range (f_y f) -> (y4 k = true -> 0 <= f_y f <= 9999) ->
    parse_items (fmt_k j) (render (fmt_k k) f) p = None.
Proof. exact earlier_rule_rejects. Qed.
(* the abstraction behind it is sound for EVERY text and rule: a text a rule accepts is accepted on its
   character classes (so a syntactic rejection on classes is a rejection by the parser) *)
Theorem C18_class_abstraction_sound :
  forall items s p p', parse_items items s p = Some p' -> csyn items (map cls_of s) = true.
Proof. exact parse_items_csyn. Qed.

(* the full statement *)
Theorem C18_datetime_roundtrip : C18_datetime_roundtrip_full_statement.
Proof.
  intros u k x f Hu Hk Hx Hn Hf (H1 & H2 & H3). apply dt_full_roundtrip; assumption.
Qed.

(* non-vacuity of the signed branch and of the rule list for a non-default format: year -1 through
   "%Y-%m-%d" (rule 2; rules 0 and 1 must reject) and year 10000 through "%Y/%m/%d" (rule 9) *)
Example C18_datetime_signed_example :
  fields_of_instant 0 (-62198755200) = Some (mk_dtf (-1) 1 1 0 0 0 0) /\
  render (fmt_k 2) (mk_dtf (-1) 1 1 0 0 0 0) = [45;48;48;48;49;45;48;49;45;48;49] /\
  dt_parse 0 [45;48;48;48;49;45;48;49;45;48;49] = Some (-62198755200) /\
  fields_of_instant 1 253402300800000 = Some (mk_dtf 10000 1 1 0 0 0 0) /\
  render (fmt_k 9) (mk_dtf 10000 1 1 0 0 0 0) = [43;49;48;48;48;48;47;48;49;47;48;49] /\
  dt_parse 1 [43;49;48;48;48;48;47;48;49;47;48;49] = Some 253402300800000.
Proof. vm_compute. repeat split. Qed.
(* non-vacuity of the same-meaning pairs: "20200101123456" is read by rule 4 ("%Y%m%d %H%M%S", the space
   matching nothing) before rule 7 gets to see it, with the same result *)
Example C18_same_pair_example :
  let f := mk_dtf 2020 1 1 12 34 56 0 in
  render (fmt_k 7) f = [50;48;50;48;48;49;48;49;49;50;51;52;53;54] /\
  parse_with 0 (fmt_k 4) (render (fmt_k 7) f) = Some 1577882096 /\
  parse_with 0 (fmt_k 7) (render (fmt_k 7) f) = Some 1577882096 /\
  same_pair 4 7 = true /\ same_pair 3 7 = false /\
  expressible 0 7 1577882096 f.
Proof.
  cbv zeta. do 5 (split; [vm_compute; reflexivity|]).
  unfold expressible. cbn [has_frac date_only f_y]. split; [intros _; reflexivity|].
  split; [discriminate|]. intros _. lia.
Qed.

(* non-vacuity of C18_datetime_roundtrip_listed_partial: 2020-01-01 12:34:56 in seconds through
   "%d/%m/%Y%H%M%S" (rule 8) and 2020-01-01 in milliseconds through "%Y%m%d" (rule 3) *)
Example C18_datetime_listed_example :
  let f := mk_dtf 2020 1 1 12 34 56 0 in
  let g := mk_dtf 2020 1 1 0 0 0 0 in
  fields_of_instant 0 1577882096 = Some f /\ 1577882096 mod per_sec 0 = 0 /\
  render (fmt_k 8) f = [48;49;47;48;49;47;50;48;50;48;49;50;51;52;53;54] /\
  parse_with 0 (fmt_k 8) (render (fmt_k 8) f) = Some 1577882096 /\
  fields_of_instant 1 1577836800000 = Some g /\ 1577836800000 mod (86400 * per_sec 1) = 0 /\
  render (fmt_k 3) g = [50;48;50;48;48;49;48;49] /\
  parse_with 1 (fmt_k 3) (render (fmt_k 3) g) = Some 1577836800000.
Proof. vm_compute. repeat split. Qed.

(* non-vacuity: 2020-09-13 12:26:40.123456789 at nanosecond resolution, 1969-12-31 23:59:59.999 at ms *)
Example C18_datetime_example :
  let f := mk_dtf 2020 9 13 12 26 40 123456789 in
  let g := mk_dtf 1969 12 31 23 59 59 999000000 in
  fields_of_instant 3 1600000000123456789 = Some f /\
  render fmt_default f = [50;48;50;48;45;48;57;45;49;51;32;49;50;58;50;54;58;52;48;46;
                          49;50;51;52;53;54;55;56;57] /\
  dt_parse 3 (render fmt_default f) = Some 1600000000123456789 /\
  fields_of_instant 1 (-1) = Some g /\
  dt_parse 1 (render fmt_default g) = Some (-1).
Proof. vm_compute. repeat split. Qed.

(* ==== clause by clause (table: notes/C18.md "Audit matrix"; lemmas: Proofs/Audit18.v) ============================= *)
(* ---- (4) the unit table: exactly the ten tokens, what each contributes -------------------------------------------- *)
Theorem C18_unit_tokens : forall s u, unit_of s = Some u <-> s = unit_str u.
Proof. intros s u. split; [apply unit_of_inv|intros ->; apply unit_of_str]. Qed.
Theorem C18_unit_tokens_distinct : forall u v, unit_str u = unit_str v -> u = v.
Proof. intros u v H. destruct u, v; try reflexivity; discriminate H. Qed.
Theorem C18_unit_token_shape :
  forall s u, unit_of s = Some u -> (1 <= length s <= 2)%nat /\ Forall (fun c => 97 <= c <= 122) s.
Proof.
  intros s u H. apply unit_of_inv in H. subst s.
  destruct u; cbn [unit_str length]; (split; [lia|repeat constructor; lia]).
Qed.
Theorem C18_unit_table :
  forall t,
    (t_months t, t_secs t, t_nsecs t) =
    match t_unit t with
    | Uns | Uus | Ums => (0, 0, tval t * unit_scale (t_unit t))
    | Us | Um | Uh | Ud | Uw => (0, tval t * unit_scale (t_unit t), 0)
    | Umo | Uy => (tval t * unit_scale (t_unit t), 0, 0)
    end
    /\ unit_scale Uns = 1 /\ unit_scale Uus = 1000 /\ unit_scale Ums = 1000000
    /\ unit_scale Us = 1 /\ unit_scale Um = 60 /\ unit_scale Uh = 3600 /\ unit_scale Ud = 86400 /\ unit_scale Uw = 604800
    /\ unit_scale Umo = 1 /\ unit_scale Uy = 12.
Proof.
  intros t. split; [|repeat split]. unfold t_months, t_secs, t_nsecs.
  destruct (t_unit t); cbn [unit_scale]; rewrite ?Z.mul_1_r; reflexivity.
Qed.

(* ---- (5) (2) without its range hypotheses: on EVERY well-formed string the scanner is the checked fold over the
        terms — `i64::from_str` on the number, then the closure of the unit, in this order, first failure wins; the three
        range premises of C18_wellformed are exactly "run_terms = Some" and "finish <> Err" ------------------------- *)
Theorem C18_wellformed_run :
  forall ts, Forall wf_term ts -> parse (render_terms ts) = run_result (run_terms (mk_accs 0 0 0) ts).
Proof. exact parse_wellformed_run. Qed.

Theorem C18_wellformed_ok_iff :
  forall ts m ns, Forall wf_term ts ->
    (parse (render_terms ts) = POk m ns <->
     exists a, run_terms (mk_accs 0 0 0) ts = Some a /\ finish a = POk m ns).
Proof.
  intros ts m ns Hw. rewrite (parse_wellformed_run ts Hw). split.
  - destruct (run_terms _ ts) as [a|]; [eauto|discriminate].
  - intros [a [-> H]]. exact H.
Qed.

Theorem C18_wellformed_err_iff :
  forall ts, Forall wf_term ts ->
    (parse (render_terms ts) = PErr <->
     run_terms (mk_accs 0 0 0) ts = None \/ exists a, run_terms (mk_accs 0 0 0) ts = Some a /\ finish a = PErr).
Proof.
  intros ts Hw. rewrite (parse_wellformed_run ts Hw). split.
  - destruct (run_terms _ ts) as [a|]; [right; eauto|left; reflexivity].
  - intros [->|[a [-> H]]]; [reflexivity|exact H].
Qed.

Theorem C18_number_overflow_err :
  forall ts1 t ts2, Forall wf_term (ts1 ++ t :: ts2) -> in_i64 (tval t) = false ->
    parse (render_terms (ts1 ++ t :: ts2)) = PErr.
Proof.
  intros ts1 t ts2 Hw Hi. rewrite (parse_wellformed_run _ Hw), run_terms_app.
  destruct (run_terms _ ts1); [|reflexivity]. cbn [run_terms]. unfold step_term. rewrite Hi. reflexivity.
Qed.

Theorem C18_single_term :
  forall t, wf_term t ->
    parse (render_term t) =
    if in_i64 (tval t)
    then match apply_unit (t_unit t) (tval t) (mk_accs 0 0 0) with Some a => finish a | None => PErr end
    else PErr.
Proof.
  intros t Hw. replace (render_term t) with (render_terms [t]) by (cbn; apply app_nil_r).
  rewrite (parse_wellformed_run [t]) by (constructor; [exact Hw|constructor]).
  cbn [run_terms]. unfold step_term. destruct (in_i64 (tval t)); [|reflexivity].
  destruct (apply_unit _ _ _); reflexivity.
Qed.

(* ... and in the declarative vocabulary of (2): its three range premises are NECESSARY as well — a well-formed string is
   accepted (with the sum of its terms) if and only if they hold, and is Err otherwise.  (2) + this = the exact acceptance
   condition of every well-formed duration string *)
Theorem C18_wellformed_iff :
  forall ts, Forall wf_term ts ->
    (parse (render_terms ts) = POk (sumf t_months ts) (fixed_ns ts)
     <-> (Forall term_in_range ts /\ partial_sums_in_range ts /\ total_in_range ts))
    /\ (parse (render_terms ts) = PErr
        <-> ~ (Forall term_in_range ts /\ partial_sums_in_range ts /\ total_in_range ts)).
Proof.
  intros ts Hw. pose proof (parse_wellformed_ok ts) as Hok. split; split.
  - intros H. exact (proj1 (proj1 (Hok _ _ Hw) H)).
  - intros H. apply (Hok _ _ Hw). auto.
  - intros H Hr. rewrite (proj2 (Hok _ _ Hw) (conj Hr (conj eq_refl eq_refl))) in H. discriminate H.
  - intros Hn. destruct (parse_ok_or_err (render_terms ts)) as [[m [ns H]]|H]; [|exact H].
    exfalso. apply Hn. exact (proj1 (proj1 (Hok m ns Hw) H)).
Qed.

Theorem C18_wellformed_value_unique :
  forall ts m ns, Forall wf_term ts -> parse (render_terms ts) = POk m ns ->
    (Forall term_in_range ts /\ partial_sums_in_range ts /\ total_in_range ts)
    /\ m = sumf t_months ts /\ ns = fixed_ns ts.
Proof. intros ts m ns Hw H. exact (proj1 (parse_wellformed_ok ts m ns Hw) H). Qed.

(* ---- (6) sign runs; Debug / Display text is never a duration ------------------------------------------------------ *)
Theorem C18_two_nondigit_head :
  forall c1 c2 r, is_digit c1 = false -> is_digit c2 = false -> parse (c1 :: c2 :: r) = PErr.
Proof.
  (* the first character is never looked at; the slice handed to i64::from_str is that one character *)
  intros c1 c2 r H1 H2. unfold parse. cbn [length]. rewrite scan_first. cbn [scan]. rewrite H2.
  cbn [Nat.eqb negb andb]. unfold slice. cbn [Nat.leb length andb].
  unfold seg. cbn [skipn firstn Nat.sub]. unfold parse_i64.
  destruct (c1 =? 45) eqn:E1; [reflexivity|]. destruct (c1 =? 43) eqn:E2; [reflexivity|].
  cbn [digits_val]. rewrite H1. reflexivity.
Qed.

Theorem C18_sign_run_rejected :
  forall s1 s2 r, (s1 = 43 \/ s1 = 45) -> (s2 = 43 \/ s2 = 45) -> parse (s1 :: s2 :: r) = PErr.
Proof. intros s1 s2 r [->| ->] [->| ->]; apply C18_two_nondigit_head; reflexivity. Qed.

Theorem C18_debug_text_is_not_a_duration :
  (forall t, parse (time_debug t) = PErr) /\ (forall t, parse (time_display t) = PErr)
  /\ (forall m ns, parse (td_debug m ns) = PErr) /\ parse nat_str = PErr.
Proof. repeat split; intros; apply C18_two_nondigit_head; reflexivity. Qed.

Theorem C18_time_display_is_debug : forall t, time_display t = time_debug t.
Proof. reflexivity. Qed.

(* ---- (7) date-time text: where strftime panics; the default format with no hypothesis on the fields; NaT ---------- *)
Theorem C18_strftime_panics_iff :
  forall u items x k,
    dt_format u items x = Panic k <-> (x <> i64_min /\ fields_of_instant u x = None /\ k = UnwrapNone).
Proof.
  intros u items x k. unfold dt_format. destruct (x =? i64_min) eqn:E.
  - apply Z.eqb_eq in E. split; [discriminate|]. intros [H _]. contradiction.
  - apply Z.eqb_neq in E. destruct (fields_of_instant u x) as [f|].
    + split; [discriminate|]. intros (_ & H & _). discriminate H.
    + split; [intros [= <-]; auto|]. intros (_ & _ & ->). reflexivity.
Qed.

Theorem C18_strftime_default_parse_back :
  forall u x text, unit_code u -> in_i64 x = true -> x <> i64_min ->
    dt_format u fmt_default x = Ok text ->
    parse_with u fmt_default text = Some x /\ dt_parse u text = Some x.
Proof. exact strftime_default_parse_back. Qed.

Theorem C18_debug_parse_back :
  forall u x text, unit_code u -> in_i64 x = true -> x <> i64_min -> dt_debug u x = Ok text -> dt_parse u text = Some x.
Proof. exact debug_parse_back. Qed.

(* the default unit, unconditionally: every non-NaT i64 nanosecond timestamp is rendered (no panic) and read back *)
Theorem C18_strftime_nano_total :
  forall x, in_i64 x = true -> x <> i64_min ->
    exists text, dt_format 3 fmt_default x = Ok text /\ dt_parse 3 text = Some x /\ dt_debug 3 x = Ok text.
Proof. exact strftime_nano_total. Qed.

Theorem C18_nat_text :
  (forall u items, dt_format u items i64_min = Ok nat_str) /\ (forall u, dt_debug u i64_min = Ok nat_str)
  /\ (forall u, dt_parse u nat_str = None)
  /\ (forall u k, (k < 11)%nat -> parse_with u (fmt_k k) nat_str = None)
  /\ (forall u, parse_with u fmt_default nat_str = None).
Proof.
  split; [reflexivity|]. split; [reflexivity|]. split; [intros u; vm_compute; reflexivity|].
  split; [|intros u; vm_compute; reflexivity].
  intros u k Hk. do 11 (destruct k as [|k]; [vm_compute; reflexivity|]). lia.
Qed.

Theorem C18_listed_text_is_not_nat : forall k f, render (fmt_k k) f <> nat_str.
Proof.
  (* every listed format starts with %Y or %d, whose text starts with a digit or a sign *)
  intros k f.
  assert (HY : forall rest, render (IY :: rest) f <> nat_str).
  { intros rest. unfold render. cbn [flat_map render_item].
    destruct (render_year_head (f_y f)) as [c [r [E Hc]]]. rewrite E. cbn [app]. unfold nat_str. congruence. }
  assert (HD : forall rest, render (Iday :: rest) f <> nat_str).
  { intros rest. unfold render. cbn [flat_map render_item].
    destruct (fixed_head 2 (f_d f) (flat_map (fun it => render_item it f) rest) ltac:(lia)) as [c [r [E Hc]]].
    rewrite E. unfold nat_str. apply digit_range in Hc. intros [= H _]. lia. }
  do 11 (destruct k as [|k]; [first [apply HY|apply HD]|]).
  unfold fmt_k, rules. cbn [nth]. destruct k; apply HY.
Qed.

Theorem C18_strftime_nat_iff : forall u k x, dt_format u (fmt_k k) x = Ok nat_str <-> x = i64_min.
Proof.
  intros u k x. split.
  - unfold dt_format. destruct (x =? i64_min) eqn:E; [intros _; apply Z.eqb_eq; exact E|].
    destruct (fields_of_instant u x) as [f|]; [|discriminate]. intros [= H]. exfalso.
    exact (C18_listed_text_is_not_nat k f H).
  - intros ->. reflexivity.
Qed.

(* ---- (8) Time::parse with an explicit format (Model/ParseDT.v time_parse_with) ------------------------------------ *)
Theorem C18_time_parse_hms :
  forall h m s, 0 <= h <= 23 -> 0 <= m <= 59 -> 0 <= s <= 59 ->
    time_parse_with fmt_hms (render fmt_hms (tfields h m s 0)) = Some ((h * 3600 + m * 60 + s) * giga)
    /\ time_parse_with fmt_hms_compact (render fmt_hms_compact (tfields h m s 0)) = Some ((h * 3600 + m * 60 + s) * giga).
Proof.
  intros h m s Hh Hm Hs. unfold time_parse_with, fmt_hms, fmt_hms_compact, render, parsed0, colon, tfields.
  cbn [flat_map render_item app f_h f_mi f_s].
  repeat (rewrite <- app_assoc; cbn [app]).
  split;
    repeat (cbn [parse_items];
            first [ rewrite pi_lit | rewrite pi_H by lia | rewrite pi_M by lia | rewrite pi_S by lia ]);
    unfold to_naive_time; cbn [p_h p_mi p_s p_ns];
    replace (s =? 60) with false by (symmetry; apply Z.eqb_neq; lia); f_equal; try (unfold giga; lia).
Qed.

Theorem C18_time_parse_hms_frac :
  forall h m s ns, 0 <= h <= 23 -> 0 <= m <= 59 -> 0 <= s <= 59 -> 0 <= ns <= 999999999 ->
    time_parse_with fmt_hms_f (render fmt_hms_f (tfields h m s ns)) = Some ((h * 3600 + m * 60 + s) * giga + ns).
Proof.
  intros h m s ns Hh Hm Hs Hn. unfold time_parse_with, fmt_hms_f, render, parsed0, colon, dot, tfields.
  cbn [flat_map render_item app f_h f_mi f_s f_ns].
  repeat (rewrite <- app_assoc; cbn [app]).
  repeat (cbn [parse_items];
          first [ rewrite pi_lit | rewrite pi_H by lia | rewrite pi_M by lia | rewrite pi_S by lia
                | rewrite pi_f by lia ]).
  unfold to_naive_time. cbn [p_h p_mi p_s p_ns].
  replace (s =? 60) with false by (symmetry; apply Z.eqb_neq; lia). f_equal; try (unfold giga; lia).
Qed.

Theorem C18_time_parse_leap_second :
  time_parse_with fmt_hms [50;51;58;53;57;58;54;48] = Some 86400000000000
  /\ time_parse_with fmt_hms_compact [50;51;53;57;54;48] = Some 86400000000000
  /\ Time.time_as_cr 86400000000000 = None
  /\ Time.time_hour 86400000000000 = Panic UnwrapNone /\ Time.time_second 86400000000000 = Panic UnwrapNone
  /\ Time.time_with_hour 86400000000000 0 = None.
Proof. vm_compute. repeat split. Qed.

(* ---- non-vacuity of (4)-(8) -------------------------------------------------------------------------------------- *)
Definition ex_big : term := mk_term None [57;50;50;51;51;55;50;48;51;54;56;53;52;55;55;53;56;48;56] Us.  (* 2^63 s *)
Example C18_ex_audit_run :
  (* "1d9223372036854775808s": well formed, the second number does not fit an i64 -> Err; "1d" -> 1 day;
     "9223372036854775807s" fits the i64 but not chrono's Duration -> Err by `finish` *)
  Forall wf_term ([mk_term None [49] Ud] ++ ex_big :: []) /\ in_i64 (tval ex_big) = false
  /\ parse (render_terms ([mk_term None [49] Ud] ++ ex_big :: [])) = PErr
  /\ wf_term (mk_term None [49] Ud) /\ parse (render_term (mk_term None [49] Ud)) = POk 0 86400000000000
  /\ run_terms (mk_accs 0 0 0) [mk_term None [57;50;50;51;51;55;50;48;51;54;56;53;52;55;55;53;56;48;55] Us]
     = Some (mk_accs 0 9223372036854775807 0)
  /\ finish (mk_accs 0 9223372036854775807 0) = PErr
  /\ run_terms (mk_accs 0 0 0) [mk_term None [50;48;48;48;48;48;48;48;48;48;48;48;48;48;48] Uw] = None.
Proof.
  split; [repeat constructor; discriminate|]. split; [vm_compute; reflexivity|]. split; [vm_compute; reflexivity|].
  split; [repeat constructor; discriminate|]. repeat split; vm_compute; reflexivity.
Qed.

Example C18_ex_audit_iff :
  (* "2147483647mo1mo": every term in range, the running month sum is not -> the premises fail -> Err *)
  let ts := [mk_term None [50;49;52;55;52;56;51;54;52;55] Umo; mk_term None [49] Umo] in
  Forall wf_term ts /\ Forall term_in_range ts /\ ~ partial_sums_in_range ts /\ parse (render_terms ts) = PErr.
Proof.
  cbv zeta. split; [repeat constructor; discriminate|]. split; [repeat constructor|].
  split; [|vm_compute; reflexivity].
  intros H. destruct (H 2%nat ltac:(cbn; lia)) as [H1 _]. vm_compute in H1. discriminate H1.
Qed.

Example C18_ex_audit_heads :
  is_digit 45 = false /\ parse [45; 45; 49; 100] = PErr /\ parse [43; 45; 49; 100] = PErr
  /\ unit_of [109; 111] = Some Umo /\ unit_of [77; 83] = None /\ unit_of [109; 105; 110] = None
  /\ time_debug (-5) = [84;105;109;101;40;45;53;41]
  /\ td_debug 14 (-1500000000) = [84;105;109;101;68;101;108;116;97;32;123;32;109;111;110;116;104;115;58;32;49;52;44;32;
       105;110;110;101;114;58;32;84;105;109;101;68;101;108;116;97;32;123;32;115;101;99;115;58;32;45;50;44;32;110;97;110;
       111;115;58;32;53;48;48;48;48;48;48;48;48;32;125;32;125].
Proof. vm_compute. repeat split. Qed.

Example C18_ex_audit_datetime :
  (* year -1 at second resolution through strftime(None) and the rule list; the panic outside chrono's range *)
  unit_code 0 /\ in_i64 (-62198755200) = true /\ -62198755200 <> i64_min
  /\ dt_format 0 fmt_default (-62198755200)
     = Ok [45;48;48;48;49;45;48;49;45;48;49;32;48;48;58;48;48;58;48;48;46;48;48;48;48;48;48;48;48;48]
  /\ dt_parse 0 [45;48;48;48;49;45;48;49;45;48;49;32;48;48;58;48;48;58;48;48;46;48;48;48;48;48;48;48;48;48]
     = Some (-62198755200)
  /\ dt_format 0 fmt_default i64_max = Panic UnwrapNone /\ i64_max <> i64_min /\ fields_of_instant 0 i64_max = None
  /\ in_i64 (i64_min + 1) = true /\ i64_min + 1 <> i64_min
  /\ dt_format 3 fmt_default (i64_min + 1)
     = Ok [49;54;55;55;45;48;57;45;50;49;32;48;48;58;49;50;58;52;51;46;49;52;53;50;50;52;49;57;51].
Proof. vm_compute. repeat split; (discriminate || auto). Qed.

Example C18_ex_audit_time :
  0 <= 12 <= 23 /\ 0 <= 34 <= 59 /\ 0 <= 56 <= 59 /\ 0 <= 789000000 <= 999999999
  /\ render fmt_hms_f (tfields 12 34 56 789000000) = [49;50;58;51;52;58;53;54;46;55;56;57;48;48;48;48;48;48]
  /\ time_parse_with fmt_hms_f [49;50;58;51;52;58;53;54;46;55;56;57;48;48;48;48;48;48] = Some 45296789000000
  /\ time_parse_with fmt_hms [50;52;58;48;48;58;48;48] = None.
Proof. vm_compute. repeat split; discriminate. Qed.

Print Assumptions C18_total.
Print Assumptions C18_scanner_invariant.
Print Assumptions C18_wellformed.
Print Assumptions C18_calendar_inverse.
Print Assumptions C18_datetime_roundtrip_partial.
Print Assumptions C18_datetime_roundtrip_listed_partial.
Print Assumptions C18_parse_accepts_grammar.
Print Assumptions C18_parse_rejects.
Print Assumptions C18_parse_whitespace_rejected.
Print Assumptions C18_datetime_roundtrip_listed_all_years.
Print Assumptions C18_earlier_rule_unambiguous.
Print Assumptions C18_class_abstraction_sound.
Print Assumptions C18_datetime_roundtrip.
Print Assumptions C18_unit_tokens.
Print Assumptions C18_unit_table.
Print Assumptions C18_wellformed_run.
Print Assumptions C18_wellformed_ok_iff.
Print Assumptions C18_wellformed_err_iff.
Print Assumptions C18_wellformed_iff.
Print Assumptions C18_wellformed_value_unique.
Print Assumptions C18_number_overflow_err.
Print Assumptions C18_single_term.
Print Assumptions C18_two_nondigit_head.
Print Assumptions C18_debug_text_is_not_a_duration.
Print Assumptions C18_strftime_panics_iff.
Print Assumptions C18_strftime_default_parse_back.
Print Assumptions C18_strftime_nano_total.
Print Assumptions C18_nat_text.
Print Assumptions C18_listed_text_is_not_nat.
Print Assumptions C18_strftime_nat_iff.
Print Assumptions C18_time_parse_hms.
Print Assumptions C18_time_parse_hms_frac.
Print Assumptions C18_time_parse_leap_second.
