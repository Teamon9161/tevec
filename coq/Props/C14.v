(* Props/C14.v — property C14: binning assigns the unique enclosing bin; run de-duplication keeps
   run ends.
   Model: Model/Binning.v at Z with an explicit null (`option Z`); specification: Spec/Binning.v.
   The theorems about `cut1` and the positional ones about unique are instances of the carrier-generic
   theorems of Proofs/Audit14.v (`gcontains_Z`, `gascending_Z` relate the two specifications).
   `tmin`/`tmax` (T::MIN / T::MAX, still materialised by the code) are universally quantified: no
   result depends on them.                                                                        *)
From Coq Require Import Sorted.
From Tevec Require Import Base.Prelude Model.Binning Spec.Binning Proofs.Binning Proofs.Unique Proofs.Audit14.
Local Open Scope Z_scope.

(* (1) a non-null value gets label j  iff  interval j (right- or left-closed as requested) contains it *)
Theorem C14_cut_label_iff_enclosing_bin :
  forall (L : Type) (tmin tmax : Z) (right add_bounds : bool) (edges : list Z) (labels : list L) (v : Z) (l : L),
    ascending edges -> count_ok add_bounds edges labels = true ->
    (cut1Z tmin tmax right add_bounds edges labels (Some v) = Lab l
     <-> exists j, contains right add_bounds edges j v /\ nth_error labels j = Some l).
Proof.
  intros L tmin tmax right ab edges labels v l Ha Hc. setoid_rewrite <- gcontains_Z.
  apply (g_cut1_label_iff Z.ltb Z.leb _ cutlaws_Z); [apply Forall_True|exact I|apply gascending_Z; exact Ha|exact Hc].
Qed.

(* (2) ... and that interval is unique (from strict sortedness of the edges) *)
Theorem C14_cut_enclosing_bin_unique :
  forall (right add_bounds : bool) (edges : list Z) (j j' : nat) (v : Z),
    ascending edges ->
    contains right add_bounds edges j v -> contains right add_bounds edges j' v -> j = j'.
Proof.
  intros right ab edges j j' v Ha H H'. apply gcontains_Z in H, H'. apply gascending_Z in Ha.
  exact (gcontains_unique Z.ltb Z.leb _ cutlaws_Z right ab edges j j' v (Forall_True _) I Ha H H').
Qed.

(* (3) Err exactly when no interval contains the value: never a label for an outside value, never
       Err for an inside one (no sortedness needed) *)
Theorem C14_cut_err_iff_outside_all_bins :
  forall (L : Type) (tmin tmax : Z) (right add_bounds : bool) (edges : list Z) (labels : list L) (v : Z),
    count_ok add_bounds edges labels = true ->
    (cut1Z tmin tmax right add_bounds edges labels (Some v) = ErrItem
     <-> forall j, ~ contains right add_bounds edges j v).
Proof. intros; setoid_rewrite <- gcontains_Z; apply g_cut1_err_iff; assumption. Qed.

(* (4) totality of the element closure: a label or Err, nothing else (the model has no panic path:
       the only `unwrap` is guarded by `is_none`) *)
Theorem C14_cut_label_or_err :
  forall (L : Type) (tmin tmax : Z) (right add_bounds : bool) (edges : list Z) (labels : list L) (v : Z),
    (exists l, cut1Z tmin tmax right add_bounds edges labels (Some v) = Lab l)
    \/ cut1Z tmin tmax right add_bounds edges labels (Some v) = ErrItem.
Proof. intros; apply g_cut1_cases. Qed.

(* (5) for arbitrary (also unsorted) edges the label is that of the FIRST interval containing v *)
Theorem C14_cut_first_match :
  forall (L : Type) (tmin tmax : Z) (right add_bounds : bool) (edges : list Z) (labels : list L) (v : Z) (l : L),
    count_ok add_bounds edges labels = true ->
    (cut1Z tmin tmax right add_bounds edges labels (Some v) = Lab l
     <-> exists j, contains right add_bounds edges j v /\ nth_error labels j = Some l
                   /\ forall j', (j' < j)%nat -> ~ contains right add_bounds edges j' v).
Proof. intros; setoid_rewrite <- gcontains_Z; apply g_cut1_first_match; assumption. Qed.

(* (6) null gives the null label; items are positional, the output is as long as the input *)
Theorem C14_cut_null_and_positions :
  forall (L : Type) (tmin tmax : Z) (right add_bounds : bool) (edges : list Z) (labels : list L)
         (xs : list (option Z)),
    count_ok add_bounds edges labels = true ->
    cut1Z tmin tmax right add_bounds edges labels None = NullLab
    /\ vcutZ tmin tmax right add_bounds edges labels xs
       = Some (map (cut1Z tmin tmax right add_bounds edges labels) xs).
Proof.
  intros L tmin tmax right ab edges labels xs Hc. split; [reflexivity|]. unfold vcutZ, vcut. rewrite Hc. reflexivity.
Qed.

(* (7) the call is refused (Err, no items at all) exactly when the label count does not match *)
Theorem C14_cut_label_count :
  forall (L : Type) (tmin tmax : Z) (right add_bounds : bool) (edges : list Z) (labels : list L)
         (xs : list (option Z)),
    (vcutZ tmin tmax right add_bounds edges labels xs = None <-> count_ok add_bounds edges labels = false)
    /\ (count_ok add_bounds edges labels = true <->
        if add_bounds then length labels = (length edges + 1)%nat
        else (length labels + 1)%nat = length edges).
Proof.
  intros. split; [|apply count_ok_spec].
  unfold vcutZ, vcut. destruct (count_ok add_bounds edges labels); split; congruence.
Qed.

(* (8) with open outer bounds every non-null value receives a label - for any edges, any T::MIN/MAX *)
Theorem C14_cut_open_bounds_total :
  forall (L : Type) (tmin tmax : Z) (right : bool) (edges : list Z) (labels : list L) (v : Z),
    count_ok true edges labels = true ->
    exists l, cut1Z tmin tmax right true edges labels (Some v) = Lab l.
Proof. intros; apply (g_cut1_open_total Z.ltb Z.leb _ cutlaws_Z); [apply Forall_True|exact I|assumption]. Qed.

Theorem C14_cut_open_bounds_some_bin :
  forall (right : bool) (edges : list Z) (v : Z), exists j, contains right true edges j v.
Proof.
  intros right edges v. setoid_rewrite <- gcontains_Z.
  apply (g_open_bounds_contains Z.ltb Z.leb _ cutlaws_Z); [apply Forall_True|exact I].
Qed.

(* (9) on a run-structured series (a nulls, runs of equal values with neighbouring runs different, b nulls)
       Keep::First returns exactly the first index of each run, Keep::Last the last one, in order *)
Theorem C14_unique_idx_first_runs :
  forall (a b : nat) (runs : list (Z * nat)),
    adjacent_distinct runs -> firstZ (expand a runs b) = starts a runs.
Proof.
  intros a b runs Had. unfold firstZ, uidx_first, expand.
  rewrite first_go_nulls, Nat.add_0_r. apply first_go_runs; [exact Had|].
  destruct runs; cbn; [exact I|discriminate].
Qed.

Theorem C14_unique_idx_last_runs :
  forall (a b : nat) (runs : list (Z * nat)),
    adjacent_distinct runs -> lastZ (expand a runs b) = ends a runs.
Proof.
  intros a b runs Had. unfold lastZ, expand.
  destruct a as [|a].
  - cbn [repeat app]. destruct runs as [|[v n] rs].
    + cbn [flat_map app ends]. destruct b as [|b]; [reflexivity|].
      cbn [repeat uidx_last]. rewrite repeat_snoc. apply last_go_only_nulls.
    + rewrite run_cells_cons. cbn [uidx_last].
      rewrite <- !app_assoc, repeat_snoc.
      apply last_go_runs. exact Had.
  - cbn [repeat app uidx_last].
    rewrite <- !app_assoc. rewrite repeat_snoc, last_go_nulls, Nat.add_0_r.
    destruct runs as [|[v n] rs].
    + cbn [flat_map app ends]. apply last_go_only_nulls.
    + rewrite run_cells_cons. cbn [app uidx_last_go last_is is_some].
      apply last_go_runs. exact Had.
Qed.

(* (10) the unique-value operation returns one representative per run *)
Theorem C14_unique_values_runs :
  forall (a b : nat) (runs : list (Z * nat)),
    adjacent_distinct runs -> uniqZ (expand a runs b) = map fst runs.
Proof.
  intros a b runs Had. unfold uniqZ.
  rewrite (g_uniq_is_values_at_first Z.eqb _ eqlaws_Z _ (okc_Z _)).
  change (uidx_first Z.eqb (expand a runs b)) with (firstZ (expand a runs b)).
  rewrite (C14_unique_idx_first_runs a b runs Had).
  apply cell_vals_runs; [apply starts_length|]. intros k r. apply starts_value.
Qed.

(* (11) the reported indices are strictly ascending ... *)
Theorem C14_unique_idx_ascending :
  forall (a : nat) (runs : list (Z * nat)),
    StronglySorted lt (starts a runs) /\ StronglySorted lt (ends a runs).
Proof. intros; split; [apply starts_sorted|apply ends_sorted]. Qed.

(* (12) ... and the k-th one points at a cell holding the k-th run's value: never the index of a null *)
Theorem C14_unique_idx_never_null :
  forall (a b : nat) (runs : list (Z * nat)) (k : nat) (r : Z * nat),
    nth_error runs k = Some r ->
    nth_error (expand a runs b) (nth k (starts a runs) 0%nat) = Some (Some (fst r))
    /\ nth_error (expand a runs b) (nth k (ends a runs) 0%nat) = Some (Some (fst r))
    /\ length (starts a runs) = length runs /\ length (ends a runs) = length runs.
Proof.
  intros a b runs k r H. split; [apply starts_value; exact H|].
  split; [apply ends_value; exact H|]. split; [apply starts_length|apply ends_length].
Qed.

(* (13) the precondition is exactly "nulls only as a prefix and/or suffix": every such series is
        run-structured (run-length encoding), so (9)-(12) apply to it *)
Theorem C14_runs_decomposition :
  forall xs : list (option Z),
    nulls_at_ends xs -> exists a runs b, xs = expand a runs b /\ adjacent_distinct runs.
Proof.
  intros xs (a & vs & b & ->). exists a, (rle vs), b. split; [|apply rle_adjacent].
  unfold expand. rewrite rle_expand. reflexivity.
Qed.

(* (14) when equal values are adjacent (each value forms one run) the representatives are pairwise
        distinct and are exactly the non-null values of the series *)
Theorem C14_unique_values_distinct_and_complete :
  forall (a b : nat) (runs : list (Z * nat)),
    NoDup (map fst runs) -> adjacent_distinct runs ->
    NoDup (uniqZ (expand a runs b))
    /\ forall v, In v (uniqZ (expand a runs b)) <-> In (Some v) (expand a runs b).
Proof.
  intros a b runs Hnd Had. rewrite (C14_unique_values_runs a b runs Had). split; [exact Hnd|].
  intros v. symmetry. apply In_expand.
Qed.

(* (15) Keep::Last positionally, for EVERY series (nulls anywhere): index i is reported iff cell i is
        non-null and cell i+1 is not the same value; ascending, no repetition *)
Theorem C14_unique_idx_last_positional :
  forall xs : list (option Z),
    lastZ xs = filter (last_of_run_b xs) (seq 0 (length xs))
    /\ forall i, last_of_run_b xs i = true <-> last_of_run xs i.
Proof.
  intros xs. split; [|apply last_of_run_b_spec].
  unfold lastZ. rewrite (g_last_positional Z.eqb _ eqlaws_Z xs (okc_Z xs)).
  apply filter_ext. intros i. apply last_of_run_b_Z.
Qed.

(* (16) Keep::First positionally, when nulls form a prefix and/or suffix: index i is reported iff cell i
        is non-null and cell i-1 (if any) is not the same value *)
Theorem C14_unique_idx_first_positional :
  forall xs : list (option Z),
    nulls_at_ends xs ->
    firstZ xs = filter (first_of_run_b xs) (seq 0 (length xs))
    /\ forall i, first_of_run_b xs i = true <-> first_of_run xs i.
Proof.
  intros xs H. split; [|apply first_of_run_b_spec].
  unfold firstZ. rewrite (g_first_positional Z.eqb _ eqlaws_Z xs (okc_Z xs)).
  apply filter_ext. intros i. apply first_of_run_b_Z. exact H.
Qed.

(* ---- non-vacuity ------------------------------------------------------------------------------- *)

Example C14_ex_cut_premises :
  ascending [2; 5; 8] /\ count_ok true [2; 5; 8] [10; 11; 12; 13] = true /\ count_ok false [2; 5; 8] [10; 11] = true.
Proof. cbn. repeat split; lia. Qed.

Example C14_ex_cut_values :
  let e := [2; 5; 8] in
  vcutZ (-8) 7 true true e [10; 11; 12; 13] [Some 1; Some 2; Some 3; Some 5; Some 8; Some 9; None; Some (-8); Some 7; Some 100]
     = Some [Lab 10; Lab 10; Lab 11; Lab 11; Lab 12; Lab 13; NullLab; Lab 10; Lab 12; Lab 13]
  /\ vcutZ (-8) 7 false true e [10; 11; 12; 13] [Some 2; Some 5; Some 8; Some (-8); Some 7; Some (-100)]
     = Some [Lab 11; Lab 12; Lab 13; Lab 10; Lab 12; Lab 10]
  /\ vcutZ (-8) 7 true false e [10; 11] [Some 2; Some 3; Some 5; Some 8; Some 9; None]
     = Some [ErrItem; Lab 10; Lab 10; Lab 11; ErrItem; NullLab]
  /\ vcutZ (-8) 7 true false e [10; 11; 12] [Some 3] = None.
Proof. vm_compute. auto. Qed.

Example C14_ex_cut_contains :
  contains true true [2; 5; 8] 0 (-8) /\ contains false true [2; 5; 8] 3 8 /\ contains true false [2; 5; 8] 1 8
  /\ (forall j, ~ contains true false [2; 5; 8] j 2).
Proof.
  split; [|split; [|split]].
  - exists NegInf, (Fin 2). cbn. repeat split; try reflexivity; lia.
  - exists (Fin 8), PosInf. cbn. repeat split; try reflexivity; lia.
  - exists (Fin 5), (Fin 8). cbn. repeat split; try reflexivity; lia.
  - intros j (lo & hi & H1 & H2 & H3). destruct j as [|[|[|j]]]; cbn in H1, H2;
      try discriminate; try (destruct j; discriminate);
      injection H1 as <-; injection H2 as <-; cbn in H3; lia.
Qed.

Example C14_ex_unique_premises :
  let runs := [(7, 1%nat); (3, 0%nat); (5, 2%nat)] in
  adjacent_distinct runs /\ NoDup (map fst runs) /\ nulls_at_ends (expand 2 runs 1).
Proof.
  cbv zeta. split; [|split].
  - cbn. repeat split; congruence.
  - cbn. repeat constructor; cbn; intuition congruence.
  - exists 2%nat, [7; 7; 3; 5; 5; 5], 1%nat. reflexivity.
Qed.

Example C14_ex_unique_values :
  let runs := [(7, 1%nat); (3, 0%nat); (5, 2%nat)] in
  expand 2 runs 1 = [None; None; Some 7; Some 7; Some 3; Some 5; Some 5; Some 5; None]
  /\ firstZ (expand 2 runs 1) = [2; 4; 5]%nat
  /\ lastZ (expand 2 runs 1) = [3; 4; 7]%nat
  /\ uniqZ (expand 2 runs 1) = [7; 3; 5]
  /\ lastZ [None; Some 1; Some 1; Some 2] = [2; 3]%nat
  /\ lastZ [Some 1; None; Some 1] = [0; 2]%nat.
Proof. vm_compute. repeat split. Qed.

(* the precondition of (16) is needed: Keep::First does not treat an inner null as a run separator
   (Keep::Last does, see C14_ex_unique_values); outside the property's quantifier *)
Example C14_ex_first_needs_nulls_at_ends :
  firstZ [Some 1; None; Some 1] = [0]%nat
  /\ filter (first_of_run_b [Some 1; None; Some 1]) (seq 0 3) = [0; 2]%nat.
Proof. vm_compute. auto. Qed.

(* (17)-(28): the same statements for EVERY carrier the code is generic over.
   `cut1 ltb leb` / `uidx_first eqb` ... are the model of Model/Binning.v at an arbitrary element type A with its own
   comparisons; `gcontains` / `gascending` (Proofs/Audit14.v) are the specification written with those comparisons over
   the carrier extended by -inf / +inf.  CutLaws / EqLaws = strict weak order / partial equivalence on the non-null
   elements; they hold at Z (i32, i64, u64, usize) and at binary64 (f64; f32 values are binary64 values).        *)
From Coq Require Import Floats.
From Tevec Require Import Base.Num Base.F64 Spec.ExtremaOrd.

(* (17) first match wins and Err iff no interval contains the value: ANY carrier, ANY comparison functions (no order
        law at all: also unsorted / repeated / NaN edges, also Some(NaN) values) *)
Theorem C14_cut_first_match_any_carrier :
  forall (A L : Type) (ltb leb : A -> A -> bool) (tmin tmax : A) (right add_bounds : bool)
         (edges : list A) (labels : list L) (v : A) (l : L),
    count_ok add_bounds edges labels = true ->
    (cut1 ltb leb tmin tmax right add_bounds edges labels (Some v) = Lab l
     <-> exists j, gcontains ltb leb right add_bounds edges j v /\ nth_error labels j = Some l
                   /\ forall j', (j' < j)%nat -> ~ gcontains ltb leb right add_bounds edges j' v).
Proof. intros; apply g_cut1_first_match; assumption. Qed.

Theorem C14_cut_err_iff_any_carrier :
  forall (A L : Type) (ltb leb : A -> A -> bool) (tmin tmax : A) (right add_bounds : bool)
         (edges : list A) (labels : list L) (v : A),
    count_ok add_bounds edges labels = true ->
    (cut1 ltb leb tmin tmax right add_bounds edges labels (Some v) = ErrItem
     <-> forall j, ~ gcontains ltb leb right add_bounds edges j v).
Proof. intros; apply g_cut1_err_iff; assumption. Qed.

(* (18) on an ordered carrier: label j iff interval j contains v; that interval is unique; with open bounds every
        non-null value is labelled (no sortedness needed for the last one) *)
Theorem C14_cut_label_iff_ordered_carrier :
  forall (A L : Type) (ltb leb : A -> A -> bool) (ok : A -> Prop), CutLaws ltb leb ok ->
  forall (tmin tmax : A) (right add_bounds : bool) (edges : list A) (labels : list L) (v : A) (l : L),
    Forall ok edges -> ok v -> gascending ltb edges -> count_ok add_bounds edges labels = true ->
    (cut1 ltb leb tmin tmax right add_bounds edges labels (Some v) = Lab l
     <-> exists j, gcontains ltb leb right add_bounds edges j v /\ nth_error labels j = Some l).
Proof. intros A L ltb leb ok CL; intros; apply (g_cut1_label_iff ltb leb ok CL); assumption. Qed.

Theorem C14_cut_bin_unique_ordered_carrier :
  forall (A : Type) (ltb leb : A -> A -> bool) (ok : A -> Prop), CutLaws ltb leb ok ->
  forall (right add_bounds : bool) (edges : list A) (j j' : nat) (v : A),
    Forall ok edges -> ok v -> gascending ltb edges ->
    gcontains ltb leb right add_bounds edges j v -> gcontains ltb leb right add_bounds edges j' v -> j = j'.
Proof. intros A ltb leb ok CL; intros; eapply (gcontains_unique ltb leb ok CL); eassumption. Qed.

Theorem C14_cut_open_bounds_total_ordered_carrier :
  forall (A L : Type) (ltb leb : A -> A -> bool) (ok : A -> Prop), CutLaws ltb leb ok ->
  forall (tmin tmax : A) (right : bool) (edges : list A) (labels : list L) (v : A),
    Forall ok edges -> ok v ->
    (exists j, gcontains ltb leb right true edges j v) /\
    (count_ok true edges labels = true -> exists l, cut1 ltb leb tmin tmax right true edges labels (Some v) = Lab l).
Proof.
  intros A L ltb leb ok CL tmin tmax right edges labels v Hok Hv. split.
  - apply (g_open_bounds_contains ltb leb ok CL); assumption.
  - intros Hc. apply (g_cut1_open_total ltb leb ok CL); assumption.
Qed.

(* (19) what must NOT happen (any carrier, no law): a label that is not one of the given labels; a result that depends
        on the materialised T::MIN / T::MAX; an output of another length, an item at another position, a null label for
        a non-null value or a non-null label / Err for a null *)
Theorem C14_cut_label_is_a_given_label :
  forall (A L : Type) (ltb leb : A -> A -> bool) (tmin tmax : A) (right add_bounds : bool)
         (edges : list A) (labels : list L) (x : option A) (l : L),
    cut1 ltb leb tmin tmax right add_bounds edges labels x = Lab l -> In l labels.
Proof.
  intros A L ltb leb tmin tmax right ab edges labels x l.
  destruct x as [v|]; [|discriminate]. unfold cut1.
  destruct (scan ltb leb right ab (length labels) v 0 _) as [lab|] eqn:E; [|discriminate].
  intros H. injection H as <-.
  destruct (g_scan_some _ _ _ _ _ _ _ _ _ E) as (k & w & Hn & _).
  rewrite nth_error_combine in Hn.
  destruct (nth_error (windows _) k); [|discriminate].
  destruct (nth_error labels k) as [l'|] eqn:El; [|discriminate].
  injection Hn as _ <-. eapply nth_error_In. exact El.
Qed.

Theorem C14_cut_type_bounds_irrelevant :
  forall (A L : Type) (ltb leb : A -> A -> bool) (tmin tmax tmin' tmax' : A) (right add_bounds : bool)
         (edges : list A) (labels : list L) (x : option A),
    count_ok add_bounds edges labels = true ->
    cut1 ltb leb tmin tmax right add_bounds edges labels x = cut1 ltb leb tmin' tmax' right add_bounds edges labels x.
Proof.
  intros A L ltb leb tmin tmax tmin' tmax' right ab edges labels x Hc. destruct x as [v|]; [|reflexivity].
  destruct (g_cut1_cases ltb leb tmin tmax right ab edges labels v) as [[l H]|H]; rewrite H; symmetry.
  - apply (g_cut1_first_match ltb leb tmin' tmax' right ab edges labels v l Hc).
    apply (g_cut1_first_match ltb leb tmin tmax right ab edges labels v l Hc). exact H.
  - apply (g_cut1_err_iff ltb leb tmin' tmax' right ab edges labels v Hc).
    apply (g_cut1_err_iff ltb leb tmin tmax right ab edges labels v Hc). exact H.
Qed.

Theorem C14_cut_shape_any_carrier :
  forall (A L : Type) (ltb leb : A -> A -> bool) (tmin tmax : A) (right add_bounds : bool)
         (edges : list A) (labels : list L) (xs : list (option A)),
    (vcut ltb leb tmin tmax right add_bounds edges labels xs = None <-> count_ok add_bounds edges labels = false) /\
    (forall its, vcut ltb leb tmin tmax right add_bounds edges labels xs = Some its ->
       length its = length xs /\
       forall i, nth_error its i
                 = option_map (cut1 ltb leb tmin tmax right add_bounds edges labels) (nth_error xs i)) /\
    (forall its i, vcut ltb leb tmin tmax right add_bounds edges labels xs = Some its ->
       (nth_error its i = Some NullLab <-> nth_error xs i = Some None)).
Proof.
  intros A L ltb leb tmin tmax right ab edges labels xs.
  unfold vcut. destruct (count_ok ab edges labels).
  - split; [split; discriminate|]. split.
    + intros its H. injection H as <-. split; [apply map_length|]. intros i. apply nth_error_map.
    + intros its i H. injection H as <-. rewrite nth_error_map.
      destruct (nth_error xs i) as [[v|]|]; cbn [option_map]; split; intros H; try discriminate; try reflexivity.
      exfalso. injection H as H. destruct (scan ltb leb right ab (length labels) v 0 _); discriminate.
  - split; [split; reflexivity|]. split; intros; discriminate.
Qed.

(* (20) the laws hold on the carriers of the code: every `Num` carrier satisfying the order laws of Spec/ExtremaOrd.v
        (the premise used by C03), in particular Z and binary64 *)
Theorem C14_carrier_laws :
  (forall (A : Type) (NA : Num A), OrdLaws A ->
     CutLaws (A := A) nltb nleb num_ok /\ EqLaws (A := A) neqb num_ok) /\
  (CutLaws Z.ltb Z.leb (fun _ => True) /\ EqLaws Z.eqb (fun _ => True)) /\
  (CutLaws PrimFloat.ltb PrimFloat.leb f64_ok /\ EqLaws PrimFloat.eqb f64_ok).
Proof.
  split; [|split].
  - intros A NA H. split; [exact (cutlaws_of_ordlaws H)|exact (eqlaws_of_ordlaws H)].
  - split; [exact cutlaws_Z|exact eqlaws_Z].
  - split; [exact cutlaws_f64|exact eqlaws_f64].
Qed.

(* ... and at Z the generic specification is the integer specification used by (1)-(8) *)
Theorem C14_generic_spec_at_Z :
  forall (right add_bounds : bool) (edges : list Z) (j : nat) (v : Z),
    (gcontains Z.ltb Z.leb right add_bounds edges j v <-> contains right add_bounds edges j v)
    /\ (gascending Z.ltb edges <-> ascending edges).
Proof. intros; split; [apply gcontains_Z|apply gascending_Z]. Qed.

(* (21) binary64 (f64 values / edges; NaN is the null and is excluded from the edges) *)
Theorem C14_cut_label_iff_enclosing_bin_binary64 :
  forall (L : Type) (tmin tmax : float) (right add_bounds : bool) (edges : list float) (labels : list L)
         (v : float) (l : L),
    Forall f64_ok edges -> f64_ok v -> ascendingF edges -> count_ok add_bounds edges labels = true ->
    (cut1F tmin tmax right add_bounds edges labels (Some v) = Lab l
     <-> exists j, containsF right add_bounds edges j v /\ nth_error labels j = Some l).
Proof. intros; apply (g_cut1_label_iff _ _ _ cutlaws_f64); assumption. Qed.

Theorem C14_cut_enclosing_bin_unique_binary64 :
  forall (right add_bounds : bool) (edges : list float) (j j' : nat) (v : float),
    Forall f64_ok edges -> f64_ok v -> ascendingF edges ->
    containsF right add_bounds edges j v -> containsF right add_bounds edges j' v -> j = j'.
Proof. intros; eapply (gcontains_unique _ _ _ cutlaws_f64); eassumption. Qed.

Theorem C14_cut_open_bounds_total_binary64 :
  forall (L : Type) (tmin tmax : float) (right : bool) (edges : list float) (labels : list L) (v : float),
    Forall f64_ok edges -> f64_ok v -> count_ok true edges labels = true ->
    exists l, cut1F tmin tmax right true edges labels (Some v) = Lab l.
Proof. intros; apply (g_cut1_open_total _ _ _ cutlaws_f64); assumption. Qed.

(* the premise "no NaN edge" cannot be dropped (outside the quantifier: "ascending edge vectors") *)
Theorem C14_nan_edge_is_outside_the_property :
  cut1F (L := Z) neg_infinity infinity true true [nan] [100; 101] (Some one) = ErrItem
  /\ count_ok true [nan] [100; 101] = true /\ ~ f64_ok nan.
Proof. split; [vm_compute; reflexivity|]. split; [reflexivity|]. unfold f64_ok. vm_compute. discriminate. Qed.

(* (22) no law at all (any `==`, any series, nulls anywhere): every reported index is a position of the input that
        holds a non-null value - never a null, never out of range - and the indices are strictly ascending *)
Theorem C14_unique_idx_valid_positions :
  forall (A : Type) (eqb : A -> A -> bool) (xs : list (option A)),
    (forall k, In k (uidx_first eqb xs) -> (k < length xs)%nat /\ exists v, nth_error xs k = Some (Some v)) /\
    (forall k, In k (uidx_last eqb xs) -> (k < length xs)%nat /\ exists v, nth_error xs k = Some (Some v)) /\
    StronglySorted lt (uidx_first eqb xs) /\ StronglySorted lt (uidx_last eqb xs).
Proof.
  intros A eqb xs. destruct (g_first_idx_valid eqb xs) as [H1 H2]. destruct (g_last_idx_valid eqb xs) as [H3 H4].
  split; [exact H1|]. split; [exact H3|]. split; assumption.
Qed.

(* (23) Keep::Last positionally on every carrier with an equivalence `==`, for EVERY series *)
Theorem C14_unique_idx_last_positional_any_carrier :
  forall (A : Type) (eqb : A -> A -> bool) (ok : A -> Prop), EqLaws eqb ok ->
  forall xs : list (option A), Forall (okc ok) xs ->
    uidx_last eqb xs = filter (g_last_of_run_b eqb xs) (seq 0 (length xs))
    /\ forall i, g_last_of_run_b eqb xs i = true <->
                 exists v, nth_error xs i = Some (Some v)
                           /\ forall u, nth_error xs (S i) = Some (Some u) -> eqb v u = false.
Proof.
  intros A eqb ok EL xs Hok. split; [apply (g_last_positional eqb ok EL); exact Hok|].
  intros i. apply g_last_of_run_b_spec.
Qed.

(* (24) Keep::First positionally for EVERY series (the hypothesis `nulls_at_ends` of (16) dropped): index i is
        reported iff cell i is non-null and the NEAREST NON-NULL cell before it (if any) does not hold an equal value;
        `last_valid` is that cell *)
Theorem C14_unique_idx_first_positional_any_series :
  forall (A : Type) (eqb : A -> A -> bool) (ok : A -> Prop), EqLaws eqb ok ->
  forall xs : list (option A), Forall (okc ok) xs ->
    uidx_first eqb xs = filter (g_first_b eqb xs) (seq 0 (length xs))
    /\ forall i, g_first_b eqb xs i = true <->
                 exists v, nth_error xs i = Some (Some v)
                           /\ forall p, last_valid (firstn i xs) None = Some p -> eqb p v = false.
Proof.
  intros A eqb ok EL xs Hok. split; [apply (g_first_positional eqb ok EL); exact Hok|].
  intros i. apply g_first_b_spec.
Qed.

Theorem C14_nearest_non_null_cell :
  forall (A : Type) (l : list (option A)) (p : A),
    last_valid l None = Some p <->
    exists j, nth_error l j = Some (Some p)
              /\ forall k, (j < k)%nat -> (k < length l)%nat -> nth_error l k = Some None.
Proof. intros; apply last_valid_spec. Qed.

(* (25) vsorted_unique returns exactly the values held at the Keep::First indices, in order - for EVERY series: one
        representative per reported index, each of them a value of the input *)
Theorem C14_unique_values_are_first_cells :
  forall (A : Type) (eqb : A -> A -> bool) (ok : A -> Prop), EqLaws eqb ok ->
  forall xs : list (option A), Forall (okc ok) xs ->
    vsorted_unique eqb xs = flat_map (cell_vals xs) (uidx_first eqb xs)
    /\ length (vsorted_unique eqb xs) = length (uidx_first eqb xs)
    /\ forall v, In v (vsorted_unique eqb xs) -> In (Some v) xs.
Proof.
  intros A eqb ok EL xs Hok. split; [apply (g_uniq_is_values_at_first eqb ok EL); exact Hok|].
  split; [apply (g_uniq_length eqb ok EL); exact Hok|].
  intros v. apply (g_uniq_values_from_input eqb ok EL); exact Hok.
Qed.

(* (26) the instances: integers - every series whatsoever; binary64 - every series without Some(NaN) *)
Theorem C14_unique_positional_integer_any_series :
  forall xs : list (option Z),
    firstZ xs = filter (g_first_b Z.eqb xs) (seq 0 (length xs))
    /\ lastZ xs = filter (g_last_of_run_b Z.eqb xs) (seq 0 (length xs))
    /\ uniqZ xs = flat_map (cell_vals xs) (firstZ xs).
Proof.
  intros xs.
  split; [exact (g_first_positional Z.eqb _ eqlaws_Z xs (okc_Z xs))|].
  split; [exact (g_last_positional Z.eqb _ eqlaws_Z xs (okc_Z xs))|].
  exact (g_uniq_is_values_at_first Z.eqb _ eqlaws_Z xs (okc_Z xs)).
Qed.

Theorem C14_unique_positional_binary64 :
  forall xs : list (option float), Forall okcF xs ->
    uidx_first PrimFloat.eqb xs = filter (g_first_b PrimFloat.eqb xs) (seq 0 (length xs))
    /\ uidx_last PrimFloat.eqb xs = filter (g_last_of_run_b PrimFloat.eqb xs) (seq 0 (length xs))
    /\ vsorted_unique PrimFloat.eqb xs = flat_map (cell_vals xs) (uidx_first PrimFloat.eqb xs).
Proof.
  intros xs Hok.
  split; [exact (g_first_positional PrimFloat.eqb _ eqlaws_f64 xs Hok)|].
  split; [exact (g_last_positional PrimFloat.eqb _ eqlaws_f64 xs Hok)|].
  exact (g_uniq_is_values_at_first PrimFloat.eqb _ eqlaws_f64 xs Hok).
Qed.

(* (27) the inputs the quantifier excludes, as the code treats them (model `vcut_call`, compared with the real code on
        Option<i32> edge vectors holding None at every position): the label-count guard comes FIRST - a count that does
        not match is Err, never a panic, whatever the edges hold; with a matching count a null edge of an Option<_> edge
        vector panics at call time (Option::unwrap on None); without null edges the call is `vcut` on the unwrapped edges *)
Theorem C14_cut_call_guard_first_then_null_edges :
  forall (A L : Type) (ltb leb : A -> A -> bool) (tmin tmax : A) (right add_bounds : bool)
         (edges : list (option A)) (labels : list L) (xs : list (option A)),
    (count_ok add_bounds edges labels = false ->
       vcut_call ltb leb tmin tmax right add_bounds edges labels xs = Ok None) /\
    (count_ok add_bounds edges labels = true -> In None edges ->
       vcut_call ltb leb tmin tmax right add_bounds edges labels xs = Panic UnwrapNone) /\
    (forall es, edges = map Some es ->
       vcut_call ltb leb tmin tmax right add_bounds edges labels xs
       = Ok (vcut ltb leb tmin tmax right add_bounds es labels xs)).
Proof.
  intros A L ltb leb tmin tmax right ab edges labels xs.
  unfold vcut_call, vcut. split; [intros ->; reflexivity|]. split.
  - intros -> Hn. apply unwrap_all_none in Hn. rewrite Hn. reflexivity.
  - intros es ->. unfold count_ok. rewrite map_length.
    destruct (if ab then _ else _); [|reflexivity].
    rewrite (proj2 (unwrap_all_some (map Some es) es) eq_refl). reflexivity.
Qed.

(* (28) a label type WITHOUT a null (i32 labels): the iteration unwinds (T2::none() panics, DESIGN 5.4) exactly when the
        input holds a null value; with a nullable label type nothing ever unwinds *)
Theorem C14_cut_label_type_without_null :
  forall (A L : Type) (ltb leb : A -> A -> bool) (tmin tmax : A) (nullable right add_bounds : bool)
         (es : list A) (labels : list L) (xs : list (option A)),
    collect_items nullable (map (cut1 ltb leb tmin tmax right add_bounds es labels) xs) =
    if negb nullable && existsb (fun x => match x with None => true | Some _ => false end) xs
    then Panic OtherPanic else Ok (map (cut1 ltb leb tmin tmax right add_bounds es labels) xs).
Proof.
  intros A L ltb leb tmin tmax nullable right ab es labels xs.
  unfold collect_items.
  assert (E : existsb item_is_null (map (cut1 ltb leb tmin tmax right ab es labels) xs)
              = existsb (fun x => match x with None => true | Some _ => false end) xs).
  { induction xs as [|x r IH]; [reflexivity|]. cbn [map existsb]. rewrite IH. f_equal.
    destruct x as [v|]; [|reflexivity].
    destruct (g_cut1_cases ltb leb tmin tmax right ab es labels v) as [[l El]|El]; rewrite El; reflexivity. }
  rewrite E. reflexivity.
Qed.

Example C14_ex_cut_call :
  vcut_call Z.ltb Z.leb (-8) 7 true true [Some 2; None] [10; 11] [Some 1] = Ok None
  /\ vcut_call Z.ltb Z.leb (-8) 7 true true [Some 2; None] [10; 11; 12] [Some 1] = Panic UnwrapNone
  /\ vcut_call Z.ltb Z.leb (-8) 7 true true [Some 2; Some 5] [10; 11; 12] [Some 1; None]
     = Ok (Some [Lab 10; NullLab])
  /\ collect_items false [Lab 10; @NullLab Z] = Panic OtherPanic
  /\ collect_items true [Lab 10; @NullLab Z] = Ok [Lab 10; NullLab].
Proof. vm_compute. repeat split. Qed.

(* ---- non-vacuity of (17)-(28) ---------------------------------------------------------------------- *)

(* premises of (18)/(21) at binary64, with a value on an edge, -0.0 against the edge 0.0, and +-inf under open bounds *)
Example C14_ex_binary64_premises_and_values :
  let e := [(-1.5)%float; 0%float; 2.25%float] in
  Forall f64_ok e /\ ascendingF e /\ count_ok true e [10; 11; 12; 13] = true /\ f64_ok (-0)%float /\ f64_ok infinity
  /\ map (cut1F neg_infinity infinity true true e [10; 11; 12; 13])
         [Some (-0)%float; Some 0%float; Some 2.25%float; Some infinity; Some neg_infinity; Some 1e300%float; None]
     = [Lab 11; Lab 11; Lab 12; Lab 13; Lab 10; Lab 13; NullLab]
  /\ map (cut1F neg_infinity infinity false true e [10; 11; 12; 13])
         [Some (-0)%float; Some 0%float; Some 2.25%float; Some infinity; Some neg_infinity]
     = [Lab 12; Lab 12; Lab 13; Lab 13; Lab 10].
Proof.
  cbv zeta. split; [repeat constructor|]. split; [vm_compute; auto|]. split; [reflexivity|].
  split; [reflexivity|]. split; [reflexivity|]. split; vm_compute; reflexivity.
Qed.

Example C14_ex_containsF :
  containsF true true [(-1.5)%float; 0%float; 2.25%float] 1 (-0)%float
  /\ containsF false false [(-1.5)%float; 0%float; 2.25%float] 1 0%float.
Proof.
  split.
  - exists (GFin (-1.5)%float), (GFin 0%float). repeat split.
  - exists (GFin 0%float), (GFin 2.25%float). repeat split.
Qed.

(* (24) on a series with an inner null: First does not treat the null as a separator, Last does; (25) *)
Example C14_ex_unique_inner_null :
  let xs := [Some 1; None; Some 1; Some 2; None; None; Some 2; Some 3] in
  firstZ xs = [0; 3; 7]%nat /\ filter (g_first_b Z.eqb xs) (seq 0 (length xs)) = [0; 3; 7]%nat
  /\ lastZ xs = [0; 2; 3; 6; 7]%nat /\ filter (g_last_of_run_b Z.eqb xs) (seq 0 (length xs)) = [0; 2; 3; 6; 7]%nat
  /\ uniqZ xs = [1; 2; 3] /\ flat_map (cell_vals xs) (firstZ xs) = [1; 2; 3]
  /\ last_valid (firstn 6 xs) None = Some 2.
Proof. vm_compute. repeat split. Qed.

Example C14_ex_unique_binary64 :
  let xs := [None; Some (-0)%float; Some 0%float; Some 1.5%float; Some infinity; Some infinity; None] in
  Forall okcF xs
  /\ uidx_first PrimFloat.eqb xs = [1; 3; 4]%nat /\ uidx_last PrimFloat.eqb xs = [2; 3; 5]%nat
  /\ vsorted_unique PrimFloat.eqb xs = [(-0)%float; 1.5%float; infinity].
Proof.
  cbv zeta. split; [repeat constructor|]. vm_compute. repeat split.
Qed.

Print Assumptions C14_cut_label_iff_enclosing_bin.
Print Assumptions C14_cut_enclosing_bin_unique.
Print Assumptions C14_cut_err_iff_outside_all_bins.
Print Assumptions C14_cut_label_or_err.
Print Assumptions C14_cut_first_match.
Print Assumptions C14_cut_null_and_positions.
Print Assumptions C14_cut_label_count.
Print Assumptions C14_cut_open_bounds_total.
Print Assumptions C14_cut_open_bounds_some_bin.
Print Assumptions C14_unique_idx_first_runs.
Print Assumptions C14_unique_idx_last_runs.
Print Assumptions C14_unique_values_runs.
Print Assumptions C14_unique_idx_ascending.
Print Assumptions C14_unique_idx_never_null.
Print Assumptions C14_runs_decomposition.
Print Assumptions C14_unique_values_distinct_and_complete.
Print Assumptions C14_unique_idx_last_positional.
Print Assumptions C14_unique_idx_first_positional.
Print Assumptions C14_cut_first_match_any_carrier.
Print Assumptions C14_cut_err_iff_any_carrier.
Print Assumptions C14_cut_label_iff_ordered_carrier.
Print Assumptions C14_cut_bin_unique_ordered_carrier.
Print Assumptions C14_cut_open_bounds_total_ordered_carrier.
Print Assumptions C14_cut_label_is_a_given_label.
Print Assumptions C14_cut_type_bounds_irrelevant.
Print Assumptions C14_cut_shape_any_carrier.
Print Assumptions C14_carrier_laws.
Print Assumptions C14_generic_spec_at_Z.
Print Assumptions C14_cut_label_iff_enclosing_bin_binary64.
Print Assumptions C14_cut_enclosing_bin_unique_binary64.
Print Assumptions C14_cut_open_bounds_total_binary64.
Print Assumptions C14_nan_edge_is_outside_the_property.
Print Assumptions C14_unique_idx_valid_positions.
Print Assumptions C14_unique_idx_last_positional_any_carrier.
Print Assumptions C14_unique_idx_first_positional_any_series.
Print Assumptions C14_nearest_non_null_cell.
Print Assumptions C14_unique_values_are_first_cells.
Print Assumptions C14_unique_positional_integer_any_series.
Print Assumptions C14_unique_positional_binary64.
Print Assumptions C14_cut_call_guard_first_then_null_edges.
Print Assumptions C14_cut_label_type_without_null.
