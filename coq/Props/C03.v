(* Props/C03.v — property C03: rolling extrema, arg-extrema, rank and normalisation are exact per window.
   Extrema / arg-extrema / rank counts: integer carrier, ANY null dictionary
   (Option<i32>, never-null i32, ...), every series of length >= 1, window >= 1, min_periods, position, both
   driver bodies; axiom-free.  Rank value, min-max normalisation, z-score: carrier XR = option R (exact
   reals + one absorbing NaN); only the standard-library Reals axioms.  (7): the order theorems at every
   ordered carrier and at binary64.  (A1)-(A13): window 0, the empty series, window and min_periods beyond the
   length, ties, dead code of ts_vminmaxnorm, ts_vzscore at every carrier.                                *)
From Coq Require Import ZArith List Reals.
From Tevec Require Import Base.Prelude Base.Num Base.XR Model.Driver Proofs.Driver Model.Cmp Spec.Extrema
     Proofs.IdxRun Proofs.Cmp Proofs.RollRank Spec.Stats Model.Features Model.Norm Proofs.Norm Proofs.MinMax
     Spec.ExtremaOrd Proofs.CmpOrd Proofs.RollRankOrd Proofs.CmpOrdInst.
Import ListNotations.

(* the comparisons of isnone.rs at the integer carrier are the null-last order *)
Theorem C03_sort_cmp_nulls_last :
  forall a b : option Z,
    sort_cmp a b = ocmp a b /\ sort_cmp_rev a b = ocmp (option_map Z.opp a) (option_map Z.opp b).
Proof. intros a b. split; [apply sort_cmp_Z|apply sort_cmp_rev_Z]. Qed.

(* (1) rolling minimum / maximum = least / greatest non-null element of the window, null when it has none,
   masked below min_periods (the effective min_periods uses the clamped window, DESIGN 5.3) *)
Theorem C03_ts_vmin :
  forall (T : Type) (DT : IsNone T Z) (body : bool) (w : nat) (mp : option nat) (xs : list T),
    1 <= w -> 1 <= length xs ->
    exists out, ts_vmin body w mp xs = Done out /\ length out = length xs /\
      forall i, i < length xs ->
        nth_error out i =
        Some (let V := validZ (win w i (map to_opt xs)) in
              if cmp_mp mp (cmp_window w xs) <=? length V then list_min V else None).
Proof. intros T DT. exact ts_vmin_spec. Qed.

Theorem C03_ts_vmax :
  forall (T : Type) (DT : IsNone T Z) (body : bool) (w : nat) (mp : option nat) (xs : list T),
    1 <= w -> 1 <= length xs ->
    exists out, ts_vmax body w mp xs = Done out /\ length out = length xs /\
      forall i, i < length xs ->
        nth_error out i =
        Some (let V := validZ (win w i (map to_opt xs)) in
              if cmp_mp mp (cmp_window w xs) <=? length V then list_max V else None).
Proof. intros T DT. exact ts_vmax_spec. Qed.

(* (2) rolling arg-min / arg-max = 1-based offset from the window start of the LAST position holding the
   extreme; null when the window has no valid element or below min_periods *)
Theorem C03_ts_vargmin :
  forall (T : Type) (DT : IsNone T Z) (body : bool) (w : nat) (mp : option nat) (xs : list T),
    1 <= w -> 1 <= length xs ->
    exists out, ts_vargmin body w mp xs = Done out /\ length out = length xs /\
      forall i, i < length xs ->
        nth_error out i =
        Some (let W := win w i (map to_opt xs) in
              if cmp_mp mp (cmp_window w xs) <=? length (validZ W) then argmin_spec W else None).
Proof. intros T DT. exact ts_vargmin_spec. Qed.

Theorem C03_ts_vargmax :
  forall (T : Type) (DT : IsNone T Z) (body : bool) (w : nat) (mp : option nat) (xs : list T),
    1 <= w -> 1 <= length xs ->
    exists out, ts_vargmax body w mp xs = Done out /\ length out = length xs /\
      forall i, i < length xs ->
        nth_error out i =
        Some (let W := win w i (map to_opt xs) in
              if cmp_mp mp (cmp_window w xs) <=? length (validZ W) then argmax_spec W else None).
Proof. intros T DT. exact ts_vargmax_spec. Qed.

(* what argmin_spec means: the window position it names holds the minimum, and no later one does *)
Theorem C03_argmin_spec_meaning :
  forall (W : list (option Z)) (o : nat),
    argmin_spec W = Some o ->
    exists m, list_min (validZ W) = Some m /\ 1 <= o /\ last_pos m W = Some (o - 1).
Proof.
  intros W o. apply (offset_meaning (list_min (validZ W)) (fun m => last_pos m W)).
Qed.

(* (3) the cached-extreme invariant: after k steps of ANY history the count is that of the positions the
   next window keeps and the cached (value, index) is the LAST position of the null-last minimum (key x = x)
   or maximum (key x = -x) of the window just left ...                                                   *)
Theorem C03_cached_extreme_invariant :
  forall (T : Type) (DT : IsNone T Z) (scmp : option Z -> option Z -> comparison) (key : Z -> Z),
    (forall a b, scmp a b = ocmp (option_map key a) (option_map key b)) ->
    forall (w : nat) (mp : option nat) (xs : list T) (k : nat),
      1 <= w -> 1 <= length xs -> k <= length xs ->
      let wd := cmp_window w xs in
      exists s,
        state_after (lift_cb (vext_cb scmp (cmp_mp mp wd) xs)) (Ok ext0)
                    (firstn k (mapi (fun i v => (start_of wd i, i, v)) xs)) = Ok s /\
        PreExt key xs wd k s.
Proof. intros T DT scmp key H w mp xs k. exact (ext_cache_invariant_Z scmp key H xs w mp k). Qed.

(* ... hence, when the next step begins, the cached index is either still inside the window (and is the last
   extreme of what remains of it) or stale, i.e. strictly before the new start — which is exactly the code's
   expiry test `min_idx < start` *)
Theorem C03_cache_fresh_or_stale :
  forall (T : Type) (DT : IsNone T Z) (key : Z -> Z) (xs : list T) (wd k : nat) (s : ext),
    1 <= wd -> 0 < k -> PreExt key xs wd k s ->
    exists p, x_idx s = Some p /\ x_val s = ov xs p /\
              ((wstart wd k <= p /\ lm key xs (wstart wd k) k p) \/
               (p < wstart wd k /\ opt_lt (x_idx s) (start_of wd k) = true)).
Proof. intros T DT key xs wd k s. exact (cache_fresh_or_stale (fun a b => ocmp (option_map key a) (option_map key b)) xs wd k s). Qed.

(* (4) rolling rank: the recount loop yields exactly the numbers of smaller and of equal valid elements ... *)
Theorem C03_rank_counts :
  forall (T : Type) (DT : IsNone T Z) (xs : list T) (x : Z) (cnt i : nat) (r : R) (nrep : nat),
    i + cnt <= length xs ->
    rank_loop (B := XR) xs x i cnt (Some r) nrep =
    Ok (Some (r + INR (count_lt x (validZ (seg i (i + cnt) (map to_opt xs)))))%R,
        nrep + count_eq x (validZ (seg i (i + cnt) (map to_opt xs)))).
Proof. intros T DT xs x. exact (g_rank_loop_spec ordlaws_Z xs (fun v _ => okv_Z _) x eq_refl). Qed.

(* ... and the output is the average rank of the current element among the valid elements of its window
   (V' = valid window without the current element): #smaller + 1 + #equal / 2, reversed (n + 1) - that,
   divided by n = |V'| + 1 with pct; null when the current element is null or below min_periods *)
Theorem C03_ts_vrank :
  forall (T : Type) (DT : IsNone T Z) (body : bool) (w : nat) (mp : option nat) (pct rev : bool)
         (xs : list T),
    1 <= w -> 1 <= length xs ->
    exists out, ts_vrank (B := XR) body w mp pct rev xs = Done out /\ length out = length xs /\
      forall i, i < length xs ->
        nth_error out i =
        Some (match nth_error (map to_opt xs) i with
              | Some (Some x) =>
                  let V' := validZ (seg (wstart w i) i (map to_opt xs)) in
                  if cmp_mp mp (cmp_window w xs) <=? S (length V') then Some (avg_rank pct rev x V')
                  else None
              | _ => None
              end).
Proof. intros T DT. exact ts_vrank_spec. Qed.

(* the reversed rank is the ascending rank counted from the other end *)
Theorem C03_rank_rev_is_descending :
  forall (x : Z) (V' : list Z),
    avg_rank false true x V' = (1 + INR (count_gt x V') + INR (count_eq x V') / 2)%R.
Proof. intros x V'. apply (g_avg_rank_rev_gt x V' ordlaws_Z eq_refl). apply Forall_forall. reflexivity. Qed.

(* (5) z-score = (x - mean) / sample-std over the non-null window; null when x is null, below min_periods
   (min(min_periods or w/2, w)), or the spread is zero in the code's sense: population variance <= EPS *)
Theorem C03_ts_vzscore :
  forall (body : bool) (w : nat) (mp : option nat) (xs : list XR), 1 <= w ->
    exists out, ts_vzscore body w mp xs = Done out /\ length out = length xs /\
      forall i, i < length xs ->
        nth_error out i =
        Some (match nth_error xs i with
              | Some (Some x) =>
                  let V := valid (win w i xs) in
                  if mp_eff mp w 0 <=? length V then
                    (if Rlt_dec EPS (popvarR V) then Some ((x - meanR V) / samplestdR V)%R else None)
                  else None
              | _ => None
              end).
Proof. exact ts_vzscore_spec. Qed.

(* (6) min-max normalisation = (x - min) / (max - min) over the non-null window (tmin / tmax: the sentinels
   T::Inner::min_() / max_(), every element within them — DESIGN 5.2); null when x is null, max = min, or below
   min_periods.  The window is NOT clamped here and the two driver bodies differ in the start index they pass at
   the last position when w > len; the theorem covers both. *)
Theorem C03_ts_vminmaxnorm :
  forall (lo hi : R) (body : bool) (w : nat) (mp : option nat) (xs : list XR), 1 <= w ->
    (forall r, In (Some r) xs -> (lo <= r <= hi)%R) ->
    exists out, ts_vminmaxnorm (Some lo) (Some hi) body w mp xs = Done out /\ length out = length xs /\
      forall i, i < length xs ->
        nth_error out i =
        Some (match nth_error xs i with
              | Some (Some x) =>
                  let V := valid (win w i xs) in
                  if mp_eff mp w 0 <=? length V then
                    (if Req_EM_T (lmaxR V) (lminR V) then None
                     else Some ((x - lminR V) / (lmaxR V - lminR V))%R)
                  else None
              | _ => None
              end).
Proof. exact ts_vminmaxnorm_spec. Qed.

(* lmaxR / lminR are the greatest / least element *)
Theorem C03_lmaxR_lminR_meaning :
  forall (l : list R) (m : R), In m l ->
    ((forall a, In a l -> (a <= m)%R) -> lmaxR l = m) /\ ((forall a, In a l -> (m <= a)%R) -> lminR l = m).
Proof. intros l m Hin. split; intros H; [apply lmaxR_spec|apply lminR_spec]; assumption. Qed.

Definition Dopt : IsNone (option Z) Z := IsNone_option.

(* ties, a null, an expiring extreme, an all-null window *)
Example C03_example_argmin :
  ts_vargmin (DT := Dopt) true 2 (Some 0)
             [Some 1%Z; Some 1%Z; None; None; Some 3%Z; Some 2%Z] =
  Done [Some 1; Some 2; Some 1; None; Some 2; Some 2].
Proof. vm_compute. reflexivity. Qed.
Example C03_example_argmin_spec :
  map (fun i => argmin_spec (win 2 i [Some 1%Z; Some 1%Z; None; None; Some 3%Z; Some 2%Z])) (seq 0 6) =
  [Some 1; Some 2; Some 1; None; Some 2; Some 2].
Proof. vm_compute. reflexivity. Qed.
Example C03_example_min_max :
  ts_vmin (DT := Dopt) false 3 None [Some 2%Z; None; Some 1%Z; Some 5%Z; Some 5%Z] =
    Done [Some 2%Z; Some 2%Z; Some 1%Z; Some 1%Z; Some 1%Z] /\
  ts_vmax (DT := Dopt) false 3 None [Some 2%Z; None; Some 1%Z; Some 5%Z; Some 5%Z] =
    Done [Some 2%Z; Some 2%Z; Some 2%Z; Some 5%Z; Some 5%Z].
Proof. vm_compute. split; reflexivity. Qed.
Example C03_example_invariant_premise :
  forall a b : option Z, sort_cmp a b = ocmp (option_map (fun x => x) a) (option_map (fun x => x) b).
Proof. intros a b. rewrite sort_cmp_Z. destruct a, b; reflexivity. Qed.

Example C03_example_minmaxnorm_premise :
  forall r, In (Some r) [Some 1%R; None; Some 3%R] -> (0 <= r <= 4)%R.
Proof. intros r [H|[H|[H|[]]]]; try discriminate; injection H as <-; split; Lra.lra. Qed.

(* ==== (7) EVERY ordered carrier, not only integers ====================================================
   The extrema / arg-extrema / cache-invariant / rank theorems above only use that Z is totally ordered.
   Below they are stated for ANY carrier A (Num A) whose comparisons satisfy the record
   Spec/ExtremaOrd.OrdLaws on the non-NaN elements (nltb asymmetric and co-transitive = a strict weak order,
   neqb its equivalence, nleb the complement of the converse), ANY null dictionary IsNone T A, and any series
   whose valid elements are not NaN (valid_not_nan: automatic for integers and for the float-like dictionary
   where NaN is the null; for Option<f64> it excludes Some(NaN), DESIGN 5.4).  The specification uses the
   carrier's own comparisons: gmin / gmax = ext_last nltb / ngtb (the LAST among equivalent extremes — this
   matters only when neqb is coarser than Leibniz equality, e.g. +0 / -0), glast_pos, gargmin_spec, gcount_lt/eq.
   The laws are proved for Z and for option R (hence the theorems are non-vacuous twice) and, from the standard
   library's FloatAxioms, for binary64 (Proofs/CmpOrdFloat.v; the `_binary64` theorems below, see notes/C03.md). *)

(* the laws hold for the integer carrier and for the exact reals with one NaN; there neqb is Leibniz equality *)
Theorem C03_order_laws_Z : OrdLaws Z /\ OrdStrict Z.
Proof. exact (conj ordlaws_Z ordstrict_Z). Qed.
Theorem C03_order_laws_real : OrdLaws XR /\ OrdStrict XR.
Proof. exact (conj ordlaws_XR ordstrict_XR). Qed.

(* isnone.rs sort_cmp / sort_cmp_rev are the null-last orders of the carrier's `<` and of its converse *)
Theorem C03_sort_cmp_nulls_last_ordered :
  forall (A : Type) (NA : Num A), OrdLaws A ->
  forall a b : option A, okv a -> okv b ->
    sort_cmp a b = gocmp nltb a b /\ sort_cmp_rev a b = gocmp ngtb a b.
Proof. intros A NA OL a b Ha Hb. split; [apply sort_cmp_ord|apply sort_cmp_rev_ord]; assumption. Qed.

Theorem C03_ts_vmin_ordered :
  forall (A : Type) (NA : Num A), OrdLaws A ->
  forall (T : Type) (DT : IsNone T A) (body : bool) (w : nat) (mp : option nat) (xs : list T),
    valid_not_nan xs -> 1 <= w -> 1 <= length xs ->
    exists out, ts_vmin body w mp xs = Done out /\ length out = length xs /\
      forall i, i < length xs ->
        nth_error out i =
        Some (let V := gvalid (win w i (map to_opt xs)) in
              if cmp_mp mp (cmp_window w xs) <=? length V then gmin V else None).
Proof. intros A NA OL T DT. exact (ts_vmin_ord OL). Qed.

Theorem C03_ts_vmax_ordered :
  forall (A : Type) (NA : Num A), OrdLaws A ->
  forall (T : Type) (DT : IsNone T A) (body : bool) (w : nat) (mp : option nat) (xs : list T),
    valid_not_nan xs -> 1 <= w -> 1 <= length xs ->
    exists out, ts_vmax body w mp xs = Done out /\ length out = length xs /\
      forall i, i < length xs ->
        nth_error out i =
        Some (let V := gvalid (win w i (map to_opt xs)) in
              if cmp_mp mp (cmp_window w xs) <=? length V then gmax V else None).
Proof. intros A NA OL T DT. exact (ts_vmax_ord OL). Qed.

Theorem C03_ts_vargmin_ordered :
  forall (A : Type) (NA : Num A), OrdLaws A ->
  forall (T : Type) (DT : IsNone T A) (body : bool) (w : nat) (mp : option nat) (xs : list T),
    valid_not_nan xs -> 1 <= w -> 1 <= length xs ->
    exists out, ts_vargmin body w mp xs = Done out /\ length out = length xs /\
      forall i, i < length xs ->
        nth_error out i =
        Some (let W := win w i (map to_opt xs) in
              if cmp_mp mp (cmp_window w xs) <=? length (gvalid W) then gargmin_spec W else None).
Proof. intros A NA OL T DT. exact (ts_vargmin_ord OL). Qed.

Theorem C03_ts_vargmax_ordered :
  forall (A : Type) (NA : Num A), OrdLaws A ->
  forall (T : Type) (DT : IsNone T A) (body : bool) (w : nat) (mp : option nat) (xs : list T),
    valid_not_nan xs -> 1 <= w -> 1 <= length xs ->
    exists out, ts_vargmax body w mp xs = Done out /\ length out = length xs /\
      forall i, i < length xs ->
        nth_error out i =
        Some (let W := win w i (map to_opt xs) in
              if cmp_mp mp (cmp_window w xs) <=? length (gvalid W) then gargmax_spec W else None).
Proof. intros A NA OL T DT. exact (ts_vargmax_ord OL). Qed.

(* what gmin / gmax mean: an element of the list that no element beats (ltb = nltb: minimum, ngtb: maximum);
   when neqb is Leibniz equality (Z, option R) this determines it *)
Theorem C03_extreme_meaning :
  forall (A : Type) (NA : Num A), OrdLaws A ->
  forall (l : list A), Forall num_ok l ->
    (forall m, gmin l = Some m -> In m l /\ forall a, In a l -> nltb a m = false) /\
    (forall m, gmax l = Some m -> In m l /\ forall a, In a l -> nltb m a = false) /\
    (OrdStrict A -> forall m, In m l ->
       ((forall a, In a l -> nltb a m = false) -> gmin l = Some m) /\
       ((forall a, In a l -> nltb m a = false) -> gmax l = Some m)).
Proof.
  intros A NA OL l Hl. split; [|split].
  - intros m. apply (ext_last_sound nltb (dir_lt OL) l Hl).
  - intros m. apply (ext_last_sound ngtb (dir_gt OL) l Hl).
  - intros HS m Hm. split; intros H.
    + apply (ext_last_spec nltb (dir_lt OL) l m HS Hl Hm H).
    + apply (ext_last_spec ngtb (dir_gt OL) l m HS Hl Hm H).
Qed.

(* what gargmin_spec means: the window position it names holds the extreme, and it is the last such *)
Theorem C03_gargmin_spec_meaning :
  forall (A : Type) (NA : Num A) (W : list (option A)) (o : nat),
    gargmin_spec W = Some o ->
    exists m, gmin (gvalid W) = Some m /\ 1 <= o /\ glast_pos m W = Some (o - 1).
Proof.
  intros A NA W o. apply (offset_meaning (gmin (gvalid W)) (fun m => glast_pos m W)).
Qed.

(* the cached-extreme invariant for any direction ltb of any ordered carrier (minima: nltb with sort_cmp,
   maxima: ngtb with sort_cmp_rev) ... *)
Theorem C03_cached_extreme_invariant_ordered :
  forall (A : Type) (NA : Num A) (T : Type) (DT : IsNone T A) (ltb : A -> A -> bool), DirLaws ltb ->
  forall scmp : option A -> option A -> comparison,
    (forall a b, okv a -> okv b -> scmp a b = gocmp ltb a b) ->
    forall (w : nat) (mp : option nat) (xs : list T) (k : nat),
      (forall v, In v xs -> okv (to_opt v)) ->
      1 <= w -> 1 <= length xs -> k <= length xs ->
      let wd := cmp_window w xs in
      exists s,
        state_after (lift_cb (vext_cb scmp (cmp_mp mp wd) xs)) (Ok ext0)
                    (firstn k (mapi (fun i v => (start_of wd i, i, v)) xs)) = Ok s /\
        GPre ltb xs wd k s.
Proof. intros A NA T DT ltb DL scmp H w mp xs k. exact (g_ext_cache_invariant ltb DL scmp H w mp xs k). Qed.

(* ... and the expiry test (no law needed: arithmetic on the cached index) *)
Theorem C03_cache_fresh_or_stale_ordered :
  forall (A T : Type) (DT : IsNone T A) (ltb : A -> A -> bool) (xs : list T) (wd k : nat) (s : ext),
    1 <= wd -> 0 < k -> GPre ltb xs wd k s ->
    exists p, x_idx s = Some p /\ x_val s = gov xs p /\
              ((wstart wd k <= p /\ glm ltb xs (wstart wd k) k p) \/
               (p < wstart wd k /\ opt_lt (x_idx s) (start_of wd k) = true)).
Proof. intros A T DT ltb xs wd k s. exact (cache_fresh_or_stale (gocmp ltb) xs wd k s). Qed.

(* both directions instantiate the invariant *)
Theorem C03_directions :
  forall (A : Type) (NA : Num A), OrdLaws A -> DirLaws (nltb (A := A)) /\ DirLaws (ngtb (A := A)).
Proof. intros A NA OL. exact (conj (dir_lt OL) (dir_gt OL)). Qed.

(* rank: the recount loop counts the smaller and the equal valid elements, in the carrier's own < and == *)
Theorem C03_rank_counts_ordered :
  forall (A : Type) (NA : Num A), OrdLaws A ->
  forall (T : Type) (DT : IsNone T A) (xs : list T), (forall v, In v xs -> okv (to_opt v)) ->
  forall (x : A), num_ok x -> forall (cnt i : nat) (r : R) (nrep : nat),
    i + cnt <= length xs ->
    rank_loop (B := XR) xs x i cnt (Some r) nrep =
    Ok (Some (r + INR (gcount_lt x (gvalid (seg i (i + cnt) (map to_opt xs)))))%R,
        nrep + gcount_eq x (gvalid (seg i (i + cnt) (map to_opt xs)))).
Proof. intros A NA OL T DT xs Hxs x Hx. exact (g_rank_loop_spec OL xs Hxs x Hx). Qed.

Theorem C03_ts_vrank_ordered :
  forall (A : Type) (NA : Num A), OrdLaws A ->
  forall (T : Type) (DT : IsNone T A) (body : bool) (w : nat) (mp : option nat) (pct rev : bool)
         (xs : list T),
    valid_not_nan xs -> 1 <= w -> 1 <= length xs ->
    exists out, ts_vrank (B := XR) body w mp pct rev xs = Done out /\ length out = length xs /\
      forall i, i < length xs ->
        nth_error out i =
        Some (match nth_error (map to_opt xs) i with
              | Some (Some x) =>
                  let V' := gvalid (seg (wstart w i) i (map to_opt xs)) in
                  if cmp_mp mp (cmp_window w xs) <=? S (length V') then Some (g_avg_rank pct rev x V')
                  else None
              | _ => None
              end).
Proof. intros A NA OL T DT. exact (ts_vrank_ord OL). Qed.

Theorem C03_rank_rev_is_descending_ordered :
  forall (A : Type) (NA : Num A) (x : A) (V' : list A),
    OrdLaws A -> num_ok x -> Forall num_ok V' ->
    g_avg_rank false true x V' = (1 + INR (gcount_gt x V') + INR (gcount_eq x V') / 2)%R.
Proof. intros A NA. exact g_avg_rank_rev_gt. Qed.

(* at Z the generic specification is the integer specification of Spec/Extrema.v ... *)
Theorem C03_ordered_spec_at_Z :
  (forall l : list (option Z), gvalid l = validZ l) /\
  (forall l : list Z, gmin l = list_min l) /\ (forall l : list Z, gmax l = list_max l) /\
  (forall (m : Z) W, glast_pos m W = last_pos m W) /\
  (forall W : list (option Z), gargmin_spec W = argmin_spec W) /\
  (forall W : list (option Z), gargmax_spec W = argmax_spec W) /\
  (forall pct rev (x : Z) V', g_avg_rank pct rev x V' = avg_rank pct rev x V').
Proof.
  exact (conj gvalid_Z (conj gmin_Z (conj gmax_Z (conj glast_pos_Z (conj gargmin_spec_Z
        (conj gargmax_spec_Z g_avg_rank_Z)))))).
Qed.

(* ... so the integer theorems (1), (2), (4) are corollaries of the ordered ones (same statements as C03_ts_vmin ...) *)
Corollary C03_ts_vmin_integer_instance :
  forall (T : Type) (DT : IsNone T Z) (body : bool) (w : nat) (mp : option nat) (xs : list T),
    1 <= w -> 1 <= length xs ->
    exists out, ts_vmin body w mp xs = Done out /\ length out = length xs /\
      forall i, i < length xs ->
        nth_error out i =
        Some (let V := validZ (win w i (map to_opt xs)) in
              if cmp_mp mp (cmp_window w xs) <=? length V then list_min V else None).
Proof. intros T DT. exact ts_vmin_spec. Qed.
Corollary C03_ts_vmax_integer_instance :
  forall (T : Type) (DT : IsNone T Z) (body : bool) (w : nat) (mp : option nat) (xs : list T),
    1 <= w -> 1 <= length xs ->
    exists out, ts_vmax body w mp xs = Done out /\ length out = length xs /\
      forall i, i < length xs ->
        nth_error out i =
        Some (let V := validZ (win w i (map to_opt xs)) in
              if cmp_mp mp (cmp_window w xs) <=? length V then list_max V else None).
Proof. intros T DT. exact ts_vmax_spec. Qed.
Corollary C03_ts_vargmin_integer_instance :
  forall (T : Type) (DT : IsNone T Z) (body : bool) (w : nat) (mp : option nat) (xs : list T),
    1 <= w -> 1 <= length xs ->
    exists out, ts_vargmin body w mp xs = Done out /\ length out = length xs /\
      forall i, i < length xs ->
        nth_error out i =
        Some (let W := win w i (map to_opt xs) in
              if cmp_mp mp (cmp_window w xs) <=? length (validZ W) then argmin_spec W else None).
Proof. intros T DT. exact ts_vargmin_spec. Qed.
Corollary C03_ts_vargmax_integer_instance :
  forall (T : Type) (DT : IsNone T Z) (body : bool) (w : nat) (mp : option nat) (xs : list T),
    1 <= w -> 1 <= length xs ->
    exists out, ts_vargmax body w mp xs = Done out /\ length out = length xs /\
      forall i, i < length xs ->
        nth_error out i =
        Some (let W := win w i (map to_opt xs) in
              if cmp_mp mp (cmp_window w xs) <=? length (validZ W) then argmax_spec W else None).
Proof. intros T DT. exact ts_vargmax_spec. Qed.
Corollary C03_ts_vrank_integer_instance :
  forall (T : Type) (DT : IsNone T Z) (body : bool) (w : nat) (mp : option nat) (pct rev : bool)
         (xs : list T),
    1 <= w -> 1 <= length xs ->
    exists out, ts_vrank (B := XR) body w mp pct rev xs = Done out /\ length out = length xs /\
      forall i, i < length xs ->
        nth_error out i =
        Some (match nth_error (map to_opt xs) i with
              | Some (Some x) =>
                  let V' := validZ (seg (wstart w i) i (map to_opt xs)) in
                  if cmp_mp mp (cmp_window w xs) <=? S (length V') then Some (avg_rank pct rev x V')
                  else None
              | _ => None
              end).
Proof. intros T DT. exact ts_vrank_spec. Qed.

(* the real instance: series over option R with NaN = None as the null (the float-like dictionary: the premise
   on the series is automatic), every window / min_periods / position / body *)
Corollary C03_ts_vmin_vmax_real_instance :
  forall (body : bool) (w : nat) (mp : option nat) (xs : list XR),
    1 <= w -> 1 <= length xs ->
    (exists out, ts_vmin (DT := IsNoneXR) body w mp xs = Done out /\ length out = length xs /\
      forall i, i < length xs ->
        nth_error out i =
        Some (let V := gvalid (win w i (map to_opt xs)) in
              if cmp_mp mp (cmp_window w xs) <=? length V then gmin V else None)) /\
    (exists out, ts_vmax (DT := IsNoneXR) body w mp xs = Done out /\ length out = length xs /\
      forall i, i < length xs ->
        nth_error out i =
        Some (let V := gvalid (win w i (map to_opt xs)) in
              if cmp_mp mp (cmp_window w xs) <=? length V then gmax V else None)).
Proof.
  intros body w mp xs Hw Hlen. split.
  - exact (ts_vmin_ord ordlaws_XR body w mp xs (valid_not_nan_floatlike xs) Hw Hlen).
  - exact (ts_vmax_ord ordlaws_XR body w mp xs (valid_not_nan_floatlike xs) Hw Hlen).
Qed.
Corollary C03_ts_vargmin_vargmax_real_instance :
  forall (body : bool) (w : nat) (mp : option nat) (xs : list XR),
    1 <= w -> 1 <= length xs ->
    (exists out, ts_vargmin (DT := IsNoneXR) body w mp xs = Done out /\ length out = length xs /\
      forall i, i < length xs ->
        nth_error out i =
        Some (let W := win w i (map to_opt xs) in
              if cmp_mp mp (cmp_window w xs) <=? length (gvalid W) then gargmin_spec W else None)) /\
    (exists out, ts_vargmax (DT := IsNoneXR) body w mp xs = Done out /\ length out = length xs /\
      forall i, i < length xs ->
        nth_error out i =
        Some (let W := win w i (map to_opt xs) in
              if cmp_mp mp (cmp_window w xs) <=? length (gvalid W) then gargmax_spec W else None)).
Proof.
  intros body w mp xs Hw Hlen. split.
  - exact (ts_vargmin_ord ordlaws_XR body w mp xs (valid_not_nan_floatlike xs) Hw Hlen).
  - exact (ts_vargmax_ord ordlaws_XR body w mp xs (valid_not_nan_floatlike xs) Hw Hlen).
Qed.
Corollary C03_ts_vrank_real_instance :
  forall (body : bool) (w : nat) (mp : option nat) (pct rev : bool) (xs : list XR),
    1 <= w -> 1 <= length xs ->
    exists out, ts_vrank (DT := IsNoneXR) (B := XR) body w mp pct rev xs = Done out /\ length out = length xs /\
      forall i, i < length xs ->
        nth_error out i =
        Some (match nth_error (map to_opt xs) i with
              | Some (Some x) =>
                  let V' := gvalid (seg (wstart w i) i (map to_opt xs)) in
                  if cmp_mp mp (cmp_window w xs) <=? S (length V') then Some (g_avg_rank pct rev x V')
                  else None
              | _ => None
              end).
Proof.
  intros body w mp pct rev xs Hw Hlen.
  exact (ts_vrank_ord ordlaws_XR body w mp pct rev xs (valid_not_nan_floatlike xs) Hw Hlen).
Qed.

(* at option R the generic extremes are the least / greatest real of the list *)
Theorem C03_extreme_real_meaning :
  forall (V : list XR) (m : R), Forall num_ok V ->
    (gmin V = Some (Some m) <-> In (Some m) V /\ forall r, In (Some r) V -> (m <= r)%R) /\
    (gmax V = Some (Some m) <-> In (Some m) V /\ forall r, In (Some r) V -> (r <= m)%R).
Proof. intros V m H. exact (conj (gmin_XR V m H) (gmax_XR V m H)). Qed.

(* premise `OrdLaws A`: C03_order_laws_Z, C03_order_laws_real.  Premise `valid_not_nan xs`: *)
Example C03_example_valid_not_nan_int : valid_not_nan (DT := Dopt) [Some 1%Z; None; Some 3%Z].
Proof. exact (valid_not_nan_Z _). Qed.
Example C03_example_valid_not_nan_real : valid_not_nan (DT := IsNoneXR) [Some 1%R; None; Some 3%R].
Proof. exact (valid_not_nan_floatlike _). Qed.
(* Option<f64>-like dictionary over option R: Some (Some r) valid, None null; Some None (= Some(NaN)) is what the
   premise excludes *)
Example C03_example_valid_not_nan_optreal :
  valid_not_nan (DT := IsNone_option (A := XR)) [Some (Some 1%R); None; Some (Some 3%R)].
Proof. intros v [<-|[<-|[<-|[]]]] H; try discriminate; reflexivity. Qed.
(* premises okv / num_ok / Forall num_ok *)
Example C03_example_okv : okv (Some 2%Z) /\ okv (@None Z) /\ num_ok (Some 1%R) /\ Forall num_ok [Some 1%R; Some 2%R].
Proof. repeat split; repeat constructor. Qed.
(* premise of the ordered invariant: sort_cmp is the null-last order of `<` (at Z, by C03_sort_cmp_nulls_last_ordered) *)
Example C03_example_invariant_premise_ordered :
  forall a b : option Z, okv a -> okv b -> sort_cmp a b = gocmp nltb a b.
Proof. exact (sort_cmp_ord ordlaws_Z). Qed.
(* the generic specification evaluated on the tie / null / expiry / all-null example above *)
Example C03_example_gargmin_spec :
  map (fun i => gargmin_spec (win 2 i [Some 1%Z; Some 1%Z; None; None; Some 3%Z; Some 2%Z])) (seq 0 6) =
  [Some 1; Some 2; Some 1; None; Some 2; Some 2].
Proof. vm_compute. reflexivity. Qed.
Example C03_example_gargmin_meaning_premise :
  gargmin_spec [Some 1%Z; Some 1%Z] = Some 2.
Proof. vm_compute. reflexivity. Qed.
Example C03_example_GPre : GPre (T := option Z) (DT := Dopt) nltb [Some 1%Z] 1 0 ext0.
Proof. exact (CPre_init (gocmp nltb) _ 1 (le_n 1)). Qed.

Print Assumptions C03_sort_cmp_nulls_last.
Print Assumptions C03_ts_vmin.
Print Assumptions C03_ts_vmax.
Print Assumptions C03_ts_vargmin.
Print Assumptions C03_ts_vargmax.
Print Assumptions C03_argmin_spec_meaning.
Print Assumptions C03_cached_extreme_invariant.
Print Assumptions C03_cache_fresh_or_stale.
Print Assumptions C03_rank_counts.
Print Assumptions C03_ts_vrank.
Print Assumptions C03_rank_rev_is_descending.
Print Assumptions C03_ts_vzscore.
Print Assumptions C03_ts_vminmaxnorm.
Print Assumptions C03_lmaxR_lminR_meaning.
Print Assumptions C03_order_laws_Z.
Print Assumptions C03_order_laws_real.
Print Assumptions C03_sort_cmp_nulls_last_ordered.
Print Assumptions C03_ts_vmin_ordered.
Print Assumptions C03_ts_vmax_ordered.
Print Assumptions C03_ts_vargmin_ordered.
Print Assumptions C03_ts_vargmax_ordered.
Print Assumptions C03_extreme_meaning.
Print Assumptions C03_gargmin_spec_meaning.
Print Assumptions C03_cached_extreme_invariant_ordered.
Print Assumptions C03_cache_fresh_or_stale_ordered.
Print Assumptions C03_directions.
Print Assumptions C03_rank_counts_ordered.
Print Assumptions C03_ts_vrank_ordered.
Print Assumptions C03_rank_rev_is_descending_ordered.
Print Assumptions C03_ordered_spec_at_Z.
Print Assumptions C03_ts_vmin_integer_instance.
Print Assumptions C03_ts_vmax_integer_instance.
Print Assumptions C03_ts_vargmin_integer_instance.
Print Assumptions C03_ts_vargmax_integer_instance.
Print Assumptions C03_ts_vrank_integer_instance.
Print Assumptions C03_ts_vmin_vmax_real_instance.
Print Assumptions C03_ts_vargmin_vargmax_real_instance.
Print Assumptions C03_ts_vrank_real_instance.
Print Assumptions C03_extreme_real_meaning.

(* ---- (7b) binary64: the same theorems at Coq's primitive `float`, i.e. at the very instance the correspondence run
   evaluates and compares bit for bit with the Rust code.  The order laws hold for the non-NaN floats (strict weak
   order: +0 and -0 are equivalent, not equal); they are derived from the standard library's specification of the
   primitive comparisons (FloatAxioms.eqb_spec / ltb_spec / leb_spec — axioms of the Coq standard library about the
   primitive floats, named in the trusted base).  NaN is the null of an f64 series; for Option<f64> the premise
   valid_not_nan excludes Some(NaN) (DESIGN 5.4) and a witness shows it cannot be dropped.                        *)
From Tevec Require Import Base.F64 Proofs.CmpOrdFloat.

Theorem C03_order_laws_binary64 : OrdLaws PrimFloat.float /\ ~ OrdStrict PrimFloat.float.
Proof. split; [exact ordlaws_F64|exact f64_not_strict]. Qed.

Theorem C03_ts_vmin_binary64 :
  forall (body : bool) (w : nat) (mp : option nat) (xs : list PrimFloat.float),
    1 <= w -> 1 <= length xs ->
    exists out, ts_vmin (DT := IsNoneF64) body w mp xs = Done out /\ length out = length xs /\
      forall i, i < length xs ->
        nth_error out i =
        Some (let V := gvalid (win w i (map to_opt xs)) in
              if cmp_mp mp (cmp_window w xs) <=? length V then gmin V else None).
Proof. intros body w mp xs. exact (ts_vmin_ord ordlaws_F64 body w mp xs (fun v _ H => H)). Qed.

Theorem C03_ts_vmax_binary64 :
  forall (body : bool) (w : nat) (mp : option nat) (xs : list PrimFloat.float),
    1 <= w -> 1 <= length xs ->
    exists out, ts_vmax (DT := IsNoneF64) body w mp xs = Done out /\ length out = length xs /\
      forall i, i < length xs ->
        nth_error out i =
        Some (let V := gvalid (win w i (map to_opt xs)) in
              if cmp_mp mp (cmp_window w xs) <=? length V then gmax V else None).
Proof. intros body w mp xs. exact (ts_vmax_ord ordlaws_F64 body w mp xs (fun v _ H => H)). Qed.

Theorem C03_ts_vargmin_binary64 :
  forall (body : bool) (w : nat) (mp : option nat) (xs : list PrimFloat.float),
    1 <= w -> 1 <= length xs ->
    exists out, ts_vargmin (DT := IsNoneF64) body w mp xs = Done out /\ length out = length xs /\
      forall i, i < length xs ->
        nth_error out i =
        Some (let W := win w i (map to_opt xs) in
              if cmp_mp mp (cmp_window w xs) <=? length (gvalid W) then gargmin_spec W else None).
Proof. intros body w mp xs. exact (ts_vargmin_ord ordlaws_F64 body w mp xs (fun v _ H => H)). Qed.

Theorem C03_ts_vargmax_binary64 :
  forall (body : bool) (w : nat) (mp : option nat) (xs : list PrimFloat.float),
    1 <= w -> 1 <= length xs ->
    exists out, ts_vargmax (DT := IsNoneF64) body w mp xs = Done out /\ length out = length xs /\
      forall i, i < length xs ->
        nth_error out i =
        Some (let W := win w i (map to_opt xs) in
              if cmp_mp mp (cmp_window w xs) <=? length (gvalid W) then gargmax_spec W else None).
Proof. intros body w mp xs. exact (ts_vargmax_ord ordlaws_F64 body w mp xs (fun v _ H => H)). Qed.

Theorem C03_ts_vrank_binary64_input :
  forall (body : bool) (w : nat) (mp : option nat) (pct rev : bool) (xs : list PrimFloat.float),
    1 <= w -> 1 <= length xs ->
    exists out, ts_vrank (DT := IsNoneF64) (B := XR) body w mp pct rev xs = Done out /\ length out = length xs /\
      forall i, i < length xs ->
        nth_error out i =
        Some (match nth_error (map to_opt xs) i with
              | Some (Some x) =>
                  let V' := gvalid (seg (wstart w i) i (map to_opt xs)) in
                  if cmp_mp mp (cmp_window w xs) <=? S (length V') then Some (g_avg_rank pct rev x V')
                  else None
              | _ => None
              end).
Proof. intros body w mp pct rev xs. exact (ts_vrank_ord ordlaws_F64 body w mp pct rev xs (fun v _ H => H)). Qed.

(* Option<f64>: the premise of DESIGN 5.4 is needed — on Some(NaN) elements the model of ts_vargmin underflows *)
Theorem C03_some_nan_is_outside_the_property :
  ts_vargmin (DT := IsNoneOptF64) true 2 (Some 0) [Some PrimFloat.nan; Some PrimFloat.nan; Some PrimFloat.nan]
  = Panicked Underflow /\
  ~ valid_not_nan (DT := IsNoneOptF64) [Some PrimFloat.nan; Some PrimFloat.nan; Some PrimFloat.nan].
Proof. exact f64_some_nan_is_outside. Qed.

Print Assumptions C03_order_laws_binary64.
Print Assumptions C03_ts_vmin_binary64.
Print Assumptions C03_ts_vmax_binary64.
Print Assumptions C03_ts_vargmin_binary64.
Print Assumptions C03_ts_vargmax_binary64.
Print Assumptions C03_ts_vrank_binary64_input.
Print Assumptions C03_some_nan_is_outside_the_property.

(* ================= AUDIT (notes/C03.md "Audit matrix"; Proofs/Audit03.v) ============================================
   (A1)-(A5), (A13) hold for every carrier / dictionary and are axiom-free ((A4), (A5): any ordered carrier); (A9),
   (A10) are over option R; (A11)-(A12) at binary64.                                                                              *)
From Tevec Require Import Proofs.Generic Proofs.Audit03.

(* (A1) the rejected and the trivial inputs of the seven entry points, totally — this is what the hypotheses `1 <= w`
   and `1 <= length xs` of (1)-(6) exclude.  Empty series: the empty result at every window, both bodies (the cmp
   family clamps the window to 0 and `assert!(window > 0 || len == 0)` passes).  Window 0 on a non-empty series: the
   assertion fails, both bodies, before any element is read. *)
Theorem C03_empty_series :
  forall (A : Type) (NA : Num A) (T : Type) (DT : IsNone T A) (B : Type) (NB : Num B)
         (body : bool) (w : nat) (mp : option nat) (pct rev : bool) (tmin tmax : A),
    ts_vmin body w mp (@nil T) = Done [] /\ ts_vmax body w mp (@nil T) = Done [] /\
    ts_vargmin body w mp (@nil T) = Done [] /\ ts_vargmax body w mp (@nil T) = Done [] /\
    ts_vrank (B := B) body w mp pct rev (@nil T) = Done [] /\
    ts_vminmaxnorm tmin tmax body w mp (@nil T) = Done [] /\
    ts_vzscore body w mp (@nil T) = Done [].
Proof.
  intros A NA T DT B NB body w mp pct rev tmin tmax.
  split; [apply (cmp_family_empty sort_cmp)|]. split; [apply (cmp_family_empty sort_cmp_rev)|].
  split; [apply (cmp_family_empty sort_cmp)|]. split; [apply (cmp_family_empty sort_cmp_rev)|].
  split; [apply vrank_empty|]. split; [apply minmaxnorm_empty|].
  unfold ts_vzscore. rewrite ts_run_eq. unfold bad_window. cbn. rewrite Bool.andb_false_r. reflexivity.
Qed.

Theorem C03_window0_rejected :
  forall (A : Type) (NA : Num A) (T : Type) (DT : IsNone T A) (B : Type) (NB : Num B)
         (body : bool) (mp : option nat) (pct rev : bool) (tmin tmax : A) (xs : list T),
    xs <> [] ->
    ts_vmin body 0 mp xs = Panicked AssertFail /\ ts_vmax body 0 mp xs = Panicked AssertFail /\
    ts_vargmin body 0 mp xs = Panicked AssertFail /\ ts_vargmax body 0 mp xs = Panicked AssertFail /\
    ts_vrank (B := B) body 0 mp pct rev xs = Panicked AssertFail /\
    ts_vminmaxnorm tmin tmax body 0 mp xs = Panicked AssertFail /\
    ts_vzscore body 0 mp xs = Panicked AssertFail.
Proof.
  intros A NA T DT B NB body mp pct rev tmin tmax xs Hx.
  split; [apply (cmp_family_window0 sort_cmp); exact Hx|]. split; [apply (cmp_family_window0 sort_cmp_rev); exact Hx|].
  split; [apply (cmp_family_window0 sort_cmp); exact Hx|]. split; [apply (cmp_family_window0 sort_cmp_rev); exact Hx|].
  split; [apply vrank_window0; exact Hx|]. split; [apply minmaxnorm_window0; exact Hx|].
  unfold ts_vzscore. rewrite ts_run_eq. destruct xs; [contradiction|reflexivity].
Qed.

(* (A2) w >= len: the cmp family clamps the window to the length, so the outcome is that of window = len — for EVERY
   min_periods, omitted included, every carrier *)
Theorem C03_window_clamped_to_length :
  forall (A : Type) (NA : Num A) (T : Type) (DT : IsNone T A) (B : Type) (NB : Num B)
         (body : bool) (w : nat) (mp : option nat) (pct rev : bool) (xs : list T),
    length xs <= w ->
    ts_vmin body w mp xs = ts_vmin body (length xs) mp xs /\ ts_vmax body w mp xs = ts_vmax body (length xs) mp xs /\
    ts_vargmin body w mp xs = ts_vargmin body (length xs) mp xs /\
    ts_vargmax body w mp xs = ts_vargmax body (length xs) mp xs /\
    ts_vrank (B := B) body w mp pct rev xs = ts_vrank (B := B) body (length xs) mp pct rev xs.
Proof.
  intros A NA T DT B NB body w mp pct rev xs H.
  split; [apply (cmp_family_window_clamped sort_cmp); exact H|].
  split; [apply (cmp_family_window_clamped sort_cmp_rev); exact H|].
  split; [apply (cmp_family_window_clamped sort_cmp); exact H|].
  split; [apply (cmp_family_window_clamped sort_cmp_rev); exact H|apply vrank_window_clamped; exact H].
Qed.

(* (A3) omitted min_periods (DESIGN 5.3): it IS Some ((min len w) / 2) — w / 2 when len >= w, len / 2 when len < w (the
   norm family uses min(w / 2, w) = w / 2 of the UNclamped window: Model/Features.mp_eff) *)
Theorem C03_omitted_min_periods :
  forall (A : Type) (NA : Num A) (T : Type) (DT : IsNone T A) (B : Type) (NB : Num B)
         (body : bool) (w : nat) (pct rev : bool) (xs : list T),
    let d := Some (Nat.min (length xs) w / 2) in
    ts_vmin body w None xs = ts_vmin body w d xs /\ ts_vmax body w None xs = ts_vmax body w d xs /\
    ts_vargmin body w None xs = ts_vargmin body w d xs /\ ts_vargmax body w None xs = ts_vargmax body w d xs /\
    ts_vrank (B := B) body w None pct rev xs = ts_vrank (B := B) body w d pct rev xs /\
    (w <= length xs -> cmp_mp None (cmp_window w xs) = w / 2) /\
    (length xs <= w -> cmp_mp None (cmp_window w xs) = length xs / 2).
Proof.
  intros A NA T DT B NB body w pct rev xs d. repeat split; try reflexivity;
    intros H; unfold cmp_mp, cmp_window; [rewrite Nat.min_r|rewrite Nat.min_l]; try exact H; reflexivity.
Qed.

(* (A4) min_periods above the clamped window is NOT clamped in this family: every output is null.  Any ordered carrier. *)
Theorem C03_min_periods_above_window_all_null :
  forall (A : Type) (NA : Num A), OrdLaws A ->
  forall (T : Type) (DT : IsNone T A) (body : bool) (w m : nat) (xs : list T),
    valid_not_nan xs -> 1 <= w -> 1 <= length xs -> cmp_window w xs < m ->
    ts_vmin body w (Some m) xs = Done (repeat None (length xs)) /\
    ts_vmax body w (Some m) xs = Done (repeat None (length xs)) /\
    ts_vargmin body w (Some m) xs = Done (repeat None (length xs)) /\
    ts_vargmax body w (Some m) xs = Done (repeat None (length xs)).
Proof. intros A NA OL T DT. exact (min_periods_above_window_all_null OL). Qed.

(* (A5) ties — "the most recent one": glast_pos m W = Some o says position o holds a valid element equivalent to m and
   NO LATER position does; at Z: holds m itself, no later position holds m.  The offsets lie in 1..=|W|. *)
Theorem C03_last_position_meaning :
  forall (A : Type) (NA : Num A) (W : list (option A)) (m : A) (o : nat),
    glast_pos m W = Some o ->
    (exists x, nth_error W o = Some (Some x) /\ neqb x m = true) /\
    (forall j x, o < j -> nth_error W j = Some (Some x) -> neqb x m = false).
Proof. intros A NA. exact glast_pos_sound. Qed.

Theorem C03_last_position_meaning_integer :
  forall (W : list (option Z)) (m : Z) (o : nat),
    last_pos m W = Some o ->
    nth_error W o = Some (Some m) /\ forall j, o < j -> nth_error W j <> Some (Some m).
Proof. exact last_pos_sound. Qed.

Theorem C03_argmax_spec_meaning :
  forall (W : list (option Z)) (o : nat),
    argmax_spec W = Some o ->
    exists m, list_max (validZ W) = Some m /\ 1 <= o /\ last_pos m W = Some (o - 1).
Proof. exact argmax_spec_meaning. Qed.

Theorem C03_gargmax_spec_meaning :
  forall (A : Type) (NA : Num A) (W : list (option A)) (o : nat),
    gargmax_spec W = Some o ->
    exists m, ExtremaOrd.gmax (gvalid W) = Some m /\ 1 <= o /\ glast_pos m W = Some (o - 1).
Proof. intros A NA. exact gargmax_spec_meaning. Qed.

Theorem C03_arg_offsets_in_window :
  forall (A : Type) (NA : Num A) (W : list (option A)) (o : nat),
    (gargmin_spec W = Some o \/ gargmax_spec W = Some o) -> 1 <= o <= length W.
Proof. intros A NA. exact garg_offsets_in_window. Qed.

(* (A9) ts_vminmaxnorm: the cached (max_idx, min_idx) are the LAST positions of the window's extremes (`>=` / `<=` take
   the newcomer), so when BOTH have expired the element that left was the only holder of both — the window the arm
   would re-scan has no valid element.  Hence the loop body of the both-expired arm (norm.rs:146-151) is dead code: the model with that loop body
   deleted (ts_vminmaxnorm_nd: `(max, min) = (min_(), max_())`, indices untouched) returns exactly what the model of
   the code returns — every series within the sentinels, every window (0 included), min_periods, both bodies. *)
Theorem C03_minmaxnorm_both_expired_arm_is_dead_code :
  forall (lo hi : R) (body : bool) (w : nat) (mp : option nat) (xs : list XR),
    (forall r, In (Some r) xs -> (lo <= r <= hi)%R) ->
    ts_vminmaxnorm (Some lo) (Some hi) body w mp xs = ts_vminmaxnorm_nd lo hi body w mp xs.
Proof. exact minmaxnorm_both_expired_arm_is_dead. Qed.

(* (A10) the reason, as a statement about every reachable state: whenever both cached indices are before the new
   window start, the positions the arm would scan hold no valid element *)
Theorem C03_minmaxnorm_both_expired_window_is_null :
  forall (lo hi : R) (xs : list XR) (wd : nat), 1 <= wd ->
  forall (k : nat) (s : @mm XR) (a : nat),
    k <= length xs -> PreMM lo hi xs wd k s -> LastMM xs wd k s ->
    start_of wd k = Some a -> mm_maxi s < a -> mm_mini s < a ->
    forall j, a <= j < k -> xv xs j = None.
Proof. intros lo hi xs wd Hwd. exact (both_expired_window_is_null lo hi xs wd Hwd). Qed.

Example C03_example_audit_premises :
  cmp_window 5 [1%Z; 2%Z] < 3 /\ 2 <= 5 /\ glast_pos 1%Z [Some 1%Z; Some 1%Z; None] = Some 1 /\
  gargmax_spec [Some 1%Z; Some 3%Z; Some 3%Z] = Some 3.
Proof. repeat split; vm_compute; auto. Qed.
(* (A4) is not vacuous: omitted min_periods on a short series is len/2 = 1, so outputs are non-null; 3 > 2 nulls all *)
Example C03_example_audit_above_window :
  ts_vmin (DT := Dopt) true 5 None [Some 1%Z; Some 2%Z] = Done [Some 1%Z; Some 1%Z] /\
  ts_vmin (DT := Dopt) true 5 (Some 3) [Some 1%Z; Some 2%Z] = Done [None; None].
Proof. split; vm_compute; reflexivity. Qed.
(* (A10): on [1; null; null], w = 2 the driver passes start index 1 at step 2, and the initial state satisfies LastMM;
   the state the run has reached at step 2 (both cached indices 0 < 1) is not exhibited here *)
Example C03_example_audit_both_expired :
  start_of 2 2 = Some 1 /\ LastMM [Some 1%R; None; None] 2 0 (mm0 (Some 0%R) (Some 2%R)).
Proof. split; [reflexivity|apply LastMM_init; auto]. Qed.

Print Assumptions C03_empty_series.
Print Assumptions C03_window0_rejected.
Print Assumptions C03_window_clamped_to_length.
Print Assumptions C03_omitted_min_periods.
Print Assumptions C03_min_periods_above_window_all_null.
Print Assumptions C03_last_position_meaning.
Print Assumptions C03_last_position_meaning_integer.
Print Assumptions C03_argmax_spec_meaning.
Print Assumptions C03_gargmax_spec_meaning.
Print Assumptions C03_arg_offsets_in_window.
Print Assumptions C03_minmaxnorm_both_expired_arm_is_dead_code.
Print Assumptions C03_minmaxnorm_both_expired_window_is_null.

From Coq Require Import Floats.
(* (A11) binary64, Option<f64> (only `None` is null): the four order theorems under the premise of DESIGN 5.4 (no
   Some(NaN)) — the witness (7) C03_some_nan_is_outside_the_property shows the premise cannot be dropped *)
Theorem C03_cmp_family_binary64_option :
  forall (body : bool) (w : nat) (mp : option nat) (xs : list (option PrimFloat.float)),
  valid_not_nan (DT := IsNoneOptF64) xs -> 1 <= w -> 1 <= length xs ->
  (exists out, ts_vmin (DT := IsNoneOptF64) body w mp xs = Done out /\ length out = length xs /\
     forall i, i < length xs ->
       nth_error out i =
       Some (let V := gvalid (win w i (map to_opt xs)) in
             if cmp_mp mp (cmp_window w xs) <=? length V then ExtremaOrd.gmin V else None)) /\
  (exists out, ts_vmax (DT := IsNoneOptF64) body w mp xs = Done out /\ length out = length xs /\
     forall i, i < length xs ->
       nth_error out i =
       Some (let V := gvalid (win w i (map to_opt xs)) in
             if cmp_mp mp (cmp_window w xs) <=? length V then ExtremaOrd.gmax V else None)) /\
  (exists out, ts_vargmin (DT := IsNoneOptF64) body w mp xs = Done out /\ length out = length xs /\
     forall i, i < length xs ->
       nth_error out i =
       Some (let W := win w i (map to_opt xs) in
             if cmp_mp mp (cmp_window w xs) <=? length (gvalid W) then gargmin_spec W else None)) /\
  (exists out, ts_vargmax (DT := IsNoneOptF64) body w mp xs = Done out /\ length out = length xs /\
     forall i, i < length xs ->
       nth_error out i =
       Some (let W := win w i (map to_opt xs) in
             if cmp_mp mp (cmp_window w xs) <=? length (gvalid W) then gargmax_spec W else None)).
Proof.
  intros body w mp xs Hxs Hw Hlen. repeat split.
  - exact (ts_vmin_ord ordlaws_F64 body w mp xs Hxs Hw Hlen).
  - exact (ts_vmax_ord ordlaws_F64 body w mp xs Hxs Hw Hlen).
  - exact (ts_vargmin_ord ordlaws_F64 body w mp xs Hxs Hw Hlen).
  - exact (ts_vargmax_ord ordlaws_F64 body w mp xs Hxs Hw Hlen).
Qed.

(* (A12) binary64: min_periods above the clamped window nulls everything (instance of (A4) through the float laws) *)
Theorem C03_min_periods_above_window_binary64 :
  forall (body : bool) (w m : nat) (xs : list PrimFloat.float),
    1 <= w -> 1 <= length xs -> cmp_window w xs < m ->
    ts_vmin (DT := IsNoneF64) body w (Some m) xs = Done (repeat None (length xs)) /\
    ts_vmax (DT := IsNoneF64) body w (Some m) xs = Done (repeat None (length xs)) /\
    ts_vargmin (DT := IsNoneF64) body w (Some m) xs = Done (repeat None (length xs)) /\
    ts_vargmax (DT := IsNoneF64) body w (Some m) xs = Done (repeat None (length xs)).
Proof.
  intros body w m xs. apply (min_periods_above_window_all_null ordlaws_F64). intros v _ H. exact H.
Qed.

(* the binary64 model on +0 / -0 ties, a NaN and an expiring extreme = the generic specification (by evaluation) *)
Example C03_example_binary64_ties :
  ts_vmin (DT := IsNoneF64) true 2 (Some 0) [0%float; (-0)%float; PrimFloat.nan; 3%float; 2%float] =
  Done (map (fun i => ExtremaOrd.gmin (gvalid (win 2 i (map (to_opt (H := IsNoneF64))
                        [0%float; (-0)%float; PrimFloat.nan; 3%float; 2%float])))) (seq 0 5)).
Proof. exact f64_example_min. Qed.
Example C03_example_valid_not_nan_optf64 :
  valid_not_nan (DT := IsNoneOptF64) [Some 1%float; None; Some 3%float].
Proof. intros v [<-|[<-|[<-|[]]]] H; try discriminate; vm_compute; reflexivity. Qed.

Print Assumptions C03_cmp_family_binary64_option.
Print Assumptions C03_min_periods_above_window_binary64.

(* (A13) ts_vzscore on EVERY numeric carrier and null dictionary (the binary64 execution instance included), both bodies:
   the output is the carrier's NaN whenever the current element is null or the window holds fewer than
   min(min_periods or w/2, w) non-null elements (cnt_valid: Proofs/Audit01.v) — the count and the "current element"
   of the closure never drift, whatever the arithmetic does.  Axiom-free. *)
From Tevec Require Import Proofs.Audit01.
Theorem C03_zscore_nan_every_carrier :
  forall (A : Type) (NA : Num A) (T : Type) (DT : IsNone T A) (body : bool) (w : nat) (mp : option nat) (xs : list T),
    1 <= w ->
    exists out, ts_vzscore body w mp xs = Done out /\ length out = length xs /\
      forall i v, nth_error xs i = Some v ->
        (not_none v = false \/ cnt_valid (win w i xs) < mp_eff mp w 0) -> nth_error out i = Some nnan.
Proof. intros A NA T DT. exact (@zscore_nan_every_carrier A NA T DT). Qed.

Example C03_example_zscore_nan_binary64 :      (* both premises occur: a short window (position 0), a NaN element (position 1) *)
  exists a b, ts_vzscore (NA := NumF64) (DT := IsNoneF64) true 3 (Some 2) [1; nan; 2; 4]%float = Done [nan; nan; a; b]%float /\
              PrimFloat.is_nan a = false /\ PrimFloat.is_nan b = false.
Proof. do 2 eexists. split; [vm_compute; reflexivity|split; vm_compute; reflexivity]. Qed.

Print Assumptions C03_zscore_nan_every_carrier.
