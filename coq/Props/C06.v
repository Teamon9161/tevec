(* Props/C06.v — property C06: rolling and lagging results never depend on later (or pre-window) data.
   `ts_out F body w xs` / `out_of (f xs)` is the result vector of a model run (body = true:
   two-phase index body = caller buffer and Vec / ndarray fast paths; false: iterator body).
   (A) prefix law, bit for bit: the statements (1)-(3) hold for EVERY carrier because no law of the numeric
       class is used — in particular at Coq's binary64 `float`, whose evaluation the correspondence run compares
       with the Rust code; (4)-(5) are about the exact integer carrier and the positional maps ((4) at every
       carrier: (10)).
   (B) pre-window independence: output i is a function of positions max(0,i-w+1)..=i alone; exact for the
       extrema / arg-extrema / rank (integer carrier), exact in option R (= up to rounding in binary64, DESIGN
       5.1/5.2) for the accumulator families.
   (A'') the prefix law for the index-form callbacks that re-read the series, every carrier; (B'') the window-only law
       for the remaining families (option R); (B') / (B''') rolling sum / mean in binary64: how far the history enters
       through rounding; (C) prefix and window-only laws of the extrema / arg-extrema / rank family at every ordered
       carrier; (D) the outcome of the call at every window, the two-series entry points, the entry points by name. *)
From Coq Require Import ZArith List Reals.
From Tevec Require Import Base.Prelude Base.Num Base.XR Model.Driver Proofs.Driver Model.Features
     Proofs.Generic Proofs.NoLookahead Proofs.NoLookahead2 Model.Cmp Spec.Extrema Model.Binary Model.Reg
     Model.MapOps Spec.MapOps Model.Norm Proofs.IdxRun Proofs.NoLookahead3 Proofs.IdxPrefix Base.F64
     Proofs.CmpOrdInst Proofs.MaskOrd.
From Tevec Require Proofs.Cmp.
Import Proofs.Cmp(ordlaws_Z, valid_not_nan_Z).
From Coq Require Import Lia Lra PrimFloat.
Import ListNotations.

(* ---- (A) no look-ahead ------------------------------------------------------------------------------ *)
(* (1) every add-emit-remove rolling feature (moments, ewm, wma, z-score, and — over the zipped series —
   cov / corr / regression-on-x, trend regressions), any element type, state, output and carrier *)
Theorem C06_prefix_every_feature :
  forall (T St O : Type) (F : feat T St O) (w : nat) (xs : list T) (body : bool) (k : nat),
    1 <= w -> ts_out F body w (firstn k xs) = firstn k (ts_out F body w xs).
Proof. exact @ts_out_prefix. Qed.

(* (2) two-series features: the prefix of both series *)
Theorem C06_prefix_two_series :
  forall (T1 T2 St O : Type) (F : feat (T1 * T2) St O) (body : bool) (w : nat)
         (xs : list T1) (ys : list T2) (k : nat),
    1 <= w ->
    ts_out F body w (combine (firstn k xs) (firstn k ys)) = firstn k (ts_out F body w (combine xs ys)).
Proof. exact @two_series_prefix. Qed.

(* (3) slice-form drivers (rolling_custom: fractional differencing), any stateful callback *)
Theorem C06_prefix_slice_form :
  forall (T St O : Type) (body : bool) (w : nat) (f : St -> list T -> St * O) (s0 : St) (xs : list T) (k : nat),
    1 <= w -> custom_out body w f s0 (firstn k xs) = firstn k (custom_out body w f s0 xs).
Proof. exact @custom_out_prefix. Qed.

(* (4) rolling extrema, arg-extrema and rank: explicit min_periods for every cut, omitted min_periods when both
   the prefix and the whole series are at least as long as the window (cmp_dom; DESIGN 5.3) *)
Theorem C06_prefix_ts_vmin :
  forall (T : Type) (DT : IsNone T Z) (body : bool) (w : nat) (mp : option nat) (xs : list T) (k : nat),
    1 <= w -> cmp_dom w mp (Nat.min k (length xs)) -> cmp_dom w mp (length xs) ->
    out_of (ts_vmin body w mp (firstn k xs)) = firstn k (out_of (ts_vmin body w mp xs)).
Proof.
  intros T DT body w mp xs k Hw D1 D2.
  destruct (prefix_vmin_ord ordlaws_Z body w mp xs k (valid_not_nan_Z xs) Hw D1 D2) as (out & -> & _ & ->).
  reflexivity.
Qed.

Theorem C06_prefix_ts_vmax :
  forall (T : Type) (DT : IsNone T Z) (body : bool) (w : nat) (mp : option nat) (xs : list T) (k : nat),
    1 <= w -> cmp_dom w mp (Nat.min k (length xs)) -> cmp_dom w mp (length xs) ->
    out_of (ts_vmax body w mp (firstn k xs)) = firstn k (out_of (ts_vmax body w mp xs)).
Proof.
  intros T DT body w mp xs k Hw D1 D2.
  destruct (prefix_vmax_ord ordlaws_Z body w mp xs k (valid_not_nan_Z xs) Hw D1 D2) as (out & -> & _ & ->).
  reflexivity.
Qed.

Theorem C06_prefix_ts_vargmin :
  forall (T : Type) (DT : IsNone T Z) (body : bool) (w : nat) (mp : option nat) (xs : list T) (k : nat),
    1 <= w -> cmp_dom w mp (Nat.min k (length xs)) -> cmp_dom w mp (length xs) ->
    out_of (ts_vargmin body w mp (firstn k xs)) = firstn k (out_of (ts_vargmin body w mp xs)).
Proof.
  intros T DT body w mp xs k Hw D1 D2.
  destruct (prefix_vargmin_ord ordlaws_Z body w mp xs k (valid_not_nan_Z xs) Hw D1 D2) as (out & -> & _ & ->).
  reflexivity.
Qed.

Theorem C06_prefix_ts_vargmax :
  forall (T : Type) (DT : IsNone T Z) (body : bool) (w : nat) (mp : option nat) (xs : list T) (k : nat),
    1 <= w -> cmp_dom w mp (Nat.min k (length xs)) -> cmp_dom w mp (length xs) ->
    out_of (ts_vargmax body w mp (firstn k xs)) = firstn k (out_of (ts_vargmax body w mp xs)).
Proof.
  intros T DT body w mp xs k Hw D1 D2.
  destruct (prefix_vargmax_ord ordlaws_Z body w mp xs k (valid_not_nan_Z xs) Hw D1 D2) as (out & -> & _ & ->).
  reflexivity.
Qed.

Theorem C06_prefix_ts_vrank :
  forall (T : Type) (DT : IsNone T Z) (body : bool) (w : nat) (mp : option nat) (pct rev : bool)
         (xs : list T) (k : nat),
    1 <= w -> cmp_dom w mp (Nat.min k (length xs)) -> cmp_dom w mp (length xs) ->
    out_of (ts_vrank (B := XR) body w mp pct rev (firstn k xs))
    = firstn k (out_of (ts_vrank (B := XR) body w mp pct rev xs)).
Proof.
  intros T DT body w mp pct rev xs k Hw D1 D2.
  destruct (prefix_vrank_any (B := XR) body w mp pct rev xs k Hw D1 D2) as (out & -> & _ & ->). reflexivity.
Qed.

(* the scope restriction of DESIGN 5.3 is needed: with omitted min_periods and a series shorter than the
   window the default min_periods is floor(len/2), which depends on data after the cut *)
Theorem C06_omitted_min_periods_short_series_depends_on_length :
  out_of (ts_vmin (A := Z) (DT := IsNone_option) true 6 None (firstn 1 [Some 1; Some 2; Some 3; Some 4]%Z))
  <> firstn 1 (out_of (ts_vmin (A := Z) (DT := IsNone_option) true 6 None [Some 1; Some 2; Some 3; Some 4]%Z)).
Proof. vm_compute. discriminate. Qed.

(* (5) positive-lag shift, difference and percentage change *)
Theorem C06_prefix_shift :
  forall (X : Type) (n : Z) (v : X) (xs : list X) (k : nat), (0 <= n)%Z ->
    exists r, shift n v xs = Ok r /\ shift n v (firstn k xs) = Ok (firstn k r).
Proof. exact @shift_prefix. Qed.

Theorem C06_prefix_vshift :
  forall (X I : Type) (d : NullDict X I) (n : Z) (value : option X) (v : X) (xs : list X) (k : nat),
    (0 <= n)%Z -> or_none d value = Ok v ->
    exists r, vshift d n value xs = Ok r /\ vshift d n value (firstn k xs) = Ok (firstn k r).
Proof. exact @vshift_prefix. Qed.

Theorem C06_prefix_vdiff :
  forall (X I : Type) (d : NullDict X I) (sub : X -> X -> X) (n : Z) (value : option X) (v : X)
         (xs : list X) (k : nat),
    (0 <= n)%Z -> or_none d value = Ok v ->
    exists r, vdiff d sub n value xs = Ok r /\ vdiff d sub n value (firstn k xs) = Ok (firstn k r).
Proof. exact @vdiff_prefix. Qed.

Theorem C06_prefix_vpct_change :
  forall (X I F : Type) (d : NullDict X I) (o : FOps F) (cast : X -> F) (n : Z) (xs : list X) (k : nat),
    (forall v, fisnan o (cast v) = is_none d v) -> fisnan o (fnanv o) = true -> (0 <= n)%Z ->
    exists r, vpct_change d o cast n xs = Ok r /\ vpct_change d o cast n (firstn k xs) = Ok (firstn k r).
Proof. exact @vpct_change_prefix. Qed.

(* the restriction n >= 0 is needed: a negative lag reads ahead by design *)
Theorem C06_negative_lag_reads_ahead :
  exists r, shift (-1)%Z 0%Z [1; 2; 3]%Z = Ok r /\ shift (-1)%Z 0%Z (firstn 2 [1; 2; 3]%Z) <> Ok (firstn 2 r).
Proof. exact shift_negative_lag_looks_ahead. Qed.

(* ---- (B) no dependence on pre-window data ---------------------------------------------------------- *)
(* (6) exactly not at all for min, max, arg-extrema and rank: two series (of any lengths, any histories) whose
   windows at positions i and j coincide give the same output there *)
Theorem C06_window_only_ts_vmin :
  forall (T : Type) (DT : IsNone T Z) (body : bool) (w : nat) (mp : option nat) (xs ys : list T) (i j : nat),
    1 <= w -> cmp_dom w mp (length xs) -> cmp_dom w mp (length ys) -> i < length xs -> j < length ys ->
    win w i xs = win w j ys ->
    nth_error (out_of (ts_vmin body w mp xs)) i = nth_error (out_of (ts_vmin body w mp ys)) j.
Proof.
  intros T DT body w mp xs ys i j Hw Dx Dy Hi Hj HW.
  destruct (window_only_vmin_ord ordlaws_Z body body w mp xs ys i j Hw (valid_not_nan_Z xs) (valid_not_nan_Z ys)
              Dx Dy Hi Hj HW)
    as (ox & oy & o & -> & -> & E1 & E2).
  cbn [out_of]. rewrite E1, E2. reflexivity.
Qed.

Theorem C06_window_only_ts_vmax :
  forall (T : Type) (DT : IsNone T Z) (body : bool) (w : nat) (mp : option nat) (xs ys : list T) (i j : nat),
    1 <= w -> cmp_dom w mp (length xs) -> cmp_dom w mp (length ys) -> i < length xs -> j < length ys ->
    win w i xs = win w j ys ->
    nth_error (out_of (ts_vmax body w mp xs)) i = nth_error (out_of (ts_vmax body w mp ys)) j.
Proof.
  intros T DT body w mp xs ys i j Hw Dx Dy Hi Hj HW.
  destruct (window_only_vmax_ord ordlaws_Z body body w mp xs ys i j Hw (valid_not_nan_Z xs) (valid_not_nan_Z ys)
              Dx Dy Hi Hj HW)
    as (ox & oy & o & -> & -> & E1 & E2).
  cbn [out_of]. rewrite E1, E2. reflexivity.
Qed.

Theorem C06_window_only_ts_vargmin :
  forall (T : Type) (DT : IsNone T Z) (body : bool) (w : nat) (mp : option nat) (xs ys : list T) (i j : nat),
    1 <= w -> cmp_dom w mp (length xs) -> cmp_dom w mp (length ys) -> i < length xs -> j < length ys ->
    win w i xs = win w j ys ->
    nth_error (out_of (ts_vargmin body w mp xs)) i = nth_error (out_of (ts_vargmin body w mp ys)) j.
Proof.
  intros T DT body w mp xs ys i j Hw Dx Dy Hi Hj HW.
  destruct (window_only_vargmin_ord ordlaws_Z body body w mp xs ys i j Hw (valid_not_nan_Z xs) (valid_not_nan_Z ys)
              Dx Dy Hi Hj HW)
    as (ox & oy & o & -> & -> & E1 & E2).
  cbn [out_of]. rewrite E1, E2. reflexivity.
Qed.

Theorem C06_window_only_ts_vargmax :
  forall (T : Type) (DT : IsNone T Z) (body : bool) (w : nat) (mp : option nat) (xs ys : list T) (i j : nat),
    1 <= w -> cmp_dom w mp (length xs) -> cmp_dom w mp (length ys) -> i < length xs -> j < length ys ->
    win w i xs = win w j ys ->
    nth_error (out_of (ts_vargmax body w mp xs)) i = nth_error (out_of (ts_vargmax body w mp ys)) j.
Proof.
  intros T DT body w mp xs ys i j Hw Dx Dy Hi Hj HW.
  destruct (window_only_vargmax_ord ordlaws_Z body body w mp xs ys i j Hw (valid_not_nan_Z xs) (valid_not_nan_Z ys)
              Dx Dy Hi Hj HW)
    as (ox & oy & o & -> & -> & E1 & E2).
  cbn [out_of]. rewrite E1, E2. reflexivity.
Qed.

Theorem C06_window_only_ts_vrank :
  forall (T : Type) (DT : IsNone T Z) (body : bool) (w : nat) (mp : option nat) (pct rev : bool)
         (xs ys : list T) (i j : nat),
    1 <= w -> cmp_dom w mp (length xs) -> cmp_dom w mp (length ys) -> i < length xs -> j < length ys ->
    win w i xs = win w j ys ->
    nth_error (out_of (ts_vrank (B := XR) body w mp pct rev xs)) i
    = nth_error (out_of (ts_vrank (B := XR) body w mp pct rev ys)) j.
Proof.
  intros T DT body w mp pct rev xs ys i j Hw Dx Dy Hi Hj HW.
  destruct (window_only_vrank_any (B := XR) body body w mp pct rev xs ys i j Hw Dx Dy Hi Hj HW)
    as (ox & oy & o & -> & -> & E1 & E2).
  cbn [out_of]. rewrite E1, E2. reflexivity.
Qed.

(* (7) the accumulator families in exact arithmetic (option R): the incremental sums carry nothing over from the
   history — hence in binary64 the history can only enter through rounding of the sums (DESIGN 5.1, 5.2) *)
Theorem C06_window_only_moments :          (* sum, mean, var, std, skew, kurt: any emit function *)
  forall (emit : @mom XR -> XR) (body : bool) (w : nat) (xs ys : list XR) (i j : nat),
    1 <= w -> i < length xs -> j < length ys -> win w i xs = win w j ys ->
    nth_error (ts_out (mom_feat emit) body w xs) i = nth_error (ts_out (mom_feat emit) body w ys) j.
Proof. exact mom_window_only. Qed.

Theorem C06_window_only_ewm :
  forall (mp : option nat) (body : bool) (w : nat) (xs ys : list XR) (i j : nat),
    1 <= w -> i < length xs -> j < length ys -> win w i xs = win w j ys ->
    nth_error (ts_out (ts_vewm_f w mp) body w xs) i = nth_error (ts_out (ts_vewm_f w mp) body w ys) j.
Proof. exact ewm_window_only. Qed.

Theorem C06_window_only_wma :
  forall (mp : option nat) (body : bool) (w : nat) (xs ys : list XR) (i j : nat),
    1 <= w -> i < length xs -> j < length ys -> win w i xs = win w j ys ->
    nth_error (ts_out (ts_vwma_f w mp) body w xs) i = nth_error (ts_out (ts_vwma_f w mp) body w ys) j.
Proof. exact wma_window_only. Qed.

Theorem C06_window_only_cross_sums :       (* cov, corr, regression-on-x alpha / beta / all: any emit function *)
  forall (O : Type) (emit : @csum XR -> O) (body : bool) (w : nat) (zs zs' : list (XR * XR)) (i j : nat),
    1 <= w -> i < length zs -> j < length zs' -> win w i zs = win w j zs' ->
    nth_error (ts_out (csum_feat emit) body w zs) i = nth_error (ts_out (csum_feat emit) body w zs') j.
Proof. exact @csum_window_only. Qed.

Theorem C06_window_only_trend :            (* ts_vreg, ts_vtsf, slope, intercept, resid_mean: any emit function *)
  forall (emit : @tr_st XR -> XR) (body : bool) (w : nat) (xs ys : list XR) (i j : nat),
    1 <= w -> i < length xs -> j < length ys -> win w i xs = win w j ys ->
    nth_error (ts_out (tr_feat emit) body w xs) i = nth_error (ts_out (tr_feat emit) body w ys) j.
Proof. exact trend_window_only. Qed.

(* (8) slice forms with a stateless callback (fractional differencing), any carrier, exact *)
Theorem C06_window_only_slice_form :
  forall (T O : Type) (body : bool) (w : nat) (g : list T -> O) (xs ys : list T) (i j : nat),
    1 <= w -> i < length xs -> j < length ys -> win w i xs = win w j ys ->
    nth_error (custom_out body w (fun (u : unit) l => (u, g l)) tt xs) i
    = nth_error (custom_out body w (fun (u : unit) l => (u, g l)) tt ys) j.
Proof. exact @custom_window_only. Qed.

(* non-vacuity: two different histories, the same last window of 2 *)
Example C06_example_window :
  nth_error (out_of (ts_vmin (A := Z) (DT := IsNone_option) false 2 (Some 1) [Some 9; None; Some 4; Some 7]%Z)) 3
  = nth_error (out_of (ts_vmin (A := Z) (DT := IsNone_option) false 2 (Some 1) [Some (-5); Some 4; Some 7]%Z)) 2.
Proof.
  apply C06_window_only_ts_vmin; cbn; try lia; try exact I. reflexivity.
Qed.
Example C06_example_prefix :
  ts_out (ts_vsum_f (A := XR) 2 (Some 1)) true 2 (firstn 2 [Some 1%R; None; Some 3%R])
  = firstn 2 (ts_out (ts_vsum_f (A := XR) 2 (Some 1)) true 2 [Some 1%R; None; Some 3%R]).
Proof. apply C06_prefix_every_feature. auto. Qed.

(* ---- (A'') index-form callbacks that re-read the series through `uget`: the prefix law BIT FOR BIT at EVERY
   carrier (in particular binary64) ---------------------------------------------------------------------- *)
(* (9) the rule: two runs of the window-index driver (either body), the prefix run with callback cb1 and driver
   window w1, the whole run with cb2 and w2.  If before the last position of the prefix both pass the same start
   index and cb1 returns what cb2 returns (cb1 can only see xs[..k]: "reads the series at positions <= e only"),
   and at the last position cb1 returns the same OUTPUT, then a whole run that completes makes the prefix run
   complete with the prefix of its result. *)
Theorem C06_prefix_index_form_rule :
  forall (T St O : Type) (cb1 cb2 : St -> option nat * nat * T -> res (St * O))
         (xs : list T) (k : nat) (body : bool) (w1 w2 : nat) (Inv : nat -> St -> Prop) (s0 : St) (out : list O),
    1 <= w1 -> 1 <= w2 ->
    let n := Nat.min k (length xs) in
    let sf1 := start_of (eff_window body w1 n) in
    let sf2 := start_of (eff_window body w2 (length xs)) in
    Inv 0 s0 ->
    (forall e v s, S e < n -> nth_error xs e = Some v -> Inv e s ->
       sf1 e = sf2 e /\ cb1 s (sf2 e, e, v) = cb2 s (sf2 e, e, v) /\
       (forall s' o, cb2 s (sf2 e, e, v) = Ok (s', o) -> Inv (S e) s')) ->
    (forall e v s s2 o, S e = n -> nth_error xs e = Some v -> Inv e s ->
       cb2 s (sf2 e, e, v) = Ok (s2, o) -> exists s1, cb1 s (sf1 e, e, v) = Ok (s1, o)) ->
    idx_run body w2 cb2 s0 xs = Done out -> idx_run body w1 cb1 s0 (firstn k xs) = Done (firstn k out).
Proof. exact @idx_run_prefix_gen. Qed.

(* (10) the extrema / arg-extrema / rank family, any carrier A (Z, binary64, option R ...), any null dictionary;
   same min_periods condition as (4).  `Done out -> Done (firstn k out)`: whenever the call on the whole series
   returns, the call on the prefix returns the prefix, bit for bit (and does not panic either). *)
Theorem C06_prefix_any_carrier_ts_vmin :
  forall (A : Type) (NA : Num A) (T : Type) (DT : IsNone T A) (body : bool) (w : nat) (mp : option nat)
         (xs : list T) (k : nat) (out : list (option A)),
    1 <= w -> cmp_dom w mp (Nat.min k (length xs)) -> cmp_dom w mp (length xs) ->
    ts_vmin body w mp xs = Done out -> ts_vmin body w mp (firstn k xs) = Done (firstn k out).
Proof. exact @ts_vmin_prefix_any. Qed.

Theorem C06_prefix_any_carrier_ts_vmax :
  forall (A : Type) (NA : Num A) (T : Type) (DT : IsNone T A) (body : bool) (w : nat) (mp : option nat)
         (xs : list T) (k : nat) (out : list (option A)),
    1 <= w -> cmp_dom w mp (Nat.min k (length xs)) -> cmp_dom w mp (length xs) ->
    ts_vmax body w mp xs = Done out -> ts_vmax body w mp (firstn k xs) = Done (firstn k out).
Proof. exact @ts_vmax_prefix_any. Qed.

Theorem C06_prefix_any_carrier_ts_vargmin :
  forall (A : Type) (NA : Num A) (T : Type) (DT : IsNone T A) (body : bool) (w : nat) (mp : option nat)
         (xs : list T) (k : nat) (out : list (option nat)),
    1 <= w -> cmp_dom w mp (Nat.min k (length xs)) -> cmp_dom w mp (length xs) ->
    ts_vargmin body w mp xs = Done out -> ts_vargmin body w mp (firstn k xs) = Done (firstn k out).
Proof. exact @ts_vargmin_prefix_any. Qed.

Theorem C06_prefix_any_carrier_ts_vargmax :
  forall (A : Type) (NA : Num A) (T : Type) (DT : IsNone T A) (body : bool) (w : nat) (mp : option nat)
         (xs : list T) (k : nat) (out : list (option nat)),
    1 <= w -> cmp_dom w mp (Nat.min k (length xs)) -> cmp_dom w mp (length xs) ->
    ts_vargmax body w mp xs = Done out -> ts_vargmax body w mp (firstn k xs) = Done (firstn k out).
Proof. exact @ts_vargmax_prefix_any. Qed.

Theorem C06_prefix_any_carrier_ts_vrank :
  forall (A : Type) (NA : Num A) (T : Type) (DT : IsNone T A) (B : Type) (NB : Num B) (body : bool) (w : nat)
         (mp : option nat) (pct rev : bool) (xs : list T) (k : nat) (out : list B),
    1 <= w -> cmp_dom w mp (Nat.min k (length xs)) -> cmp_dom w mp (length xs) ->
    ts_vrank body w mp pct rev xs = Done out -> ts_vrank body w mp pct rev (firstn k xs) = Done (firstn k out).
Proof. exact @ts_vrank_prefix_any. Qed.

(* (11) min-max normalisation (window not clamped, min_periods independent of the length: every cut, omitted or
   explicit min_periods) and the regression-residual statistics (pure callback: the out_of form is unconditional) *)
Theorem C06_prefix_any_carrier_ts_vminmaxnorm :
  forall (A : Type) (NA : Num A) (T : Type) (DT : IsNone T A) (tmin tmax : A) (body : bool) (w : nat)
         (mp : option nat) (xs : list T) (k : nat) (out : list A),
    1 <= w ->
    ts_vminmaxnorm tmin tmax body w mp xs = Done out ->
    ts_vminmaxnorm tmin tmax body w mp (firstn k xs) = Done (firstn k out).
Proof. exact @ts_vminmaxnorm_prefix_any. Qed.

Theorem C06_prefix_any_carrier_ts_vregx_resid :
  forall (A : Type) (NA : Num A) (T1 : Type) (D1 : IsNone T1 A) (T2 : Type) (D2 : IsNone T2 A)
         (k : rstat) (body : bool) (w : nat) (mp : option nat) (xs : list T1) (ys : list T2) (n : nat),
    1 <= w -> length xs <= length ys ->
    out_of (ts_vregx_resid k body w mp (firstn n xs) (firstn n ys))
    = firstn n (out_of (ts_vregx_resid k body w mp xs ys)).
Proof. exact @resid_prefix_any. Qed.

(* (12) in exact arithmetic (option R) min-max normalisation on data bounded by the sentinels always returns, so
   the prefix law holds in the unconditional form *)
Theorem C06_prefix_ts_vminmaxnorm :
  forall (lo hi : R) (body : bool) (w : nat) (mp : option nat) (xs : list XR) (k : nat),
    1 <= w -> bounded lo hi xs ->
    out_of (ts_vminmaxnorm (Some lo) (Some hi) body w mp (firstn k xs))
    = firstn k (out_of (ts_vminmaxnorm (Some lo) (Some hi) body w mp xs)).
Proof. exact mmnorm_prefix. Qed.

(* ---- (B'') window-only law for the remaining families (option R) --------------------------------------- *)
Theorem C06_window_only_ts_vminmaxnorm :
  forall (lo hi : R) (body : bool) (w : nat) (mp : option nat) (xs ys : list XR) (i j : nat),
    1 <= w -> bounded lo hi xs -> bounded lo hi ys -> i < length xs -> j < length ys ->
    win w i xs = win w j ys ->
    nth_error (out_of (ts_vminmaxnorm (Some lo) (Some hi) body w mp xs)) i
    = nth_error (out_of (ts_vminmaxnorm (Some lo) (Some hi) body w mp ys)) j.
Proof. exact mmnorm_window_only. Qed.

Theorem C06_window_only_ts_vregx_resid :   (* resid_mean / resid_std / resid_skew: the windows of both series *)
  forall (k : rstat) (body : bool) (w : nat) (mp : option nat) (xs ys xs' ys' : list XR) (i j : nat),
    1 <= w -> length xs = length ys -> length xs' = length ys' -> i < length xs -> j < length xs' ->
    win w i xs = win w j xs' -> win w i ys = win w j ys' ->
    nth_error (out_of (ts_vregx_resid k body w mp xs ys)) i
    = nth_error (out_of (ts_vregx_resid k body w mp xs' ys')) j.
Proof. exact resid_window_only. Qed.

Theorem C06_window_only_ts_vzscore :
  forall (mp : option nat) (body : bool) (w : nat) (xs ys : list XR) (i j : nat),
    1 <= w -> i < length xs -> j < length ys -> win w i xs = win w j ys ->
    nth_error (ts_out (ts_vzscore_f w mp) body w xs) i = nth_error (ts_out (ts_vzscore_f w mp) body w ys) j.
Proof. exact zscore_window_only. Qed.

(* non-vacuity of (10)-(11) at binary64: a warm-up cut (k = 2 < w = 3), index body; the whole call returns *)
Example C06_example_any_carrier_vmin_float :
  let xs := [1%float; nan; 3%float; 2%float] in
  exists out, ts_vmin (A := float) (DT := IsNoneF64) true 3 (Some 1) xs = Done out /\
              ts_vmin (A := float) (DT := IsNoneF64) true 3 (Some 1) (firstn 2 xs) = Done (firstn 2 out).
Proof.
  intros xs. eexists. split; [vm_compute; reflexivity|].
  apply C06_prefix_any_carrier_ts_vmin; [lia|exact I|exact I|vm_compute; reflexivity].
Qed.
Example C06_example_any_carrier_vargmax_float :
  let xs := [1%float; nan; 3%float; 2%float] in
  exists out, ts_vargmax (A := float) (DT := IsNoneF64) false 3 (Some 1) xs = Done out /\
              ts_vargmax (A := float) (DT := IsNoneF64) false 3 (Some 1) (firstn 2 xs) = Done (firstn 2 out).
Proof.
  intros xs. eexists. split; [vm_compute; reflexivity|].
  apply C06_prefix_any_carrier_ts_vargmax; [lia|exact I|exact I|vm_compute; reflexivity].
Qed.
Example C06_example_any_carrier_vrank_float :
  let xs := [1%float; nan; 3%float; 2%float] in
  exists out, ts_vrank (A := float) (DT := IsNoneF64) (B := float) true 3 (Some 1) false false xs = Done out /\
              ts_vrank (A := float) (DT := IsNoneF64) (B := float) true 3 (Some 1) false false (firstn 2 xs)
              = Done (firstn 2 out).
Proof.
  intros xs. eexists. split; [vm_compute; reflexivity|].
  apply C06_prefix_any_carrier_ts_vrank; [lia|exact I|exact I|vm_compute; reflexivity].
Qed.
Example C06_example_any_carrier_minmaxnorm_float :
  let xs := [1%float; nan; 3%float; 2%float] in
  let lo := (-0x1.fffffffffffffp+1023)%float in let hi := 0x1.fffffffffffffp+1023%float in
  exists out, ts_vminmaxnorm (A := float) (DT := IsNoneF64) lo hi true 3 None xs = Done out /\
              ts_vminmaxnorm (A := float) (DT := IsNoneF64) lo hi true 3 None (firstn 2 xs) = Done (firstn 2 out).
Proof.
  intros xs lo hi. eexists. split; [vm_compute; reflexivity|].
  apply C06_prefix_any_carrier_ts_vminmaxnorm; [lia|vm_compute; reflexivity].
Qed.
Example C06_example_any_carrier_resid_float :
  let xs := [1%float; 2%float; 4%float; 3%float] in let ys := [2%float; 1%float; nan; 5%float; 7%float] in
  out_of (ts_vregx_resid (A := float) (D1 := IsNoneF64) (D2 := IsNoneF64) RStd true 3 None (firstn 2 xs) (firstn 2 ys))
  = firstn 2 (out_of (ts_vregx_resid (A := float) (D1 := IsNoneF64) (D2 := IsNoneF64) RStd true 3 None xs ys)).
Proof. intros xs ys. apply C06_prefix_any_carrier_ts_vregx_resid; cbn; lia. Qed.

(* non-vacuity of (12) and (B''): two different histories, the same last window of 2 *)
Example C06_example_bounded : bounded 0 10 [Some 9%R; None; Some 4%R; Some 7%R].
Proof. intros r [H|[H|[H|[H|[]]]]]; try discriminate; injection H as <-; lra. Qed.
Example C06_example_window_minmaxnorm :
  nth_error (out_of (ts_vminmaxnorm (Some 0%R) (Some 10%R) true 2 (Some 1) [Some 9%R; None; Some 4%R; Some 7%R])) 3
  = nth_error (out_of (ts_vminmaxnorm (Some 0%R) (Some 10%R) true 2 (Some 1) [Some 1%R; Some 4%R; Some 7%R])) 2.
Proof.
  apply C06_window_only_ts_vminmaxnorm; cbn [length]; try lia; try reflexivity.
  - exact C06_example_bounded.
  - intros r [H|[H|[H|[]]]]; injection H as <-; lra.
Qed.
Example C06_example_prefix_minmaxnorm :
  out_of (ts_vminmaxnorm (Some 0%R) (Some 10%R) false 3 None (firstn 2 [Some 9%R; None; Some 4%R; Some 7%R]))
  = firstn 2 (out_of (ts_vminmaxnorm (Some 0%R) (Some 10%R) false 3 None [Some 9%R; None; Some 4%R; Some 7%R])).
Proof. apply C06_prefix_ts_vminmaxnorm; [lia|exact C06_example_bounded]. Qed.
Example C06_example_window_resid :
  nth_error (out_of (ts_vregx_resid RSkew false 2 None [Some 9%R; None; Some 4%R; Some 7%R]
                                                       [Some 1%R; Some 2%R; Some 3%R; Some 5%R])) 3
  = nth_error (out_of (ts_vregx_resid RSkew false 2 None [Some 4%R; Some 7%R] [Some 3%R; Some 5%R])) 1.
Proof. apply C06_window_only_ts_vregx_resid; cbn [length]; try lia; reflexivity. Qed.
Example C06_example_window_zscore :
  nth_error (ts_out (ts_vzscore_f 2 None) true 2 [Some 9%R; None; Some 4%R; Some 7%R]) 3
  = nth_error (ts_out (ts_vzscore_f 2 None) true 2 [Some 4%R; Some 7%R]) 1.
Proof. apply C06_window_only_ts_vzscore; cbn [length]; try lia; reflexivity. Qed.

Print Assumptions C06_prefix_every_feature.
Print Assumptions C06_prefix_two_series.
Print Assumptions C06_prefix_slice_form.
Print Assumptions C06_prefix_ts_vmin.
Print Assumptions C06_prefix_ts_vmax.
Print Assumptions C06_prefix_ts_vargmin.
Print Assumptions C06_prefix_ts_vargmax.
Print Assumptions C06_prefix_ts_vrank.
Print Assumptions C06_omitted_min_periods_short_series_depends_on_length.
Print Assumptions C06_prefix_shift.
Print Assumptions C06_prefix_vshift.
Print Assumptions C06_prefix_vdiff.
Print Assumptions C06_prefix_vpct_change.
Print Assumptions C06_negative_lag_reads_ahead.
Print Assumptions C06_window_only_ts_vmin.
Print Assumptions C06_window_only_ts_vmax.
Print Assumptions C06_window_only_ts_vargmin.
Print Assumptions C06_window_only_ts_vargmax.
Print Assumptions C06_window_only_ts_vrank.
Print Assumptions C06_window_only_moments.
Print Assumptions C06_window_only_ewm.
Print Assumptions C06_window_only_wma.
Print Assumptions C06_window_only_cross_sums.
Print Assumptions C06_window_only_trend.
Print Assumptions C06_window_only_slice_form.
Print Assumptions C06_prefix_index_form_rule.
Print Assumptions C06_prefix_any_carrier_ts_vmin.
Print Assumptions C06_prefix_any_carrier_ts_vmax.
Print Assumptions C06_prefix_any_carrier_ts_vargmin.
Print Assumptions C06_prefix_any_carrier_ts_vargmax.
Print Assumptions C06_prefix_any_carrier_ts_vrank.
Print Assumptions C06_prefix_any_carrier_ts_vminmaxnorm.
Print Assumptions C06_prefix_any_carrier_ts_vregx_resid.
Print Assumptions C06_prefix_ts_vminmaxnorm.
Print Assumptions C06_window_only_ts_vminmaxnorm.
Print Assumptions C06_window_only_ts_vregx_resid.
Print Assumptions C06_window_only_ts_vzscore.

(* ---- (B') pre-window independence of the rolling sum IN BINARY64, quantitatively (Proofs/RoundSum.v) -------
   (7) says the accumulator families carry nothing over from the history in exact arithmetic.  For the rolling sum
   `ts_vsum` at the EXECUTION instance (Coq's primitive binary64 `float`, NaN = null; add -> emit -> remove; only the
   m_s1 / m_n fields of the state matter) the history enters through rounding only, and by this much:
     nops w xs i   additions and subtractions performed up to the emit of step i
                   (= valid elements in positions 0..i  +  valid elements in positions 0..i-w;   <= 2i+1)
     habs w xs i   the magnitude they moved (sum of |x| over the same two ranges;  <= 2 * sum_{k<=i} |x_k|)
     accumulators w xs i   every value the sum field has gone through so far
     u64 = 2^-53,  gam u n = (1+u)^n - 1,  f2r / ffin / rvals64 / fx : see Props/C11.v (R1)-(R4).
   Premise (executable): the emitted value is finite — then so was every accumulator value and every operand.   *)
From Tevec Require Import Spec.Stats Proofs.RoundSum.

(* (13) after ANY history the emitted sum is within ((1+u)^m - 1) * H of the exact sum of the window *)
Theorem C06_ts_vsum_binary64_error :
  forall (w : nat) (mp : option nat) (body : bool) (xs : list PrimFloat.float) (i : nat) (o : PrimFloat.float),
    1 <= w -> nth_error (ts_out (ts_vsum_f (NA := NumF64) (DT := IsNoneF64) w mp) body w xs) i = Some o ->
    ffin o = true ->
    (Rabs (f2r o - sumR (rvals64 (win w i xs))) <= gam u64 (nops w xs i) * habs w xs i)%R.
Proof. exact ts_vsum_binary64_error. Qed.

(* (14) the drift is linear in the number of operations: explicit constants in i alone *)
Theorem C06_ts_vsum_binary64_drift :
  forall (w : nat) (mp : option nat) (body : bool) (xs : list PrimFloat.float) (i : nat) (o : PrimFloat.float),
    1 <= w -> nth_error (ts_out (ts_vsum_f (NA := NumF64) (DT := IsNoneF64) w mp) body w xs) i = Some o ->
    ffin o = true ->
    (Rabs (f2r o - sumR (rvals64 (win w i xs)))
     <= INR (2 * i + 1) * u64 * (1 + u64) ^ (2 * i + 1) * (2 * sumabs (rvals64 (firstn (S i) xs))))%R.
Proof.
  intros w mp body xs i o Hw Ho Hf. eapply Rle_trans; [apply (ts_vsum_binary64_error w mp body xs i o Hw Ho Hf)|].
  apply drift_bound, nops_le, Hw.
Qed.

(* (15) running form: (2i+1) * u * M, M any bound on the accumulator values the run has gone through *)
Theorem C06_ts_vsum_binary64_drift_running :
  forall (w : nat) (mp : option nat) (body : bool) (xs : list PrimFloat.float) (i : nat) (o : PrimFloat.float) (M : R),
    1 <= w -> nth_error (ts_out (ts_vsum_f (NA := NumF64) (DT := IsNoneF64) w mp) body w xs) i = Some o ->
    ffin o = true -> (0 <= M)%R ->
    Forall (fun a => (Rabs (f2r a) <= M)%R) (accumulators w xs i) ->
    (Rabs (f2r o - sumR (rvals64 (win w i xs))) <= INR (2 * i + 1) * u64 * M)%R.
Proof.
  intros w mp body xs i o M Hw Ho Hf HM0 HM.
  eapply Rle_trans; [apply (ts_vsum_binary64_error_running w mp body xs i o M Hw Ho Hf HM)|].
  apply Rmult_le_compat_r; [exact HM0|]. apply Rmult_le_compat_r; [apply u64_nonneg|].
  apply le_INR, nops_le, Hw.
Qed.

(* (16) history independence up to rounding: two series (any lengths, any histories, either body) whose windows at
   positions i and j coincide give sums that differ by at most the two rounding bounds *)
Theorem C06_history_independence_up_to_rounding_ts_vsum :
  forall (w : nat) (mp : option nat) (body1 body2 : bool) (xs ys : list PrimFloat.float) (i j : nat)
         (o1 o2 : PrimFloat.float),
    1 <= w -> win w i xs = win w j ys ->
    nth_error (ts_out (ts_vsum_f (NA := NumF64) (DT := IsNoneF64) w mp) body1 w xs) i = Some o1 ->
    nth_error (ts_out (ts_vsum_f (NA := NumF64) (DT := IsNoneF64) w mp) body2 w ys) j = Some o2 ->
    ffin o1 = true -> ffin o2 = true ->
    (Rabs (f2r o1 - f2r o2) <= gam u64 (nops w xs i) * habs w xs i + gam u64 (nops w ys j) * habs w ys j)%R.
Proof.
  intros w mp body1 body2 xs ys i j o1 o2 Hw HW H1 H2 F1 F2.
  pose proof (ts_vsum_binary64_error w mp body1 xs i o1 Hw H1 F1) as E1. rewrite HW in E1.
  exact (Rabs_sub_le_via _ _ _ _ _ E1 (ts_vsum_binary64_error w mp body2 ys j o2 Hw H2 F2)).
Qed.

Theorem C06_ts_vsum_operation_count :
  forall (w : nat) (xs : list PrimFloat.float) (i : nat),
    1 <= w -> nops w xs i <= 2 * i + 1 /\ (habs w xs i <= 2 * sumabs (rvals64 (firstn (S i) xs)))%R.
Proof. intros w xs i Hw. split; [apply nops_le, Hw|apply habs_le]. Qed.

(* (17) exactness: on a series whose valid elements are finite multiples of 2^e (executable test grid_check) with
   2 * sum |x| < 2^(e+53), no addition or subtraction ever rounds: the binary64 run IS the exact run, for every
   window, min_periods and both bodies.  The generated inputs are k/4, |k| <= 400: this is why the correspondence run
   sees bit-identical rolling sums, and on such data the history does not enter at all. *)
Theorem C06_ts_vsum_exact_on_grid :
  forall (e : Z) (w : nat) (mp : option nat) (body : bool) (xs : list PrimFloat.float),
    1 <= w -> (-1074 <= e <= 971)%Z -> forallb (grid_check e) (fvals xs) = true ->
    (2 * sumabs (rvals64 xs) < pow2 (e + 53))%R ->
    map fx (ts_out (ts_vsum_f (NA := NumF64) (DT := IsNoneF64) w mp) body w xs)
    = ts_out (ts_vsum_f (NA := NumXR) (DT := IsNoneXR) w mp) body w (map fx xs).
Proof.
  intros e w mp body xs Hw He HG Hb.
  apply (ts_vsum_f64_exact_on_grid e w mp body xs Hw He); [apply grid_check_all, HG|exact Hb].
Qed.

(* non-vacuity: two different histories (one of them 1e16: the sum absorbs and loses the small terms), the same last
   window [0.1; 0.2]; both outputs are finite, the windows coincide, and the outputs DO differ in binary64 *)
Example C06_example_rounding_premises :
  exists o1 o2,
    nth_error (ts_out (ts_vsum_f (NA := NumF64) (DT := IsNoneF64) 2 (Some 1)) true 2 [1e16; 0.1; 0.2]%float) 2 = Some o1 /\
    nth_error (ts_out (ts_vsum_f (NA := NumF64) (DT := IsNoneF64) 2 (Some 1)) false 2 [nan; 0.1; 0.2]%float) 2 = Some o2 /\
    ffin o1 = true /\ ffin o2 = true /\
    win 2 2 [1e16; 0.1; 0.2]%float = win 2 2 [nan; 0.1; 0.2]%float /\
    PrimFloat.eqb o1 o2 = false.
Proof. do 2 eexists. repeat split; vm_compute; reflexivity. Qed.
Example C06_example_grid_premises :
  forallb (grid_check (-2)) (fvals [1.25; nan; -0.75; 100]%float) = true /\
  ts_out (ts_vsum_f (NA := NumF64) (DT := IsNoneF64) 2 None) true 2 [1.25; nan; -0.75; 100]%float
  = [1.25; 1.25; -0.75; 99.25]%float.
Proof. split; vm_compute; reflexivity. Qed.

Print Assumptions C06_ts_vsum_binary64_error.
Print Assumptions C06_ts_vsum_binary64_drift.
Print Assumptions C06_ts_vsum_binary64_drift_running.
Print Assumptions C06_history_independence_up_to_rounding_ts_vsum.
Print Assumptions C06_ts_vsum_operation_count.
Print Assumptions C06_ts_vsum_exact_on_grid.

(* ---- (B''') the rolling MEAN in binary64, and window-local exactness (Proofs/RoundMean.v) ----------------------
   The mean divides the rolling sum by `n as f64` (exact for n <= w < 2^53): one more correctly rounded operation,
   which CAN underflow — error model |fl(x) - x| <= u |x| + eta, eta64 = 2^-1075 (Props/C11.v (R5)).               *)
From Coq Require Import ZArith.
From Tevec Require Import Proofs.RoundMean.

(* (18) after ANY history the emitted mean is within ((1+u)^(m+1) - 1) * H / n + eta of the exact mean of the window *)
Theorem C06_ts_vmean_binary64_error :
  forall (w : nat) (mp : option nat) (body : bool) (xs : list PrimFloat.float) (i : nat) (o : PrimFloat.float),
    1 <= w -> (Z.of_nat w < 2 ^ 53)%Z ->
    nth_error (ts_out (ts_vmean_f (NA := NumF64) (DT := IsNoneF64) w mp) body w xs) i = Some o -> ffin o = true ->
    (Rabs (f2r o - meanR (rvals64 (win w i xs)))
     <= gam u64 (S (nops w xs i)) * (habs w xs i / INR (length (rvals64 (win w i xs)))) + eta64)%R.
Proof. exact ts_vmean_binary64_error. Qed.

(* (19) history independence up to rounding for the mean: two series (any lengths, any histories, either body) whose
   windows at positions i and j coincide give means that differ by at most the two rounding bounds *)
Theorem C06_history_independence_up_to_rounding_ts_vmean :
  forall (w : nat) (mp : option nat) (body1 body2 : bool) (xs ys : list PrimFloat.float) (i j : nat)
         (o1 o2 : PrimFloat.float),
    1 <= w -> (Z.of_nat w < 2 ^ 53)%Z -> win w i xs = win w j ys ->
    nth_error (ts_out (ts_vmean_f (NA := NumF64) (DT := IsNoneF64) w mp) body1 w xs) i = Some o1 ->
    nth_error (ts_out (ts_vmean_f (NA := NumF64) (DT := IsNoneF64) w mp) body2 w ys) j = Some o2 ->
    ffin o1 = true -> ffin o2 = true ->
    (Rabs (f2r o1 - f2r o2)
     <= (gam u64 (S (nops w xs i)) * habs w xs i + gam u64 (S (nops w ys j)) * habs w ys j)
        / INR (length (rvals64 (win w j ys))) + 2 * eta64)%R.
Proof.
  intros w mp body1 body2 xs ys i j o1 o2 Hw Hw53 HW H1 H2 F1 F2.
  pose proof (ts_vmean_binary64_error w mp body1 xs i o1 Hw Hw53 H1 F1) as E1. rewrite HW in E1.
  eapply Rle_trans; [exact (Rabs_sub_le_via _ _ _ _ _ E1 (ts_vmean_binary64_error w mp body2 ys j o2 Hw Hw53 H2 F2))|].
  unfold Rdiv. lra.
Qed.

(* (20) exactness of the rolling sum under a WINDOW-LOCAL premise (strengthens (17), which needs the whole history in
   range): valid elements multiples of 2^e, every window's sum of |x| below 2^(e+53) — then no addition or subtraction
   rounds however long the series: on such data the history does not enter at all *)
Theorem C06_ts_vsum_exact_on_grid_local :
  forall (e : Z) (w : nat) (mp : option nat) (body : bool) (xs : list PrimFloat.float),
    (-1074 <= e)%Z -> (e + 53 <= 1024)%Z -> 1 <= w -> forallb (grid_check e) (fvals xs) = true ->
    (forall i, i < length xs -> (spow 1 (rvals64 (win w i xs)) < pow2 (e + 53))%R) ->
    map fx (ts_out (ts_vsum_f (NA := NumF64) (DT := IsNoneF64) w mp) body w xs)
    = ts_out (ts_vsum_f (NA := NumXR) (DT := IsNoneXR) w mp) body w (map fx xs).
Proof.
  intros e w mp body xs E1 E2 Hw HG HW.
  exact (ts_vsum_f64_exact_on_grid_local e w mp body xs (erange_1 e E1 E2) Hw (grid_check_all _ _ HG)
           (windows_in_range_1 e w xs HW)).
Qed.

(* non-vacuity of (18)-(19): the histories 1e16 / NaN in front of the same window [0.1; 0.2]; the means DO differ *)
Example C06_example_mean_rounding_premises :
  exists o1 o2,
    nth_error (ts_out (ts_vmean_f (NA := NumF64) (DT := IsNoneF64) 2 (Some 1)) true 2 [1e16; 0.1; 0.2]%float) 2 = Some o1 /\
    nth_error (ts_out (ts_vmean_f (NA := NumF64) (DT := IsNoneF64) 2 (Some 1)) false 2 [nan; 0.1; 0.2]%float) 2 = Some o2 /\
    ffin o1 = true /\ ffin o2 = true /\ (Z.of_nat 2 < 2 ^ 53)%Z /\
    win 2 2 [1e16; 0.1; 0.2]%float = win 2 2 [nan; 0.1; 0.2]%float /\
    PrimFloat.eqb o1 o2 = false.
Proof. do 2 eexists. repeat split; vm_compute; reflexivity. Qed.
(* non-vacuity of (20): a series whose total magnitude is irrelevant — only windows matter; executable premises *)
Example C06_example_grid_local_premises :
  forallb (grid_check (-2)) (fvals [1.25; nan; -0.75; 100]%float) = true /\
  forallb (abs_le_check 100) (fvals [1.25; nan; -0.75; 100]%float) = true /\ (-1074 <= -2)%Z /\ (-2 + 53 <= 1024)%Z.
Proof. repeat split; try (vm_compute; reflexivity); discriminate. Qed.

Print Assumptions C06_ts_vmean_binary64_error.
Print Assumptions C06_history_independence_up_to_rounding_ts_vmean.
Print Assumptions C06_ts_vsum_exact_on_grid_local.

(* ---- (C) the extrema / arg-extrema / rank family at EVERY ordered carrier, incl. binary64 ------------------------
   (4) / (6) above are at the integer carrier; (10) holds at every carrier but only in the form "IF the whole call
   returns THEN the prefix call returns the prefix".  With the closed forms of Props/C03.v for every carrier satisfying
   the order laws `OrdLaws A` of Spec/ExtremaOrd.v (Z, option R, Coq's primitive binary64 `float`) the whole call always
   returns on a series whose valid elements are not NaN (`valid_not_nan`: automatic when NaN IS the null; for
   Option<f64> it excludes Some(NaN), DESIGN 5.4), so (Proofs/MaskOrd.v):
     prefix      — UNCONDITIONAL: the call on the whole series returns some `out` of the input length and the call on
                   the prefix returns `firstn k out`, bit for bit; every cut k, window >= 1, both bodies, the min_periods
                   condition of DESIGN 5.3 (`cmp_dom`, as in (4));
     window-only — two series of any lengths and histories, each run with either driver body: if the windows at
                   positions i and j coincide, both calls return and the two outputs are the same value.
   ts_vrank needs neither a law nor a premise on the series and holds for every OUTPUT carrier B as well: at
   A = B = binary64 the rank arithmetic itself (additions of 1.0, `0.5 * (n_repeat - 1)`, the division by n) is
   covered bit for bit — the output is one function of the window (`g_rank_any`), proved for every carrier.         *)
From Tevec Require Import Spec.ExtremaOrd Proofs.CmpOrd Proofs.MaskOrd.

Theorem C06_prefix_ordered_ts_vmin :
  forall (A : Type) (NA : Num A), OrdLaws A ->
  forall (T : Type) (DT : IsNone T A) (body : bool) (w : nat) (mp : option nat) (xs : list T) (k : nat),
    valid_not_nan xs -> 1 <= w -> cmp_dom w mp (Nat.min k (length xs)) -> cmp_dom w mp (length xs) ->
    exists out, ts_vmin body w mp xs = Done out /\ length out = length xs /\
                ts_vmin body w mp (firstn k xs) = Done (firstn k out).
Proof. intros A NA OL T DT. exact (prefix_vmin_ord OL). Qed.

Theorem C06_prefix_ordered_ts_vmax :
  forall (A : Type) (NA : Num A), OrdLaws A ->
  forall (T : Type) (DT : IsNone T A) (body : bool) (w : nat) (mp : option nat) (xs : list T) (k : nat),
    valid_not_nan xs -> 1 <= w -> cmp_dom w mp (Nat.min k (length xs)) -> cmp_dom w mp (length xs) ->
    exists out, ts_vmax body w mp xs = Done out /\ length out = length xs /\
                ts_vmax body w mp (firstn k xs) = Done (firstn k out).
Proof. intros A NA OL T DT. exact (prefix_vmax_ord OL). Qed.

Theorem C06_prefix_ordered_ts_vargmin :
  forall (A : Type) (NA : Num A), OrdLaws A ->
  forall (T : Type) (DT : IsNone T A) (body : bool) (w : nat) (mp : option nat) (xs : list T) (k : nat),
    valid_not_nan xs -> 1 <= w -> cmp_dom w mp (Nat.min k (length xs)) -> cmp_dom w mp (length xs) ->
    exists out, ts_vargmin body w mp xs = Done out /\ length out = length xs /\
                ts_vargmin body w mp (firstn k xs) = Done (firstn k out).
Proof. intros A NA OL T DT. exact (prefix_vargmin_ord OL). Qed.

Theorem C06_prefix_ordered_ts_vargmax :
  forall (A : Type) (NA : Num A), OrdLaws A ->
  forall (T : Type) (DT : IsNone T A) (body : bool) (w : nat) (mp : option nat) (xs : list T) (k : nat),
    valid_not_nan xs -> 1 <= w -> cmp_dom w mp (Nat.min k (length xs)) -> cmp_dom w mp (length xs) ->
    exists out, ts_vargmax body w mp xs = Done out /\ length out = length xs /\
                ts_vargmax body w mp (firstn k xs) = Done (firstn k out).
Proof. intros A NA OL T DT. exact (prefix_vargmax_ord OL). Qed.

(* ts_vrank: every input carrier A, every output carrier B, every null dictionary, every series — no law, no premise *)
Theorem C06_prefix_unconditional_ts_vrank :
  forall (A : Type) (NA : Num A) (T : Type) (DT : IsNone T A) (B : Type) (NB : Num B) (body : bool) (w : nat)
         (mp : option nat) (pct rev : bool) (xs : list T) (k : nat),
    1 <= w -> cmp_dom w mp (Nat.min k (length xs)) -> cmp_dom w mp (length xs) ->
    exists out, ts_vrank (B := B) body w mp pct rev xs = Done out /\ length out = length xs /\
                ts_vrank (B := B) body w mp pct rev (firstn k xs) = Done (firstn k out).
Proof. intros A NA T DT B NB. exact prefix_vrank_any. Qed.

Theorem C06_window_only_ordered_ts_vmin :
  forall (A : Type) (NA : Num A), OrdLaws A ->
  forall (T : Type) (DT : IsNone T A) (bx by_ : bool) (w : nat) (mp : option nat) (xs ys : list T) (i j : nat),
    1 <= w -> valid_not_nan xs -> valid_not_nan ys -> cmp_dom w mp (length xs) -> cmp_dom w mp (length ys) ->
    i < length xs -> j < length ys -> win w i xs = win w j ys ->
    exists ox oy o, ts_vmin bx w mp xs = Done ox /\ ts_vmin by_ w mp ys = Done oy /\
                    nth_error ox i = Some o /\ nth_error oy j = Some o.
Proof. intros A NA OL T DT. exact (window_only_vmin_ord OL). Qed.

Theorem C06_window_only_ordered_ts_vmax :
  forall (A : Type) (NA : Num A), OrdLaws A ->
  forall (T : Type) (DT : IsNone T A) (bx by_ : bool) (w : nat) (mp : option nat) (xs ys : list T) (i j : nat),
    1 <= w -> valid_not_nan xs -> valid_not_nan ys -> cmp_dom w mp (length xs) -> cmp_dom w mp (length ys) ->
    i < length xs -> j < length ys -> win w i xs = win w j ys ->
    exists ox oy o, ts_vmax bx w mp xs = Done ox /\ ts_vmax by_ w mp ys = Done oy /\
                    nth_error ox i = Some o /\ nth_error oy j = Some o.
Proof. intros A NA OL T DT. exact (window_only_vmax_ord OL). Qed.

Theorem C06_window_only_ordered_ts_vargmin :
  forall (A : Type) (NA : Num A), OrdLaws A ->
  forall (T : Type) (DT : IsNone T A) (bx by_ : bool) (w : nat) (mp : option nat) (xs ys : list T) (i j : nat),
    1 <= w -> valid_not_nan xs -> valid_not_nan ys -> cmp_dom w mp (length xs) -> cmp_dom w mp (length ys) ->
    i < length xs -> j < length ys -> win w i xs = win w j ys ->
    exists ox oy o, ts_vargmin bx w mp xs = Done ox /\ ts_vargmin by_ w mp ys = Done oy /\
                    nth_error ox i = Some o /\ nth_error oy j = Some o.
Proof. intros A NA OL T DT. exact (window_only_vargmin_ord OL). Qed.

Theorem C06_window_only_ordered_ts_vargmax :
  forall (A : Type) (NA : Num A), OrdLaws A ->
  forall (T : Type) (DT : IsNone T A) (bx by_ : bool) (w : nat) (mp : option nat) (xs ys : list T) (i j : nat),
    1 <= w -> valid_not_nan xs -> valid_not_nan ys -> cmp_dom w mp (length xs) -> cmp_dom w mp (length ys) ->
    i < length xs -> j < length ys -> win w i xs = win w j ys ->
    exists ox oy o, ts_vargmax bx w mp xs = Done ox /\ ts_vargmax by_ w mp ys = Done oy /\
                    nth_error ox i = Some o /\ nth_error oy j = Some o.
Proof. intros A NA OL T DT. exact (window_only_vargmax_ord OL). Qed.

Theorem C06_window_only_any_carrier_ts_vrank :
  forall (A : Type) (NA : Num A) (T : Type) (DT : IsNone T A) (B : Type) (NB : Num B) (bx by_ : bool) (w : nat)
         (mp : option nat) (pct rev : bool) (xs ys : list T) (i j : nat),
    1 <= w -> cmp_dom w mp (length xs) -> cmp_dom w mp (length ys) ->
    i < length xs -> j < length ys -> win w i xs = win w j ys ->
    exists ox oy o, ts_vrank (B := B) bx w mp pct rev xs = Done ox /\ ts_vrank (B := B) by_ w mp pct rev ys = Done oy /\
                    nth_error ox i = Some o /\ nth_error oy j = Some o.
Proof. intros A NA T DT B NB. exact window_only_vrank_any. Qed.

(* the closed form behind it: output i of ts_vrank is `g_rank_any` of window i, for every carrier pair and both bodies *)
Theorem C06_ts_vrank_is_a_function_of_the_window :
  forall (A : Type) (NA : Num A) (T : Type) (DT : IsNone T A) (B : Type) (NB : Num B) (body : bool) (w : nat)
         (mp : option nat) (pct rev : bool) (xs : list T),
    1 <= w -> 1 <= length xs ->
    exists out, ts_vrank (B := B) body w mp pct rev xs = Done out /\ length out = length xs /\
      forall i, i < length xs ->
        nth_error out i = Some (g_rank_any (cmp_mp mp (cmp_window w xs)) pct rev (win w i (map to_opt xs))).
Proof. intros A NA T DT B NB. exact ts_vrank_any. Qed.

(* binary64: f64 series with NaN as the null (no premise on the series) ... *)
Theorem C06_prefix_extrema_binary64 :
  forall (body : bool) (w : nat) (mp : option nat) (xs : list float) (k : nat),
    1 <= w -> cmp_dom w mp (Nat.min k (length xs)) -> cmp_dom w mp (length xs) ->
    (exists out, ts_vmin (DT := IsNoneF64) body w mp xs = Done out /\ length out = length xs /\
                 ts_vmin (DT := IsNoneF64) body w mp (firstn k xs) = Done (firstn k out)) /\
    (exists out, ts_vmax (DT := IsNoneF64) body w mp xs = Done out /\ length out = length xs /\
                 ts_vmax (DT := IsNoneF64) body w mp (firstn k xs) = Done (firstn k out)) /\
    (exists out, ts_vargmin (DT := IsNoneF64) body w mp xs = Done out /\ length out = length xs /\
                 ts_vargmin (DT := IsNoneF64) body w mp (firstn k xs) = Done (firstn k out)) /\
    (exists out, ts_vargmax (DT := IsNoneF64) body w mp xs = Done out /\ length out = length xs /\
                 ts_vargmax (DT := IsNoneF64) body w mp (firstn k xs) = Done (firstn k out)).
Proof. exact prefix_extrema_f64. Qed.

Theorem C06_window_only_extrema_binary64 :
  forall (bx by_ : bool) (w : nat) (mp : option nat) (xs ys : list float) (i j : nat),
    1 <= w -> cmp_dom w mp (length xs) -> cmp_dom w mp (length ys) ->
    i < length xs -> j < length ys -> win w i xs = win w j ys ->
    (exists ox oy o, ts_vmin (DT := IsNoneF64) bx w mp xs = Done ox /\ ts_vmin (DT := IsNoneF64) by_ w mp ys = Done oy /\
                     nth_error ox i = Some o /\ nth_error oy j = Some o) /\
    (exists ox oy o, ts_vmax (DT := IsNoneF64) bx w mp xs = Done ox /\ ts_vmax (DT := IsNoneF64) by_ w mp ys = Done oy /\
                     nth_error ox i = Some o /\ nth_error oy j = Some o) /\
    (exists ox oy o, ts_vargmin (DT := IsNoneF64) bx w mp xs = Done ox /\ ts_vargmin (DT := IsNoneF64) by_ w mp ys = Done oy /\
                     nth_error ox i = Some o /\ nth_error oy j = Some o) /\
    (exists ox oy o, ts_vargmax (DT := IsNoneF64) bx w mp xs = Done ox /\ ts_vargmax (DT := IsNoneF64) by_ w mp ys = Done oy /\
                     nth_error ox i = Some o /\ nth_error oy j = Some o).
Proof. exact window_only_extrema_f64. Qed.

(* ... and Option<f64> series under the premise of DESIGN 5.4 (no Some(NaN); C03_some_nan_is_outside_the_property shows
   that on Some(NaN) elements the model of ts_vargmin does not return) *)
Theorem C06_prefix_extrema_option_binary64 :
  forall (body : bool) (w : nat) (mp : option nat) (xs : list (option float)) (k : nat),
    valid_not_nan (DT := IsNoneOptF64) xs ->
    1 <= w -> cmp_dom w mp (Nat.min k (length xs)) -> cmp_dom w mp (length xs) ->
    (exists out, ts_vmin (DT := IsNoneOptF64) body w mp xs = Done out /\ length out = length xs /\
                 ts_vmin (DT := IsNoneOptF64) body w mp (firstn k xs) = Done (firstn k out)) /\
    (exists out, ts_vmax (DT := IsNoneOptF64) body w mp xs = Done out /\ length out = length xs /\
                 ts_vmax (DT := IsNoneOptF64) body w mp (firstn k xs) = Done (firstn k out)) /\
    (exists out, ts_vargmin (DT := IsNoneOptF64) body w mp xs = Done out /\ length out = length xs /\
                 ts_vargmin (DT := IsNoneOptF64) body w mp (firstn k xs) = Done (firstn k out)) /\
    (exists out, ts_vargmax (DT := IsNoneOptF64) body w mp xs = Done out /\ length out = length xs /\
                 ts_vargmax (DT := IsNoneOptF64) body w mp (firstn k xs) = Done (firstn k out)).
Proof. exact prefix_extrema_optf64. Qed.

Theorem C06_window_only_extrema_option_binary64 :
  forall (bx by_ : bool) (w : nat) (mp : option nat) (xs ys : list (option float)) (i j : nat),
    valid_not_nan (DT := IsNoneOptF64) xs -> valid_not_nan (DT := IsNoneOptF64) ys ->
    1 <= w -> cmp_dom w mp (length xs) -> cmp_dom w mp (length ys) ->
    i < length xs -> j < length ys -> win w i xs = win w j ys ->
    (exists ox oy o, ts_vmin (DT := IsNoneOptF64) bx w mp xs = Done ox /\ ts_vmin (DT := IsNoneOptF64) by_ w mp ys = Done oy /\
                     nth_error ox i = Some o /\ nth_error oy j = Some o) /\
    (exists ox oy o, ts_vmax (DT := IsNoneOptF64) bx w mp xs = Done ox /\ ts_vmax (DT := IsNoneOptF64) by_ w mp ys = Done oy /\
                     nth_error ox i = Some o /\ nth_error oy j = Some o) /\
    (exists ox oy o, ts_vargmin (DT := IsNoneOptF64) bx w mp xs = Done ox /\
                     ts_vargmin (DT := IsNoneOptF64) by_ w mp ys = Done oy /\
                     nth_error ox i = Some o /\ nth_error oy j = Some o) /\
    (exists ox oy o, ts_vargmax (DT := IsNoneOptF64) bx w mp xs = Done ox /\
                     ts_vargmax (DT := IsNoneOptF64) by_ w mp ys = Done oy /\
                     nth_error ox i = Some o /\ nth_error oy j = Some o).
Proof. exact window_only_extrema_optf64. Qed.

(* ts_vrank with binary64 input AND output (the instance the correspondence run executes): both laws, no premise *)
Theorem C06_ts_vrank_binary64_no_lookahead :
  forall (bx by_ : bool) (w : nat) (mp : option nat) (pct rev : bool) (xs ys : list float) (i j k : nat),
    1 <= w ->
    (cmp_dom w mp (Nat.min k (length xs)) -> cmp_dom w mp (length xs) ->
     exists out, ts_vrank (DT := IsNoneF64) (B := float) bx w mp pct rev xs = Done out /\ length out = length xs /\
                 ts_vrank (DT := IsNoneF64) (B := float) bx w mp pct rev (firstn k xs) = Done (firstn k out)) /\
    (cmp_dom w mp (length xs) -> cmp_dom w mp (length ys) ->
     i < length xs -> j < length ys -> win w i xs = win w j ys ->
     exists ox oy o, ts_vrank (DT := IsNoneF64) (B := float) bx w mp pct rev xs = Done ox /\
                     ts_vrank (DT := IsNoneF64) (B := float) by_ w mp pct rev ys = Done oy /\
                     nth_error ox i = Some o /\ nth_error oy j = Some o).
Proof. exact vrank_f64_no_lookahead. Qed.

(* non-vacuity: premises of the ordered theorems on concrete binary64 data (OrdLaws float: C03_order_laws_binary64) *)
Example C06_example_ordered_prefix_binary64 :
  let xs := [1%float; nan; 3%float; 2%float; (-0)%float] in
  1 <= 3 /\ cmp_dom 3 None (Nat.min 4 (length xs)) /\ cmp_dom 3 None (length xs) /\
  valid_not_nan (DT := IsNoneF64) xs /\
  ts_vargmin (DT := IsNoneF64) true 3 None xs = Done [Some 1; Some 1; Some 1; Some 3; Some 3] /\
  ts_vargmin (DT := IsNoneF64) true 3 None (firstn 4 xs) = Done (firstn 4 [Some 1; Some 1; Some 1; Some 3; Some 3]).
Proof.
  intros xs. split; [lia|]. split; [cbn; lia|]. split; [cbn; lia|]. split; [exact (valid_not_nan_f64 xs)|].
  split; vm_compute; reflexivity.
Qed.
Example C06_example_ordered_window_binary64 :
  let xs := [5%float; 1%float; 2%float] in let ys := [nan; 9%float; 1%float; 2%float] in
  1 <= 2 /\ cmp_dom 2 None (length xs) /\ cmp_dom 2 None (length ys) /\ 2 < length xs /\ 3 < length ys /\
  win 2 2 xs = win 2 3 ys /\
  nth_error (out_of (ts_vmax (DT := IsNoneF64) true 2 None xs)) 2 = Some (Some 2%float) /\
  nth_error (out_of (ts_vmax (DT := IsNoneF64) false 2 None ys)) 3 = Some (Some 2%float).
Proof.
  intros xs ys. split; [lia|]. split; [cbn; lia|]. split; [cbn; lia|]. split; [cbn; lia|]. split; [cbn; lia|].
  split; [reflexivity|]. split; vm_compute; reflexivity.
Qed.
Example C06_example_ordered_option_binary64 :
  let xs := [Some 5%float; None; Some 2%float] in let ys := [Some 7%float; Some 1%float; None; Some 2%float] in
  valid_not_nan (DT := IsNoneOptF64) xs /\ valid_not_nan (DT := IsNoneOptF64) ys /\
  cmp_dom 2 (Some 1) (length xs) /\ cmp_dom 2 (Some 1) (length ys) /\ win 2 2 xs = win 2 3 ys.
Proof.
  intros xs ys. split; [|split; [|split; [exact I|split; [exact I|reflexivity]]]].
  - intros v [<-|[<-|[<-|[]]]] H; try discriminate; reflexivity.
  - intros v [<-|[<-|[<-|[<-|[]]]]] H; try discriminate; reflexivity.
Qed.
Example C06_example_vrank_binary64_window :
  let xs := [5%float; 1%float; 2%float; 2%float] in let ys := [nan; 1%float; 2%float; 2%float] in
  1 <= 3 /\ cmp_dom 3 (Some 2) (length xs) /\ cmp_dom 3 (Some 2) (length ys) /\ win 3 3 xs = win 3 3 ys /\
  nth_error (out_of (ts_vrank (DT := IsNoneF64) (B := float) true 3 (Some 2) true false xs)) 3 = Some (0x1.aaaaaaaaaaaabp-1)%float /\
  nth_error (out_of (ts_vrank (DT := IsNoneF64) (B := float) false 3 (Some 2) true false ys)) 3 = Some (0x1.aaaaaaaaaaaabp-1)%float.
Proof.
  intros xs ys. split; [lia|]. split; [exact I|]. split; [exact I|]. split; [reflexivity|]. split; vm_compute; reflexivity.
Qed.

Print Assumptions C06_prefix_ordered_ts_vmin.
Print Assumptions C06_prefix_ordered_ts_vmax.
Print Assumptions C06_prefix_ordered_ts_vargmin.
Print Assumptions C06_prefix_ordered_ts_vargmax.
Print Assumptions C06_prefix_unconditional_ts_vrank.
Print Assumptions C06_window_only_ordered_ts_vmin.
Print Assumptions C06_window_only_ordered_ts_vmax.
Print Assumptions C06_window_only_ordered_ts_vargmin.
Print Assumptions C06_window_only_ordered_ts_vargmax.
Print Assumptions C06_window_only_any_carrier_ts_vrank.
Print Assumptions C06_ts_vrank_is_a_function_of_the_window.
Print Assumptions C06_prefix_extrema_binary64.
Print Assumptions C06_window_only_extrema_binary64.
Print Assumptions C06_prefix_extrema_option_binary64.
Print Assumptions C06_window_only_extrema_option_binary64.
Print Assumptions C06_ts_vrank_binary64_no_lookahead.

(* ==================================================================================================================
   (D) the remaining clauses of the statement (notes/C06.md has the clause-by-clause matrix).
       (D1) the prefix law at the level of the OUTCOME of the call, for EVERY window (no `1 <= w` as in (1));
       (D2) the two-series ENTRY points (with the length assertion of the index body and the silent truncation of the
            iterator body) on series of any lengths: prefix law, window-only law, and the refuted `out_of` form;
       (D3) a roster: the 14 + 8 one-series add-emit-remove entry points by name, every carrier;
       (D4) the fractional differences by name; rejected fill values of vshift / vdiff.
   ================================================================================================================== *)
From Tevec Require Import Model.Fdiff Proofs.Audit01 Proofs.Audit04 Proofs.Audit05 Proofs.Audit06.

(* the law: whenever the call on the whole series returns, the call on ANY prefix returns the prefix of its result — bit for
   bit, and in particular the prefix call does not panic *)
Definition C06_outcome_prefix_law {T O : Type} (f : list T -> outcome O) : Prop :=
  forall (xs : list T) (k : nat) (out : list O), f xs = Done out -> f (firstn k xs) = Done (firstn k out).

(* (D1) every add-emit-remove feature, any element type / state / output / carrier, both bodies, EVERY window (at window 0 the
   whole call returns only on the empty series) *)
Theorem C06_prefix_outcome_every_feature :
  forall (T St O : Type) (F : feat T St O) (body : bool) (w : nat), C06_outcome_prefix_law (ts_run F body w).
Proof. intros T St O F body w xs k out. apply ts_run_prefix_outcome. Qed.

Theorem C06_prefix_every_feature_any_window :
  forall (T St O : Type) (F : feat T St O) (body : bool) (w : nat) (xs : list T) (k : nat),
    ts_out F body w (firstn k xs) = firstn k (ts_out F body w xs).
Proof.
  intros T St O F body w xs k. destruct w as [|w]; [|apply ts_out_prefix; lia].
  unfold ts_out. rewrite !Generic.ts_run_window0.
  destruct xs as [|x xs]; [rewrite !firstn_nil; reflexivity|]. rewrite firstn_nil.
  destruct (firstn k (x :: xs)); reflexivity.
Qed.

(* (D2) two-series entry points, series of ANY lengths, every window: cut both series at k *)
Theorem C06_prefix_two_series_entry :
  forall (T1 T2 St O : Type) (F : feat (T1 * T2) St O) (body : bool) (w : nat) (xs : list T1) (ys : list T2)
         (k : nat) (out : list O),
    ts_run2 F body w xs ys = Done out -> ts_run2 F body w (firstn k xs) (firstn k ys) = Done (firstn k out).
Proof.
  intros T1 T2 St O F body w xs ys k out H. destruct w as [|w].
  - rewrite ts_run2_window0 in H. destruct xs; [|discriminate]. injection H as <-.
    rewrite !firstn_nil. rewrite ts_run2_window0. reflexivity.
  - rewrite ts_run2_as_ts_run in H |- * by lia. rewrite !firstn_length.
    destruct (body && (length ys <? length xs)) eqn:E; [discriminate|].
    replace (body && (Nat.min k (length ys) <? Nat.min k (length xs))) with false.
    + rewrite <- combine_firstn. apply ts_run_prefix_outcome. exact H.
    + symmetry. destruct body; [|reflexivity]. cbn [andb] in E |- *. apply Nat.ltb_ge in E. apply Nat.ltb_ge. lia.
Qed.

(* the `out_of` form (as in (2), over the zipped series) cannot be stated for the entry point: when the index body rejects
   the whole call (second series shorter) a prefix that fits is accepted, so "prefix of the result" would be empty *)
Theorem C06_prefix_two_series_needs_accepted_whole :
  out_of (ts_run2 (ts_vcov_f (A := Z) (D1 := IsNone_option) (D2 := IsNone_option) 1 (Some 0)) true 1
                  (firstn 1 [Some 1%Z; Some 2%Z]) (firstn 1 [Some 3%Z]))
  <> firstn 1 (out_of (ts_run2 (ts_vcov_f (A := Z) (D1 := IsNone_option) (D2 := IsNone_option) 1 (Some 0)) true 1
                               [Some 1%Z; Some 2%Z] [Some 3%Z])).
Proof. vm_compute. discriminate. Qed.

(* window-only for cov / corr / regression-on-x (any emit of the cross sums), exact reals: two PAIRS of series of any lengths
   (accepted by their bodies), each run with either body; equal windows of BOTH series give the same output value *)
Theorem C06_window_only_two_series_entry :
  forall (O : Type) (emit : @csum XR -> O) (bx by_ : bool) (w : nat) (xs ys xs' ys' : list XR) (i j : nat),
    1 <= w -> (bx = false \/ length xs <= length ys) -> (by_ = false \/ length xs' <= length ys') ->
    i < Nat.min (length xs) (length ys) -> j < Nat.min (length xs') (length ys') ->
    win w i xs = win w j xs' -> win w i ys = win w j ys' ->
    exists ox oy o, ts_run2 (csum_feat emit) bx w xs ys = Done ox /\ ts_run2 (csum_feat emit) by_ w xs' ys' = Done oy /\
                    nth_error ox i = Some o /\ nth_error oy j = Some o.
Proof.
  intros O emit bx by_ w xs ys xs' ys' i j Hw Hbx Hby Hi Hj W1 W2.
  rewrite (ts_run2_done_ts_out (csum_feat emit) bx w xs ys Hw Hbx),
          (ts_run2_done_ts_out (csum_feat emit) by_ w xs' ys' Hw Hby).
  assert (Hl : i < length (combine xs ys)) by (rewrite combine_length; exact Hi).
  assert (Hl' : j < length (combine xs' ys')) by (rewrite combine_length; exact Hj).
  assert (Eb : forall zs, ts_out (csum_feat emit) by_ w zs = ts_out (csum_feat emit) bx w zs).
  { intros zs. unfold ts_out. destruct bx, by_; try reflexivity;
      [rewrite (Audit01.ts_run_bodies_agree (csum_feat emit) w zs)
      |rewrite <- (Audit01.ts_run_bodies_agree (csum_feat emit) w zs)]; reflexivity. }
  pose proof (csum_window_only emit bx w (combine xs ys) (combine xs' ys') i j Hw Hl Hl'
                ltac:(rewrite !Proofs.Binary.win_combine, W1, W2; reflexivity)) as P.
  destruct (nth_error (ts_out (csum_feat emit) bx w (combine xs ys)) i) as [o|] eqn:Eo.
  - eexists _, _, o. split; [reflexivity|]. split; [reflexivity|]. split; [exact Eo|]. rewrite Eb. symmetry. exact P.
  - exfalso. apply nth_error_None in Eo. unfold ts_out in Eo.
    destruct (Generic.ts_run_total (csum_feat emit) w (combine xs ys) bx Hw) as (o' & E & L). rewrite E in Eo. lia.
Qed.

(* (D3) roster: the null-aware one-series add-emit-remove entry points by name — every carrier A (binary64 bit for bit), every
   null dictionary (IsNone_never: the 8 plain twins ts_sum .. ts_kurt, ts_ewm, ts_wma), every window and min_periods *)
Theorem C06_prefix_roster_one_series :
  forall (A : Type) (NA : Num A) (T : Type) (DT : IsNone T A) (body : bool) (w : nat) (mp : option nat),
    C06_outcome_prefix_law (ts_run (ts_vsum_f w mp) body w) /\ C06_outcome_prefix_law (ts_run (ts_vmean_f w mp) body w) /\
    C06_outcome_prefix_law (ts_run (ts_vvar_f w mp) body w) /\ C06_outcome_prefix_law (ts_run (ts_vstd_f w mp) body w) /\
    C06_outcome_prefix_law (ts_run (ts_vskew_f w mp) body w) /\ C06_outcome_prefix_law (ts_run (ts_vkurt_f w mp) body w) /\
    C06_outcome_prefix_law (ts_run (ts_vewm_f w mp) body w) /\ C06_outcome_prefix_law (ts_run (ts_vwma_f w mp) body w) /\
    C06_outcome_prefix_law (ts_vzscore body w mp) /\
    C06_outcome_prefix_law (ts_run (ts_vreg_f w mp) body w) /\ C06_outcome_prefix_law (ts_run (ts_vtsf_f w mp) body w) /\
    C06_outcome_prefix_law (ts_run (ts_vreg_slope_f w mp) body w) /\
    C06_outcome_prefix_law (ts_run (ts_vreg_intercept_f w mp) body w) /\
    C06_outcome_prefix_law (ts_run (ts_vreg_resid_mean_f w mp) body w).
Proof.
  intros A NA T DT body w mp. repeat split; intros xs k out; apply ts_run_prefix_outcome.
Qed.

(* (D4) the fractional differences by name (slice-form driver, (3)), every carrier and order d *)
Theorem C06_prefix_fractional_differences :
  forall (A : Type) (NA : Num A) (T : Type) (DT : IsNone T A) (body : bool) (d : A) (w : nat) (cast : T -> A)
         (mp : option nat) (xs : list T) (k : nat),
    1 <= w ->
    out_of (ts_fdiff body d w cast (firstn k xs)) = firstn k (out_of (ts_fdiff body d w cast xs)) /\
    out_of (ts_vfdiff body d w mp (firstn k xs)) = firstn k (out_of (ts_vfdiff body d w mp xs)).
Proof.
  intros A NA T DT body d w cast mp xs k Hw. split.
  - exact (custom_out_prefix body w (ts_fdiff_cb d w cast) tt xs k Hw).
  - exact (custom_out_prefix body w (ts_vfdiff_cb d w (mp_eff mp w 0)) tt xs k Hw).
Qed.

(* the hypothesis `or_none d value = Ok v` of (5) is exactly the complement of this rejection: an omitted fill value on an
   element type whose `none()` panics is refused before anything is read — the same panic on the series and on every prefix *)
Theorem C06_vshift_vdiff_rejected_fill :
  forall (X I : Type) (d : NullDict X I) (sub : X -> X -> X) (n : Z) (value : option X) (xs : list X) (k : panic_kind),
    or_none d value = Panic k -> vshift d n value xs = Panic k /\ vdiff d sub n value xs = Panic k.
Proof. intros X I d sub n value xs k H. unfold vshift, vdiff. cbv zeta. rewrite H. split; reflexivity. Qed.

(* non-vacuity: (D1) at window 0 and at binary64; (D2) a second series LONGER than the first (index body) and SHORTER
   (iterator body), windows with ties for the arg-extrema (6) *)
Example C06_example_prefix_outcome :
  ts_run (ts_vsum_f (A := Z) (DT := IsNone_option) 0 None) true 0 [] = Done [] /\
  ts_run2 (ts_vcov_f (NA := NumF64) (D1 := IsNoneF64) (D2 := IsNoneF64) 2 (Some 2)) false 2
          [1%float; 2%float; 4%float] [1%float; 3%float] = Done [nan; 1%float] /\
  ts_run2 (ts_vcov_f (NA := NumF64) (D1 := IsNoneF64) (D2 := IsNoneF64) 2 (Some 2)) true 2
          [1%float; 2%float] [1%float; 3%float; 7%float] = Done [nan; 1%float].
Proof. split; [reflexivity|]. split; vm_compute; reflexivity. Qed.
Example C06_example_window_two_series_premises :
  (false = false \/ length [Some 9%R; Some 1%R; Some 2%R] <= length [Some 0%R; Some 4%R]) /\
  1 < Nat.min (length [Some 9%R; Some 1%R; Some 2%R]) (length [Some 0%R; Some 4%R]) /\
  win 1 1 [Some 9%R; Some 1%R; Some 2%R] = win 1 0 [Some 1%R].
Proof. split; [left; reflexivity|]. split; [cbn; lia|reflexivity]. Qed.
Example C06_example_arg_ties :
  nth_error (out_of (ts_vargmin (A := Z) (DT := IsNone_option) true 3 (Some 1) [Some 9; Some 2; Some 5; Some 2]%Z)) 3
  = nth_error (out_of (ts_vargmin (A := Z) (DT := IsNone_option) false 3 (Some 1) [Some 2; Some 5; Some 2]%Z)) 2 /\
  nth_error (out_of (ts_vargmin (A := Z) (DT := IsNone_option) true 3 (Some 1) [Some 9; Some 2; Some 5; Some 2]%Z)) 3
  = Some (Some 3).
Proof. split; vm_compute; reflexivity. Qed.

Print Assumptions C06_prefix_outcome_every_feature.
Print Assumptions C06_prefix_every_feature_any_window.
Print Assumptions C06_prefix_two_series_entry.
Print Assumptions C06_prefix_two_series_needs_accepted_whole.
Print Assumptions C06_window_only_two_series_entry.
Print Assumptions C06_prefix_roster_one_series.
Print Assumptions C06_prefix_fractional_differences.
Print Assumptions C06_vshift_vdiff_rejected_fill.
