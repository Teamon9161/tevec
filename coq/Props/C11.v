(* Props/C11.v — property C11: aggregations equal their textbook definitions over the non-null elements,
   are null exactly below the required number of valid observations, and the symmetric ones are
   permutation invariant.  The lemmas are in Proofs/Agg*.v, OrderXR.v, Audit11*.v, RoundSum.v, RoundMean.v, CmpOrd*.v.

   Reading guide.  A : the element's inner type (f64/f32 -> XR = option R, exact reals with one absorbing NaN;
   i32/i64 -> Z);  T with `DT : IsNone T A` : the element type with its null dictionary (f64: NaN is the null,
   Option<_>: None, integers: never null);  tof : A -> XR = Number::f64.
     vals xs          the non-null elements, unwrapped, in order (generic)
     rvals tof xs     their real values;   nvalid tof xs = length (rvals tof xs)
     canonical tof xs every non-null element is a number (DESIGN 5.4: no Some(NaN)); holds by construction for
                      f64 (C11_canonical_f64) and for every integer series (C11_canonical_int)
     rpairs tof xs ys the pairwise-complete observations of two series
   EPS = 1e-14 is the code's variance floor; it is explicit in the statements and bounded by C11_eps_floor. *)
From Coq Require Import Reals Lra Lia List Permutation ZArith.
From Tevec Require Import Base.Prelude Base.Num Base.XR Spec.Stats Spec.Stats2 Model.Agg
     Proofs.AggGeneric Proofs.AggOrder Proofs.AggXR Proofs.Agg.
Import ListNotations.

(* ================= counts, first / last valid, any / all (every carrier, every dictionary) ============== *)
Theorem C11_count_valid : forall {A T} {DT : IsNone T A} (xs : list T),
  count_valid xs = length (vals xs).
Proof. intros. apply count_valid_spec. Qed.

Theorem C11_count_none : forall {A T} {DT : IsNone T A} (xs : list T),
  count_none xs = length (filter (fun v => is_none v) xs).
Proof. intros. apply count_none_spec. Qed.

Theorem C11_counts_partition : forall {A T} {DT : IsNone T A} (xs : list T),
  count_valid xs + count_none xs = length xs.
Proof. intros. apply count_valid_plus_none. Qed.

(* a non-null value: number of valid elements equal to it; a null value: number of nulls *)
Theorem C11_vcount_value : forall {A} {NA : Num A} {T} {DT : IsNone T A} (value : T) (xs : list T),
  vcount_value value xs =
  if not_none value then length (filter (fun x => neqb x (unwrap value)) (vals xs))
  else length (filter (fun v => is_none v) xs).
Proof.
  intros. rewrite vcount_value_spec, count_value_spec, count_none_spec. reflexivity.
Qed.

Theorem C11_count_value_plain : forall {A} {NA : Num A} (value : A) (xs : list A),
  count_value value xs = length (filter (fun x => neqb x value) xs).
Proof. intros. apply count_value_spec. Qed.

(* first / last valid: the element is valid and everything before / after it is null *)
Theorem C11_vfirst : forall {A T} {DT : IsNone T A} (xs : list T) (v : T),
  vfirst xs = Some v <->
  exists pre post, xs = pre ++ v :: post /\ not_none v = true /\ Forall (fun u => is_none u = true) pre.
Proof. intros. apply vfirst_some. Qed.
Theorem C11_vlast : forall {A T} {DT : IsNone T A} (xs : list T) (v : T),
  vlast xs = Some v <->
  exists pre post, xs = pre ++ v :: post /\ not_none v = true /\ Forall (fun u => is_none u = true) post.
Proof. intros. apply vlast_some. Qed.
Theorem C11_vfirst_vlast_null : forall {A T} {DT : IsNone T A} (xs : list T),
  (vfirst xs = None <-> vals xs = []) /\ (vlast xs = None <-> vals xs = []).
Proof. intros. split; [apply vfirst_none|apply vlast_none]. Qed.

Theorem C11_vany_vall : forall {TB} {DB : IsNone TB bool} (xs : list TB),
  (vany xs = true <-> exists v, In v xs /\ not_none v = true /\ unwrap v = true) /\
  (vall xs = true <-> forall v, In v xs -> not_none v = true -> unwrap v = true).
Proof. intros. split; [apply vany_true|apply vall_true]. Qed.
(* on a never-null bool series the valid family is the plain any / all (existsb / forallb) *)
Theorem C11_any_all_plain : forall xs : list bool,
  vany (DB := IsNone_plain) xs = any_plain xs /\ vall (DB := IsNone_plain) xs = all_plain xs /\
  any_plain xs = existsb (fun b => b) xs /\ all_plain xs = forallb (fun b => b) xs.
Proof. intros. repeat split; [apply vany_plain|apply vall_plain]. Qed.

Theorem C11_counts_bool_perm : forall {A} {NA : Num A} {T} {DT : IsNone T A} {TB} {DB : IsNone TB bool}
    (xs ys : list T) (bs cs : list TB) (value : T),
  Permutation xs ys -> Permutation bs cs ->
  count_valid xs = count_valid ys /\ count_none xs = count_none ys /\
  vcount_value value xs = vcount_value value ys /\ vany bs = vany cs /\ vall bs = vall cs.
Proof.
  intros A NA T DT TB DB xs ys bs cs value H1 H2. repeat split.
  - apply count_valid_perm, H1.
  - apply count_none_perm, H1.
  - apply vcount_value_perm, H1.
  - apply vany_perm, H2.
  - apply vall_perm, H2.
Qed.

(* ================= the valid family is the plain family on the non-null elements ======================== *)
Theorem C11_valid_is_plain_on_nonnull :
  forall {A} {NA : Num A} {T} {DT : IsNone T A} {F} {NF : Num F} (tof : A -> F) (xs : list T),
  vsum xs = sum (vals xs) /\
  vmean tof xs = match mean tof (vals xs) with Some m => m | None => nnan end /\
  vmax xs = pmax (vals xs) /\ vmin xs = pmin (vals xs).
Proof.
  intros. repeat split.
  - apply vsum_is_plain_sum.
  - apply vmean_is_plain_mean.
  - apply vmax_is_plain_max.
  - apply vmin_is_plain_min.
Qed.

(* ================= canonical nulls =================================================================== *)
Theorem C11_canonical_f64 : forall xs : list XR,
  canonical (DT := IsNoneXR) idX xs /\ rvals (DT := IsNoneXR) idX xs = valid xs.
Proof. intros. split; [apply canonical_float|apply rvals_float]. Qed.
Theorem C11_canonical_int : forall {T} {DT : IsNone T Z} (xs : list T),
  canonical zR xs /\ rvals zR xs = map IZR (vals xs).
Proof. intros. split; [apply canonical_int|apply rvals_int]. Qed.

(* ================= sum and mean ===================================================================== *)
Theorem C11_vsum_float : forall {T} {DT : IsNone T XR} (xs : list T),
  canonical idX xs ->
  vsum xs = if (nvalid idX xs =? 0)%nat then None else Some (Some (sumR (rvals idX xs))).
Proof. intros. apply vsum_textbook_float. assumption. Qed.
Theorem C11_vsum_int : forall {T} {DT : IsNone T Z} (xs : list T),
  vsum (NA := AggNumZ) xs = if (length (vals xs) =? 0)%nat then None else Some (sumZ (vals xs)).
Proof. intros. apply vsum_textbook_int. Qed.

Theorem C11_vmean_float : forall {T} {DT : IsNone T XR} (xs : list T),
  canonical idX xs ->
  vmean idX xs = if (nvalid idX xs =? 0)%nat then None else Some (meanR (rvals idX xs)).
Proof. intros T DT xs H. apply (vmean_textbook (@sum_hom_float T DT)). exact H. Qed.
Theorem C11_vmean_int : forall {T} {DT : IsNone T Z} (xs : list T),
  vmean (NA := AggNumZ) zR xs =
  if (length (vals xs) =? 0)%nat then None else Some (meanR (map IZR (vals xs))).
Proof.
  intros T DT xs. rewrite (vmean_textbook (NA := AggNumZ) (@sum_hom_int T DT) (canonical_int xs)).
  unfold nvalid. rewrite rvals_int, map_length. reflexivity.
Qed.

(* ================= variance, standard deviation, skewness, kurtosis ==================================== *)
(* any element type: A, dictionary, cast.  For f64 take tof = idX (C11_canonical_f64), for integers tof = zR. *)
Theorem C11_vmean_var :
  forall {A} {NA : Num A} {T} {DT : IsNone T A} (tof : A -> XR) (mp : nat) (xs : list T),
  canonical tof xs ->
  let V := rvals tof xs in let n := nvalid tof xs in
  vmean_var tof mp xs =
  if (n <? mp)%nat then (None, None)
  else if (n =? 0)%nat then (None, None)
  else if (n <? 2)%nat then (Some (meanR V), None)
  else if Rle_dec (popvarR V) EPS then (Some (meanR V), Some 0%R)
  else (Some (meanR V), Some (samplevarR V)).
Proof. intros. apply vmean_var_textbook. assumption. Qed.

Theorem C11_vvar :
  forall {A} {NA : Num A} {T} {DT : IsNone T A} (tof : A -> XR) (mp : nat) (xs : list T),
  canonical tof xs ->
  vvar tof mp xs =
  if (nvalid tof xs <? Nat.max mp 2)%nat then None
  else if Rle_dec (popvarR (rvals tof xs)) EPS then Some 0%R else Some (samplevarR (rvals tof xs)).
Proof. intros. apply vvar_textbook. assumption. Qed.

Theorem C11_vstd :
  forall {A} {NA : Num A} {T} {DT : IsNone T A} (tof : A -> XR) (mp : nat) (xs : list T),
  canonical tof xs ->
  vstd tof mp xs =
  if (nvalid tof xs <? Nat.max mp 2)%nat then None
  else if Rle_dec (popvarR (rvals tof xs)) EPS then Some 0%R else Some (samplestdR (rvals tof xs)).
Proof. intros. apply vstd_textbook. assumption. Qed.

Theorem C11_vskew :
  forall {A} {NA : Num A} {T} {DT : IsNone T A} (tof : A -> XR) (mp : nat) (xs : list T),
  canonical tof xs ->
  vskew tof mp xs =
  if (nvalid tof xs <? Nat.max mp 3)%nat then None
  else if Rle_dec (popvarR (rvals tof xs)) EPS then Some 0%R else Some (skewR (rvals tof xs)).
Proof. intros. apply vskew_textbook. assumption. Qed.

Theorem C11_vkurt :
  forall {A} {NA : Num A} {T} {DT : IsNone T A} (tof : A -> XR) (mp : nat) (xs : list T),
  canonical tof xs ->
  vkurt tof mp xs =
  if (nvalid tof xs <? Nat.max mp 4)%nat then None
  else if Rle_dec (popvarR (rvals tof xs)) EPS then Some 0%R else Some (kurtR (rvals tof xs)).
Proof. intros. apply vkurt_textbook. assumption. Qed.

(* the f64 reading with Spec.Stats.valid *)
Corollary C11_vvar_f64 : forall (mp : nat) (xs : list XR),
  vvar (DT := IsNoneXR) idX mp xs =
  if (nv xs <? Nat.max mp 2)%nat then None
  else if Rle_dec (popvarR (valid xs)) EPS then Some 0%R else Some (samplevarR (valid xs)).
Proof.
  intros. rewrite (vvar_textbook (DT := IsNoneXR) mp (canonical_float xs)). unfold mform, nv.
  rewrite rvals_float. reflexivity.
Qed.

(* the floor is a rounding device: where it applies the textbook sample variance is at most 2 EPS *)
Theorem C11_eps_floor : forall V : list R,
  2 <= length V -> (popvarR V <= EPS)%R -> (samplevarR V <= 2 * EPS)%R.
Proof.
  intros V Hn Hle. unfold popvarR, cmom, samplevarR, nR in *.
  set (D := devsum 2 (meanR V) V) in *. set (m := INR (length V)) in *.
  assert (Hm : (2 <= m)%R) by (apply (le_INR 2); exact Hn).
  assert (HD : (0 <= D)%R) by apply devsum2_nonneg.
  assert ((D <= EPS * m)%R).
  { apply (Rmult_le_compat_r m) in Hle; [|lra]. unfold Rdiv in Hle.
    rewrite Rmult_assoc, Rinv_l, Rmult_1_r in Hle by lra. exact Hle. }
  apply (Rmult_le_reg_r (m - 1)); [lra|]. unfold Rdiv. rewrite Rmult_assoc, Rinv_l, Rmult_1_r by lra.
  pose proof EPS_pos. nra.
Qed.

(* nullness: exactly below max(min_periods, intrinsic minimum) — 1 mean, 2 var/std, 3 skew, 4 kurt *)
Theorem C11_nullness_single :
  forall {A} {NA : Num A} {T} {DT : IsNone T A} (tof : A -> XR) (mp : nat) (xs : list T),
  canonical tof xs ->
  (vvar tof mp xs = None <-> nvalid tof xs < Nat.max mp 2) /\
  (vstd tof mp xs = None <-> nvalid tof xs < Nat.max mp 2) /\
  (vskew tof mp xs = None <-> nvalid tof xs < Nat.max mp 3) /\
  (vkurt tof mp xs = None <-> nvalid tof xs < Nat.max mp 4).
Proof.
  intros A NA T DT tof mp xs H.
  rewrite (vvar_textbook mp H), (vstd_textbook mp H), (vskew_textbook mp H), (vkurt_textbook mp H).
  repeat split; apply mform_null.
Qed.
Theorem C11_nullness_mean_sum : forall {T} {DT : IsNone T XR} (xs : list T),
  canonical idX xs ->
  (vmean idX xs = None <-> nvalid idX xs < 1) /\ (vsum xs = None <-> nvalid idX xs < 1).
Proof.
  intros T DT xs H. rewrite (vmean_textbook (@sum_hom_float T DT) H), (vsum_textbook_float H).
  destruct (nvalid idX xs) as [|k]; cbn [Nat.eqb]; split; split; try discriminate; try reflexivity; lia.
Qed.

(* ================= extrema and first arg-extrema ======================================================= *)
(* f64: least / greatest valid element; index (in xs, nulls counted) of its FIRST occurrence *)
Theorem C11_vmin_f64 : forall xs : list XR,
  match vmin (DT := IsNoneXR) xs with
  | None => valid xs = []
  | Some m => exists r, m = Some r /\ In r (valid xs) /\ forall x, In x (valid xs) -> (r <= x)%R
  end.
Proof. intros xs. rewrite vmin_is_vext. exact (vext_real xr_weak le_real lt_real xs). Qed.
Theorem C11_vmax_f64 : forall xs : list XR,
  match vmax (DT := IsNoneXR) xs with
  | None => valid xs = []
  | Some m => exists r, m = Some r /\ In r (valid xs) /\ forall x, In x (valid xs) -> (x <= r)%R
  end.
Proof.
  intros xs. rewrite vmax_is_vext.
  exact (vext_real (wo_flip xr_weak) (fun r x => le_real x r) (fun r x => lt_real x r) xs).
Qed.
Theorem C11_vargmin_f64 : forall xs : list XR,
  match vargmin (DT := IsNoneXR) xs with
  | None => valid xs = []
  | Some i => exists r, nth_error xs i = Some (Some r) /\
      (forall j x, nth_error xs j = Some (Some x) -> (r <= x)%R) /\
      (forall j x, j < i -> nth_error xs j = Some (Some x) -> (r < x)%R)
  end.
Proof. intros xs. exact (varg_real xr_weak le_real lt_real xs). Qed.
Theorem C11_vargmax_f64 : forall xs : list XR,
  match vargmax (DT := IsNoneXR) xs with
  | None => valid xs = []
  | Some i => exists r, nth_error xs i = Some (Some r) /\
      (forall j x, nth_error xs j = Some (Some x) -> (x <= r)%R) /\
      (forall j x, j < i -> nth_error xs j = Some (Some x) -> (x < r)%R)
  end.
Proof. intros xs. exact (varg_real (wo_flip xr_weak) (fun r x => le_real x r) (fun r x => lt_real x r) xs). Qed.

(* integers, any dictionary (i32 / i64 / Option<i32>) — axiom-free *)
Theorem C11_vmin_vmax_int : forall {T} {DT : IsNone T Z} (xs : list T),
  match vmin (NA := AggNumZ) xs with
  | None => vals xs = []
  | Some m => In m (vals xs) /\ forall x, In x (vals xs) -> (m <= x)%Z
  end /\
  match vmax (NA := AggNumZ) xs with
  | None => vals xs = []
  | Some m => In m (vals xs) /\ forall x, In x (vals xs) -> (x <= m)%Z
  end.
Proof.
  intros T DT xs. split.
  - rewrite vmin_is_vext. exact (vext_least (z_weak _) Z.le Z.lt (le_int _) (lt_int _) (all_ok_int xs)).
  - rewrite vmax_is_vext.
    exact (vext_least (wo_flip (z_weak _)) _ _ (ge_int _) (gt_int _) (all_ok_int xs)).
Qed.
Theorem C11_vargmin_int : forall {T} {DT : IsNone T Z} (xs : list T),
  match vargmin (NA := AggNumZ) xs with
  | None => vals xs = []
  | Some i => exists v, nth_error xs i = Some v /\ not_none v = true /\
      (forall j w, nth_error xs j = Some w -> not_none w = true -> (unwrap v <= unwrap w)%Z) /\
      (forall j w, j < i -> nth_error xs j = Some w -> not_none w = true -> (unwrap v < unwrap w)%Z)
  end.
Proof. intros T DT xs. exact (varg_first (z_weak _) Z.le Z.lt (le_int _) (lt_int _) (all_ok_int xs)). Qed.
Theorem C11_vargmax_int : forall {T} {DT : IsNone T Z} (xs : list T),
  match vargmax (NA := AggNumZ) xs with
  | None => vals xs = []
  | Some i => exists v, nth_error xs i = Some v /\ not_none v = true /\
      (forall j w, nth_error xs j = Some w -> not_none w = true -> (unwrap w <= unwrap v)%Z) /\
      (forall j w, j < i -> nth_error xs j = Some w -> not_none w = true -> (unwrap w < unwrap v)%Z)
  end.
Proof.
  intros T DT xs.
  exact (varg_first (wo_flip (z_weak _)) _ _ (ge_int _) (gt_int _) (all_ok_int xs)).
Qed.

(* the arg-min points at the minimum; the three order premises and all_ok are not used by the proof
   (C11_arg_points_at_extreme_unconditional is the same fact without them) *)
Theorem C11_argmin_points_at_min :
  forall {A} {NA : Num A} (ok : A -> Prop),
  (forall a, ok a -> nltb a a = false) ->
  (forall a b c, ok a -> ok b -> ok c -> nltb a b = true -> nltb b c = true -> nltb a c = true) ->
  (forall a b, ok a -> ok b -> nltb a b = false -> nltb b a = false -> a = b) ->
  forall {T} {DT : IsNone T A} (xs : list T) (i : nat),
  all_ok ok xs -> vargmin xs = Some i ->
  exists v, nth_error xs i = Some v /\ not_none v = true /\ vmin xs = Some (unwrap v).
Proof.
  intros A NA ok _ _ _ T DT xs i _ Hi. unfold vargmin in Hi. rewrite vmin_is_vext.
  pose proof (varg_points_at_vext (fun e v => nltb v e) xs) as P. rewrite Hi in P. exact P.
Qed.

(* plain family on null-free input (AggBasic::argmin / argmax / min / max), reals *)
Theorem C11_plain_argmin_f64 : forall V : list R,
  match argmin (map Some V) with
  | None => V = []
  | Some i => exists r, nth_error V i = Some r /\
      (forall j x, nth_error V j = Some x -> (r <= x)%R) /\
      (forall j x, j < i -> nth_error V j = Some x -> (r < x)%R)
  end.
Proof. intros V. exact (parg_real xr_weak le_real lt_real V). Qed.

(* AggBasic::min / max on null-free input *)
Theorem C11_plain_min_max_f64 : forall V : list R,
  match pmin (map Some V) with
  | None => V = []
  | Some m => exists r, m = Some r /\ In r V /\ forall x, In x V -> (r <= x)%R
  end /\
  match pmax (map Some V) with
  | None => V = []
  | Some m => exists r, m = Some r /\ In r V /\ forall x, In x V -> (x <= r)%R
  end.
Proof.
  intros V. split.
  - rewrite pmin_is_vext. exact (pext_real xr_weak le_real lt_real V).
  - rewrite pmax_is_vext. exact (pext_real (wo_flip xr_weak) (fun r x => le_real x r) (fun r x => lt_real x r) V).
Qed.
Theorem C11_plain_min_max_int : forall l : list Z,
  match pmin (NA := AggNumZ) l with
  | None => l = []
  | Some m => In m l /\ forall x, In x l -> (m <= x)%Z
  end /\
  match pmax (NA := AggNumZ) l with
  | None => l = []
  | Some m => In m l /\ forall x, In x l -> (x <= m)%Z
  end.
Proof.
  intros l. split.
  - rewrite pmin_is_vext. exact (pext_least (z_weak _) Z.le Z.lt (le_int _) (lt_int _) (Forall_int l)).
  - rewrite pmax_is_vext.
    exact (pext_least (wo_flip (z_weak _)) _ _ (ge_int _) (gt_int _) (Forall_int l)).
Qed.

(* ================= two series ========================================================================== *)
Theorem C11_vcov :
  forall {A T T2} {DT : IsNone T A} {DT2 : IsNone T2 A} (tof : A -> XR) (mp : nat) (xs : list T) (ys : list T2),
  canonical tof xs -> canonical tof ys ->
  let P := rpairs tof xs ys in
  vcov tof mp xs ys = if (length P <? Nat.max mp 2)%nat then None else Some (samplecovR P).
Proof. intros. apply vcov_textbook; assumption. Qed.

Theorem C11_vcorr_pearson :
  forall {A T T2} {DT : IsNone T A} {DT2 : IsNone T2 A} (tof : A -> XR) (mp : nat) (xs : list T) (ys : list T2),
  canonical tof xs -> canonical tof ys ->
  let P := rpairs tof xs ys in
  vcorr_pearson tof mp xs ys =
  if (length P <? Nat.max mp 2)%nat then None
  else if Rlt_dec EPS (popvarR (xs_of P)) then
         (if Rlt_dec EPS (popvarR (ys_of P)) then Some (corrR P) else None)
       else None.
Proof. intros. apply vcorr_textbook; assumption. Qed.

Theorem C11_nullness_two :
  forall {A T T2} {DT : IsNone T A} {DT2 : IsNone T2 A} (tof : A -> XR) (mp : nat) (xs : list T) (ys : list T2),
  canonical tof xs -> canonical tof ys ->
  let P := rpairs tof xs ys in
  (vcov tof mp xs ys = None <-> length P < Nat.max mp 2) /\
  (vcorr_pearson tof mp xs ys = None <->
   length P < Nat.max mp 2 \/ ~ (EPS < popvarR (xs_of P))%R \/ ~ (EPS < popvarR (ys_of P))%R).
Proof.
  intros A T T2 DT DT2 tof mp xs ys Hx Hy P. split; [|apply vcorr_null; assumption].
  rewrite (vcov_textbook mp Hx Hy), <- Nat.ltb_lt. fold P.
  destruct (length P <? Nat.max mp 2)%nat; [tauto|]. split; intros; discriminate.
Qed.

(* Pearson's r in its sample form (the 1/n factors cancel) *)
Theorem C11_corr_sample_form : forall l : list (R * R), 0 < length l ->
  corrR l = (covsum (meanR (xs_of l)) (meanR (ys_of l)) l /
             sqrt (devsum 2 (meanR (xs_of l)) (xs_of l) * devsum 2 (meanR (ys_of l)) (ys_of l)))%R.
Proof. exact corrR_sample_form. Qed.

(* ================= masked sum / mean =================================================================== *)
Theorem C11_masked :
  forall {A} {NA : Num A} {T} {DT : IsNone T A} {U} {DU : IsNone U bool} (xs : list T) (mask : list U),
  mask_filter xs mask =
    map fst (filter (fun p : T * U => not_none (snd p) && unwrap (snd p)) (combine xs mask)) /\
  n_sum_filter xs mask = vsum (mask_filter xs mask) /\
  n_vsum_filter xs mask =
    (count_valid (mask_filter xs mask), fold_left nadd (vals (mask_filter xs mask)) nzero).
Proof.
  intros. split; [apply mask_filter_spec|]. split; [apply n_sum_filter_is_vsum|apply n_vsum_filter_spec].
Qed.
Theorem C11_vmean_filter_float :
  forall {T} {DT : IsNone T XR} {U} {DU : IsNone U bool} (mp : nat) (xs : list T) (mask : list U),
  canonical idX xs ->
  let W := rvals idX (mask_filter xs mask) in
  vmean_filter idX mp xs mask =
  if (mp <=? length W)%nat then (if (length W =? 0)%nat then None else Some (meanR W)) else None.
Proof. intros T DT U DU mp xs mask H. apply (vmean_filter_textbook (@sum_hom_float T DT)). exact H. Qed.
Theorem C11_vmean_filter_int :
  forall {T} {DT : IsNone T Z} {U} {DU : IsNone U bool} (mp : nat) (xs : list T) (mask : list U),
  let W := rvals zR (mask_filter xs mask) in
  vmean_filter (NA := AggNumZ) zR mp xs mask =
  if (mp <=? length W)%nat then (if (length W =? 0)%nat then None else Some (meanR W)) else None.
Proof.
  intros T DT U DU mp xs mask.
  apply (vmean_filter_textbook (NA := AggNumZ) (@sum_hom_int T DT)). apply canonical_int.
Qed.

(* ================= plain family on null-free input: sum, mean ============================================ *)
Theorem C11_plain_sum_mean : forall (V : list R) (l : list Z),
  sum (map Some V) = (if (length V =? 0)%nat then None else Some (Some (sumR V))) /\
  mean idX (map Some V) = (if (length V =? 0)%nat then None else Some (Some (meanR V))) /\
  sum (NA := AggNumZ) l = (if (length l =? 0)%nat then None else Some (sumZ l)) /\
  mean (NA := AggNumZ) zR l = (if (length l =? 0)%nat then None else Some (Some (meanR (map IZR l)))).
Proof.
  intros V l. unfold sum, mean. rewrite !n_sum_spec, map_length. cbn [fst snd].
  change (@nzero XR NumXR) with (Some 0%R). rewrite fold_add_some, Rplus_0_l, fold_left_Zadd. cbn [nzero AggNumZ Z.add].
  split; [destruct (length V); reflexivity|]. split; [|split; [destruct (length l); reflexivity|]].
  - destruct (length V) as [|k] eqn:E; [reflexivity|]. cbn [Nat.leb Nat.eqb].
    rewrite xofnat, xdiv_some by (apply not_0_INR; discriminate). unfold meanR, nR. rewrite E. reflexivity.
  - destruct (length l) as [|k] eqn:E; [reflexivity|]. cbn [Nat.leb Nat.eqb]. unfold zR.
    rewrite xofnat, xdiv_some by (apply not_0_INR; discriminate).
    unfold meanR, nR. rewrite map_length, E, sumR_IZR. reflexivity.
Qed.

(* ================= permutation invariance of the symmetric aggregations ================================== *)
Theorem C11_perm_moments :
  forall {A} {NA : Num A} {T} {DT : IsNone T A} (tof : A -> XR) (mp : nat) (xs ys : list T),
  Permutation xs ys -> canonical tof xs ->
  vmean_var tof mp xs = vmean_var tof mp ys /\ vvar tof mp xs = vvar tof mp ys /\
  vstd tof mp xs = vstd tof mp ys /\ vskew tof mp xs = vskew tof mp ys /\ vkurt tof mp xs = vkurt tof mp ys.
Proof.
  intros A NA T DT tof mp xs ys HP H. pose proof (canonical_perm HP H) as H'. pose proof (rvals_perm tof HP) as HR.
  split; [|split; [|split; [|split]]].
  - rewrite (vmean_var_textbook mp H), (vmean_var_textbook mp H'). unfold nvalid.
    rewrite (Permutation_length HR), (popvarR_perm HR), (samplevarR_perm HR), (meanR_perm HR). reflexivity.
  - rewrite (vvar_textbook mp H), (vvar_textbook mp H'). apply mform_perm; [exact HR|apply samplevarR_perm, HR].
  - rewrite (vstd_textbook mp H), (vstd_textbook mp H'). apply mform_perm; [exact HR|apply samplestdR_perm, HR].
  - rewrite (vskew_textbook mp H), (vskew_textbook mp H'). apply mform_perm; [exact HR|apply skewR_perm, HR].
  - rewrite (vkurt_textbook mp H), (vkurt_textbook mp H'). apply mform_perm; [exact HR|apply kurtR_perm, HR].
Qed.
Theorem C11_perm_sum_mean_float : forall {T} {DT : IsNone T XR} (xs ys : list T),
  Permutation xs ys -> canonical idX xs -> vsum xs = vsum ys /\ vmean idX xs = vmean idX ys.
Proof.
  intros T DT xs ys HP H. split; [apply vsum_perm_float; assumption|].
  apply (vmean_perm (@sum_hom_float T DT)); assumption.
Qed.
Theorem C11_perm_sum_mean_int : forall {T} {DT : IsNone T Z} (xs ys : list T),
  Permutation xs ys ->
  vsum (NA := AggNumZ) xs = vsum (NA := AggNumZ) ys /\ vmean (NA := AggNumZ) zR xs = vmean (NA := AggNumZ) zR ys.
Proof.
  intros T DT xs ys HP. split; [apply vsum_perm_int; assumption|].
  apply (vmean_perm (NA := AggNumZ) (@sum_hom_int T DT)); [assumption|apply canonical_int].
Qed.
Theorem C11_perm_extrema_f64 : forall xs ys : list XR, Permutation xs ys ->
  vmin (DT := IsNoneXR) xs = vmin (DT := IsNoneXR) ys /\ vmax (DT := IsNoneXR) xs = vmax (DT := IsNoneXR) ys.
Proof.
  intros xs ys HP. pose proof (all_ok_canonical (canonical_float xs)) as Hok. split; apply opt_eq_cases.
  - rewrite !vmin_is_vext. exact (vext_perm xr_weak eq xr_total Hok HP).
  - rewrite !vmax_is_vext. exact (vext_perm (wo_flip xr_weak) eq (fun a b Ha Hb H1 H2 => xr_total Ha Hb H2 H1) Hok HP).
Qed.
Theorem C11_perm_extrema_int : forall {T} {DT : IsNone T Z} (xs ys : list T), Permutation xs ys ->
  vmin (NA := AggNumZ) xs = vmin (NA := AggNumZ) ys /\ vmax (NA := AggNumZ) xs = vmax (NA := AggNumZ) ys.
Proof.
  intros T DT xs ys HP. split; apply opt_eq_cases.
  - rewrite !vmin_is_vext. exact (vext_perm (z_weak _) eq (@z_total _) (all_ok_int xs) HP).
  - rewrite !vmax_is_vext.
    exact (vext_perm (wo_flip (z_weak _)) eq (fun a b Ha Hb H1 H2 => z_total Ha Hb H2 H1) (all_ok_int xs) HP).
Qed.
(* two series: permuting the observation pairs together *)
Theorem C11_perm_two :
  forall {A T T2} {DT : IsNone T A} {DT2 : IsNone T2 A} (tof : A -> XR) (mp : nat)
         (xs xs' : list T) (ys ys' : list T2),
  Permutation (combine xs ys) (combine xs' ys') ->
  canonical tof xs -> canonical tof ys -> canonical tof xs' -> canonical tof ys' ->
  vcov tof mp xs ys = vcov tof mp xs' ys' /\ vcorr_pearson tof mp xs ys = vcorr_pearson tof mp xs' ys'.
Proof.
  intros A T T2 DT DT2 tof mp xs xs' ys ys' HP Hx Hy Hx' Hy'.
  pose proof (rp_perm tof HP) as HR. fold (rpairs tof xs ys) (rpairs tof xs' ys') in HR. split.
  - rewrite (vcov_textbook mp Hx Hy), (vcov_textbook mp Hx' Hy').
    rewrite (Permutation_length HR), (samplecovR_perm HR). reflexivity.
  - rewrite (vcorr_textbook mp Hx Hy), (vcorr_textbook mp Hx' Hy').
    rewrite (Permutation_length HR), (corrR_perm HR). unfold xs_of, ys_of.
    rewrite (popvarR_perm (Permutation_map fst HR)), (popvarR_perm (Permutation_map snd HR)). reflexivity.
Qed.

(* ================= non-vacuity ======================================================================== *)
(* a series with a null, below / at the thresholds *)
Example C11_ex_single_observation_is_null :
  vvar (DT := IsNoneXR) idX 0 [None; Some 5%R] = None /\ vstd (DT := IsNoneXR) idX 1 [Some 5%R] = None.
Proof.
  split.
  - rewrite (vvar_textbook (DT := IsNoneXR) 0 (canonical_float [None; Some 5%R])). apply mform_null. cbn. unfold lt. constructor.
  - rewrite (vstd_textbook (DT := IsNoneXR) 1 (canonical_float [Some 5%R])). apply mform_null. cbn. unfold lt. constructor.
Qed.
(* the code as it was before the repair of defect #9 reported variance 0 for one observation (Z-valued toy
   carrier: the branch order alone decides, no real arithmetic needed) *)
Example C11_ex_before_fix_reported_zero :
  snd (vmean_var_before_fix (DT := IsNone_plain) (NF := AggNumZ) (fun z => z) 0 [5%Z]) = 0%Z.
Proof. vm_compute. reflexivity. Qed.
Example C11_ex_counts :
  count_valid (DT := IsNone_opt 0%Z) [Some 1%Z; None; Some 3%Z] = 2 /\
  vargmin (NA := AggNumZ) (DT := IsNone_opt 0%Z) [None; Some 3%Z; Some 1%Z; Some 1%Z] = Some 2 /\
  vargmax (NA := AggNumZ) (DT := IsNone_opt 0%Z) [None; Some 3%Z; Some 1%Z; Some 3%Z] = Some 1 /\
  vsum (NA := AggNumZ) (DT := IsNone_opt 0%Z) [None; Some 3%Z; Some 1%Z] = Some 4%Z.
Proof. vm_compute. auto. Qed.
Example C11_ex_perm_premise : Permutation [Some 1%R; None; Some 2%R] [None; Some 2%R; Some 1%R].
Proof.
  apply Permutation_trans with (l' := [None; Some 1%R; Some 2%R]); [apply perm_swap|].
  apply perm_skip, perm_swap.
Qed.
Example C11_ex_two_series_pairs :
  rpairs (DT := IsNoneXR) (DT2 := IsNoneXR) idX [Some 1%R; None; Some 3%R] [Some 2%R; Some 5%R; None] = [(1%R, 2%R)].
Proof. reflexivity. Qed.

(* ================= binary64: the one-pass sum up to floating-point rounding (Proofs/RoundSum.v) ========= *)
(* "Up to floating-point rounding" (in the correspondence run: the comparator's tolerance) as a
   theorem about the EXECUTION instance of the model — `vsum` at Coq's primitive binary64 `float` (NumF64, NaN is
   the null), the very term the correspondence run evaluates and compares bit for bit with Rust.
     f2r x      the real value of a finite float            ffin x     x is finite (PrimFloat.is_finite)
     fvals xs   the valid (non-NaN) elements, in order       rvals64 xs their real values
     u64 = 2^-53 (C11_u64_value)                             gam u n = (1+u)^n - 1  (<= n u (1+u)^n, C11_gam_linear)
     sumabs l = sum of |l_k|                                 fx : float -> option R  (NaN -> None)
   The only premise is EXECUTABLE: the computed sum is finite.  (A non-finite operand or partial sum can never
   become finite again, so this certifies "no overflow, no infinity in the input" — C11_vsum_finite_certifies.)
   Flocq supplies IEEE addition (Bplus_correct), the error of a rounded sum without underflow term
   (FLT_plus_error_N_ex) and the bridge to the primitive floats (Flocq.IEEE754.PrimFloat.add_equiv).          *)
From Coq Require Import Floats.
From Tevec Require Import Base.F64 Proofs.RoundSum.

(* (R1) the left fold s_0 = 0, s_{k+1} = fl(s_k + x_k) over any list of floats *)
Theorem C11_round_sum_fold : forall ys : list PrimFloat.float,
  ffin (ffold zero ys) = true ->
  (Rabs (f2r (ffold zero ys) - sumR (map f2r ys)) <= gam u64 (length ys) * sumabs (map f2r ys))%R.
Proof. exact round_sum_fold. Qed.

(* (R2) the model's one-pass sum: |vsum_float xs - sum of the valid elements| <= ((1+u)^n - 1) * sum |valid| *)
Theorem C11_vsum_binary64_error : forall (xs : list PrimFloat.float) (r : PrimFloat.float),
  vsum (NA := NumF64) (DT := IsNoneF64) xs = Some r -> ffin r = true ->
  (Rabs (f2r r - sumR (rvals64 xs)) <= gam u64 (length (rvals64 xs)) * sumabs (rvals64 xs))%R.
Proof. exact vsum_binary64_error. Qed.

(* the same with the explicit constant n u (1+u)^n *)
Theorem C11_vsum_binary64_error_linear : forall (xs : list PrimFloat.float) (r : PrimFloat.float),
  vsum (NA := NumF64) (DT := IsNoneF64) xs = Some r -> ffin r = true ->
  (Rabs (f2r r - sumR (rvals64 xs))
   <= INR (length (rvals64 xs)) * u64 * (1 + u64) ^ length (rvals64 xs) * sumabs (rvals64 xs))%R.
Proof. exact vsum_binary64_error_linear. Qed.

Theorem C11_u64_value : u64 = (/ 9007199254740992)%R.
Proof. exact u64_value. Qed.
Theorem C11_gam_linear : forall (u : R) (n : nat), (0 <= u)%R -> (gam u n <= INR n * u * (1 + u) ^ n)%R.
Proof. exact gam_le_linear. Qed.

(* (R3) against the exact model: the float model and the option-R model of the SAME series are null together and
   their values differ by at most the bound *)
Theorem C11_vsum_float_vs_exact_model : forall (xs : list PrimFloat.float) (r : PrimFloat.float),
  vsum (NA := NumF64) (DT := IsNoneF64) xs = Some r -> ffin r = true ->
  exists e : R, vsum (NA := NumXR) (DT := IsNoneXR) (map fx xs) = Some (Some e) /\
                (Rabs (f2r r - e) <= gam u64 (length (rvals64 xs)) * sumabs (rvals64 xs))%R.
Proof. exact vsum_float_vs_exact_model. Qed.

(* a finite result certifies that every valid element was finite *)
Theorem C11_vsum_finite_certifies : forall (xs : list PrimFloat.float) (r : PrimFloat.float),
  vsum (NA := NumF64) (DT := IsNoneF64) xs = Some r -> ffin r = true ->
  Forall (fun y => ffin y = true) (fvals xs).
Proof. exact vsum_finite_inputs. Qed.

(* (R4) exactness: when every valid element is finite and an integer multiple of 2^e (executable test grid_check)
   and the magnitudes add up to less than 2^(e+53), no addition rounds: model(float) = model(option R).  The
   generated inputs are k/4 with |k| <= 400 (e = -2): exact for series of up to 2^53/400 elements — which is why the
   correspondence run sees bit-identical sums. *)
Theorem C11_vsum_exact_on_grid : forall (e : Z) (xs : list PrimFloat.float),
  (-1074 <= e <= 971)%Z -> forallb (grid_check e) (fvals xs) = true ->
  (sumabs (rvals64 xs) < pow2 (e + 53))%R ->
  option_map fx (vsum (NA := NumF64) (DT := IsNoneF64) xs) = vsum (NA := NumXR) (DT := IsNoneXR) (map fx xs).
Proof. intros e xs He HG Hb. apply (vsum_f64_exact_on_grid e xs He); [apply grid_check_all, HG|exact Hb]. Qed.

(* non-vacuity: 0.1 + 0.2 + 0.3 rounds (twice), a NaN is skipped; the premises hold *)
Example C11_ex_round_premises :
  exists r, vsum (NA := NumF64) (DT := IsNoneF64) [0.1; nan; 0.2; 0.3]%float = Some r /\ ffin r = true /\
            r <> 0.6%float /\ length (fvals [0.1; nan; 0.2; 0.3]%float) = 3.
Proof.
  eexists. split; [vm_compute; reflexivity|]. split; [vm_compute; reflexivity|]. split; [|vm_compute; reflexivity].
  intros H. apply (f_equal (fun x => PrimFloat.eqb x 0.6%float)) in H. vm_compute in H. discriminate.
Qed.
(* the finiteness premise is needed: an overflowing sum is infinite although every input is finite *)
Example C11_ex_overflow_is_detected :
  ffin (ffold zero [0x1p1023; 0x1p1023]%float) = false /\
  Forall (fun y => ffin y = true) [0x1p1023; 0x1p1023]%float.
Proof. split; [vm_compute; reflexivity|repeat constructor]. Qed.
(* a grid input (multiples of 1/4), premises of (R4) *)
Example C11_ex_grid_premises :
  forallb (grid_check (-2)) (fvals [1.25; nan; -0.75; 100]%float) = true /\
  vsum (NA := NumF64) (DT := IsNoneF64) [1.25; nan; -0.75; 100]%float = Some 100.5%float.
Proof. split; vm_compute; reflexivity. Qed.

(* ================= binary64: the one-pass MEAN up to floating-point rounding (Proofs/RoundMean.v) ===== *)
(* `vmean` accumulates the sum in f64 and divides once by `n as f64`.  `n as f64` is exact for n < 2^53; the division is
   one more correctly rounded operation, and binary64 division CAN underflow, so its error model carries an absolute
   term:  |fl(x) - x| <= u |x| + eta  with  eta = 2^-1075  (half the smallest subnormal; C11_rounding_model_with_underflow),
   and no absolute term when |x| >= 2^-1022 (the normal range).  Flocq: Bdiv_correct, relative_error_N_FLT'_ex,
   relative_error_N_FLT, and the bridge PrimFloat.div_equiv / of_int63_equiv.
   Premises (executable): the computed mean is finite (then the count is >= 1, the sum and every valid element were
   finite, nothing overflowed) and the count is below 2^53.                                                            *)
From Tevec Require Import Proofs.RoundMean.

(* (R5) the error model of one correctly rounded binary64 operation, gradual underflow included *)
Theorem C11_rounding_model_with_underflow : forall x : R, (Rabs (rnd64 x - x) <= u64 * Rabs x + eta64)%R.
Proof. exact rnd64_err. Qed.
Theorem C11_rounding_model_normal_range : forall x : R,
  (pow2 (-1022) <= Rabs x)%R -> (Rabs (rnd64 x - x) <= u64 * Rabs x)%R.
Proof. exact rnd64_err_normal. Qed.
Theorem C11_eta64_value : eta64 = (/ IZR (2 ^ 1075))%R.
Proof. exact eta64_value. Qed.

(* (R6) |vmean_float xs - mean of the valid elements| <= ((1+u)^(n+1) - 1) * (sum |valid|) / n + eta *)
Theorem C11_vmean_binary64_error : forall xs : list PrimFloat.float,
  ffin (vmean (NA := NumF64) (DT := IsNoneF64) (NF := NumF64) (fun x => x) xs) = true ->
  (Z.of_nat (length (fvals xs)) < 2 ^ 53)%Z ->
  (Rabs (f2r (vmean (NA := NumF64) (DT := IsNoneF64) (NF := NumF64) (fun x => x) xs) - meanR (rvals64 xs))
   <= gam u64 (S (length (rvals64 xs))) * (sumabs (rvals64 xs) / INR (length (rvals64 xs))) + eta64)%R.
Proof. exact vmean_binary64_error. Qed.

(* the same with the explicit constant (n+1) u (1+u)^(n+1) *)
Theorem C11_vmean_binary64_error_linear : forall xs : list PrimFloat.float,
  ffin (vmean (NA := NumF64) (DT := IsNoneF64) (NF := NumF64) (fun x => x) xs) = true ->
  (Z.of_nat (length (fvals xs)) < 2 ^ 53)%Z ->
  (Rabs (f2r (vmean (NA := NumF64) (DT := IsNoneF64) (NF := NumF64) (fun x => x) xs) - meanR (rvals64 xs))
   <= INR (S (length (rvals64 xs))) * u64 * (1 + u64) ^ S (length (rvals64 xs))
      * (sumabs (rvals64 xs) / INR (length (rvals64 xs))) + eta64)%R.
Proof. exact vmean_binary64_error_linear. Qed.

(* (R7) no absolute term when the computed quotient sum / n is in the normal range (|.| >= 2^-1022) *)
Theorem C11_vmean_binary64_error_normal : forall xs : list PrimFloat.float,
  ffin (vmean (NA := NumF64) (DT := IsNoneF64) (NF := NumF64) (fun x => x) xs) = true ->
  (Z.of_nat (length (fvals xs)) < 2 ^ 53)%Z ->
  (pow2 (-1022) <= Rabs (f2r (ffold zero (fvals xs)) / INR (length (fvals xs))))%R ->
  (Rabs (f2r (vmean (NA := NumF64) (DT := IsNoneF64) (NF := NumF64) (fun x => x) xs) - meanR (rvals64 xs))
   <= gam u64 (S (length (rvals64 xs))) * (sumabs (rvals64 xs) / INR (length (rvals64 xs))))%R.
Proof. exact vmean_binary64_error_normal. Qed.

(* (R8) against the exact model: the option-R model of the same series is non-null and within the bound *)
Theorem C11_vmean_float_vs_exact_model : forall xs : list PrimFloat.float,
  ffin (vmean (NA := NumF64) (DT := IsNoneF64) (NF := NumF64) (fun x => x) xs) = true ->
  (Z.of_nat (length (fvals xs)) < 2 ^ 53)%Z ->
  exists e : R, vmean (NA := NumXR) (DT := IsNoneXR) (NF := NumXR) (fun x => x) (map fx xs) = Some e /\
    (Rabs (f2r (vmean (NA := NumF64) (DT := IsNoneF64) (NF := NumF64) (fun x => x) xs) - e)
     <= gam u64 (S (length (rvals64 xs))) * (sumabs (rvals64 xs) / INR (length (rvals64 xs))) + eta64)%R.
Proof. exact vmean_float_vs_exact_model. Qed.

(* a finite mean certifies at least one valid element, all of them finite *)
Theorem C11_vmean_finite_certifies : forall xs : list PrimFloat.float,
  ffin (vmean (NA := NumF64) (DT := IsNoneF64) (NF := NumF64) (fun x => x) xs) = true ->
  (Z.of_nat (length (fvals xs)) < 2 ^ 53)%Z ->
  1 <= length (fvals xs) /\ Forall (fun y => ffin y = true) (fvals xs).
Proof. intros xs Hf Hn. split; [apply vmean_finite_count, Hf|apply vmean_finite_inputs; assumption]. Qed.

(* non-vacuity of (R6)/(R8): a mean that rounds (sum twice, quotient once), a NaN is skipped; the premises hold *)
Example C11_ex_mean_premises :
  ffin (vmean (NA := NumF64) (DT := IsNoneF64) (NF := NumF64) (fun x => x) [0.1; nan; 0.2; 0.3]%float) = true /\
  (Z.of_nat (length (fvals [0.1; nan; 0.2; 0.3]%float)) < 2 ^ 53)%Z /\
  PrimFloat.eqb (vmean (NA := NumF64) (DT := IsNoneF64) (NF := NumF64) (fun x => x) [0.1; nan; 0.2; 0.3]%float) 0.2%float = false.
Proof. repeat split; vm_compute; reflexivity. Qed.
(* the absolute term eta cannot be dropped: the mean of [2^-1074; 0] is 2^-1075 exactly, the quotient underflows to 0 —
   an error of eta with a relative bound of about 3u * 2^-1075 *)
Example C11_ex_mean_underflow :
  vmean (NA := NumF64) (DT := IsNoneF64) (NF := NumF64) (fun x => x) [0x1p-1074; 0]%float = 0%float /\
  ffin (vmean (NA := NumF64) (DT := IsNoneF64) (NF := NumF64) (fun x => x) [0x1p-1074; 0]%float) = true.
Proof. split; vm_compute; reflexivity. Qed.
(* the finiteness premise is needed: the sum overflows although the mean is representable *)
Example C11_ex_mean_overflow_is_detected :
  ffin (vmean (NA := NumF64) (DT := IsNoneF64) (NF := NumF64) (fun x => x) [0x1p1023; 0x1p1023]%float) = false.
Proof. vm_compute. reflexivity. Qed.
(* premise of (R7): an ordinary mean is in the normal range (executable test on the quotient's exponent) *)
Example C11_ex_mean_normal_range :
  match Prim2SF (vmean (NA := NumF64) (DT := IsNoneF64) (NF := NumF64) (fun x => x) [0.1; nan; 0.2; 0.3]%float) with
  | S754_finite _ m ex => (-1074 <= ex)%Z /\ (4503599627370496 <= Z.pos m)%Z | _ => False end.
Proof. vm_compute. split; discriminate. Qed.

(* ================= clause by clause (notes/C11.md "Audit matrix"; lemmas in Proofs/Audit11.v, Audit11Float.v) ===== *)
(* (A1) the Number helpers of tea-dtype/src/number.rs
   (Model/AggNumber.v): n_add / n_prod, Kahan's kh_sum, floor / ceil, to / fromas, and min_with / max_with on EVERY
   operand (NaN included); (A2) iter_traits.rs vfold2 / vapply; (A3) extrema and first arg-extrema under
   a strict WEAK order instead of a strict total one (so binary64 with +0 / -0 is an instance) and,
   for "the arg-extreme points at the extreme", under no order hypothesis at all; (A4) the plain family totally (first / last / n_sum,
   arg-extrema on integers and reals, min / max on input WITH NaN); (A5) zip truncation and permutation invariance of
   the masked aggregations; (A6) nullness below the thresholds for every carrier, and what a valid NaN (non-canonical
   input) does; (A7)-(A8) binary64 instances.                                                                           *)
From Tevec Require Import Spec.ExtremaOrd Model.AggNumber Proofs.OrderXR Proofs.Audit11 Proofs.Audit11Float.
From Tevec Require Run.RunC11.

(* ---- (A1) Number::n_add / n_prod / kh_sum / floor / ceil / min_with / max_with / to / fromas ------------------------ *)
(* one call: only `other` is tested; a null `other` changes neither the value nor the counter *)
Theorem C11_number_n_add_n_prod : forall {A} {NA : Num A} {DN : IsNone A A} (self other : A) (n : nat),
  (is_none other = true -> n_add self other n = (self, n) /\ n_prod self other n = (self, n)) /\
  (is_none other = false -> n_add self other n = (nadd self other, S n) /\ n_prod self other n = (nmul self other, S n)).
Proof.
  intros. destruct (n_add_cases self other n) as [a1 a2]. destruct (n_prod_cases self other n) as [p1 p2].
  split; intros H; split; auto.
Qed.
(* accumulating a series with them: the sum / product of the non-null elements in order, and their number — for the
   float-like dictionary (NaN null: f32, f64) and the never-null one (i32, i64, u64, usize), every carrier *)
Theorem C11_number_n_add_fold : forall {A} {NA : Num A} (init : A) (xs : list A),
  n_add_fold (DN := IsNone_float) init xs
    = (fold_left nadd (vals (DT := IsNone_float) xs) init, length (vals (DT := IsNone_float) xs)) /\
  n_prod_fold (DN := IsNone_float) init xs
    = (fold_left nmul (vals (DT := IsNone_float) xs) init, length (vals (DT := IsNone_float) xs)) /\
  n_add_fold (DN := IsNone_plain) init xs = (fold_left nadd xs init, length xs) /\
  n_prod_fold (DN := IsNone_plain) init xs = (fold_left nmul xs init, length xs).
Proof.
  intros. split; [apply (n_add_fold_spec unwrap_id_float)|]. split; [apply (n_prod_fold_spec unwrap_id_float)|].
  rewrite (n_add_fold_spec (DN := IsNone_plain) unwrap_id_plain), (n_prod_fold_spec (DN := IsNone_plain) unwrap_id_plain).
  rewrite vals_plain. split; reflexivity.
Qed.
(* ... which is exactly what vsum computes (agg.rs:236 uses vfold_n; Number::n_add is the same step) *)
Theorem C11_number_n_add_fold_is_vsum : forall {A} {NA : Num A} {DN : IsNone A A} (xs : list A),
  unwrap_id DN ->
  vsum xs = if (1 <=? snd (n_add_fold nzero xs))%nat then Some (fst (n_add_fold nzero xs)) else None.
Proof. intros A NA DN xs H. unfold vsum. rewrite (n_add_fold_spec H), vfold_n_spec. reflexivity. Qed.

(* Kahan's step on the exact carriers: the compensation is identically 0 and the running sum is the plain sum *)
Theorem C11_number_kh_sum_exact : forall (zs : list Z) (V : list R),
  kh_fold (NA := AggNumZ) zs = (sumZ zs, 0%Z) /\ kh_fold (map Some V) = (Some (sumR V), Some 0%R).
Proof. intros. split; [apply kh_fold_Z|apply kh_fold_XR]. Qed.
(* kh_sum has NO null test: one NaN element poisons the sum and the compensation for good *)
Theorem C11_number_kh_sum_nan : forall xs : list XR, In None xs -> kh_fold xs = (None, None).
Proof.
  intros xs. unfold kh_fold. generalize (@nzero XR NumXR, @nzero XR NumXR). induction xs as [|v xs IH]; intros sc [].
  - subst v. cbn [fold_left]. rewrite kh_sum_XR_nan_v. apply kh_fold_XR_poisoned.
  - cbn [fold_left]. apply IH. assumption.
Qed.
(* at binary64: the step operation by operation; the compensation is effective (1 + 2^-53 + 2^-53) and NaN poisons *)
Theorem C11_number_kh_sum_binary64 : forall s v c : PrimFloat.float,
  kh_sum s v c = ((s + (v - c))%float, (((s + (v - c)) - s) - (v - c))%float).
Proof. reflexivity. Qed.
Theorem C11_number_kh_sum_binary64_witness :
  fst (kh_fold [1; 0x1p-53; 0x1p-53]%float) = 0x1.0000000000001p+0%float /\
  fold_left PrimFloat.add [1; 0x1p-53; 0x1p-53]%float zero = 1%float /\
  PrimFloat.is_nan (fst (kh_fold [1; nan; 2]%float)) = true /\ PrimFloat.is_nan (snd (kh_fold [1; nan; 2]%float)) = true.
Proof. repeat split; vm_compute; reflexivity. Qed.

(* floor / ceil: the identity on the integer types (trait defaults); on floats the integer-valued floor / ceiling, a null
   stays null, ceil x = -floor(-x) *)
Theorem C11_number_floor_ceil : forall (z : Z) (a : XR),
  (number_floor (NR := NumRoundZ) z = z /\ number_ceil (NR := NumRoundZ) z = z) /\
  match a with
  | None => number_floor (NR := NumRoundXR) a = None /\ number_ceil (NR := NumRoundXR) a = None
  | Some x => exists f c : Z,
      number_floor (NR := NumRoundXR) a = Some (IZR f) /\ number_ceil (NR := NumRoundXR) a = Some (IZR c) /\
      (IZR f <= x < IZR f + 1)%R /\ (IZR c - 1 < x <= IZR c)%R /\ c = (- Rfloor (- x))%Z
  end.
Proof. intros. split; [split; reflexivity|apply number_floor_XR]. Qed.

(* min_with / max_with: Rmin / Rmax, Z.min / Z.max on numbers ... *)
Theorem C11_number_min_max_with : forall (x y : R) (a b : Z),
  min_with (Some x) (Some y) = Some (Rmin x y) /\ max_with (Some x) (Some y) = Some (Rmax x y) /\
  min_with (NA := AggNumZ) a b = Z.min a b /\ max_with (NA := AggNumZ) a b = Z.max a b.
Proof.
  intros. destruct (min_max_with_XR x y) as [h1 h2]. destruct (min_max_with_Z a b) as [h3 h4]. repeat split; assumption.
Qed.
(* ... and with a NaN operand (any carrier whose `<` is false on NaN): a NaN `other` is ignored, a NaN `self` STAYS —
   the helpers are not symmetric on nulls, which is why vmin / vmax seed their fold with the first VALID element *)
Theorem C11_number_min_max_with_nan : forall {A} {NA : Num A},
  (forall a b, nisnan a = true -> nltb a b = false) -> (forall a b, nisnan b = true -> nltb a b = false) ->
  forall s o : A,
  (nisnan o = true -> min_with s o = s /\ max_with s o = s) /\
  (nisnan s = true -> min_with s o = s /\ max_with s o = s).
Proof. intros A NA H1 H2 s o. apply (min_max_with_nan H1 H2). Qed.
Theorem C11_number_min_max_with_nan_f64 : forall s o : XR,
  (o = None -> min_with s o = s /\ max_with s o = s) /\ (s = None -> min_with s o = s /\ max_with s o = s).
Proof.
  intros s o. destruct (min_max_with_nan xlt_nan_l xlt_nan_r s o) as [H1 H2].
  split; intros ->; [apply H1|apply H2]; reflexivity.
Qed.
(* on non-NaN operands of a weakly ordered carrier: a lower / upper bound of both, and always one of the operands *)
Theorem C11_number_min_max_with_ordered : forall {A} {NA : Num A}, OrdLaws A -> forall s o : A,
  num_ok s -> num_ok o ->
  (nltb s (min_with s o) = false /\ nltb o (min_with s o) = false /\
   nltb (max_with s o) s = false /\ nltb (max_with s o) o = false) /\
  (min_with s o = s \/ min_with s o = o) /\ (max_with s o = s \/ max_with s o = o).
Proof.
  intros A NA OL s o Hs Ho. split; [apply (min_max_with_ord OL Hs Ho)|]. split.
  - destruct (min_with_cases s o) as [[_ H]|[_ H]]; [right|left]; exact H.
  - destruct (max_with_cases s o) as [[_ H]|[_ H]]; [right|left]; exact H.
Qed.
Theorem C11_number_min_max_with_binary64 : forall s o : PrimFloat.float,
  (PrimFloat.is_nan o = true -> min_with s o = s /\ max_with s o = s) /\
  (PrimFloat.is_nan s = true -> min_with s o = s /\ max_with s o = s) /\
  (PrimFloat.is_nan s = false -> PrimFloat.is_nan o = false ->
     (s <? min_with s o)%float = false /\ (o <? min_with s o)%float = false /\
     (max_with s o <? s)%float = false /\ (max_with s o <? o)%float = false) /\
  (min_with s o = s \/ min_with s o = o) /\ (max_with s o = s \/ max_with s o = o).
Proof.
  intros s o. destruct (min_max_with_nan f64_lt_nan_l f64_lt_nan_r s o) as [H1 H2].
  split; [exact H1|]. split; [exact H2|]. split; [intros Hs Ho; exact (min_max_with_ord ordlaws_F64 Hs Ho)|].
  split.
  - destruct (min_with_cases s o) as [[_ H]|[_ H]]; [right|left]; exact H.
  - destruct (max_with_cases s o) as [[_ H]|[_ H]]; [right|left]; exact H.
Qed.
(* the carriers the ordered statements are about *)
Theorem C11_ordered_carriers : OrdLaws XR /\ @OrdLaws Z AggNumZ /\ OrdLaws PrimFloat.float /\ ~ OrdStrict PrimFloat.float.
Proof.
  split; [exact ordlaws_XR|]. split; [exact ordlaws_AggZ|]. split; [exact ordlaws_F64|exact Proofs.CmpOrdFloat.f64_not_strict].
Qed.

(* to::<T>() is Cast::<T>::cast, fromas is to in the other direction (the casts themselves: property C15) *)
Theorem C11_number_to_fromas : forall {S U : Type} (cast : U -> S) (v : U),
  number_fromas cast v = number_to cast v /\ number_to cast v = cast v.
Proof. intros. split; reflexivity. Qed.

(* ---- (A2) iter_traits.rs: vfold2, vapply ---------------------------------------------------------------------- *)
Theorem C11_vfold2 : forall {A A2 T T2 U} {DT : IsNone T A} {DT2 : IsNone T2 A2}
    (f : U -> T -> T2 -> U) (init : U) (xs : list T) (ys : list T2),
  vfold2 f init xs ys = fold_left (fun acc p => f acc (fst p) (snd p)) (complete_pairs xs ys) init /\
  vfold2 f init xs ys = vfold2 f init (firstn (Nat.min (length xs) (length ys)) xs)
                                      (firstn (Nat.min (length xs) (length ys)) ys).
Proof.
  intros A A2 T T2 U DT DT2 f init xs ys. split.
  - unfold vfold2, complete_pairs. generalize (combine xs ys) as l. intros l. revert init.
    induction l as [|p l IH]; intros init; [reflexivity|]. cbn [fold_left filter].
    destruct (not_none (fst p) && not_none (snd p)); cbn [fold_left]; apply IH.
  - unfold vfold2. rewrite <- (combine_truncate xs ys). reflexivity.
Qed.
Theorem C11_vapply : forall {A T U} {DT : IsNone T A} (f : U -> A -> U) (init : U) (xs : list T),
  vapply f init xs = fold_left f (vals xs) init /\ vapply f init xs = snd (vapply_n f init xs).
Proof.
  intros A T U DT f init xs. assert (E : vapply f init xs = fold_left f (vals xs) init) by apply (vfold_vals f).
  split; [exact E|]. rewrite E, vapply_n_spec. reflexivity.
Qed.
(* vcov's accumulation loop is such a two-series null-skipping fold *)
Theorem C11_vcov_is_vfold2 : forall {A T T2 F} {DT : IsNone T A} {DT2 : IsNone T2 A} {NF : Num F}
    (tof : A -> F) (xs : list T) (ys : list T2) s0,
  fold_left (cov_step tof) (combine xs ys) s0 = vfold2 (cov_acc tof) s0 xs ys.
Proof.
  intros A T T2 F DT DT2 NF tof xs ys s0. unfold vfold2. apply fold_left_ext. intros [[[n sa] sb] sab] p. unfold cov_step, cov_acc.
  destruct (not_none (fst p) && not_none (snd p)); reflexivity.
Qed.

(* ---- (A3) extrema and first arg-extrema ------------------------------------------------------------------------ *)
(* for every carrier, dictionary and input, with no hypothesis on the order: the arg-extreme is None exactly when
   there is no valid element (then the extreme is None too) and otherwise indexes a VALID element whose value is the extreme returned by vmin / vmax *)
Theorem C11_arg_points_at_extreme_unconditional : forall {A T} {NA : Num A} {DT : IsNone T A} (xs : list T),
  match vargmin xs with
  | None => vals xs = [] /\ vmin xs = None
  | Some i => exists v, nth_error xs i = Some v /\ not_none v = true /\ vmin xs = Some (unwrap v)
  end /\
  match vargmax xs with
  | None => vals xs = [] /\ vmax xs = None
  | Some i => exists v, nth_error xs i = Some v /\ not_none v = true /\ vmax xs = Some (unwrap v)
  end.
Proof.
  intros. split; [unfold vargmin; rewrite vmin_is_vext|unfold vargmax; rewrite vmax_is_vext]; apply varg_points_at_vext.
Qed.

(* any weakly ordered carrier (reals, integers, binary64), valid elements not NaN: least / greatest valid element *)
Theorem C11_extrema_ordered_carrier : forall {A} {NA : Num A}, OrdLaws A ->
  forall {T} {DT : IsNone T A} (xs : list T), valid_ok xs ->
  match vmin xs with
  | None => vals xs = []
  | Some m => In m (vals xs) /\ forall x, In x (vals xs) -> nltb x m = false
  end /\
  match vmax xs with
  | None => vals xs = []
  | Some m => In m (vals xs) /\ forall x, In x (vals xs) -> nltb m x = false
  end.
Proof.
  intros A NA OL T DT xs H. split.
  - rewrite vmin_is_vext. exact (vext_least (ord_weak OL) _ _ (fun _ _ _ _ E => E) (fun _ _ _ _ E => E) H).
  - rewrite vmax_is_vext. exact (vext_least (wo_flip (ord_weak OL)) _ _ (fun _ _ _ _ E => E) (fun _ _ _ _ E => E) H).
Qed.
(* index (nulls counted) of the FIRST extreme: nothing is below it, everything valid before it is strictly above *)
Theorem C11_arg_extrema_ordered_carrier : forall {A} {NA : Num A}, OrdLaws A ->
  forall {T} {DT : IsNone T A} (xs : list T), valid_ok xs ->
  match vargmin xs with
  | None => vals xs = []
  | Some i => exists v, nth_error xs i = Some v /\ not_none v = true /\
      (forall j w, nth_error xs j = Some w -> not_none w = true -> nltb (unwrap w) (unwrap v) = false) /\
      (forall j w, j < i -> nth_error xs j = Some w -> not_none w = true -> nltb (unwrap v) (unwrap w) = true)
  end /\
  match vargmax xs with
  | None => vals xs = []
  | Some i => exists v, nth_error xs i = Some v /\ not_none v = true /\
      (forall j w, nth_error xs j = Some w -> not_none w = true -> nltb (unwrap v) (unwrap w) = false) /\
      (forall j w, j < i -> nth_error xs j = Some w -> not_none w = true -> nltb (unwrap w) (unwrap v) = true)
  end.
Proof.
  intros A NA OL T DT xs H. split.
  - exact (varg_first (ord_weak OL) _ _ (fun _ _ _ _ E => E) (fun _ _ _ _ E => E) H).
  - exact (varg_first (wo_flip (ord_weak OL)) _ _ (fun _ _ _ _ E => E) (fun _ _ _ _ E => E) H).
Qed.
(* permutation invariance over a weak order: null together, otherwise EQUIVALENT extremes (`==`) *)
Theorem C11_perm_extrema_ordered_carrier : forall {A} {NA : Num A}, OrdLaws A ->
  forall {T} {DT : IsNone T A} (xs ys : list T), valid_ok xs -> Permutation xs ys ->
  match vmin xs, vmin ys with
  | None, None => True | Some a, Some b => neqb a b = true | _, _ => False end /\
  match vmax xs, vmax ys with
  | None, None => True | Some a, Some b => neqb a b = true | _, _ => False end.
Proof.
  intros A NA OL T DT xs ys H HP. split.
  - rewrite !vmin_is_vext. exact (vext_perm (ord_weak OL) _ (ord_equiv OL) H HP).
  - rewrite !vmax_is_vext.
    exact (vext_perm (wo_flip (ord_weak OL)) _ (fun a b Ha Hb H1 H2 => ord_equiv OL Ha Hb H2 H1) H HP).
Qed.

(* binary64 (f64 series: every dictionary over Coq's float whose valid elements are not NaN — IsNoneF64 always is) *)
Theorem C11_valid_ok_f64 : forall xs : list PrimFloat.float, valid_ok (DT := IsNoneF64) xs.
Proof.
  intros xs v _ Hv. unfold num_ok. unfold not_none in Hv. cbn [is_none unwrap IsNoneF64 IsNone_float] in *.
  destruct (nisnan v); [discriminate|reflexivity].
Qed.
Theorem C11_valid_ok_optf64 : forall xs : list (option PrimFloat.float),
  valid_ok (DT := IsNoneOptF64) xs <-> (forall x, In (Some x) xs -> PrimFloat.is_nan x = false).
Proof.
  intros xs. split.
  - intros H x Hx. exact (H (Some x) Hx eq_refl).
  - intros H [x|] Hv Hn; [exact (H x Hv)|discriminate].
Qed.
Theorem C11_vmin_vmax_binary64 : forall {T} {DT : IsNone T PrimFloat.float} (xs : list T), valid_ok xs ->
  match vmin xs with
  | None => vals xs = []
  | Some m => In m (vals xs) /\ forall x, In x (vals xs) -> (x <? m)%float = false
  end /\
  match vmax xs with
  | None => vals xs = []
  | Some m => In m (vals xs) /\ forall x, In x (vals xs) -> (m <? x)%float = false
  end.
Proof. intros T DT xs H. exact (C11_extrema_ordered_carrier ordlaws_F64 xs H). Qed.
Theorem C11_vargmin_vargmax_binary64 : forall {T} {DT : IsNone T PrimFloat.float} (xs : list T), valid_ok xs ->
  match vargmin xs with
  | None => vals xs = []
  | Some i => exists v, nth_error xs i = Some v /\ not_none v = true /\
      (forall j w, nth_error xs j = Some w -> not_none w = true -> (unwrap w <? unwrap v)%float = false) /\
      (forall j w, j < i -> nth_error xs j = Some w -> not_none w = true -> (unwrap v <? unwrap w)%float = true)
  end /\
  match vargmax xs with
  | None => vals xs = []
  | Some i => exists v, nth_error xs i = Some v /\ not_none v = true /\
      (forall j w, nth_error xs j = Some w -> not_none w = true -> (unwrap v <? unwrap w)%float = false) /\
      (forall j w, j < i -> nth_error xs j = Some w -> not_none w = true -> (unwrap w <? unwrap v)%float = true)
  end.
Proof. intros T DT xs H. exact (C11_arg_extrema_ordered_carrier ordlaws_F64 xs H). Qed.
Theorem C11_perm_extrema_binary64 : forall {T} {DT : IsNone T PrimFloat.float} (xs ys : list T),
  valid_ok xs -> Permutation xs ys ->
  match vmin xs, vmin ys with
  | None, None => True | Some a, Some b => (a =? b)%float = true | _, _ => False end /\
  match vmax xs, vmax ys with
  | None, None => True | Some a, Some b => (a =? b)%float = true | _, _ => False end.
Proof. intros T DT xs ys H HP. exact (C11_perm_extrema_ordered_carrier ordlaws_F64 xs ys H HP). Qed.
(* "invariant under any permutation" is FALSE bit for bit at binary64: [+0; -0] vs [-0; +0] (equal as numbers) *)
Theorem C11_perm_extrema_bitwise_refuted :
  exists xs ys : list PrimFloat.float, Permutation xs ys /\
    vmin (DT := IsNoneF64) xs <> vmin (DT := IsNoneF64) ys /\ vmax (DT := IsNoneF64) xs <> vmax (DT := IsNoneF64) ys.
Proof.
  exists [0%float; (-0)%float], [(-0)%float; 0%float]. split; [apply perm_swap|].
  split; intros H; apply (f_equal (fun o => match o with Some m => (1 / m <? 0)%float | None => false end)) in H;
    vm_compute in H; discriminate.
Qed.

(* ---- (A4) the plain family (AggBasic) ---------------------------------------------------------------------------- *)
Theorem C11_plain_first_last : forall {X} (xs : list X),
  first xs = hd_error xs /\ last xs = hd_error (rev xs) /\ (first xs = None <-> xs = []) /\ (last xs = None <-> xs = []).
Proof.
  intros X xs. unfold last, first. split; [destruct xs; reflexivity|]. split; [destruct (rev xs); reflexivity|].
  split; [destruct xs; split; intros; try reflexivity; discriminate|].
  destruct xs as [|x xs]; [split; reflexivity|]. cbn [rev].
  destruct (rev xs ++ [x]) eqn:E; [apply app_eq_nil in E; destruct E; discriminate|split; discriminate].
Qed.
Theorem C11_plain_n_sum : forall {A} {NA : Num A} (xs : list A),
  n_sum xs = (length xs, if (length xs =? 0)%nat then None else Some (fold_left nadd xs nzero)) /\
  sum xs = snd (n_sum xs).
Proof. intros A NA xs. split; [|reflexivity]. rewrite n_sum_spec. destruct xs; reflexivity. Qed.
Theorem C11_vfirst_vlast_are_plain : forall {A T} {DT : IsNone T A} (xs : list T),
  vfirst xs = first (valid_elems xs) /\ vlast xs = last (valid_elems xs).
Proof.
  intros A T DT xs. split.
  - rewrite vfirst_spec. destruct (valid_elems xs); reflexivity.
  - rewrite vlast_spec. unfold last, first. destruct (rev (valid_elems xs)); reflexivity.
Qed.
Theorem C11_plain_arg_ordered_carrier : forall {A} {NA : Num A}, OrdLaws A -> forall l : list A,
  Forall num_ok l ->
  match argmin l with
  | None => l = []
  | Some i => exists m, nth_error l i = Some m /\
      (forall j x, nth_error l j = Some x -> nltb x m = false) /\
      (forall j x, j < i -> nth_error l j = Some x -> nltb m x = true)
  end /\
  match argmax l with
  | None => l = []
  | Some i => exists m, nth_error l i = Some m /\
      (forall j x, nth_error l j = Some x -> nltb m x = false) /\
      (forall j x, j < i -> nth_error l j = Some x -> nltb x m = true)
  end.
Proof.
  intros A NA OL l H. split.
  - exact (parg_first (ord_weak OL) _ _ (fun _ _ _ _ E => E) (fun _ _ _ _ E => E) H).
  - exact (parg_first (wo_flip (ord_weak OL)) _ _ (fun _ _ _ _ E => E) (fun _ _ _ _ E => E) H).
Qed.
Theorem C11_plain_argmax_f64 : forall V : list R,
  match argmax (map Some V) with
  | None => V = []
  | Some i => exists r, nth_error V i = Some r /\
      (forall j x, nth_error V j = Some x -> (x <= r)%R) /\
      (forall j x, j < i -> nth_error V j = Some x -> (x < r)%R)
  end.
Proof. intros V. exact (parg_real (wo_flip xr_weak) (fun r x => le_real x r) (fun r x => lt_real x r) V). Qed.
Theorem C11_plain_arg_int : forall l : list Z,
  match argmin (NA := AggNumZ) l with
  | None => l = []
  | Some i => exists m, nth_error l i = Some m /\
      (forall j x, nth_error l j = Some x -> (m <= x)%Z) /\
      (forall j x, j < i -> nth_error l j = Some x -> (m < x)%Z)
  end /\
  match argmax (NA := AggNumZ) l with
  | None => l = []
  | Some i => exists m, nth_error l i = Some m /\
      (forall j x, nth_error l j = Some x -> (x <= m)%Z) /\
      (forall j x, j < i -> nth_error l j = Some x -> (x < m)%Z)
  end.
Proof.
  intros l. split.
  - exact (parg_first (z_weak _) Z.le Z.lt (le_int _) (lt_int _) (Forall_int l)).
  - exact (parg_first (wo_flip (z_weak _)) _ _ (ge_int _) (gt_int _) (Forall_int l)).
Qed.
(* AggBasic::min / max on ANY float series (NaN is an ordinary value for the plain family): a leading NaN is the
   result, a later NaN is skipped (C11_plain_min_max_f64 is the null-free case) *)
Theorem C11_plain_min_max_with_nan : forall l : list XR,
  match l with
  | [] => pmin l = None /\ pmax l = None
  | None :: _ => pmin l = Some None /\ pmax l = Some None
  | Some r :: t => pmin l = Some (Some (fold_left Rmin (valid t) r)) /\ pmax l = Some (Some (fold_left Rmax (valid t) r))
  end.
Proof. exact plain_min_max_with_nan. Qed.

(* ---- (A5) two series and masks: zip truncation; permuting the (value, flag) pairs --------------------------------- *)
Theorem C11_two_series_truncate :
  forall {A} {NA : Num A} {T T2} {DT : IsNone T A} {DT2 : IsNone T2 A} {F} {NF : Num F} (tof : A -> F)
         {U} {DU : IsNone U bool} (mp : nat) (xs : list T) (ys : list T2) (mask : list U),
  let n := Nat.min (length xs) (length ys) in let k := Nat.min (length xs) (length mask) in
  vcov tof mp xs ys = vcov tof mp (firstn n xs) (firstn n ys) /\
  vcorr_pearson tof mp xs ys = vcorr_pearson tof mp (firstn n xs) (firstn n ys) /\
  mask_filter xs mask = mask_filter (firstn k xs) (firstn k mask).
Proof.
  intros A NA T T2 DT DT2 F NF tof U DU mp xs ys mask n k. subst n k. unfold vcov, vcorr_pearson, mask_filter.
  rewrite <- (combine_truncate xs ys), <- (combine_truncate xs mask). repeat split; reflexivity.
Qed.
Theorem C11_masked_perm_float : forall {T} {DT : IsNone T XR} {U} {DU : IsNone U bool} (mp : nat)
    (xs xs' : list T) (mask mask' : list U),
  canonical idX xs -> canonical idX xs' -> Permutation (combine xs mask) (combine xs' mask') ->
  n_sum_filter xs mask = n_sum_filter xs' mask' /\ vmean_filter idX mp xs mask = vmean_filter idX mp xs' mask' /\
  fst (n_vsum_filter xs mask) = fst (n_vsum_filter xs' mask').
Proof.
  intros T DT U DU mp xs xs' mask mask' H H' HP. destruct (masked_perm_float mp mask mask' H H' HP) as [a b].
  split; [exact a|]. split; [exact b|]. apply (masked_count_perm (NA := NumXR) xs xs' mask mask' HP).
Qed.
Theorem C11_masked_perm_int : forall {T} {DT : IsNone T Z} {U} {DU : IsNone U bool} (mp : nat)
    (xs xs' : list T) (mask mask' : list U),
  Permutation (combine xs mask) (combine xs' mask') ->
  n_sum_filter (NA := AggNumZ) xs mask = n_sum_filter (NA := AggNumZ) xs' mask' /\
  vmean_filter (NA := AggNumZ) zR mp xs mask = vmean_filter (NA := AggNumZ) zR mp xs' mask'.
Proof.
  intros T DT U DU mp xs xs' mask mask' HP. pose proof (mask_filter_perm xs xs' mask mask' HP) as HM. split.
  - rewrite !n_sum_filter_is_vsum. apply vsum_perm_int; assumption.
  - rewrite (vmean_filter_textbook (NA := AggNumZ) (@sum_hom_int T DT) mp mask (canonical_int xs)),
            (vmean_filter_textbook (NA := AggNumZ) (@sum_hom_int T DT) mp mask' (canonical_int xs')). cbv zeta.
    pose proof (rvals_perm zR HM) as HR. rewrite (Permutation_length HR), (meanR_perm HR). reflexivity.
Qed.

(* ---- (A6) nullness for EVERY carrier; non-canonical input ------------------------------------------------------------ *)
(* fewer valid observations than required => null: decided by the count alone, so for every carrier (binary64 included),
   every dictionary, every cast, canonical or not.  (The converse is carrier specific: C11_nullness_single / _two.) *)
Theorem C11_null_below_any_carrier :
  forall {A} {NA : Num A} {T} {DT : IsNone T A} {F} {NF : Num F} (tof : A -> F),
  @nisnan F NF nnan = true -> forall (mp : nat) (xs : list T),
  (count_valid xs = 0 -> vsum xs = None /\ vmean tof xs = nnan /\ vmin xs = None /\ vmax xs = None /\
                         vargmin xs = None /\ vargmax xs = None /\ vfirst xs = None /\ vlast xs = None) /\
  (count_valid xs < Nat.max mp 2 -> vvar tof mp xs = nnan /\ vstd tof mp xs = nsqrt nnan) /\
  (count_valid xs < Nat.max mp 3 -> vskew tof mp xs = nnan) /\
  (count_valid xs < Nat.max mp 4 -> vkurt tof mp xs = nnan).
Proof. intros A NA T DT F NF tof H mp xs. apply (null_below_single tof H). Qed.
Theorem C11_null_below_two_any_carrier :
  forall {A T T2} {DT : IsNone T A} {DT2 : IsNone T2 A} {F} {NF : Num F} (tof : A -> F) (mp : nat) (xs : list T) (ys : list T2),
  npairs xs ys < Nat.max mp 2 -> vcov tof mp xs ys = nnan /\ vcorr_pearson tof mp xs ys = nnan.
Proof. intros A T T2 DT DT2 F NF tof mp xs ys H. apply (null_below_two tof mp xs ys H). Qed.
(* the quantifier's min_periods = len + 1 (and anything above): null whatever the data *)
Theorem C11_min_periods_above_length :
  forall {A} {NA : Num A} {T} {DT : IsNone T A} {F} {NF : Num F} (tof : A -> F),
  @nisnan F NF nnan = true -> forall (mp : nat) (xs : list T), length xs < mp ->
  vvar tof mp xs = nnan /\ vstd tof mp xs = nsqrt nnan /\ vskew tof mp xs = nnan /\ vkurt tof mp xs = nnan /\
  vmean_var tof mp xs = (nnan, nnan).
Proof.
  intros A NA T DT F NF tof Hnan mp xs H. pose proof (count_valid_le_length xs) as L.
  destruct (null_below_single tof Hnan mp xs) as (_ & H2 & H3 & H4).
  destruct H2 as [E1 E2]; [lia|]. split; [exact E1|]. split; [exact E2|].
  split; [apply H3; lia|]. split; [apply H4; lia|].
  unfold vmean_var. rewrite vapply_n_spec. cbn [fst snd]. rewrite <- count_valid_spec.
  replace (count_valid xs <? mp) with true by (symmetry; apply Nat.ltb_lt; lia). reflexivity.
Qed.
Theorem C11_null_below_binary64 : forall {A} {NA : Num A} {T} {DT : IsNone T A} (tof : A -> PrimFloat.float) (mp : nat) (xs : list T),
  (count_valid xs = 0 -> vsum xs = None /\ PrimFloat.is_nan (vmean tof xs) = true /\ vmin xs = None /\ vmax xs = None /\
                         vargmin xs = None /\ vargmax xs = None /\ vfirst xs = None /\ vlast xs = None) /\
  (count_valid xs < Nat.max mp 2 -> PrimFloat.is_nan (vvar tof mp xs) = true /\ PrimFloat.is_nan (vstd tof mp xs) = true) /\
  (count_valid xs < Nat.max mp 3 -> PrimFloat.is_nan (vskew tof mp xs) = true) /\
  (count_valid xs < Nat.max mp 4 -> PrimFloat.is_nan (vkurt tof mp xs) = true).
Proof.
  intros A NA T DT tof mp xs. destruct (null_below_single (NF := NumF64) tof eq_refl mp xs) as (H0 & H2 & H3 & H4).
  split; [|split; [|split]].
  - intros E. destruct (H0 E) as (a & b & c & d & e & f & g & h). rewrite b. repeat split; assumption.
  - intros E. destruct (H2 E) as [a b]. rewrite a, b. split; reflexivity.
  - intros E. rewrite (H3 E). reflexivity.
  - intros E. rewrite (H4 E). reflexivity.
Qed.
Theorem C11_null_below_two_binary64 :
  forall {A T T2} {DT : IsNone T A} {DT2 : IsNone T2 A} (tof : A -> PrimFloat.float) (mp : nat) (xs : list T) (ys : list T2),
  npairs xs ys < Nat.max mp 2 ->
  PrimFloat.is_nan (vcov tof mp xs ys) = true /\ PrimFloat.is_nan (vcorr_pearson tof mp xs ys) = true.
Proof.
  intros A T T2 DT DT2 tof mp xs ys H. destruct (null_below_two (NF := NumF64) tof mp xs ys H) as [a b]. rewrite a, b. split; reflexivity.
Qed.

(* non-canonical input (excluded by DESIGN 5.4 — this is what the code does there): a VALID element whose value is NaN,
   i.e. Some(NaN) in an Option<f64> series, counts as an observation and poisons sum, mean, variance *)
Theorem C11_valid_nan_poisons : forall {T} {DT : IsNone T XR} (mp : nat) (xs : list T),
  In None (vals xs) ->
  vsum xs = Some None /\ vmean idX xs = None /\ vmean_var idX mp xs = (None, None) /\
  vvar idX mp xs = None /\ vstd idX mp xs = None /\ 1 <= count_valid xs.
Proof.
  intros T DT mp xs H. assert (L : (1 <= length (vals xs))%nat) by (destruct (vals xs); [destruct H|cbn; lia]).
  assert (MV : vmean_var idX mp xs = (None, None)).
  { unfold vmean_var. rewrite vapply_n_spec. cbn [fst snd]. rewrite (@xfold_mv_poison (vals xs) _ H). cbn [fst snd].
    destruct (length (vals xs) <? mp)%nat; [reflexivity|].
    destruct (length (vals xs) <? 2)%nat; reflexivity. }
  split; [|split; [|split; [exact MV|split; [|split]]]].
  - unfold vsum. rewrite vfold_n_spec. cbn [fst snd]. rewrite (@xfold_add_poison (vals xs) _ H).
    replace (1 <=? length (vals xs))%nat with true by (symmetry; apply Nat.leb_le; exact L). reflexivity.
  - unfold vmean. rewrite vfold_n_spec. cbn [fst snd]. rewrite (@xfold_add_poison (vals xs) _ H).
    replace (1 <=? length (vals xs))%nat with true by (symmetry; apply Nat.leb_le; exact L). reflexivity.
  - unfold vvar. rewrite MV. reflexivity.
  - unfold vstd, vvar. rewrite MV. reflexivity.
  - rewrite count_valid_spec. exact L.
Qed.

(* ---- (A7) accumulating with Number::n_add at binary64 = the vsum fold: the rounding bound (R2) covers it ----------- *)
Theorem C11_n_add_fold_binary64 : forall xs : list PrimFloat.float,
  n_add_fold (DN := IsNoneF64) zero xs = (ffold zero (fvals xs), length (fvals xs)).
Proof. intros xs. rewrite (n_add_fold_spec (DN := IsNoneF64) unwrap_id_float). reflexivity. Qed.
Theorem C11_n_add_fold_binary64_error : forall xs : list PrimFloat.float,
  ffin (fst (n_add_fold (DN := IsNoneF64) zero xs)) = true ->
  (Rabs (f2r (fst (n_add_fold (DN := IsNoneF64) zero xs)) - sumR (rvals64 xs))
   <= gam u64 (length (rvals64 xs)) * sumabs (rvals64 xs))%R.
Proof.
  intros xs. rewrite C11_n_add_fold_binary64. cbn [fst]. intros Hf. unfold rvals64. rewrite map_length.
  apply round_sum_fold, Hf.
Qed.

(* ---- (A8) f64::floor / ceil as executed by the correspondence run (Run/RunC11.v) ----------------------------------- *)
Theorem C11_f64_floor_shape : forall x : PrimFloat.float,
  match Prim2SF x with
  | S754_finite s m e =>
      if (0 <=? e)%Z then Run.RunC11.f64_floor x = x
      else Run.RunC11.f64_floor x =
           (if (Run.RunC11.f64_floorZ x =? 0)%Z then (if s then neg_zero else zero) else f64_ofZ (Run.RunC11.f64_floorZ x))
  | _ => Run.RunC11.f64_floor x = x
  end /\ Run.RunC11.f64_ceil x = (- Run.RunC11.f64_floor (- x))%float.
Proof.
  intros x. split; [|reflexivity]. unfold Run.RunC11.f64_floor. destruct (Prim2SF x) as [ | | | s m e]; try reflexivity.
  destruct (0 <=? e)%Z; reflexivity.
Qed.

(* ... and it IS the mathematical floor / ceiling of the real value, for every finite float (Proofs/Audit11Floor.v: Flocq's
   Prim2B / B2R, the mantissa bound from `bounded`, exact conversion of integers below 2^53); NaN / infinities unchanged *)
From Tevec Require Proofs.Audit11Floor.
Theorem C11_f64_floor_is_floor : forall x : PrimFloat.float, ffin x = true ->
  ffin (Run.RunC11.f64_floor x) = true /\ f2r (Run.RunC11.f64_floor x) = IZR (Flocq.Core.Raux.Zfloor (f2r x)).
Proof. exact Proofs.Audit11Floor.f64_floor_spec. Qed.
Theorem C11_f64_ceil_is_ceil : forall x : PrimFloat.float, ffin x = true ->
  ffin (Run.RunC11.f64_ceil x) = true /\ f2r (Run.RunC11.f64_ceil x) = IZR (Flocq.Core.Raux.Zceil (f2r x)).
Proof. exact Proofs.Audit11Floor.f64_ceil_spec. Qed.
Example C11_ex_floor_premise :
  (ffin (-2.5)%float = true) /\ (Run.RunC11.f64_floor (-2.5)%float = (-3)%float) /\
  (Run.RunC11.f64_ceil (-2.5)%float = (-2)%float) /\
  (Run.RunC11.f64_floor 4503599627370496%float = 4503599627370496%float) /\
  (PrimFloat.is_nan (Run.RunC11.f64_floor nan) = true).
Proof. repeat split; vm_compute; reflexivity. Qed.

(* ---- non-vacuity of the implications above ------------------------------------------------------------------------- *)
Example C11_ex_audit_number :
  n_add (DN := IsNoneXR) (Some 1%R) None 3 = (Some 1%R, 3) /\ n_add (DN := IsNoneXR) None (Some 1%R) 3 = (None, 4) /\
  n_add_fold (NA := AggNumZ) (DN := IsNone_plain) 0%Z [1; 2; 3]%Z = (6%Z, 3) /\
  n_prod_fold (NA := AggNumZ) (DN := IsNone_plain) 1%Z [1; 2; 3]%Z = (6%Z, 3) /\
  kh_fold (NA := AggNumZ) [1; 2; 3]%Z = (6%Z, 0%Z) /\ In None [Some 1%R; None] /\
  unwrap_id (@IsNone_float XR NumXR) /\ unwrap_id (@IsNone_plain Z).
Proof.
  split; [reflexivity|]. split; [reflexivity|]. split; [reflexivity|]. split; [reflexivity|]. split; [reflexivity|].
  split; [right; left; reflexivity|]. split; [apply unwrap_id_float|apply unwrap_id_plain].
Qed.
Example C11_ex_audit_ordered :
  valid_ok (DT := IsNoneF64) [1%float; nan; (-0)%float] /\ @num_ok _ NumF64 1%float /\ @num_ok XR NumXR (Some 1%R) /\
  vargmin (DT := IsNoneF64) [2%float; nan; 1%float; 1%float] = Some 2 /\
  vmin (DT := IsNoneF64) [2%float; nan; 1%float; 1%float] = Some 1%float /\
  Permutation [0%float; (-0)%float] [(-0)%float; 0%float] /\ Forall (@num_ok Z AggNumZ) [3; 1; 2]%Z.
Proof.
  split; [apply C11_valid_ok_f64|]. split; [reflexivity|]. split; [reflexivity|]. split; [reflexivity|]. split; [reflexivity|].
  split; [apply perm_swap|repeat constructor].
Qed.
Example C11_ex_audit_masked_perm_premise :
  Permutation (combine [Some 1%R; None; Some 3%R] [true; true; false]) (combine [None; Some 3%R; Some 1%R] [true; false; true]).
Proof.
  cbn [combine]. apply Permutation_trans with (l' := [(None, true); (Some 1%R, true); (Some 3%R, false)]); [apply perm_swap|].
  apply perm_skip, perm_swap.
Qed.
Example C11_ex_audit_null_premises :
  count_valid (DT := IsNoneXR) [None; Some 1%R] < Nat.max 0 2 /\ npairs (DT := IsNoneXR) (DT2 := IsNoneXR) [Some 1%R; None] [None; Some 2%R] < Nat.max 0 2 /\
  length [Some 1%R; Some 2%R] < 3 /\ @nisnan XR NumXR nnan = true /\ @nisnan _ NumF64 nnan = true /\
  In None (vals (DT := IsNoneOptXR) [Some (Some 1%R); Some None; None]).
Proof.
  split; [cbn; lia|]. split; [cbn; lia|]. split; [cbn; lia|]. split; [reflexivity|]. split; [reflexivity|].
  cbn. right. left. reflexivity.
Qed.

Print Assumptions C11_round_sum_fold.
Print Assumptions C11_vsum_binary64_error.
Print Assumptions C11_vsum_binary64_error_linear.
Print Assumptions C11_u64_value.
Print Assumptions C11_gam_linear.
Print Assumptions C11_vsum_float_vs_exact_model.
Print Assumptions C11_vsum_finite_certifies.
Print Assumptions C11_vsum_exact_on_grid.
Print Assumptions C11_rounding_model_with_underflow.
Print Assumptions C11_rounding_model_normal_range.
Print Assumptions C11_eta64_value.
Print Assumptions C11_vmean_binary64_error.
Print Assumptions C11_vmean_binary64_error_linear.
Print Assumptions C11_vmean_binary64_error_normal.
Print Assumptions C11_vmean_float_vs_exact_model.
Print Assumptions C11_vmean_finite_certifies.
Print Assumptions C11_number_n_add_n_prod.
Print Assumptions C11_number_n_add_fold.
Print Assumptions C11_number_n_add_fold_is_vsum.
Print Assumptions C11_number_kh_sum_exact.
Print Assumptions C11_number_kh_sum_nan.
Print Assumptions C11_number_kh_sum_binary64.
Print Assumptions C11_number_kh_sum_binary64_witness.
Print Assumptions C11_number_floor_ceil.
Print Assumptions C11_number_min_max_with.
Print Assumptions C11_number_min_max_with_nan.
Print Assumptions C11_number_min_max_with_nan_f64.
Print Assumptions C11_number_min_max_with_ordered.
Print Assumptions C11_number_min_max_with_binary64.
Print Assumptions C11_ordered_carriers.
Print Assumptions C11_number_to_fromas.
Print Assumptions C11_vfold2.
Print Assumptions C11_vapply.
Print Assumptions C11_vcov_is_vfold2.
Print Assumptions C11_arg_points_at_extreme_unconditional.
Print Assumptions C11_extrema_ordered_carrier.
Print Assumptions C11_arg_extrema_ordered_carrier.
Print Assumptions C11_perm_extrema_ordered_carrier.
Print Assumptions C11_valid_ok_f64.
Print Assumptions C11_valid_ok_optf64.
Print Assumptions C11_vmin_vmax_binary64.
Print Assumptions C11_vargmin_vargmax_binary64.
Print Assumptions C11_perm_extrema_binary64.
Print Assumptions C11_perm_extrema_bitwise_refuted.
Print Assumptions C11_plain_first_last.
Print Assumptions C11_plain_n_sum.
Print Assumptions C11_vfirst_vlast_are_plain.
Print Assumptions C11_plain_arg_ordered_carrier.
Print Assumptions C11_plain_argmax_f64.
Print Assumptions C11_plain_arg_int.
Print Assumptions C11_plain_min_max_with_nan.
Print Assumptions C11_two_series_truncate.
Print Assumptions C11_masked_perm_float.
Print Assumptions C11_masked_perm_int.
Print Assumptions C11_null_below_any_carrier.
Print Assumptions C11_null_below_two_any_carrier.
Print Assumptions C11_min_periods_above_length.
Print Assumptions C11_null_below_binary64.
Print Assumptions C11_null_below_two_binary64.
Print Assumptions C11_valid_nan_poisons.
Print Assumptions C11_n_add_fold_binary64.
Print Assumptions C11_n_add_fold_binary64_error.
Print Assumptions C11_f64_floor_shape.
Print Assumptions C11_f64_floor_is_floor.
Print Assumptions C11_f64_ceil_is_ceil.
