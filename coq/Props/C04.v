(* Props/C04.v — property C04: rolling covariance, correlation and regressions equal per-window least
   squares.  Carrier XR = option R (exact reals + one absorbing NaN = null).  Every pair of equal-length
   series, every window w >= 1, every min_periods, every position, both driver bodies.  (8)-(12): every input
   (unequal lengths, window 0), every carrier.
     P = pairs (win w i xs) (win w i ys)   the pairwise-complete observations (a from the first series,
                                           b from the second) of the window max(0,i-w+1)..=i
     V = valid (win w i xs)                the non-null values of the window (time-trend family),
     trend_pairs V                         = [(x_1, 1); ...; (x_n, n)]
     ols_x P f                             = null when n Sbb = Sb^2 (DESIGN 5.6), else f(alpha, beta) of the
                                             least-squares line a ~ alpha + beta b *)
From Coq Require Import Reals List Lra Lia Floats.
From Tevec Require Import Base.Prelude Base.Num Base.XR Base.F64 Spec.Stats Spec.Ols Model.Driver Model.Features
     Model.Binary Model.Reg Proofs.Outcome Proofs.Features Proofs.Ols Proofs.Binary Proofs.Trend Proofs.Resid Proofs.Audit04.
Import ListNotations.

(* (0) the accumulator never drifts: at emit time of every step it holds exactly the count and the cross
   power sums of the pairwise-complete observations of the window, whatever is computed from it
   (cov, corr, regx_alpha, regx_beta, regx_all share this accumulator; the residual statistics too) *)
Theorem C04_cross_sums_track_window :
  forall (O : Type) (emit : @csum XR -> O) (body : bool) (w : nat) (xs ys : list XR),
    1 <= w -> length xs = length ys ->
    exists out, ts_run2 (csum_feat emit) body w xs ys = Done out /\ length out = length xs /\
      forall i, i < length xs ->
        let P := pairs (win w i xs) (win w i ys) in
        exists s, nth_error out i = Some (emit s) /\
          c_n s = length P /\ c_a s = Some (SA P) /\ c_b s = Some (SB P) /\ c_ab s = Some (SAB P) /\
          c_a2 s = Some (SAA P) /\ c_b2 s = Some (SBB P).
Proof.
  intros O emit body w xs ys Hw Hlen.
  destruct (csum_state_tracks_window emit body w xs ys Hw Hlen) as (out & H1 & H2 & H3).
  exists out. split; [exact H1|]. split; [exact H2|]. intros i Hi P.
  destruct (H3 i Hi) as (s & Habs & Hn). exists s. split; [exact Hn|exact Habs].
Qed.

(* (1) sample covariance; null below max(min_periods, 2) observations *)
Theorem C04_ts_vcov :
  forall (body : bool) (w : nat) (mp : option nat) (xs ys : list XR),
    1 <= w -> length xs = length ys ->
    exists out, ts_run2 (ts_vcov_f w mp) body w xs ys = Done out /\ length out = length xs /\
      forall i, i < length xs ->
        nth_error out i =
        Some (let P := pairs (win w i xs) (win w i ys) in
              if mp_eff mp w 2 <=? length P then Some (cov_sample P) else None).
Proof.
  intros body w mp xs ys Hw Hlen.
  apply done_map_iff, (csum_run _ (cov_out (mp_eff mp w 2))); [exact Hw|exact Hlen|apply cov_reads, mp_eff_ge].
Qed.

(* (2) Pearson correlation; null unless both population variances exceed EPS *)
Theorem C04_ts_vcorr :
  forall (body : bool) (w : nat) (mp : option nat) (xs ys : list XR),
    1 <= w -> length xs = length ys ->
    exists out, ts_run2 (ts_vcorr_f w mp) body w xs ys = Done out /\ length out = length xs /\
      forall i, i < length xs ->
        nth_error out i =
        Some (let P := pairs (win w i xs) (win w i ys) in
              if mp_eff mp w 0 <=? length P then
                (if Rlt_dec EPS (popvarR (map fst P)) then
                   (if Rlt_dec EPS (popvarR (map snd P)) then Some (corrP P) else None)
                 else None)
              else None).
Proof.
  intros body w mp xs ys Hw Hlen.
  apply done_map_iff, (csum_run _ (corr_out (mp_eff mp w 0))); [exact Hw|exact Hlen|apply corr_reads].
Qed.

(* (3) regression of the first series on the second: intercept, slope, (alpha, beta, SSE) *)
Theorem C04_ts_vregx_alpha :
  forall (body : bool) (w : nat) (mp : option nat) (xs ys : list XR),
    1 <= w -> length xs = length ys ->
    exists out, ts_run2 (ts_vregx_alpha_f w mp) body w xs ys = Done out /\ length out = length xs /\
      forall i, i < length xs ->
        nth_error out i =
        Some (let P := pairs (win w i xs) (win w i ys) in
              if mp_eff mp w 0 <=? length P then ols_x P (fun al _ => al) else None).
Proof.
  intros body w mp xs ys Hw Hlen.
  apply done_map_iff, (csum_run _ (regx_alpha_out (mp_eff mp w 0))); [exact Hw|exact Hlen|apply regx_alpha_reads].
Qed.

Theorem C04_ts_vregx_beta :
  forall (body : bool) (w : nat) (mp : option nat) (xs ys : list XR),
    1 <= w -> length xs = length ys ->
    exists out, ts_run2 (ts_vregx_beta_f w mp) body w xs ys = Done out /\ length out = length xs /\
      forall i, i < length xs ->
        nth_error out i =
        Some (let P := pairs (win w i xs) (win w i ys) in
              if mp_eff mp w 0 <=? length P then ols_x P (fun _ be => be) else None).
Proof.
  intros body w mp xs ys Hw Hlen.
  apply done_map_iff, (csum_run _ (regx_beta_out (mp_eff mp w 0))); [exact Hw|exact Hlen|apply regx_beta_reads].
Qed.

Theorem C04_ts_vregx_all :
  forall (body : bool) (w : nat) (mp : option nat) (xs ys : list XR),
    1 <= w -> length xs = length ys ->
    exists out, ts_run2 (ts_vregx_all_f w mp) body w xs ys = Done out /\ length out = length xs /\
      forall i, i < length xs ->
        nth_error out i =
        Some (let P := pairs (win w i xs) (win w i ys) in
              if mp_eff mp w 0 <=? length P then
                (if Req_EM_T (detB P) 0 then (None, None, None)
                 else (Some (ols_alpha P), Some (ols_beta P), Some (sse (ols_alpha P) (ols_beta P) P)))
              else (None, None, None)).
Proof.
  intros body w mp xs ys Hw Hlen.
  apply done_map_iff, (csum_run _ (regx_all_out (mp_eff mp w 0))); [exact Hw|exact Hlen|apply regx_all_reads].
Qed.

(* (4) what (ols_alpha, ols_beta) are: THE least-squares line.  Normal equations, uniqueness, minimality
   of the sum of squared errors over all lines; the fit is undefined exactly when the regressor is
   constant over the observations (which includes n <= 1). *)
Theorem C04_ols_normal_equations :
  forall P : list (R * R), detB P <> 0%R -> normal_eqs (ols_alpha P) (ols_beta P) P.
Proof. exact ols_normal_eqs. Qed.

Theorem C04_ols_unique :
  forall (al be : R) (P : list (R * R)),
    detB P <> 0%R -> normal_eqs al be P -> al = ols_alpha P /\ be = ols_beta P.
Proof. exact ols_unique. Qed.

Theorem C04_ols_minimises :
  forall (P : list (R * R)) (al' be' : R),
    detB P <> 0%R -> (sse (ols_alpha P) (ols_beta P) P <= sse al' be' P)%R.
Proof. exact ols_minimises. Qed.

Theorem C04_singular_iff_constant_regressor :
  forall P : list (R * R), detB P = 0%R <-> Forall (fun p => snd p = meanB P) P.
Proof. exact detB_zero_iff_constant. Qed.

Theorem C04_defined_needs_two_observations :
  forall P : list (R * R), detB P <> 0%R -> 2 <= length P.
Proof. exact det_nonzero_two. Qed.

(* (5) residual mean / standard deviation / skewness = the aggregation statistic (agg.rs vmean, vstd(2),
   vskew(3)) of the list of least-squares residuals of the pairwise-complete observations.
   rstat_spec RMean = mean, RStd = sample std (0 under the EPS floor), RSkew = adjusted skewness. *)
Theorem C04_ts_vregx_resid :
  forall (k : rstat) (body : bool) (w : nat) (mp : option nat) (xs ys : list XR),
    1 <= w -> length xs = length ys ->
    exists out, ts_vregx_resid k body w mp xs ys = Done out /\ length out = length xs /\
      forall i, i < length xs ->
        nth_error out i =
        Some (let P := pairs (win w i xs) (win w i ys) in
              if mp_eff mp w 0 <=? length P then
                (if Req_EM_T (detB P) 0 then None
                 else rstat_spec k (resids (ols_alpha P) (ols_beta P) P))
              else None).
Proof. exact resid_entry. Qed.

(* the residuals of a least-squares fit with intercept average to zero *)
Theorem C04_ols_resid_mean_zero :
  forall P : list (R * R), detB P <> 0%R -> meanR (resids (ols_alpha P) (ols_beta P) P) = 0%R.
Proof.
  intros P HD. unfold meanR. rewrite resids_sum. destruct (ols_normal_eqs P HD) as [-> _].
  unfold Rdiv. ring.
Qed.

(* (6) the time-trend family: least squares of the window's non-null values on t = 1..n *)
Theorem C04_ts_vreg_slope :
  forall (body : bool) (w : nat) (mp : option nat) (xs : list XR), 1 <= w ->
    exists out, ts_run (ts_vreg_slope_f w mp) body w xs = Done out /\ length out = length xs /\
      forall i, i < length xs ->
        nth_error out i =
        Some (let V := valid (win w i xs) in
              if mp_eff mp w 0 <=? length V then ols_x (trend_pairs V) (fun _ be => be) else None).
Proof.
  intros body w mp xs Hw.
  apply done_map_iff, (tr_run _ (slope_out (mp_eff mp w 0))); [exact Hw|].
  intros s W HA. apply emit_slope_spec, HA.
Qed.

Theorem C04_ts_vreg_intercept :
  forall (body : bool) (w : nat) (mp : option nat) (xs : list XR), 1 <= w ->
    exists out, ts_run (ts_vreg_intercept_f w mp) body w xs = Done out /\ length out = length xs /\
      forall i, i < length xs ->
        nth_error out i =
        Some (let V := valid (win w i xs) in
              if mp_eff mp w 0 <=? length V then ols_x (trend_pairs V) (fun al _ => al) else None).
Proof.
  intros body w mp xs Hw.
  apply done_map_iff, (tr_run _ (intercept_out (mp_eff mp w 0))); [exact Hw|].
  intros s W HA. apply emit_intercept_spec, HA.
Qed.

(* fitted value at the last point: intercept + slope * n *)
Theorem C04_ts_vreg :
  forall (body : bool) (w : nat) (mp : option nat) (xs : list XR), 1 <= w ->
    exists out, ts_run (ts_vreg_f w mp) body w xs = Done out /\ length out = length xs /\
      forall i, i < length xs ->
        nth_error out i =
        Some (let V := valid (win w i xs) in
              if mp_eff mp w 0 <=? length V
              then ols_x (trend_pairs V) (fun al be => al + be * nP (trend_pairs V))%R else None).
Proof.
  intros body w mp xs Hw.
  apply done_map_iff, (tr_run _ (reg_out (mp_eff mp w 0))); [exact Hw|].
  intros s W HA. apply emit_reg_spec, HA.
Qed.

(* one-step-ahead forecast: intercept + slope * (n + 1) *)
Theorem C04_ts_vtsf :
  forall (body : bool) (w : nat) (mp : option nat) (xs : list XR), 1 <= w ->
    exists out, ts_run (ts_vtsf_f w mp) body w xs = Done out /\ length out = length xs /\
      forall i, i < length xs ->
        nth_error out i =
        Some (let V := valid (win w i xs) in
              if mp_eff mp w 0 <=? length V
              then ols_x (trend_pairs V) (fun al be => al + be * (nP (trend_pairs V) + 1))%R else None).
Proof.
  intros body w mp xs Hw.
  apply done_map_iff, (tr_run _ (tsf_out (mp_eff mp w 0))); [exact Hw|].
  intros s W HA. apply emit_tsf_spec, HA.
Qed.

(* mean squared residual: sum (x_t - alpha - beta t)^2 / n *)
Theorem C04_ts_vreg_resid_mean :
  forall (body : bool) (w : nat) (mp : option nat) (xs : list XR), 1 <= w ->
    exists out, ts_run (ts_vreg_resid_mean_f w mp) body w xs = Done out /\ length out = length xs /\
      forall i, i < length xs ->
        nth_error out i =
        Some (let V := valid (win w i xs) in
              if mp_eff mp w 0 <=? length V
              then ols_x (trend_pairs V) (fun al be => sse al be (trend_pairs V) / nP (trend_pairs V))%R
              else None).
Proof.
  intros body w mp xs Hw.
  apply done_map_iff, (tr_run _ (resid_mean_out (mp_eff mp w 0))); [exact Hw|].
  intros s W HA. apply emit_resid_mean_spec, HA.
Qed.

(* the trend fit is defined exactly from two non-null values on *)
Theorem C04_trend_singular_iff :
  forall V : list R, detB (trend_pairs V) = 0%R <-> length V <= 1.
Proof. exact trend_det_zero_iff. Qed.

(* (7) a perfect linear window has zero residual.
   (a) any observations on a line a = c + d b with a non-constant regressor: the fit recovers (c, d),
       SSE = 0, every residual is 0, and every residual statistic is 0 *)
Theorem C04_perfect_fit :
  forall (c d : R) (P : list (R * R)),
    detB P <> 0%R -> Forall (fun p => fst p = c + d * snd p)%R P ->
    ols_alpha P = c /\ ols_beta P = d /\ sse (ols_alpha P) (ols_beta P) P = 0%R /\
    Forall (fun r => r = 0%R) (resids (ols_alpha P) (ols_beta P) P).
Proof. exact perfect_fit. Qed.

Theorem C04_perfect_line_resid_stats :
  forall (k : rstat) (mp : nat) (c d : R) (P : list (R * R)),
    detB P <> 0%R -> Forall (fun p => fst p = c + d * snd p)%R P -> mp <= length P ->
    (k = RSkew -> 3 <= length P) ->
    (if mp <=? length P then
       (if Req_EM_T (detB P) 0 then None else rstat_spec k (resids (ols_alpha P) (ols_beta P) P))
     else None) = Some 0%R.
Proof. exact perfect_resid_stats. Qed.

(*  (b) the time-trend family end to end: if the non-null values of the window at position i are
        c + d*1, ..., c + d*n (n >= 2, n >= min_periods), ts_vreg_resid_mean emits exactly 0, and slope /
        intercept / fitted value / forecast are d, c, c + d n, c + d (n+1) *)
Corollary C04_perfect_line :
  forall (body : bool) (w : nat) (mp : option nat) (xs : list XR) (i n : nat) (c d : R),
    1 <= w -> i < length xs -> 2 <= n -> mp_eff mp w 0 <= n ->
    valid (win w i xs) = line c d n ->
    exists out, ts_run (ts_vreg_resid_mean_f w mp) body w xs = Done out /\
                nth_error out i = Some (Some 0%R).
Proof.
  intros body w mp xs i n c d Hw Hi Hn Hmp HV.
  destruct (C04_ts_vreg_resid_mean body w mp xs Hw) as (out & Hrun & _ & Hout).
  exists out. split; [exact Hrun|]. rewrite (Hout i Hi), HV. f_equal. cbv zeta.
  rewrite (perfect_line_stat c d n (mp_eff mp w 0)
             (fun al be => sse al be (trend_pairs (line c d n)) / nP (trend_pairs (line c d n)))%R Hn Hmp).
  destruct (perfect_line_fit c d n Hn) as (_ & Ha & Hb & Hs). rewrite Ha, Hb in Hs. rewrite Hs.
  f_equal. unfold Rdiv. apply Rmult_0_l.
Qed.

Corollary C04_perfect_line_coefficients :
  forall (body : bool) (w : nat) (mp : option nat) (xs : list XR) (i n : nat) (c d : R),
    1 <= w -> i < length xs -> 2 <= n -> mp_eff mp w 0 <= n ->
    valid (win w i xs) = line c d n ->
    (exists out, ts_run (ts_vreg_slope_f w mp) body w xs = Done out /\ nth_error out i = Some (Some d)) /\
    (exists out, ts_run (ts_vreg_intercept_f w mp) body w xs = Done out /\ nth_error out i = Some (Some c)) /\
    (exists out, ts_run (ts_vreg_f w mp) body w xs = Done out /\
                 nth_error out i = Some (Some (c + d * INR n)%R)) /\
    (exists out, ts_run (ts_vtsf_f w mp) body w xs = Done out /\
                 nth_error out i = Some (Some (c + d * (INR n + 1))%R)).
Proof.
  intros body w mp xs i n c d Hw Hi Hn Hmp HV.
  assert (HnP : nP (trend_pairs (line c d n)) = INR n).
  { unfold trend_pairs. rewrite trend_nP. unfold nR. rewrite line_length. reflexivity. }
  split; [|split; [|split]].
  - destruct (C04_ts_vreg_slope body w mp xs Hw) as (out & Hrun & _ & Hout).
    exists out. split; [exact Hrun|]. rewrite (Hout i Hi), HV. f_equal. cbv zeta.
    apply (perfect_line_stat c d n (mp_eff mp w 0) (fun _ be => be) Hn Hmp).
  - destruct (C04_ts_vreg_intercept body w mp xs Hw) as (out & Hrun & _ & Hout).
    exists out. split; [exact Hrun|]. rewrite (Hout i Hi), HV. f_equal. cbv zeta.
    apply (perfect_line_stat c d n (mp_eff mp w 0) (fun al _ => al) Hn Hmp).
  - destruct (C04_ts_vreg body w mp xs Hw) as (out & Hrun & _ & Hout).
    exists out. split; [exact Hrun|]. rewrite (Hout i Hi), HV. f_equal. cbv zeta.
    rewrite (perfect_line_stat c d n (mp_eff mp w 0)
               (fun al be => al + be * nP (trend_pairs (line c d n)))%R Hn Hmp). rewrite HnP. reflexivity.
  - destruct (C04_ts_vtsf body w mp xs Hw) as (out & Hrun & _ & Hout).
    exists out. split; [exact Hrun|]. rewrite (Hout i Hi), HV. f_equal. cbv zeta.
    rewrite (perfect_line_stat c d n (mp_eff mp w 0)
               (fun al be => al + be * (nP (trend_pairs (line c d n)) + 1))%R Hn Hmp). rewrite HnP. reflexivity.
Qed.

(* ---- non-vacuity ------------------------------------------------------------------------------- *)
(* the premises of the entry theorems hold on a window with nulls in both series, warm-up and expiry *)
Example C04_example_cov :
  exists out, ts_run2 (ts_vcov_f (A := XR) 2 (Some 1)) false 2
                      [Some 1%R; None; Some 3%R; Some 4%R] [Some 2%R; Some 5%R; None; Some 1%R] = Done out
              /\ length out = 4.
Proof.
  destruct (C04_ts_vcov false 2 (Some 1) [Some 1%R; None; Some 3%R; Some 4%R]
              [Some 2%R; Some 5%R; None; Some 1%R] ltac:(auto) ltac:(reflexivity)) as (out & H & L & _).
  exists out. split; assumption.
Qed.
(* a non-singular set of observations on a line: the premises of C04_ols_* and C04_perfect_fit are satisfiable *)
Example C04_example_perfect_fit :
  let P := [(1, 0); (3, 1); (5, 2)]%R in
  detB P <> 0%R /\ Forall (fun p => fst p = 1 + 2 * snd p)%R P /\ ols_beta P = 2%R.
Proof.
  intros P.
  assert (HD : detB P <> 0%R) by (unfold detB, SBB, SB, sumP, nP, P; cbn; lra).
  assert (HL : Forall (fun p => fst p = 1 + 2 * snd p)%R P)
    by (unfold P; repeat constructor; cbn; lra).
  split; [exact HD|]. split; [exact HL|].
  destruct (C04_perfect_fit 1%R 2%R P HD HL) as (_ & Hb & _). exact Hb.
Qed.
(* a window that is a perfect line with a null inside: the premises of C04_perfect_line are satisfiable *)
Example C04_example_perfect_line :
  valid (win 4 3 [Some 3%R; None; Some 5%R; Some 7%R]) = line 1 2 3 /\ mp_eff None 4 0 <= 3.
Proof. split; [unfold line; cbn; repeat f_equal; lra|cbn; lia]. Qed.
(* a constant regressor is singular: the null branch of ols_x is inhabited *)
Example C04_example_singular : detB [(1, 2); (5, 2); (7, 2)]%R = 0%R.
Proof. unfold detB, SBB, SB, sumP, nP. cbn. lra. Qed.

(* ================================================================================================ *)
(* AUDIT (notes/C04.md, "Audit matrix"; Proofs/Audit04.v).                                           *)
(* ================================================================================================ *)

(* ---- (8) EVERY input of the two-series entry points, for every feature and every carrier: which check of the
        code fires first (guard_kind: both are assertions), else a fully written output as long as the common
        prefix.  check2 true = index body (caller buffer, Vec / ndarray fast path): `assert!(other.len() >= len)`
        then `assert!(window > 0 || len == 0)`; check2 false = iterator body: the window assertion on the first
        series only. ---- *)
Theorem C04_two_series_first_failing_check :
  forall (T1 T2 St O : Type) (F : feat (T1 * T2) St O) (body : bool) (w : nat) (xs : list T1) (ys : list T2),
    match check2 body w xs ys with
    | Some g => ts_run2 F body w xs ys = Panicked (guard_kind g)
    | None => exists l, ts_run2 F body w xs ys = Done l /\ length l = common xs ys
    end.
Proof. exact (@ts_run2_by_check). Qed.

Theorem C04_accepted_inputs :
  forall (T1 T2 : Type) (body : bool) (w : nat) (xs : list T1) (ys : list T2),
    check2 body w xs ys = None <-> (body = false \/ length xs <= length ys) /\ (1 <= w \/ xs = []).
Proof.
  intros T1 T2 body w xs ys. unfold check2, check2_to, check2_default.
  destruct (Proofs.Driver.bad_window_cases w xs) as [(Hb & H0 & Hx)|(Hb & H)]; rewrite Hb; destruct body.
  - destruct (length ys <? length xs); split; try discriminate; intros (_ & [H|H]); try lia; contradiction.
  - split; try discriminate. intros (_ & [H|H]); try lia; contradiction.
  - destruct (length ys <? length xs) eqn:E.
    + apply Nat.ltb_lt in E. split; [discriminate|]. intros ([H1|H1] & _); [discriminate|lia].
    + apply Nat.ltb_ge in E. split; auto.
  - split; auto.
Qed.

(* the two rejected classes spelled out: window 0 (both bodies; the FIRST series decides) and a shorter second
   series in the index body *)
Theorem C04_window_zero :
  forall (T1 T2 St O : Type) (F : feat (T1 * T2) St O) (body : bool) (xs : list T1) (ys : list T2),
    ts_run2 F body 0 xs ys = match xs with [] => Done [] | _ :: _ => Panicked AssertFail end.
Proof. exact (@ts_run2_window0). Qed.

Theorem C04_shorter_second_series_index_body :
  forall (T1 T2 St O : Type) (F : feat (T1 * T2) St O) (w : nat) (xs : list T1) (ys : list T2),
    length ys < length xs -> ts_run2 F true w xs ys = Panicked AssertFail.
Proof.
  intros T1 T2 St O F w xs ys H. unfold ts_run2, rolling2_apply_to.
  rewrite (ltb_true (length ys) (length xs)) by exact H. reflexivity.
Qed.

(* the residual family (rolling2_apply_idx) has the same checks *)
Theorem C04_resid_first_failing_check :
  forall (A : Type) (NA : Num A) (T1 : Type) (D1 : IsNone T1 A) (T2 : Type) (D2 : IsNone T2 A)
         (k : rstat) (body : bool) (w : nat) (mp : option nat) (xs : list T1) (ys : list T2),
    (match check2 body w xs ys with
     | Some g => ts_vregx_resid k body w mp xs ys = Panicked (guard_kind g)
     | None => exists l, ts_vregx_resid k body w mp xs ys = Done l /\ length l = common xs ys
     end) /\
    ts_vregx_resid k body 0 mp xs ys = match xs with [] => Done [] | _ :: _ => Panicked AssertFail end.
Proof. intros. split; [apply resid_by_check|apply resid_window0]. Qed.

(* the one-series (time-trend) family: window 0 *)
Theorem C04_trend_window_zero :
  forall (T St O : Type) (F : feat T St O) (body : bool) (xs : list T),
    ts_run F body 0 xs = match xs with [] => Done [] | _ :: _ => Panicked AssertFail end.
Proof. exact (@Generic.ts_run_window0). Qed.

(* ---- (9) the value theorems WITHOUT `length xs = length ys`: on every accepted input with a positive window
        (iterator body: any two lengths; index body: second series not shorter) the output has the length of the
        common prefix and position i is the statistic of the pairwise-complete observations of the window ---- *)
Theorem C04_cross_sum_family_any_lengths :
  forall (O : Type) (emit : @csum XR -> O) (G : list (R * R) -> O) (body : bool) (w : nat) (xs ys : list XR),
    1 <= w -> (body = false \/ length xs <= length ys) ->
    (forall s W, csum_abs s W -> emit s = G (vpairs W)) ->
    exists out, ts_run2 (csum_feat emit) body w xs ys = Done out /\ length out = common xs ys /\
      forall i, i < common xs ys -> nth_error out i = Some (G (pairs (win w i xs) (win w i ys))).
Proof. intros O emit G body w xs ys. apply csum_entry_any_lengths. Qed.

Theorem C04_ts_vcov_any_lengths :
  forall (body : bool) (w : nat) (mp : option nat) (xs ys : list XR),
    1 <= w -> (body = false \/ length xs <= length ys) ->
    exists out, ts_run2 (ts_vcov_f w mp) body w xs ys = Done out /\ length out = common xs ys /\
      forall i, i < common xs ys ->
        nth_error out i =
        Some (let P := pairs (win w i xs) (win w i ys) in
              if mp_eff mp w 2 <=? length P then Some (cov_sample P) else None).
Proof.
  intros body w mp xs ys Hw Hb.
  apply (csum_entry_any_lengths _ (cov_out (mp_eff mp w 2))); [exact Hw|exact Hb|apply cov_reads, mp_eff_ge].
Qed.

Theorem C04_ts_vcorr_any_lengths :
  forall (body : bool) (w : nat) (mp : option nat) (xs ys : list XR),
    1 <= w -> (body = false \/ length xs <= length ys) ->
    exists out, ts_run2 (ts_vcorr_f w mp) body w xs ys = Done out /\ length out = common xs ys /\
      forall i, i < common xs ys ->
        nth_error out i =
        Some (let P := pairs (win w i xs) (win w i ys) in
              if mp_eff mp w 0 <=? length P then
                (if Rlt_dec EPS (popvarR (map fst P)) then
                   (if Rlt_dec EPS (popvarR (map snd P)) then Some (corrP P) else None)
                 else None)
              else None).
Proof.
  intros body w mp xs ys Hw Hb.
  apply (csum_entry_any_lengths _ (corr_out (mp_eff mp w 0))); [exact Hw|exact Hb|apply corr_reads].
Qed.

Theorem C04_ts_vregx_any_lengths :
  forall (body : bool) (w : nat) (mp : option nat) (xs ys : list XR),
    1 <= w -> (body = false \/ length xs <= length ys) ->
    (exists out, ts_run2 (ts_vregx_alpha_f w mp) body w xs ys = Done out /\ length out = common xs ys /\
       forall i, i < common xs ys ->
         nth_error out i = Some (let P := pairs (win w i xs) (win w i ys) in
                                 if mp_eff mp w 0 <=? length P then ols_x P (fun al _ => al) else None)) /\
    (exists out, ts_run2 (ts_vregx_beta_f w mp) body w xs ys = Done out /\ length out = common xs ys /\
       forall i, i < common xs ys ->
         nth_error out i = Some (let P := pairs (win w i xs) (win w i ys) in
                                 if mp_eff mp w 0 <=? length P then ols_x P (fun _ be => be) else None)) /\
    (exists out, ts_run2 (ts_vregx_all_f w mp) body w xs ys = Done out /\ length out = common xs ys /\
       forall i, i < common xs ys ->
         nth_error out i =
         Some (let P := pairs (win w i xs) (win w i ys) in
               if mp_eff mp w 0 <=? length P then
                 (if Req_EM_T (detB P) 0 then (None, None, None)
                  else (Some (ols_alpha P), Some (ols_beta P), Some (sse (ols_alpha P) (ols_beta P) P)))
               else (None, None, None))).
Proof.
  intros body w mp xs ys Hw Hb. split; [|split].
  - apply (csum_entry_any_lengths _ (regx_alpha_out (mp_eff mp w 0))); [exact Hw|exact Hb|apply regx_alpha_reads].
  - apply (csum_entry_any_lengths _ (regx_beta_out (mp_eff mp w 0))); [exact Hw|exact Hb|apply regx_beta_reads].
  - apply (csum_entry_any_lengths _ (regx_all_out (mp_eff mp w 0))); [exact Hw|exact Hb|apply regx_all_reads].
Qed.

Theorem C04_ts_vregx_resid_any_lengths :
  forall (k : rstat) (body : bool) (w : nat) (mp : option nat) (xs ys : list XR),
    1 <= w -> (body = false \/ length xs <= length ys) ->
    exists out, ts_vregx_resid k body w mp xs ys = Done out /\ length out = common xs ys /\
      forall i, i < common xs ys ->
        nth_error out i =
        Some (let P := pairs (win w i xs) (win w i ys) in
              if mp_eff mp w 0 <=? length P then
                (if Req_EM_T (detB P) 0 then None
                 else rstat_spec k (resids (ols_alpha P) (ols_beta P) P))
              else None).
Proof.
  intros k body w mp xs ys Hw Hb. rewrite resid_common by assumption.
  destruct (firstn_common_lengths xs ys) as [L1 L2].
  destruct (resid_entry k body w mp (firstn (common xs ys) xs) (firstn (common xs ys) ys) Hw
              ltac:(congruence)) as (out & Hrun & Hl & Hout).
  exists out. split; [exact Hrun|]. split; [rewrite Hl; exact L1|].
  intros i Hi. rewrite (Hout i) by (rewrite L1; exact Hi). rewrite !win_firstn by exact Hi. reflexivity.
Qed.

(* ---- (10) the window and the pairwise-complete selection, positionally ---- *)
(* win w i xs is positions max(0, i+1-w) ..= i (w > len included: the window is then the whole prefix) *)
Theorem C04_window_positions :
  forall (X : Type) (w i : nat) (xs : list X), i < length xs ->
    length (win w i xs) = S i - (S i - w) /\
    forall j, j < S i - (S i - w) -> nth_error (win w i xs) j = nth_error xs (S i - w + j).
Proof.
  intros X w i xs Hi. rewrite win_seg. unfold wstart. split.
  - apply seg_length. lia.
  - intros j Hj. rewrite nth_error_seg. rewrite (ltb_true j (S i - (S i - w))) by lia.
    reflexivity.
Qed.

(* ... and a window at least as long as the prefix (every position when w > len) is the whole prefix 0..=i: the
   statistics are then the expanding ones *)
Theorem C04_window_covers_prefix :
  forall (X : Type) (w i : nat) (xs : list X), S i <= w -> win w i xs = firstn (S i) xs.
Proof. exact (@win_covers_prefix). Qed.

(* (a, b) is an observation iff some position of the window holds a in the first and b in the second series, both
   non-null; the count is the number of such positions, and a null in EITHER series drops the position from both
   coordinates *)
Theorem C04_pairs_positional :
  forall (W1 W2 : list XR) (a b : R),
    In (a, b) (pairs W1 W2) <->
    exists j, nth_error W1 j = Some (Some a) /\ nth_error W2 j = Some (Some b).
Proof.
  intros W1 W2 a b. unfold pairs. rewrite vpairs_In. split.
  - intros H. apply In_nth_error in H. destruct H as (j & Hj). exists j.
    rewrite nth_error_combine in Hj.
    destruct (nth_error W1 j) as [x|], (nth_error W2 j) as [y|]; try discriminate.
    injection Hj as -> ->. split; reflexivity.
  - intros (j & H1 & H2). apply (nth_error_In _ j). rewrite nth_error_combine, H1, H2. reflexivity.
Qed.

Theorem C04_pairs_are_the_complete_positions :
  forall (W1 W2 : list XR),
    let P := pairs W1 W2 in
    length P = length (filter both_some (combine W1 W2)) /\
    map (fun p => Some (fst p)) P = map fst (filter both_some (combine W1 W2)) /\
    map (fun p => Some (snd p)) P = map snd (filter both_some (combine W1 W2)).
Proof.
  intros W1 W2 P. split; [apply vpairs_length|]. apply vpairs_map_fst.
Qed.

(* ---- (11) EVERY numeric carrier (binary64 included) and every pair of null dictionaries: the accumulator's count
         is the number of pairwise-complete positions of the window, so all five statistics are null wherever that
         count is below the effective min_periods.  No law of the arithmetic is used. ---- *)
Theorem C04_count_tracks_window_any_carrier :
  forall (A : Type) (NA : Num A) (T1 : Type) (D1 : IsNone T1 A) (T2 : Type) (D2 : IsNone T2 A)
         (O : Type) (emit : @csum A -> O) (body : bool) (w : nat) (xs : list T1) (ys : list T2),
    1 <= w -> (body = false \/ length xs <= length ys) ->
    exists out, ts_run2 (csum_feat emit) body w xs ys = Done out /\ length out = common xs ys /\
      forall i, i < common xs ys ->
        exists s, nth_error out i = Some (emit s) /\ c_n s = npairs (combine (win w i xs) (win w i ys)).
Proof. intros A NA T1 D1 T2 D2 O emit body w xs ys. apply count_tracks_window2. Qed.

Theorem C04_below_min_periods_null_any_carrier :
  forall (A : Type) (NA : Num A) (T1 : Type) (D1 : IsNone T1 A) (T2 : Type) (D2 : IsNone T2 A)
         (body : bool) (w : nat) (mp : option nat) (xs : list T1) (ys : list T2),
    1 <= w -> (body = false \/ length xs <= length ys) ->
    let below k i := npairs (combine (win w i xs) (win w i ys)) < mp_eff mp w k in
    (exists out, ts_run2 (ts_vcov_f w mp) body w xs ys = Done out /\ length out = common xs ys /\
       forall i, i < common xs ys -> below 2 i -> nth_error out i = Some nnan) /\
    (exists out, ts_run2 (ts_vcorr_f w mp) body w xs ys = Done out /\ length out = common xs ys /\
       forall i, i < common xs ys -> below 0 i -> nth_error out i = Some nnan) /\
    (exists out, ts_run2 (ts_vregx_alpha_f w mp) body w xs ys = Done out /\ length out = common xs ys /\
       forall i, i < common xs ys -> below 0 i -> nth_error out i = Some nnan) /\
    (exists out, ts_run2 (ts_vregx_beta_f w mp) body w xs ys = Done out /\ length out = common xs ys /\
       forall i, i < common xs ys -> below 0 i -> nth_error out i = Some nnan) /\
    (exists out, ts_run2 (ts_vregx_all_f w mp) body w xs ys = Done out /\ length out = common xs ys /\
       forall i, i < common xs ys -> below 0 i -> nth_error out i = Some (nnan, nnan, nnan)).
Proof.
  intros A NA T1 D1 T2 D2 body w mp xs ys Hw Hb below. unfold below.
  (* all five emit functions open with the same test on the count *)
  split; [|split; [|split; [|split]]]; (apply below_min_periods_null; [|exact Hw|exact Hb]);
    intros s H; apply (csum_emits_below _ s H).
Qed.

(* at the proof carrier the generic count is the length of the specification's list of observations *)
Theorem C04_count_at_XR :
  forall (W1 W2 : list XR), npairs (D1 := IsNoneXR) (D2 := IsNoneXR) (combine W1 W2) = length (pairs W1 W2).
Proof. intros W1 W2. apply npairs_XR. Qed.

(* the time-trend family likewise: count of non-null values, null below min_periods, at every carrier *)
Theorem C04_trend_below_min_periods_null_any_carrier :
  forall (A : Type) (NA : Num A) (T : Type) (DT : IsNone T A) (emit : nat -> @tr_st A -> A)
         (body : bool) (w : nat) (mp : option nat) (xs : list T),
    emit = emit_reg \/ emit = emit_tsf \/ emit = emit_slope \/ emit = emit_intercept \/ emit = emit_resid_mean ->
    1 <= w ->
    exists out, ts_run (tr_feat (emit (mp_eff mp w 0))) body w xs = Done out /\ length out = length xs /\
      forall i, i < length xs ->
        (exists s, nth_error out i = Some (emit (mp_eff mp w 0) s) /\ t_n s = nvalid (win w i xs)) /\
        (nvalid (win w i xs) < mp_eff mp w 0 -> nth_error out i = Some nnan).
Proof.
  intros A NA T DT emit body w mp xs He Hw.
  destruct (trend_count_tracks_window (emit (mp_eff mp w 0)) body w xs Hw) as (out & Hrun & Hl & Hout).
  exists out. split; [exact Hrun|]. split; [exact Hl|]. intros i Hi. split; [exact (Hout i Hi)|].
  intros Hn. destruct (Hout i Hi) as (s & Hs & Hc). rewrite Hs. f_equal.
  rewrite <- Hc in Hn. destruct (trend_emits_below (mp_eff mp w 0) s Hn) as (E1 & E2 & E3 & E4 & E5).
  destruct He as [-> |[-> |[-> |[-> | ->]]]]; assumption.
Qed.

(* ... and the three residual statistics (rolling2_apply_idx, both bodies) *)
Theorem C04_resid_below_min_periods_null_any_carrier :
  forall (A : Type) (NA : Num A) (T1 : Type) (D1 : IsNone T1 A) (T2 : Type) (D2 : IsNone T2 A)
         (k : rstat) (body : bool) (w : nat) (mp : option nat) (xs : list T1) (ys : list T2),
    1 <= w -> (body = false \/ length xs <= length ys) ->
    exists out, ts_vregx_resid k body w mp xs ys = Done out /\ length out = common xs ys /\
      forall i, i < common xs ys ->
        npairs (D1 := D1) (D2 := D2) (combine (win w i xs) (win w i ys)) < mp_eff mp w 0 ->
        nth_error out i = Some nnan.
Proof.
  intros A NA T1 D1 T2 D2 k body w mp xs ys Hw Hb. rewrite resid_common by assumption.
  destruct (firstn_common_lengths xs ys) as [L1 L2].
  destruct (resid_sliding cnt_abs k body w mp (firstn (common xs ys) xs) (firstn (common xs ys) ys)
              cnt_abs_init cnt_abs_pre cnt_abs_post Hw ltac:(congruence)) as (out & Hrun & Hl & Hout).
  exists out. split; [exact Hrun|]. split; [rewrite Hl; exact L1|]. intros i Hi Hn.
  destruct (Hout i ltac:(rewrite L1; exact Hi)) as (s & st & Habs & _ & Hnth). rewrite Hnth. f_equal.
  apply resid_emit_below. unfold cnt_abs in Habs. rewrite Habs, win_combine, !win_firstn by exact Hi. exact Hn.
Qed.

(* ---- (12) "a perfect linear window has zero residual", end to end on the two-series model: if the pairwise-complete
         observations of the window at position i lie on a = c + d b with a non-constant regressor, the triple is
         (c, d, 0), alpha = c, beta = d and the residual mean / std / skew (>= 3 observations) are 0 ---- *)
Theorem C04_perfect_window_regx :
  forall (body : bool) (w : nat) (mp : option nat) (xs ys : list XR) (i : nat) (c d : R),
    1 <= w -> length xs = length ys -> i < length xs ->
    let P := pairs (win w i xs) (win w i ys) in
    detB P <> 0%R -> Forall (fun p => fst p = c + d * snd p)%R P -> mp_eff mp w 0 <= length P ->
    (exists out, ts_run2 (ts_vregx_all_f w mp) body w xs ys = Done out /\
                 nth_error out i = Some (Some c, Some d, Some 0%R)) /\
    (exists out, ts_run2 (ts_vregx_alpha_f w mp) body w xs ys = Done out /\ nth_error out i = Some (Some c)) /\
    (exists out, ts_run2 (ts_vregx_beta_f w mp) body w xs ys = Done out /\ nth_error out i = Some (Some d)) /\
    (forall k, (k = RSkew -> 3 <= length P) ->
       exists out, ts_vregx_resid k body w mp xs ys = Done out /\ nth_error out i = Some (Some 0%R)).
Proof.
  intros body w mp xs ys i c d Hw Hlen Hi P HD HL Hmp.
  destruct (perfect_fit c d P HD HL) as (Ha & Hb & Hs & _).
  pose proof (proj2 (Nat.leb_le _ _) Hmp) as Hmpb. pose proof (proj2 (Nat.ltb_lt _ _) Hi) as Hib.
  split; [|split; [|split]].
  - eexists. split; [apply (csum_run _ _ body w xs ys Hw Hlen (regx_all_reads _))|].
    rewrite nth_error_map_seq, Hib. fold P. unfold regx_all_out. rewrite Hmpb.
    destruct (Req_EM_T (detB P) 0%R); [contradiction|]. rewrite Hs, Ha, Hb. reflexivity.
  - eexists. split; [apply (csum_run _ _ body w xs ys Hw Hlen (regx_alpha_reads _))|].
    rewrite nth_error_map_seq, Hib. fold P. unfold regx_alpha_out, ols_x. rewrite Hmpb.
    destruct (Req_EM_T (detB P) 0%R); [contradiction|]. rewrite Ha. reflexivity.
  - eexists. split; [apply (csum_run _ _ body w xs ys Hw Hlen (regx_beta_reads _))|].
    rewrite nth_error_map_seq, Hib. fold P. unfold regx_beta_out, ols_x. rewrite Hmpb.
    destruct (Req_EM_T (detB P) 0%R); [contradiction|]. rewrite Hb. reflexivity.
  - intros k Hk. destruct (resid_entry k body w mp xs ys Hw Hlen) as (out & Hrun & _ & Hout).
    exists out. split; [exact Hrun|]. rewrite (Hout i Hi). fold P. f_equal.
    apply (perfect_resid_stats k (mp_eff mp w 0) c d P HD HL Hmp Hk).
Qed.

(* ---- non-vacuity of the audit theorems ---- *)
(* unequal lengths: accepted by the iterator body (common prefix), rejected by the index body; window 0 *)
Example C04_example_unequal_lengths :
  let xs := [Some 1%R; None; Some 3%R] in let ys := [Some 2%R; Some 5%R] in
  check2 false 2 xs ys = None /\ check2 true 2 xs ys = Some GShorter /\ check2 true 2 ys xs = None /\
  check2 false 0 xs ys = Some GWindow /\ common xs ys = 2 /\
  (exists out, ts_run2 (ts_vcov_f (A := XR) 2 (Some 1)) false 2 xs ys = Done out /\ length out = 2) /\
  ts_run2 (ts_vcov_f (A := XR) 2 (Some 1)) true 2 xs ys = Panicked AssertFail.
Proof.
  cbv zeta. split; [reflexivity|]. split; [reflexivity|]. split; [reflexivity|]. split; [reflexivity|].
  split; [reflexivity|]. split.
  - destruct (C04_ts_vcov_any_lengths false 2 (Some 1) [Some 1%R; None; Some 3%R] [Some 2%R; Some 5%R]
                ltac:(auto) ltac:(left; reflexivity)) as (out & H & L & _).
    exists out. split; [exact H|exact L].
  - apply C04_shorter_second_series_index_body. cbn. auto.
Qed.

(* a window below min_periods at binary64 *)
Example C04_example_below_min_periods_binary64 :
  let xs := [1%float; nan; 3%float] in let ys := [Some 2%float; Some 5%float; None] in
  npairs (combine (win 3 2 xs) (win 3 2 ys)) = 1 /\ mp_eff None 3 2 = 2 /\
  ts_run2 (ts_vcov_f (A := float) 3 None) true 3 xs ys = Done [nan; nan; nan] /\
  npairs (combine (win 3 2 xs) (win 3 2 ys)) < mp_eff (Some 2) 3 0 /\
  ts_vregx_resid RStd false 3 (Some 2) xs ys = Done [nan; nan; nan].
Proof. vm_compute. repeat split; repeat constructor. Qed.

(* a perfect linear window with a null in each series: the premises of C04_perfect_window_regx are satisfiable *)
Example C04_example_perfect_window :
  let xs := [Some 1%R; None; Some 5%R; Some 7%R] in let ys := [Some 0%R; Some 9%R; Some 2%R; Some 3%R] in
  let P := pairs (win 4 3 xs) (win 4 3 ys) in
  P = [(1, 0); (5, 2); (7, 3)]%R /\ detB P <> 0%R /\ Forall (fun p => fst p = 1 + 2 * snd p)%R P /\
  mp_eff None 4 0 <= length P.
Proof.
  cbv zeta. split; [reflexivity|].
  change (pairs (win 4 3 [Some 1%R; None; Some 5%R; Some 7%R]) (win 4 3 [Some 0%R; Some 9%R; Some 2%R; Some 3%R]))
    with [(1, 0); (5, 2); (7, 3)]%R.
  split; [unfold detB, SBB, SB, sumP, nP; cbn; lra|]. split; [repeat constructor; cbn; lra|cbn; lia].
Qed.


Print Assumptions C04_cross_sums_track_window.
Print Assumptions C04_ts_vcov.
Print Assumptions C04_ts_vcorr.
Print Assumptions C04_ts_vregx_alpha.
Print Assumptions C04_ts_vregx_beta.
Print Assumptions C04_ts_vregx_all.
Print Assumptions C04_ols_normal_equations.
Print Assumptions C04_ols_unique.
Print Assumptions C04_ols_minimises.
Print Assumptions C04_singular_iff_constant_regressor.
Print Assumptions C04_ts_vregx_resid.
Print Assumptions C04_ts_vreg.
Print Assumptions C04_ts_vtsf.
Print Assumptions C04_ts_vreg_slope.
Print Assumptions C04_ts_vreg_intercept.
Print Assumptions C04_ts_vreg_resid_mean.
Print Assumptions C04_perfect_fit.
Print Assumptions C04_perfect_line_resid_stats.
Print Assumptions C04_perfect_line.
Print Assumptions C04_perfect_line_coefficients.
Print Assumptions C04_defined_needs_two_observations.
Print Assumptions C04_ols_resid_mean_zero.
Print Assumptions C04_trend_singular_iff.
Print Assumptions C04_two_series_first_failing_check.
Print Assumptions C04_accepted_inputs.
Print Assumptions C04_window_zero.
Print Assumptions C04_shorter_second_series_index_body.
Print Assumptions C04_resid_first_failing_check.
Print Assumptions C04_trend_window_zero.
Print Assumptions C04_cross_sum_family_any_lengths.
Print Assumptions C04_ts_vcov_any_lengths.
Print Assumptions C04_ts_vcorr_any_lengths.
Print Assumptions C04_ts_vregx_any_lengths.
Print Assumptions C04_ts_vregx_resid_any_lengths.
Print Assumptions C04_window_positions.
Print Assumptions C04_pairs_positional.
Print Assumptions C04_pairs_are_the_complete_positions.
Print Assumptions C04_count_tracks_window_any_carrier.
Print Assumptions C04_below_min_periods_null_any_carrier.
Print Assumptions C04_count_at_XR.
Print Assumptions C04_trend_below_min_periods_null_any_carrier.
Print Assumptions C04_perfect_window_regx.
Print Assumptions C04_resid_below_min_periods_null_any_carrier.
Print Assumptions C04_window_covers_prefix.
