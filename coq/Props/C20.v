(* Props/C20.v — property C20: composite analytics terminate within range and respect their defining
   relations.  Lemmas in Proofs/{Composite,Composite2,Spearman,HalfLife,HalfLifeExec,HalfLifeProbes,Audit20}.v.
   Carrier XR = option R (None = null = NaN of an f64 series); `valid xs` = the non-null elements;
   s ranges over ANY ascending arrangement of them (one exists: C12_sorted_arrangement_exists).
     clipR lo hi x        = lo if x < lo, hi if hi < x, else x
     clip_series lo hi xs = map (option_map (clipR lo hi)) xs           (nulls stay null)
     quantile_spec s q Linear = the linearly interpolated q-quantile of s (C12)
     ranks pct rev xs     = the average ranks of C12 (null for a null)
   Models: Model/Composite.v (winsorize, vcorr, half_life_exec) over Model/{Quantile,Rank,Agg,MapOps,HalfLife}.v. *)
From Coq Require Import Reals Lra Lia List Sorting Permutation ZArith.
From Tevec Require Import Base.Prelude Model.MapOps.
From Tevec Require Import Base.Num Base.XR Spec.Stats Spec.Stats2 Model.SortCmp Model.Quantile Model.Rank
     Model.Agg Model.HalfLife Model.Composite
     Proofs.OrderXR Proofs.Quantile Proofs.QuantileMono Proofs.Partition Proofs.Rank Proofs.AggXR
     Proofs.HalfLife Proofs.Composite Proofs.Spearman Proofs.HalfLifeExec.
From Tevec Require Import Model.NullView Proofs.EncRank Proofs.Composite2 Proofs.HalfLifeProbes.
From Coq Require Floats.
From Tevec Require Import Base.F64 Spec.ExtremaOrd Proofs.CmpOrdFloat Proofs.Audit20.
From Tevec Require Run.RunC12 Run.RunC20.
From Tevec Require Import Proofs.AggGeneric.
Import ListNotations.
Local Open Scope R_scope.

(* Quantile method, 0 <= q <= 1/2: clip to [Q(q), Q(1-q)] of the valid data, and Q(q) <= Q(1-q) *)
Theorem C20_winsorize_quantile :
  forall (xs : list XR) (q : R) (s : list R),
    0 <= q <= 1 / 2 -> Sorted Rle s -> Permutation s (valid xs) -> s <> [] ->
    let lo := quantile_spec s q Linear in let hi := quantile_spec s (1 - q) Linear in
    winsorize (DT := IsNoneXR) WQuantile (Some (Some q)) xs = Ok (Some (clip_series lo hi xs)) /\ lo <= hi.
Proof.
  intros xs q s Hq Hs HP Hne lo hi. split.
  - apply winsorize_quantile; try assumption. lra.
  - apply quantile_bounds_ordered; assumption.
Qed.

(* Median method, k >= 0: clip to median -/+ k MAD, MAD = median of |x - median| >= 0 (no scale factor) *)
Theorem C20_winsorize_median :
  forall (xs : list XR) (k : R) (s s' : list R),
    0 <= k -> Sorted Rle s -> Permutation s (valid xs) -> s <> [] ->
    let med := quantile_spec s (1 / 2) Linear in
    Sorted Rle s' -> Permutation s' (map (fun x => Rabs (x - med)) (valid xs)) ->
    let mad := quantile_spec s' (1 / 2) Linear in
    winsorize (DT := IsNoneXR) WMedian (Some (Some k)) xs
      = Ok (Some (clip_series (med - k * mad) (med + k * mad) xs))
    /\ 0 <= mad /\ med - k * mad <= med + k * mad.
Proof.
  intros xs k s s' Hk Hs HP Hne med Hs' HP' mad.
  assert (Hmad : 0 <= mad) by (apply (mad_nonneg s s' (valid xs) med); assumption).
  split; [apply (winsorize_median xs (Some k)); assumption|]. split; [exact Hmad|].
  apply median_bounds_ordered; assumption.
Qed.

(* Sigma method, k >= 0: clip to mean -/+ k sigma (sample standard deviation of the valid data); with
   fewer than two valid elements, or a population variance at or below the code's floor EPS = 1e-14
   (constant series), sigma is not used and the series is returned unchanged *)
Theorem C20_winsorize_sigma :
  forall (xs : list XR) (k : R),
    0 <= k ->
    let V := valid xs in
    let lo := meanR V - k * sqrt (samplevarR V) in let hi := meanR V + k * sqrt (samplevarR V) in
    winsorize (DT := IsNoneXR) WSigma (Some (Some k)) xs
      = Ok (Some (if (length V <? 2)%nat then xs
                  else if Rle_dec (popvarR V) EPS then xs
                  else clip_series lo hi xs))
    /\ lo <= hi.
Proof.
  intros xs k Hk V lo hi. split; [apply (winsorize_sigma xs (Some k))|apply sigma_bounds_ordered; exact Hk].
Qed.

(* no valid element: every method returns the (all-null) series unchanged *)
Theorem C20_winsorize_no_valid :
  forall (m : wmethod) (p : R) (xs : list XR),
    wparam_in_scope m p -> valid xs = [] ->
    winsorize (DT := IsNoneXR) m (Some (Some p)) xs = Ok (Some xs).
Proof.
  intros m p xs Hp Hv. destruct m.
  - apply winsorize_quantile_all_null; [cbn in Hp; lra|exact Hv].
  - apply winsorize_median_all_null. exact Hv.
  - rewrite winsorize_sigma, Hv. reflexivity.
Qed.

Theorem C20_winsorize_rejects_bad_q :
  forall (xs : list XR) (q : R), ~ (0 <= q <= 1) ->
    winsorize (DT := IsNoneXR) WQuantile (Some (Some q)) xs = Ok None.
Proof. exact winsorize_quantile_bad_q. Qed.

(* omitted parameter: q = 0.01, k = 3 *)
Theorem C20_winsorize_default :
  forall (m : wmethod) (xs : list XR),
    winsorize (DT := IsNoneXR) m None xs = winsorize (DT := IsNoneXR) m (Some (Some (wdefault m))) xs.
Proof. exact winsorize_default. Qed.

(* all methods, every parameter of the quantifier: the result is the input or ONE clip with lo <= hi *)
Theorem C20_winsorize_acts_as_clip :
  forall (m : wmethod) (p : R) (xs : list XR),
    wparam_in_scope m p ->
    exists r, winsorize (DT := IsNoneXR) m (Some (Some p)) xs = Ok (Some r) /\
              (r = xs \/ exists lo hi, lo <= hi /\ r = clip_series lo hi xs).
Proof. exact winsorize_acts_as_clip. Qed.

(* what clipping to one interval means: one value per input; nulls stay null; inside unchanged; below -> lo;
   above -> hi; result inside [lo, hi] and the nearest point of it; order preserving *)
Theorem C20_clip_laws :
  forall (lo hi : R) (xs : list XR),
    lo <= hi ->
    length (clip_series lo hi xs) = length xs /\
    (forall i, nth_error xs i = Some None -> nth_error (clip_series lo hi xs) i = Some None) /\
    (forall i x, nth_error xs i = Some (Some x) ->
       exists y, nth_error (clip_series lo hi xs) i = Some (Some y) /\
         (lo <= x <= hi -> y = x) /\ (x < lo -> y = lo) /\ (hi < x -> y = hi) /\ lo <= y <= hi /\
         (forall z, lo <= z <= hi -> Rabs (x - y) <= Rabs (x - z))) /\
    (forall i j x x' y y', nth_error xs i = Some (Some x) -> nth_error xs j = Some (Some x') ->
       nth_error (clip_series lo hi xs) i = Some (Some y) -> nth_error (clip_series lo hi xs) j = Some (Some y') ->
       x <= x' -> y <= y').
Proof. exact clip_series_laws. Qed.

(* hence, directly on winsorize: order preserving and null preserving for every method in scope *)
Theorem C20_winsorize_order_preserving :
  forall (m : wmethod) (p : R) (xs : list XR),
    wparam_in_scope m p ->
    exists r, winsorize (DT := IsNoneXR) m (Some (Some p)) xs = Ok (Some r) /\ length r = length xs /\
      (forall i, nth_error xs i = Some None <-> nth_error r i = Some None) /\
      (forall i j x x' y y', nth_error xs i = Some (Some x) -> nth_error xs j = Some (Some x') ->
         nth_error r i = Some (Some y) -> nth_error r j = Some (Some y') -> x <= x' -> y <= y').
Proof.
  intros m p xs Hp. destruct (winsorize_acts_as_clip m p xs Hp) as (r & Hr & [->|(lo & hi & Hlh & ->)]).
  - exists xs. split; [exact Hr|]. split; [reflexivity|]. split; [tauto|].
    intros i j x x' y y' Hi Hj Hy Hy' Hxx. rewrite Hi in Hy. rewrite Hj in Hy'.
    injection Hy as <-. injection Hy' as <-. exact Hxx.
  - exists (clip_series lo hi xs). split; [exact Hr|].
    destruct (clip_series_laws lo hi xs Hlh) as (Hlen & Hnull & Hval & Hord).
    split; [exact Hlen|]. split; [|exact Hord].
    intros i. split; [apply Hnull|]. intros H.
    destruct (nth_error xs i) as [[x|]|] eqn:E; [| reflexivity |].
    + destruct (Hval i x E) as (y & Hy & _). rewrite Hy in H. discriminate.
    + unfold clip_series in H. rewrite nth_error_map, E in H. discriminate.
Qed.

(* the interpolated quantile is monotone in q (the fact behind lo <= hi) *)
Theorem C20_quantile_monotone :
  forall (s : list R) (q q' : R),
    Sorted Rle s -> s <> [] -> 0 <= q -> q <= q' -> q' <= 1 ->
    quantile_spec s q Linear <= quantile_spec s q' Linear.
Proof. exact quantile_mono. Qed.

(* vrank IS the average-rank vector of C12, as an equation between lists *)
Theorem C20_rank_is_average_rank :
  forall (pct rev : bool) (xs : list XR),
    vrank (DT := IsNoneXR) (DX := IsNoneXXR) pct rev xs = map Some (ranks pct rev xs).
Proof. exact vrank_ranks. Qed.

(* Spearman = Pearson (pairwise deletion, min_periods default len/2) of the two average-rank vectors; the
   ranks are taken within each series over its own valid elements *)
Theorem C20_spearman :
  forall (mp : option nat) (xs ys : list XR),
    vcorr (DT := IsNoneXR) (DX := IsNoneXXR) mp true xs ys
    = Some (vcorr_pearson (DT := IsNoneXR) (DT2 := IsNoneXR) (fun x : XR => x)
              (mp_default mp (length xs)) (ranks false false xs) (ranks false false ys)).
Proof. intros mp xs ys. unfold vcorr. rewrite !rank_vec_xr. reflexivity. Qed.

(* ... i.e. Pearson's r (C11) of the pairwise-complete rank pairs, null below min_periods / on zero spread *)
Theorem C20_spearman_textbook :
  forall (mp : option nat) (xs ys : list XR),
    let P := rpairs (DT := IsNoneXR) (DT2 := IsNoneXR) (fun x : XR => x) (ranks false false xs) (ranks false false ys) in
    vcorr (DT := IsNoneXR) (DX := IsNoneXXR) mp true xs ys
    = Some (if (length P <? Nat.max (mp_default mp (length xs)) 2)%nat then None
            else if Rlt_dec EPS (popvarR (xs_of P)) then
                   (if Rlt_dec EPS (popvarR (ys_of P)) then Some (corrR P) else None)
                 else None).
Proof.
  intros mp xs ys P. rewrite C20_spearman. f_equal.
  apply (Proofs.Agg.vcorr_textbook (mp_default mp (length xs)) (canonical_float (ranks false false xs))
           (canonical_float (ranks false false ys))).
Qed.

(* rank (map f xs) = rank xs for strictly increasing f, nulls mapped to nulls: every flag combination *)
Theorem C20_rank_invariant :
  forall (pct rev : bool) (f : R -> R) (xs : list XR),
    strict_mono f ->
    vrank (DT := IsNoneXR) (DX := IsNoneXXR) pct rev (map (option_map f) xs)
    = vrank (DT := IsNoneXR) (DX := IsNoneXXR) pct rev xs.
Proof. intros pct rev f xs Hf. rewrite !vrank_ranks, ranks_invariant by exact Hf. reflexivity. Qed.

Theorem C20_spearman_invariant :
  forall (mp : option nat) (f g : R -> R) (xs ys : list XR),
    strict_mono f -> strict_mono g ->
    vcorr (DT := IsNoneXR) (DX := IsNoneXXR) mp true (map (option_map f) xs) (map (option_map g) ys)
    = vcorr (DT := IsNoneXR) (DX := IsNoneXXR) mp true xs ys.
Proof.
  intros mp f g xs ys Hf Hg. rewrite !C20_spearman, !ranks_invariant by assumption. rewrite map_length. reflexivity.
Qed.

Local Close Scope R_scope.
(* abstract oracle (any test that is false for lags >= len): never out of fuel, never Panic, range,
   0 iff len < 2 *)
Theorem C20_half_life_oracle_total :
  forall (above : nat -> bool) (len : nat),
    (forall k, len <= k -> above k = false) -> 1 <= len ->
    exists r, half_life above len = Some (Ok r) /\ (r <= len - 1)%nat /\ (r = 0%nat <-> len < 2)%nat.
Proof. intros above len Hout Hlen. exact (half_life_range above len Hlen Hout). Qed.

Theorem C20_half_life_empty : forall above, half_life above 0 = Some (Ok 0%nat).
Proof. reflexivity. Qed.

(* the search only ever looks at lags >= 1 *)
Theorem C20_half_life_probes_from_1 :
  forall (a1 a2 : nat -> bool) (len : nat),
    (forall k, (1 <= k)%nat -> a1 k = a2 k) -> half_life a1 len = half_life a2 len.
Proof. exact half_life_ext. Qed.

(* threshold oracle: above exactly for the lags 1 .. L-1  ->  the first lag that is not, capped at len-1 *)
Theorem C20_half_life_oracle_threshold :
  forall (above : nat -> bool) (len L : nat),
    (forall k, len <= k -> above k = false) -> (1 <= len)%nat -> (1 <= L)%nat ->
    (forall k, (1 <= k)%nat -> above k = (k <? L)%nat) ->
    half_life above len = Some (Ok (Nat.min L (len - 1))).
Proof.
  intros above len L Hout Hlen HL Hthr. rewrite (half_life_threshold above len Hlen Hout L Hthr).
  rewrite Nat.max_l by exact HL. reflexivity.
Qed.

(* the executable half_life: oracle = vcorr_pearson(xs, vshift(xs, lag), min_periods) > 0.5, for every
   element type whose T::none() is a null value (f64, Option<f64>), every series, every min_periods *)
Theorem C20_half_life_total :
  forall {T : Type} {DT : IsNone T XR} (dm : NullDict T XR) (mp : option nat) (nv : T) (xs : list T),
    MapOps.none dm = Ok nv -> Num.is_none nv = true ->
    exists r, half_life_exec (DT := DT) dm mp xs = Some (Ok r) /\
              (r <= length xs - 1)%nat /\ (r = 0%nat <-> length xs < 2)%nat.
Proof. intros T DT dm mp nv xs. apply half_life_exec_total. reflexivity. Qed.

Corollary C20_half_life_total_f64 :
  forall (mp : option nat) (xs : list XR),
    exists r, half_life_exec (DT := IsNoneXR) (fdict (A := XR)) mp xs = Some (Ok r) /\
              (r <= length xs - 1)%nat /\ (r = 0%nat <-> length xs < 2)%nat.
Proof. intros mp xs. eapply half_life_exec_total; reflexivity. Qed.

Theorem C20_half_life_threshold :
  forall {T : Type} {DT : IsNone T XR} (dm : NullDict T XR) (mp : option nat) (nv : T) (xs : list T) (L : nat),
    MapOps.none dm = Ok nv -> Num.is_none nv = true -> xs <> [] -> (1 <= L)%nat ->
    (forall k, (1 <= k)%nat -> above_half (DT := DT) (mp_default mp (length xs)) nv xs k = (k <? L)%nat) ->
    half_life_exec (DT := DT) dm mp xs = Some (Ok (Nat.min L (length xs - 1))).
Proof.
  intros T DT dm mp nv xs L Hn Hnv Hne HL Hthr. rewrite (half_life_exec_threshold (NA := NumXR) dm eq_refl mp nv xs L Hn Hnv Hne Hthr).
  rewrite Nat.max_l by exact HL. reflexivity.
Qed.

(* a lag >= len has no complete pair: the correlation is null, the test is false *)
Theorem C20_autocorr_beyond_length :
  forall {T : Type} {DT : IsNone T XR} (mp : nat) (nv : T) (xs : list T) (lag : nat),
    Num.is_none nv = true -> (length xs <= lag)%nat ->
    autocorr (DT := DT) mp nv xs lag = None /\ above_half (DT := DT) mp nv xs lag = false.
Proof.
  intros T DT mp nv xs lag Hnv H.
  split; [exact (autocorr_out (NA := NumXR) nv Hnv mp xs lag H)|exact (above_half_out (NA := NumXR) nv Hnv mp xs lag eq_refl H)].
Qed.

(* plain integer series (DESIGN 5.4): T::none() panics in the first vshift; only the empty series returns *)
Theorem C20_half_life_int_none_panics :
  forall {T : Type} {DT : IsNone T XR} (dm : NullDict T XR) (mp : option nat) (k : panic_kind) (xs : list T),
    MapOps.none dm = Panic k ->
    half_life_exec (DT := DT) dm mp xs = if (length xs =? 0)%nat then Some (Ok 0%nat) else Some (Panic k).
Proof. intros T DT dm mp k xs. apply half_life_exec_none_panics. Qed.

Local Open Scope R_scope.
Example C20_ex_sorted : Sorted Rle [1; 2; 4] /\ Permutation [1; 2; 4] (valid [Some 4; None; Some 1; Some 2]).
Proof.
  split.
  - repeat constructor; lra.
  - cbn. apply Permutation_sym. apply (Permutation_cons_app [1; 2] [] 4). reflexivity.
Qed.

(* q = 1/2: both bounds are the median 2, every valid value moves onto it, the null stays *)
Example C20_ex_winsorize_quantile :
  winsorize (DT := IsNoneXR) WQuantile (Some (Some (1 / 2))) [Some 4; None; Some 1; Some 2]
  = Ok (Some [Some 2; None; Some 2; Some 2]).
Proof.
  destruct C20_ex_sorted as [Hs HP].
  destruct (C20_winsorize_quantile _ (1 / 2) [1; 2; 4] ltac:(lra) Hs HP ltac:(discriminate)) as [E _].
  rewrite E. unfold quantile_spec. cbn [length Nat.sub INR].
  replace (1 - 1 / 2) with (1 / 2) by lra.
  replace ((1 + 1) * (1 / 2)) with (IZR 1) by lra. rewrite Rfloor_IZR, Rceil_IZR.
  change (Z.to_nat 1) with 1%nat. cbn [nth]. replace (2 + (2 - 2) * (1 - 1)) with 2 by lra.
  unfold clip_series, clipR. cbn [map option_map].
  destruct (Rlt_dec 4 2); [lra|]. destruct (Rlt_dec 2 4); [|lra].
  destruct (Rlt_dec 1 2); [|lra]. destruct (Rlt_dec 2 2); [lra|]. reflexivity.
Qed.

Example C20_ex_scope : wparam_in_scope WQuantile (1 / 100) /\ wparam_in_scope WMedian 3 /\ wparam_in_scope WSigma 0.
Proof. cbn. lra. Qed.

Example C20_ex_clip : clip_series 1 3 [Some 0; None; Some 2; Some 5] = [Some 1; None; Some 2; Some 3].
Proof.
  unfold clip_series, clipR. cbn [map option_map].
  destruct (Rlt_dec 0 1); [|lra]. destruct (Rlt_dec 2 1); [lra|]. destruct (Rlt_dec 3 2); [lra|].
  destruct (Rlt_dec 5 1); [lra|]. destruct (Rlt_dec 3 5); [|lra]. reflexivity.
Qed.

Example C20_ex_strict_mono : strict_mono (fun x => 3 * x + 1) /\ strict_mono exp /\ strict_mono (fun x => x * x * x).
Proof.
  split; [|split].
  - intros x y H. lra.
  - intros x y H. apply exp_increasing. exact H.
  - intros x y H.
    assert (E : y * y * y - x * x * x = (y - x) * (x * x + x * y + y * y)) by ring.
    assert (P : 0 < x * x + x * y + y * y).
    { assert (Q : x * x + x * y + y * y = (x + y / 2) * (x + y / 2) + 3 / 4 * (y * y)) by field.
      rewrite Q. pose proof (Rle_0_sqr (x + y / 2)) as S1. unfold Rsqr in S1.
      destruct (Rtotal_order y 0) as [Hy|[Hy|Hy]].
      - assert (0 < y * y) by nra. lra.
      - subst y. assert (0 < x * x) by nra. replace (x + 0 / 2) with x by lra. lra.
      - assert (0 < y * y) by nra. lra. }
    assert (D : 0 < y - x) by lra. pose proof (Rmult_lt_0_compat _ _ D P). lra.
Qed.

(* the search on a threshold oracle: above for lags 1, 2 -> half-life 3; capped at len - 1 *)
Example C20_ex_half_life_oracle :
  half_life (fun k => k <? 3)%nat 10 = Some (Ok 3%nat) /\ half_life (fun k => k <? 7)%nat 5 = Some (Ok 4%nat)
  /\ half_life (fun _ => false) 1 = Some (Ok 0%nat) /\ half_life (fun _ => false) 2 = Some (Ok 1%nat).
Proof. repeat split; reflexivity. Qed.

(* the executable oracle on a two-element series: lag 1 leaves one complete pair, fewer than two: not above;
   the hypothesis of C20_half_life_threshold holds with L = 1 and the half-life is 1 *)
Example C20_ex_half_life_exec :
  half_life_exec (DT := IsNoneXR) (fdict (A := XR)) (Some 1%nat) [Some 1; Some 2] = Some (Ok 1%nat).
Proof.
  assert (Hthr : forall k, (1 <= k)%nat ->
            above_half (DT := IsNoneXR) (mp_default (Some 1%nat) (length [Some 1; Some 2])) None [Some 1; Some 2] k
            = (k <? 1)%nat).
  2: { apply (C20_half_life_threshold (fdict (A := XR)) (Some 1%nat) None [Some 1; Some 2] 1);
       [reflexivity|reflexivity|discriminate|lia|exact Hthr]. }
  intros k Hk. destruct k as [|[|k]]; [lia|reflexivity|].
  apply (above_half_out (NA := NumXR)); [reflexivity|reflexivity|cbn; lia].
Qed.

(* (a) winsorize, vcorr (Pearson and Spearman) and half_life are ENCODING INDEPENDENT — every carrier A (so also bit for
   bit at binary64), every two null dictionaries, every two series with the same option view (C08's SameView): EQUAL
   results.  winsorize returns an f64 series and vcorr an f64 whatever the element type (the input is cast element by
   element: `iter_cast::<f64>()` in map.rs:60/76/89, `v.cast()` in the MAD, `.f64()` inside the aggregations and vrank). *)
Theorem C20_winsorize_encoding :
  forall {A : Type} {NA : Num A} {NF : NumFloor A} {T1 T2 : Type} (D1 : IsNone T1 A) (D2 : IsNone T2 A)
         (m : wmethod) (p : option A) (xs1 : list T1) (xs2 : list T2),
    SameView D1 D2 xs1 xs2 -> winsorize (DT := D1) m p xs1 = winsorize (DT := D2) m p xs2.
Proof. intros A NA NF T1 T2 D1 D2 m p xs1 xs2. apply winsorize_view. Qed.

Theorem C20_vcorr_encoding :
  forall {A : Type} {NA : Num A} {T1 T2 : Type} (D1 : IsNone T1 A) (D2 : IsNone T2 A)
         (X1 : IsNoneX T1 A) (X2 : IsNoneX T2 A) (mp : option nat) (spearman : bool)
         (xs1 ys1 : list T1) (xs2 ys2 : list T2),
    EqbView D1 D2 X1 X2 -> SameView D1 D2 xs1 xs2 -> SameView D1 D2 ys1 ys2 ->
    vcorr (DT := D1) (DX := X1) mp spearman xs1 ys1 = vcorr (DT := D2) (DX := X2) mp spearman xs2 ys2.
Proof. intros A NA T1 T2 D1 D2 X1 X2 mp sp xs1 ys1 xs2 ys2. apply vcorr_view. Qed.

Theorem C20_half_life_encoding :
  forall {T1 T2 : Type} (D1 : IsNone T1 XR) (D2 : IsNone T2 XR) (dm1 : NullDict T1 XR) (dm2 : NullDict T2 XR)
         (nv1 : T1) (nv2 : T2) (mp : option nat) (xs1 : list T1) (xs2 : list T2),
    MapOps.none dm1 = Ok nv1 -> MapOps.none dm2 = Ok nv2 ->
    Num.is_none (IsNone := D1) nv1 = true -> Num.is_none (IsNone := D2) nv2 = true ->
    SameView D1 D2 xs1 xs2 ->
    half_life_exec (DT := D1) dm1 mp xs1 = half_life_exec (DT := D2) dm2 mp xs2.
Proof.
  intros T1 T2 D1 D2 dm1 dm2 nv1 nv2 mp xs1 xs2 Hn1 Hn2 Hnv1 Hnv2 HS.
  exact (half_life_exec_view D1 D2 dm1 dm2 nv1 nv2 Hn1 Hn2 Hnv1 Hnv2 mp xs1 xs2 HS).
Qed.

(* (b) the two other element types at option R:
     enc_opt xs  : list (option XR)  the Option<f64> series  Some (Some r) | None  rendering the float series xs
                                     (dictionary DOpt = IsNone_option: None is the null)
     cast_i32 zs : list XR           the i32 series zs seen through its exact f64 values Some (IZR z), with the never-null
                                     dictionary DInt = IsNone_never (what Run/RunC20.v executes for i32)
   they encode the same logical series as the f64 series, `==` agrees, an integer series has no null *)
Theorem C20_encodings_option_i32 :
  (forall xs : list XR, SameView DOpt IsNoneXR (enc_opt xs) xs) /\
  (forall zs : list Z, SameView DInt IsNoneXR (cast_i32 zs) (cast_i32 zs)) /\
  EqbView DOpt IsNoneXR DXOpt IsNoneXXR /\ EqbView DInt IsNoneXR DXInt IsNoneXXR /\
  (forall zs : list Z, valid (cast_i32 zs) = map IZR zs).
Proof.
  split; [exact enc_opt_view|]. split; [exact cast_i32_view|]. split; [exact eqb_view_opt_xr|].
  split; [exact eqb_view_int_xr|exact valid_cast_i32].
Qed.

(* (c) hence every f64 theorem above holds verbatim for an Option<f64> series and for an i32 series (over its cast) *)
Theorem C20_winsorize_quantile_opt :
  forall (xs : list XR) (q : R) (s : list R),
    0 <= q <= 1 / 2 -> Sorted Rle s -> Permutation s (valid xs) -> s <> [] ->
    let lo := quantile_spec s q Linear in let hi := quantile_spec s (1 - q) Linear in
    winsorize (DT := DOpt) WQuantile (Some (Some q)) (enc_opt xs) = Ok (Some (clip_series lo hi xs)) /\ lo <= hi.
Proof. intros xs q s Hq Hs HP Hne. rewrite winsorize_opt. exact (C20_winsorize_quantile xs q s Hq Hs HP Hne). Qed.

Theorem C20_winsorize_quantile_i32 :
  forall (zs : list Z) (q : R) (s : list R),
    0 <= q <= 1 / 2 -> Sorted Rle s -> Permutation s (map IZR zs) -> s <> [] ->
    let lo := quantile_spec s q Linear in let hi := quantile_spec s (1 - q) Linear in
    winsorize (DT := DInt) WQuantile (Some (Some q)) (cast_i32 zs) = Ok (Some (clip_series lo hi (cast_i32 zs))) /\ lo <= hi.
Proof.
  intros zs q s Hq Hs HP Hne. rewrite winsorize_i32. rewrite <- valid_cast_i32 in HP.
  exact (C20_winsorize_quantile (cast_i32 zs) q s Hq Hs HP Hne).
Qed.

Theorem C20_winsorize_median_opt :
  forall (xs : list XR) (k : R) (s s' : list R),
    0 <= k -> Sorted Rle s -> Permutation s (valid xs) -> s <> [] ->
    let med := quantile_spec s (1 / 2) Linear in
    Sorted Rle s' -> Permutation s' (map (fun x => Rabs (x - med)) (valid xs)) ->
    let mad := quantile_spec s' (1 / 2) Linear in
    winsorize (DT := DOpt) WMedian (Some (Some k)) (enc_opt xs)
      = Ok (Some (clip_series (med - k * mad) (med + k * mad) xs))
    /\ 0 <= mad /\ med - k * mad <= med + k * mad.
Proof.
  intros xs k s s' Hk Hs HP Hne med Hs' HP'. rewrite winsorize_opt.
  exact (C20_winsorize_median xs k s s' Hk Hs HP Hne Hs' HP').
Qed.

Theorem C20_winsorize_median_i32 :
  forall (zs : list Z) (k : R) (s s' : list R),
    0 <= k -> Sorted Rle s -> Permutation s (map IZR zs) -> s <> [] ->
    let med := quantile_spec s (1 / 2) Linear in
    Sorted Rle s' -> Permutation s' (map (fun x => Rabs (x - med)) (map IZR zs)) ->
    let mad := quantile_spec s' (1 / 2) Linear in
    winsorize (DT := DInt) WMedian (Some (Some k)) (cast_i32 zs)
      = Ok (Some (clip_series (med - k * mad) (med + k * mad) (cast_i32 zs)))
    /\ 0 <= mad /\ med - k * mad <= med + k * mad.
Proof.
  intros zs k s s' Hk Hs HP Hne med Hs' HP'. rewrite winsorize_i32. rewrite <- valid_cast_i32 in HP, HP'.
  exact (C20_winsorize_median (cast_i32 zs) k s s' Hk Hs HP Hne Hs' HP').
Qed.

Theorem C20_winsorize_sigma_opt :
  forall (xs : list XR) (k : R),
    0 <= k ->
    let V := valid xs in
    let lo := meanR V - k * sqrt (samplevarR V) in let hi := meanR V + k * sqrt (samplevarR V) in
    winsorize (DT := DOpt) WSigma (Some (Some k)) (enc_opt xs)
      = Ok (Some (if (length V <? 2)%nat then xs
                  else if Rle_dec (popvarR V) EPS then xs
                  else clip_series lo hi xs))
    /\ lo <= hi.
Proof. intros xs k Hk. rewrite winsorize_opt. exact (C20_winsorize_sigma xs k Hk). Qed.

Theorem C20_winsorize_sigma_i32 :
  forall (zs : list Z) (k : R),
    0 <= k ->
    let V := map IZR zs in
    let lo := meanR V - k * sqrt (samplevarR V) in let hi := meanR V + k * sqrt (samplevarR V) in
    winsorize (DT := DInt) WSigma (Some (Some k)) (cast_i32 zs)
      = Ok (Some (if (length V <? 2)%nat then cast_i32 zs
                  else if Rle_dec (popvarR V) EPS then cast_i32 zs
                  else clip_series lo hi (cast_i32 zs)))
    /\ lo <= hi.
Proof.
  intros zs k Hk. rewrite winsorize_i32, <- valid_cast_i32. exact (C20_winsorize_sigma (cast_i32 zs) k Hk).
Qed.

Theorem C20_winsorize_no_valid_opt :
  forall (m : wmethod) (p : R) (xs : list XR),
    wparam_in_scope m p -> valid xs = [] ->
    winsorize (DT := DOpt) m (Some (Some p)) (enc_opt xs) = Ok (Some xs).
Proof. intros m p xs Hp Hv. rewrite winsorize_opt. exact (C20_winsorize_no_valid m p xs Hp Hv). Qed.

(* an integer series has no null: "no valid element" is the empty series *)
Theorem C20_winsorize_no_valid_i32 :
  forall (m : wmethod) (p : R) (zs : list Z),
    wparam_in_scope m p -> (valid (cast_i32 zs) = [] <-> zs = []) /\
    (zs = [] -> winsorize (DT := DInt) m (Some (Some p)) (cast_i32 zs) = Ok (Some [])).
Proof.
  intros m p zs Hp. split.
  - rewrite valid_cast_i32. split; [apply map_eq_nil|intros ->; reflexivity].
  - intros ->. rewrite winsorize_i32. exact (C20_winsorize_no_valid m p [] Hp eq_refl).
Qed.

Theorem C20_winsorize_acts_as_clip_opt :
  forall (m : wmethod) (p : R) (xs : list XR),
    wparam_in_scope m p ->
    exists r, winsorize (DT := DOpt) m (Some (Some p)) (enc_opt xs) = Ok (Some r) /\
              (r = xs \/ exists lo hi, lo <= hi /\ r = clip_series lo hi xs).
Proof. intros m p xs Hp. rewrite winsorize_opt. exact (C20_winsorize_acts_as_clip m p xs Hp). Qed.

Theorem C20_winsorize_acts_as_clip_i32 :
  forall (m : wmethod) (p : R) (zs : list Z),
    wparam_in_scope m p ->
    exists r, winsorize (DT := DInt) m (Some (Some p)) (cast_i32 zs) = Ok (Some r) /\
              (r = cast_i32 zs \/ exists lo hi, lo <= hi /\ r = clip_series lo hi (cast_i32 zs)).
Proof. intros m p zs Hp. rewrite winsorize_i32. exact (C20_winsorize_acts_as_clip m p (cast_i32 zs) Hp). Qed.

(* positions of the output are positions of the f64 view xs of the Option series: length, nullness, order *)
Theorem C20_winsorize_order_preserving_opt :
  forall (m : wmethod) (p : R) (xs : list XR),
    wparam_in_scope m p ->
    exists r, winsorize (DT := DOpt) m (Some (Some p)) (enc_opt xs) = Ok (Some r) /\ length r = length (enc_opt xs) /\
      (forall i, nth_error (enc_opt xs) i = Some None <-> nth_error r i = Some None) /\
      (forall i j x x' y y', nth_error (enc_opt xs) i = Some (Some (Some x)) -> nth_error (enc_opt xs) j = Some (Some (Some x')) ->
         nth_error r i = Some (Some y) -> nth_error r j = Some (Some y') -> x <= x' -> y <= y').
Proof.
  intros m p xs Hp. rewrite winsorize_opt, length_enc_opt.
  destruct (C20_winsorize_order_preserving m p xs Hp) as (r & Hr & Hlen & Hnull & Hord).
  exists r. split; [exact Hr|]. split; [exact Hlen|]. split.
  - intros i. rewrite <- Hnull. apply enc_opt_nth_null.
  - intros i j x x' y y' Hi Hj. apply Hord; apply enc_opt_nth_valid; assumption.
Qed.

Theorem C20_winsorize_order_preserving_i32 :
  forall (m : wmethod) (p : R) (zs : list Z),
    wparam_in_scope m p ->
    exists r, winsorize (DT := DInt) m (Some (Some p)) (cast_i32 zs) = Ok (Some r) /\ length r = length zs /\
      (forall i, nth_error r i <> Some None) /\
      (forall i j z z' y y', nth_error zs i = Some z -> nth_error zs j = Some z' ->
         nth_error r i = Some (Some y) -> nth_error r j = Some (Some y') -> (z <= z')%Z -> y <= y').
Proof.
  intros m p zs Hp. rewrite winsorize_i32.
  destruct (C20_winsorize_order_preserving m p (cast_i32 zs) Hp) as (r & Hr & Hlen & Hnull & Hord).
  exists r. split; [exact Hr|]. split; [rewrite Hlen; apply length_cast_i32|]. split.
  - intros i Hi. apply Hnull in Hi. unfold cast_i32 in Hi. rewrite nth_error_map in Hi.
    destruct (nth_error zs i); discriminate.
  - intros i j z z' y y' Hi Hj Hy Hy' Hzz.
    apply (Hord i j (IZR z) (IZR z') y y'); try assumption;
      try (unfold cast_i32; rewrite nth_error_map; rewrite ?Hi, ?Hj; reflexivity).
    apply IZR_le. exact Hzz.
Qed.

Theorem C20_rank_is_average_rank_opt :
  forall (pct rev : bool) (xs : list XR),
    vrank (DT := DOpt) (DX := DXOpt) pct rev (enc_opt xs) = map Some (ranks pct rev xs).
Proof. intros pct rev xs. rewrite vrank_opt. apply C20_rank_is_average_rank. Qed.

Theorem C20_rank_is_average_rank_i32 :
  forall (pct rev : bool) (zs : list Z),
    vrank (DT := DInt) (DX := DXInt) pct rev (cast_i32 zs) = map Some (ranks pct rev (cast_i32 zs)).
Proof. intros pct rev zs. rewrite vrank_i32. apply C20_rank_is_average_rank. Qed.

Theorem C20_spearman_opt :
  forall (mp : option nat) (xs ys : list XR),
    vcorr (DT := DOpt) (DX := DXOpt) mp true (enc_opt xs) (enc_opt ys)
    = Some (vcorr_pearson (DT := IsNoneXR) (DT2 := IsNoneXR) (fun x : XR => x)
              (mp_default mp (length (enc_opt xs))) (ranks false false xs) (ranks false false ys)).
Proof. intros mp xs ys. rewrite vcorr_opt, length_enc_opt. apply C20_spearman. Qed.

Theorem C20_spearman_i32 :
  forall (mp : option nat) (xs ys : list Z),
    vcorr (DT := DInt) (DX := DXInt) mp true (cast_i32 xs) (cast_i32 ys)
    = Some (vcorr_pearson (DT := IsNoneXR) (DT2 := IsNoneXR) (fun x : XR => x)
              (mp_default mp (length xs)) (ranks false false (cast_i32 xs)) (ranks false false (cast_i32 ys))).
Proof. intros mp xs ys. rewrite vcorr_i32, <- (length_cast_i32 xs). apply C20_spearman. Qed.

Theorem C20_spearman_textbook_opt :
  forall (mp : option nat) (xs ys : list XR),
    let P := rpairs (DT := IsNoneXR) (DT2 := IsNoneXR) (fun x : XR => x) (ranks false false xs) (ranks false false ys) in
    vcorr (DT := DOpt) (DX := DXOpt) mp true (enc_opt xs) (enc_opt ys)
    = Some (if (length P <? Nat.max (mp_default mp (length (enc_opt xs))) 2)%nat then None
            else if Rlt_dec EPS (popvarR (xs_of P)) then
                   (if Rlt_dec EPS (popvarR (ys_of P)) then Some (corrR P) else None)
                 else None).
Proof. intros mp xs ys. rewrite vcorr_opt, length_enc_opt. exact (C20_spearman_textbook mp xs ys). Qed.

Theorem C20_spearman_textbook_i32 :
  forall (mp : option nat) (xs ys : list Z),
    let P := rpairs (DT := IsNoneXR) (DT2 := IsNoneXR) (fun x : XR => x)
                    (ranks false false (cast_i32 xs)) (ranks false false (cast_i32 ys)) in
    vcorr (DT := DInt) (DX := DXInt) mp true (cast_i32 xs) (cast_i32 ys)
    = Some (if (length P <? Nat.max (mp_default mp (length xs)) 2)%nat then None
            else if Rlt_dec EPS (popvarR (xs_of P)) then
                   (if Rlt_dec EPS (popvarR (ys_of P)) then Some (corrR P) else None)
                 else None).
Proof.
  intros mp xs ys. rewrite vcorr_i32, <- (length_cast_i32 xs). exact (C20_spearman_textbook mp (cast_i32 xs) (cast_i32 ys)).
Qed.

Theorem C20_spearman_invariant_opt :
  forall (mp : option nat) (f g : R -> R) (xs ys : list XR),
    strict_mono f -> strict_mono g ->
    vcorr (DT := DOpt) (DX := DXOpt) mp true (map (option_map (option_map f)) (enc_opt xs))
                                             (map (option_map (option_map g)) (enc_opt ys))
    = vcorr (DT := DOpt) (DX := DXOpt) mp true (enc_opt xs) (enc_opt ys).
Proof. intros mp f g xs ys Hf Hg. rewrite !enc_opt_map, !vcorr_opt. apply C20_spearman_invariant; assumption. Qed.

(* an integer map fz that is the restriction of a strictly increasing real function f (3z + 1, z^3, ...) *)
Theorem C20_spearman_invariant_i32 :
  forall (mp : option nat) (f g : R -> R) (fz gz : Z -> Z) (xs ys : list Z),
    strict_mono f -> strict_mono g ->
    (forall z, IZR (fz z) = f (IZR z)) -> (forall z, IZR (gz z) = g (IZR z)) ->
    vcorr (DT := DInt) (DX := DXInt) mp true (cast_i32 (map fz xs)) (cast_i32 (map gz ys))
    = vcorr (DT := DInt) (DX := DXInt) mp true (cast_i32 xs) (cast_i32 ys).
Proof.
  intros mp f g fz gz xs ys Hf Hg Ef Eg. rewrite !vcorr_i32, (cast_i32_map f fz xs Ef), (cast_i32_map g gz ys Eg).
  apply C20_spearman_invariant; assumption.
Qed.

(* half_life on the Option<f64> rendering = half_life on the f64 series (so C20_half_life_total_f64 etc. carry over) *)
Theorem C20_half_life_opt :
  forall (mp : option nat) (xs : list XR),
    half_life_exec (DT := DOpt) (dict_opt (nisnan (A := XR))) mp (enc_opt xs)
    = half_life_exec (DT := IsNoneXR) (fdict (A := XR)) mp xs.
Proof.
  intros mp xs.
  apply (half_life_exec_view DOpt IsNoneXR (dict_opt (nisnan (A := XR))) (fdict (A := XR)) None None); try reflexivity.
  apply enc_opt_view.
Qed.

Local Close Scope R_scope.
(* half_life_tr = the two loops of the model with the list of probed lags recorded; erasing the trace gives the model *)
Theorem C20_half_life_trace_erasure :
  forall (above : nat -> bool) (len : nat), fst (half_life_tr above len) = half_life above len.
Proof. exact half_life_tr_fst. Qed.

(* first_fail above j : the oracle is true at 2^0 .. 2^(j-1) and false at 2^j.  Exactly one such j exists. *)
Theorem C20_half_life_first_fail_unique :
  forall (above : nat -> bool) (len : nat),
    (forall k, len <= k -> above k = false) -> 1 <= len ->
    exists j, first_fail above j /\ forall j', first_fail above j' -> j' = j.
Proof.
  intros above len Hout Hlen. destruct (first_fail_exists above len Hout) as (j & F).
  exists j. split; [exact F|]. intros j' F'. apply (first_fail_unique above j' j F' F).
Qed.

(* THE PROBE SEQUENCE.  The doubling phase probes exactly 1, 2, 4, .., 2^j (j = the first exponent at which the
   oracle is false; no lag is skipped for any other reason), then the bisection of (prev_pow j, min(2^j, len-1)] probes
   exactly the midpoints determined by the answers; the result is where that bisection ends. *)
Theorem C20_half_life_probe_sequence_oracle :
  forall (above : nat -> bool) (len j : nat),
    (forall k, len <= k -> above k = false) -> 1 <= len -> first_fail above j ->
    let n := Nat.min (2 ^ j) (len - 1) in let last := prev_pow j in
    half_life_tr above len = (Some (Ok (bis_end above (n - last) n last)), pows 0 (S j) ++ mids above (n - last) n last).
Proof. intros above len j Hout Hlen F. exact (half_life_tr_exact above len Hlen j F (prev_pow_in above len Hlen Hout j F)). Qed.

(* every bisection probe is strictly inside the bracket; the end is inside, one above a lag where the oracle is true (or
   the lower end), and the upper end or a lag where the oracle is false *)
Theorem C20_half_life_bisection :
  forall (above : nat -> bool) (k n last : nat),
    last <= n -> n - last <= k ->
    Forall (fun m => last < m < n) (mids above k n last) /\
    exists l', l' <= bis_end above k n last <= l' + 1 /\ last <= l' /\ bis_end above k n last <= n /\
               (l' = last \/ above l' = true) /\
               (bis_end above k n last = n \/ above (bis_end above k n last) = false) /\
               (last < n -> l' < bis_end above k n last).
Proof.
  intros above k n last H1 H2. split; [apply mids_inside|].
  destruct (bis_end_spec above k n last H1 H2) as (Hin & Hhi & Hlo).
  destruct (Nat.lt_ge_cases last n) as [L|L].
  - destruct (Hlo L) as (Hlt & Hb). exists (bis_end above k n last - 1).
    split; [lia|]. split; [lia|]. split; [lia|]. split; [exact Hb|]. split; [exact Hhi|lia].
  - exists last. split; [lia|]. split; [lia|]. split; [lia|]. split; [left; reflexivity|]. split; [exact Hhi|lia].
Qed.

(* the result is the cap len-1 or a genuine down-crossing of the oracle, inside the bracket of the doubling phase *)
Theorem C20_half_life_crossing :
  forall (above : nat -> bool) (len j r : nat),
    (forall k, len <= k -> above k = false) -> 1 <= len -> first_fail above j ->
    half_life above len = Some (Ok r) ->
    prev_pow j <= r <= Nat.min (2 ^ j) (len - 1) /\ (prev_pow j < len - 1 -> prev_pow j < r) /\
    (r = len - 1 \/ (above r = false /\ (r = 1 \/ above (r - 1) = true))).
Proof.
  intros above len j r Hout Hlen F Hr. exact (half_life_crossing above len Hlen j r F (prev_pow_in above len Hlen Hout j F) Hr).
Qed.

(* the executable half_life, oracle = vcorr_pearson(xs, vshift(xs, lag), min_periods) > 0.5: every element type whose
   T::none() is a null, every series, EVERY min_periods (explicit, omitted, 0, 1, > len) *)
Theorem C20_half_life_probe_sequence :
  forall {T : Type} {DT : IsNone T XR} (dm : NullDict T XR) (mp : option nat) (nv : T) (xs : list T),
    MapOps.none dm = Ok nv -> Num.is_none nv = true -> xs <> [] ->
    let len := length xs in
    let ab := above_half (DT := DT) (mp_default mp len) nv xs in
    exists j r,
      first_fail ab j /\
      half_life_exec (DT := DT) dm mp xs = Some (Ok r) /\
      (let n := Nat.min (2 ^ j) (len - 1) in let last := prev_pow j in
       half_life_tr ab len = (Some (Ok r), pows 0 (S j) ++ mids ab (n - last) n last) /\
       Forall (fun m => last < m < n) (mids ab (n - last) n last)) /\
      prev_pow j <= r <= Nat.min (2 ^ j) (len - 1) /\ (prev_pow j < len - 1 -> prev_pow j < r) /\
      (r = len - 1 \/ (ab r = false /\ (r = 1 \/ ab (r - 1) = true))).
Proof. intros T DT dm mp nv xs Hn Hnv Hne len ab. exact (half_life_exec_probes (NA := NumXR) dm eq_refl mp nv xs Hn Hnv Hne). Qed.

Local Open Scope R_scope.
(* the oracle itself.  lag_pairs xs L = the complete pairs (x[i+L], x[i]); `canonical` = a non-null element is a number
   (always true for f64; no Some(NaN) for Option<f64>, DESIGN 5.4) *)
Theorem C20_autocorr_textbook :
  forall {T : Type} {DT : IsNone T XR} (nv : T) (mp : nat) (xs : list T) (lag : nat),
    Num.is_none nv = true -> canonical (@idA XR) xs ->
    let P := lag_pairs xs lag in
    autocorr (DT := DT) mp nv xs lag
    = if (length P <? Nat.max mp 2)%nat then None
      else if Rlt_dec EPS (popvarR (xs_of P)) then
             (if Rlt_dec EPS (popvarR (ys_of P)) then Some (corrR P) else None)
           else None.
Proof. intros T DT nv mp xs lag Hnv Hc. exact (autocorr_textbook nv Hnv mp xs lag Hc). Qed.

(* null iff fewer than max(min_periods, 2) complete pairs remain or one side has no spread: a lag leaving EXACTLY
   min_periods (>= 2) pairs is evaluated *)
Theorem C20_autocorr_defined_iff_enough_pairs :
  forall {T : Type} {DT : IsNone T XR} (nv : T) (mp : nat) (xs : list T) (lag : nat),
    Num.is_none nv = true -> canonical (@idA XR) xs ->
    let P := lag_pairs xs lag in
    autocorr (DT := DT) mp nv xs lag = None <->
    (length P < Nat.max mp 2)%nat \/ ~ EPS < popvarR (xs_of P) \/ ~ EPS < popvarR (ys_of P).
Proof. intros T DT nv mp xs lag Hnv Hc. exact (autocorr_defined_iff nv Hnv mp xs lag Hc). Qed.

Theorem C20_above_half_iff :
  forall {T : Type} {DT : IsNone T XR} (nv : T) (mp : nat) (xs : list T) (lag : nat),
    Num.is_none nv = true -> canonical (@idA XR) xs ->
    let P := lag_pairs xs lag in
    above_half (DT := DT) mp nv xs lag = true <->
    (Nat.max mp 2 <= length P)%nat /\ EPS < popvarR (xs_of P) /\ EPS < popvarR (ys_of P) /\ 1 / 2 < corrR P.
Proof. intros T DT nv mp xs lag Hnv Hc. exact (above_half_iff nv Hnv mp xs lag Hc). Qed.

(* a series without nulls: the pairs at lag L are all len - L overlapping pairs *)
Theorem C20_autocorr_all_valid :
  forall (mp : nat) (rs : list R) (lag : nat),
    let P := combine (skipn lag rs) rs in
    length P = (length rs - lag)%nat /\
    (autocorr (DT := IsNoneXR) mp None (map Some rs) lag = None <->
     (length rs - lag < Nat.max mp 2)%nat \/ ~ EPS < popvarR (xs_of P) \/ ~ EPS < popvarR (ys_of P)) /\
    (above_half (DT := IsNoneXR) mp None (map Some rs) lag = true <->
     (Nat.max mp 2 <= length rs - lag)%nat /\ EPS < popvarR (xs_of P) /\ EPS < popvarR (ys_of P) /\ 1 / 2 < corrR P).
Proof.
  intros mp rs lag P. split; [unfold P; rewrite combine_length, skipn_length; lia|].
  split; [apply autocorr_all_valid_defined_iff|apply above_half_all_valid_iff].
Qed.

Example C20_ex_enc_opt :
  enc_opt [Some 4; None; Some 1; Some 2] = [Some (Some 4); None; Some (Some 1); Some (Some 2)] /\
  cast_i32 [4; -1; 2]%Z = [Some 4; Some (-1); Some 2].
Proof. split; reflexivity. Qed.

(* the Option<f64> run of C20_ex_winsorize_quantile: the output is an f64 series, the None became a NaN *)
Example C20_ex_winsorize_quantile_opt :
  winsorize (DT := DOpt) WQuantile (Some (Some (1 / 2))) [Some (Some 4); None; Some (Some 1); Some (Some 2)]
  = Ok (Some [Some 2; None; Some 2; Some 2]).
Proof. rewrite <- C20_ex_winsorize_quantile. apply (winsorize_opt WQuantile (Some (Some (1 / 2))) [Some 4; None; Some 1; Some 2]). Qed.

Example C20_ex_int_maps :
  (forall z, IZR (3 * z + 1) = 3 * IZR z + 1) /\ (forall z, IZR (z * z * z) = IZR z * IZR z * IZR z).
Proof. split; intros z; rewrite ?plus_IZR, ?mult_IZR; reflexivity. Qed.

Local Close Scope R_scope.
(* above for lags 1, 2: j = 2 (4 is the first power of two that fails); probes 1, 2, 4 then the midpoint 3 *)
Example C20_ex_probe_sequence :
  first_fail (fun k => k <? 3) 2 /\
  half_life_tr (fun k => k <? 3) 10 = (Some (Ok 3), [1; 2; 4; 3]) /\
  half_life_tr (fun k => k <? 17) 20 = (Some (Ok 17), [1; 2; 4; 8; 16; 32; 17]) /\
  half_life_tr (fun k => k <? 30) 20 = (Some (Ok 19), [1; 2; 4; 8; 16; 32; 17; 18]).
Proof.
  split; [split; [reflexivity|intros i Hi; destruct i as [|[|i]]; [reflexivity|reflexivity|lia]]|].
  repeat split; reflexivity.
Qed.

(* lag 1 of [1; 2; 4] leaves exactly two pairs (2,1), (4,2): with min_periods = 2 the correlation IS evaluated (not null);
   with min_periods = 3 it is null *)
Example C20_ex_autocorr_exactly_min_periods :
  (autocorr (DT := IsNoneXR) 2 None (map Some [1; 2; 4]) 1 <> None /\
   autocorr (DT := IsNoneXR) 3 None (map Some [1; 2; 4]) 1 = None)%R.
Proof.
  split.
  - intros H. apply (autocorr_all_valid_defined_iff 2 [1; 2; 4]%R 1) in H.
    cbn [skipn combine length Nat.sub Nat.max xs_of ys_of map fst snd] in H.
    assert (E1 : popvarR [2; 4]%R = 1%R).
    { unfold popvarR, cmom, devsum, meanR, nR, sumR. cbn [length map fold_right INR]. field. }
    assert (E2 : popvarR [1; 2]%R = (1 / 4)%R).
    { unfold popvarR, cmom, devsum, meanR, nR, sumR. cbn [length map fold_right INR]. field. }
    rewrite E1, E2 in H. unfold EPS in H. destruct H as [H|[H|H]]; [lia|apply H; lra|apply H; lra].
  - apply (autocorr_all_valid_defined_iff 3 [1; 2; 4]%R 1). left. cbn. lia.
Qed.

(* clause by clause (notes/C20.md, "Audit matrix") *)
Local Notation float := PrimFloat.float (only parsing).
(* (A1) winsorize at EVERY carrier A (so also Coq's binary64 `float`), every dictionary, method and parameter — omitted,
        NaN, out of range: the result is a panic propagated from the order-statistic selection, the Err of vquantile
        (Quantile method only), the cast input itself, or ONE map of vclip's element function
        clipA lo hi x = if x null then x else if lo non-null && x < lo then lo else if hi non-null && hi < x then hi else x *)
Theorem C20_winsorize_shape :
  forall {A : Type} {NA : Num A} {NF : NumFloor A} {T : Type} {DT : IsNone T A} (m : wmethod) (p : option A) (xs : list T),
    (exists k, winsorize m p xs = Panic k) \/
    (m = WQuantile /\ winsorize m p xs = Ok None) \/
    winsorize m p xs = Ok (Some (iter_cast xs)) \/
    (exists lo hi, winsorize m p xs = Ok (Some (map (clipA lo hi) (iter_cast xs)))).
Proof. intros A NA NF T DT. exact winsorize_shape. Qed.

(* "one value per input", "what must not change": WHENEVER a series is returned (no scope hypothesis): same length, same
   order; the null pattern of the cast input is kept; every output is the cast input itself — bit for bit — or, for a
   non-null input only, one of two bounds (the same two for the whole series) that it exceeded *)
Theorem C20_winsorize_returns :
  forall {A : Type} {NA : Num A} {NF : NumFloor A} {T : Type} {DT : IsNone T A} (m : wmethod) (p : option A) (xs : list T) (r : list A),
    winsorize m p xs = Ok (Some r) ->
    length r = length xs /\
    exists lo hi, forall i x, nth_error xs i = Some x ->
      exists y, nth_error r i = Some y /\ nisnan y = nisnan (tcast x) /\
        (y = tcast x \/ (nisnan (tcast x) = false /\ ((nltb (tcast x) lo = true /\ y = lo) \/ (nltb hi (tcast x) = true /\ y = hi)))).
Proof. intros A NA NF T DT. exact winsorize_returns. Qed.

(* "keeps nulls null", every carrier whose NaN is a NaN: a null input position holds the carrier's NaN *)
Theorem C20_winsorize_keeps_nulls :
  forall {A : Type} {NA : Num A} {NF : NumFloor A} {T : Type} {DT : IsNone T A} (m : wmethod) (p : option A) (xs : list T) (r : list A),
    nisnan (nnan : A) = true -> winsorize m p xs = Ok (Some r) ->
    forall i x, nth_error xs i = Some x -> Num.is_none x = true -> nth_error r i = Some nnan.
Proof. intros A NA NF T DT. exact winsorize_keeps_nulls. Qed.

(* the Sigma method has no failing input: never an Err, never a panic, at any carrier *)
Theorem C20_winsorize_sigma_never_fails :
  forall {A : Type} {NA : Num A} {NF : NumFloor A} {T : Type} {DT : IsNone T A} (p : option A) (xs : list T),
    exists r, winsorize WSigma p xs = Ok (Some r).
Proof.
  intros A NA NF T DT p xs. unfold winsorize. destruct (_ && _); [|eexists; reflexivity].
  rewrite clip_f64_map. cbn [bind]. eexists. reflexivity.
Qed.

(* "unchanged inside", any carrier, no order law needed: a value not below a non-null lower bound and not above a non-null
   upper bound is returned as it is *)
Theorem C20_clip_inside_unchanged :
  forall {A : Type} {NA : Num A} (lo hi x : A),
    (nisnan lo = false -> nltb x lo = false) -> (nisnan hi = false -> nltb hi x = false) -> clipA lo hi x = x.
Proof. intros A NA. exact clipA_inside. Qed.

(* (A2) ORDERED carriers (Spec/ExtremaOrd.v: `<` a strict weak order on the non-NaN elements; binary64 satisfies it):
        bounds not reversed (a NaN bound is no bound) -> the result is inside the bounds, clipping is idempotent and ORDER
        PRESERVING for the carrier's own comparison *)
Theorem C20_clip_ordered_carrier :
  forall {A : Type} {NA : Num A}, OrdLaws A -> forall (lo hi : A),
    (nisnan lo = false -> nisnan hi = false -> nltb hi lo = false) ->
    (forall x, clipA lo hi (clipA lo hi x) = clipA lo hi x) /\
    (forall x, nisnan x = false ->
       (nisnan lo = false -> nltb (clipA lo hi x) lo = false) /\ (nisnan hi = false -> nltb hi (clipA lo hi x) = false)) /\
    (forall x y, nisnan x = false -> nisnan y = false -> nltb y x = false -> nltb (clipA lo hi y) (clipA lo hi x) = false).
Proof.
  intros A NA OL lo hi Hlh. split; [intros x; apply (clipA_idempotent OL); exact Hlh|].
  split; [intros x Hx; apply (clipA_contained OL); assumption|intros x y Hx Hy Hxy; apply (clipA_monotone OL); assumption].
Qed.

Theorem C20_winsorize_order_preserving_ordered :
  forall {A : Type} {NA : Num A} {NF : NumFloor A} {T : Type} {DT : IsNone T A}, OrdLaws A ->
  forall (m : wmethod) (p : option A) (xs : list T) (r : list A),
    winsorize m p xs = Ok (Some r) ->
    r = iter_cast xs \/
    exists lo hi, r = map (clipA lo hi) (iter_cast xs) /\
      ((nisnan lo = false -> nisnan hi = false -> nltb hi lo = false) ->
       forall i j x x', nth_error xs i = Some x -> nth_error xs j = Some x' ->
         nisnan (tcast x) = false -> nisnan (tcast x') = false -> nltb (tcast x') (tcast x) = false ->
         exists y y', nth_error r i = Some y /\ nth_error r j = Some y' /\ nltb y' y = false /\
                      (nisnan lo = false -> nltb y lo = false) /\ (nisnan hi = false -> nltb hi y = false)).
Proof.
  intros A NA NF T DT OL m p xs r Hr.
  destruct (winsorize_ok_form m p xs r Hr) as [->|(lo & hi & ->)]; [left; reflexivity|right].
  exists lo, hi. split; [reflexivity|exact (clipped_ordered OL lo hi xs)].
Qed.

(* (A3) binary64, every element type (any null dictionary over Coq's `float`: f64, Option<f64>, the i32 rendering), with
        the floor / ceil the run executes: length; nulls -> NaN; NaN-ness fixed; each value bit-identical or on a bound; and
        when the two bounds are not reversed: order preserved (PrimFloat.ltb) and every non-NaN output inside the bounds *)
Theorem C20_winsorize_binary64 :
  forall {T : Type} {DT : IsNone T float} (m : wmethod) (p : option float) (xs : list T) (r : list float),
    winsorize (NF := Run.RunC12.NumFloorF64) m p xs = Ok (Some r) ->
    length r = length xs /\
    (forall i x, nth_error xs i = Some x -> Num.is_none x = true -> nth_error r i = Some PrimFloat.nan) /\
    exists lo hi,
      (forall i x, nth_error xs i = Some x ->
         exists y, nth_error r i = Some y /\ PrimFloat.is_nan y = PrimFloat.is_nan (tcast x) /\
           (y = tcast x \/ (PrimFloat.is_nan (tcast x) = false /\ ((PrimFloat.ltb (tcast x) lo = true /\ y = lo) \/ (PrimFloat.ltb hi (tcast x) = true /\ y = hi))))) /\
      ((PrimFloat.is_nan lo = false -> PrimFloat.is_nan hi = false -> PrimFloat.ltb hi lo = false) ->
       forall i j x x', nth_error xs i = Some x -> nth_error xs j = Some x' ->
         PrimFloat.is_nan (tcast x) = false -> PrimFloat.is_nan (tcast x') = false -> PrimFloat.ltb (tcast x') (tcast x) = false ->
         exists y y', nth_error r i = Some y /\ nth_error r j = Some y' /\ PrimFloat.ltb y' y = false /\
                      (PrimFloat.is_nan lo = false -> PrimFloat.ltb y lo = false) /\ (PrimFloat.is_nan hi = false -> PrimFloat.ltb hi y = false)).
Proof.
  intros T DT m p xs r Hr. assert (Hnan : nisnan (nnan : float) = true) by reflexivity.
  split; [apply (winsorize_returns m p xs r Hr)|].
  split; [intros i x Hi Hx; exact (winsorize_keeps_nulls m p xs r Hnan Hr i x Hi Hx)|].
  destruct (winsorize_clip_form m p xs r Hnan Hr) as (lo & hi & ->). exists lo, hi.
  split; [exact (clipped_returns lo hi xs)|exact (clipped_ordered ordlaws_F64 lo hi xs)].
Qed.

(* (A4) option R, the parameters the quantifier leaves out.  EVERY method, EVERY parameter (omitted, NaN, any real): never a
        panic; an Err exactly for the Quantile method with q NaN or outside [0, 1]; otherwise the input or one clip_series *)
Local Open Scope R_scope.
Theorem C20_winsorize_every_parameter :
  forall (m : wmethod) (p : option XR) (xs : list XR),
    let rejected := m = WQuantile /\ (weff m p = None \/ exists q, weff m p = Some q /\ ~ 0 <= q <= 1) in
    (rejected /\ winsorize (DT := IsNoneXR) m p xs = Ok None) \/
    (~ rejected /\ exists r, winsorize (DT := IsNoneXR) m p xs = Ok (Some r) /\
                             (r = xs \/ exists lo hi, r = clip_series lo hi xs)).
Proof. exact winsorize_total_xr. Qed.

(* the closed forms hold beyond the quantifier: Quantile for every 0 <= q <= 1 (bounds ordered for q <= 1/2, REVERSED for
   q >= 1/2), Median and Sigma for every real multiplier (bounds reversed for k <= 0) and for k = NaN (series unchanged) *)
Theorem C20_winsorize_quantile_any_q :
  forall (xs : list XR) (q : R) (s : list R),
    0 <= q <= 1 -> Sorted Rle s -> Permutation s (valid xs) -> s <> [] ->
    let lo := quantile_spec s q Linear in let hi := quantile_spec s (1 - q) Linear in
    winsorize (DT := IsNoneXR) WQuantile (Some (Some q)) xs = Ok (Some (clip_series lo hi xs)) /\
    (q <= 1 / 2 -> lo <= hi) /\ (1 / 2 <= q -> hi <= lo).
Proof.
  intros xs q s Hq Hs HP Hne lo hi. split; [apply winsorize_quantile; assumption|].
  split; intros H; [apply quantile_bounds_ordered|apply quantile_bounds_reversed]; try assumption; lra.
Qed.

Theorem C20_winsorize_median_any_k :
  forall (xs : list XR) (k : XR) (s s' : list R),
    Sorted Rle s -> Permutation s (valid xs) -> s <> [] ->
    let med := quantile_spec s (1 / 2) Linear in
    Sorted Rle s' -> Permutation s' (map (fun x => Rabs (x - med)) (valid xs)) ->
    let mad := quantile_spec s' (1 / 2) Linear in
    winsorize (DT := IsNoneXR) WMedian (Some k) xs
      = Ok (Some (match k with Some k => clip_series (med - k * mad) (med + k * mad) xs | None => xs end))
    /\ 0 <= mad /\ (forall k', k = Some k' -> k' <= 0 -> med + k' * mad <= med - k' * mad).
Proof.
  intros xs k s s' Hs HP Hne med Hs' HP' mad.
  assert (Hmad : 0 <= mad) by (apply (mad_nonneg s s' (valid xs) med); assumption).
  split; [apply winsorize_median; assumption|]. split; [exact Hmad|].
  intros k' _ Hk'. apply median_bounds_reversed; assumption.
Qed.

Theorem C20_winsorize_sigma_any_k :
  forall (xs : list XR) (k : XR),
    let V := valid xs in
    winsorize (DT := IsNoneXR) WSigma (Some k) xs
      = Ok (Some (match k with
                  | None => xs
                  | Some k => if (length V <? 2)%nat then xs
                              else if Rle_dec (popvarR V) EPS then xs
                              else clip_series (meanR V - k * sqrt (samplevarR V)) (meanR V + k * sqrt (samplevarR V)) xs
                  end))
    /\ (forall k', k = Some k' -> k' <= 0 -> meanR V + k' * sqrt (samplevarR V) <= meanR V - k' * sqrt (samplevarR V)).
Proof.
  intros xs k V. split; [destruct k as [k|]; [apply (winsorize_sigma xs (Some k))|apply winsorize_sigma_nan]|].
  intros k' _ Hk'. apply sigma_bounds_reversed. exact Hk'.
Qed.

Theorem C20_winsorize_nan_parameter :
  forall (m : wmethod) (xs : list XR),
    winsorize (DT := IsNoneXR) m (Some None) xs = match m with WQuantile => Ok None | _ => Ok (Some xs) end.
Proof.
  intros m xs. destruct m; [apply winsorize_quantile_nan|apply winsorize_median_nan|apply winsorize_sigma_nan].
Qed.

(* just outside the quantifier (q in (1/2, 1], k < 0) the code still returns a series but it is NOT a clip to an interval:
   the bounds are reversed, every valid value below the first bound moves UP onto it, every other one onto the second *)
Theorem C20_winsorize_reversed_scope :
  forall (m : wmethod) (p : R) (xs : list XR),
    wparam_reversed m p ->
    exists r, winsorize (DT := IsNoneXR) m (Some (Some p)) xs = Ok (Some r) /\
              (r = xs \/ exists lo hi, hi <= lo /\ r = clip_series lo hi xs /\
                                       r = map (option_map (fun x => if Rlt_dec x lo then lo else hi)) xs).
Proof.
  intros m p xs Hp. destruct (winsorize_bounds m p xs) as [E|(lo & hi & Hb & E)].
  - intros ->. cbn in Hp. lra.
  - exists xs. split; [exact E|left; reflexivity].
  - eexists. split; [exact E|]. right. exists lo, hi. pose proof (wbounds_reversed m p lo hi Hp Hb) as Hrev.
    split; [exact Hrev|]. split; [reflexivity|apply clip_series_reversed; exact Hrev].
Qed.

(* ... so the scope hypothesis of C20_winsorize_order_preserving is EXACTLY needed: at q = 1 and at k = -1 the series
   [1; 2; 3] becomes [3; 3; 1], and 2 <= 3 is mapped to 3 > 1 *)
Theorem C20_winsorize_scope_needed :
  winsorize (DT := IsNoneXR) WQuantile (Some (Some 1)) [Some 1; Some 2; Some 3] = Ok (Some [Some 3; Some 3; Some 1]) /\
  winsorize (DT := IsNoneXR) WMedian (Some (Some (-1))) [Some 1; Some 2; Some 3] = Ok (Some [Some 3; Some 3; Some 1]) /\
  ~ (forall i j x x' y y', nth_error [Some 1; Some 2; Some 3] i = Some (Some x) ->
       nth_error [Some 1; Some 2; Some 3] j = Some (Some x') ->
       nth_error [Some 3; Some 3; Some 1] i = Some (Some y) -> nth_error [Some 3; Some 3; Some 1] j = Some (Some y') ->
       x <= x' -> y <= y').
Proof.
  destruct sorted_123 as [Hs HP]. split; [|split].
  - (* Quantile, q = 1: bounds (Q(1), Q(0)) = (3, 1) *)
    rewrite (winsorize_quantile [Some 1; Some 2; Some 3] 1 [1; 2; 3] ltac:(lra) Hs HP ltac:(discriminate)).
    rewrite q123_1, q123_0, clip_31_123. reflexivity.
  - (* Median, k = -1: median 2, MAD = median of [1; 0; 1] = 1, bounds (3, 1) *)
    assert (Hs' : Sorted Rle [0; 1; 1]) by (repeat constructor; lra).
    assert (HP' : Permutation [0; 1; 1]
                    (map (fun x => Rabs (x - quantile_spec [1; 2; 3] (1 / 2) Linear)) (valid [Some 1; Some 2; Some 3]))).
    { rewrite q_half_3. cbn [valid flat_map app map].
      replace (Rabs (1 - 2)) with 1 by (rewrite Rabs_left; lra).
      replace (Rabs (2 - 2)) with 0 by (rewrite Rabs_right; lra).
      replace (Rabs (3 - 2)) with 1 by (rewrite Rabs_right; lra).
      apply perm_swap. }
    rewrite (winsorize_median [Some 1; Some 2; Some 3] (Some (-1)) [1; 2; 3] [0; 1; 1] Hs HP ltac:(discriminate) Hs' HP').
    rewrite !q_half_3. replace (2 - -1 * 1) with 3 by lra. replace (2 + -1 * 1) with 1 by lra.
    rewrite clip_31_123. reflexivity.
  - (* 2 <= 3 but 3 > 1 *)
    intros H. specialize (H 1%nat 2%nat 2 3 3 1 eq_refl eq_refl eq_refl eq_refl ltac:(lra)). lra.
Qed.
Local Close Scope R_scope.

(* (A5) half_life over ANY oracle (len >= 1): never out of fuel; either the oracle fails somewhere on the doubling sequence
        1, 2, 4, .. up to the first power of two >= len, and then the result is a lag in range; or it is true on all of it,
        and then `n - last_n` underflows.  So "the test is false for lags >= len" is needed at exactly one lag. *)
Theorem C20_half_life_any_oracle :
  forall (above : nat -> bool) (len : nat), 1 <= len ->
    (exists j, first_fail above j /\ prev_pow j < len /\
       exists r, half_life above len = Some (Ok r) /\ r <= len - 1 /\ (r = 0 <-> len < 2)) \/
    ((forall t, prev_pow t < len -> above (2 ^ t) = true) /\ half_life above len = Some (Panic Underflow)).
Proof. exact half_life_any_oracle. Qed.

Theorem C20_half_life_panics_iff :
  forall (above : nat -> bool) (len : nat), 1 <= len ->
    (half_life above len = Some (Panic Underflow) <-> forall t, prev_pow t < len -> above (2 ^ t) = true).
Proof. exact half_life_panics_iff. Qed.

Theorem C20_half_life_oracle_hypothesis_needed :
  exists (above : nat -> bool) (len : nat), 1 <= len /\ half_life above len = Some (Panic Underflow).
Proof. exists (fun _ => true), 3. split; [lia|reflexivity]. Qed.

(* the threshold theorem for EVERY L (L = 0, "never above", behaves as L = 1) *)
Theorem C20_half_life_oracle_threshold_any_L :
  forall (above : nat -> bool) (len L : nat),
    1 <= len -> (forall k, len <= k -> above k = false) ->
    (forall k, 1 <= k -> above k = (k <? L)) ->
    half_life above len = Some (Ok (Nat.min (Nat.max L 1) (len - 1))).
Proof. intros above len L Hlen Hout Hthr. apply half_life_threshold; assumption. Qed.

(* (A6) the executable half_life at EVERY carrier (binary64 included) and every element type whose T::none() is a null:
        totality needs only that the carrier's NaN tests as NaN *)
Theorem C20_autocorr_beyond_length_any_carrier :
  forall {A : Type} {NA : Num A} {T : Type} {DT : IsNone T A} (mp : nat) (nv : T) (xs : list T) (lag : nat),
    nisnan (nnan : A) = true -> Num.is_none nv = true -> length xs <= lag ->
    autocorr (DT := DT) mp nv xs lag = nnan /\ above_half (DT := DT) mp nv xs lag = false.
Proof.
  intros A NA T DT mp nv xs lag Hnan Hnv H. split; [apply autocorr_out|apply above_half_out]; assumption.
Qed.

Theorem C20_half_life_total_any_carrier :
  forall {A : Type} {NA : Num A} {T : Type} {DT : IsNone T A} (dm : NullDict T A) (mp : option nat) (nv : T) (xs : list T),
    nisnan (nnan : A) = true -> MapOps.none dm = Ok nv -> Num.is_none nv = true ->
    exists r, half_life_exec (DT := DT) dm mp xs = Some (Ok r) /\
              r <= length xs - 1 /\ (r = 0 <-> length xs < 2).
Proof. intros A NA T DT dm mp nv xs Hnan. apply half_life_exec_total. exact Hnan. Qed.

Theorem C20_half_life_threshold_any_carrier :
  forall {A : Type} {NA : Num A} {T : Type} {DT : IsNone T A} (dm : NullDict T A) (mp : option nat) (nv : T) (xs : list T) (L : nat),
    nisnan (nnan : A) = true -> MapOps.none dm = Ok nv -> Num.is_none nv = true -> xs <> [] ->
    (forall k, 1 <= k -> above_half (DT := DT) (mp_default mp (length xs)) nv xs k = (k <? L)) ->
    half_life_exec (DT := DT) dm mp xs = Some (Ok (Nat.min (Nat.max L 1) (length xs - 1))).
Proof. intros A NA T DT dm mp nv xs L Hnan. apply half_life_exec_threshold. exact Hnan. Qed.

Theorem C20_half_life_probe_sequence_any_carrier :
  forall {A : Type} {NA : Num A} {T : Type} {DT : IsNone T A} (dm : NullDict T A) (mp : option nat) (nv : T) (xs : list T),
    nisnan (nnan : A) = true -> MapOps.none dm = Ok nv -> Num.is_none nv = true -> xs <> [] ->
    let len := length xs in
    let ab := above_half (DT := DT) (mp_default mp len) nv xs in
    exists j r,
      first_fail ab j /\
      half_life_exec (DT := DT) dm mp xs = Some (Ok r) /\
      (let n := Nat.min (2 ^ j) (len - 1) in let last := prev_pow j in
       half_life_tr ab len = (Some (Ok r), pows 0 (S j) ++ mids ab (n - last) n last) /\
       Forall (fun m => last < m < n) (mids ab (n - last) n last)) /\
      prev_pow j <= r <= Nat.min (2 ^ j) (len - 1) /\ (prev_pow j < len - 1 -> prev_pow j < r) /\
      (r = len - 1 \/ (ab r = false /\ (r = 1 \/ ab (r - 1) = true))).
Proof. intros A NA T DT dm mp nv xs Hnan Hn Hnv Hne len ab. exact (half_life_exec_probes dm Hnan mp nv xs Hn Hnv Hne). Qed.

Theorem C20_half_life_int_none_panics_any_carrier :
  forall {A : Type} {NA : Num A} {T : Type} {DT : IsNone T A} (dm : NullDict T A) (mp : option nat) (k : panic_kind) (xs : list T),
    MapOps.none dm = Panic k ->
    half_life_exec (DT := DT) dm mp xs = if length xs =? 0 then Some (Ok 0) else Some (Panic k).
Proof. intros A NA T DT dm mp k xs. apply half_life_exec_none_panics. Qed.

(* binary64, on the three dictionaries the correspondence run executes (Run/RunC20.v: mF, mO, mN) *)
Theorem C20_half_life_binary64 :
  (forall (mp : option nat) (xs : list float),
     exists r, half_life_exec (DT := IsNoneF64) Run.RunC20.mF mp xs = Some (Ok r) /\
               r <= length xs - 1 /\ (r = 0 <-> length xs < 2)) /\
  (forall (mp : option nat) (xs : list (option float)),
     exists r, half_life_exec (DT := IsNoneOptF64) Run.RunC20.mO mp xs = Some (Ok r) /\
               r <= length xs - 1 /\ (r = 0 <-> length xs < 2)) /\
  (forall (mp : option nat) (xs : list float),
     half_life_exec (DT := Run.RunC20.Dn20) Run.RunC20.mN mp xs
     = if length xs =? 0 then Some (Ok 0) else Some (Panic OtherPanic)).
Proof.
  split; [|split].
  - intros mp xs. eapply half_life_exec_total; reflexivity.
  - intros mp xs. eapply half_life_exec_total; reflexivity.
  - intros mp xs. apply half_life_exec_none_panics. reflexivity.
Qed.

(* (A7) vcorr, the Pearson arm (agg.rs:44): every carrier, every dictionary.  min_periods defaults to half the length of
        the FIRST series; unequal lengths are zipped (the longer series is cut, the default is not recomputed) *)
Theorem C20_vcorr_pearson_arm :
  forall {A : Type} {NA : Num A} {T : Type} {DT : IsNone T A} {DX : IsNoneX T A} (mp : option nat) (xs ys : list T),
    vcorr (DT := DT) (DX := DX) mp false xs ys
    = Some (vcorr_pearson (DT := DT) (DT2 := DT) (@idA A) (mp_default mp (length xs)) xs ys).
Proof. intros A NA T DT DX. exact vcorr_pearson_arm. Qed.

Theorem C20_vcorr_pearson_arm_truncates :
  forall {A : Type} {NA : Num A} {T : Type} {DT : IsNone T A} {DX : IsNoneX T A} (mp : option nat) (xs ys : list T),
    let n := Nat.min (length xs) (length ys) in
    vcorr (DT := DT) (DX := DX) mp false xs ys
    = vcorr (DT := DT) (DX := DX) (Some (mp_default mp (length xs))) false (firstn n xs) (firstn n ys).
Proof.
  intros A NA T DT DX mp xs ys n. rewrite !vcorr_pearson_arm. cbn [mp_default]. unfold vcorr_pearson.
  rewrite <- combine_firstn. rewrite firstn_all2; [reflexivity|]. rewrite combine_length. apply Nat.le_refl.
Qed.

Local Open Scope R_scope.
Theorem C20_vcorr_pearson_textbook :
  forall (mp : option nat) (xs ys : list XR),
    let P := rpairs (DT := IsNoneXR) (DT2 := IsNoneXR) (fun x : XR => x) xs ys in
    vcorr (DT := IsNoneXR) (DX := IsNoneXXR) mp false xs ys
    = Some (if (length P <? Nat.max (mp_default mp (length xs)) 2)%nat then None
            else if Rlt_dec EPS (popvarR (xs_of P)) then
                   (if Rlt_dec EPS (popvarR (ys_of P)) then Some (corrR P) else None)
                 else None).
Proof. exact vcorr_pearson_arm_textbook. Qed.

Theorem C20_vcorr_pearson_textbook_opt :
  forall (mp : option nat) (xs ys : list XR),
    let P := rpairs (DT := IsNoneXR) (DT2 := IsNoneXR) (fun x : XR => x) xs ys in
    vcorr (DT := DOpt) (DX := DXOpt) mp false (enc_opt xs) (enc_opt ys)
    = Some (if (length P <? Nat.max (mp_default mp (length (enc_opt xs))) 2)%nat then None
            else if Rlt_dec EPS (popvarR (xs_of P)) then
                   (if Rlt_dec EPS (popvarR (ys_of P)) then Some (corrR P) else None)
                 else None).
Proof. intros mp xs ys. rewrite vcorr_opt, length_enc_opt. exact (vcorr_pearson_arm_textbook mp xs ys). Qed.

Theorem C20_vcorr_pearson_textbook_i32 :
  forall (mp : option nat) (xs ys : list Z),
    let P := rpairs (DT := IsNoneXR) (DT2 := IsNoneXR) (fun x : XR => x) (cast_i32 xs) (cast_i32 ys) in
    vcorr (DT := DInt) (DX := DXInt) mp false (cast_i32 xs) (cast_i32 ys)
    = Some (if (length P <? Nat.max (mp_default mp (length xs)) 2)%nat then None
            else if Rlt_dec EPS (popvarR (xs_of P)) then
                   (if Rlt_dec EPS (popvarR (ys_of P)) then Some (corrR P) else None)
                 else None).
Proof.
  intros mp xs ys. rewrite vcorr_i32, <- (length_cast_i32 xs). exact (vcorr_pearson_arm_textbook mp (cast_i32 xs) (cast_i32 ys)).
Qed.

(* (A8) the Option<f64> and i32 renderings of (A4), and the Sigma method on fewer than two valid elements (every carrier):
        winsorize calls vmean_var(2), so that case is the `n < min_periods` branch — (NaN, NaN), series unchanged; the
        `n < 2 -> (m1, NaN)` line of vmean_var (tea-core/src/agg.rs:340) is not reachable from winsorize *)
Local Open Scope R_scope.
Theorem C20_winsorize_every_parameter_opt :
  forall (m : wmethod) (p : option XR) (xs : list XR),
    let rejected := m = WQuantile /\ (weff m p = None \/ exists q, weff m p = Some q /\ ~ 0 <= q <= 1) in
    (rejected /\ winsorize (DT := DOpt) m p (enc_opt xs) = Ok None) \/
    (~ rejected /\ exists r, winsorize (DT := DOpt) m p (enc_opt xs) = Ok (Some r) /\
                             (r = xs \/ exists lo hi, r = clip_series lo hi xs)).
Proof. intros m p xs. rewrite winsorize_opt. exact (winsorize_total_xr m p xs). Qed.

Theorem C20_winsorize_every_parameter_i32 :
  forall (m : wmethod) (p : option XR) (zs : list Z),
    let rejected := m = WQuantile /\ (weff m p = None \/ exists q, weff m p = Some q /\ ~ 0 <= q <= 1) in
    (rejected /\ winsorize (DT := DInt) m p (cast_i32 zs) = Ok None) \/
    (~ rejected /\ exists r, winsorize (DT := DInt) m p (cast_i32 zs) = Ok (Some r) /\
                             (r = cast_i32 zs \/ exists lo hi, r = clip_series lo hi (cast_i32 zs))).
Proof. intros m p zs. rewrite winsorize_i32. exact (winsorize_total_xr m p (cast_i32 zs)). Qed.
Local Close Scope R_scope.

Theorem C20_sigma_single_valid_is_min_periods_branch :
  forall {A : Type} {NA : Num A} {NF : NumFloor A} {T : Type} {DT : IsNone T A} (p : option A) (xs : list T),
    nisnan (nnan : A) = true -> length (vals xs) < 2 ->
    Agg.vmean_var (@idA A) 2 xs = (nnan, nnan) /\ winsorize WSigma p xs = Ok (Some (iter_cast xs)).
Proof.
  intros A NA NF T DT p xs Hnan H. split; [apply vmean_var_mp2_short; exact H|apply winsorize_sigma_short; assumption].
Qed.

Example C20_ex_sigma_single_valid :
  length (vals (DT := IsNoneXR) [None; Some 2%R; None]) < 2.
Proof. cbn. lia. Qed.

(* binary64 satisfies the order laws (FloatAxioms.{ltb,leb,eqb}_spec) and its NaN tests as NaN *)
Example C20_ex_ordered_carrier : OrdLaws float /\ nisnan (nnan : float) = true.
Proof. split; [exact ordlaws_F64|reflexivity]. Qed.

Example C20_ex_reversed_scope : wparam_reversed WQuantile 1 /\ wparam_reversed WMedian (-1) /\ wparam_reversed WSigma (-1 / 2).
Proof. cbn. lra. Qed.

Local Close Scope R_scope.

(* both cases of C20_half_life_any_oracle occur; an oracle that is true beyond len but fails on the doubling sequence is fine *)
Example C20_ex_any_oracle :
  half_life (fun _ => true) 3 = Some (Panic Underflow) /\
  half_life (fun k => negb (k =? 2)) 3 = Some (Ok 2) /\ first_fail (fun k => negb (k =? 2)) 1 /\
  half_life (fun k => k <? 0) 5 = Some (Ok 1).
Proof.
  split; [reflexivity|]. split; [reflexivity|]. split; [|reflexivity].
  split; [reflexivity|]. intros i Hi. destruct i; [reflexivity|lia].
Qed.

(* binary64 examples (float literals need the PrimFloat notations) *)
Import PrimFloat.
(* the binary64 run of C20_ex_winsorize_quantile: hypothesis of C20_winsorize_returns / _binary64 *)
Example C20_ex_winsorize_binary64 :
  winsorize (DT := IsNoneF64) (NF := Run.RunC12.NumFloorF64) WQuantile (Some 0.5%float) [4%float; PrimFloat.nan; 1%float; 2%float]
  = Ok (Some [2%float; PrimFloat.nan; 2%float; 2%float]).
Proof. vm_compute. reflexivity. Qed.

Example C20_ex_clip_inside : clipA (1%float) (3%float) (2%float) = 2%float /\ clipA PrimFloat.nan PrimFloat.nan (7%float) = 7%float.
Proof. split; vm_compute; reflexivity. Qed.

Example C20_ex_half_life_binary64 :
  half_life_exec (DT := IsNoneF64) Run.RunC20.mF (Some 1) [1%float; 2%float; 4%float; 8%float; 9%float; 12%float] = Some (Ok 5).
Proof. vm_compute. reflexivity. Qed.

Print Assumptions C20_winsorize_quantile.
Print Assumptions C20_winsorize_median.
Print Assumptions C20_winsorize_sigma.
Print Assumptions C20_winsorize_no_valid.
Print Assumptions C20_winsorize_rejects_bad_q.
Print Assumptions C20_winsorize_default.
Print Assumptions C20_winsorize_acts_as_clip.
Print Assumptions C20_clip_laws.
Print Assumptions C20_winsorize_order_preserving.
Print Assumptions C20_quantile_monotone.
Print Assumptions C20_rank_is_average_rank.
Print Assumptions C20_spearman.
Print Assumptions C20_spearman_textbook.
Print Assumptions C20_rank_invariant.
Print Assumptions C20_spearman_invariant.
Print Assumptions C20_half_life_oracle_total.
Print Assumptions C20_half_life_empty.
Print Assumptions C20_half_life_probes_from_1.
Print Assumptions C20_half_life_oracle_threshold.
Print Assumptions C20_half_life_total.
Print Assumptions C20_half_life_total_f64.
Print Assumptions C20_half_life_threshold.
Print Assumptions C20_autocorr_beyond_length.
Print Assumptions C20_half_life_int_none_panics.
Print Assumptions C20_winsorize_encoding.
Print Assumptions C20_vcorr_encoding.
Print Assumptions C20_half_life_encoding.
Print Assumptions C20_encodings_option_i32.
Print Assumptions C20_winsorize_quantile_opt.
Print Assumptions C20_winsorize_quantile_i32.
Print Assumptions C20_winsorize_median_opt.
Print Assumptions C20_winsorize_median_i32.
Print Assumptions C20_winsorize_sigma_opt.
Print Assumptions C20_winsorize_sigma_i32.
Print Assumptions C20_winsorize_no_valid_opt.
Print Assumptions C20_winsorize_no_valid_i32.
Print Assumptions C20_winsorize_acts_as_clip_opt.
Print Assumptions C20_winsorize_acts_as_clip_i32.
Print Assumptions C20_winsorize_order_preserving_opt.
Print Assumptions C20_winsorize_order_preserving_i32.
Print Assumptions C20_rank_is_average_rank_opt.
Print Assumptions C20_rank_is_average_rank_i32.
Print Assumptions C20_spearman_opt.
Print Assumptions C20_spearman_i32.
Print Assumptions C20_spearman_textbook_opt.
Print Assumptions C20_spearman_textbook_i32.
Print Assumptions C20_spearman_invariant_opt.
Print Assumptions C20_spearman_invariant_i32.
Print Assumptions C20_half_life_opt.
Print Assumptions C20_half_life_trace_erasure.
Print Assumptions C20_half_life_first_fail_unique.
Print Assumptions C20_half_life_probe_sequence_oracle.
Print Assumptions C20_half_life_bisection.
Print Assumptions C20_half_life_crossing.
Print Assumptions C20_half_life_probe_sequence.
Print Assumptions C20_autocorr_textbook.
Print Assumptions C20_autocorr_defined_iff_enough_pairs.
Print Assumptions C20_above_half_iff.
Print Assumptions C20_autocorr_all_valid.
Print Assumptions C20_winsorize_shape.
Print Assumptions C20_winsorize_returns.
Print Assumptions C20_winsorize_keeps_nulls.
Print Assumptions C20_winsorize_sigma_never_fails.
Print Assumptions C20_clip_inside_unchanged.
Print Assumptions C20_clip_ordered_carrier.
Print Assumptions C20_winsorize_order_preserving_ordered.
Print Assumptions C20_winsorize_binary64.
Print Assumptions C20_winsorize_every_parameter.
Print Assumptions C20_winsorize_quantile_any_q.
Print Assumptions C20_winsorize_median_any_k.
Print Assumptions C20_winsorize_sigma_any_k.
Print Assumptions C20_winsorize_nan_parameter.
Print Assumptions C20_winsorize_reversed_scope.
Print Assumptions C20_winsorize_scope_needed.
Print Assumptions C20_half_life_any_oracle.
Print Assumptions C20_half_life_panics_iff.
Print Assumptions C20_half_life_oracle_hypothesis_needed.
Print Assumptions C20_half_life_oracle_threshold_any_L.
Print Assumptions C20_autocorr_beyond_length_any_carrier.
Print Assumptions C20_half_life_total_any_carrier.
Print Assumptions C20_half_life_threshold_any_carrier.
Print Assumptions C20_half_life_probe_sequence_any_carrier.
Print Assumptions C20_half_life_int_none_panics_any_carrier.
Print Assumptions C20_half_life_binary64.
Print Assumptions C20_vcorr_pearson_arm.
Print Assumptions C20_vcorr_pearson_arm_truncates.
Print Assumptions C20_vcorr_pearson_textbook.
Print Assumptions C20_vcorr_pearson_textbook_opt.
Print Assumptions C20_vcorr_pearson_textbook_i32.
Print Assumptions C20_winsorize_every_parameter_opt.
Print Assumptions C20_winsorize_every_parameter_i32.
Print Assumptions C20_sigma_single_valid_is_min_periods_branch.
