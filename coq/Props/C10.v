(* Props/C10.v — property C10: kernels never index out of bounds and initialise every output slot
   exactly once.  Statements about the drivers' access traces (Model/Kernels.v), for every series
   length, every window (0 and > len included) and every second-series length.  Axiom-free, except
   C10_vquantile_vmedian_never_panic_real of (11) (carrier option R: the Reals axioms and functional
   extensionality) and the binary64 section (its axioms are named at its head).                    *)
From Tevec Require Import Base.Prelude Model.Driver Proofs.Driver Model.Kernels Proofs.Kernels.
(* the kernels themselves inside the trace model: parts (6)-(11) *)
From Coq Require Import ZArith Permutation.
From Tevec Require Import Base.Num Base.XR Model.Features Model.Cmp Model.Norm Model.Binary Model.Reg Proofs.IdxRun Proofs.IdxPrefix
     Proofs.Kernels2 Proofs.Kernels3 Model.SortCmp Model.Rank Model.Partition Model.Quantile Model.KernelsMap
     Proofs.TransQuantile Proofs.KernelsMap Proofs.KernelsMap2 Proofs.OrderXR Proofs.KernelsXR.
(* the kernel traces step by step: part (12) *)
From Tevec Require Import Model.KernelSteps Proofs.KernelSteps Model.KernelsMapFast Proofs.KernelsMapFast.

(* (1) unchecked element reads and output writes of the remove/add bodies are in bounds *)
Theorem C10_apply_reads_in_bounds :
  forall w len len2, Forall (acc_ok len len2) (trace_apply_to w len).
Proof.
  intros w len len2. apply calls_to_Forall. intros slot [r|] Hs Hr; [specialize (Hr r eq_refl)|];
    repeat (apply Forall_cons; [cbn; lia|]); apply Forall_nil.
Qed.

Theorem C10_apply2_reads_in_bounds :
  forall w len len2, len <= len2 -> Forall (acc_ok len len2) (trace_apply2_to w len).
Proof.
  intros w len len2 Hl. apply calls_to_Forall. intros slot [r|] Hs Hr; [specialize (Hr r eq_refl)|];
    repeat (apply Forall_cons; [cbn; lia|]); apply Forall_nil.
Qed.

(* (2) window-index bodies: the driver's read is in bounds, and so is every read of a callback that
   stays inside its window start.unwrap_or(0) ..= end (the rescans of cmp.rs / norm.rs / reg.rs) *)
Theorem C10_idx_reads_in_bounds :
  forall cb w len len2, cb_reads_in_window cb -> len <= len2 ->
    Forall (acc_ok len len2) (trace_idx_to cb w len).
Proof.
  intros cb w len len2 Hcb Hl. apply trace_idx_to_Forall. intros st e He. apply cb_reads_ok; assumption.
Qed.

Theorem C10_idx2_reads_in_bounds :
  forall cb w len len2, cb_reads_in_window cb -> len <= len2 ->
    Forall (acc_ok len len2) (trace_idx2_to cb w len).
Proof.
  intros cb w len len2 Hcb Hl. apply calls_to_idx_Forall. intros slot st Hs.
  do 2 (apply Forall_cons; [cbn; lia|]). apply Forall_app. split; [apply cb_reads_ok; assumption|].
  apply Forall_cons; [exact Hs|apply Forall_nil].
Qed.

(* (3) slice forms pass only ranges 0 <= start <= end <= len *)
Theorem C10_slices_in_bounds_buffer :
  forall w len len2, Forall (acc_ok len len2) (trace_custom_to w len).
Proof.
  intros w len len2. apply Forall_flat_map, Forall_forall. intros [slot [st e]] Hin.
  destruct w as [|w]; [destruct Hin|].
  rewrite slices_to_spec in Hin by lia. apply in_map_iff in Hin. destruct Hin as (i & E & Hi).
  injection E as <- <- <-. apply in_seq in Hi. unfold wstart.
  repeat (apply Forall_cons; [cbn; lia|]). apply Forall_nil.
Qed.

Theorem C10_slices_in_bounds_lazy :
  forall w len len2, 1 <= w -> Forall (acc_ok len len2) (trace_custom_iter w len).
Proof. exact trace_custom_iter_ok. Qed.

Theorem C10_slices_in_bounds_two :
  forall w len len2, 1 <= w -> len <= len2 -> Forall (acc_ok len len2) (trace_custom2 w len).
Proof.
  intros w len len2 Hw Hl. unfold trace_custom2. rewrite slices_iter_spec by exact Hw.
  apply Forall_flat_map, Forall_map, Forall_forall. intros i Hi. apply in_seq in Hi. unfold wstart.
  repeat (apply Forall_cons; [cbn [acc_ok]; lia|]). apply Forall_nil.
Qed.

(* (4) every slot of the output buffer is written exactly once (the writes are 0,1,..,len-1) *)
Theorem C10_each_slot_once_apply :
  forall w len, bad_window w (seq 0 len) = false -> writes_of (trace_apply_to w len) = seq 0 len.
Proof.
  intros w len Hb. unfold trace_apply_to. rewrite flat_map_writes; [apply calls_to_slots, Hb|].
  intros [slot [[r|] v]]; reflexivity.
Qed.

Theorem C10_each_slot_once_apply2 :
  forall w len, bad_window w (seq 0 len) = false -> writes_of (trace_apply2_to w len) = seq 0 len.
Proof.
  intros w len Hb. unfold trace_apply2_to. rewrite flat_map_writes; [apply calls_to_slots, Hb|].
  intros [slot [[r|] v]]; reflexivity.
Qed.

Theorem C10_each_slot_once_idx :
  forall cb w len, (forall st e, writes_of (cb st e) = []) ->
    bad_window w (seq 0 len) = false -> writes_of (trace_idx_to cb w len) = seq 0 len.
Proof.
  intros cb w len Hcb Hb. unfold trace_idx_to. rewrite flat_map_writes; [apply calls_to_idx_slots, Hb|].
  intros [slot [[st e] v]]. cbn [writes_of flat_map app]. fold (writes_of (cb st e ++ [AUset slot])).
  rewrite writes_of_app, Hcb. reflexivity.
Qed.

Theorem C10_each_slot_once_custom :
  forall w len, bad_window w (seq 0 len) = false -> writes_of (trace_custom_to w len) = seq 0 len.
Proof.
  intros w len Hb. unfold trace_custom_to. rewrite flat_map_writes by (intros [slot [st e]]; reflexivity).
  destruct w as [|w]; [apply window0_accepted in Hb; subst len; reflexivity|].
  rewrite slices_to_spec, map_map by lia. apply map_id.
Qed.

Theorem C10_each_slot_once_write :
  forall len len2, Forall (acc_ok len len2) (trace_write len) /\ writes_of (trace_write len) = seq 0 len.
Proof. exact trace_write_ok. Qed.

(* (5) degenerate parameters: a complete result or a clean panic, never an exposed unwritten slot *)
Theorem C10_never_uninit :
  forall (T St O : Type) (w : nat) (f : St -> option T * T -> St * O) (s0 : St) (xs : list T),
    (exists out, rolling_apply_to w f s0 xs = Done out /\ length out = length xs) \/
    rolling_apply_to w f s0 xs = Panicked AssertFail.
Proof.
  intros. rewrite rolling_apply_to_total. destruct (bad_window w xs); [right; reflexivity|left].
  eexists. split; [reflexivity|]. rewrite run_length. apply mapi_length.
Qed.

Theorem C10_window0_rejected :
  forall (T St O : Type) (f : St -> option T * T -> St * O) (s0 : St) (xs : list T),
    xs <> [] ->
    rolling_apply_to 0 f s0 xs = Panicked AssertFail /\
    rolling_apply_default 0 f s0 xs = Panicked AssertFail.
Proof.
  intros T St O f s0 xs H. unfold rolling_apply_to, rolling_apply_default, bad_window.
  destruct xs; [contradiction|split; reflexivity].
Qed.

Theorem C10_empty_input :
  forall (T St O : Type) (w : nat) (f : St -> option T * T -> St * O) (s0 : St),
    rolling_apply_to w f s0 (@nil T) = Done [] /\ rolling_apply_default w f s0 (@nil T) = Done [].
Proof. intros. split; [apply empty_to|apply empty_default]. Qed.

Theorem C10_short_second_series_rejected :
  forall (T1 T2 St O : Type) (w : nat) (f : St -> option (T1 * T2) * (T1 * T2) -> St * O) (s0 : St)
         (xs : list T1) (ys : list T2),
    length ys < length xs -> rolling2_apply_to w f s0 xs ys = Panicked AssertFail.
Proof.
  intros T1 T2 St O w f s0 xs ys H. unfold rolling2_apply_to.
  replace (length ys <? length xs) with true by (symmetry; apply Nat.ltb_lt; exact H). reflexivity.
Qed.

(* non-vacuity: window 2 over 3 elements *)
Example C10_example :
  trace_apply_to 2 3 = [AUget 0 0; AUset 0; AUget 0 0; AUget 0 1; AUset 1; AUget 0 1; AUget 0 2; AUset 2].
Proof. reflexivity. Qed.


(* ======================================================================================================
   (6) the rescanning callbacks of cmp.rs / norm.rs / reg.rs inside the trace model.  `X_cb_tr` is the text of the
   model callback `X_cb` in the traced monad (every `uget` logged).  ERASURE: it computes the model value.
   READS: every access it performs is an unchecked read at an index of start.unwrap_or(0) ..= end — for every
   state, every series, EVERY CARRIER (memory safety does not depend on the element type or on its order).   *)
Theorem C10_vext_cb_traced :
  forall (A T : Type) (NA : Num A) (DT : IsNone T A) (scmp : option A -> option A -> comparison)
         (xs : list T) (mp : nat) (s : @ext A) (st : option nat) (e : nat) (v : T),
    snd (vext_cb_tr scmp mp xs s (st, e, v)) = vext_cb scmp mp xs s (st, e, v) /\
    (start_le st e -> reads_within (start_or_0 st) e (fst (vext_cb_tr scmp mp xs s (st, e, v)))).
Proof. intros. split; [apply vext_cb_tr_erase|apply vext_cb_tr_reads]. Qed.

Theorem C10_varg_cb_traced :
  forall (A T : Type) (NA : Num A) (DT : IsNone T A) (scmp : option A -> option A -> comparison)
         (xs : list T) (mp : nat) (s : @ext A) (st : option nat) (e : nat) (v : T),
    snd (varg_cb_tr scmp mp xs s (st, e, v)) = varg_cb scmp mp xs s (st, e, v) /\
    (start_le st e -> reads_within (start_or_0 st) e (fst (varg_cb_tr scmp mp xs s (st, e, v)))).
Proof. intros. split; [apply varg_cb_tr_erase|apply varg_cb_tr_reads]. Qed.

Theorem C10_vrank_cb_traced :
  forall (A T B : Type) (NA : Num A) (DT : IsNone T A) (NB : Num B) (xs : list T) (mp wm1 : nat) (pct rev : bool)
         (n : nat) (st : option nat) (e : nat) (v : T),
    snd (vrank_cb_tr (B := B) mp wm1 pct rev xs n (st, e, v)) = vrank_cb mp wm1 pct rev xs n (st, e, v) /\
    (start_le st e -> reads_within (start_or_0 st) e (fst (vrank_cb_tr (B := B) mp wm1 pct rev xs n (st, e, v)))).
Proof. intros. split; [apply vrank_cb_tr_erase|apply vrank_cb_tr_reads]. Qed.

Theorem C10_mmnorm_cb_traced :
  forall (A T : Type) (NA : Num A) (DT : IsNone T A) (tmin tmax : A) (xs : list T) (mp : nat) (s : @mm A)
         (st : option nat) (e : nat) (v : T),
    snd (mmnorm_cb_tr tmin tmax mp xs s (st, e, v)) = mmnorm_cb tmin tmax mp xs s (st, e, v) /\
    (start_le st e -> reads_within (start_or_0 st) e (fst (mmnorm_cb_tr tmin tmax mp xs s (st, e, v)))).
Proof. intros. split; [apply mmnorm_cb_tr_erase|apply mmnorm_cb_tr_reads]. Qed.

Theorem C10_resid_cb_reads_in_window :
  forall (A T1 T2 : Type) (NA : Num A) (D1 : IsNone T1 A) (D2 : IsNone T2 A) (zs : list (T1 * T2)) (k : rstat)
         (mp : nat) (s : @csum A) (st : option nat) (e : nat) (v : T1 * T2),
    start_le st e -> reads_within (start_or_0 st) e (fst (resid_cb_tr k mp zs s (st, e, v))).
Proof. intros. apply resid_cb_tr_reads. assumption. Qed.

(* (7) the access trace of a WHOLE call of each kernel (driver reads + callback reads + slot writes, threaded
   through the callback state; a panic in the callback ends the trace) is in bounds — unconditionally: every
   series, every window (0 and > len included), every min_periods, both bodies, every carrier.            *)
Theorem C10_ts_vmin_vmax_trace_in_bounds :
  forall (A T : Type) (NA : Num A) (DT : IsNone T A) (scmp : option A -> option A -> comparison)
         (body : bool) (w : nat) (mp : option nat) (xs : list T) (len2 : nat),
    length xs <= len2 -> Forall (acc_ok (length xs) len2) (trace_ts_vext scmp body w mp xs).
Proof.
  intros A T NA DT scmp body w mp xs len2 H. apply kernel_trace_ok; [|exact H].
  intros. apply vext_cb_tr_reads. assumption.
Qed.

Theorem C10_ts_vargmin_vargmax_trace_in_bounds :
  forall (A T : Type) (NA : Num A) (DT : IsNone T A) (scmp : option A -> option A -> comparison)
         (body : bool) (w : nat) (mp : option nat) (xs : list T) (len2 : nat),
    length xs <= len2 -> Forall (acc_ok (length xs) len2) (trace_ts_varg scmp body w mp xs).
Proof.
  intros A T NA DT scmp body w mp xs len2 H. apply kernel_trace_ok; [|exact H].
  intros. apply varg_cb_tr_reads. assumption.
Qed.

Theorem C10_ts_vrank_trace_in_bounds :
  forall (A T B : Type) (NA : Num A) (DT : IsNone T A) (NB : Num B)
         (body : bool) (w : nat) (mp : option nat) (pct rev : bool) (xs : list T) (len2 : nat),
    length xs <= len2 -> Forall (acc_ok (length xs) len2) (trace_ts_vrank (B := B) body w mp pct rev xs).
Proof.
  intros A T B NA DT NB body w mp pct rev xs len2 H. apply kernel_trace_ok; [|exact H].
  intros. apply vrank_cb_tr_reads. assumption.
Qed.

Theorem C10_ts_vminmaxnorm_trace_in_bounds :
  forall (A T : Type) (NA : Num A) (DT : IsNone T A) (tmin tmax : A)
         (body : bool) (w : nat) (mp : option nat) (xs : list T) (len2 : nat),
    length xs <= len2 -> Forall (acc_ok (length xs) len2) (trace_ts_vminmaxnorm tmin tmax body w mp xs).
Proof.
  intros A T NA DT tmin tmax body w mp xs len2 H. apply kernel_trace_ok; [|exact H].
  intros. apply mmnorm_cb_tr_reads. assumption.
Qed.

(* two series: every pair of lengths (a shorter second series is rejected before anything is read) *)
Theorem C10_ts_vregx_resid_trace_in_bounds :
  forall (A T1 T2 : Type) (NA : Num A) (D1 : IsNone T1 A) (D2 : IsNone T2 A) (k : rstat)
         (body : bool) (w : nat) (mp : option nat) (xs : list T1) (ys : list T2),
    Forall (acc_ok (length xs) (length ys)) (trace_ts_vregx_resid (A := A) k body w mp xs ys).
Proof.
  intros A T1 T2 NA D1 D2 k body w mp xs ys.
  unfold trace_ts_vregx_resid. destruct (body && (length ys <? length xs)); [constructor|].
  set (zs := combine xs ys).
  assert (Hz : length zs = Nat.min (length xs) (length ys)) by apply combine_length.
  eapply Forall_impl; [|apply (kernel_trace_ok _ (fun s st e v => resid_cb_tr_reads zs k _ s st e v) body true w csum0 zs (length zs)); lia].
  intros a Ha. eapply acc_ok_mono; [| |exact Ha]; lia.
Qed.

(* (8) two-phase bodies: the slots written are exactly 0..len-1, once each, in order *)
Theorem C10_each_slot_once_ts_vmin_vmax :
  forall (A T : Type) (NA : Num A) (DT : IsNone T A) (scmp : option A -> option A -> comparison)
         (w : nat) (mp : option nat) (xs : list T),
    bad_window w xs = false -> writes_of (trace_ts_vext scmp true w mp xs) = seq 0 (length xs).
Proof.
  intros A T NA DT scmp w mp xs Hb.
  apply (safe_done_writes false w (cmp_window w xs) _ (vext_cb scmp (cmp_mp mp (cmp_window w xs)) xs)).
  - intros. apply vext_cb_tr_reads. assumption.
  - intros. apply vext_cb_tr_erase.
  - exact (ts_vext_safe scmp true w mp xs).
  - exact Hb.
Qed.

Theorem C10_each_slot_once_ts_vargmin_vargmax :
  forall (A T : Type) (NA : Num A) (DT : IsNone T A) (scmp : option A -> option A -> comparison)
         (w : nat) (mp : option nat) (xs : list T),
    scmp_refl_on scmp xs -> bad_window w xs = false ->
    writes_of (trace_ts_varg scmp true w mp xs) = seq 0 (length xs).
Proof.
  intros A T NA DT scmp w mp xs Hr Hb.
  apply (safe_done_writes false w (cmp_window w xs) _ (varg_cb scmp (cmp_mp mp (cmp_window w xs)) xs)).
  - intros. apply varg_cb_tr_reads. assumption.
  - intros. apply varg_cb_tr_erase.
  - exact (ts_varg_safe scmp true w mp xs Hr).
  - exact Hb.
Qed.

Theorem C10_each_slot_once_ts_vrank :
  forall (A T B : Type) (NA : Num A) (DT : IsNone T A) (NB : Num B)
         (w : nat) (mp : option nat) (pct rev : bool) (xs : list T),
    bad_window w xs = false -> writes_of (trace_ts_vrank (B := B) true w mp pct rev xs) = seq 0 (length xs).
Proof.
  intros A T B NA DT NB w mp pct rev xs Hb.
  apply (safe_done_writes false w (cmp_window w xs) _
           (vrank_cb (B := B) (cmp_mp mp (cmp_window w xs)) (cmp_window w xs - 1) pct rev xs)).
  - intros. apply vrank_cb_tr_reads. assumption.
  - intros. apply vrank_cb_tr_erase.
  - exact (ts_vrank_safe (B := B) true w mp pct rev xs).
  - exact Hb.
Qed.

Theorem C10_each_slot_once_ts_vminmaxnorm :
  forall (A T : Type) (NA : Num A) (DT : IsNone T A) (tmin tmax : A) (w : nat) (mp : option nat) (xs : list T),
    bad_window w xs = false -> writes_of (trace_ts_vminmaxnorm tmin tmax true w mp xs) = seq 0 (length xs).
Proof.
  intros A T NA DT tmin tmax w mp xs Hb.
  apply (safe_done_writes false w w _ (mmnorm_cb tmin tmax (mp_eff mp w 0) xs)).
  - intros. apply mmnorm_cb_tr_reads. assumption.
  - intros. apply mmnorm_cb_tr_erase.
  - exact (ts_vminmaxnorm_safe tmin tmax true w mp xs).
  - exact Hb.
Qed.

Theorem C10_each_slot_once_ts_vregx_resid :
  forall (A T1 T2 : Type) (NA : Num A) (D1 : IsNone T1 A) (D2 : IsNone T2 A) (k : rstat)
         (w : nat) (mp : option nat) (xs : list T1) (ys : list T2),
    length xs <= length ys -> bad_window w xs = false ->
    writes_of (trace_ts_vregx_resid (A := A) k true w mp xs ys) = seq 0 (length xs).
Proof.
  intros A T1 T2 NA D1 D2 k w mp xs ys Hl Hb. unfold trace_ts_vregx_resid. cbn [andb].
  replace (length ys <? length xs) with false by (symmetry; apply Nat.ltb_ge; exact Hl).
  set (zs := combine xs ys).
  assert (Hz : length zs = length xs) by (unfold zs; rewrite combine_length; lia).
  rewrite <- Hz.
  apply (safe_done_writes true w w _ (fun s a => snd (resid_cb_tr k (mp_eff mp w 0) zs s a))).
  - intros. apply resid_cb_tr_reads. assumption.
  - reflexivity.
  - pose proof (ts_vregx_resid_chk_eq (A := A) k true w mp xs ys) as E.
    unfold ts_vregx_resid_chk in E. cbn [andb] in E.
    replace (length ys <? length xs) with false in E by (symmetry; apply Nat.ltb_ge; exact Hl).
    rewrite Hb in E. fold zs in E. rewrite E.
    destruct (ts_vregx_resid_safe (A := A) k true w mp xs ys) as [(out & Hd & Ho)|Hp].
    + left. exists out. split; [exact Hd|]. rewrite Ho, Hz. lia.
    + exfalso. unfold ts_vregx_resid in Hp. cbv zeta in Hp. rewrite rolling2_apply_idx_to_total in Hp.
      replace (length ys <? length xs) with false in Hp by (symmetry; apply Nat.ltb_ge; exact Hl).
      rewrite Hb in Hp. discriminate.
  - unfold bad_window in *. rewrite Hz. exact Hb.
Qed.

(* (9) the model's `uget` is a CHECKED read (out of range = Panic OtherPanic), `n -= 1` is `usub`,
   `start.unwrap()` is Panic UnwrapNone: a result `Done out` says none of them happened.  Every series, every
   window, every min_periods, both bodies, every carrier: a complete result, or the documented rejection of
   window 0 on a non-empty series — never a panic inside the callback, never `Uninit`.                    *)
Theorem C10_ts_vmin_safe :
  forall (A T : Type) (NA : Num A) (DT : IsNone T A) (body : bool) (w : nat) (mp : option nat) (xs : list T),
    kernel_safe w xs (ts_vmin body w mp xs).
Proof. intros. apply ts_vmin_safe. Qed.
Theorem C10_ts_vmax_safe :
  forall (A T : Type) (NA : Num A) (DT : IsNone T A) (body : bool) (w : nat) (mp : option nat) (xs : list T),
    kernel_safe w xs (ts_vmax body w mp xs).
Proof. intros. apply ts_vmax_safe. Qed.
(* the offset `min_idx - start` additionally needs that every non-null element equals itself (false only for
   Some(NaN) in an optional float series, outside DESIGN 5.4) *)
Theorem C10_ts_vargmin_safe :
  forall (A T : Type) (NA : Num A) (DT : IsNone T A) (body : bool) (w : nat) (mp : option nat) (xs : list T),
    self_eq_on xs -> kernel_safe w xs (ts_vargmin body w mp xs).
Proof. intros. apply ts_vargmin_safe. assumption. Qed.
Theorem C10_ts_vargmax_safe :
  forall (A T : Type) (NA : Num A) (DT : IsNone T A) (body : bool) (w : nat) (mp : option nat) (xs : list T),
    self_eq_on xs -> kernel_safe w xs (ts_vargmax body w mp xs).
Proof. intros. apply ts_vargmax_safe. assumption. Qed.
Theorem C10_ts_vargmin_vargmax_safe_int :
  forall (T : Type) (DT : IsNone T Z) (body : bool) (w : nat) (mp : option nat) (xs : list T),
    kernel_safe w xs (ts_vargmin body w mp xs) /\ kernel_safe w xs (ts_vargmax body w mp xs).
Proof. intros. split; [apply ts_vargmin_safe|apply ts_vargmax_safe]; apply self_eq_on_Z. Qed.
Theorem C10_ts_vrank_safe :
  forall (A T B : Type) (NA : Num A) (DT : IsNone T A) (NB : Num B)
         (body : bool) (w : nat) (mp : option nat) (pct rev : bool) (xs : list T),
    kernel_safe w xs (ts_vrank (B := B) body w mp pct rev xs).
Proof. intros. apply ts_vrank_safe. Qed.
Theorem C10_ts_vminmaxnorm_safe :
  forall (A T : Type) (NA : Num A) (DT : IsNone T A) (tmin tmax : A)
         (body : bool) (w : nat) (mp : option nat) (xs : list T),
    kernel_safe w xs (ts_vminmaxnorm tmin tmax body w mp xs).
Proof. intros. apply ts_vminmaxnorm_safe. Qed.
(* reg.rs residual statistics: the CHECKED text (reads through `uget`, `n -= 1` through `usub`) returns exactly
   what the pure model of Model/Reg.v returns, for every window, every pair of lengths, both bodies *)
Theorem C10_ts_vregx_resid_checked :
  forall (A T1 T2 : Type) (NA : Num A) (D1 : IsNone T1 A) (D2 : IsNone T2 A) (k : rstat)
         (body : bool) (w : nat) (mp : option nat) (xs : list T1) (ys : list T2),
    ts_vregx_resid_chk (A := A) k body w mp xs ys = ts_vregx_resid k body w mp xs ys.
Proof. intros. apply ts_vregx_resid_chk_eq. Qed.
Theorem C10_ts_vregx_resid_safe :
  forall (A T1 T2 : Type) (NA : Num A) (D1 : IsNone T1 A) (D2 : IsNone T2 A) (k : rstat)
         (body : bool) (w : nat) (mp : option nat) (xs : list T1) (ys : list T2),
    (exists out, ts_vregx_resid (A := A) k body w mp xs ys = Done out /\
                 length out = Nat.min (length xs) (length ys)) \/
    ts_vregx_resid (A := A) k body w mp xs ys = Panicked AssertFail.
Proof. intros. apply ts_vregx_resid_safe. Qed.

(* (10) vrank (tea-map): the checked, traced text (series = view 0, internal Vec<usize> idx_sorted = view 2, both of
   length len; `i - j` and `len - repeat_num` through `usub`) performs only in-bounds accesses, never panics and
   returns the value of Model/Rank.v — every series (empty, one element, all null), both flags, every carrier *)
Theorem C10_vrank_checked :
  forall (A T : Type) (NA : Num A) (DT : IsNone T A) (DX : IsNoneX T A) (pct rev : bool) (xs : list T),
    Forall (acc_ok (length xs) (length xs)) (fst (vrank_tr pct rev xs)) /\
    snd (vrank_tr pct rev xs) = Ok (vrank pct rev xs).
Proof. intros. destruct (vrank_tr_spec pct rev xs) as [H (o & Ho & ->)]. split; assumption. Qed.

(* every output slot is written exactly once: on the uninitialised-buffer path (len >= 2, first sorted element
   non-null) the slots written are a permutation of 0..len-1; the other paths return O::empty() / O::full(len, ..)
   (an initialised allocation) and perform no `uset` *)
Theorem C10_vrank_each_slot_once :
  forall (A T : Type) (NA : Num A) (DT : IsNone T A) (DX : IsNoneX T A) (pct rev : bool) (xs : list T),
    2 <= length xs ->
    get_is_none xs (nth 0 (isort (cmp_idx (cmp_dir rev) xs) (seq 0 (length xs))) 0) = false ->
    Permutation (writes_of (fst (vrank_tr pct rev xs))) (seq 0 (length xs)).
Proof. intros. apply vrank_tr_writes_perm; assumption. Qed.
Theorem C10_vrank_initialised_paths :
  forall (A T : Type) (NA : Num A) (DT : IsNone T A) (DX : IsNoneX T A) (pct rev : bool) (xs : list T),
    length xs <= 1 \/ get_is_none xs (nth 0 (isort (cmp_idx (cmp_dir rev) xs) (seq 0 (length xs))) 0) = true ->
    writes_of (fst (vrank_tr pct rev xs)) = [] /\
    (length xs <= 1 \/ vrank pct rev xs = repeat (Some nnan) (length xs)).
Proof. intros. apply vrank_tr_writes_none; assumption. Qed.

(* (11) vpartition / varg_partition / vquantile / vmedian *)
Theorem C10_partition_select_in_range :
  forall (A T : Type) (NA : Num A) (DT : IsNone T A) (kth : nat) (xs : list T),
    (count_valid xs <=? kth + 1) = false ->
    kth < length (seq 0 (length xs)) /\ kth < length xs /\ kth + 1 <= length xs.
Proof. intros. apply partition_select_in_range. assumption. Qed.
Theorem C10_varg_partition_trusted_len :
  forall (A T : Type) (NA : Num A) (DT : IsNone T A) (kth : nat) (sort rev : bool) (xs : list T),
    length (varg_partition kth sort rev xs) = kth + 1 /\
    Forall (fun z => z = (-1)%Z \/ (0 <= z < Z.of_nat (length xs))%Z) (varg_partition kth sort rev xs).
Proof.
  intros A T NA DT kth sort rev xs. split; [apply varg_partition_length|].
  assert (Hseq : forall i, In i (isort (cmp_idx (cmp_dir rev) xs) (seq 0 (length xs))) -> i < length xs).
  { intros i Hi. apply (Permutation_in _ (Proofs.SortCmp.isort_perm _ _)) in Hi. apply in_seq in Hi. lia. }
  apply Forall_forall. intros z Hz. unfold varg_partition in Hz.
  destruct (count_valid xs <=? kth + 1).
  - destruct (negb sort); apply In_pad_take in Hz; (destruct Hz as [->|Hz]; [left; reflexivity|right]).
    + unfold valid_idx in Hz. apply in_flat_map in Hz. destruct Hz as ([i v] & Hin & Hz).
      apply in_combine_l in Hin. apply in_seq in Hin. cbn [fst snd] in Hz.
      destruct (not_none v); [|destruct Hz]. destruct Hz as [<-|[]]. lia.
    + apply in_map_iff in Hz. destruct Hz as (i & <- & Hi). apply Proofs.SortCmp.In_firstn in Hi. apply Hseq in Hi. lia.
  - right. apply in_map_iff in Hz. destruct Hz as (i & <- & Hi).
    assert (Hi' : In i (firstn (kth + 1) (isort (cmp_idx (cmp_dir rev) xs) (seq 0 (length xs))))).
    { destruct sort; [apply (Permutation_in _ (Proofs.SortCmp.isort_perm _ _)) in Hi|]; exact Hi. }
    apply Proofs.SortCmp.In_firstn in Hi'. apply Hseq in Hi'. lia.
Qed.
Theorem C10_vpartition_trusted_len :
  forall (A T : Type) (NA : Num A) (DT : IsNone T A) (DX : IsNoneX T A) (kth : nat) (sort rev : bool)
         (xs : list T) (l : list T),
    vpartition kth sort rev xs = Ok l -> length l = kth + 1.
Proof. intros A T NA DT DX kth sort rev xs l. apply vpartition_length. Qed.
Theorem C10_vpartition_panics_only_without_none :
  forall (A T : Type) (NA : Num A) (DT : IsNone T A) (DX : IsNoneX T A) (kth : nat) (sort rev : bool) (xs : list T),
    ((exists pad, tnone = Ok pad) \/ kth + 1 <= count_valid xs) ->
    exists l, vpartition kth sort rev xs = Ok l /\ length l = kth + 1.
Proof.
  intros A T NA DT DX kth sort rev xs [[pad H]|H]; [apply (vpartition_ok _ _ _ _ pad H)|apply vpartition_no_padding_ok; exact H].
Qed.
Theorem C10_vquantile_rejects_bad_q :
  forall (A T : Type) (NA : Num A) (NF : NumFloor A) (DT : IsNone T A) (q : A) (m : qmethod) (xs : list T),
    nleb nzero q && nleb q none = false -> vquantile q m xs = Ok None.
Proof. intros A T NA NF DT q m xs H. unfold vquantile. rewrite H. reflexivity. Qed.
Theorem C10_vquantile_index_in_range :
  forall (A T : Type) (NA : Num A) (NF : NumFloor A) (DT : IsNone T A),
    QIdxLaw (A := A) -> forall (q : A) (xs : list T),
    nleb nzero q && nleb q none = true -> 2 <= count_valid xs -> qsel_index q (count_valid xs) < length xs.
Proof. intros A T NA NF DT. apply vquantile_index_in_range. Qed.
Theorem C10_vquantile_never_panics :
  forall (A T : Type) (NA : Num A) (NF : NumFloor A) (DT : IsNone T A),
    QIdxLaw (A := A) -> forall (q : A) (m : qmethod) (xs : list T),
    exists r, vquantile q m xs = Ok r /\ (r = None <-> nleb nzero q && nleb q none = false).
Proof. intros A T NA NF DT. apply vquantile_never_panics. Qed.
Theorem C10_vquantile_vmedian_never_panic_real :
  forall (q : XR) (m : qmethod) (xs : list XR),
    (exists r, vquantile (NF := NumFloorXR) (DT := IsNoneXR) q m xs = Ok r /\
               (r = None <-> nleb nzero q && nleb q none = false)) /\
    (exists v, vmedian (NF := NumFloorXR) (DT := IsNoneXR) xs = Ok v).
Proof. intros. split; [apply vquantile_never_panics_xr|apply vmedian_never_panics_xr]. Qed.
Theorem C10_select_nth_panics_iff_out_of_range :
  forall (A T : Type) (NA : Num A) (NF : NumFloor A) (DT : IsNone T A) (cmp : T -> T -> comparison) (j : nat) (slc : list T),
    (j < length slc -> exists hm, select_nth cmp j slc = Ok hm) /\
    (length slc <= j -> select_nth cmp j slc = Panic OtherPanic).
Proof.
  intros A T NA NF DT cmp j slc. unfold select_nth. split; intros H.
  - destruct (nth_error (isort cmp slc) j) eqn:E; [eauto|].
    apply nth_error_None in E. rewrite Proofs.SortCmp.isort_length in E. lia.
  - destruct (nth_error (isort cmp slc) j) eqn:E; [|reflexivity].
    assert (j < length (isort cmp slc)) by (apply nth_error_Some; congruence).
    rewrite Proofs.SortCmp.isort_length in *. lia.
Qed.

(* ---- non-vacuity of (7)-(11) (integer carrier, never-null dictionary) ---- *)
Example C10_kernel_trace_example :
  trace_ts_vext (A := Z) (T := Z) (DT := IsNone_never) Cmp.sort_cmp true 2 (Some 1) [1; 3; 2]%Z
  = [AUget 0 0; AUset 0; AUget 0 1; AUget 0 0; AUset 1; AUget 0 2; AUget 0 1; AUget 0 1; AUget 0 2; AUget 0 1; AUset 2].
Proof. vm_compute. reflexivity. Qed.
Example C10_kernel_safe_example :
  ts_vargmin (A := Z) (T := Z) (DT := IsNone_never) true 2 (Some 1) [3; 1; 2]%Z = Done [Some 1; Some 2; Some 1]
  /\ self_eq_on (A := Z) (DT := IsNone_never) [3; 1; 2]%Z
  /\ ts_vargmin (A := Z) (T := Z) (DT := IsNone_never) true 0 (Some 1) [3]%Z = Panicked AssertFail
  /\ bad_window 2 [3; 1; 2]%Z = false /\ bad_window 0 [3]%Z = true.
Proof. split; [vm_compute; reflexivity|]. split; [apply self_eq_on_Z|]. repeat split; reflexivity. Qed.
Example C10_resid_trace_example :
  trace_ts_vregx_resid (A := Z) (T1 := Z) (T2 := Z) (D1 := IsNone_never) (D2 := IsNone_never) RMean true 2 (Some 1) [1; 2]%Z [5; 7; 9]%Z
  = [AUget 0 0; AUget 1 0; AUget 0 0; AUget 1 0; AUset 0;
     AUget 0 1; AUget 1 1; AUget 0 0; AUget 1 0; AUget 0 1; AUget 1 1; AUget 0 0; AUget 1 0; AUset 1]
  /\ trace_ts_vregx_resid (A := Z) (T1 := Z) (T2 := Z) (D1 := IsNone_never) (D2 := IsNone_never) RMean true 2 (Some 1) [1; 2]%Z [5]%Z = [].
Proof. split; vm_compute; reflexivity. Qed.
Example C10_vrank_trace_example :
  writes_of (fst (vrank_tr (A := Z) (T := Z) (DT := IsNone_never) (DX := IsNoneX_never) false false [30; 10; 20]%Z)) = [1; 2; 0]
  /\ snd (vrank_tr (A := Z) (T := Z) (DT := IsNone_never) (DX := IsNoneX_never) false false [30; 10; 20]%Z)
     = Ok [Some 3; Some 1; Some 2]%Z
  /\ get_is_none (DT := IsNone_never) [30; 10; 20]%Z
       (nth 0 (isort (cmp_idx (cmp_dir (DT := IsNone_never) false) [30; 10; 20]%Z) (seq 0 3)) 0) = false.
Proof. repeat split; vm_compute; reflexivity. Qed.
Example C10_partition_example :
  varg_partition (A := Z) (T := Z) (DT := IsNone_never) 1 true false [30; 10; 20]%Z = [1; 2]%Z
  /\ (count_valid (DT := IsNone_never) [30; 10; 20]%Z <=? 1 + 1) = false
  /\ vpartition (A := Z) (T := Z) (DT := IsNone_never) (DX := IsNoneX_never) 4 false false [30; 10]%Z = Panic OtherPanic
  /\ vpartition (A := Z) (T := Z) (DT := IsNone_never) (DX := IsNoneX_never) 1 true false [30; 10; 20]%Z = Ok [10; 20]%Z.
Proof. repeat split; vm_compute; reflexivity. Qed.

(* (12) the kernel traces STEP BY STEP (Model/KernelSteps.v) — the form in which the instrumented implementation
   run is compared with the model, one callback invocation at a time (Run/RunC10.v : run_ksteps, run_ksteps2,
   run_vrank_segs; harness/src/bin/c10.rs part=ktrace) *)
(* concatenating the steps gives the kernel trace back: nothing added, dropped or reordered — every traced
   callback, every window (0 and > len included), both bodies, one or two series *)
Theorem C10_kernel_steps_flatten :
  forall (T St O : Type) (body two : bool) (w : nat) (cbt : St -> option nat * nat * T -> tr (St * O)) (s0 : St)
         (xs : list T),
    flat_map kstep_accs (kernel_steps body two w cbt s0 xs) = kernel_trace body two w cbt s0 xs.
Proof. intros. apply kernel_steps_flatten. Qed.
Theorem C10_entry_steps_flatten :
  forall (A T : Type) (NA : Num A) (DT : IsNone T A) (scmp : option A -> option A -> comparison) (tmin tmax : A)
         (body : bool) (w : nat) (mp : option nat) (pct rev : bool) (xs : list T),
    flat_map kstep_accs (steps_ts_vext scmp body w mp xs) = trace_ts_vext scmp body w mp xs /\
    flat_map kstep_accs (steps_ts_varg scmp body w mp xs) = trace_ts_varg scmp body w mp xs /\
    flat_map kstep_accs (steps_ts_vrank (B := A) body w mp pct rev xs) = trace_ts_vrank (B := A) body w mp pct rev xs /\
    flat_map kstep_accs (steps_ts_vminmaxnorm tmin tmax body w mp xs) = trace_ts_vminmaxnorm tmin tmax body w mp xs.
Proof. intros. repeat split; apply kernel_steps_flatten. Qed.
Theorem C10_resid_steps_flatten :
  forall (A T1 T2 : Type) (NA : Num A) (D1 : IsNone T1 A) (D2 : IsNone T2 A) (K : rstat) (body : bool) (w : nat)
         (mp : option nat) (xs : list T1) (ys : list T2),
    flat_map kstep_accs (steps_ts_vregx_resid (A := A) K body w mp xs ys)
    = trace_ts_vregx_resid (A := A) K body w mp xs ys.
Proof.
  intros. unfold steps_ts_vregx_resid, trace_ts_vregx_resid. cbv zeta.
  destruct (body && (length ys <? length xs)); [reflexivity|]. apply kernel_steps_flatten.
Qed.
(* at most one step per position; only the LAST step can carry a panic (unwinding: nothing follows) *)
Theorem C10_kernel_steps_count :
  forall (T St O : Type) (body two : bool) (w : nat) (cbt : St -> option nat * nat * T -> tr (St * O)) (s0 : St)
         (xs : list T),
    length (kernel_steps body two w cbt s0 xs) <= length xs /\
    (forall i k, nth_error (kernel_steps body two w cbt s0 xs) i = Some k -> ks_panic k <> None ->
                 S i = length (kernel_steps body two w cbt s0 xs)).
Proof.
  intros T St O body two w cbt s0 xs. split.
  - destruct w as [|w]; [rewrite kernel_steps_w0; cbn; lia|].
    rewrite kernel_steps_unfold by lia. eapply Nat.le_trans; [apply steps_calls_length|].
    unfold kcalls. rewrite mapi_length. apply Nat.le_refl.
  - intros i k. unfold kernel_steps. destruct (bad_window w xs); [destruct i; discriminate|].
    destruct body; apply steps_calls_panic_last.
Qed.
(* whenever the erased model run returns there is exactly one step per position and none carries a panic *)
Theorem C10_kernel_steps_complete :
  forall (T St O : Type) (body two : bool) (w : nat) (cbt : St -> option nat * nat * T -> tr (St * O))
         (cb : St -> option nat * nat * T -> res (St * O)) (s0 : St) (xs : list T) (out : list O),
    (forall s a, snd (cbt s a) = cb s a) -> 1 <= w ->
    idx_run body w cb s0 xs = Done out ->
    length (kernel_steps body two w cbt s0 xs) = length xs /\
    Forall (fun k => ks_panic k = None) (kernel_steps body two w cbt s0 xs).
Proof.
  intros T St O body two w cbt cb s0 xs out He Hw Hrun. apply idx_run_Done_iff in Hrun; [|exact Hw].
  rewrite kernel_steps_unfold by exact Hw.
  destruct (steps_calls_complete cbt (if body then drv_reads two else fun _ => []) body cb He
              (kcalls body w xs) s0 out) as [Hl Hf].
  - unfold kcalls. rewrite map_mapi. cbn [snd]. exact Hrun.
  - split; [rewrite Hl; unfold kcalls; apply mapi_length|exact Hf].
Qed.
(* step number i IS position i: its driver reads are those of position i, its write (if the callback returned)
   is slot i and nothing else, and a callback that reads inside [start, end] reads inside the window of i *)
Theorem C10_kernel_step_is_position :
  forall (T St O : Type) (body two : bool) (w : nat) (cbt : St -> option nat * nat * T -> tr (St * O)) (s0 : St)
         (xs : list T) (i : nat) (k : kstep),
    (forall s st e v, start_le st e -> reads_within (start_or_0 st) e (fst (cbt s (st, e, v)))) ->
    1 <= w ->
    nth_error (kernel_steps body two w cbt s0 xs) i = Some k ->
    i < length xs /\
    ks_drv k = (if body then drv_reads two i else []) /\
    (ks_panic k = None -> ks_wr k = if body then [AUset i] else []) /\
    (ks_panic k <> None -> ks_wr k = []) /\
    reads_within (start_or_0 (start_of (eff_window body w (length xs)) i)) i (ks_cb k).
Proof. intros T St O body two w cbt s0 xs i k Hcb Hw Hk. exact (kernel_step_shape body two w cbt s0 xs i k Hcb Hw Hk). Qed.
(* the five kernels: the callback reads of step i are unchecked reads of indices of the window of position i
   (window clamped to the length in the cmp family) — every series, window, min_periods, both bodies *)
Theorem C10_steps_ts_vmin_vmax_in_window :
  forall (A T : Type) (NA : Num A) (DT : IsNone T A) (scmp : option A -> option A -> comparison) (body : bool)
         (w : nat) (mp : option nat) (xs : list T) (i : nat) (k : kstep),
    nth_error (steps_ts_vext scmp body w mp xs) i = Some k ->
    step_in_window body (cmp_window w xs) (length xs) i k.
Proof.
  intros A T NA DT scmp body w mp xs i k. apply kernel_step_in_window.
  intros. apply vext_cb_tr_reads. assumption.
Qed.
Theorem C10_steps_ts_vargmin_vargmax_in_window :
  forall (A T : Type) (NA : Num A) (DT : IsNone T A) (scmp : option A -> option A -> comparison) (body : bool)
         (w : nat) (mp : option nat) (xs : list T) (i : nat) (k : kstep),
    nth_error (steps_ts_varg scmp body w mp xs) i = Some k ->
    step_in_window body (cmp_window w xs) (length xs) i k.
Proof.
  intros A T NA DT scmp body w mp xs i k. apply kernel_step_in_window.
  intros. apply varg_cb_tr_reads. assumption.
Qed.
Theorem C10_steps_ts_vrank_in_window :
  forall (A T B : Type) (NA : Num A) (DT : IsNone T A) (NB : Num B) (body : bool) (w : nat) (mp : option nat)
         (pct rev : bool) (xs : list T) (i : nat) (k : kstep),
    nth_error (steps_ts_vrank (B := B) body w mp pct rev xs) i = Some k ->
    step_in_window body (cmp_window w xs) (length xs) i k.
Proof.
  intros A T B NA DT NB body w mp pct rev xs i k. apply kernel_step_in_window.
  intros. apply vrank_cb_tr_reads. assumption.
Qed.
Theorem C10_steps_ts_vminmaxnorm_in_window :
  forall (A T : Type) (NA : Num A) (DT : IsNone T A) (tmin tmax : A) (body : bool) (w : nat) (mp : option nat)
         (xs : list T) (i : nat) (k : kstep),
    nth_error (steps_ts_vminmaxnorm tmin tmax body w mp xs) i = Some k ->
    step_in_window body w (length xs) i k.
Proof.
  intros A T NA DT tmin tmax body w mp xs i k. apply kernel_step_in_window.
  intros. apply mmnorm_cb_tr_reads. assumption.
Qed.
Theorem C10_steps_ts_vregx_resid_in_window :
  forall (A T1 T2 : Type) (NA : Num A) (D1 : IsNone T1 A) (D2 : IsNone T2 A) (K : rstat) (body : bool) (w : nat)
         (mp : option nat) (xs : list T1) (ys : list T2) (i : nat) (k : kstep),
    nth_error (steps_ts_vregx_resid (A := A) K body w mp xs ys) i = Some k ->
    i < Nat.min (length xs) (length ys) /\
    ks_drv k = (if body then drv_reads true i else []) /\
    (ks_panic k = None -> ks_wr k = if body then [AUset i] else []) /\
    reads_within (start_or_0 (start_of (eff_window body w (Nat.min (length xs) (length ys))) i)) i (ks_cb k).
Proof.
  intros A T1 T2 NA D1 D2 K body w mp xs ys i k. unfold steps_ts_vregx_resid. cbv zeta. intros Hk.
  destruct (body && (length ys <? length xs)); [destruct i; discriminate|].
  destruct w as [|w']; [rewrite kernel_steps_w0 in Hk; destruct i; discriminate|].
  eapply kernel_step_shape in Hk; [|intros; apply resid_cb_tr_reads; assumption|lia].
  rewrite combine_length in Hk. destruct Hk as (H1 & H2 & H3 & _ & H5). repeat split; assumption.
Qed.
(* the cells of a step: the sorted read numbers are a permutation of the numbers of the reads the callback
   performs (nothing lost, nothing invented) and sorted; a read of index i of view v is among them exactly
   when the step performs it *)
Theorem C10_step_cells_sound :
  forall t : list acc,
    Permutation (read_nums t) (map acc_num (filter is_read t)) /\ Sorted.Sorted Z.le (read_nums t).
Proof. intros t. split; [apply sort_z_perm|apply sort_z_sorted]. Qed.
Theorem C10_step_cells_uget :
  forall (t : list acc) (v i : nat),
    Forall (fun a => match a with AUget v' i' => (Z.of_nat i' < 1000000)%Z | _ => False end) t ->
    (Z.of_nat i < 1000000)%Z ->
    (In (1000000 * (1 + Z.of_nat v) + Z.of_nat i)%Z (read_nums t) <-> In (AUget v i) t).
Proof.
  intros t v i Hf Hi. split.
  - intros Hin. apply (Permutation_in _ (sort_z_perm _)) in Hin.
    apply in_map_iff in Hin. destruct Hin as (a & Ha & Hin). apply filter_In in Hin. destruct Hin as [Hin _].
    rewrite Forall_forall in Hf. specialize (Hf a Hin).
    destruct a as [v' i'| | |]; try contradiction. cbn [acc_num] in Ha. rename Hf into Hi'.
    assert (v' = v /\ i' = i) as [-> ->] by lia. exact Hin.
  - intros Hin. apply (Permutation_in _ (Permutation_sym (sort_z_perm _))).
    apply in_map_iff. exists (AUget v i). split; [reflexivity|]. apply filter_In. split; [exact Hin|reflexivity].
Qed.
(* vrank cut at its writes: the segments concatenate to the observable trace (reads of the series, writes; the
   reads of the internal Vec<usize> are dropped), their writes are the writes of vrank_tr — hence every slot
   exactly once on the uninitialised-buffer path —, every access of every segment is in bounds, and only the
   last segment can lack a write *)
Theorem C10_vrank_segs_flatten :
  forall (A T : Type) (NA : Num A) (DT : IsNone T A) (DX : IsNoneX T A) (pct rev : bool) (xs : list T),
    flat_map wseg_accs (vrank_segs pct rev xs) = filter observable (fst (vrank_tr pct rev xs)) /\
    seg_writes (vrank_segs pct rev xs) = writes_of (fst (vrank_tr pct rev xs)) /\
    (forall i s, nth_error (vrank_segs pct rev xs) i = Some s -> ws_write s = None ->
                 S i = length (vrank_segs pct rev xs)).
Proof.
  intros. split; [apply vrank_segs_flatten|]. split; [apply vrank_segs_writes|].
  intros i s. apply vrank_segs_write_last.
Qed.
Theorem C10_vrank_segs_each_slot_once :
  forall (A T : Type) (NA : Num A) (DT : IsNone T A) (DX : IsNoneX T A) (pct rev : bool) (xs : list T),
    2 <= length xs ->
    get_is_none xs (nth 0 (isort (cmp_idx (cmp_dir rev) xs) (seq 0 (length xs))) 0) = false ->
    Permutation (seg_writes (vrank_segs pct rev xs)) (seq 0 (length xs)).
Proof. intros. apply vrank_segs_each_slot_once; assumption. Qed.
Theorem C10_vrank_segs_in_bounds :
  forall (A T : Type) (NA : Num A) (DT : IsNone T A) (DX : IsNoneX T A) (pct rev : bool) (xs : list T),
    Forall (fun s => Forall (acc_ok (length xs) (length xs)) (wseg_accs s)) (vrank_segs pct rev xs).
Proof. intros. apply vrank_segs_in_bounds. Qed.
(* the interpreter of Run/RunC10.v runs vrank_tr_fast: the text of vrank_tr with a bind that evaluates its
   continuation once (vm_compute shares nothing; `tbind` mentions `f x` twice) — the same function *)
Theorem C10_vrank_tr_fast_eq :
  forall (A T : Type) (NA : Num A) (DT : IsNone T A) (DX : IsNoneX T A) (pct rev : bool) (xs : list T),
    vrank_tr_fast pct rev xs = vrank_tr pct rev xs /\ vrank_segs_fast pct rev xs = vrank_segs pct rev xs.
Proof.
  intros. split; [apply vrank_tr_fast_eq|].
  unfold vrank_segs_fast, vrank_segs. rewrite vrank_tr_fast_eq. reflexivity.
Qed.
(* the class representative used to compare vrank "modulo ties": an index <= i holding an element of the class *)
Theorem C10_class_rep :
  forall (T : Type) (same : T -> T -> bool) (xs : list T) (i : nat),
    class_rep same xs i <= i /\
    ((forall y, same y y = true) -> forall x, nth_error xs i = Some x ->
       exists y, nth_error xs (class_rep same xs i) = Some y /\ same y x = true).
Proof. intros. split; [apply class_rep_le|intros Hr x Hx; apply class_rep_same; assumption]. Qed.

Example C10_kernel_steps_example :
  let xs := [3; 1; 2; 5]%Z in
  let steps := steps_ts_vext (A := Z) (T := Z) (DT := IsNone_never) (Cmp.sort_cmp (A := Z)) true 2 (Some 1) xs in
  map (fun k => (ks_drv k, read_nums (ks_cb k), ks_wr k, ks_panic k)) steps
  = [([AUget 0 0], [], [AUset 0], None);
     ([AUget 0 1], [1000000], [AUset 1], None);
     ([AUget 0 2], [1000001], [AUset 2], None);
     ([AUget 0 3], [1000002; 1000002; 1000002; 1000003], [AUset 3], None)]%Z
  /\ ts_vmin (A := Z) (T := Z) (DT := IsNone_never) true 2 (Some 1) xs = Done [Some 3; Some 1; Some 1; Some 2]%Z
  /\ nth_error steps 3 = Some {| ks_drv := [AUget 0 3]; ks_cb := [AUget 0 2; AUget 0 2; AUget 0 3; AUget 0 2];
                                 ks_wr := [AUset 3]; ks_panic := None |}.
Proof. repeat split; vm_compute; reflexivity. Qed.
(* the residual kernel, iterator body: the driver reads and writes nothing itself, the callback reads both series
   (views 1 and 2); the index body with a shorter second series has no step at all *)
Example C10_resid_steps_example :
  map (fun k => (ks_drv k, read_nums (ks_cb k), ks_wr k))
      (steps_ts_vregx_resid (A := Z) (T1 := Z) (T2 := Z) (D1 := IsNone_never) (D2 := IsNone_never) RMean false 2 (Some 1)
                            [1; 2; 3]%Z [5; 7]%Z)
  = [([], [1000000; 2000000], []); ([], [1000000; 1000000; 1000001; 2000000; 2000000; 2000001], [])]%Z
  /\ steps_ts_vregx_resid (A := Z) (T1 := Z) (T2 := Z) (D1 := IsNone_never) (D2 := IsNone_never) RMean true 2 (Some 1)
                          [1; 2; 3]%Z [5; 7]%Z = [].
Proof. split; vm_compute; reflexivity. Qed.
Example C10_vrank_segs_example :
  map (fun s => (ws_reads s, ws_write s))
      (vrank_segs (A := Z) (T := Z) (DT := IsNone_never) (DX := IsNoneX_never) false false [30; 10; 20]%Z)
  = [([AUget 0 1; AUget 0 1; AUget 0 2], Some 1); ([AUget 0 2; AUget 0 0], Some 2); ([], Some 0)]
  /\ class_rep Z.eqb [30; 10; 30; 10]%Z 3 = 1 /\ class_rep Z.eqb [30; 10; 30; 10]%Z 1 = 1.
Proof. repeat split; vm_compute; reflexivity. Qed.

(* ======================================================================================================
   (13) the two-series entry points for EVERY window (0 included) and EVERY pair of lengths (second
   series empty / shorter / equal / longer): the outcome is the panic of the FIRST failing check, in the
   order of the code (check2_* of Model/Driver.v; the harness compares the panic message), or a COMPLETE
   output of the stated length - never an output with an unwritten slot (`Uninit`).                      *)
Theorem C10_two_series_returned_outcome :
  forall (T1 T2 St O : Type) (w : nat) (f : St -> option (T1 * T2) * (T1 * T2) -> St * O) (s0 : St)
         (xs : list T1) (ys : list T2),
    match check2_default w xs ys with
    | Some g => rolling2_apply_default w f s0 xs ys = Panicked (guard_kind g)
    | None => exists l, rolling2_apply_default w f s0 xs ys = Done l
                        /\ length l = Nat.min (length xs) (length ys)
    end.
Proof. exact @rolling2_apply_default_by_check. Qed.

Theorem C10_two_series_idx_returned_outcome :
  forall (T1 T2 St O : Type) (w : nat) (f : St -> option nat * nat * (T1 * T2) -> St * O) (s0 : St)
         (xs : list T1) (ys : list T2),
    match check2_default w xs ys with
    | Some g => rolling2_apply_idx_default w f s0 xs ys = Panicked (guard_kind g)
    | None => exists l, rolling2_apply_idx_default w f s0 xs ys = Done l
                        /\ length l = Nat.min (length xs) (length ys)
    end.
Proof. exact @rolling2_apply_idx_default_by_check. Qed.

Theorem C10_two_series_buffer_outcome :
  forall (T1 T2 St O : Type) (w : nat) (f : St -> option (T1 * T2) * (T1 * T2) -> St * O) (s0 : St)
         (xs : list T1) (ys : list T2),
    match check2_to w xs ys with
    | Some g => rolling2_apply_to w f s0 xs ys = Panicked (guard_kind g)
    | None => exists l, rolling2_apply_to w f s0 xs ys = Done l /\ length l = length xs
    end.
Proof. exact @rolling2_apply_to_by_check. Qed.

Theorem C10_two_series_idx_buffer_outcome :
  forall (T1 T2 St O : Type) (w : nat) (f : St -> option nat * nat * (T1 * T2) -> St * O) (s0 : St)
         (xs : list T1) (ys : list T2),
    match check2_to w xs ys with
    | Some g => rolling2_apply_idx_to w f s0 xs ys = Panicked (guard_kind g)
    | None => exists l, rolling2_apply_idx_to w f s0 xs ys = Done l /\ length l = length xs
    end.
Proof. exact @rolling2_apply_idx_to_by_check. Qed.

Theorem C10_two_series_slice_outcome :
  forall (T1 T2 St O : Type) (w : nat) (f : St -> list T1 * list T2 -> St * O) (s0 : St)
         (xs : list T1) (ys : list T2),
    match check2_custom w xs ys with
    | Some g => rolling2_custom_default w f s0 xs ys = Panicked (guard_kind g)
    | None => exists l, rolling2_custom_default w f s0 xs ys = Done l /\ length l = length xs
    end.
Proof. exact @rolling2_custom_default_by_check. Qed.

(* window 0 on a non-empty first series: both bodies of the residual statistics assert before any access,
   whatever the second series is (also empty) *)
Theorem C10_resid_window0_rejected :
  forall (A : Type) (NA : Num A) (T1 : Type) (D1 : IsNone T1 A) (T2 : Type) (D2 : IsNone T2 A)
         (K : rstat) (body : bool) (mp : option nat) (xs : list T1) (ys : list T2),
    xs <> [] ->
    ts_vregx_resid (A := A) (D1 := D1) (D2 := D2) K body 0 mp xs ys = Panicked AssertFail
    /\ steps_ts_vregx_resid (A := A) (D1 := D1) (D2 := D2) K body 0 mp xs ys = [].
Proof. intros; apply resid_window0_rejected; assumption. Qed.

(* non-vacuity: each check fires on some input and every one passes on some input *)
Example C10_example_two_series_checks :
  check2_default 0 [1; 2]%Z (@nil Z) = Some GWindow /\ check2_default 0 (@nil Z) [5]%Z = None
  /\ check2_to 0 [1; 2]%Z [5]%Z = Some GShorter /\ check2_to 0 [1; 2]%Z [5; 6]%Z = Some GWindow
  /\ check2_to 2 [1; 2]%Z [5; 6; 7]%Z = None
  /\ check2_custom 0 [1]%Z (@nil Z) = Some GShorter /\ check2_custom 0 (@nil Z) (@nil Z) = Some GUnderflow
  /\ check2_custom 1 [1]%Z [2]%Z = None
  /\ ts_vregx_resid (A := Z) (T1 := Z) (T2 := Z) (D1 := IsNone_never) (D2 := IsNone_never) RMean false 0 (Some 1)
       [1; 2]%Z (@nil Z) = Panicked AssertFail.
Proof. vm_compute. repeat split. Qed.

Print Assumptions C10_apply_reads_in_bounds.
Print Assumptions C10_apply2_reads_in_bounds.
Print Assumptions C10_idx_reads_in_bounds.
Print Assumptions C10_idx2_reads_in_bounds.
Print Assumptions C10_slices_in_bounds_buffer.
Print Assumptions C10_slices_in_bounds_lazy.
Print Assumptions C10_slices_in_bounds_two.
Print Assumptions C10_each_slot_once_apply.
Print Assumptions C10_each_slot_once_apply2.
Print Assumptions C10_each_slot_once_idx.
Print Assumptions C10_each_slot_once_custom.
Print Assumptions C10_each_slot_once_write.
Print Assumptions C10_never_uninit.
Print Assumptions C10_window0_rejected.
Print Assumptions C10_empty_input.
Print Assumptions C10_short_second_series_rejected.
Print Assumptions C10_vext_cb_traced.
Print Assumptions C10_varg_cb_traced.
Print Assumptions C10_vrank_cb_traced.
Print Assumptions C10_mmnorm_cb_traced.
Print Assumptions C10_resid_cb_reads_in_window.
Print Assumptions C10_ts_vmin_vmax_trace_in_bounds.
Print Assumptions C10_ts_vargmin_vargmax_trace_in_bounds.
Print Assumptions C10_ts_vrank_trace_in_bounds.
Print Assumptions C10_ts_vminmaxnorm_trace_in_bounds.
Print Assumptions C10_ts_vregx_resid_trace_in_bounds.
Print Assumptions C10_each_slot_once_ts_vmin_vmax.
Print Assumptions C10_each_slot_once_ts_vargmin_vargmax.
Print Assumptions C10_each_slot_once_ts_vrank.
Print Assumptions C10_each_slot_once_ts_vminmaxnorm.
Print Assumptions C10_each_slot_once_ts_vregx_resid.
Print Assumptions C10_ts_vmin_safe.
Print Assumptions C10_ts_vmax_safe.
Print Assumptions C10_ts_vargmin_safe.
Print Assumptions C10_ts_vargmax_safe.
Print Assumptions C10_ts_vargmin_vargmax_safe_int.
Print Assumptions C10_ts_vrank_safe.
Print Assumptions C10_ts_vminmaxnorm_safe.
Print Assumptions C10_ts_vregx_resid_checked.
Print Assumptions C10_ts_vregx_resid_safe.
Print Assumptions C10_vrank_checked.
Print Assumptions C10_vrank_each_slot_once.
Print Assumptions C10_vrank_initialised_paths.
Print Assumptions C10_partition_select_in_range.
Print Assumptions C10_varg_partition_trusted_len.
Print Assumptions C10_vpartition_trusted_len.
Print Assumptions C10_vpartition_panics_only_without_none.
Print Assumptions C10_vquantile_rejects_bad_q.
Print Assumptions C10_vquantile_index_in_range.
Print Assumptions C10_vquantile_never_panics.
Print Assumptions C10_vquantile_vmedian_never_panic_real.
Print Assumptions C10_select_nth_panics_iff_out_of_range.
Print Assumptions C10_kernel_steps_flatten.
Print Assumptions C10_entry_steps_flatten.
Print Assumptions C10_resid_steps_flatten.
Print Assumptions C10_kernel_steps_count.
Print Assumptions C10_kernel_steps_complete.
Print Assumptions C10_kernel_step_is_position.
Print Assumptions C10_steps_ts_vmin_vmax_in_window.
Print Assumptions C10_steps_ts_vargmin_vargmax_in_window.
Print Assumptions C10_steps_ts_vrank_in_window.
Print Assumptions C10_steps_ts_vminmaxnorm_in_window.
Print Assumptions C10_steps_ts_vregx_resid_in_window.
Print Assumptions C10_step_cells_sound.
Print Assumptions C10_step_cells_uget.
Print Assumptions C10_vrank_segs_flatten.
Print Assumptions C10_vrank_segs_each_slot_once.
Print Assumptions C10_vrank_segs_in_bounds.
Print Assumptions C10_class_rep.
Print Assumptions C10_vrank_tr_fast_eq.
Print Assumptions C10_two_series_returned_outcome.
Print Assumptions C10_two_series_idx_returned_outcome.
Print Assumptions C10_two_series_buffer_outcome.
Print Assumptions C10_two_series_idx_buffer_outcome.
Print Assumptions C10_two_series_slice_outcome.
Print Assumptions C10_resid_window0_rejected.

(* ==== the carrier hypotheses discharged AT BINARY64 =========================================================
   Carrier: Coq's primitive `float` (IEEE 754 binary64, instance NumF64 — what the correspondence run evaluates);
   floor / ceiling: QIdxFloat.NumFloorF64 = the instance of Run/RunC12.v (C12_binary64_floor_instance_is_the_run_instance).
   Proofs: Proofs/QIdxFloat.v (Flocq's specification of IEEE arithmetic; monotone rounding) and Proofs/CmpOrdFloat.v
   (order laws of the primitive comparisons).  Axioms: the Reals axioms + the standard library's specification of the
   primitive float operations (Floats/FloatAxioms.v).                                                            *)
From Coq Require Floats.
From Tevec Require Base.F64 Proofs.CmpOrd Proofs.QIdxFloat.

(* the index law QIdxLaw — premise of C10_vquantile_index_in_range / C10_vquantile_never_panics — holds at binary64 *)
Theorem C10_quantile_index_law_binary64 :
  QIdxLaw (A := PrimFloat.float) (NA := F64.NumF64) (NF := QIdxFloat.NumFloorF64).
Proof. exact QIdxFloat.qidx_law_f64. Qed.

Theorem C10_vquantile_index_in_range_binary64 :
  forall (T : Type) (DT : IsNone T PrimFloat.float) (q : PrimFloat.float) (xs : list T),
    nleb (A := PrimFloat.float) nzero q && nleb q none = true -> 2 <= count_valid xs ->
    qsel_index (NF := QIdxFloat.NumFloorF64) q (count_valid xs) < length xs.
Proof. intros T DT. apply QIdxFloat.vquantile_index_in_range_f64. Qed.

(* vquantile / vmedian never panic at binary64: every series (empty, all null, one element), every q (NaN, infinite and
   out-of-range ones are the documented Err), every method, every null dictionary over f64 *)
Theorem C10_vquantile_vmedian_never_panic_binary64 :
  forall (T : Type) (DT : IsNone T PrimFloat.float) (q : PrimFloat.float) (m : qmethod) (xs : list T),
    (exists r, vquantile (NF := QIdxFloat.NumFloorF64) q m xs = Ok r /\
               (r = None <-> nleb (A := PrimFloat.float) nzero q && nleb q none = false)) /\
    (exists v, vmedian (NF := QIdxFloat.NumFloorF64) xs = Ok v).
Proof.
  intros T DT q m xs. split; [apply QIdxFloat.vquantile_never_panics_f64|apply QIdxFloat.vmedian_never_panics_f64].
Qed.

(* every non-NaN binary64 number equals itself and is not below itself *)
Theorem C10_self_eq_binary64 :
  forall x : PrimFloat.float, PrimFloat.is_nan x = false -> PrimFloat.ltb x x = false /\ PrimFloat.eqb x x = true.
Proof. exact QIdxFloat.f64_self_eq. Qed.

(* hence the premise `self_eq_on` of C10_ts_vargmin_safe / C10_ts_vargmax_safe holds for EVERY f64 series (NaN is the
   null), and for an Option<f64> series without Some(NaN) (DESIGN 5.4): ts_vargmin / ts_vargmax are safe at binary64 *)
Theorem C10_ts_vargmin_vargmax_safe_binary64 :
  forall (body : bool) (w : nat) (mp : option nat) (xs : list PrimFloat.float),
    kernel_safe w xs (ts_vargmin (DT := F64.IsNoneF64) body w mp xs) /\
    kernel_safe w xs (ts_vargmax (DT := F64.IsNoneF64) body w mp xs).
Proof. exact QIdxFloat.ts_varg_safe_f64. Qed.

Theorem C10_ts_vargmin_vargmax_safe_option_binary64 :
  forall (body : bool) (w : nat) (mp : option nat) (xs : list (option PrimFloat.float)),
    CmpOrd.valid_not_nan (DT := F64.IsNoneOptF64) xs ->
    kernel_safe w xs (ts_vargmin (DT := F64.IsNoneOptF64) body w mp xs) /\
    kernel_safe w xs (ts_vargmax (DT := F64.IsNoneOptF64) body w mp xs).
Proof. exact QIdxFloat.ts_varg_safe_optf64. Qed.

(* ---- non-vacuity ---- *)
From Coq Require Import Floats.   (* float literals *)
Example C10_ex_binary64_guard_and_count :
  nleb (A := PrimFloat.float) nzero 0.75%float && nleb 0.75%float none = true /\
  2 <= count_valid (DT := F64.IsNoneF64) [3%float; PrimFloat.nan; 1%float; 2%float] /\
  qsel_index (NF := QIdxFloat.NumFloorF64) 0.75%float (count_valid (DT := F64.IsNoneF64) [3%float; PrimFloat.nan; 1%float; 2%float]) = 1.
Proof. split; [vm_compute; reflexivity|]. split; [vm_compute; repeat constructor|vm_compute; reflexivity]. Qed.

Example C10_ex_binary64_quantile_runs :
  vquantile (NF := QIdxFloat.NumFloorF64) (DT := F64.IsNoneF64) 0.75%float Higher [3%float; PrimFloat.nan; 1%float; 2%float]
  = Ok (Some 3%float) /\
  vquantile (NF := QIdxFloat.NumFloorF64) (DT := F64.IsNoneF64) PrimFloat.nan Higher [3%float; PrimFloat.nan] = Ok None.
Proof. split; vm_compute; reflexivity. Qed.

Example C10_ex_binary64_not_nan : PrimFloat.is_nan 1%float = false /\ PrimFloat.is_nan PrimFloat.infinity = false.
Proof. split; vm_compute; reflexivity. Qed.

Example C10_ex_binary64_valid_not_nan :
  CmpOrd.valid_not_nan (DT := F64.IsNoneOptF64) [Some 1%float; None; Some 2%float] /\
  ts_vargmin (DT := F64.IsNoneOptF64) true 2 (Some 1) [Some 1%float; None; Some 2%float] = Done [Some 1; Some 1; Some 2].
Proof.
  split; [|vm_compute; reflexivity].
  intros v [<-|[<-|[<-|[]]]] H; try discriminate H; vm_compute; reflexivity.
Qed.

Print Assumptions C10_quantile_index_law_binary64.
Print Assumptions C10_vquantile_index_in_range_binary64.
Print Assumptions C10_vquantile_vmedian_never_panic_binary64.
Print Assumptions C10_self_eq_binary64.
Print Assumptions C10_ts_vargmin_vargmax_safe_binary64.
Print Assumptions C10_ts_vargmin_vargmax_safe_option_binary64.

(* ====================================================================================================================
   (14)-(20): the remaining clauses of the statement (notes/C10.md has the clause-by-clause matrix); helper lemmas in
   Proofs/Audit10.v.  Axiom-free.
   ==================================================================================================================== *)
From Tevec Require Model.Create Model.Collect.
From Tevec Require Import Proofs.Audit07 Proofs.Audit10.

(* (14) a WHOLE call of every driver, with the checks of the code in their order (Model/Kernels.v driver_call = what
   Run/RunC10.v run_trace emits): EVERY window (0, > len), EVERY pair of lengths.  A rejected call panics BEFORE any
   access (DPanic carries no trace); an accepted call accesses in bounds and writes every slot exactly once, in order
   (or nothing, for the collected lazy forms).  Replaces the hypotheses `len <= len2`, `1 <= w`,
   `bad_window w .. = false` of parts (1)-(4) by the guards themselves.                                              *)
Theorem C10_driver_call_safe :
  forall (cb : option nat -> nat -> list acc) (k : dkind) (w len len2 : nat),
    cb_reads_in_window cb -> (forall st e, writes_of (cb st e) = []) -> (k = KIdxTo -> len <= len2) ->
    match driver_call cb k w len len2 with
    | DPanic _ => True
    | DTrace t => Forall (acc_ok len len2) t /\ writes_of t = if dkind_writes k then seq 0 len else []
    end.
Proof.
  intros cb k w len len2 Hcb Hcw Hk.
  assert (G : forall t, Forall (acc_ok len len2) t -> (bad_window w (seq 0 len) = false -> writes_of t = seq 0 len) ->
              match (if (w =? 0) && negb (len =? 0) then DPanic AssertFail else DTrace t) with
              | DPanic _ => True | DTrace t => Forall (acc_ok len len2) t /\ writes_of t = seq 0 len end).
  { intros t Ht Hw. rewrite <- bad_window_seq. destruct (bad_window w (seq 0 len)) eqn:E; [exact I|].
    split; [exact Ht|apply Hw; reflexivity]. }
  destruct k; cbn [driver_call dkind_writes].
  - apply G; [apply C10_apply_reads_in_bounds|apply C10_each_slot_once_apply].
  - destruct (len2 <? len) eqn:E; [exact I|]. apply Nat.ltb_ge in E.
    apply G; [apply C10_apply2_reads_in_bounds; exact E|apply C10_each_slot_once_apply2].
  - apply G; [apply C10_idx_reads_in_bounds; [exact Hcb|apply Hk; reflexivity]|apply C10_each_slot_once_idx; exact Hcw].
  - destruct (len2 <? len) eqn:E; [exact I|]. apply Nat.ltb_ge in E.
    apply G; [apply C10_idx2_reads_in_bounds; assumption|apply trace_idx2_to_writes; exact Hcw].
  - apply G; [apply C10_slices_in_bounds_buffer|apply C10_each_slot_once_custom].
  - destruct w as [|w]; [exact I|]. cbn [Nat.eqb].
    split; [apply trace_custom_iter_ok; lia|apply trace_custom_iter_no_write].
  - destruct w as [|w]; [exact I|]. cbn [Nat.eqb].
    apply then_write_safe; [apply trace_custom_iter_ok; lia|apply trace_custom_iter_no_write].
  - destruct (len2 <? len) eqn:E; [exact I|]. apply Nat.ltb_ge in E. destruct w as [|w]; [exact I|]. cbn [Nat.eqb].
    split; [apply C10_slices_in_bounds_two; [lia|exact E]|apply trace_custom2_no_write].
  - destruct (len2 <? len) eqn:E; [exact I|]. apply Nat.ltb_ge in E. destruct w as [|w]; [exact I|]. cbn [Nat.eqb].
    apply then_write_safe; [apply C10_slices_in_bounds_two; [lia|exact E]|apply trace_custom2_no_write].
  - destruct ((w =? 0) && negb (len =? 0)); [exact I|]. split; [constructor|reflexivity].
Qed.
(* the drivers themselves (callbacks that read nothing - the compared traces): no hypothesis at all *)
Theorem C10_driver_call_safe_unconditional :
  forall (k : dkind) (w len len2 : nat),
    match driver_call (fun _ _ => []) k w len len2 with
    | DPanic _ => True
    | DTrace t => Forall (acc_ok len len2) t /\ writes_of t = if dkind_writes k then seq 0 len else []
    end.
Proof.
  intros k w len len2.
  destruct k eqn:Ek; try (apply C10_driver_call_safe; [intros st e a []|reflexivity|discriminate]).
  (* KIdxTo with a callback that reads nothing: the second length is irrelevant *)
  cbn [driver_call dkind_writes]. rewrite <- bad_window_seq. destruct (bad_window w (seq 0 len)) eqn:E; [exact I|].
  split; [apply trace_idx_to_Forall; constructor|apply C10_each_slot_once_idx; [reflexivity|exact E]].
Qed.
(* which calls are rejected: exactly those the value model (Model/Driver.v) rejects, with the same first failing check *)
Theorem C10_driver_call_rejects_one_series :
  forall (T : Type) (cb : option nat -> nat -> list acc) (k : dkind) (w : nat) (xs : list T) (len2 : nat),
    In k [KApplyTo; KIdxTo; KCustomTo; KIterBody] ->
    ((exists p, driver_call cb k w (length xs) len2 = DPanic p) <-> bad_window w xs = true).
Proof.
  intros T cb k w xs len2 Hk. unfold bad_window.
  assert (E : forall t, (exists p, (if (w =? 0) && negb (length xs =? 0) then DPanic AssertFail else DTrace t) = DPanic p)
                        <-> (w =? 0) && negb (length xs =? 0) = true).
  { intros t. destruct ((w =? 0) && negb (length xs =? 0)); split; intros H; try reflexivity; try discriminate.
    - exists AssertFail. reflexivity.
    - destruct H as [p H]. discriminate. }
  destruct Hk as [<-|[<-|[<-|[<-|[]]]]]; cbn [driver_call]; apply E.
Qed.
Theorem C10_driver_call_rejects_two_series :
  forall (T T2 : Type) (cb : option nat -> nat -> list acc) (k : dkind) (w : nat) (xs : list T) (ys : list T2),
    In k [KApply2To; KIdx2To] ->
    driver_call cb k w (length xs) (length ys)
    = match check2_to w xs ys with
      | Some g => DPanic (guard_kind g)
      | None => driver_call cb k w (length xs) (length ys)
      end
    /\ (check2_to w xs ys = None <-> exists t, driver_call cb k w (length xs) (length ys) = DTrace t).
Proof.
  intros T T2 cb k w xs ys Hk. unfold check2_to, bad_window.
  destruct Hk as [<-|[<-|[]]]; cbn [driver_call]; destruct (length ys <? length xs);
    cbn [guard_kind]; try (destruct ((w =? 0) && negb (length xs =? 0)); cbn [guard_kind]);
    (split; [reflexivity|split; [try discriminate; intros _; eexists; reflexivity|intros [t H]; try discriminate H; reflexivity]]).
Qed.
Theorem C10_driver_call_rejects_two_series_slices :
  forall (T T2 : Type) (cb : option nat -> nat -> list acc) (k : dkind) (w : nat) (xs : list T) (ys : list T2),
    In k [KCustom2Lazy; KCustom2Write] ->
    (forall g, check2_custom w xs ys = Some g -> driver_call cb k w (length xs) (length ys) = DPanic (guard_kind g)) /\
    (check2_custom w xs ys = None -> exists t, driver_call cb k w (length xs) (length ys) = DTrace t).
Proof.
  intros T T2 cb k w xs ys Hk. unfold check2_custom.
  destruct Hk as [<-|[<-|[]]]; cbn [driver_call]; destruct (length ys <? length xs); try destruct (w =? 0);
    (split; [intros g H; try discriminate H; injection H as <-; reflexivity|intros H; try discriminate H; eexists; reflexivity]).
Qed.

(* (15) write-once for the two-series window-index body *)
Theorem C10_each_slot_once_idx2 :
  forall cb w len, (forall st e, writes_of (cb st e) = []) ->
    bad_window w (seq 0 len) = false -> writes_of (trace_idx2_to cb w len) = seq 0 len.
Proof. exact trace_idx2_to_writes. Qed.
(* the lazy slice forms perform no uset themselves; written through Collect.write_trust_iter: slots 0..len-1, once, in order *)
Theorem C10_lazy_slices_write_nothing :
  forall w len, writes_of (trace_custom_iter w len) = [] /\ writes_of (trace_custom2 w len) = [].
Proof. intros. split; [apply trace_custom_iter_no_write|apply trace_custom2_no_write]. Qed.

(* (16) the clamp `window.min(len)` (anchored mechanism): a window larger than the series IS window = len - the same
   trace, the same calls, the same outcome, for every two-phase body; and clamping never changes what is rejected  *)
Theorem C10_window_clamp_traces :
  forall (w len : nat) (cb : option nat -> nat -> list acc),
    trace_apply_to w len = trace_apply_to (Nat.min w len) len /\
    trace_apply2_to w len = trace_apply2_to (Nat.min w len) len /\
    trace_idx_to cb w len = trace_idx_to cb (Nat.min w len) len /\
    trace_idx2_to cb w len = trace_idx2_to cb (Nat.min w len) len /\
    trace_custom_to w len = trace_custom_to (Nat.min w len) len.
Proof.
  intros. unfold trace_apply_to, trace_apply2_to, trace_idx_to, trace_idx2_to, trace_custom_to.
  rewrite (calls_to_clamp w (seq 0 len)), (calls_to_idx_clamp w (seq 0 len)), (slices_to_clamp w len), seq_length.
  repeat split.
Qed.
Theorem C10_window_clamp_outcomes :
  forall (T St O : Type) (w : nat) (f : St -> option T * T -> St * O) (g : St -> option nat * nat * T -> St * O)
         (h : St -> list T -> St * O) (s0 : St) (xs : list T),
    rolling_apply_to w f s0 xs = rolling_apply_to (Nat.min w (length xs)) f s0 xs /\
    rolling_apply_idx_to w g s0 xs = rolling_apply_idx_to (Nat.min w (length xs)) g s0 xs /\
    rolling_custom_to w h s0 xs = rolling_custom_to (Nat.min w (length xs)) h s0 xs /\
    bad_window (Nat.min w (length xs)) xs = bad_window w xs.
Proof.
  intros. unfold rolling_apply_to, rolling_apply_idx_to, rolling_custom_to.
  rewrite bad_window_clamp, <- calls_to_clamp, <- calls_to_idx_clamp, <- slices_to_clamp. repeat split.
Qed.

(* (17) every one-series entry point for EVERY window: a complete result of the input's length, or the panic of the
   code's check - never `Uninit` (C10_never_uninit covered rolling_apply_to only)                                    *)
Theorem C10_one_series_outcomes :
  forall (T St O : Type) (w : nat) (f : St -> option T * T -> St * O) (g : St -> option nat * nat * T -> St * O)
         (h : St -> list T -> St * O) (s0 : St) (xs : list T),
    complete_or AssertFail (bad_window w xs) (length xs) (rolling_apply_to w f s0 xs) /\
    complete_or AssertFail (bad_window w xs) (length xs) (rolling_apply_default w f s0 xs) /\
    complete_or AssertFail (bad_window w xs) (length xs) (rolling_apply_idx_to w g s0 xs) /\
    complete_or AssertFail (bad_window w xs) (length xs) (rolling_apply_idx_default w g s0 xs) /\
    complete_or AssertFail (bad_window w xs) (length xs) (rolling_custom_to w h s0 xs) /\
    complete_or Underflow (w =? 0) (length xs) (rolling_custom_default w h s0 xs).
Proof.
  intros. repeat apply conj.
  - eapply complete_or_total; [apply rolling_apply_to_total|]. rewrite run_length. apply mapi_length.
  - eapply complete_or_total; [apply rolling_apply_default_total|]. rewrite run_length. apply mapi_length.
  - eapply complete_or_total; [apply rolling_apply_idx_to_total|]. rewrite run_length. apply mapi_length.
  - eapply complete_or_total; [apply rolling_apply_idx_default_total|]. rewrite run_length. apply mapi_length.
  - eapply complete_or_total; [apply rolling_custom_to_total|].
    rewrite run_length. unfold windows. rewrite map_length. apply seq_length.
  - eapply complete_or_total; [apply rolling_custom_default_total|].
    rewrite run_length. unfold windows. rewrite map_length. apply seq_length.
Qed.

(* (18) a caller buffer of ANY length handed to the default rolling_custom (iter.write(&mut out).unwrap()): the lazy
   iterator is built (window - 1), then: empty buffer - nothing pulled, nothing stored; same length - slot i gets item
   i; a one-element series - its single item is stored in EVERY slot of the buffer; otherwise Err -> a clean panic
   before anything is pulled or stored.  Every write is below the length of the BUFFER, every slot once.            *)
Theorem C10_custom_write_any_buffer :
  forall w len lo : nat,
    match custom_write_call w len lo with
    | DPanic p => (p = Underflow /\ w = 0) \/ (p = UnwrapNone /\ 1 <= w /\ lo <> 0 /\ lo <> len /\ len <> 1)
    | DTrace t =>
        1 <= w /\ Forall (fun a => match a with AUset i => i < lo | a => acc_ok len len a end) t /\
        writes_of t = seq 0 lo
    end.
Proof.
  intros w len lo. unfold custom_write_call. destruct w as [|w]; [left; split; reflexivity|]. cbn [Nat.eqb].
  destruct (Nat.eqb_spec lo 0) as [->|E0]; [split; [lia|split; [constructor|reflexivity]]|].
  destruct (Nat.eqb_spec lo len) as [->|E1]; [split; [lia|apply iter_then_write_safe; lia]|].
  destruct (Nat.eqb_spec len 1) as [->|E2]; [split; [lia|apply iter_then_write_safe; lia]|].
  right. repeat split; try assumption; lia.
Qed.
Theorem C10_custom_write_is_write_trust_iter :
  forall (O : Type) (w : nat) (items : list O) (lo : nat), 1 <= w ->
    let r := Collect.write_trust_iter lo (Collect.exact_iter items) in
    match custom_write_call w (length items) lo with
    | DPanic p => p = UnwrapNone /\ fst r = Collect.WErr /\ snd r = []
    | DTrace t => fst r = Collect.WOk /\ writes_of t = map fst (snd r)
    end.
Proof.
  intros O w items lo Hw. cbv zeta. unfold custom_write_call, Collect.write_trust_iter, Collect.exact_iter.
  cbn [Collect.ti_hint Collect.ti_items].
  replace (w =? 0) with false by (symmetry; apply Nat.eqb_neq; lia).
  destruct (lo =? 0) eqn:E0; [split; reflexivity|].
  destruct (lo =? length items) eqn:E1.
  - apply Nat.eqb_eq in E1. subst lo. rewrite Proofs.Collect.write_each_exact. cbn [fst snd]. split; [reflexivity|].
    rewrite (proj2 (iter_then_write_safe w _ _ Hw)), Proofs.Collect.map_fst_combine_seq. reflexivity.
  - destruct (length items =? 1) eqn:E2.
    + apply Nat.eqb_eq in E2. destruct items as [|v [|? ?]]; try discriminate. cbn [fst snd]. split; [reflexivity|].
      rewrite (proj2 (iter_then_write_safe w _ _ Hw)), map_map. cbn [fst]. rewrite map_id. reflexivity.
    + repeat split.
Qed.

(* (19) the collected (trusted-length) forms of the lazy bodies: the size_hint the raw collector trusts IS the number
   of items the iterator yields - for every window (0 included) and every pair of lengths - so collecting writes each
   allocated slot exactly once and exposes exactly the iterator's items                                              *)
Theorem C10_lazy_hints_exact :
  forall (T T2 : Type) (w : nat) (xs : list T) (ys : list T2),
    hint_apply w (length xs) = length (args_iter w xs) /\
    hint_apply2 w (length xs) (length ys) = length (args_iter w (combine xs ys)) /\
    hint_idx w (length xs) = length (args_iter_idx w xs) /\
    hint_idx2 w (length xs) (length ys) = length (args_iter_idx2 w xs ys) /\
    (1 <= w -> hint_custom w (length xs) = length (slices_iter w (length xs)) /\
               hint_custom2 w (length xs) = length (slices_iter w (length xs))).
Proof.
  intros. unfold hint_apply, hint_apply2, hint_idx, hint_idx2, hint_custom, hint_custom2,
    args_iter, args_iter_idx, args_iter_idx2, slices_iter.
  repeat split; lens.
Qed.
Theorem C10_lazy_collected_one_series :
  forall (T St O : Type) (w : nat) (f : St -> option T * T -> St * O) (g : St -> option nat * nat * T -> St * O)
         (s0 : St) (xs : list T),
    bad_window w xs = false ->
    Create.collect_trusted (hint_apply w (length xs)) (run f s0 (args_iter w xs)) = rolling_apply_default w f s0 xs /\
    Create.collect_trusted (hint_idx w (length xs)) (run g s0 (args_iter_idx w xs)) = rolling_apply_idx_default w g s0 xs.
Proof.
  intros T St O w f g s0 xs Hb. unfold rolling_apply_default, rolling_apply_idx_default. rewrite Hb.
  split; apply collect_trusted_run; [unfold hint_apply, args_iter|unfold hint_idx, args_iter_idx]; lens.
Qed.
Theorem C10_lazy_collected_two_series :
  forall (T T2 St O : Type) (w : nat) (f : St -> option (T * T2) * (T * T2) -> St * O)
         (g : St -> option nat * nat * (T * T2) -> St * O) (s0 : St) (xs : list T) (ys : list T2),
    bad_window w xs = false ->
    Create.collect_trusted (hint_apply2 w (length xs) (length ys)) (run f s0 (args_iter w (combine xs ys)))
    = rolling2_apply_default w f s0 xs ys /\
    Create.collect_trusted (hint_idx2 w (length xs) (length ys)) (run g s0 (args_iter_idx2 w xs ys))
    = rolling2_apply_idx_default w g s0 xs ys.
Proof.
  intros T T2 St O w f g s0 xs ys Hb. unfold rolling2_apply_default, rolling2_apply_idx_default. rewrite Hb.
  split; apply collect_trusted_run; [unfold hint_apply2, args_iter|unfold hint_idx2, args_iter_idx2]; lens.
Qed.
Theorem C10_lazy_collected_slices :
  forall (T T2 St O : Type) (w : nat) (f : St -> list T -> St * O) (g : St -> list T * list T2 -> St * O)
         (s0 : St) (xs : list T) (ys : list T2),
    1 <= w ->
    Create.collect_trusted (hint_custom w (length xs))
                    (run f s0 (map (fun '(st, e) => seg st e xs) (slices_iter w (length xs))))
    = rolling_custom_default w f s0 xs /\
    (length xs <= length ys ->
     Create.collect_trusted (hint_custom2 w (length xs))
                     (run g s0 (map (fun '(st, e) => (seg st e xs, seg st e ys)) (slices_iter w (length xs))))
     = rolling2_custom_default w g s0 xs ys).
Proof.
  intros T T2 St O w f g s0 xs ys Hw. unfold rolling_custom_default, rolling2_custom_default.
  replace (w =? 0) with false by (symmetry; apply Nat.eqb_neq; lia).
  split; [|intros Hl; replace (length ys <? length xs) with false by (symmetry; apply Nat.ltb_ge; exact Hl)];
    apply collect_trusted_run; unfold hint_custom, hint_custom2, slices_iter; lens.
Qed.
(* the partition kernels announce kth + 1 and yield exactly that: the trusted collector is sound on them *)
Theorem C10_partition_collected :
  forall (A T : Type) (NA : Num A) (DT : IsNone T A) (DX : IsNoneX T A) (kth : nat) (sort rev : bool) (xs : list T),
    Create.collect_trusted (kth + 1) (varg_partition kth sort rev xs) = Done (varg_partition kth sort rev xs) /\
    (forall l, vpartition kth sort rev xs = Ok l -> Create.collect_trusted (kth + 1) l = Done l).
Proof.
  intros. split.
  - rewrite <- (varg_partition_length kth sort rev xs) at 1. apply Proofs.Create.collect_trusted_exact.
  - intros l H. rewrite <- (vpartition_length _ _ _ _ _ H). apply Proofs.Create.collect_trusted_exact.
Qed.
(* the EXACT panic condition of vpartition (C10_vpartition_panics_only_without_none is one direction of it): T::none() of
   a non-nullable element type, evaluated because padding is needed *)
Theorem C10_vpartition_panics_iff :
  forall (A T : Type) (NA : Num A) (DT : IsNone T A) (DX : IsNoneX T A) (kth : nat) (sort rev : bool) (xs : list T),
    (exists p, vpartition kth sort rev xs = Panic p) <->
    (exists p, tnone = Panic p) /\ (if sort then length xs < kth + 1 else count_valid xs < kth + 1).
Proof.
  intros A T NA DT DX kth sort rev xs. pose proof (count_valid_le_length xs) as Hc. split.
  - intros [p Hp]. destruct (@tnone T A DX) as [pad|q] eqn:Et.
    + destruct (vpartition_ok kth sort rev xs pad Et) as (l & Hl & _). rewrite Hl in Hp. discriminate.
    + split; [exists q; reflexivity|].
      destruct (Nat.le_gt_cases (kth + 1) (count_valid xs)) as [Hk|Hk].
      { destruct (vpartition_no_padding_ok kth sort rev xs Hk) as (l & Hl & _). rewrite Hl in Hp. discriminate. }
      destruct sort; [|exact Hk].
      unfold vpartition in Hp. cbn [negb] in Hp. rewrite Bool.andb_false_r in Hp.
      replace (count_valid xs <=? kth + 1) with true in Hp by (symmetry; apply Nat.leb_le; lia).
      destruct (length (isort (cmp_dir rev) xs) <? kth + 1) eqn:El; [|discriminate].
      apply Nat.ltb_lt in El. rewrite Proofs.SortCmp.isort_length in El. exact El.
  - intros [[q Hq] Hk]. unfold vpartition. rewrite Hq. destruct sort; cbn [negb].
    + rewrite Bool.andb_false_r.
      replace (count_valid xs <=? kth + 1) with true by (symmetry; apply Nat.leb_le; lia).
      replace (length (isort (cmp_dir rev) xs) <? kth + 1) with true
        by (symmetry; apply Nat.ltb_lt; rewrite Proofs.SortCmp.isort_length; exact Hk).
      exists q. reflexivity.
    + rewrite Bool.andb_true_r.
      replace (count_valid xs =? kth + 1) with false by (symmetry; apply Nat.eqb_neq; lia).
      replace (count_valid xs <=? kth + 1) with true by (symmetry; apply Nat.leb_le; lia).
      exists q. reflexivity.
Qed.

(* (20) "before the buffer is exposed as initialised": the write lists fed to the buffer model of Model/Driver.v.
   Writes 0..n-1 in order with any values (every two-phase body): complete, slot i = value i; vrank's permuted writes
   on the uninitialised-buffer path: complete, each slot holds THE value stored there.                              *)
Theorem C10_in_order_writes_expose :
  forall (O : Type) (vs : list O),
    finish (Collect.apply_writes (combine (seq 0 (length vs)) vs) (repeat None (length vs))) = Done vs.
Proof.
  intros O vs.
  pose proof (Proofs.Collect.apply_writes_in_order vs [] (repeat None (length vs)) (repeat_length _ _)) as H.
  cbn [length app] in H. rewrite H. unfold finish. rewrite assume_init_map_Some. reflexivity.
Qed.
Theorem C10_vrank_buffer_exposed_initialised :
  forall (A T : Type) (NA : Num A) (DT : IsNone T A) (DX : IsNoneX T A) (O : Type) (pct rev : bool) (xs : list T)
         (vs : list O),
    2 <= length xs ->
    get_is_none xs (nth 0 (isort (cmp_idx (cmp_dir rev) xs) (seq 0 (length xs))) 0) = false ->
    length vs = length (writes_of (fst (vrank_tr pct rev xs))) ->
    exists l, finish (Collect.apply_writes (combine (writes_of (fst (vrank_tr pct rev xs))) vs) (repeat None (length xs))) = Done l
              /\ length l = length xs
              /\ forall j v, In (j, v) (combine (writes_of (fst (vrank_tr pct rev xs))) vs) -> nth_error l j = Some v.
Proof.
  intros A T NA DT DX O pct rev xs vs H2 Hn Hl. apply writes_permutation.
  rewrite map_fst_combine by (rewrite Hl; apply le_n). apply vrank_tr_writes_perm; assumption.
Qed.
(* and what must NOT be exposed: any store sequence that misses a slot leaves the buffer `Uninit` *)
Theorem C10_missing_slot_never_exposed :
  forall (O : Type) (ws : list (nat * O)) (n j : nat),
    j < n -> ~ In j (map fst ws) ->
    finish (Collect.apply_writes ws (repeat None n)) = Uninit (Collect.apply_writes ws (repeat None n)).
Proof. exact @missing_slot_uninit. Qed.

(* ---- non-vacuity ---- *)
Example C10_audit_example_driver_calls :
  driver_call (fun _ _ => []) KApply2To 2 3 2 = DPanic AssertFail
  /\ driver_call (fun _ _ => []) KApply2To 0 3 3 = DPanic AssertFail
  /\ driver_call (fun _ _ => []) KCustom2Write 0 0 0 = DPanic Underflow
  /\ driver_call (fun _ _ => []) KCustomWrite 2 2 0
     = DTrace [ASlice 0 0 1; ASlice 0 0 2; AUset 0; AUset 1]
  /\ driver_call (fun _ _ => []) KIdx2To 5 2 3 = DTrace [AUget 0 0; AUget 1 0; AUset 0; AUget 0 1; AUget 1 1; AUset 1]
  /\ trace_apply_to 5 2 = trace_apply_to 2 2
  /\ (let cb := fun (st : option nat) (e : nat) => if start_or_0 st <=? e then [AUget 0 e] else [] in
      cb_reads_in_window cb /\ (forall st e, writes_of (cb st e) = []) /\ cb (Some 1) 2 = [AUget 0 2]).
Proof.
  repeat split; try reflexivity.
  - intros st e a Ha. destruct (start_or_0 st <=? e) eqn:E; [|destruct Ha]. apply Nat.leb_le in E.
    destruct Ha as [<-|[]]. unfold start_or_0 in E. destruct st; lia.
  - intros st e. destruct (start_or_0 st <=? e); reflexivity.
Qed.
Example C10_audit_example_custom_write :
  custom_write_call 2 1 3 = DTrace [ASlice 0 0 1; AUset 0; AUset 1; AUset 2]
  /\ custom_write_call 2 3 2 = DPanic UnwrapNone /\ custom_write_call 2 3 0 = DTrace []
  /\ custom_write_call 0 3 3 = DPanic Underflow
  /\ Collect.write_trust_iter 3 (Collect.exact_iter [7]) = (Collect.WOk, [(0, 7); (1, 7); (2, 7)]).
Proof. repeat split. Qed.
Example C10_audit_example_hints :
  hint_apply 0 3 = 3 /\ hint_apply 5 3 = 3 /\ hint_apply2 2 3 1 = 1 /\ hint_idx2 4 3 2 = 2
  /\ length (args_iter_idx2 4 [1; 2; 3] [7; 8]) = 2 /\ bad_window 0 (@nil nat) = false
  /\ rolling_apply_default 0 (fun (s : unit) (a : option nat * nat) => (s, snd a)) tt [] = Done []
  /\ complete_or (O := nat) Underflow true 0 (Panicked Underflow).
Proof. repeat split. Qed.
Example C10_audit_example_partition :
  (exists p, vpartition (A := Z) (T := Z) (DT := IsNone_never) (DX := IsNoneX_never) 4 false false [30; 10]%Z = Panic p)
  /\ (exists p, @tnone Z Z IsNoneX_never = Panic p) /\ count_valid (DT := IsNone_never) [30; 10]%Z < 4 + 1
  /\ Create.collect_trusted (1 + 1) (varg_partition (A := Z) (T := Z) (DT := IsNone_never) 1 true false [30; 10; 20]%Z) = Done [1; 2]%Z.
Proof. split; [eexists; vm_compute; reflexivity|]. split; [eexists; reflexivity|]. split; [vm_compute; lia|vm_compute; reflexivity]. Qed.
Example C10_audit_example_vrank_exposed :
  let ws := writes_of (fst (vrank_tr (A := Z) (T := Z) (DT := IsNone_never) (DX := IsNoneX_never) false false [30; 10; 20]%Z)) in
  ws = [1; 2; 0] /\ finish (Collect.apply_writes (combine ws [1; 2; 3]%Z) (repeat None 3)) = Done [3; 1; 2]%Z
  /\ finish (Collect.apply_writes [(1, 7); (1, 8)] (repeat None 2)) = Uninit [None; Some 8].
Proof. cbv zeta. repeat split; vm_compute; reflexivity. Qed.

Print Assumptions C10_driver_call_safe.
Print Assumptions C10_driver_call_safe_unconditional.
Print Assumptions C10_driver_call_rejects_one_series.
Print Assumptions C10_driver_call_rejects_two_series.
Print Assumptions C10_driver_call_rejects_two_series_slices.
Print Assumptions C10_each_slot_once_idx2.
Print Assumptions C10_lazy_slices_write_nothing.
Print Assumptions C10_window_clamp_traces.
Print Assumptions C10_window_clamp_outcomes.
Print Assumptions C10_one_series_outcomes.
Print Assumptions C10_custom_write_any_buffer.
Print Assumptions C10_custom_write_is_write_trust_iter.
Print Assumptions C10_lazy_hints_exact.
Print Assumptions C10_lazy_collected_one_series.
Print Assumptions C10_lazy_collected_two_series.
Print Assumptions C10_lazy_collected_slices.
Print Assumptions C10_partition_collected.
Print Assumptions C10_vpartition_panics_iff.
Print Assumptions C10_in_order_writes_expose.
Print Assumptions C10_vrank_buffer_exposed_initialised.
Print Assumptions C10_missing_slot_never_exposed.
