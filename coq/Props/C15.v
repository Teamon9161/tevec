(* Props/C15.v — property C15: the null (IsNone) and cast algebra is coherent across all element types.
   Each theorem is proved here from the lemmas of Proofs/Cast*.v and Proofs/Audit15.v ((A10) from Proofs/Time.v and
   Proofs/Audit16.v).

   Universe (Model/Cast.v): ty = Plain b | Opt b, b in f32 f64 i32 i64 u8 u64 usize isize bool String/&str DateTime<U>
   TimeDelta Time (26 type codes, 676 ordered pairs).  Every theorem quantifies over ALL type codes / pairs and ALL
   values; F is an arbitrary float type and X : Ext F the external float / text operations, about which only
   `ExtLaws X` (Proofs/Cast.v) is assumed — an instance satisfying the laws is exhibited (Proofs/CastWitness.v), and
   the PrimFloat instance used by the runs is compared with the real code on every run.                       *)
From Coq Require Import ZArith List Bool.
From Tevec Require Import Base.Prelude Model.Cast Proofs.Cast Proofs.CastLattice Proofs.CastOrder
                          Proofs.CastWitness.
Import ListNotations.
Local Open Scope Z_scope.

(* (1) the null predicates agree: is-null, not-null, conversion to an option, borrowed option, unwrap *)
Theorem C15_predicates_coherent :
  forall (F : Type) (X : Ext F) (t : ty) (v : val t),
    not_none X t v = negb (is_none X t v) /\
    (to_opt X t v = None <-> is_none X t v = true) /\
    as_opt X t v = to_opt X t v /\
    (forall x, to_opt X t v = Some x -> unwrap t v = Ok x) /\
    (is_none X t v = false -> exists x, to_opt X t v = Some x).
Proof.
  intros F X t v. split; [apply not_none_negb|]. split; [apply to_opt_none_iff|]. split; [apply as_opt_to_opt|].
  split; [intros x; apply unwrap_to_opt|].
  intros H. destruct (to_opt X t v) as [x|] eqn:E; [exists x; reflexivity|].
  apply to_opt_none_iff in E. congruence.
Qed.

(* (2) the null constructor produces a null; it exists exactly for the types that can represent nulls *)
Theorem C15_none_is_null :
  forall (F : Type) (X : Ext F), ExtLaws X -> forall t : ty,
    (forall w, none X t = Ok w -> is_none X t w = true) /\
    (can_null t = true <-> exists w, none X t = Ok w).
Proof. intros F X L t. split; [intros w; apply none_is_none; exact L|apply none_defined]. Qed.

(* (3) wrapping and unwrapping a non-null value is the identity; wrapping a null canonicalises it *)
Theorem C15_wrap_unwrap_identity :
  forall (F : Type) (X : Ext F) (t : ty) (x : inner t),
    (b_is_none X (base t) x = false ->
       to_opt X t (from_inner X t x) = Some x /\ unwrap t (from_inner X t x) = Ok x /\
       is_none X t (from_inner X t x) = false) /\
    (b_is_none X (base t) x = true -> is_none X t (from_inner X t x) = true).
Proof. intros F X t x. split; [apply from_inner_nonnull|apply from_inner_null]. Qed.

Theorem C15_from_opt_to_opt :
  forall (F : Type) (X : Ext F), ExtLaws X -> forall (t : ty) (v : val t),
    (canonical X t v = true -> is_none X t v = false -> from_opt X t (to_opt X t v) = Ok v) /\
    (forall w, is_none X t v = true -> from_opt X t (to_opt X t v) = Ok w -> is_none X t w = true).
Proof. intros F X L t v. split; [apply from_opt_to_opt|intros w; apply from_opt_null; exact L]. Qed.

Theorem C15_into_cast_rewraps :
  forall (F : Type) (X : Ext F) (b : bt) (v : bval b),
    into_cast X false b v = v /\
    is_none X (Opt b) (into_cast X true b v) = b_is_none X b v /\
    to_opt X (Opt b) (into_cast X true b v) = to_opt X (Plain b) v /\
    into_cast X true b v = from_inner X (Opt b) v.
Proof. intros F X b v. split; [exact (into_cast_plain X b v)|exact (into_cast_opt X b v)]. Qed.

(* (4) the absolute value preserves nullness (both shapes, every numeric base type) *)
Theorem C15_vabs_preserves_nullness :
  forall (F : Type) (X : Ext F), ExtLaws X ->
  forall (shape : bool) (n : nt) (v w : val (if shape then Opt (N n) else Plain (N n))),
    canonical X _ v = true -> vabs X shape n v = Ok w -> is_none X _ w = is_none X _ v.
Proof.
  intros F X L shape n v w.
  destruct shape; cbn [vabs is_none canonical b_is_none].
  - destruct v as [x|]; intros Hc H.
    + destruct (n_abs X n x) as [a|k] eqn:E; cbn [bind] in H; [|discriminate]. injection H as <-.
      apply (n_abs_nullness X L) in E. rewrite E. apply negb_true_iff in Hc. cbn [b_is_none] in Hc. rewrite Hc. reflexivity.
    + injection H as <-. reflexivity.
  - intros _ H. destruct (n_abs X n v) as [a|k] eqn:E; cbn [bind] in H; [|discriminate]. injection H as <-.
    apply (n_abs_nullness X L). exact E.
Qed.

(* (5) casting never turns a null into a non-null when the target can represent nulls — every implemented pair
       outside known-finding class 1 (String <-> float / TimeDelta text) *)
Theorem C15_cast_null_preserved :
  forall (F : Type) (X : Ext F), ExtLaws X -> forall (s t : ty) (v : val s) (w : val t),
    implemented s t = true -> can_null t = true -> kf_text_null s t = false ->
    is_none X s v = true -> cast X s t v = Ok w -> is_none X t w = true.
Proof. exact @cast_null_preserved. Qed.

(* ... null to optional gives None (null to float gives NaN is the case t = Plain (N F32|F64) of (5)) *)
Theorem C15_cast_null_to_option_is_None :
  forall (F : Type) (X : Ext F), ExtLaws X -> forall (s : ty) (b : bt) (v : val s) (w : val (Opt b)),
    implemented s (Opt b) = true -> is_none X s v = true -> cast X s (Opt b) v = Ok w -> w = None.
Proof. intros F X _. exact (cast_null_to_option X). Qed.

(* (6) ... nor a non-null into a null: every implemented pair outside class 1 and the two parsers of C18, for
       canonical values, unless the converted integer is the i64::MIN sentinel of the time types or a TimeDelta's
       microseconds overflow i64 *)
Theorem C15_cast_nonnull_preserved :
  forall (F : Type) (X : Ext F), ExtLaws X -> forall (s t : ty) (v : val s) (w : val t),
    implemented s t = true -> can_null t = true -> kf_text_null s t = false -> parser_pair s t = false ->
    canonical X s v = true -> is_none X s v = false ->
    (is_time_ty t = true -> src_i64 X s v <> Some i64min) ->
    (t = Opt (N I64) -> td_src_ok s v = true) ->
    cast X s t v = Ok w -> is_none X t w = false.
Proof. exact @cast_nonnull_preserved. Qed.

(* (7) on non-null values a cast is the language's numeric conversion `as` (the identity for equal types), in all
       four Option shapes; the integer part of `as` is concrete: wrapping, identity inside the range, saturation *)
Theorem C15_cast_value_is_as :
  forall (F : Type) (X : Ext F) (a u : nt) (v : nval a),
    cast X (Plain (N a)) (Plain (N u)) v = Ok (as_nn X a u v) /\
    (n_is_none X a v = false -> cast X (Plain (N a)) (Opt (N u)) v = Ok (Some (as_nn X a u v))) /\
    cast X (Opt (N a)) (Opt (N u)) (Some v) = Ok (Some (as_nn X a u v)) /\
    cast X (Opt (N a)) (Plain (N u)) (Some v) = Ok (as_nn X a u v).
Proof. intros F X a u v. repeat split. intros H. cbn [cast cast_num]. rewrite H. reflexivity. Qed.

Theorem C15_as_integer_part :
  forall (F : Type) (X : Ext F) (t : nt) (z : Z) (f : F),
    (imin t < imax t -> imin t <= wrap t z <= imax t) /\
    (imin t <= z <= imax t -> imin t < imax t -> wrap t z = z) /\
    (is_float t = false -> imin t <= f2i X t f <= imax t).
Proof.
  intros F X t z f. split; [exact (wrap_range t z)|]. split; [exact (fun H _ => wrap_in_range t z H)|exact (f2i_range X t f)].
Qed.

(* (8) casts compose through Option on either side *)
Theorem C15_cast_composes_opt_opt :
  forall (F : Type) (X : Ext F) (a b : bt) (o : option (bval a)),
    implemented (Opt a) (Opt b) = true ->
    cast X (Opt a) (Opt b) o =
    match o with None => Ok None | Some v => do w <- cast X (Plain a) (Plain b) v; Ok (Some w) end.
Proof. exact @cast_opt_opt. Qed.

Theorem C15_cast_composes_plain_opt :
  forall (F : Type) (X : Ext F) (a b : bt) (v : bval a),
    implemented (Plain a) (Opt b) = true -> (bt_eqb a TD && bt_eqb b (N I64)) = false ->
    cast X (Plain a) (Opt b) v =
    if b_is_none X a v then Ok None else do w <- cast X (Plain a) (Plain b) v; Ok (Some w).
Proof.
  intros F X a b v Hi Hx. apply cast_plain_opt; [exact Hi|]. intros _ ->.
  destruct a; try reflexivity. discriminate Hx.
Qed.

Theorem C15_cast_composes_td_opt_i64 :
  forall (F : Type) (X : Ext F) (d : Z * Z) (q : Z),
    td_micros d = Some q ->
    cast X (Plain TD) (Opt (N I64)) d =
    if b_is_none X TD d then Ok None else do w <- cast X (Plain TD) (Plain (N I64)) d; Ok (Some w).
Proof.
  intros F X d q H. apply cast_plain_opt; [reflexivity|]. intros _ _. cbn [td_src_ok]. rewrite H. reflexivity.
Qed.

Theorem C15_cast_composes_opt_plain :
  forall (F : Type) (X : Ext F) (a b : bt),
    implemented (Opt a) (Plain b) = true ->
    (forall v : bval a, cast X (Opt a) (Plain b) (Some v) = cast X (Plain a) (Plain b) v) /\
    ((bt_eqb a Bool && is_time b) = false -> cast X (Opt a) (Plain b) None = none X (Plain b)).
Proof.
  intros F X a b Hi. split; [intros v; exact (cast_opt_plain X a b (Some v) Hi)|].
  intros Hx. rewrite (cast_opt_plain X a b None Hi), Hx. reflexivity.
Qed.

(* (9) the sort comparators are total preorders (reflexive, antisymmetric-up-to-equivalence hence total, transitive) *)
Theorem C15_sort_cmp_total_preorder :
  forall (F : Type) (X : Ext F), ExtLaws X -> forall (t : ty) (a b c : val t),
    canonical X t a = true -> canonical X t b = true -> canonical X t c = true ->
    sort_cmp X t a a = Ok Eq /\
    (exists o, sort_cmp X t a b = Ok o /\ sort_cmp X t b a = Ok (CompOpp o)) /\
    (le_res (sort_cmp X t a b) \/ le_res (sort_cmp X t b a)) /\
    (le_res (sort_cmp X t a b) -> le_res (sort_cmp X t b c) -> le_res (sort_cmp X t a c)).
Proof.
  intros F X L t a b c.
  exact (either_preorder X (sort_cmp X) (b_pcmp X) (sort_cmp_ocmp X) (b_pcmp_good X L) t a b c).
Qed.

Theorem C15_sort_cmp_rev_total_preorder :
  forall (F : Type) (X : Ext F), ExtLaws X -> forall (t : ty) (a b c : val t),
    canonical X t a = true -> canonical X t b = true -> canonical X t c = true ->
    sort_cmp_rev X t a a = Ok Eq /\
    (exists o, sort_cmp_rev X t a b = Ok o /\ sort_cmp_rev X t b a = Ok (CompOpp o)) /\
    (le_res (sort_cmp_rev X t a b) \/ le_res (sort_cmp_rev X t b a)) /\
    (le_res (sort_cmp_rev X t a b) -> le_res (sort_cmp_rev X t b c) -> le_res (sort_cmp_rev X t a c)).
Proof.
  intros F X L t a b c.
  exact (either_preorder X (sort_cmp_rev X) (rev_pc X) (sort_cmp_rev_is X) (rev_pc_good X L) t a b c).
Qed.

(* ... that order non-null values by value: ascending (the inner type's partial_cmp), resp. descending *)
Theorem C15_sort_cmp_orders_values :
  forall (F : Type) (X : Ext F), ExtLaws X -> forall (t : ty) (a b : val t) (x y : inner t),
    canonical X t a = true -> canonical X t b = true ->
    to_opt X t a = Some x -> to_opt X t b = Some y ->
    exists o, b_pcmp X (base t) x y = Some o /\ sort_cmp X t a b = Ok o /\ sort_cmp_rev X t a b = Ok (CompOpp o).
Proof.
  intros F X L t a b x y Ha Hb Ea Eb.
  destruct (either_values X (sort_cmp X) (b_pcmp X) (sort_cmp_ocmp X) (b_pcmp_good X L) t a b x y Ha Hb Ea Eb)
    as (o & E1 & E2).
  destruct (either_values X (sort_cmp_rev X) (rev_pc X) (sort_cmp_rev_is X) (rev_pc_good X L) t a b x y Ha Hb Ea Eb)
    as (o' & E1' & E2').
  exists o. split; [exact E1|]. split; [exact E2|]. rewrite E2'. f_equal.
  unfold rev_pc, flip_pc in E1'. rewrite E1 in E1'. cbn in E1'. congruence.
Qed.

Theorem C15_inner_order_is_value_order :
  forall (F : Type) (X : Ext F) (x y : Z) (p q : bool) (s1 s2 : str),
    b_pcmp X (N I32) x y = Some (x ?= y) /\ b_pcmp X (N I64) x y = Some (x ?= y) /\
    b_pcmp X (N U8) x y = Some (x ?= y) /\ b_pcmp X (N U64) x y = Some (x ?= y) /\
    b_pcmp X (N Usize) x y = Some (x ?= y) /\ b_pcmp X (N Isize) x y = Some (x ?= y) /\
    b_pcmp X DT x y = Some (x ?= y) /\ b_pcmp X TM x y = Some (x ?= y) /\
    b_pcmp X Bool p q = Some (bool_cmp p q) /\ b_pcmp X Str s1 s2 = Some (lex_cmp s1 s2).
Proof. repeat split. Qed.

(* ... and put nulls last in both directions *)
Theorem C15_sort_cmp_nulls_last :
  forall (F : Type) (X : Ext F) (t : ty) (a b : val t),
    is_none X t a = true ->
    (is_none X t b = false ->
       sort_cmp X t a b = Ok Gt /\ sort_cmp X t b a = Ok Lt /\
       sort_cmp_rev X t a b = Ok Gt /\ sort_cmp_rev X t b a = Ok Lt) /\
    (is_none X t b = true -> sort_cmp X t a b = Ok Eq /\ sort_cmp_rev X t a b = Ok Eq).
Proof.
  intros F X t a b Ha.
  destruct (either_nulls_last X (sort_cmp X) (b_pcmp X) (sort_cmp_ocmp X) t a b Ha) as [A1 A2].
  destruct (either_nulls_last X (sort_cmp_rev X) (rev_pc X) (sort_cmp_rev_is X) t a b Ha) as [B1 B2].
  split; intros Hb.
  - destruct (A1 Hb), (B1 Hb). auto.
  - auto.
Qed.

(* known-finding class 1 really fails (the premise kf_text_null = false of (5)/(6) cannot be dropped) *)
Theorem C15_text_null_class_refuted :
  (exists (v : val (Plain (N F64))) (w : val (Plain Str)),
      implemented (Plain (N F64)) (Plain Str) = true /\ can_null (Plain Str) = true /\
      is_none XZ (Plain (N F64)) v = true /\ cast XZ (Plain (N F64)) (Plain Str) v = Ok w /\
      is_none XZ (Plain Str) w = false) /\
  (exists (v : val (Plain Str)) (w : val (Plain (N F64))),
      implemented (Plain Str) (Plain (N F64)) = true /\ can_null (Plain (N F64)) = true /\
      is_none XZ (Plain Str) v = false /\ cast XZ (Plain Str) (Plain (N F64)) v = Ok w /\
      is_none XZ (Plain (N F64)) w = true).
Proof.
  split.
  - exists None, [78; 97; 78]. repeat split.
  - exists [78; 97; 78], None. repeat split.
Qed.

(* non-vacuity: the hypotheses are satisfiable and the implications have non-trivial instances *)

Example C15_laws_satisfiable : ExtLaws XZ.
Proof. exact XZ_laws. Qed.

(* 485 of the 676 ordered pairs are implemented; 26 type codes, 19 of which can represent a null *)
Example C15_universe_size :
  length all_ty = 26%nat /\
  length (filter (fun p => implemented (fst p) (snd p)) (list_prod all_ty all_ty)) = 485%nat /\
  length (filter can_null all_ty) = 19%nat.
Proof. vm_compute. repeat split. Qed.

(* (5): None : Option<i32> -> f64 is NaN, NaN -> DateTime is NaT, NaT -> Option<u8> is None *)
Example C15_example_null :
  cast XZ (Opt (N I32)) (Plain (N F64)) None = Ok None /\
  cast XZ (Plain (N F64)) (Plain DT) None = Ok i64min /\
  cast XZ (Plain TM) (Opt (N U8)) i64min = Ok None /\
  cast XZ (Plain TD) (Opt (N I64)) (i32min, 0) = Ok None /\
  cast XZ (Plain DT) (Plain (N F32)) i64min = Ok None.
Proof. vm_compute. repeat split. Qed.

(* (6),(7): 300 : i32 -> u8 wraps to 44, -> Option<f64> is Some 300.0, -> DateTime is 300; a sentinel collision *)
Example C15_example_nonnull :
  cast XZ (Plain (N I32)) (Plain (N U8)) 300 = Ok 44 /\
  cast XZ (Plain (N I32)) (Opt (N F64)) 300 = Ok (Some (Some 300)) /\
  cast XZ (Plain (N I32)) (Plain DT) 300 = Ok 300 /\
  cast XZ (Opt (N F64)) (Plain (N U8)) (Some (Some 300)) = Ok 255 /\
  cast XZ (Plain (N I64)) (Plain DT) i64min = Ok i64min /\
  src_i64 XZ (Plain (N I64)) i64min = Some i64min.
Proof. vm_compute. repeat split. Qed.

(* (4): vabs on Some(-3), None and a float NaN *)
Example C15_example_vabs :
  vabs XZ true I32 (Some (-3)) = Ok (Some 3) /\ vabs XZ true I32 None = Ok None /\
  vabs XZ false F64 None = Ok None /\ vabs XZ false I32 (imin I32) = Panic Overflow.
Proof. vm_compute. repeat split. Qed.

(* (9): ascending / descending on values, nulls last in both *)
Example C15_example_order :
  sort_cmp XZ (Opt (N I32)) (Some 1) (Some 2) = Ok Lt /\ sort_cmp_rev XZ (Opt (N I32)) (Some 1) (Some 2) = Ok Gt /\
  sort_cmp XZ (Opt (N I32)) None (Some 2) = Ok Gt /\ sort_cmp_rev XZ (Opt (N I32)) None (Some 2) = Ok Gt /\
  sort_cmp XZ (Plain (N F64)) None (Some 2) = Ok Gt /\ sort_cmp_rev XZ (Plain (N F64)) (Some 2) None = Ok Lt /\
  sort_cmp XZ (Plain Str) s_None s_true = Ok Gt /\ sort_cmp XZ (Plain TD) (0, 5) (1, 0) = Ok Lt.
Proof. vm_compute. repeat split. Qed.


(* (A1)-(A12), clause by clause (notes/C15.md); lemmas: Proofs/Audit15.v and the per-arm lemmas of Proofs/CastLattice.v *)
From Tevec Require Import Proofs.Audit15.
From Tevec Require Model.Time Proofs.Time Proofs.Audit16.

(* (A1) the premise of (6) about the sentinel is exact: a canonical non-null numeric value cast to DateTime / TimeDelta /
        Time is null EXACTLY when the i64 it passes through is i64::MIN (every numeric source, plain or Option) *)
Theorem C15_cast_to_time_null_iff_sentinel :
  forall (F : Type) (X : Ext F) (s t : ty) (v : val s) (w : val t),
    num_src s = true -> is_time_ty t = true ->
    canonical X s v = true -> is_none X s v = false -> cast X s t v = Ok w ->
    (is_none X t w = true <-> src_i64 X s v = Some i64min).
Proof.
  intros F X s t v w Hs Ht Hcan Hn Hw. destruct t as [b|b]; [|discriminate Ht].
  destruct s as [[a| | | | |]|[a| | | | |]]; try discriminate Hs.
  - exact (cast_num_time_null_iff X a b v w Ht Hn Hw).
  - destruct v as [x|]; [|discriminate Hn]. apply negb_true_iff in Hcan.
    exact (cast_num_time_null_iff X a b x w Ht Hcan Hw).
Qed.

(* (A2) the other premise of (6): TimeDelta -> i64 / Option<i64>.  Microseconds in range: the quotient toward zero;
        overflowing microseconds: the null of the target (None, resp. the i64::MIN sentinel); months <> 0: panic *)
Theorem C15_cast_timedelta_to_i64 :
  forall (F : Type) (X : Ext F) (d : Z * Z),
    (forall q, fst d = 0 -> td_micros d = Some q ->
       cast X (Plain TD) (Opt (N I64)) d = Ok (Some q) /\ cast X (Plain TD) (Plain (N I64)) d = Ok q /\
       q = Z.quot (snd d) 1000 /\ i64min <= q <= 2 ^ 63 - 1) /\
    (fst d = 0 -> td_micros d = None ->
       cast X (Plain TD) (Opt (N I64)) d = Ok None /\ cast X (Plain TD) (Plain (N I64)) d = Ok i64min) /\
    (forall u, fst d <> 0 -> fst d <> i32min ->
       cast X (Plain TD) (Plain (N u)) d = Panic OtherPanic /\ cast X (Plain TD) (Opt (N u)) d = Panic OtherPanic).
Proof.
  intros F X d. split; [|split].
  - intros q H0 Hm. cbn [cast cast_time time_to_opt_i64 time_to_i64]. rewrite H0, Hm.
    split; [reflexivity|]. split; [reflexivity|]. unfold td_micros in Hm.
    destruct ((i64min <=? Z.quot (snd d) 1000) && (Z.quot (snd d) 1000 <=? 2 ^ 63 - 1)) eqn:E; [|discriminate].
    injection Hm as <-. apply andb_true_iff in E. destruct E as [E1 E2]. apply Z.leb_le in E1, E2. auto.
  - intros H0 Hm. cbn [cast cast_time time_to_opt_i64 time_to_i64]. rewrite H0, Hm. split; reflexivity.
  - intros u H0 Hn. apply Z.eqb_neq in H0, Hn.
    assert (E : time_to_i64 (F := F) TD d = Panic OtherPanic) by (cbn [time_to_i64]; rewrite H0; reflexivity).
    destruct u; cbn [cast cast_time time_to_opt_i64]; unfold time_to_n; cbn [b_is_none]; rewrite ?Hn, ?E, ?H0;
      split; reflexivity.
Qed.

(* (A3) a null source and a target that CANNOT represent a null: a panic, never a made-up value - None -> integer / bool,
        "None" -> integer / bool, NaT -> integer / bool; the raw views DateTime / Time -> i64 return the sentinel itself
        (float NaN -> integer follows the language's `as`, theorem (7)) *)
Theorem C15_cast_null_to_nonnullable_panics :
  forall (F : Type) (X : Ext F),
    (forall a b, implemented (Opt a) (Plain b) = true -> b_can_null b = false ->
       cast X (Opt a) (Plain b) None = Panic OtherPanic) /\
    (forall b, implemented (Plain Str) (Plain b) = true -> b_can_null b = false ->
       cast X (Plain Str) (Plain b) s_None = Panic OtherPanic) /\
    (forall a u (v : bval a), is_time a = true -> is_float u = false -> nt_eqb u I64 = false ->
       b_is_none X a v = true ->
       cast X (Plain a) (Plain (N u)) v = Panic OtherPanic /\ cast X (Plain a) (Plain Bool) v = Panic OtherPanic) /\
    (forall ns, cast X (Plain DT) (Plain (N I64)) i64min = Ok i64min /\
                cast X (Plain TM) (Plain (N I64)) i64min = Ok i64min /\
                cast X (Plain TD) (Plain (N I64)) (i32min, ns) = Panic OtherPanic).
Proof.
  intros F X. split; [|split; [|split; [|repeat split]]].
  - intros a b Hi Hc. rewrite (cast_opt_plain X a b None Hi). destruct (bt_eqb a Bool && is_time b); [reflexivity|].
    destruct b as [[]| | | | |]; try discriminate Hc; reflexivity.
  - intros b Hi Hc. destruct b as [[]| | | | |]; try discriminate Hi; try discriminate Hc; reflexivity.
  - intros a u v Ha Hu H64 Hn.
    destruct a; try discriminate Ha; destruct u; try discriminate Hu; try discriminate H64;
      cbn [cast cast_time]; unfold time_to_n, time_to_bool; rewrite Hn; split; reflexivity.
Qed.

(* (A4) (5) says "if the cast returns": which null casts into a NULLABLE target do not return is a finite list, all by
        design (Option<bool> -> time, "None" -> DateTime / TimeDelta / f32 / f64 parsers, DateTime <-> TimeDelta
        unreachable!()); every other implemented pair returns on every null *)
Theorem C15_cast_null_total_or_panics_by_design :
  forall (F : Type) (X : Ext F), ExtLaws X -> forall (s t : ty) (v : val s),
    implemented s t = true -> can_null t = true -> is_none X s v = true ->
    if null_panics s t then cast X s t v = Panic OtherPanic else exists w, cast X s t v = Ok w.
Proof.
  intros F X L s t v Hi Hc Hn. destruct t as [b|b].
  2: { rewrite null_panics_opt_target. exists None. exact (cast_null_to_opt X s b v Hi Hn). }
  destruct s as [a|a]; cbn [is_none can_null] in *.
  - destruct a as [n| | | | |]; cbn [b_is_none] in Hn.
    + exact (cast_num_total X n b v Hc).
    + discriminate Hn.
    + apply str_eqb_eq in Hn. subst v. exact (cast_str_None_total X L b Hi Hc).
    + exact (cast_time_null_total X DT b v eq_refl Hi Hc Hn).
    + exact (cast_time_null_total X TD b v eq_refl Hi Hc Hn).
    + exact (cast_time_null_total X TM b v eq_refl Hi Hc Hn).
  - destruct v; [discriminate Hn|]. rewrite (null_panics_opt_source a b Hi), (cast_opt_plain X a b None Hi).
    destruct (bt_eqb a Bool && is_time b); [reflexivity|]. apply (none_defined X (Plain b)). exact Hc.
Qed.

(* (A5) vabs, the values: integers get the mathematical |x| (again in range), unsigned are untouched, the only panic is
        the overflow of a signed minimum (debug build), Option re-wraps *)
Theorem C15_vabs_values :
  forall (F : Type) (X : Ext F) (x : Z) (f : F),
    (n_abs X I32 x = if x =? imin I32 then Panic Overflow else Ok (Z.abs x)) /\
    (n_abs X I64 x = if x =? imin I64 then Panic Overflow else Ok (Z.abs x)) /\
    (n_abs X Isize x = if x =? imin Isize then Panic Overflow else Ok (Z.abs x)) /\
    n_abs X U8 x = Ok x /\ n_abs X U64 x = Ok x /\ n_abs X Usize x = Ok x /\
    n_abs X F32 f = Ok (fabs X f) /\ n_abs X F64 f = Ok (fabs X f) /\
    (forall n, is_signed n = true -> imin n < x <= imax n -> 0 <= Z.abs x <= imax n).
Proof.
  intros F X x f. do 8 (split; [reflexivity|]).
  intros n Hs Hr. exact (proj1 (n_abs_signed_in_range X n x Hs Hr)).
Qed.

Theorem C15_vabs_rewraps_and_panics_only_on_signed_min :
  forall (F : Type) (X : Ext F) (n : nt),
    (forall x a : nval n, n_abs X n x = Ok a -> n_is_none X n a = false ->
       vabs X true n (Some x) = Ok (Some a) /\ vabs X true n None = Ok None /\ vabs X false n x = Ok a) /\
    (forall (shape : bool) (v : val (if shape then Opt (N n) else Plain (N n))) k,
       vabs X shape n v = Panic k -> k = Overflow /\ is_signed n = true).
Proof.
  intros F X n. split.
  - intros x a H Hn. cbn [vabs]. rewrite H. cbn [bind]. rewrite Hn. auto.
  - intros shape v k. destruct shape; cbn [vabs]; [destruct v as [v|]; [|discriminate]|];
      (destruct (n_abs X n v) eqn:E; cbn [bind]; [discriminate|]); intros [= <-]; exact (n_abs_panics X n v _ E).
Qed.

(* (A6) IsNone::map: applied to the inner value of a non-null; Option source: None gives U::none(); a plain source
        (overridden in every non-Option impl) applies f to the value whatever it is - also to NaN / "None" / NaT - and the
        nullness of the result is that of f's result *)
Theorem C15_map_spec :
  forall (F : Type) (X : Ext F) (s u : ty) (f : inner s -> inner u) (v : val s),
    (forall x, to_opt X s v = Some x -> map_ X s u f v = Ok (from_inner X u (f x))) /\
    (forall b (E : s = Opt b), eq_rect s val v (Opt b) E = None -> map_ X s u f v = none X u) /\
    (forall x w, to_opt X s v = Some x -> map_ X s u f v = Ok w -> is_none X u w = b_is_none X (base u) (f x)).
Proof.
  intros F X s u f v.
  assert (H1 : forall x, to_opt X s v = Some x -> map_ X s u f v = Ok (from_inner X u (f x))).
  { intros x Hx. destruct s as [b|b]; cbn [map_ to_opt] in *.
    - destruct (b_is_none X b v); [discriminate|]. injection Hx as <-. reflexivity.
    - subst v. reflexivity. }
  split; [exact H1|]. split.
  - intros b E Hv. subst s. cbn [eq_rect] in Hv. subst v. reflexivity.
  - intros x w Hx Hw. rewrite (H1 x Hx) in Hw. injection Hw as <-.
    destruct u as [b|b]; cbn [from_inner is_none base]; [reflexivity|].
    destruct (b_is_none X b (f x)); reflexivity.
Qed.

Theorem C15_map_plain_source_applies_f_to_nulls_too :
  forall (F : Type) (X : Ext F) (b : bt) (u : ty) (f : bval b -> inner u) (v : bval b),
    map_ X (Plain b) u f v = Ok (from_inner X u (f v)).
Proof. reflexivity. Qed.

(* (A7) casts of the non-numeric pairs, the values: bool -> numeric / String / Option<bool>; numeric -> bool *)
Theorem C15_cast_bool_values :
  forall (F : Type) (X : Ext F) (b : bool),
    cast X (Plain Bool) (Plain (N I32)) b = Ok (if b then 1 else 0) /\
    cast X (Plain Bool) (Plain (N I64)) b = Ok (if b then 1 else 0) /\
    cast X (Plain Bool) (Plain (N U8)) b = Ok (if b then 1 else 0) /\
    cast X (Plain Bool) (Plain (N U64)) b = Ok (if b then 1 else 0) /\
    cast X (Plain Bool) (Plain (N Usize)) b = Ok (if b then 1 else 0) /\
    cast X (Plain Bool) (Plain (N Isize)) b = Ok (if b then 1 else 0) /\
    cast X (Plain Bool) (Plain (N F64)) b = Ok (z2f64 X (if b then 1 else 0)) /\
    cast X (Plain Bool) (Plain (N F32)) b = Ok (z2f32 X (if b then 1 else 0)) /\
    cast X (Plain Bool) (Plain Str) b = Ok (if b then s_true else s_false) /\
    cast X (Plain Bool) (Opt Bool) b = Ok (Some b) /\ cast X (Plain Bool) (Plain Bool) b = Ok b.
Proof. intros F X b. destruct b; repeat split. Qed.

Theorem C15_cast_numeric_to_bool :
  forall (F : Type) (X : Ext F) (a : nt) (v : nval a),
    cast X (Plain (N a)) (Plain Bool) v =
      (let i : Z := as_nn X a I32 v in if i =? 0 then Ok false else if i =? 1 then Ok true else Panic OtherPanic) /\
    cast X (Opt (N a)) (Plain Bool) (Some v) = cast X (Plain (N a)) (Plain Bool) v /\
    cast X (Opt (N a)) (Plain Bool) None = Panic OtherPanic.
Proof. repeat split. Qed.

(* (A8) integer -> integer `as` (every integer source: as_nn s u = z_to s u): the value is preserved EXACTLY WHEN it is
        representable in the target; otherwise the result is in range and congruent modulo 2^bits *)
Theorem C15_int_cast_exact_iff_representable :
  forall (F : Type) (X : Ext F) (s u : nt) (z : Z),
    is_float u = false ->
    (as_nn X I32 u = z_to X I32 u /\ as_nn X I64 u = z_to X I64 u /\ as_nn X U8 u = z_to X U8 u /\
     as_nn X U64 u = z_to X U64 u /\ as_nn X Usize u = z_to X Usize u /\ as_nn X Isize u = z_to X Isize u) /\
    match u return nval u -> Prop with
    | F32 | F64 => fun _ => True
    | _ => fun r => (nt_eqb s u = true -> r = z) /\
                    (nt_eqb s u = false ->
                       imin u <= r <= imax u /\ (r = z <-> imin u <= z <= imax u) /\
                       exists k, r = z + k * (imax u - imin u + 1))
    end (z_to X s u z).
Proof. intros F X s u z Hu. split; [repeat split|apply int_as_exact_iff]. Qed.

(* (A9) the comparators never panic: no premise on the values (also Some(NaN), non-canonical), no law on the floats *)
Theorem C15_sort_cmp_never_panics :
  forall (F : Type) (X : Ext F) (t : ty) (a b : val t),
    (exists o, sort_cmp X t a b = Ok o) /\ (exists o, sort_cmp_rev X t a b = Ok o).
Proof.
  intros F X t a b. split; eexists; [apply sort_cmp_ocmp|apply sort_cmp_rev_is].
Qed.

(* (A10) the unit-changing casts DateTime<A> -> DateTime<B> (time_unit_cast! = into_unit, all 16 unit pairs): NaT stays
         NaT, a non-null never becomes NaT, the only failure is the overflow panic of a refinement *)
Theorem C15_unit_cast_nullness :
  forall (u t : Time.tunit) (x : Z),
    Time.into_unit u t Time.NaT = Ok Time.NaT /\
    (forall y, Time.in_i64 x = true -> Time.into_unit u t x = Ok y -> Time.is_nat y = Time.is_nat x) /\
    (forall k, Time.into_unit u t x = Panic k ->
       k = Overflow /\ Time.is_nat x = false /\ Time.unit_ns t < Time.unit_ns u).
Proof.
  intros u t x. split; [exact (Proofs.Time.into_unit_nat u t)|]. split.
  - intros y Hx H. destruct (Time.is_nat x) eqn:Ex.
    + apply Proofs.Time.is_nat_true in Ex. subst x. rewrite Proofs.Time.into_unit_nat in H. injection H as <-. reflexivity.
    + apply Proofs.Time.is_nat_false. intros ->. apply Proofs.Time.is_nat_false in Ex. apply Ex.
      apply (Audit16.into_unit_nat_iff u t x Hx). exact H.
  - intros k H. apply Audit16.into_unit_panics_iff in H. destruct H as (-> & Hf & Hx & _).
    split; [reflexivity|]. split; [apply Proofs.Time.is_nat_false; exact Hx|].
    rewrite (Proofs.Time.ratio_unit_ns u t Hf), <- (Z.mul_1_l (Time.unit_ns t)) at 1.
    apply Z.mul_lt_mono_pos_r; [destruct t; reflexivity|exact (Proofs.Time.ratio_pos u t Hf)].
Qed.

(* (A11) IsNone for Vec<T>: the null is the empty vector; the predicates agree; wrap / unwrap are the identity *)
Theorem C15_vec_isnone_coherent :
  forall (T : Type) (v : list T),
    vec_not_none v = negb (vec_is_none v) /\
    (vec_to_opt v = None <-> vec_is_none v = true) /\
    vec_as_opt v = vec_to_opt v /\
    (forall x, vec_to_opt v = Some x -> vec_unwrap v = Ok x /\ x = v) /\
    vec_is_none (@vec_none T) = true /\
    (vec_is_none v = true <-> v = []) /\
    (vec_is_none v = false -> vec_to_opt (vec_from_inner v) = Some v /\ vec_from_opt (vec_to_opt v) = v) /\
    vec_from_opt (@None (list T)) = [].
Proof.
  intros T v.
  unfold vec_not_none, vec_to_opt, vec_as_opt, vec_unwrap, vec_from_opt, vec_from_inner, vec_none.
  destruct v as [|a r]; cbn; repeat split; try discriminate; try reflexivity; intros; try discriminate;
    try (injection H as <-; reflexivity).
Qed.

(* (A12) the coverage table: the 676 ordered pairs split into 191 not implemented, 154 implemented with a target that
         cannot represent a null ((7), (A3)), 5 of known-finding class 1, the 2 parsers of C18 (compared only), and 324
         to which (5) and (6) apply *)
Theorem C15_pair_coverage :
  count_class 0 = 191%nat /\ count_class 1 = 154%nat /\ count_class 2 = 5%nat /\ count_class 3 = 2%nat /\
  count_class 4 = 324%nat.
Proof. vm_compute. repeat split. Qed.

(* ---- non-vacuity of (A1)-(A12) -------------------------------------------------------------------- *)
Example C15_example_sentinel :
  cast XZ (Plain (N I64)) (Plain TD) i64min = Ok (i32min, 0) /\ src_i64 XZ (Plain (N I64)) i64min = Some i64min /\
  cast XZ (Opt (N F64)) (Plain TM) (Some (Some i64min)) = Ok i64min /\
  cast XZ (Plain (N I32)) (Plain DT) 5 = Ok 5 /\ num_src (Opt (N F64)) = true /\ is_time_ty (Plain TM) = true.
Proof. vm_compute. repeat split. Qed.

Example C15_example_timedelta_i64 :
  td_micros (0, 7999) = Some 7 /\ td_micros (0, -7999) = Some (-7) /\ td_micros (0, 2 ^ 63 * 1000) = None /\
  cast XZ (Plain TD) (Opt (N I64)) (0, 2 ^ 63 * 1000) = Ok None /\
  cast XZ (Plain TD) (Plain (N I32)) (3, 0) = Panic OtherPanic.
Proof. vm_compute. repeat split. Qed.

Example C15_example_null_to_nonnullable :
  implemented (Opt (N F64)) (Plain (N I32)) = true /\ b_can_null (N I32) = false /\
  cast XZ (Opt (N F64)) (Plain (N I32)) None = Panic OtherPanic /\
  cast XZ (Plain Str) (Plain Bool) s_None = Panic OtherPanic /\
  cast XZ (Plain TM) (Plain (N U8)) i64min = Panic OtherPanic /\
  null_panics (Opt Bool) (Plain DT) = true /\ cast XZ (Opt Bool) (Plain DT) None = Panic OtherPanic /\
  null_panics (Opt (N I32)) (Plain DT) = false /\ cast XZ (Opt (N I32)) (Plain DT) None = Ok i64min.
Proof. vm_compute. repeat split. Qed.

Example C15_example_values :
  cast XZ (Plain (N I32)) (Plain (N U8)) 255 = Ok 255 /\ cast XZ (Plain (N I32)) (Plain (N U8)) 256 = Ok 0 /\
  cast XZ (Plain (N I64)) (Plain (N I32)) (2 ^ 31) = Ok (- 2 ^ 31) /\
  cast XZ (Plain (N I32)) (Plain Bool) 1 = Ok true /\ cast XZ (Plain (N I32)) (Plain Bool) 2 = Panic OtherPanic /\
  n_abs XZ I32 (-5) = Ok 5 /\ n_abs XZ I32 (imin I32) = Panic Overflow /\ n_abs XZ U8 200 = Ok 200 /\
  map_ XZ (Plain (N F64)) (Plain (N F64)) (fun _ => Some 1) None = Ok (Some 1) /\
  map_ XZ (Opt (N F64)) (Plain (N F64)) (fun _ => Some 1) None = Ok None.
Proof. vm_compute. repeat split. Qed.

Example C15_example_unit_cast :
  Time.into_unit Time.Nano Time.Milli (-1) = Ok (-1) /\ Time.into_unit Time.Sec Time.Nano (2 ^ 62) = Panic Overflow /\
  Time.into_unit Time.Milli Time.Nano Time.NaT = Ok Time.NaT /\ Time.in_i64 (-1) = true.
Proof. vm_compute. repeat split. Qed.

Print Assumptions C15_predicates_coherent.
Print Assumptions C15_none_is_null.
Print Assumptions C15_wrap_unwrap_identity.
Print Assumptions C15_from_opt_to_opt.
Print Assumptions C15_into_cast_rewraps.
Print Assumptions C15_vabs_preserves_nullness.
Print Assumptions C15_cast_null_preserved.
Print Assumptions C15_cast_null_to_option_is_None.
Print Assumptions C15_cast_nonnull_preserved.
Print Assumptions C15_cast_value_is_as.
Print Assumptions C15_as_integer_part.
Print Assumptions C15_cast_composes_opt_opt.
Print Assumptions C15_cast_composes_plain_opt.
Print Assumptions C15_cast_composes_td_opt_i64.
Print Assumptions C15_cast_composes_opt_plain.
Print Assumptions C15_sort_cmp_total_preorder.
Print Assumptions C15_sort_cmp_rev_total_preorder.
Print Assumptions C15_sort_cmp_orders_values.
Print Assumptions C15_inner_order_is_value_order.
Print Assumptions C15_sort_cmp_nulls_last.
Print Assumptions C15_text_null_class_refuted.
Print Assumptions C15_cast_to_time_null_iff_sentinel.
Print Assumptions C15_cast_timedelta_to_i64.
Print Assumptions C15_cast_null_to_nonnullable_panics.
Print Assumptions C15_cast_null_total_or_panics_by_design.
Print Assumptions C15_vabs_values.
Print Assumptions C15_vabs_rewraps_and_panics_only_on_signed_min.
Print Assumptions C15_map_spec.
Print Assumptions C15_map_plain_source_applies_f_to_nulls_too.
Print Assumptions C15_cast_bool_values.
Print Assumptions C15_cast_numeric_to_bool.
Print Assumptions C15_int_cast_exact_iff_representable.
Print Assumptions C15_sort_cmp_never_panics.
Print Assumptions C15_unit_cast_nullness.
Print Assumptions C15_vec_isnone_coherent.
Print Assumptions C15_pair_coverage.
