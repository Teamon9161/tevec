(* Props/C01.v — property C01: rolling moments and weighted averages equal from-scratch window
   evaluation.  (0)-(14): carrier XR = option R (exact reals + one absorbing NaN), every series, every
   window w >= 1, every min_periods, every position, both driver bodies.  (B1)-(B10): the execution
   instance at binary64.  (A1)-(A13): window 0, the empty series, every carrier; the plain family on NaN. *)
From Coq Require Import Reals Lra List.
From Tevec Require Import Base.Prelude Base.Num Base.XR Spec.Stats Model.Driver Model.Features
     Model.Fdiff Proofs.Outcome Proofs.Features Proofs.Fdiff Proofs.Fdiff2 Proofs.Features2.
Import ListNotations.

(* (0) the accumulator never drifts: at emit time of every step it holds exactly the count and the
   first four power sums of the non-null elements of the window max(0,i-w+1)..=i — whatever the
   statistic computed from it (sum, mean, std, var, skew, kurt share this accumulator).          *)
Theorem C01_state_tracks_window :
  forall (emit : @mom XR -> XR) (body : bool) (w : nat) (xs : list XR),
    1 <= w ->
    exists out, ts_run (mom_feat emit) body w xs = Done out /\ length out = length xs /\
      forall i v, nth_error xs i = Some v ->
        exists s, nth_error out i = Some (emit s) /\
          m_n s = nv (win w i xs) /\
          m_s1 s = Some (psum 1 (valid (win w i xs))) /\ m_s2 s = Some (psum 2 (valid (win w i xs))) /\
          m_s3 s = Some (psum 3 (valid (win w i xs))) /\ m_s4 s = Some (psum 4 (valid (win w i xs))).
Proof.
  intros emit body w xs Hw.
  destruct (mom_state_tracks_window emit body w xs Hw) as (out & H1 & H2 & H3).
  exists out. split; [exact H1|]. split; [exact H2|]. intros i v Hv.
  destruct (H3 i v Hv) as (s & Habs & Hn). exists s. split; [exact Hn|exact Habs].
Qed.

(* (1) rolling sum *)
Theorem C01_ts_vsum :
  forall (body : bool) (w : nat) (mp : option nat) (xs : list XR), 1 <= w ->
    exists out, ts_run (ts_vsum_f w mp) body w xs = Done out /\ length out = length xs /\
      forall i, i < length xs ->
        nth_error out i =
        Some (let V := valid (win w i xs) in
              if mp_eff mp w 0 <=? length V then Some (sumR V) else None).
Proof. intros body w mp xs Hw. apply done_map_iff, ts_vsum_run, Hw. Qed.

(* (2) rolling mean: null when the window has no valid element *)
Theorem C01_ts_vmean :
  forall (body : bool) (w : nat) (mp : option nat) (xs : list XR), 1 <= w ->
    exists out, ts_run (ts_vmean_f w mp) body w xs = Done out /\ length out = length xs /\
      forall i, i < length xs ->
        nth_error out i =
        Some (let V := valid (win w i xs) in
              if mp_eff mp w 0 <=? length V then (if length V =? 0 then None else Some (meanR V))
              else None).
Proof. intros body w mp xs Hw. apply done_map_iff, ts_vmean_run, Hw. Qed.

(* (3) rolling sample variance / standard deviation, with the EPS floor made explicit *)
Theorem C01_ts_vvar :
  forall (body : bool) (w : nat) (mp : option nat) (xs : list XR), 1 <= w ->
    exists out, ts_run (ts_vvar_f w mp) body w xs = Done out /\ length out = length xs /\
      forall i, i < length xs ->
        nth_error out i =
        Some (let V := valid (win w i xs) in
              if mp_eff mp w 2 <=? length V
              then (if Rlt_dec EPS (popvarR V) then Some (samplevarR V) else Some 0%R) else None).
Proof. intros body w mp xs Hw. apply done_map_iff, ts_vvar_run, Hw. Qed.

Theorem C01_ts_vstd :
  forall (body : bool) (w : nat) (mp : option nat) (xs : list XR), 1 <= w ->
    exists out, ts_run (ts_vstd_f w mp) body w xs = Done out /\ length out = length xs /\
      forall i, i < length xs ->
        nth_error out i =
        Some (let V := valid (win w i xs) in
              if mp_eff mp w 2 <=? length V
              then (if Rlt_dec EPS (popvarR V) then Some (samplestdR V) else Some 0%R) else None).
Proof. intros body w mp xs Hw. apply done_map_iff, ts_vstd_run, Hw. Qed.

(* the floor is a rounding device: where it applies the textbook variance is at most 2 EPS *)
Theorem C01_eps_floor_bounded :
  forall V : list R, 2 <= length V -> ~ (EPS < popvarR V)%R -> (samplevarR V <= 2 * EPS)%R.
Proof. exact eps_floor_bounded. Qed.

(* (4) exponentially weighted mean: state = sum_k oma^k x_(k), output = its normalised value *)
Theorem C01_ts_vewm :
  forall (body : bool) (w : nat) (mp : option nat) (xs : list XR), 1 <= w ->
    let oma := (1 - 2 / INR w)%R in
    exists out, ts_run (ts_vewm_f w mp) body w xs = Done out /\ length out = length xs /\
      forall i, i < length xs ->
        nth_error out i =
        Some (let V := valid (win w i xs) in
              if mp_eff mp w 0 <=? length V then
                (if Req_EM_T (1 - oma ^ length V) 0 then None
                 else Some (ewsum oma V * (2 / INR w) / (1 - oma ^ length V))%R)
              else None).
Proof. intros body w mp xs Hw oma. apply done_map_iff, ts_vewm_run; exact Hw. Qed.

Theorem C01_ewm_is_weighted_average :
  forall (w : nat) (V : list R), 1 <= w ->
    let oma := (1 - 2 / INR w)%R in
    (1 - oma ^ length V <> 0)%R ->
    (ewsum oma V * (2 / INR w) / (1 - oma ^ length V) = ewmR oma V)%R.
Proof. intros w V Hw oma Hd. apply (ewm_normalised w). exact Hd. Qed.

(* (5) linearly weighted mean: sum_t t x_t / (n(n+1)/2) over the valid window *)
Theorem C01_ts_vwma :
  forall (body : bool) (w : nat) (mp : option nat) (xs : list XR), 1 <= w ->
    exists out, ts_run (ts_vwma_f w mp) body w xs = Done out /\ length out = length xs /\
      forall i, i < length xs ->
        nth_error out i =
        Some (let V := valid (win w i xs) in
              if mp_eff mp w 0 <=? length V then (if length V =? 0 then None else Some (wmaR V))
              else None).
Proof. intros body w mp xs Hw. apply done_map_iff, ts_vwma_run, Hw. Qed.

(* (6) adjusted skewness and excess kurtosis *)
Theorem C01_ts_vskew :
  forall (body : bool) (w : nat) (mp : option nat) (xs : list XR), 1 <= w ->
    exists out, ts_run (ts_vskew_f w mp) body w xs = Done out /\ length out = length xs /\
      forall i, i < length xs ->
        nth_error out i =
        Some (let V := valid (win w i xs) in
              if mp_eff mp w 3 <=? length V
              then (if Rle_dec (popvarR V) EPS then Some 0%R else Some (skewR V)) else None).
Proof. intros body w mp xs Hw. apply done_map_iff, ts_vskew_run, Hw. Qed.

Theorem C01_ts_vkurt :
  forall (body : bool) (w : nat) (mp : option nat) (xs : list XR), 1 <= w ->
    exists out, ts_run (ts_vkurt_f w mp) body w xs = Done out /\ length out = length xs /\
      forall i, i < length xs ->
        nth_error out i =
        Some (let V := valid (win w i xs) in
              if mp_eff mp w 4 <=? length V
              then (if Rle_dec (popvarR V) EPS then Some 0%R else Some (kurtR V)) else None).
Proof. intros body w mp xs Hw. apply done_map_iff, ts_vkurt_run, Hw. Qed.

(* (7) fractional difference (plain family, finite series): weights (-1)^k C(d,k) on the k-th most
   recent element of the window, also during warm-up *)
Theorem C01_ts_fdiff :
  forall (body : bool) (d : R) (w : nat) (rs : list R), 1 <= w ->
    exists out, ts_fdiff body (Some d) w (fun x : XR => x) (map Some rs) = Done out /\
      length out = length rs /\
      forall i, i < length rs -> nth_error out i = Some (Some (fdiffR d (win w i rs))).
Proof. exact ts_fdiff_spec. Qed.

(* (8) the plain family ts_sum .. ts_kurt, ts_ewm, ts_wma is the same code with a never-null
   dictionary; on null-free input it coincides with the null-aware family, so (1)-(6) apply *)
Theorem C01_plain_family_moments :
  forall (emit : @mom XR -> XR) (body : bool) (w : nat) (rs : list R), 1 <= w ->
    ts_run (mom_feat (DT := IsNone_never) emit) body w (map Some rs)
    = ts_run (mom_feat (DT := IsNoneXR) emit) body w (map Some rs).
Proof. exact plain_family_mom. Qed.

Theorem C01_plain_family_ewm :
  forall (w : nat) (mp : option nat) (body : bool) (rs : list R), 1 <= w ->
    ts_run (ts_vewm_f (DT := IsNone_never) w mp) body w (map Some rs)
    = ts_run (ts_vewm_f (DT := IsNoneXR) w mp) body w (map Some rs).
Proof. exact plain_family_ewm. Qed.

Theorem C01_plain_family_wma :
  forall (w : nat) (mp : option nat) (body : bool) (rs : list R), 1 <= w ->
    ts_run (ts_vwma_f (DT := IsNone_never) w mp) body w (map Some rs)
    = ts_run (ts_vwma_f (DT := IsNoneXR) w mp) body w (map Some rs).
Proof. exact plain_family_wma. Qed.

(* ---------------------------------------------------------------------------------------------
   (9) the null-aware fractional difference ts_vfdiff.  What the code does, faithfully:
       n = number of non-null elements of the window max(0,i-w+1)..=i; null iff
       n < min(min_periods.unwrap_or(w/2), w); otherwise the nulls are COMPACTED OUT and the k-th most
       recent VALID element gets (-1)^k C(d,k) — a null shifts the weights of all older elements,
       and a null in the current position does not null the output.                            *)
Theorem C01_ts_vfdiff :
  forall (body : bool) (d : R) (w : nat) (mp : option nat) (xs : list XR), 1 <= w ->
    exists out, ts_vfdiff (DT := IsNoneXR) body (Some d) w mp xs = Done out /\
      length out = length xs /\
      forall i, i < length xs ->
        nth_error out i =
        Some (let V := valid (win w i xs) in
              if mp_eff mp w 0 <=? length V then Some (fdiffR d V) else None).
Proof. exact ts_vfdiff_spec. Qed.

(* the same with the sum written out: V_(k) = k-th most recent valid element of the window *)
Theorem C01_ts_vfdiff_textbook :
  forall (body : bool) (d : R) (w : nat) (mp : option nat) (xs : list XR), 1 <= w ->
    exists out, ts_vfdiff (DT := IsNoneXR) body (Some d) w mp xs = Done out /\
      length out = length xs /\
      forall i, i < length xs ->
        nth_error out i =
        Some (let V := valid (win w i xs) in
              if mp_eff mp w 0 <=? length V
              then Some (sumR (map (fun k => (-1) ^ k * binomR d k * nth (length V - 1 - k) V 0)
                                   (seq 0 (length V))))%R
              else None).
Proof.
  intros body d w mp xs Hw. apply done_map_iff. apply (done_map_ext _ _ _ _ (ts_vfdiff_run body d w mp xs Hw)).
  intros i _. unfold vfdiff_out. destruct (_ <=? _); [|reflexivity]. do 2 f_equal. rewrite fdiffR_nth.
  apply sumR_map_ext. intros k _. unfold fdiff_weight. ring.
Qed.

(* plain ts_fdiff in the coordinates of the series: sum_{k < min(i+1,w)} (-1)^k C(d,k) x_{i-k} *)
Theorem C01_ts_fdiff_textbook :
  forall (body : bool) (d : R) (w : nat) (rs : list R), 1 <= w ->
    exists out, ts_fdiff body (Some d) w (fun x : XR => x) (map Some rs) = Done out /\
      length out = length rs /\
      forall i, i < length rs ->
        nth_error out i =
        Some (Some (sumR (map (fun k => (-1) ^ k * binomR d k * nth (i - k) rs 0)
                              (seq 0 (Nat.min (S i) w))))%R).
Proof.
  intros body d w rs Hw. apply done_map_iff. apply (done_map_ext _ _ _ _ (ts_fdiff_run body d w rs Hw)).
  intros i Hi. do 2 f_equal. rewrite fdiffR_win by assumption. apply sumR_map_ext. intros k _.
  unfold fdiff_weight. ring.
Qed.

(* fdiffR itself, recursively and positionally (weights by distance from the END of the window) *)
Theorem C01_fdiffR_cons :
  forall (d x : R) (l : list R), (fdiffR d (x :: l) = x * fdiff_weight d (length l) + fdiffR d l)%R.
Proof. exact fdiffR_cons. Qed.

Theorem C01_fdiffR_positional :
  forall (d : R) (l : list R),
    fdiffR d l
    = sumR (map (fun k => fdiff_weight d k * nth (length l - 1 - k) l 0)%R (seq 0 (length l))).
Proof. exact fdiffR_nth. Qed.

(* the output at i depends on the valid elements of the window only: where the nulls sit, the
   current position included, is irrelevant *)
Theorem C01_vfdiff_depends_on_valid_only :
  forall (body : bool) (d : R) (w : nat) (mp : option nat) (xs ys : list XR) (i : nat),
    1 <= w -> i < length xs -> i < length ys ->
    valid (win w i xs) = valid (win w i ys) ->
    forall ox oy,
      ts_vfdiff (DT := IsNoneXR) body (Some d) w mp xs = Done ox ->
      ts_vfdiff (DT := IsNoneXR) body (Some d) w mp ys = Done oy ->
      nth_error ox i = nth_error oy i.
Proof.
  intros body d w mp xs ys i Hw Hx Hy HV ox oy Ex Ey.
  rewrite ts_vfdiff_run in Ex, Ey by exact Hw. injection Ex as <-. injection Ey as <-.
  rewrite !nth_error_map_seq. apply Nat.ltb_lt in Hx, Hy. rewrite Hx, Hy, HV. reflexivity.
Qed.

(* the surprise pinned on concrete windows (d = 1, w = 3, min_periods 1):
   [1; null; 3] -> 3 - 1 = 2 although x_0 is two steps back (positional weighting would give 3);
   [1; 3; null] -> 2, not null, although the current element is null *)
Theorem C01_vfdiff_nulls_shift_weights :
  forall body : bool,
    exists out, ts_vfdiff (DT := IsNoneXR) body (Some 1%R) 3 (Some 1) [Some 1%R; None; Some 3%R] = Done out /\
      nth_error out 2 = Some (Some 2%R) /\
      fdiff_positional 1 [Some 1%R; None; Some 3%R] = 3%R.
Proof.
  intros body.
  destruct (ts_vfdiff_spec body 1%R 3 (Some 1) [Some 1%R; None; Some 3%R] ltac:(lia)) as (out & H1 & _ & H3).
  exists out. split; [exact H1|]. split.
  - rewrite (H3 2 ltac:(cbn; lia)). cbn [win wstart Nat.sub skipn firstn valid flat_map app length].
    cbv zeta. cbn [mp_eff Nat.min Nat.max Nat.leb]. rewrite fdiffR_two. do 2 f_equal. ring.
  - unfold fdiff_positional. cbn [length seq map Nat.sub nth sumR fold_right].
    rewrite fdiff_weight_0, fdiff_weight_1. change 1%R with (INR 1) at 3.
    rewrite fdiff_weight_nat_vanish by lia. ring.
Qed.

Theorem C01_vfdiff_current_null_not_null :
  forall body : bool,
    exists out, ts_vfdiff (DT := IsNoneXR) body (Some 1%R) 3 (Some 1) [Some 1%R; Some 3%R; None] = Done out /\
      nth_error out 2 = Some (Some 2%R).
Proof.
  intros body.
  destruct (ts_vfdiff_spec body 1%R 3 (Some 1) [Some 1%R; Some 3%R; None] ltac:(lia)) as (out & H1 & _ & H3).
  exists out. split; [exact H1|].
  rewrite (H3 2 ltac:(cbn; lia)). cbn [win wstart Nat.sub skipn firstn valid flat_map app length].
  cbv zeta. cbn [mp_eff Nat.min Nat.max Nat.leb]. rewrite fdiffR_two. do 2 f_equal. ring.
Qed.

(* ---------------------------------------------------------------------------------------------
   (10) the coefficient table fdiff_coef d w                                                   *)
(* length w, for EVERY numeric carrier (binary64 included) *)
Theorem C01_fdiff_coef_length :
  forall (A : Type) (NA : Num A) (d : A) (w : nat), length (fdiff_coef d w) = w.
Proof.
  intros A NA d w. unfold fdiff_coef. rewrite coef_go_length, rev_length, seq_length. reflexivity.
Qed.

(* C(d,k) is the generalised binomial product, with the usual recurrence *)
Theorem C01_binom_product :
  forall (d : R) (k : nat),
    binomR d k = prodR (map (fun i => (d - INR i) / INR (S i))%R (seq 0 k)).
Proof. intros d k. apply binomR_from_prod. Qed.

Theorem C01_binom_recurrence :
  forall (d : R) (k : nat),
    binomR d 0 = 1%R /\ (binomR d (S k) = binomR d k * ((d - INR k) / INR (S k)))%R.
Proof. intros d k. split; [apply binomR_0|apply binomR_S]. Qed.

(* coefficient k, counted from the most recent element (table index w-1-k), is (-1)^k C(d,k) *)
Theorem C01_fdiff_coef_nth :
  forall (d : R) (w k : nat), k < w ->
    nth_error (fdiff_coef (Some d) w) (w - 1 - k) = Some (Some ((-1) ^ k * binomR d k)%R).
Proof. exact fdiff_coef_nth. Qed.

(* the most recent element has weight 1 *)
Theorem C01_fdiff_coef_last :
  forall (d : R) (w : nat), 1 <= w -> nth_error (fdiff_coef (Some d) w) (w - 1) = Some (Some 1%R).
Proof.
  intros d w Hw. replace (w - 1) with (w - 1 - 0) by lia.
  rewrite fdiff_coef_nth by lia. rewrite binomR_0. cbn [pow]. do 2 f_equal. ring.
Qed.

(* integer order n: binomial numbers up to n, exactly 0 beyond *)
Theorem C01_fdiff_coef_integer_binomial :
  forall (n w k : nat), k <= n -> k < w ->
    nth_error (fdiff_coef (Some (INR n)) w) (w - 1 - k) = Some (Some ((-1) ^ k * C n k)%R).
Proof.
  intros n w k Hn Hk. rewrite fdiff_coef_nth by exact Hk. rewrite binomR_nat_C by exact Hn. reflexivity.
Qed.

Theorem C01_fdiff_coef_integer_vanish :
  forall (n w k : nat), n < k -> k < w ->
    nth_error (fdiff_coef (Some (INR n)) w) (w - 1 - k) = Some (Some 0%R).
Proof.
  intros n w k Hn Hk. rewrite fdiff_coef_nth by exact Hk. rewrite binomR_nat_vanish by exact Hn.
  do 2 f_equal. ring.
Qed.

(* ... so an integer-order fractional difference is the (window-truncated) n-th finite difference *)
Theorem C01_fdiff_integer_order :
  forall (n : nat) (l : list R),
    fdiffR (INR n) l
    = sumR (map (fun k => (-1) ^ k * C n k * nth (length l - 1 - k) l 0)%R
                (seq 0 (Nat.min (S n) (length l)))).
Proof. exact fdiffR_nat. Qed.

Theorem C01_fdiff_order0_identity :
  forall l : list R, l <> [] -> fdiffR 0 l = last l 0%R.
Proof.
  intros l Hl. change 0%R with (INR 0) at 1. rewrite fdiffR_nat.
  destruct l as [|x l]; [contradiction|].
  replace (Nat.min 1 (length (x :: l))) with 1 by (cbn [length]; lia).
  cbn [seq map sumR fold_right pow]. unfold C. cbn [fact Nat.sub INR].
  replace (length (x :: l) - 1 - 0) with (length l) by (cbn [length]; lia).
  rewrite nth_length_last. field.
Qed.

(* d = 1: the table is [0; ..; 0; -1; 1] and ts_fdiff (w >= 2) is the first difference *)
Theorem C01_fdiff_coef_d1 :
  forall w : nat, 2 <= w ->
    fdiff_coef (Some 1%R) w = repeat (Some 0%R) (w - 2) ++ [Some (-1)%R; Some 1%R].
Proof.
  intros w Hw. rewrite fdiff_coef_spec.
  replace w with (2 + (w - 2)) at 1 by lia.
  rewrite seq_app, rev_app_distr, map_app. cbn [plus seq rev app map].
  rewrite fdiff_weight_0, fdiff_weight_1. f_equal.
  rewrite (map_const_in (fun v => Some (fdiff_weight 1 v)) (Some 0%R)).
  - rewrite rev_length, seq_length. reflexivity.
  - intros k Hk. apply in_rev, in_seq in Hk. f_equal.
    change 1%R with (INR 1). apply fdiff_weight_nat_vanish. lia.
Qed.

Theorem C01_ts_fdiff_d1_first_difference :
  forall (body : bool) (w : nat) (rs : list R), 2 <= w ->
    exists out, ts_fdiff body (Some 1%R) w (fun x : XR => x) (map Some rs) = Done out /\
      length out = length rs /\
      forall i, i < length rs ->
        nth_error out i =
        Some (Some (match i with O => nth 0 rs 0 | S j => nth (S j) rs 0 - nth j rs 0 end)%R).
Proof.
  intros body w rs Hw. apply done_map_iff.
  apply (done_map_ext _ _ _ _ (ts_fdiff_run body 1%R w rs ltac:(lia))).
  intros i Hi. do 2 f_equal. rewrite fdiffR_d1, win_length by exact Hi. unfold wstart.
  destruct i as [|j].
  - replace (1 - (1 - w)) with 1 by lia.
    rewrite nth_win by (unfold wstart; lia). unfold wstart. f_equal. lia.
  - destruct (S (S j) - (S (S j) - w)) as [|[|m]] eqn:E; [lia|lia|].
    rewrite !nth_win by (unfold wstart; lia). unfold wstart. f_equal; f_equal; lia.
Qed.

(* ---------------------------------------------------------------------------------------------
   (11) plain entry points = null-aware twins on null-free input, entry point by entry point.
        For fdiff the twin additionally masks the positions with i + 1 < effective min_periods.  *)
Theorem C01_plain_fdiff_vs_vfdiff :
  forall (body : bool) (d : R) (w : nat) (mp : option nat) (rs : list R), 1 <= w ->
    exists outp outv,
      ts_fdiff body (Some d) w (fun x : XR => x) (map Some rs) = Done outp /\
      ts_vfdiff (DT := IsNoneXR) body (Some d) w mp (map Some rs) = Done outv /\
      length outp = length rs /\ length outv = length rs /\
      forall i, i < length rs ->
        nth_error outv i =
        if mp_eff mp w 0 <=? Nat.min (S i) w then nth_error outp i else Some None.
Proof. exact plain_fdiff_vs_vfdiff. Qed.

Theorem C01_plain_family_fdiff :
  forall (body : bool) (d : R) (w : nat) (mp : option nat) (rs : list R),
    1 <= w -> mp_eff mp w 0 <= 1 ->
    ts_fdiff body (Some d) w (fun x : XR => x) (map Some rs)
    = ts_vfdiff (DT := IsNoneXR) body (Some d) w mp (map Some rs).
Proof. exact plain_family_fdiff. Qed.

Theorem C01_vfdiff_warmup_mask :
  forall (body : bool) (d : R) (w : nat) (mp : option nat) (rs : list R), 1 <= w ->
    exists outv, ts_vfdiff (DT := IsNoneXR) body (Some d) w mp (map Some rs) = Done outv /\
      forall i, i < length rs -> S i < mp_eff mp w 0 -> nth_error outv i = Some None.
Proof.
  intros body d w mp rs Hw.
  destruct (plain_fdiff_vs_vfdiff body d w mp rs Hw) as (outp & outv & P1 & V1 & P2 & V2 & H).
  exists outv. split; [exact V1|]. intros i Hi Hlt. rewrite (H i Hi).
  replace (mp_eff mp w 0 <=? Nat.min (S i) w) with false by (symmetry; apply Nat.leb_gt; lia).
  reflexivity.
Qed.

Theorem C01_plain_equals_null_aware :
  forall (body : bool) (w : nat) (mp : option nat) (d : R) (rs : list R), 1 <= w ->
    let xs := map Some rs in
    ts_run (ts_vsum_f (DT := IsNone_never) w mp) body w xs = ts_run (ts_vsum_f (DT := IsNoneXR) w mp) body w xs /\
    ts_run (ts_vmean_f (DT := IsNone_never) w mp) body w xs = ts_run (ts_vmean_f (DT := IsNoneXR) w mp) body w xs /\
    ts_run (ts_vvar_f (DT := IsNone_never) w mp) body w xs = ts_run (ts_vvar_f (DT := IsNoneXR) w mp) body w xs /\
    ts_run (ts_vstd_f (DT := IsNone_never) w mp) body w xs = ts_run (ts_vstd_f (DT := IsNoneXR) w mp) body w xs /\
    ts_run (ts_vskew_f (DT := IsNone_never) w mp) body w xs = ts_run (ts_vskew_f (DT := IsNoneXR) w mp) body w xs /\
    ts_run (ts_vkurt_f (DT := IsNone_never) w mp) body w xs = ts_run (ts_vkurt_f (DT := IsNoneXR) w mp) body w xs /\
    ts_run (ts_vewm_f (DT := IsNone_never) w mp) body w xs = ts_run (ts_vewm_f (DT := IsNoneXR) w mp) body w xs /\
    ts_run (ts_vwma_f (DT := IsNone_never) w mp) body w xs = ts_run (ts_vwma_f (DT := IsNoneXR) w mp) body w xs /\
    (mp_eff mp w 0 <= 1 ->
     ts_fdiff body (Some d) w (fun x : XR => x) xs = ts_vfdiff (DT := IsNoneXR) body (Some d) w mp xs).
Proof.
  intros body w mp d rs Hw xs. unfold xs.
  repeat split; try (apply plain_family_mom; exact Hw).
  - apply plain_family_ewm. exact Hw.
  - apply plain_family_wma. exact Hw.
  - intros Hmp. apply plain_family_fdiff; assumption.
Qed.

(* ---------------------------------------------------------------------------------------------
   (12) the EPS floor of ts_vstd, and the zero-variance branches                               *)
(* ts_vstd returns 0 where the textbook sample std is at most sqrt(2 EPS) ~ 1.41e-7 *)
Theorem C01_eps_floor_bounded_std :
  forall V : list R, 2 <= length V -> ~ (EPS < popvarR V)%R ->
    (0 <= samplestdR V <= sqrt (2 * EPS))%R.
Proof.
  intros V Hn Hle. unfold samplestdR. split; [apply sqrt_pos|].
  apply sqrt_le_1_alt. apply eps_floor_bounded; assumption.
Qed.

(* `var > EPS` (var/std) and `var <= EPS` (skew/kurt) split the windows the same way *)
Theorem C01_floor_guards_agree :
  forall p : R, ~ (EPS < p)%R <-> (p <= EPS)%R.
Proof. intros p. split; intros H; lra. Qed.

(* a constant window has population variance exactly 0, so it is always in the floored class *)
Theorem C01_popvar_constant :
  forall (c : R) (n : nat), popvarR (repeat c n) = 0%R.
Proof.
  intros c n. unfold popvarR, cmom. destruct n as [|n].
  - cbn. unfold Rdiv. ring.
  - assert (Hm : meanR (repeat c (S n)) = c).
    { unfold meanR, nR. rewrite sumR_repeat, repeat_length.
      assert (INR (S n) <> 0%R) by (apply not_0_INR; lia). field. assumption. }
    rewrite Hm, devsum_repeat_self. unfold Rdiv. ring.
Qed.

(* on a window with population variance <= EPS all four entry points return exactly 0 (never null,
   never the 0/0 of the textbook skewness / kurtosis), min_periods permitting *)
Theorem C01_zero_variance_outputs :
  forall (body : bool) (w : nat) (mp : option nat) (xs : list XR), 1 <= w ->
    exists ovar ostd oskew okurt,
      ts_run (ts_vvar_f w mp) body w xs = Done ovar /\
      ts_run (ts_vstd_f w mp) body w xs = Done ostd /\
      ts_run (ts_vskew_f w mp) body w xs = Done oskew /\
      ts_run (ts_vkurt_f w mp) body w xs = Done okurt /\
      forall i, i < length xs ->
        let V := valid (win w i xs) in
        (popvarR V <= EPS)%R ->
        (mp_eff mp w 2 <= length V ->
           nth_error ovar i = Some (Some 0%R) /\ nth_error ostd i = Some (Some 0%R)) /\
        (mp_eff mp w 3 <= length V -> nth_error oskew i = Some (Some 0%R)) /\
        (mp_eff mp w 4 <= length V -> nth_error okurt i = Some (Some 0%R)).
Proof.
  intros body w mp xs Hw. do 4 eexists.
  split; [apply ts_vvar_run, Hw|]. split; [apply ts_vstd_run, Hw|].
  split; [apply ts_vskew_run, Hw|]. split; [apply ts_vkurt_run, Hw|].
  intros i Hi V Hv. rewrite !nth_error_map_seq. apply Nat.ltb_lt in Hi. rewrite Hi. fold V.
  unfold var_out, std_out, skew_out, kurt_out.
  split; [|split]; intros Hn; apply Nat.leb_le in Hn; rewrite Hn.
  - destruct (Rlt_dec EPS (popvarR V)); [lra|]. split; reflexivity.
  - destruct (Rle_dec (popvarR V) EPS); [reflexivity|contradiction].
  - destruct (Rle_dec (popvarR V) EPS); [reflexivity|contradiction].
Qed.

(* ---------------------------------------------------------------------------------------------
   (13) the exponentially weighted mean is null exactly on windows without a valid element: the
        denominator of (4) vanishes iff n = 0, so (4) reads "weighted average, null iff empty"   *)
Theorem C01_ewm_denominator_zero_iff :
  forall (w n : nat), 1 <= w -> n <= w -> ((1 - (1 - 2 / INR w) ^ n)%R = 0%R <-> n = 0).
Proof. exact ewm_denominator_zero_iff. Qed.

Theorem C01_ts_vewm_total :
  forall (w : nat) (mp : option nat) (body : bool) (xs : list XR), 1 <= w ->
    exists out, ts_run (ts_vewm_f w mp) body w xs = Done out /\ length out = length xs /\
      forall i, i < length xs ->
        nth_error out i =
        Some (let V := valid (win w i xs) in
              if mp_eff mp w 0 <=? length V
              then (if length V =? 0 then None else Some (ewmR (1 - 2 / INR w) V))
              else None).
Proof.
  intros w mp body xs Hw. apply done_map_iff.
  apply (done_map_ext _ _ _ _ (ts_vewm_run w mp Hw body w xs Hw)).
  intros i Hi. unfold ewm_out. cbv zeta. destruct (_ <=? _); [|reflexivity].
  assert (HV : length (valid (win w i xs)) <= w).
  { pose proof (valid_length_le (win w i xs)). pose proof (win_length_le w i xs Hw). lia. }
  pose proof (ewm_denominator_zero_iff w _ Hw HV) as Hz.
  destruct (Req_EM_T _ 0%R) as [E|E]; destruct (length (valid (win w i xs)) =? 0) eqn:E0.
  - reflexivity.
  - apply Nat.eqb_neq in E0. exfalso. apply E0. apply Hz. exact E.
  - apply Nat.eqb_eq in E0. exfalso. apply E. apply Hz. exact E0.
  - f_equal. apply (ewm_normalised w). exact E.
Qed.

(* (14) window = 0 is rejected by both fractional differences, for every carrier: this is why the
        theorems above ask 1 <= w *)
Theorem C01_fdiff_window0 :
  forall (A : Type) (NA : Num A) (T : Type) (DT : IsNone T A) (d : A) (cast : T -> A)
         (mp : option nat) (xs : list T),
    ts_fdiff false d 0 cast xs = Panicked Underflow /\
    ts_vfdiff false d 0 mp xs = Panicked Underflow /\
    (xs <> [] -> ts_fdiff true d 0 cast xs = Panicked AssertFail /\
                 ts_vfdiff true d 0 mp xs = Panicked AssertFail).
Proof. exact (@fdiff_window0). Qed.

(* ---------------------------------------------------------------------------------------------
   (15) the weights in the form of the fractional-differencing literature, and the repository's
        own unit-test vectors (rolling.rs test_fdiff_coef, test_fdiff) exactly                   *)
Theorem C01_fdiff_weight_recurrence :
  forall (d : R) (k : nat),
    fdiff_weight d 0 = 1%R /\
    (fdiff_weight d (S k) = - fdiff_weight d k * ((d - INR k) / INR (S k)))%R.
Proof. intros d k. split; [apply fdiff_weight_0|apply fdiff_weight_S]. Qed.

Theorem C01_fdiff_weight_negative :
  forall (d : R) (k : nat), (0 < d < 1)%R -> 1 <= k -> (fdiff_weight d k < 0)%R.
Proof. exact fdiff_weight_negative. Qed.

Theorem C01_fdiff_weight_decreasing :
  forall (d : R) (k : nat), (0 < d < 1)%R -> 1 <= k -> (fdiff_weight d k < fdiff_weight d (S k))%R.
Proof.
  intros d k Hd Hk. pose proof (fdiff_weight_negative d k Hd Hk) as Hneg.
  rewrite fdiff_weight_S.
  assert (Hk1 : (1 <= INR k)%R) by (apply (le_INR 1); lia).
  (* - q = (k - d)/(k + 1) is in (0,1) *)
  assert (Hq : (0 < - ((d - INR k) / INR (S k)) < 1)%R).
  { rewrite S_INR.
    assert (Hinv : (0 < / (INR k + 1))%R) by (apply Rinv_0_lt_compat; lra).
    assert (Hone : (/ (INR k + 1) * (INR k + 1) = 1)%R) by (apply Rinv_l; lra).
    unfold Rdiv. set (iv := (/ (INR k + 1))%R) in *. clearbody iv. split; nra. }
  set (q := ((d - INR k) / INR (S k))%R) in *. set (v := fdiff_weight d k) in *. clearbody q v. nra.
Qed.

Theorem C01_fdiff_coef_unit_test_vector :
  fdiff_coef (Some (/ 2)%R) 4 = [Some (- / 16)%R; Some (- / 8)%R; Some (- / 2)%R; Some 1%R].
Proof.
  rewrite fdiff_coef_spec. cbn [seq rev app map]. unfold fdiff_weight, binomR.
  cbn [binomR_from pow INR]. repeat (f_equal; [f_equal; field|]). f_equal. f_equal. ring.
Qed.

Theorem C01_ts_vfdiff_unit_test_vector :
  forall body : bool,
    exists out, ts_vfdiff (DT := IsNoneXR) body (Some (/ 2)%R) 4 None
                  (map Some [7; 4; 2; 5; 1; 2]%R) = Done out /\
      out = [None; Some (/ 2)%R; Some (- (7 / 8))%R; Some (49 / 16)%R; Some (- 2)%R; Some (3 / 4)%R].
Proof.
  intros body.
  destruct (ts_vfdiff_spec body (/ 2)%R 4 None (map Some [7; 4; 2; 5; 1; 2]%R) ltac:(lia))
    as (out & H1 & H2 & H3).
  exists out. split; [exact H1|]. apply nth_error_ext. intros i.
  destruct (Nat.lt_ge_cases i 6) as [Hi|Hi].
  - rewrite (H3 i ltac:(cbn; lia)).
    do 6 (destruct i as [|i]; [
      cbn [map win wstart Nat.sub skipn firstn valid flat_map app length nth_error]; cbv zeta;
      change (mp_eff None 4 0) with 2; cbn [Nat.leb];
      try reflexivity;
      (do 2 f_equal; rewrite !fdiffR_cons, fdiffR_nil; unfold fdiff_weight, binomR;
       cbn [length binomR_from pow INR]; field) |]).
    lia.
  - transitivity (@None XR); [|symmetry]; apply nth_error_None; [rewrite H2|]; cbn [map length]; lia.
Qed.

(* non-vacuity: a window with a null, warm-up and expiry *)
Example C01_example_mean :
  exists out, ts_run (ts_vmean_f (A := XR) 2 (Some 1)) false 2 [Some 1%R; None; Some 3%R] = Done out
              /\ length out = 3.
Proof.
  destruct (C01_ts_vmean false 2 (Some 1) [Some 1%R; None; Some 3%R] ltac:(auto)) as (out & H & L & _).
  exists out. split; assumption.
Qed.

(* non-vacuity of the implications of (9)-(12) *)
Example C01_example_vfdiff_masked_and_defined :       (* one series hits both branches of the mask *)
  exists out, ts_vfdiff (DT := IsNoneXR) true (Some (/ 2)%R) 2 (Some 2) [Some 1%R; None; Some 3%R; Some 4%R] = Done out
              /\ nth_error out 2 = Some None /\ nth_error out 3 = Some (Some (4 - / 2 * 3)%R).
Proof.
  destruct (C01_ts_vfdiff true (/ 2)%R 2 (Some 2) [Some 1%R; None; Some 3%R; Some 4%R] ltac:(auto))
    as (out & H & _ & H3).
  exists out. split; [exact H|]. split.
  - rewrite (H3 2 ltac:(cbn; auto)). reflexivity.
  - rewrite (H3 3 ltac:(cbn; auto)).
    cbn [win wstart Nat.sub skipn firstn valid flat_map app length]. cbv zeta.
    cbn [mp_eff Nat.min Nat.max Nat.leb]. rewrite fdiffR_two. reflexivity.
Qed.

Example C01_example_plain_family_fdiff :               (* w = 3, default min_periods = 3/2 = 1 *)
  ts_fdiff false (Some (/ 2)%R) 3 (fun x : XR => x) (map Some [1%R; 2%R; 4%R])
  = ts_vfdiff (DT := IsNoneXR) false (Some (/ 2)%R) 3 None (map Some [1%R; 2%R; 4%R]).
Proof. apply C01_plain_family_fdiff; [auto|vm_compute; auto]. Qed.

Example C01_example_warmup_mask :                      (* w = 4, min_periods 3: position 0 has S 0 < 3 *)
  0 < length [1%R; 2%R; 4%R] /\ 1 < mp_eff (Some 3) 4 0.
Proof. vm_compute. auto. Qed.

Example C01_example_coef_integer :                     (* hypotheses of the integer-order theorems *)
  nth_error (fdiff_coef (Some (INR 2)) 5) (5 - 1 - 3) = Some (Some 0%R) /\
  nth_error (fdiff_coef (Some (INR 2)) 5) (5 - 1 - 1) = Some (Some ((-1) ^ 1 * C 2 1)%R).
Proof.
  split; [apply C01_fdiff_coef_integer_vanish|apply C01_fdiff_coef_integer_binomial]; auto.
Qed.

Example C01_example_coef_d1 :
  fdiff_coef (Some 1%R) 4 = [Some 0%R; Some 0%R; Some (-1)%R; Some 1%R].
Proof. apply (C01_fdiff_coef_d1 4). auto. Qed.

Example C01_example_zero_variance :                    (* the floored class is inhabited *)
  2 <= length (repeat 5%R 3) /\ ~ (EPS < popvarR (repeat 5%R 3))%R /\ (popvarR (repeat 5%R 3) <= EPS)%R.
Proof.
  rewrite C01_popvar_constant. pose proof EPS_pos as H. split; [cbn; auto|].
  split; [apply Rlt_irrefl || (intros K; apply (Rlt_asym _ _ H); exact K)|apply Rlt_le; exact H].
Qed.

Example C01_example_fractional_order : (0 < / 2 < 1)%R /\ 1 <= 3.
Proof. split; [lra|auto]. Qed.

(* ================= binary64: the rolling MEAN up to rounding, and exact moment sums on a dyadic grid ============== *)
(* (Proofs/RoundSum.v, Proofs/RoundMean.v.)  Everything above is about the proof instance option R.  Here the theorems
   are about the EXECUTION instance — the model at Coq's primitive binary64 `float` (NumF64, NaN = null), the very terms
   the correspondence run evaluates and compares with Rust.  Notation:  f2r / ffin / fvals / rvals64 / fx,  u64 = 2^-53,  eta64 = 2^-1075,  gam u n = (1+u)^n - 1,
     nops w xs i  additions and subtractions performed on the sum field up to the emit of step i (<= 2i+1),
     habs w xs i  the magnitude they moved (<= 2 * sum_{k<=i} |x_k|),
     spow k l = sum of |x^k| over l,  psum k l = sum of x^k,  msk k s = the k-th power-sum field of the state s,
     grid_check e x / abs_le_check b x : EXECUTABLE tests "x is finite and a multiple of 2^e" / "finite and |x| <= b". *)
From Coq Require Import ZArith Floats.
From Tevec Require Import Base.F64 Proofs.Generic Proofs.RoundSum Proofs.RoundMean.

(* (B1) the rolling mean after ANY history: sum / n with the drift of the rolling sum carried through the division.
   Premises: the emitted value is finite (then the count is >= 1 and nothing overflowed); w < 2^53 so `n as f64` is exact *)
Theorem C01_ts_vmean_binary64_error :
  forall (w : nat) (mp : option nat) (body : bool) (xs : list PrimFloat.float) (i : nat) (o : PrimFloat.float),
    1 <= w -> (Z.of_nat w < 2 ^ 53)%Z ->
    nth_error (ts_out (ts_vmean_f (NA := NumF64) (DT := IsNoneF64) w mp) body w xs) i = Some o -> ffin o = true ->
    (Rabs (f2r o - meanR (rvals64 (win w i xs)))
     <= gam u64 (S (nops w xs i)) * (habs w xs i / INR (length (rvals64 (win w i xs)))) + eta64)%R.
Proof. exact ts_vmean_binary64_error. Qed.

(* (B2) explicit constants in i alone: at most 2i+1 additions / subtractions and one division *)
Theorem C01_ts_vmean_binary64_drift :
  forall (w : nat) (mp : option nat) (body : bool) (xs : list PrimFloat.float) (i : nat) (o : PrimFloat.float),
    1 <= w -> (Z.of_nat w < 2 ^ 53)%Z ->
    nth_error (ts_out (ts_vmean_f (NA := NumF64) (DT := IsNoneF64) w mp) body w xs) i = Some o -> ffin o = true ->
    (Rabs (f2r o - meanR (rvals64 (win w i xs)))
     <= INR (2 * i + 2) * u64 * (1 + u64) ^ (2 * i + 2)
        * (2 * sumabs (rvals64 (firstn (S i) xs)) / INR (length (rvals64 (win w i xs)))) + eta64)%R.
Proof. exact ts_vmean_binary64_drift. Qed.

(* (B3) no absolute (underflow) term when the computed quotient is in the normal range *)
Theorem C01_ts_vmean_binary64_error_normal :
  forall (w : nat) (mp : option nat) (body : bool) (xs : list PrimFloat.float) (i : nat) (o : PrimFloat.float),
    1 <= w -> (Z.of_nat w < 2 ^ 53)%Z ->
    nth_error (ts_out (ts_vmean_f (NA := NumF64) (DT := IsNoneF64) w mp) body w xs) i = Some o -> ffin o = true ->
    (pow2 (-1022) <= Rabs (f2r (ffold zero (emit_ops w xs i)) / INR (length (fvals (win w i xs)))))%R ->
    (Rabs (f2r o - meanR (rvals64 (win w i xs)))
     <= gam u64 (S (nops w xs i)) * (habs w xs i / INR (length (rvals64 (win w i xs)))))%R.
Proof. exact ts_vmean_binary64_error_normal. Qed.

(* (B4) exact accumulators: when every valid element is a multiple of 2^e and every WINDOW's K-th absolute power sum
   is below 2^(K e + 53) (K = 1..4), no product v*v, v2*v, v2*v2 and no addition / subtraction of `mom_add` / `mom_sub`
   ever rounds: behind every output, for every emit function (sum, mean, var, std, skew, kurt share the accumulator),
   both bodies, the float state holds the count and the first K power sums of the window EXACTLY.  Window-local: the
   history does not enter. *)
Theorem C01_moment_accumulators_float_exact :
  forall (K : nat) (e : Z) (emit : @mom PrimFloat.float -> PrimFloat.float) (w : nat) (body : bool)
         (xs : list PrimFloat.float),
    1 <= K <= 4 -> (-1074 <= Z.of_nat K * e)%Z -> (Z.of_nat K * e + 53 <= 1024)%Z -> 1 <= w ->
    forallb (grid_check e) (fvals xs) = true ->
    (forall i, i < length xs -> (spow K (rvals64 (win w i xs)) < pow2 (Z.of_nat K * e + 53))%R) ->
    forall i v, nth_error xs i = Some v ->
      exists s : @mom PrimFloat.float,
        nth_error (ts_out (mom_feat (NA := NumF64) (DT := IsNoneF64) emit) body w xs) i = Some (emit s) /\
        m_n s = length (fvals (win w i xs)) /\
        forall k, 1 <= k <= K -> ffin (msk k s) = true /\ f2r (msk k s) = psum k (rvals64 (win w i xs)).
Proof. exact moment_accumulators_float_exact. Qed.

(* (B5) the sum of squares in the form "grid 2^e, |x| <= b, w * b^2 < 2^(2e+53)" (all premises executable) *)
Theorem C01_sum_of_squares_exact_on_grid :
  forall (e b : Z) (emit : @mom PrimFloat.float -> PrimFloat.float) (w : nat) (body : bool) (xs : list PrimFloat.float),
    (-1074 <= 2 * e)%Z -> (2 * e + 53 <= 1024)%Z -> 1 <= w ->
    forallb (grid_check e) (fvals xs) = true -> forallb (abs_le_check b) (fvals xs) = true ->
    (INR w * IZR b ^ 2 < pow2 (2 * e + 53))%R ->
    forall i v, nth_error xs i = Some v ->
      exists s : @mom PrimFloat.float,
        nth_error (ts_out (mom_feat (NA := NumF64) (DT := IsNoneF64) emit) body w xs) i = Some (emit s) /\
        m_n s = length (fvals (win w i xs)) /\
        ffin (m_s1 s) = true /\ f2r (m_s1 s) = psum 1 (rvals64 (win w i xs)) /\
        ffin (m_s2 s) = true /\ f2r (m_s2 s) = psum 2 (rvals64 (win w i xs)).
Proof. exact sum_of_squares_exact_on_grid. Qed.

(* (B6) the state of the float run is the state of the option-R run on the same series: the two instances differ only
   in the final closed-form arithmetic of `emit`.  For k <= K the float field, read as an exact real, IS the exact
   field; the exact state holds the power sums of the window ((0) above). *)
Theorem C01_moment_state_exact_on_grid :
  forall (K : nat) (e : Z) (emit64 : @mom PrimFloat.float -> PrimFloat.float) (emitX : @mom XR -> XR)
         (w : nat) (body : bool) (xs : list PrimFloat.float),
    1 <= K <= 4 -> (-1074 <= Z.of_nat K * e)%Z -> (Z.of_nat K * e + 53 <= 1024)%Z -> 1 <= w ->
    forallb (grid_check e) (fvals xs) = true ->
    (forall i, i < length xs -> (spow K (rvals64 (win w i xs)) < pow2 (Z.of_nat K * e + 53))%R) ->
    forall i v, nth_error xs i = Some v ->
      exists (s64 : @mom PrimFloat.float) (sX : @mom XR),
        nth_error (ts_out (mom_feat (NA := NumF64) (DT := IsNoneF64) emit64) body w xs) i = Some (emit64 s64) /\
        nth_error (ts_out (mom_feat (NA := NumXR) (DT := IsNoneXR) emitX) body w (map fx xs)) i = Some (emitX sX) /\
        m_n s64 = m_n sX /\ (forall k, 1 <= k <= K -> fx (msk k s64) = msk k sX) /\
        m_n sX = length (rvals64 (win w i xs)) /\
        (forall k, 1 <= k <= 4 -> msk k sX = Some (psum k (rvals64 (win w i xs)))).
Proof. exact moment_state_exact_on_grid_props. Qed.

(* (B7) all four power sums (premise on the fourth-power sum of every window): the exact run's state IS the image
   `mom_fx` of the float run's state *)
Theorem C01_moment_state_exact_on_grid_all :
  forall (e : Z) (emit64 : @mom PrimFloat.float -> PrimFloat.float) (emitX : @mom XR -> XR)
         (w : nat) (body : bool) (xs : list PrimFloat.float),
    (-1074 <= 4 * e)%Z -> (4 * e + 53 <= 1024)%Z -> 1 <= w ->
    forallb (grid_check e) (fvals xs) = true ->
    (forall i, i < length xs -> (psum 4 (rvals64 (win w i xs)) < pow2 (4 * e + 53))%R) ->
    forall i v, nth_error xs i = Some v ->
      exists s64 : @mom PrimFloat.float,
        nth_error (ts_out (mom_feat (NA := NumF64) (DT := IsNoneF64) emit64) body w xs) i = Some (emit64 s64) /\
        nth_error (ts_out (mom_feat (NA := NumXR) (DT := IsNoneXR) emitX) body w (map fx xs)) i
        = Some (emitX (mom_fx s64)).
Proof. exact moment_state_exact_on_grid_all_props. Qed.

(* (B8) the window premise from executable tests: |x| <= b for every valid element and w * b^K < 2^(K e + 53) *)
Theorem C01_windows_in_range_of_bound :
  forall (K : nat) (e : Z) (w : nat) (xs : list PrimFloat.float) (b : Z),
    1 <= w -> forallb (abs_le_check b) (fvals xs) = true ->
    (INR w * IZR b ^ K < pow2 (Z.of_nat K * e + 53))%R ->
    forall i, i < length xs -> (spow K (rvals64 (win w i xs)) < pow2 (Z.of_nat K * e + 53))%R.
Proof. exact windows_in_range_of_bound_props. Qed.

(* (B9) DESIGN 2.3 as a theorem: generated values are k/4 with |k| <= 400 and windows have at most 64 elements, so the
   premise of (B7) holds with e = -2: all four power sums of the correspondence inputs are exact in binary64 *)
Theorem C01_generated_inputs_in_range :
  forall (w : nat) (xs : list PrimFloat.float),
    1 <= w <= 64 -> forallb (abs_le_check 100) (fvals xs) = true ->
    forall i, i < length xs -> (psum 4 (rvals64 (win w i xs)) < pow2 (4 * (-2) + 53))%R.
Proof. exact generated_inputs_in_range. Qed.

(* (B10) on grid data the rolling mean is the CORRECTLY ROUNDED exact mean of the window — half an ulp, whatever the
   history (compare (B1), whose bound grows with the number of operations performed) *)
Theorem C01_ts_vmean_correctly_rounded_on_grid :
  forall (e : Z) (w : nat) (mp : option nat) (body : bool) (xs : list PrimFloat.float) (i : nat) (o : PrimFloat.float),
    (-1074 <= e)%Z -> (e + 53 <= 1024)%Z -> 1 <= w -> (Z.of_nat w < 2 ^ 53)%Z ->
    forallb (grid_check e) (fvals xs) = true ->
    (forall j, j < length xs -> (spow 1 (rvals64 (win w j xs)) < pow2 (e + 53))%R) ->
    nth_error (ts_out (ts_vmean_f (NA := NumF64) (DT := IsNoneF64) w mp) body w xs) i = Some o -> ffin o = true ->
    f2r o = rnd64 (meanR (rvals64 (win w i xs))) /\
    (Rabs (f2r o - meanR (rvals64 (win w i xs))) <= u64 * Rabs (meanR (rvals64 (win w i xs))) + eta64)%R.
Proof. exact ts_vmean_correctly_rounded_on_grid. Qed.

(* non-vacuity of (B1)-(B3): a long history (1e16 absorbs the small terms), a NaN, the mean of the last window rounds *)
Example C01_example_mean_rounding_premises :
  exists o, nth_error (ts_out (ts_vmean_f (NA := NumF64) (DT := IsNoneF64) 2 (Some 1)) true 2 [1e16; nan; 0.1; 0.2]%float) 3
            = Some o /\ ffin o = true /\ PrimFloat.eqb o 0.15%float = false /\ (Z.of_nat 2 < 2 ^ 53)%Z.
Proof. eexists. repeat split; vm_compute; reflexivity. Qed.
(* non-vacuity of (B4)-(B9): a grid series (multiples of 1/4, |x| <= 100, a NaN), window 2 *)
Example C01_example_grid_premises :
  forallb (grid_check (-2)) (fvals [1.25; nan; -0.75; 100; 99.75]%float) = true /\
  forallb (abs_le_check 100) (fvals [1.25; nan; -0.75; 100; 99.75]%float) = true /\
  (INR 2 * IZR 100 ^ 2 < pow2 (2 * (-2) + 53))%R /\ (-1074 <= 2 * (-2))%Z /\ (2 * (-2) + 53 <= 1024)%Z /\
  ts_out (ts_vvar_f (NA := NumF64) (DT := IsNoneF64) 2 None) true 2 [1.25; nan; -0.75; 100; 99.75]%float
  = [nan; nan; nan; 5075.28125; 0.03125]%float.
Proof.
  split; [vm_compute; reflexivity|]. split; [vm_compute; reflexivity|]. split.
  - change (pow2 (2 * -2 + 53)) with (IZR (2 ^ 49)).
    replace (INR 2 * IZR 100 ^ 2)%R with (IZR (2 * 100 ^ 2)) by (rewrite mult_IZR, pow_IZR, INR_IZR_INZ; reflexivity).
    apply IZR_lt. reflexivity.
  - split; [discriminate|]. split; [discriminate|]. vm_compute. reflexivity.
Qed.
(* non-vacuity of (B10): a grid series whose window mean 100.75 / 3 is not a dyadic number; the output is finite and
   (being rounded) not even a multiple of 2^-40 *)
Example C01_example_grid_mean_premises :
  forallb (grid_check (-2)) (fvals [1.25; nan; -0.75; 100.25]%float) = true /\
  (exists o, nth_error (ts_out (ts_vmean_f (NA := NumF64) (DT := IsNoneF64) 4 (Some 1)) false 4 [1.25; nan; -0.75; 100.25]%float) 3
             = Some o /\ ffin o = true /\ grid_check (-40) o = false).
Proof. split; [vm_compute; reflexivity|]. eexists. repeat split; vm_compute; reflexivity. Qed.
(* the grid premise is needed: 0.1 is not a dyadic grid point of 2^-2 and its square rounds *)
Example C01_example_off_grid :
  grid_check (-2) 0.1%float = false /\ PrimFloat.eqb (0.1 * 0.1)%float 0.01%float = false.
Proof. split; vm_compute; reflexivity. Qed.

Print Assumptions C01_state_tracks_window.
Print Assumptions C01_ts_vsum.
Print Assumptions C01_ts_vmean.
Print Assumptions C01_ts_vvar.
Print Assumptions C01_ts_vstd.
Print Assumptions C01_eps_floor_bounded.
Print Assumptions C01_ts_vewm.
Print Assumptions C01_ewm_is_weighted_average.
Print Assumptions C01_ts_vwma.
Print Assumptions C01_ts_vskew.
Print Assumptions C01_ts_vkurt.
Print Assumptions C01_ts_fdiff.
Print Assumptions C01_plain_family_moments.
Print Assumptions C01_plain_family_ewm.
Print Assumptions C01_plain_family_wma.
Print Assumptions C01_ts_vfdiff.
Print Assumptions C01_ts_vfdiff_textbook.
Print Assumptions C01_ts_fdiff_textbook.
Print Assumptions C01_fdiffR_cons.
Print Assumptions C01_fdiffR_positional.
Print Assumptions C01_vfdiff_depends_on_valid_only.
Print Assumptions C01_vfdiff_nulls_shift_weights.
Print Assumptions C01_vfdiff_current_null_not_null.
Print Assumptions C01_fdiff_coef_length.
Print Assumptions C01_binom_product.
Print Assumptions C01_binom_recurrence.
Print Assumptions C01_fdiff_coef_nth.
Print Assumptions C01_fdiff_coef_last.
Print Assumptions C01_fdiff_coef_integer_binomial.
Print Assumptions C01_fdiff_coef_integer_vanish.
Print Assumptions C01_fdiff_integer_order.
Print Assumptions C01_fdiff_order0_identity.
Print Assumptions C01_fdiff_coef_d1.
Print Assumptions C01_ts_fdiff_d1_first_difference.
Print Assumptions C01_plain_fdiff_vs_vfdiff.
Print Assumptions C01_plain_family_fdiff.
Print Assumptions C01_vfdiff_warmup_mask.
Print Assumptions C01_plain_equals_null_aware.
Print Assumptions C01_eps_floor_bounded_std.
Print Assumptions C01_floor_guards_agree.
Print Assumptions C01_popvar_constant.
Print Assumptions C01_zero_variance_outputs.
Print Assumptions C01_ewm_denominator_zero_iff.
Print Assumptions C01_ts_vewm_total.
Print Assumptions C01_fdiff_window0.
Print Assumptions C01_fdiff_weight_recurrence.
Print Assumptions C01_fdiff_weight_negative.
Print Assumptions C01_fdiff_weight_decreasing.
Print Assumptions C01_fdiff_coef_unit_test_vector.
Print Assumptions C01_ts_vfdiff_unit_test_vector.
Print Assumptions C01_ts_vmean_binary64_error.
Print Assumptions C01_ts_vmean_binary64_drift.
Print Assumptions C01_ts_vmean_binary64_error_normal.
Print Assumptions C01_moment_accumulators_float_exact.
Print Assumptions C01_sum_of_squares_exact_on_grid.
Print Assumptions C01_moment_state_exact_on_grid.
Print Assumptions C01_moment_state_exact_on_grid_all.
Print Assumptions C01_windows_in_range_of_bound.
Print Assumptions C01_generated_inputs_in_range.
Print Assumptions C01_ts_vmean_correctly_rounded_on_grid.

(* ================= AUDIT (notes/C01.md "Audit matrix"; Proofs/Audit01.v) ============================================
   (A1)-(A9) hold for EVERY numeric carrier / null
   dictionary (binary64 included) and are axiom-free; (A10)-(A13) are over option R.                                  *)
From Tevec Require Import Proofs.Driver Proofs.Audit01.

(* (A1) the call, totally, for every add-emit-remove feature (the eight moment / weighted entry points and ts_vzscore), every
   carrier: the only rejected input is window = 0 on a non-empty series — `assert!(window > 0 || len == 0)`, the same
   assertion on both bodies; everything else returns the run over the (removed, new) pairs.  This is exactly what the
   hypothesis `1 <= w` of (0)-(6) excludes. *)
Theorem C01_ts_run_total :
  forall (T St O : Type) (F : feat T St O) (body : bool) (w : nat) (xs : list T),
    ts_run F body w xs =
    if bad_window w xs then Panicked AssertFail
    else Done (run (feat_cb F) (f_init F) (mapi (fun i v => (removed w xs i, v)) xs)).
Proof. exact (@ts_run_eq). Qed.

Theorem C01_window0 :
  forall (T St O : Type) (F : feat T St O) (body : bool) (xs : list T),
    ts_run F body 0 xs = match xs with [] => Done [] | _ :: _ => Panicked AssertFail end.
Proof. exact (@ts_run_window0). Qed.

(* (A2) it returns iff window >= 1 or the series is empty; then exactly len outputs; never an uninitialised slot;
   the empty series gives the empty result at every window *)
Theorem C01_returns_iff :
  forall (T St O : Type) (F : feat T St O) (body : bool) (w : nat) (xs : list T),
    ((exists out, ts_run F body w xs = Done out) <-> (1 <= w \/ xs = [])) /\
    (forall out, ts_run F body w xs = Done out -> length out = length xs) /\
    (forall buf, ts_run F body w xs <> Uninit buf) /\
    ts_run F body w [] = Done [].
Proof.
  intros T St O F body w xs. split; [apply ts_run_returns_iff|]. split; [apply ts_run_length|].
  split; [apply ts_run_never_uninit|apply ts_run_empty].
Qed.

(* (A3) both driver bodies return the same outcome at EVERY window (0 included), for every feature and carrier *)
Theorem C01_bodies_agree :
  forall (T St O : Type) (F : feat T St O) (w : nat) (xs : list T), ts_run F true w xs = ts_run F false w xs.
Proof. exact (@ts_run_bodies_agree). Qed.

(* (A4) windows: w >= len makes every window the prefix 0..=i (an expanding window: nothing is ever removed from what
   the outputs see), and in general the window at i has min(i+1, w) elements *)
Theorem C01_window_beyond_length :
  forall (T : Type) (w i : nat) (xs : list T),
    i < length xs ->
    (length xs <= w -> win w i xs = firstn (S i) xs) /\ (1 <= w -> length (win w i xs) = Nat.min (S i) w).
Proof. intros T w i xs Hi. split; intros H; [apply win_covers_prefix; lia|apply win_length_min; assumption]. Qed.

(* (A5) min_periods: `min_periods.unwrap_or(window / 2).min(window).max(k)` in closed form — omitted = max(w/2, k);
   anything >= w acts as w (the statement's "min_periods <= w" loses nothing); never above w when k <= w *)
Theorem C01_min_periods_effective :
  forall (w k : nat),
    mp_eff None w k = Nat.max (w / 2) k /\
    (forall m, mp_eff (Some m) w k = mp_eff (Some (Nat.min m w)) w k) /\
    (forall m, w <= m -> mp_eff (Some m) w k = Nat.max w k) /\
    (forall mp, k <= mp_eff mp w k) /\ (forall mp, k <= w -> mp_eff mp w k <= w).
Proof.
  intros w k. split; [apply mp_eff_omitted|]. split; [intros m; apply mp_eff_clamp|].
  split; [intros m; apply mp_eff_above|]. split; [intros mp; apply mp_eff_ge|intros mp; apply mp_eff_le_window].
Qed.

Theorem C01_min_periods_above_window :
  forall (A : Type) (NA : Num A) (T : Type) (DT : IsNone T A) (w m : nat), w <= m ->
    ts_vsum_f w (Some m) = ts_vsum_f w (Some w) /\ ts_vmean_f w (Some m) = ts_vmean_f w (Some w) /\
    ts_vvar_f w (Some m) = ts_vvar_f w (Some w) /\ ts_vstd_f w (Some m) = ts_vstd_f w (Some w) /\
    ts_vskew_f w (Some m) = ts_vskew_f w (Some w) /\ ts_vkurt_f w (Some m) = ts_vkurt_f w (Some w) /\
    ts_vewm_f w (Some m) = ts_vewm_f w (Some w) /\ ts_vwma_f w (Some m) = ts_vwma_f w (Some w).
Proof. intros A NA T DT. exact (@min_periods_above_window A NA T DT). Qed.

(* (A6) EVERY carrier (the binary64 execution instance included): behind every output of the six moment entry points
   (any emit), of ts_vewm and of ts_vwma stands a state whose count field is the number of non-null elements of the
   window — the count never drifts, whatever the arithmetic does *)
Theorem C01_count_tracks_window_every_carrier :
  forall (A : Type) (NA : Num A) (T : Type) (DT : IsNone T A) (body : bool) (w : nat) (mp : option nat) (xs : list T),
    1 <= w ->
    (forall emit : @mom A -> A,
      exists out, ts_run (mom_feat emit) body w xs = Done out /\ length out = length xs /\
        forall i v, nth_error xs i = Some v ->
          exists s, m_n s = cnt_valid (win w i xs) /\ nth_error out i = Some (emit s)) /\
    (exists out, ts_run (ts_vewm_f w mp) body w xs = Done out /\ length out = length xs /\
        forall i v, nth_error xs i = Some v ->
          exists s, e_n s = cnt_valid (win w i xs) /\ nth_error out i = Some (ewm_emit w (mp_eff mp w 0) s)) /\
    (exists out, ts_run (ts_vwma_f w mp) body w xs = Done out /\ length out = length xs /\
        forall i v, nth_error xs i = Some v ->
          exists s, w_n s = cnt_valid (win w i xs) /\ nth_error out i = Some (wma_emit (mp_eff mp w 0) s)).
Proof.
  intros A NA T DT body w mp xs Hw. split; [intros emit; apply mom_count_tracks; exact Hw|].
  split; [apply ewm_count_tracks|apply wma_count_tracks]; exact Hw.
Qed.

(* (A7) ... hence below the effective min_periods all eight entry points return the carrier's NaN — exactly, at
   binary64 too (`masked_below k out w xs`: position i holds nnan whenever the window at i has fewer than k non-null
   elements) *)
Theorem C01_below_min_periods_is_nan_every_carrier :
  forall (A : Type) (NA : Num A) (T : Type) (DT : IsNone T A) (body : bool) (w : nat) (mp : option nat) (xs : list T),
    1 <= w ->
    (exists out, ts_run (ts_vsum_f w mp) body w xs = Done out /\ length out = length xs /\ masked_below (mp_eff mp w 0) out w xs) /\
    (exists out, ts_run (ts_vmean_f w mp) body w xs = Done out /\ length out = length xs /\ masked_below (mp_eff mp w 0) out w xs) /\
    (exists out, ts_run (ts_vvar_f w mp) body w xs = Done out /\ length out = length xs /\ masked_below (mp_eff mp w 2) out w xs) /\
    (exists out, ts_run (ts_vstd_f w mp) body w xs = Done out /\ length out = length xs /\ masked_below (mp_eff mp w 2) out w xs) /\
    (exists out, ts_run (ts_vskew_f w mp) body w xs = Done out /\ length out = length xs /\ masked_below (mp_eff mp w 3) out w xs) /\
    (exists out, ts_run (ts_vkurt_f w mp) body w xs = Done out /\ length out = length xs /\ masked_below (mp_eff mp w 4) out w xs) /\
    (exists out, ts_run (ts_vewm_f w mp) body w xs = Done out /\ length out = length xs /\ masked_below (mp_eff mp w 0) out w xs) /\
    (exists out, ts_run (ts_vwma_f w mp) body w xs = Done out /\ length out = length xs /\ masked_below (mp_eff mp w 0) out w xs).
Proof. intros A NA T DT. exact (@below_min_periods_is_nan A NA T DT). Qed.

(* (A8) a window shorter than the statistic needs: var / std with w = 1, skew with w <= 2, kurt with w <= 3 return
   NaN everywhere, whatever min_periods and whatever the data — every carrier *)
Theorem C01_short_window_all_nan :
  forall (A : Type) (NA : Num A) (T : Type) (DT : IsNone T A) (body : bool) (w : nat) (mp : option nat) (xs : list T),
    1 <= w ->
    (w < 2 -> ts_run (ts_vvar_f w mp) body w xs = Done (repeat nnan (length xs)) /\
              ts_run (ts_vstd_f w mp) body w xs = Done (repeat nnan (length xs))) /\
    (w < 3 -> ts_run (ts_vskew_f w mp) body w xs = Done (repeat nnan (length xs))) /\
    (w < 4 -> ts_run (ts_vkurt_f w mp) body w xs = Done (repeat nnan (length xs))).
Proof.
  intros A NA T DT body w mp xs Hw.
  assert (Hall : forall out k, length out = length xs -> masked_below k out w xs -> w < k ->
                   out = repeat nnan (length xs)).
  { intros out k Hl Hm Hk. apply nth_error_ext. intros i. rewrite nth_error_repeat.
    destruct (i <? length xs) eqn:E.
    - apply Nat.ltb_lt in E. apply Hm; [exact E|]. pose proof (cnt_valid_win_le w i xs Hw E). lia.
    - apply Nat.ltb_ge in E. apply nth_error_None. lia. }
  destruct (C01_below_min_periods_is_nan_every_carrier A NA T DT body w mp xs Hw) as (_ & _ & Hv & Hs & Hk & Hu & _).
  split; [|split].
  - intros H. destruct Hv as (o1 & E1 & L1 & M1). destruct Hs as (o2 & E2 & L2 & M2).
    rewrite E1, E2. split; f_equal; apply (Hall _ (mp_eff mp w 2)); try assumption; rewrite mp_eff_floor; lia.
  - intros H. destruct Hk as (o & E & L & M). rewrite E. f_equal.
    apply (Hall _ (mp_eff mp w 3)); try assumption. rewrite mp_eff_floor; lia.
  - intros H. destruct Hu as (o & E & L & M). rewrite E. f_equal.
    apply (Hall _ (mp_eff mp w 4)); try assumption. rewrite mp_eff_floor; lia.
Qed.

(* (A9) dead code: the `else { acc }` arm of the fold closure of ts_vfdiff (rolling.rs:116) cannot be reached by ANY input — the closure is folded over a window with
   n == window valid elements (a window never has more than `window` elements) or over the not_none-filtered window.
   ts_vfdiff_nn is ts_vfdiff with that arm removed (Proofs/Audit01.v); every carrier, both bodies, every window. *)
Theorem C01_vfdiff_null_arm_is_dead_code :
  forall (A : Type) (NA : Num A) (T : Type) (DT : IsNone T A) (body : bool) (d : A) (w : nat) (mp : option nat)
         (xs : list T),
    ts_vfdiff body d w mp xs = ts_vfdiff_nn body d w mp xs.
Proof.
  intros A NA T DT body d w mp xs. unfold ts_vfdiff, ts_vfdiff_nn. cbv zeta.
  assert (Hrun : 1 <= w ->
            run (ts_vfdiff_cb d w (mp_eff mp w 0)) tt (windows w xs)
            = run (ts_vfdiff_cb_nn d w (mp_eff mp w 0)) tt (windows w xs)).
  { intros Hw. apply run_ext_in. intros s a Ha. apply vfdiff_cb_nn_eq.
    unfold windows in Ha. apply in_map_iff in Ha. destruct Ha as (i & <- & Hi). apply in_seq in Hi.
    rewrite win_length_min by (try exact Hw; lia). lia. }
  destruct body.
  - rewrite !rolling_custom_to_total. destruct (bad_window_cases w xs) as [(Hb & _)|(Hb & [Hw| ->])]; rewrite Hb.
    + reflexivity.
    + rewrite Hrun by exact Hw. reflexivity.
    + reflexivity.
  - rewrite !rolling_custom_default_total. destruct w as [|w]; [reflexivity|].
    cbn [Nat.eqb]. rewrite Hrun by lia. reflexivity.
Qed.

(* (A10) min_periods = Some 0: the rolling sum is NEVER null (an all-null window sums to 0); mean / ewm / wma are null
   exactly on the windows without a valid element *)
Theorem C01_min_periods_zero :
  forall (body : bool) (w : nat) (xs : list XR), 1 <= w ->
  (exists out, ts_run (ts_vsum_f w (Some 0)) body w xs = Done out /\ length out = length xs /\
     forall i, i < length xs -> nth_error out i = Some (Some (sumR (valid (win w i xs))))) /\
  (exists out, ts_run (ts_vmean_f w (Some 0)) body w xs = Done out /\ length out = length xs /\
     forall i, i < length xs ->
       nth_error out i = Some (let V := valid (win w i xs) in if length V =? 0 then None else Some (meanR V))) /\
  (exists out, ts_run (ts_vewm_f w (Some 0)) body w xs = Done out /\ length out = length xs /\
     forall i, i < length xs ->
       nth_error out i = Some (let V := valid (win w i xs) in
                               if length V =? 0 then None else Some (ewmR (1 - 2 / INR w) V))) /\
  (exists out, ts_run (ts_vwma_f w (Some 0)) body w xs = Done out /\ length out = length xs /\
     forall i, i < length xs ->
       nth_error out i = Some (let V := valid (win w i xs) in if length V =? 0 then None else Some (wmaR V))).
Proof.
  intros body w xs Hw. split; [|split; [|split]].
  - apply done_map_iff, (ts_vsum_run w (Some 0)), Hw.
  - apply done_map_iff, (ts_vmean_run w (Some 0)), Hw.
  - exact (C01_ts_vewm_total w (Some 0) body xs Hw).
  - apply done_map_iff, (ts_vwma_run w (Some 0)), Hw.
Qed.

(* (A11) the ewm and wma accumulators never drift either ((0) is the moment accumulator): behind every output the ewm state
   holds the count and sum_k oma^k x_(k), the wma state the count, the sum and sum_t t x_t of the valid window *)
Theorem C01_ewm_state_tracks_window :
  forall (w : nat) (mp : option nat) (body : bool) (xs : list XR), 1 <= w ->
    exists out, ts_run (ts_vewm_f w mp) body w xs = Done out /\ length out = length xs /\
      forall i v, nth_error xs i = Some v ->
        exists s, nth_error out i = Some (ewm_emit w (mp_eff mp w 0) s) /\
          e_n s = nv (win w i xs) /\ e_q s = Some (ewsum (1 - 2 / INR w) (valid (win w i xs))).
Proof.
  intros w mp body xs Hw. destruct (ewm_state_tracks_window w Hw mp body xs) as (out & H1 & H2 & H3).
  exists out. split; [exact H1|]. split; [exact H2|]. intros i v Hv.
  destruct (H3 i v Hv) as (s & (Hn & Hq) & Ho). exists s. split; [exact Ho|]. split; assumption.
Qed.
Theorem C01_wma_state_tracks_window :
  forall (w : nat) (mp : option nat) (body : bool) (xs : list XR), 1 <= w ->
    exists out, ts_run (ts_vwma_f w mp) body w xs = Done out /\ length out = length xs /\
      forall i v, nth_error xs i = Some v ->
        exists s, nth_error out i = Some (wma_emit (mp_eff mp w 0) s) /\
          w_n s = nv (win w i xs) /\ w_sum s = Some (sumR (valid (win w i xs))) /\
          w_xt s = Some (lwsum (valid (win w i xs))).
Proof.
  intros w mp body xs Hw. destruct (wma_state_tracks_window mp body w xs Hw) as (out & H1 & H2 & H3).
  exists out. split; [exact H1|]. split; [exact H2|]. intros i v Hv.
  destruct (H3 i v Hv) as (s & (Hn & Hs & Hx) & Ho). exists s. split; [exact Ho|]. repeat split; assumption.
Qed.

(* (A12) the PLAIN family on a series holding a NaN at position j (outside the property's "finite numeric series", and
   outside (8)/(11), which take null-free input): the accumulator is poisoned for ever — every output at a position
   >= j, also long after the NaN has left the window, is NaN for ts_sum / ts_mean / ts_skew / ts_kurt and exactly 0
   (min_periods permitting) for ts_var / ts_std, whose guard `var > EPS` is false on NaN *)
Theorem C01_plain_nan_poisons :
  forall (body : bool) (w : nat) (mp : option nat) (xs : list XR) (j : nat),
  1 <= w -> nth_error xs j = Some None ->
  let Dn : IsNone XR XR := IsNone_never in
  exists osum omean ovar ostd oskew okurt,
    ts_run (ts_vsum_f (DT := Dn) w mp) body w xs = Done osum /\
    ts_run (ts_vmean_f (DT := Dn) w mp) body w xs = Done omean /\
    ts_run (ts_vvar_f (DT := Dn) w mp) body w xs = Done ovar /\
    ts_run (ts_vstd_f (DT := Dn) w mp) body w xs = Done ostd /\
    ts_run (ts_vskew_f (DT := Dn) w mp) body w xs = Done oskew /\
    ts_run (ts_vkurt_f (DT := Dn) w mp) body w xs = Done okurt /\
    forall i, j <= i < length xs ->
      nth_error osum i = Some None /\ nth_error omean i = Some None /\
      nth_error oskew i = Some None /\ nth_error okurt i = Some None /\
      nth_error ovar i = Some (if mp_eff mp w 2 <=? Nat.min (S i) w then Some 0%R else None) /\
      nth_error ostd i = Some (if mp_eff mp w 2 <=? Nat.min (S i) w then Some 0%R else None).
Proof.
  intros body w mp xs j Hw Hj Dn.
  do 6 eexists. repeat (split; [apply plain_run; exact Hw|]).
  intros i (Hji & Hi). destruct (nth_error_Some_lt xs i Hi) as [v Hv].
  (* behind output i stands a poisoned state whose count is the length of the window *)
  assert (Hout : forall (emit : @mom XR -> XR) (g : nat -> XR),
             (forall s, poisoned s -> emit s = g (m_n s)) ->
             nth_error (run (feat_cb (mom_feat (DT := Dn) emit)) (f_init (mom_feat (DT := Dn) emit))
                            (mapi (fun i v => (removed w xs i, v)) xs)) i = Some (g (Nat.min (S i) w))).
  { intros emit g Hg. destruct (plain_emit_state emit w Hw xs j Hj i v Hji Hv) as (s & Hp & Hn & Ho).
    rewrite <- Hn, <- (Hg s Hp). exact Ho. }
  repeat split.
  - apply (Hout _ (fun _ => None)). intros s Hp. apply (emit_poisoned s _ Hp).
  - apply (Hout _ (fun _ => None)). intros s Hp. apply (emit_poisoned s _ Hp).
  - apply (Hout _ (fun _ => None)). intros s Hp. apply (emit_poisoned s _ Hp).
  - apply (Hout _ (fun _ => None)). intros s Hp. apply (emit_poisoned s _ Hp).
  - apply (Hout _ (fun n => if mp_eff mp w 2 <=? n then Some 0%R else None)). intros s Hp. apply (emit_poisoned s _ Hp).
  - apply (Hout _ (fun n => if mp_eff mp w 2 <=? n then Some 0%R else None)). intros s Hp. apply (emit_poisoned s _ Hp).
Qed.

(* (A13) ... so the sentence "the window state never drifts away from the window it describes" is REFUTED for the
   plain family once a NaN has passed: window [1] gives NaN, window [1; 2] gives variance 0 (replayed on the real code,
   notes/C01.md; the repository's test_ts_mean expects the NaN tail, so this is recorded, not repaired) *)
Theorem C01_plain_never_drifts_refuted :
  let Dn : IsNone XR XR := IsNone_never in
  forall body : bool,
  (exists out, ts_run (ts_vsum_f (DT := Dn) 1 (Some 1)) body 1 [None; Some 1%R] = Done out /\
     win 1 1 [None; Some 1%R] = [Some 1%R] /\ nth_error out 1 = Some None) /\
  (exists out, ts_run (ts_vvar_f (DT := Dn) 2 (Some 2)) body 2 [None; Some 1%R; Some 1%R; Some 2%R] = Done out /\
     win 2 3 [None; Some 1%R; Some 1%R; Some 2%R] = [Some 1%R; Some 2%R] /\ nth_error out 3 = Some (Some 0%R)).
Proof.
  intros Dn body. split.
  - destruct (C01_plain_nan_poisons body 1 (Some 1) [None; Some 1%R] 0 ltac:(lia) eq_refl)
      as (o1 & o2 & o3 & o4 & o5 & o6 & E1 & _ & _ & _ & _ & _ & H).
    exists o1. split; [exact E1|]. split; [reflexivity|]. apply (H 1). cbn. lia.
  - destruct (C01_plain_nan_poisons body 2 (Some 2) [None; Some 1%R; Some 1%R; Some 2%R] 0 ltac:(lia) eq_refl)
      as (o1 & o2 & o3 & o4 & o5 & o6 & _ & _ & E3 & _ & _ & _ & H).
    exists o3. split; [exact E3|]. split; [reflexivity|].
    destruct (H 3 ltac:(cbn; lia)) as (_ & _ & _ & _ & Hv & _). exact Hv.
Qed.

(* non-vacuity of the audit's implications *)
Example C01_example_audit_windows :
  bad_window 0 [1%Z] = true /\ bad_window 0 (@nil Z) = false /\ 3 <= 5 /\ 1 < length [1%Z; 2%Z] /\
  mp_eff (Some 9) 4 0 = 4 /\ mp_eff None 5 0 = 2 /\ mp_eff (Some 0) 1 2 = 2.
Proof. repeat split; vm_compute; auto. Qed.
Example C01_example_audit_masked :                      (* the mask premise of (A7) is met and not met in one series *)
  cnt_valid (DT := IsNoneF64) (win 2 1 [nan; 1; 2]%float) = 1 /\ cnt_valid (DT := IsNoneF64) (win 2 2 [nan; 1; 2]%float) = 2 /\
  ts_run (ts_vsum_f (NA := NumF64) (DT := IsNoneF64) 2 (Some 2)) true 2 [nan; 1; 2]%float = Done [nan; nan; 3]%float.
Proof. repeat split; vm_compute; reflexivity. Qed.
Example C01_example_audit_short_window :                (* (A8) at binary64: kurt with w = 3 *)
  ts_run (ts_vkurt_f (NA := NumF64) (DT := IsNoneF64) 3 (Some 0)) false 3 [1; 2; 4; 8]%float = Done [nan; nan; nan; nan]%float.
Proof. vm_compute. reflexivity. Qed.
Example C01_example_audit_poison_premise : nth_error [Some 1%R; None; Some 3%R] 1 = Some None /\ 1 <= 1 < 3.
Proof. split; [reflexivity|split; auto]. Qed.

Print Assumptions C01_ts_run_total.
Print Assumptions C01_window0.
Print Assumptions C01_returns_iff.
Print Assumptions C01_bodies_agree.
Print Assumptions C01_window_beyond_length.
Print Assumptions C01_min_periods_effective.
Print Assumptions C01_min_periods_above_window.
Print Assumptions C01_count_tracks_window_every_carrier.
Print Assumptions C01_below_min_periods_is_nan_every_carrier.
Print Assumptions C01_short_window_all_nan.
Print Assumptions C01_vfdiff_null_arm_is_dead_code.
Print Assumptions C01_min_periods_zero.
Print Assumptions C01_ewm_state_tracks_window.
Print Assumptions C01_wma_state_tracks_window.
Print Assumptions C01_plain_nan_poisons.
Print Assumptions C01_plain_never_drifts_refuted.
