(* Props/C17.v — property C17: date-time / duration / time-of-day arithmetic obeys its inverse laws.
   Statements about the model (Model/Time.v); Print Assumptions at the end. *)
From Coq Require Import ZArith List Bool Lia.
From Tevec Require Import Base.Prelude Spec.Calendar Model.Time Proofs.Time Proofs.Audit17 Proofs.TimeCal Proofs.Calendar Proofs.TimeCal2 Proofs.Time3.
Local Open Scope Z_scope.

(* ---- (1) (x + d) - d = x and (x - d) + d = x for a month-free d, outside known-finding class 1 ------- *)
Definition C17_add_sub_inverse_full_statement : Prop :=
  forall u x d y, in_i64 x = true -> x <> NaT -> td_months d = 0 ->
    dt_add u x d = Ok y -> y <> NaT -> dt_sub u y d = Ok x.
(* refuted as stated (class 1: d not a whole number of units of a coarse DateTime) ... *)
Theorem C17_add_sub_inverse_class1_fails :
  exists u x d y, td_months d = 0 /\ kf_subunit u d = true /\ dt_add u x d = Ok y /\ dt_sub u y d <> Ok x.
Proof. exists Sec, 0, (mktd 0 1), 0. vm_compute. repeat split; discriminate. Qed.
(* ... and proved outside the class (every d at nanosecond resolution; whole units otherwise) *)
Theorem C17_add_sub_inverse :
  forall u x d y, in_i64 x = true -> x <> NaT -> td_months d = 0 -> kf_subunit u d = false ->
    dt_add u x d = Ok y -> y <> NaT -> dt_sub u y d = Ok x.
Proof.
  intros u x d y Hx64 Hx Hm Hk H Hy. unfold kf_subunit in Hk. apply negb_false_iff, Z.eqb_eq in Hk.
  rewrite dt_add_monthfree in H by assumption. rewrite dt_sub_monthfree by assumption.
  exact (dt_shift_back u x _ y Hx64 Hk H Hy).
Qed.
Theorem C17_sub_add_inverse :
  forall u x d y, in_i64 x = true -> x <> NaT -> td_months d = 0 -> kf_subunit u d = false ->
    dt_sub u x d = Ok y -> y <> NaT -> dt_add u y d = Ok x.
Proof.
  intros u x d y Hx64 Hx Hm Hk H Hy. unfold kf_subunit in Hk. apply negb_false_iff, Z.eqb_eq in Hk.
  rewrite dt_sub_monthfree in H by assumption. rewrite dt_add_monthfree by assumption.
  rewrite <- (Z.opp_involutive (td_ns d)). apply (dt_shift_back u x (- td_ns d) y Hx64); [|exact H|exact Hy].
  apply Z.mod_opp_l_z; [pose proof (unit_ns_pos u); lia|exact Hk].
Qed.
Theorem C17_nano_never_in_class1 : forall d, kf_subunit Nano d = false.
Proof. intros d. unfold kf_subunit. cbn [unit_ns]. rewrite Z.mod_1_r. reflexivity. Qed.

(* ---- (2) (a - b) + b = a; the difference is the exact, month-free distance of the instants ----------- *)
Theorem C17_diff_add_inverse :
  forall u a b d, in_i64 a = true -> a <> NaT -> b <> NaT -> dt_diff u a b = Ok d -> dt_add u b d = Ok a.
Proof.
  intros u a b d Ha64 Ha Hb H. destruct (dt_diff_ok_inv _ _ _ _ Ha Hb H) as [(ca & cb & Ea & Eb) ->].
  rewrite dt_add_monthfree by (exact Hb || reflexivity). exact (dt_shift_to u b a cb ca Eb Ha64 Ea).
Qed.
Theorem C17_diff_value :
  forall u a b d, a <> NaT -> b <> NaT -> dt_diff u a b = Ok d ->
    d = mktd 0 (instant_ns u a - instant_ns u b).
Proof. intros u a b d Ha Hb H. apply (dt_diff_ok_inv _ _ _ _ Ha Hb H). Qed.

(* ---- (3) durations: abelian group under + / neg, scaling distributes --------------------------------- *)
Theorem C17_td_add_comm : forall a b, td_add a b = td_add b a.
Proof.
  intros a b. unfold td_add.
  rewrite (andb_comm (negb (td_is_nat a))), (Z.add_comm (td_months a)), (Z.add_comm (td_ns a)). reflexivity.
Qed.
Theorem C17_td_add_assoc :
  forall a b c ab bc, td_is_nat a = false -> td_is_nat b = false -> td_is_nat c = false ->
    td_add a b = Ok ab -> td_add b c = Ok bc -> td_is_nat ab = false -> td_is_nat bc = false ->
    td_add ab c = td_add a bc.
Proof.
  intros a b c ab bc Ha Hb Hc Hab Hbc Nab Nbc.
  destruct (td_add_inv _ _ _ Ha Hb Hab) as (-> & _ & _).
  destruct (td_add_inv _ _ _ Hb Hc Hbc) as (-> & _ & _).
  unfold td_add. rewrite Ha, Hc, Nab, Nbc. cbn [td_months td_ns negb andb].
  rewrite !Z.add_assoc. reflexivity.
Qed.
Theorem C17_td_add_closed :
  forall a b r, td_is_nat a = false -> td_is_nat b = false -> td_add a b = Ok r -> td_is_nat r = false ->
    td_valid r /\ r = mktd (td_months a + td_months b) (td_ns a + td_ns b).
Proof.
  intros a b r Ha Hb H Hr. destruct (td_add_inv _ _ _ Ha Hb H) as (-> & Hm & Hn). split; [|reflexivity].
  unfold td_valid, td_is_nat, dur_in_range in *. cbn [td_months td_ns] in *. apply in_i32_iff in Hm. lia.
Qed.
Theorem C17_td_zero : forall a, td_valid a -> td_add a td_zero = Ok a.
Proof.
  intros a Hv. pose proof (td_valid_not_nat _ Hv) as Hn. destruct Hv as [Hm Hd].
  rewrite td_add_intro; try assumption; try reflexivity.
  - destruct a as [am an]; cbn [td_zero td_months td_ns]. rewrite !Z.add_0_r. reflexivity.
  - cbn [td_zero td_months]. apply in_i32_iff. lia.
  - cbn [td_zero td_ns]. unfold dur_in_range. lia.
Qed.
Theorem C17_td_inverse : forall a, td_valid a -> td_valid (td_neg a) /\ td_add a (td_neg a) = Ok td_zero.
Proof.
  intros a Hv. pose proof (td_valid_not_nat _ Hv) as Hn. pose proof (td_neg_valid _ Hv) as Hv'.
  split; [exact Hv'|]. rewrite td_add_total by auto using td_valid_not_nat.
  rewrite (td_neg_not_nat _ Hn). cbn [td_months td_ns]. rewrite !Z.add_opp_diag_r. reflexivity.
Qed.
Theorem C17_td_neg_involutive : forall a, td_valid a -> td_neg (td_neg a) = a.
Proof.
  intros a Hv. pose proof (td_valid_not_nat _ Hv) as Hn.
  rewrite (td_neg_not_nat _ (td_valid_not_nat _ (td_neg_valid _ Hv))), (td_neg_not_nat _ Hn).
  cbn [td_months td_ns]. rewrite !Z.opp_involutive. destruct a; reflexivity.
Qed.
Theorem C17_td_sub_is_add_neg :
  forall a b r, td_is_nat a = false -> td_valid b -> td_sub a b = Ok r -> td_add a (td_neg b) = Ok r.
Proof.
  intros a b r Ha Hv. pose proof (td_valid_not_nat _ Hv) as Hb.
  pose proof (td_valid_not_nat _ (td_neg_valid _ Hv)) as Hb'.
  rewrite td_sub_total, td_add_total by assumption. rewrite (td_neg_not_nat _ Hb). cbn [td_months td_ns].
  rewrite !Z.add_opp_r. destruct (in_i32 _); cbn [negb]; [exact (fun H => H)|discriminate].
Qed.
Theorem C17_td_scale_distributes :
  forall a b k ab l ak bk r, td_is_nat a = false -> td_is_nat b = false ->
    td_add a b = Ok ab -> td_is_nat ab = false -> td_mul ab k = Ok l ->
    td_mul a k = Ok ak -> td_mul b k = Ok bk -> td_is_nat ak = false -> td_is_nat bk = false ->
    td_add ak bk = Ok r -> r = l.
Proof.
  intros a b k ab l ak bk r Ha Hb Hab Nab Hl Hak Hbk Nak Nbk Hr.
  destruct (td_add_inv _ _ _ Ha Hb Hab) as (-> & _ & _).
  destruct (td_mul_inv_full _ _ _ Nab Hl) as (-> & _). destruct (td_mul_inv_full _ _ _ Ha Hak) as (-> & _).
  destruct (td_mul_inv_full _ _ _ Hb Hbk) as (-> & _). destruct (td_add_inv _ _ _ Nak Nbk Hr) as (-> & _ & _).
  cbn [td_months td_ns]. f_equal; ring.
Qed.
Theorem C17_td_scale_value :
  forall a k r, td_is_nat a = false -> td_mul a k = Ok r -> r = mktd (td_months a * k) (td_ns a * k).
Proof. intros a k r Ha H. apply (td_mul_inv_full _ _ _ Ha H). Qed.
Theorem C17_td_scale_one : forall a, td_valid a -> td_mul a 1 = Ok a.
Proof. exact td_mul_1. Qed.

(* ---- (4) adding months = calendar month arithmetic with end-of-month clamping ------------------------ *)
(* with the premise that civil_of_days / days_of_civil of Spec/Calendar.v satisfy CalendarLaws ... *)
Theorem C17_month_add_is_calendar_arithmetic :
  CalendarLaws civil_of_days days_of_civil ->
  forall u x k y, x <> NaT -> k <> 0 -> k <> i32_min -> dt_add u x (mktd k 0) = Ok y -> y <> NaT ->
    exists c c', as_cr u x = Some c /\ as_cr u y = Some c'
                 /\ cr_civil c' = add_months (cr_civil c) k /\ cr_sod c' = cr_sod c /\ cr_nanos c' = cr_nanos c.
Proof. exact dt_add_months_fields. Qed.
Theorem C17_month_sub_is_calendar_arithmetic :
  CalendarLaws civil_of_days days_of_civil ->
  forall u x k y, x <> NaT -> k <> 0 -> k <> i32_min -> dt_sub u x (mktd k 0) = Ok y -> y <> NaT ->
    exists c c', as_cr u x = Some c /\ as_cr u y = Some c'
                 /\ cr_civil c' = add_months (cr_civil c) (- k) /\ cr_sod c' = cr_sod c /\ cr_nanos c' = cr_nanos c.
Proof. exact dt_sub_months_fields. Qed.
(* ... and without it: Proofs/Calendar.calendar_lawful is that premise *)
Corollary C17_month_add_executable_calendar :
  forall u x k y, x <> NaT -> k <> 0 -> k <> i32_min -> dt_add u x (mktd k 0) = Ok y -> y <> NaT ->
    exists c c', as_cr u x = Some c /\ as_cr u y = Some c'
                 /\ cr_civil c' = add_months (cr_civil c) k /\ cr_sod c' = cr_sod c /\ cr_nanos c' = cr_nanos c.
Proof. exact (dt_add_months_fields calendar_lawful). Qed.
Theorem C17_add_months_clamps :
  forall y m d k, add_months (y, m, d) k
    = ((y * 12 + (m - 1) + k) / 12, (y * 12 + (m - 1) + k) mod 12 + 1,
       Z.min d (days_in_month ((y * 12 + (m - 1) + k) / 12) ((y * 12 + (m - 1) + k) mod 12 + 1))).
Proof. reflexivity. Qed.

(* ---- (5) time of day ----------------------------------------------------------------------------------- *)
Theorem C17_time_ctor_getters_nano :
  forall h m s n, hms_ok h m s -> 0 <= n < 1000000000 ->
    exists t, time_from_hms_nano h m s n = Ok t /\ 0 <= t < 86400000000000
      /\ time_hour t = Ok h /\ time_minute t = Ok m /\ time_second t = Ok s /\ time_nanosecond t = Ok n.
Proof.
  intros h m s n H Hn. exists ((h * 3600 + m * 60 + s) * 1000000000 + n).
  split; [exact (time_from_hms_nano_value h m s n H Hn)|].
  split; [destruct H as (? & ? & ?); lia|].
  exact (time_getters h m s n _ H Hn eq_refl).
Qed.
Theorem C17_time_ctor_getters_milli :
  forall h m s x, hms_ok h m s -> 0 <= x < 1000 ->
    exists t, time_from_hms_milli h m s x = Ok t
      /\ time_hour t = Ok h /\ time_minute t = Ok m /\ time_second t = Ok s /\ time_nanosecond t = Ok (x * 1000000).
Proof.
  intros h m s x H Hx. exists ((h * 3600 + m * 60 + s) * 1000000000 + x * 1000000).
  split; [apply (time_from_hms_sub_value 1000000 h m s x H); lia|].
  apply (time_getters h m s (x * 1000000) _ H); [lia | reflexivity].
Qed.
Theorem C17_time_ctor_getters_micro :
  forall h m s x, hms_ok h m s -> 0 <= x < 1000000 ->
    exists t, time_from_hms_micro h m s x = Ok t
      /\ time_hour t = Ok h /\ time_minute t = Ok m /\ time_second t = Ok s /\ time_nanosecond t = Ok (x * 1000).
Proof.
  intros h m s x H Hx. exists ((h * 3600 + m * 60 + s) * 1000000000 + x * 1000).
  split; [apply (time_from_hms_sub_value 1000 h m s x H); lia|].
  apply (time_getters h m s (x * 1000) _ H); [lia | reflexivity].
Qed.
Theorem C17_time_ctor_hms :
  forall h m s, hms_ok h m s -> time_from_hms h m s = Ok ((h * 3600 + m * 60 + s) * 1000000000).
Proof. exact time_from_hms_value. Qed.
Theorem C17_time_calendar_roundtrip :
  (forall t c, 0 <= t < 86400000000000 -> time_as_cr t = Some c -> time_from_cr c = t)
  /\ (forall t, 0 <= t < 86400000000000 -> time_as_cr t = Some (t / 1000000000, t mod 1000000000))
  /\ (forall secs frac, 0 <= secs < 86400 -> 0 <= frac < 1000000000 ->
        time_as_cr (time_from_cr (secs, frac)) = Some (secs, frac)).
Proof.
  split; [|split; [exact time_as_cr_in_range|]].
  - intros t c Ht H. rewrite time_as_cr_in_range in H by exact Ht. injection H as <-.
    unfold time_from_cr, NANOS_PER_SEC. cbn [fst snd]. rewrite Z.mul_comm. symmetry. apply Z.div_mod. lia.
  - intros secs frac Hs Hf. unfold time_from_cr, NANOS_PER_SEC. cbn [fst snd].
    rewrite time_as_cr_in_range by lia.
    rewrite <- (Z.div_unique (secs * 1000000000 + frac) 1000000000 secs frac),
            <- (Z.mod_unique (secs * 1000000000 + frac) 1000000000 secs frac) by lia. reflexivity.
Qed.
Theorem C17_time_shift_exact :
  forall t d, t <> NaT -> td_months d = 0 -> in_i64 (td_ns d) = true ->
    (in_i64 (t + td_ns d) = true -> time_add t d = Ok (t + td_ns d))
    /\ (in_i64 (t - td_ns d) = true -> time_sub t d = Ok (t - td_ns d)).
Proof.
  intros t d Ht Hm Hd. rewrite time_add_monthfree, time_sub_monthfree by assumption. unfold chk64, chk64s.
  split; intros ->; reflexivity.
Qed.
Theorem C17_time_add_sub_inverse :
  forall t d y, in_i64 t = true -> t <> NaT -> td_months d = 0 -> in_i64 (td_ns d) = true ->
    time_add t d = Ok y -> y <> NaT -> time_sub y d = Ok t.
Proof.
  intros t d y Ht64 Ht Hm Hd H Hy. rewrite time_add_monthfree in H by assumption.
  apply chk64_inv in H. destruct H as [-> _]. rewrite time_sub_monthfree by assumption.
  unfold chk64s. replace (t + td_ns d - td_ns d) with t by lia. rewrite Ht64. reflexivity.
Qed.

(* ---- (6) duration_trunc ------------------------------------------------------------------------------------ *)
(* month-free d > 0: computed at nanosecond resolution as d * floor(x / d), stored at the unit.
   `y <> NaT`: at ns resolution a result below the i64 range is NaT (chrono -> DateTime<Nanosecond> is total,
   repo commit 3cb9707) *)
Theorem C17_trunc_monthfree :
  forall u x d y, x <> NaT -> td_months d = 0 -> 0 < td_ns d -> dt_trunc u x d = Ok y -> y <> NaT ->
    y = (td_ns d * (instant_ns u x / td_ns d)) / unit_ns u.
Proof. exact dt_trunc_monthfree. Qed.
(* hence, for d a whole number of units (always at ns resolution): the greatest multiple of d not after x *)
Theorem C17_trunc_greatest_multiple :
  forall u x d y, x <> NaT -> td_months d = 0 -> 0 < td_ns d -> td_ns d mod unit_ns u = 0 ->
    dt_trunc u x d = Ok y -> y <> NaT ->
    instant_ns u y = td_ns d * (instant_ns u x / td_ns d)
    /\ instant_ns u y <= instant_ns u x < instant_ns u y + td_ns d.
Proof. exact dt_trunc_monthfree_multiple. Qed.
(* months dividing 12: the first instant of the month / quarter / half-year / year containing x *)
Theorem C17_trunc_months :
  CalendarLaws civil_of_days days_of_civil ->
  forall u x m y, x <> NaT -> divides12 m -> dt_trunc u x (mktd m 0) = Ok y ->
    exists c, as_cr u x = Some c /\
      forall cy, as_cr u y = Some cy ->
        (let '(yr, mo, _) := cr_civil c in cr_civil cy = (yr, period_start mo m, 1))
        /\ cr_sod cy = 0 /\ cr_nanos cy = 0.
Proof. exact dt_trunc_months_fields. Qed.
Corollary C17_trunc_months_executable_calendar :
  forall u x m y, x <> NaT -> divides12 m -> dt_trunc u x (mktd m 0) = Ok y ->
    exists c, as_cr u x = Some c /\
      forall cy, as_cr u y = Some cy ->
        (let '(yr, mo, _) := cr_civil c in cr_civil cy = (yr, period_start mo m, 1))
        /\ cr_sod cy = 0 /\ cr_nanos cy = 0.
Proof. exact (dt_trunc_months_fields calendar_lawful). Qed.

(* ---- (7) order: days_of_civil is monotone; the truncated instant against x; class 1 loses exactly one unit ---- *)
(* Hinnant's days_of_civil is strictly monotone for the lexicographic order (year, month, day) on valid dates,
   for every year (negative ones included), and reflects it: an order isomorphism onto the day numbers *)
Theorem C17_days_of_civil_monotone :
  forall a b, valid_civil a -> valid_civil b -> civil_lt a b -> days_of_civil a < days_of_civil b.
Proof. exact days_of_civil_mono. Qed.
Theorem C17_days_of_civil_order_iso :
  forall a b, valid_civil a -> valid_civil b -> (days_of_civil a < days_of_civil b <-> civil_lt a b).
Proof. exact days_of_civil_lt_iff. Qed.
Theorem C17_civil_of_days_monotone :
  forall z1 z2, z1 < z2 -> civil_lt (civil_of_days z1) (civil_of_days z2).
Proof.
  intros z1 z2 H. apply days_of_civil_lt_iff; try apply civil_of_days_valid.
  rewrite !days_civil_days. exact H.
Qed.
(* the first of the next month is this month's first plus the length of the month *)
Theorem C17_month_lengths :
  forall t, month_start (t + 1) = month_start t + days_in_month (t / 12) (t mod 12 + 1).
Proof. exact month_start_succ. Qed.
(* months dividing 12, all four units, pre-1970 instants included: the truncated instant is not after x ... *)
Theorem C17_month_trunc_le :
  forall u x m y, x <> NaT -> divides12 m -> dt_trunc u x (mktd m 0) = Ok y -> y <> NaT ->
    instant_ns u y <= instant_ns u x /\ y <= x.
Proof. exact month_trunc_le. Qed.
(* ... it is the first instant of a year-aligned period of m months, and the greatest such instant <= x ... *)
Theorem C17_month_trunc_greatest :
  forall u x m y, x <> NaT -> divides12 m -> dt_trunc u x (mktd m 0) = Ok y -> y <> NaT ->
    is_period_start m (instant_ns u y)
    /\ instant_ns u y <= instant_ns u x
    /\ (forall T, is_period_start m T -> T <= instant_ns u x -> T <= instant_ns u y).
Proof.
  intros u x m y Hx Hm H Hy.
  pose proof (month_trunc_le u x m y Hx Hm H Hy) as [Hle _].
  destruct (month_trunc_instant u x m y Hx Hm H Hy) as (c & yr & mo & dd & _ & _ & Hmo & Ey & Ex).
  destruct (divides12_spec m Hm) as (Hm0 & q & Hq).
  destruct (period_start_range mo m Hm0 Hmo) as (Hps & Hpm & _).
  split; [|split; [exact Hle|]].
  - exists yr, ((period_start mo m - 1) / m). rewrite Ey.
    assert (E : (period_start mo m - 1) / m * m = period_start mo m - 1).
    { rewrite Z.mul_comm. symmetry. apply Z.div_exact; [lia|exact Hpm]. }
    rewrite E, Z.sub_add. split; [apply Z.div_pos; lia|]. split; [lia|reflexivity].
  - intros T (yr' & k & Hk0 & Hk & ->) HT. rewrite Ey.
    apply Z.mul_le_mono_nonneg_r; [discriminate|].
    rewrite <- (month_start_of_ym yr' (k * m + 1)) in HT |- * by lia.
    rewrite <- (month_start_of_ym yr (period_start mo m)) by lia.
    apply month_start_mono_le.
    (* the candidate starts before the month after x's ... *)
    assert (Hlt : month_start (yr' * 12 + (k * m + 1 - 1)) < month_start (yr * 12 + (mo - 1) + 1))
      by (unfold DAY_NS in *; lia).
    apply month_start_reflect in Hlt.
    (* ... and its index is a multiple of m, hence not after the floor of x's month index *)
    unfold period_start. rewrite <- (month_index_mod yr (mo - 1) m Hm).
    replace (yr' * 12 + (k * m + 1 - 1)) with ((yr' * q + k) * m) in Hlt |- * by (rewrite Hq; ring).
    rewrite Z.add_simpl_r, Z.add_sub_assoc. apply multiple_le_floor; lia.
Qed.
(* ... in closed form: 00:00:00.0 on the first day of the period's first month, and x lies before the first
   instant of the next period (the month / quarter / half-year / year containing x) *)
Theorem C17_month_trunc_containing_period :
  forall u x m y, x <> NaT -> divides12 m -> dt_trunc u x (mktd m 0) = Ok y -> y <> NaT ->
    exists c yr mo dd, as_cr u x = Some c /\ cr_civil c = (yr, mo, dd)
      /\ instant_ns u y = days_of_civil (yr, period_start mo m, 1) * DAY_NS
      /\ instant_ns u y <= instant_ns u x < days_of_civil (add_months (yr, period_start mo m, 1) m) * DAY_NS.
Proof.
  intros u x m y Hx Hm H Hy.
  pose proof (month_trunc_le u x m y Hx Hm H Hy) as [Hle _].
  destruct (month_trunc_instant u x m y Hx Hm H Hy) as (c & yr & mo & dd & Ec & Ecv & Hmo & Ey & Ex).
  exists c, yr, mo, dd. do 4 (split; [assumption|]).
  destruct (period_start_range mo m (proj1 (divides12_spec m Hm)) Hmo) as (Hps & _ & Hpd).
  unfold add_months. set (t := yr * 12 + (period_start mo m - 1) + m).
  pose proof (dim_bounds (t / 12) (t mod 12 + 1)). rewrite Z.min_l by lia.
  change (days_of_civil (t / 12, t mod 12 + 1, 1)) with (month_start t).
  pose proof (month_start_mono_le (yr * 12 + (mo - 1) + 1) t ltac:(subst t; lia)).
  unfold DAY_NS in *. lia.
Qed.
(* month-free d > 0, also when d is NOT a whole number of units: never after x, less than d + one unit before x *)
Theorem C17_trunc_monthfree_le :
  forall u x d y, x <> NaT -> td_months d = 0 -> 0 < td_ns d -> dt_trunc u x d = Ok y -> y <> NaT ->
    instant_ns u y <= td_ns d * (instant_ns u x / td_ns d) <= instant_ns u x
    /\ instant_ns u x < instant_ns u y + unit_ns u + td_ns d
    /\ y <= x.
Proof.
  intros u x d y Hx Hm Hd H Hy. apply dt_trunc_monthfree in H; try assumption.
  pose proof (unit_ns_pos u) as HU. set (n := td_ns d) in *. set (T := instant_ns u x) in *.
  pose proof (Z.mul_div_le T n Hd) as H1. pose proof (Z.mul_succ_div_gt T n Hd) as H2.
  set (F := n * (T / n)) in *.
  pose proof (Z.mul_div_le F (unit_ns u) HU) as H3. pose proof (Z.mul_succ_div_gt F (unit_ns u) HU) as H4.
  rewrite <- H in H3, H4. unfold instant_ns. repeat split; try lia.
  apply (Z.mul_le_mono_pos_r y x (unit_ns u) HU). fold (instant_ns u x). fold T. lia.
Qed.
(* known-finding class 1 is tight: EVERY member of the class fails, always by exactly one unit *)
Theorem C17_add_sub_class1_loses_one_unit :
  forall u x d y z, x <> NaT -> td_months d = 0 -> kf_subunit u d = true ->
    dt_add u x d = Ok y -> y <> NaT -> dt_sub u y d = Ok z -> z <> NaT -> z = x - 1.
Proof.
  intros u x d y z Hx Hm Hk Ha Hy Hs Hz. rewrite (round_trip_value u x d y z), Hk by assumption. lia.
Qed.
Corollary C17_add_sub_class1_always_fails :
  forall u x d y z, x <> NaT -> td_months d = 0 -> kf_subunit u d = true ->
    dt_add u x d = Ok y -> y <> NaT -> dt_sub u y d = Ok z -> z <> NaT -> z <> x.
Proof.
  intros u x d y z Hx Hm Hk Ha Hy Hs Hz. rewrite (C17_add_sub_class1_loses_one_unit u x d y z) by assumption. lia.
Qed.

(* ---- (8) Time::with_*, components bijection, TimeDelta / TimeDelta, the scaling laws for every factor ----------- *)
(* Time::with_hour / with_minute / with_second / with_nanosecond (impl_time.rs:62-101): on every time of day and every
   valid component the result is a time of day that reports the new component and the three others unchanged *)
Theorem C17_time_with_components :
  forall t, 0 <= t < 86400000000000 ->
    (forall h, 0 <= h < 24 -> exists t', time_with_hour t h = Some t' /\ 0 <= t' < 86400000000000
        /\ time_hour t' = Ok h /\ time_minute t' = time_minute t /\ time_second t' = time_second t
        /\ time_nanosecond t' = time_nanosecond t)
    /\ (forall m, 0 <= m < 60 -> exists t', time_with_minute t m = Some t' /\ 0 <= t' < 86400000000000
        /\ time_hour t' = time_hour t /\ time_minute t' = Ok m /\ time_second t' = time_second t
        /\ time_nanosecond t' = time_nanosecond t)
    /\ (forall s, 0 <= s < 60 -> exists t', time_with_second t s = Some t' /\ 0 <= t' < 86400000000000
        /\ time_hour t' = time_hour t /\ time_minute t' = time_minute t /\ time_second t' = Ok s
        /\ time_nanosecond t' = time_nanosecond t)
    /\ (forall n, 0 <= n < 1000000000 -> exists t', time_with_nanosecond t n = Some t' /\ 0 <= t' < 86400000000000
        /\ time_hour t' = time_hour t /\ time_minute t' = time_minute t /\ time_second t' = time_second t
        /\ time_nanosecond t' = Ok n).
Proof.
  intros t Ht. destruct (time_decompose t Ht) as (h0 & m0 & s0 & n0 & Hc & -> & _).
  destruct (time_getters_comp _ _ _ _ Hc) as (-> & -> & -> & ->).
  (* the new time is that of the components with one replaced; its getters read them back *)
  repeat split; intros v Hv.
  - assert (Hc' : comp_ok v m0 s0 n0) by (unfold comp_ok, hms_ok in *; lia).
    exists (time_of_comp v m0 s0 n0). split; [exact (time_with_hour_comp _ _ _ _ _ Hc Hv)|].
    split; [exact (comp_in_day _ _ _ _ Hc')|exact (time_getters_comp _ _ _ _ Hc')].
  - assert (Hc' : comp_ok h0 v s0 n0) by (unfold comp_ok, hms_ok in *; lia).
    exists (time_of_comp h0 v s0 n0). split; [exact (time_with_minute_comp _ _ _ _ _ Hc Hv)|].
    split; [exact (comp_in_day _ _ _ _ Hc')|exact (time_getters_comp _ _ _ _ Hc')].
  - assert (Hc' : comp_ok h0 m0 v n0) by (unfold comp_ok, hms_ok in *; lia).
    exists (time_of_comp h0 m0 v n0). split; [exact (time_with_second_comp _ _ _ _ _ Hc Hv)|].
    split; [exact (comp_in_day _ _ _ _ Hc')|exact (time_getters_comp _ _ _ _ Hc')].
  - assert (Hc' : comp_ok h0 m0 s0 v) by (unfold comp_ok, hms_ok in *; lia).
    exists (time_of_comp h0 m0 s0 v). split; [apply (time_with_nanosecond_comp _ _ _ _ _ Hc); lia|].
    split; [exact (comp_in_day _ _ _ _ Hc')|exact (time_getters_comp _ _ _ _ Hc')].
Qed.
(* ... in closed form on the raw nanoseconds since midnight (with_nanosecond also on chrono's leap-second range) *)
Theorem C17_time_with_values :
  forall t, 0 <= t < 86400000000000 ->
    (forall h, 0 <= h < 24 -> time_with_hour t h = Some (t + (h - t / 3600000000000) * 3600000000000))
    /\ (forall m, 0 <= m < 60 -> time_with_minute t m = Some (t + (m - t / 60000000000 mod 60) * 60000000000))
    /\ (forall s, 0 <= s < 60 -> time_with_second t s = Some (t + (s - t / 1000000000 mod 60) * 1000000000))
    /\ (forall n, 0 <= n < 2000000000 -> time_with_nanosecond t n = Some (t + (n - t mod 1000000000))).
Proof.
  intros t Ht. destruct (time_decompose t Ht) as (h0 & m0 & s0 & n0 & Hc & E & Eh & Em & Es & En).
  rewrite <- Eh, <- Em, <- Es, <- En, E.
  repeat split; intros v Hv.
  - rewrite (time_with_hour_comp _ _ _ _ _ Hc Hv). unfold time_of_comp. f_equal. ring.
  - rewrite (time_with_minute_comp _ _ _ _ _ Hc Hv). unfold time_of_comp. f_equal. ring.
  - rewrite (time_with_second_comp _ _ _ _ _ Hc Hv). unfold time_of_comp. f_equal. ring.
  - rewrite (time_with_nanosecond_comp _ _ _ _ _ Hc Hv). unfold time_of_comp. f_equal. ring.
Qed.
(* out-of-range components give the documented None, whatever the receiver *)
Theorem C17_time_with_out_of_range :
  forall t, (forall h, 24 <= h -> time_with_hour t h = None)
    /\ (forall m, 60 <= m -> time_with_minute t m = None)
    /\ (forall s, 60 <= s -> time_with_second t s = None)
    /\ (forall n, 2000000000 <= n -> time_with_nanosecond t n = None).
Proof.
  intros t. unfold time_with_hour, time_with_minute, time_with_second, time_with_nanosecond.
  repeat split; intros v Hv; destruct (time_as_cr t) as [[secs frac]|]; try reflexivity;
    apply Z.leb_le in Hv; rewrite Hv; reflexivity.
Qed.
(* a receiver that chrono does not accept as a time of day (NaT, every negative value down to -(2^32 - 86400) s):
   None for every component *)
Theorem C17_time_with_invalid_receiver :
  forall t v, t = NaT \/ - 4294880896000000000 <= t < 0 ->
    time_with_hour t v = None /\ time_with_minute t v = None /\ time_with_second t v = None
    /\ time_with_nanosecond t v = None.
Proof.
  intros t v [-> | Ht]; apply time_with_invalid; [exact time_as_cr_nat | exact (time_as_cr_negative t Ht)].
Qed.
(* composing the four setters from midnight = from_hms_nano *)
Theorem C17_time_with_compose :
  forall h m s n, hms_ok h m s -> 0 <= n < 1000000000 ->
    exists t1 t2 t3 t4, time_with_hour 0 h = Some t1 /\ time_with_minute t1 m = Some t2
      /\ time_with_second t2 s = Some t3 /\ time_with_nanosecond t3 n = Some t4
      /\ time_from_hms_nano h m s n = Ok t4.
Proof.
  intros h m s n H Hn. destruct (time_with_compose h m s n (conj H Hn)) as [E F].
  destruct (time_with_hour 0 h) as [t1|] eqn:E1; [|discriminate]. cbn [obind] in E.
  destruct (time_with_minute t1 m) as [t2|] eqn:E2; [|discriminate]. cbn [obind] in E.
  destruct (time_with_second t2 s) as [t3|] eqn:E3; [|discriminate]. cbn [obind] in E.
  exists t1, t2, t3, (time_of_comp h m s n). repeat split; assumption || reflexivity.
Qed.
(* the setters commute; a second set of the same component overrides the first *)
Theorem C17_time_with_commute :
  forall t h m, 0 <= t < 86400000000000 -> 0 <= h < 24 -> 0 <= m < 60 ->
    obind (time_with_hour t h) (fun t1 => time_with_minute t1 m)
    = obind (time_with_minute t m) (fun t1 => time_with_hour t1 h).
Proof.
  intros t h m Ht Hh Hm. destruct (time_decompose t Ht) as (h0 & m0 & s0 & n0 & Hc & -> & _).
  assert (C1 : comp_ok h m0 s0 n0) by (unfold comp_ok, hms_ok in *; lia).
  assert (C2 : comp_ok h0 m s0 n0) by (unfold comp_ok, hms_ok in *; lia).
  rewrite (time_with_hour_comp _ _ _ _ _ Hc Hh), (time_with_minute_comp _ _ _ _ _ Hc Hm). cbn [obind].
  rewrite (time_with_minute_comp _ _ _ _ _ C1 Hm), (time_with_hour_comp _ _ _ _ _ C2 Hh). reflexivity.
Qed.
Theorem C17_time_with_idempotent :
  forall t h h', 0 <= t < 86400000000000 -> 0 <= h < 24 -> 0 <= h' < 24 ->
    obind (time_with_hour t h) (fun t1 => time_with_hour t1 h') = time_with_hour t h'
    /\ time_with_hour t (t / 3600000000000) = Some t.
Proof.
  intros t h h' Ht Hh Hh'. destruct (time_decompose t Ht) as (h0 & m0 & s0 & n0 & Hc & E & Eh & _).
  rewrite <- Eh, E. clear Eh E.
  assert (C1 : comp_ok h m0 s0 n0) by (unfold comp_ok, hms_ok in *; lia).
  assert (Hh0 : 0 <= h0 < 24) by (unfold comp_ok, hms_ok in Hc; lia).
  rewrite !(time_with_hour_comp h0 m0 s0 n0) by assumption. cbn [obind].
  rewrite (time_with_hour_comp _ _ _ _ _ C1 Hh'). auto.
Qed.
(* remark made precise: chrono accepts 10^9 <= n < 2*10^9 (leap second) on EVERY second; Time cannot represent it, so the
   result reports n - 10^9 in the next second, and at 23:59:59 it is a `Some` whose getters panic *)
Theorem C17_time_with_nanosecond_leap_range :
  forall t n, 0 <= t < 86400000000000 -> 1000000000 <= n < 2000000000 ->
    exists t', time_with_nanosecond t n = Some t' /\ t' = t / 1000000000 * 1000000000 + n
      /\ (t < 86399000000000 -> time_nanosecond t' = Ok (n - 1000000000)
                                /\ time_as_cr t' = Some (t / 1000000000 + 1, n - 1000000000))
      /\ (86399000000000 <= t -> time_as_cr t' = None /\ time_hour t' = Panic UnwrapNone).
Proof.
  intros t n Ht Hn. destruct (C17_time_with_values t Ht) as (_ & _ & _ & V).
  pose proof (Z.div_mod t 1000000000 ltac:(lia)) as E0.
  pose proof (Z.mod_pos_bound t 1000000000 ltac:(lia)) as B0.
  exists (t / 1000000000 * 1000000000 + n).
  split; [rewrite V by lia; f_equal; lia|]. split; [reflexivity|].
  set (S0 := t / 1000000000) in *.
  split.
  - intros Hlt.
    assert (A : time_as_cr (S0 * 1000000000 + n) = Some (S0 + 1, n - 1000000000)).
    { rewrite time_as_cr_in_range by lia.
      rewrite <- (Z.div_unique _ 1000000000 (S0 + 1) (n - 1000000000)),
              <- (Z.mod_unique _ 1000000000 (S0 + 1) (n - 1000000000)) by lia.
      reflexivity. }
    split; [|exact A]. unfold time_nanosecond. rewrite A. reflexivity.
  - intros Hge.
    (* the whole seconds are 86400: not a NaiveTime *)
    assert (A : time_as_cr (S0 * 1000000000 + n) = None).
    { apply time_as_cr_none; [apply in_i64_iff; unfold i64_min, i64_max; lia|]. intros [_ W].
      rewrite Z.quot_div_nonneg in W by lia.
      rewrite <- (Z.div_unique _ 1000000000 86400 (S0 * 1000000000 + n - 86400000000000)) in W by lia.
      exact (Z.lt_irrefl _ W). }
    split; [exact A|]. unfold time_hour. rewrite A. reflexivity.
Qed.

(* (h, m, s, ns) |-> Time is a bijection between the valid components and 0 <= raw < 86400 * 10^9, inverse = getters *)
Theorem C17_time_components_bijection :
  (forall h m s n h' m' s' n' t, hms_ok h m s -> 0 <= n < 1000000000 -> hms_ok h' m' s' -> 0 <= n' < 1000000000 ->
     time_from_hms_nano h m s n = Ok t -> time_from_hms_nano h' m' s' n' = Ok t ->
     h = h' /\ m = m' /\ s = s' /\ n = n')
  /\ (forall h m s n t, hms_ok h m s -> 0 <= n < 1000000000 -> time_from_hms_nano h m s n = Ok t ->
        0 <= t < 86400000000000)
  /\ (forall t, 0 <= t < 86400000000000 ->
        exists h m s n, hms_ok h m s /\ 0 <= n < 1000000000 /\ time_from_hms_nano h m s n = Ok t
          /\ time_hour t = Ok h /\ time_minute t = Ok m /\ time_second t = Ok s /\ time_nanosecond t = Ok n).
Proof.
  split; [|split].
  - intros h m s n h' m' s' n' t H Hn H' Hn'.
    rewrite (time_from_hms_nano_comp _ _ _ _ (conj H Hn)), (time_from_hms_nano_comp _ _ _ _ (conj H' Hn')).
    intros [= <-] [= E]. apply time_of_comp_injective; [split; assumption|split; assumption|symmetry; exact E].
  - intros h m s n t H Hn. rewrite (time_from_hms_nano_comp _ _ _ _ (conj H Hn)). intros [= <-].
    exact (comp_in_day _ _ _ _ (conj H Hn)).
  - intros t Ht. destruct (time_decompose t Ht) as (h & m & s & n & Hc & -> & _).
    exists h, m, s, n. split; [apply Hc|]. split; [apply Hc|].
    split; [exact (time_from_hms_nano_comp _ _ _ _ Hc)|exact (time_getters_comp _ _ _ _ Hc)].
Qed.
Theorem C17_time_getters_then_ctor :
  forall t h m s n, 0 <= t < 86400000000000 -> time_hour t = Ok h -> time_minute t = Ok m -> time_second t = Ok s ->
    time_nanosecond t = Ok n -> (hms_ok h m s /\ 0 <= n < 1000000000) /\ time_from_hms_nano h m s n = Ok t.
Proof.
  intros t h m s n Ht G1 G2 G3 G4.
  destruct (proj2 (proj2 C17_time_components_bijection) t Ht) as (h' & m' & s' & n' & H & Hn & E & F1 & F2 & F3 & F4).
  assert (h' = h /\ m' = m /\ s' = s /\ n' = n) as (<- & <- & <- & <-) by (repeat split; congruence).
  auto.
Qed.

(* TimeDelta / TimeDelta -> i32 (impl_ops.rs:149-170, "may not as expected"): what the code computes *)
(* (k * d) / d = k for every non-NaT d with a non-zero fixed part (with or without months) and every i32 k *)
Theorem C17_timedelta_div :
  forall d k kd, td_is_nat d = false -> td_ns d <> 0 -> in_i64 (td_ns d) = true -> in_i32 k = true ->
    td_mul d k = Ok kd -> td_is_nat kd = false -> in_i64 (td_ns kd) = true -> td_div kd d = Ok k.
Proof.
  intros d k kd Hd Hz Hnd Hk Hmul Hkd Hnk.
  destruct (td_mul_inv_full _ _ _ Hd Hmul) as (-> & _ & _). cbn [td_months td_ns] in *.
  rewrite td_div_checked; try assumption; cbn [td_months td_ns].
  - (* both quotients are k, so it does not matter which branch is taken *)
    rewrite (Z.mul_comm (td_ns d)), Z.quot_mul, (wrap_i32_id _ Hk) by exact Hz.
    destruct (Z.eqb_spec (td_months d) 0) as [M0|M0]; [rewrite orb_true_r; reflexivity|].
    rewrite (Z.mul_comm (td_months d)), Z.quot_mul, Z.eqb_refl by exact M0. destruct (_ || _); reflexivity.
  - intros [E1 E2]. rewrite E2 in E1. apply in_i32_iff in Hk. unfold i64_min, i32_min, i32_max in *. lia.
Qed.
Theorem C17_timedelta_div_self :
  forall d, td_is_nat d = false -> td_ns d <> 0 -> in_i64 (td_ns d) = true -> td_div d d = Ok 1.
Proof.
  intros d Hd Hz Hn. rewrite td_div_checked by (try assumption; unfold i64_min; lia).
  rewrite (Z.quot_same (td_ns d)) by exact Hz.
  destruct (Z.eqb_spec (td_months d) 0) as [M0|M0]; [reflexivity|].
  rewrite Z.quot_same by exact M0. reflexivity.
Qed.
(* value: truncating quotient of the fixed parts, cast `as i32` (silent wrap-around), when an operand is month-free *)
Theorem C17_timedelta_div_value :
  forall a b, td_is_nat a = false -> td_is_nat b = false -> in_i64 (td_ns a) = true -> in_i64 (td_ns b) = true ->
    td_ns b <> 0 -> ~ (td_ns a = i64_min /\ td_ns b = -1) -> td_months a = 0 \/ td_months b = 0 ->
    td_div a b = Ok (wrap_i32 (Z.quot (td_ns a) (td_ns b))).
Proof. exact td_div_value. Qed.
(* division with remainder toward zero: a = q * b + r, |r| < |b|, r has the sign of a *)
Theorem C17_timedelta_div_remainder :
  forall a b q, td_is_nat a = false -> td_is_nat b = false -> in_i64 (td_ns a) = true -> in_i64 (td_ns b) = true ->
    td_ns b <> 0 -> td_months a = 0 \/ td_months b = 0 -> in_i32 (Z.quot (td_ns a) (td_ns b)) = true ->
    td_div a b = Ok q ->
    exists r, td_ns a = q * td_ns b + r /\ Z.abs r < Z.abs (td_ns b) /\ 0 <= r * td_ns a.
Proof.
  intros a b q Ha Hb Hna Hnb Hz Hm Hq H.
  assert (Hmin : ~ (td_ns a = i64_min /\ td_ns b = -1)).
  { intros [E1 E2]. rewrite E1, E2 in Hq. vm_compute in Hq. discriminate. }
  rewrite (td_div_value a b Ha Hb Hna Hnb Hz Hmin Hm), (wrap_i32_id _ Hq) in H. injection H as <-.
  exists (Z.rem (td_ns a) (td_ns b)).
  split; [rewrite Z.mul_comm; apply Z.quot_rem'|].
  split; [apply Z.rem_bound_abs; exact Hz|].
  apply Z.rem_sign_mul. exact Hz.
Qed.
(* both with months: the month quotient if the nanosecond quotient agrees with it, else a panic *)
Theorem C17_timedelta_div_months :
  forall a b, td_is_nat a = false -> td_is_nat b = false -> in_i64 (td_ns a) = true -> in_i64 (td_ns b) = true ->
    td_ns b <> 0 -> ~ (td_ns a = i64_min /\ td_ns b = -1) -> td_months a <> 0 -> td_months b <> 0 ->
    td_div a b = if Z.quot (td_months a) (td_months b) =? wrap_i32 (Z.quot (td_ns a) (td_ns b))
                 then Ok (Z.quot (td_months a) (td_months b)) else Panic OtherPanic.
Proof.
  intros a b Ha Hb Hna Hnb Hz Hmin Hma Hmb. rewrite td_div_checked by assumption.
  apply Z.eqb_neq in Hma, Hmb. rewrite Hma, Hmb. reflexivity.
Qed.
(* NaT operand: panic; zero fixed part in the divisor: "attempt to divide by zero", ALSO for pure-month operands
   (2mo / 1mo panics); i64::MIN / -1: overflow; a fixed part beyond i64 nanoseconds: unwrap on None *)
Theorem C17_timedelta_div_failures :
  (forall a b, td_is_nat a = true \/ td_is_nat b = true -> td_div a b = Panic OtherPanic)
  /\ (forall a b, td_is_nat a = false -> td_is_nat b = false -> in_i64 (td_ns a) = true -> td_ns b = 0 ->
        td_div a b = Panic OtherPanic)
  /\ (forall a b, td_is_nat a = false -> td_is_nat b = false -> td_ns a = i64_min -> td_ns b = -1 ->
        td_div a b = Panic Overflow)
  /\ (forall a b, td_is_nat a = false -> td_is_nat b = false -> in_i64 (td_ns a) = false \/ in_i64 (td_ns b) = false ->
        td_div a b = Panic UnwrapNone).
Proof.
  split; [exact td_div_nat|]. split; [|split].
  - intros a b Ha Hb Hn Hz. unfold td_div, num_ns, i64_quot. rewrite Ha, Hb, Hn, Hz. reflexivity.
  - intros a b Ha Hb Hn Hz. unfold td_div, num_ns, i64_quot. rewrite Ha, Hb, Hn, Hz. reflexivity.
  - intros a b Ha Hb H. unfold td_div, num_ns. rewrite Ha, Hb. cbn [negb andb].
    destruct (in_i64 (td_ns a)) eqn:Ea; cbn [unwrap bind]; [|reflexivity].
    destruct H as [H|H]; [discriminate|]. rewrite H. reflexivity.
Qed.

(* scaling: the full set of laws.  Each equation is stated as: when the side with MORE operations exists (no overflow
   panic, nothing read as NaT), the other side exists too and is equal.  (The converses fail: C17_td_scale_converse_fails.) *)
Theorem C17_scaling_distributes_full :
  (* k * (a + b) = k * a + k * b *)
  (forall a b k ab ak bk r, td_is_nat a = false -> td_is_nat b = false -> td_add a b = Ok ab -> td_is_nat ab = false ->
     td_mul a k = Ok ak -> td_mul b k = Ok bk -> td_is_nat ak = false -> td_is_nat bk = false ->
     td_add ak bk = Ok r -> td_mul ab k = Ok r)
  (* (j + k) * d = j * d + k * d *)
  /\ (forall d j k dj dk r, td_is_nat d = false -> td_mul d j = Ok dj -> td_mul d k = Ok dk ->
        td_is_nat dj = false -> td_is_nat dk = false -> td_add dj dk = Ok r -> td_mul d (j + k) = Ok r)
  (* (j * k) * d = j * (k * d) *)
  /\ (forall d j k dk r, td_is_nat d = false -> td_mul d k = Ok dk -> td_is_nat dk = false -> td_mul dk j = Ok r ->
        td_mul d (j * k) = Ok r)
  (* 1 * d = d, (-1) * d = -d, 0 * d = zero *)
  /\ (forall d, td_valid d -> td_mul d 1 = Ok d)
  /\ (forall d, td_valid d -> td_mul d (-1) = Ok (td_neg d))
  /\ (forall d, td_is_nat d = false -> td_mul d 0 = Ok td_zero).
Proof.
  split; [|split; [|split]].
  - intros a b k ab ak bk r Ha Hb Hab Nab Hak Hbk Nak Nbk Hr.
    destruct (td_add_inv _ _ _ Ha Hb Hab) as (-> & _ & _).
    destruct (td_mul_inv_full _ _ _ Ha Hak) as (-> & _ & _).
    destruct (td_mul_inv_full _ _ _ Hb Hbk) as (-> & _ & _).
    destruct (td_add_inv _ _ _ Nak Nbk Hr) as (-> & Hm & Hn). cbn [td_months td_ns] in *.
    apply td_mul_is; [exact Nab| | |exact Hm|exact (dur_secs_in_i64 _ Hn)]; cbn [td_months td_ns]; ring.
  - intros d j k dj dk r Hd Hj Hk Ndj Ndk Hr.
    destruct (td_mul_inv_full _ _ _ Hd Hj) as (-> & _ & _).
    destruct (td_mul_inv_full _ _ _ Hd Hk) as (-> & _ & _).
    destruct (td_add_inv _ _ _ Ndj Ndk Hr) as (-> & Hm & Hn). cbn [td_months td_ns] in *.
    apply td_mul_is; [exact Hd|ring|ring|exact Hm|exact (dur_secs_in_i64 _ Hn)].
  - intros d j k dk r Hd Hk Ndk Hr.
    destruct (td_mul_inv_full _ _ _ Hd Hk) as (-> & _ & _).
    destruct (td_mul_inv_full _ _ _ Ndk Hr) as (-> & Hm & Hn). cbn [td_months td_ns] in *.
    apply td_mul_is; [exact Hd|ring|ring|exact Hm|exact Hn].
  - split; [exact td_mul_1|]. split.
    + intros d Hv. pose proof (td_valid_not_nat _ Hv) as Hn. destruct Hv as [Hm Hd]. rewrite td_neg_total, Hn.
      apply td_mul_is; [exact Hn|ring|ring| |].
      * apply in_i32_iff. unfold i32_min, i32_max in *. lia.
      * apply dur_secs_in_i64. unfold dur_in_range. apply andb_true_intro. split; apply Z.leb_le; lia.
    + intros d Hd.
      apply td_mul_is; [exact Hd|apply Z.mul_0_r|apply Z.mul_0_r|reflexivity|split; reflexivity].
Qed.
(* NaT * k = NaT for EVERY k, 0 included: it never becomes the zero duration (seeded defect C16-3) *)
Theorem C17_td_scale_nat_absorbs :
  forall a k, td_is_nat a = true -> td_mul a k = Ok td_nat /\ td_is_nat td_nat = true /\ td_nat <> td_zero.
Proof.
  intros a k Ha. split; [unfold td_mul; rewrite Ha; reflexivity|]. split; [reflexivity|discriminate].
Qed.
Corollary C17_td_scale_nat_times_zero : td_mul td_nat 0 = Ok td_nat /\ td_mul td_nat 0 <> Ok td_zero.
Proof. split; [reflexivity | discriminate]. Qed.
(* a purely arithmetic sufficient condition under which scaling succeeds with the exact product and a valid result *)
Theorem C17_td_scale_bounded :
  forall B d k, 0 <= B <= 1000000000 -> td_bounded B d -> Z.abs k * B <= 1000000000 ->
    td_mul d k = Ok (mktd (td_months d * k) (td_ns d * k)) /\ td_valid (mktd (td_months d * k) (td_ns d * k)).
Proof.
  intros B d k HB [Hm Hn] Hk.
  assert (Hd : td_is_nat d = false) by (apply Z.eqb_neq; unfold i32_min; lia).
  pose proof (Z.abs_nonneg k) as K0.
  assert (M : Z.abs (td_months d * k) <= 1000000000).
  { rewrite Z.abs_mul. pose proof (Z.mul_le_mono_nonneg_r _ _ (Z.abs k) K0 Hm). lia. }
  assert (N : Z.abs (td_ns d * k) <= 1000000000 * 1000000000).
  { rewrite Z.abs_mul. pose proof (Z.mul_le_mono_nonneg_r _ _ (Z.abs k) K0 Hn). lia. }
  split.
  - apply td_mul_intro; [exact Hd| |].
    + apply in_i32_iff. unfold i32_min, i32_max. lia.
    + apply dur_secs_in_i64. unfold dur_in_range, DUR_MAX_NS, i64_max.
      apply andb_true_intro. split; apply Z.leb_le; lia.
  - unfold td_valid, i32_min, i32_max, DUR_MAX_NS, i64_max. cbn [td_months td_ns]. lia.
Qed.
Theorem C17_td_scale_converse_fails :
  (exists a b k ab, td_add a b = Ok ab /\ td_mul ab k = Ok td_zero /\ td_mul a k = Panic Overflow)
  /\ (exists d j k, td_mul d (j + k) = Ok td_zero /\ td_mul d j = Panic Overflow)
  /\ (exists d j k, td_mul d (j * k) = Ok td_zero /\ td_mul d k = Panic Overflow).
Proof.
  split; [exists (mktd i32_max 0), (mktd (- i32_max) 0), 2, td_zero; vm_compute; auto|].
  split; [exists (mktd i32_max 0), 2, (-2); vm_compute; auto|].
  exists (mktd i32_max 0), 0, 2; vm_compute; auto.
Qed.

(* PartialOrd for TimeDelta (impl_timedelta.rs:56-69): lexicographic on (months, ns) for a non-NaT left operand, None
   for a NaT left operand, Greater against a NaT right operand; compatible with + and reversed by negation *)
Theorem C17_td_order :
  (forall a b, td_is_nat a = false ->
     td_partial_cmp a b = Some (match td_months a ?= td_months b with Eq => td_ns a ?= td_ns b | c => c end))
  /\ (forall a b, td_is_nat a = true -> td_partial_cmp a b = None)
  /\ (forall a b, td_valid a -> td_is_nat b = true -> td_partial_cmp a b = Some Gt)
  /\ (forall a b, td_is_nat a = false -> td_partial_cmp a b = Some Eq -> a = b)
  /\ (forall a b, td_is_nat a = false -> td_is_nat b = false ->
        td_partial_cmp b a = option_map CompOpp (td_partial_cmp a b))
  /\ (forall a b c, td_is_nat a = false -> td_is_nat b = false ->
        td_partial_cmp a b = Some Lt -> td_partial_cmp b c = Some Lt -> td_partial_cmp a c = Some Lt).
Proof.
  split; [exact td_cmp_lex|]. split; [|split; [|split; [|split]]].
  - intros a b H. unfold td_partial_cmp. rewrite H. reflexivity.
  - (* only the left operand is tested: NaT on the right is just the least month count *)
    intros a b Hv Hb. rewrite td_cmp_lex by (apply td_valid_not_nat; exact Hv).
    apply Z.eqb_eq in Hb. destruct Hv as [[Hm _] _].
    rewrite (proj2 (Z.compare_gt_iff (td_months a) (td_months b))) by (rewrite Hb; exact Hm). reflexivity.
  - intros a b Ha. rewrite td_cmp_lex by exact Ha. intros [= H].
    destruct (td_months a ?= td_months b) eqn:C; try discriminate.
    apply Z.compare_eq in C. apply Z.compare_eq in H.
    destruct a as [am an], b as [bm bn]; cbn [td_months td_ns] in *. congruence.
  - intros a b Ha Hb. rewrite !td_cmp_lex by assumption. cbn [option_map]. f_equal.
    rewrite (Z.compare_antisym (td_months a)), (Z.compare_antisym (td_ns a)).
    destruct (td_months a ?= td_months b); reflexivity.
  - intros a b c Ha Hb. rewrite !td_cmp_lex by assumption. intros H1 H2. f_equal.
    destruct (Z.compare_spec (td_months a) (td_months b)) as [A1|A1|A1]; try discriminate;
    destruct (Z.compare_spec (td_months b) (td_months c)) as [A2|A2|A2]; try discriminate;
    destruct (Z.compare_spec (td_months a) (td_months c)) as [A3|A3|A3]; try lia; try reflexivity.
    destruct (Z.compare_spec (td_ns a) (td_ns b)) as [B1|B1|B1]; try discriminate;
    destruct (Z.compare_spec (td_ns b) (td_ns c)) as [B2|B2|B2]; try discriminate;
    destruct (Z.compare_spec (td_ns a) (td_ns c)) as [B3|B3|B3]; try lia; reflexivity.
Qed.
Theorem C17_td_order_group_compatible :
  (forall a b c ac bc, td_is_nat a = false -> td_is_nat b = false -> td_is_nat c = false ->
     td_add a c = Ok ac -> td_add b c = Ok bc -> td_is_nat ac = false ->
     td_partial_cmp ac bc = td_partial_cmp a b)
  /\ (forall a b, td_valid a -> td_valid b -> td_partial_cmp (td_neg a) (td_neg b) = td_partial_cmp b a).
Proof.
  split.
  - intros a b c ac bc Ha Hb Hc Hac Hbc Nac.
    destruct (td_add_inv _ _ _ Ha Hc Hac) as (-> & _ & _).
    destruct (td_add_inv _ _ _ Hb Hc Hbc) as (-> & _ & _).
    rewrite !td_cmp_lex by assumption. cbn [td_months td_ns].
    rewrite !(Z.add_comm _ (td_months c)), !(Z.add_comm _ (td_ns c)), !Z.add_compare_mono_l. reflexivity.
  - intros a b Va Vb. pose proof (td_valid_not_nat _ Va) as Ha. pose proof (td_valid_not_nat _ Vb) as Hb.
    rewrite !td_neg_total, Ha, Hb, !td_cmp_lex; [|exact Hb|].
    + cbn [td_months td_ns]. rewrite !Z.compare_opp. reflexivity.
    + destruct Va as [[Hm Hm'] _]. apply Z.eqb_neq. unfold i32_min, i32_max in *. cbn [td_months]. lia.
Qed.

(* ==== (9) clause by clause (table: notes/C17.md "Audit matrix"; the closed forms are in Proofs/Audit17.v) ========== *)
(* ---- (9a) DateTime +- TimeDelta on EVERY operand: one closed form, the checks in source order, sign-uniform *)
Theorem C17_dt_add_closed_form :
  forall u x d, dt_add u x d = if is_nat x || td_is_nat d then Ok NaT else dt_shift_spec u x (td_months d) (td_ns d).
Proof. exact dt_add_closed_form. Qed.
Theorem C17_dt_sub_closed_form :
  forall u x d, dt_sub u x d = if is_nat x || td_is_nat d then Ok NaT else dt_shift_spec u x (- td_months d) (- td_ns d).
Proof. exact dt_sub_closed_form. Qed.
(* the three panics: as_cr().unwrap() (outside chrono's range), then the month step, then the fixed part *)
Theorem C17_dt_shift_outcomes :
  forall u x k n,
  (as_cr u x = None -> dt_shift_spec u x k n = Panic UnwrapNone)
  /\ (forall c, as_cr u x = Some c -> k <> 0 -> cr_add_months c k = None -> dt_shift_spec u x k n = Panic OtherPanic)
  /\ (forall c c1, as_cr u x = Some c -> (if k =? 0 then Some c else cr_add_months c k) = Some c1 ->
        cr_add_ns c1 n = None -> dt_shift_spec u x k n = Panic Overflow)
  /\ (forall c c1 r, as_cr u x = Some c -> (if k =? 0 then Some c else cr_add_months c k) = Some c1 ->
        cr_add_ns c1 n = Some r -> dt_shift_spec u x k n = from_cr u r).
Proof.
  intros u x k n. unfold dt_shift_spec. repeat split.
  - intros ->. reflexivity.
  - intros c -> Hk Hm. apply Z.eqb_neq in Hk. rewrite Hk, Hm. reflexivity.
  - intros c c1 -> -> ->. reflexivity.
  - intros c c1 r -> -> ->. reflexivity.
Qed.
Theorem C17_dt_add_monthfree_outcome :
  forall u x d c, x <> NaT -> td_months d = 0 -> as_cr u x = Some c ->
  dt_add u x d =
    if date_in_range ((x * unit_ns u + td_ns d) / 1000000000 / SECS_PER_DAY)
    then from_cr u (cr_of_total_ns (x * unit_ns u + td_ns d)) else Panic Overflow.
Proof.
  intros u x d c Hx Hm Hc. rewrite dt_add_monthfree, dt_shift_monthfree, Hc by assumption. reflexivity.
Qed.
(* x - d = x + (-d) and x + d = x - (-d), NaT operands included *)
Theorem C17_dt_sub_is_add_neg :
  forall u x d, in_i32 (td_months d) = true ->
    dt_sub u x d = dt_add u x (td_neg d) /\ dt_add u x d = dt_sub u x (td_neg d).
Proof.
  intros u x d Hm. rewrite !dt_sub_closed_form, !dt_add_closed_form, td_neg_total.
  destruct (td_is_nat d) eqn:En; cbv iota; [rewrite En, !orb_true_r; split; reflexivity|].
  replace (td_is_nat (mktd (- td_months d) (- td_ns d))) with false.
  - cbn [td_months td_ns]. rewrite !Z.opp_involutive. split; reflexivity.
  - symmetry. unfold td_is_nat in *. cbn [td_months]. apply in_i32_iff in Hm. unfold i32_min, i32_max in *. lia.
Qed.
(* the value of a month-free shift for EVERY d: x + floor(ns / unit) — no hypothesis on the class *)
Theorem C17_dt_shift_monthfree_value :
  forall u x d y, x <> NaT -> td_months d = 0 -> y <> NaT ->
    (dt_add u x d = Ok y -> y = x + td_ns d / unit_ns u) /\ (dt_sub u x d = Ok y -> y = x + (- td_ns d) / unit_ns u).
Proof.
  intros u x d y Hx Hm Hy. split; intros H; [exact (dt_add_monthfree_value u x d y Hx Hm H Hy) | exact (dt_sub_monthfree_value u x d y Hx Hm H Hy)].
Qed.
(* ---- (9b) known-finding class 1, EXACTLY: the law fails IFF d is in the class (both orders of the round trip) *)
Theorem C17_inverse_law_iff_class1 :
  forall u x d y, in_i64 x = true -> x <> NaT -> td_months d = 0 -> dt_add u x d = Ok y -> y <> NaT ->
    (dt_sub u y d = Ok x <-> kf_subunit u d = false).
Proof.
  intros u x d y Hx64 Hx Hm Ha Hy. split.
  - intros Hs. pose proof (round_trip_value u x d y x Hx Hm Ha Hy Hs Hx). destruct (kf_subunit u d); [lia|reflexivity].
  - intros Hk. exact (C17_add_sub_inverse u x d y Hx64 Hx Hm Hk Ha Hy).
Qed.
Theorem C17_inverse_law_iff_class1_mirror :
  forall u x d y, in_i64 x = true -> x <> NaT -> td_months d = 0 -> dt_sub u x d = Ok y -> y <> NaT ->
    (dt_add u y d = Ok x <-> kf_subunit u d = false).
Proof.
  intros u x d y Hx64 Hx Hm Hs Hy. split.
  - intros Ha. pose proof (round_trip_value_mirror u x d y x Hx Hm Hs Hy Ha Hx). destruct (kf_subunit u d); [lia|reflexivity].
  - intros Hk. exact (C17_sub_add_inverse u x d y Hx64 Hx Hm Hk Hs Hy).
Qed.
Theorem C17_sub_add_class1_loses_one_unit :
  forall u x d y z, x <> NaT -> td_months d = 0 -> kf_subunit u d = true ->
    dt_sub u x d = Ok y -> y <> NaT -> dt_add u y d = Ok z -> z <> NaT -> z = x - 1.
Proof.
  intros u x d y z Hx Hm Hk Hs Hy Ha Hz. rewrite (round_trip_value_mirror u x d y z), Hk by assumption. lia.
Qed.
Theorem C17_round_trip_value :
  forall u x d y z, x <> NaT -> td_months d = 0 -> dt_add u x d = Ok y -> y <> NaT -> dt_sub u y d = Ok z -> z <> NaT ->
    z = x + (if kf_subunit u d then -1 else 0).
Proof. exact round_trip_value. Qed.
(* ---- (9c) DateTime - DateTime: total description, algebra, the other inverse law, never in class 1 *)
Theorem C17_diff_closed_form :
  forall u a b, dt_diff u a b =
    if is_nat a || is_nat b then Ok td_nat
    else match as_cr u a, as_cr u b with
         | Some _, Some _ => Ok (mktd 0 (instant_ns u a - instant_ns u b))
         | _, _ => Panic UnwrapNone
         end.
Proof. exact dt_diff_closed_form. Qed.
Theorem C17_diff_nano_total : forall a b, a <> NaT -> b <> NaT -> dt_diff Nano a b = Ok (mktd 0 (a - b)).
Proof.
  intros a b Ha Hb. rewrite dt_diff_closed_form. apply is_nat_false in Ha. apply is_nat_false in Hb. rewrite Ha, Hb.
  cbn [orb]. unfold as_cr. rewrite Ha, Hb. unfold instant_ns. cbn [unit_ns]. rewrite !Z.mul_1_r. reflexivity.
Qed.
Theorem C17_diff_algebra :
  (forall u a b d, a <> NaT -> b <> NaT -> dt_diff u a b = Ok d -> dt_diff u b a = Ok (td_neg d))
  /\ (forall u a c, as_cr u a = Some c -> dt_diff u a a = Ok td_zero)
  /\ (forall u a b c d1 d2, a <> NaT -> b <> NaT -> c <> NaT -> dt_diff u a b = Ok d1 -> dt_diff u b c = Ok d2 ->
        dt_diff u a c = Ok (mktd 0 (td_ns d1 + td_ns d2))).
Proof.
  split; [|split].
  - intros u a b d Ha Hb H. destruct (dt_diff_ok_inv _ _ _ _ Ha Hb H) as [(ca & cb & Ea & Eb) ->].
    rewrite (dt_diff_ok_intro _ _ _ _ _ Eb Ea). unfold td_neg, td_is_nat. cbn [td_months td_ns].
    change (0 =? i32_min) with false. cbn [negb Z.opp]. do 2 f_equal. lia.
  - intros u a c E. rewrite (dt_diff_ok_intro _ _ _ _ _ E E), Z.sub_diag. reflexivity.
  - intros u a b c d1 d2 Ha Hb Hc H1 H2. destruct (dt_diff_ok_inv _ _ _ _ Ha Hb H1) as [(ca & cb & Ea & Eb) ->].
    destruct (dt_diff_ok_inv _ _ _ _ Hb Hc H2) as [(cb' & cc & _ & Ec) ->].
    rewrite (dt_diff_ok_intro _ _ _ _ _ Ea Ec). cbn [td_ns]. do 2 f_equal. lia.
Qed.
Theorem C17_diff_sub_inverse :
  forall u a b d, in_i64 b = true -> a <> NaT -> b <> NaT -> dt_diff u a b = Ok d -> dt_sub u a d = Ok b.
Proof.
  intros u a b d Hb64 Ha Hb H. destruct (dt_diff_ok_inv _ _ _ _ Ha Hb H) as [(ca & cb & Ea & Eb) ->].
  rewrite dt_sub_monthfree by (exact Ha || reflexivity). cbn [td_ns].
  replace (- (instant_ns u a - instant_ns u b)) with (instant_ns u b - instant_ns u a) by lia.
  exact (dt_shift_to u a b ca cb Ea Hb64 Eb).
Qed.
Theorem C17_diff_never_class1_and_valid :
  forall u a b d, in_i64 a = true -> in_i64 b = true -> a <> NaT -> b <> NaT -> dt_diff u a b = Ok d ->
    kf_subunit u d = false /\ td_months d = 0 /\ td_valid d.
Proof.
  intros u a b d Ha64 Hb64 Ha Hb H. destruct (dt_diff_ok_inv _ _ _ _ Ha Hb H) as [(ca & cb & Ea & Eb) ->].
  pose proof (unit_ns_pos u) as HU. split; [|split; [reflexivity|]].
  - (* a difference of date-times of unit u is a whole number of units *)
    unfold kf_subunit, instant_ns. cbn [td_ns]. rewrite <- Z.mul_sub_distr_r, Z.mod_mul by lia. reflexivity.
  - (* both instants lie inside chrono's date range, which spans less than chrono's Duration range *)
    pose proof (as_cr_range _ _ _ Ha64 Ea) as Ra. pose proof (as_cr_range _ _ _ Hb64 Eb) as Rb.
    unfold date_in_range in Ra, Rb. apply andb_true_iff in Ra. apply andb_true_iff in Rb. rewrite !Z.leb_le in Ra, Rb.
    unfold td_valid, instant_ns. cbn [td_months td_ns].
    unfold i32_min, i32_max, DUR_MAX_NS, i64_max, cr_min_day, cr_max_day, SECS_PER_DAY in *.
    set (A := a * unit_ns u) in *. set (B := b * unit_ns u) in *. clearbody A B.
    split; [lia|]. Z.div_mod_to_equations. lia.
Qed.
(* ---- (9d) TimeDelta + - * : the rejected input exactly (months are evaluated before the fixed part), NaT operands *)
Theorem C17_td_ops_total :
  (forall a b, td_is_nat a = false -> td_is_nat b = false ->
     td_add a b = if negb (in_i32 (td_months a + td_months b)) then Panic Overflow
                  else if negb (dur_in_range (td_ns a + td_ns b)) then Panic Overflow
                  else Ok (mktd (td_months a + td_months b) (td_ns a + td_ns b)))
  /\ (forall a b, td_is_nat a = false -> td_is_nat b = false ->
     td_sub a b = if negb (in_i32 (td_months a - td_months b)) then Panic Underflow
                  else if negb (dur_in_range (td_ns a - td_ns b)) then Panic Overflow
                  else Ok (mktd (td_months a - td_months b) (td_ns a - td_ns b)))
  /\ (forall a k, td_is_nat a = false ->
     td_mul a k = if negb (in_i32 (td_months a * k)) then Panic Overflow
                  else if (td_ns a * k / 1000000000 <=? i64_min) || (i64_max <=? td_ns a * k / 1000000000) then Panic Overflow
                  else Ok (mktd (td_months a * k) (td_ns a * k)))
  /\ (forall d, td_neg d = if td_is_nat d then d else mktd (- td_months d) (- td_ns d)).
Proof. split; [exact td_add_total|]. split; [exact td_sub_total|]. split; [exact td_mul_total | exact td_neg_total]. Qed.
Theorem C17_td_ops_nat_total :
  forall a b k, td_is_nat a = true \/ td_is_nat b = true ->
    td_add a b = Ok td_nat /\ td_sub a b = Ok td_nat /\ (td_is_nat a = true -> td_mul a k = Ok td_nat).
Proof. exact td_ops_nat_total. Qed.
Theorem C17_td_group_more :
  (forall a, td_valid a -> td_add td_zero a = Ok a)
  /\ (forall a, td_valid a -> td_sub a a = Ok td_zero)
  /\ (forall a b c r, td_is_nat a = false -> td_is_nat b = false -> td_is_nat c = false ->
        td_add a c = Ok r -> td_add b c = Ok r -> a = b)
  /\ (forall a b r, td_valid a -> td_valid b -> td_add a b = Ok r -> td_is_nat r = false ->
        td_add (td_neg a) (td_neg b) = Ok (td_neg r)).
Proof.
  split; [|split; [|split]].
  - intros a H. rewrite C17_td_add_comm. exact (C17_td_zero a H).
  - intros a H. rewrite td_sub_total by (apply td_valid_not_nat; exact H). rewrite !Z.sub_diag. reflexivity.
  - intros a b c r Ha Hb Hc H1 H2.
    destruct (td_add_inv _ _ _ Ha Hc H1) as [E1 _]. destruct (td_add_inv _ _ _ Hb Hc H2) as [E2 _].
    rewrite E1 in E2. injection E2 as Em En. destruct a as [ma na], b as [mb nb]. cbn [td_months td_ns] in *. f_equal; lia.
  - intros a b r Ha Hb H Hr. pose proof (td_valid_not_nat _ Ha) as Na. pose proof (td_valid_not_nat _ Hb) as Nb.
    destruct (C17_td_add_closed a b r Na Nb H Hr) as [Vr ->].
    rewrite td_add_total by (apply td_valid_not_nat, td_neg_valid; assumption).
    rewrite !td_neg_not_nat by auto using td_valid_not_nat. cbn [td_months td_ns].
    unfold td_valid in *. cbn [td_months td_ns] in *.
    replace (in_i32 (- td_months a + - td_months b)) with true
      by (symmetry; apply in_i32_iff; unfold i32_min, i32_max in *; lia).
    replace (dur_in_range (- td_ns a + - td_ns b)) with true
      by (symmetry; unfold dur_in_range; apply andb_true_iff; rewrite !Z.leb_le; lia).
    cbn [negb]. do 2 f_equal; lia.
Qed.
(* ---- (9e) calendar months: the round trip is the identity IFF no end-of-month clamping; composition; mixed d *)
Theorem C17_add_months_roundtrip_iff :
  forall y m d k, valid_civil (y, m, d) ->
    add_months (add_months (y, m, d) k) (- k)
      = (y, m, Z.min d (days_in_month ((y * 12 + (m - 1) + k) / 12) ((y * 12 + (m - 1) + k) mod 12 + 1)))
    /\ (add_months (add_months (y, m, d) k) (- k) = (y, m, d)
        <-> d <= days_in_month ((y * 12 + (m - 1) + k) / 12) ((y * 12 + (m - 1) + k) mod 12 + 1))
    /\ (d <= 28 -> add_months (add_months (y, m, d) k) (- k) = (y, m, d)).
Proof.
  intros y m d k Hv. apply valid_civil_iff in Hv.
  set (t := y * 12 + (m - 1) + k). pose proof (dim_bounds (t / 12) (t mod 12 + 1)).
  (* year and month come back; the day comes back clamped to the length of the target month *)
  assert (B : add_months (add_months (y, m, d) k) (- k) = (y, m, Z.min d (days_in_month (t / 12) (t mod 12 + 1)))).
  { unfold add_months. cbv zeta. fold t.
    replace (t / 12 * 12 + (t mod 12 + 1 - 1) + - k) with (y * 12 + (m - 1)) by (subst t; Z.div_mod_to_equations; lia).
    replace ((y * 12 + (m - 1)) / 12) with y by (Z.div_mod_to_equations; lia).
    replace ((y * 12 + (m - 1)) mod 12 + 1) with m by (Z.div_mod_to_equations; lia). f_equal. lia. }
  split; [exact B|]. rewrite B. split; [split; [intros [= E]; lia|intros Hd; f_equal; lia]|].
  intros Hd. f_equal. lia.
Qed.
Theorem C17_add_months_compose :
  forall y m d j k, valid_civil (y, m, d) ->
    fst (add_months (add_months (y, m, d) j) k) = fst (add_months (y, m, d) (j + k))
    /\ (d <= 28 -> add_months (add_months (y, m, d) j) k = add_months (y, m, d) (j + k)).
Proof.
  intros y m d j k Hv. apply valid_civil_iff in Hv. unfold add_months. cbv zeta.
  set (t := y * 12 + (m - 1) + j).
  assert (E : t / 12 * 12 + (t mod 12 + 1 - 1) + k = y * 12 + (m - 1) + (j + k)) by (subst t; Z.div_mod_to_equations; lia).
  rewrite E. cbn [fst]. split; [reflexivity|]. intros Hd. f_equal.
  pose proof (dim_bounds (t / 12) (t mod 12 + 1)).
  set (t2 := y * 12 + (m - 1) + (j + k)). pose proof (dim_bounds (t2 / 12) (t2 mod 12 + 1)). lia.
Qed.
Theorem C17_month_add_sub_not_inverse :
  exists u x k y z, dt_add u x (mktd k 0) = Ok y /\ dt_sub u y (mktd k 0) = Ok z /\ z <> x /\ z <> NaT /\ y <> NaT.
Proof. exists Sec, 949276800, 1, 951782400, 949104000. vm_compute. repeat split; discriminate. Qed.
Theorem C17_month_add_sub_inverse_iff :
  forall u x k y z c yr mo dd, x <> NaT -> k <> 0 -> k <> i32_min ->
    dt_add u x (mktd k 0) = Ok y -> y <> NaT -> dt_sub u y (mktd k 0) = Ok z -> z <> NaT ->
    as_cr u x = Some c -> cr_civil c = (yr, mo, dd) ->
    (z = x <-> dd <= days_in_month ((yr * 12 + (mo - 1) + k) / 12) ((yr * 12 + (mo - 1) + k) mod 12 + 1)).
Proof.
  intros u x k y z c yr mo dd Hx Hk Hk' Ha Hy Hs Hz Hc Hcv.
  destruct (dt_add_months_fields calendar_lawful u x k y Hx Hk Hk' Ha Hy) as (c0 & cy & Hc0 & Hcy & F1 & F2 & F3).
  rewrite Hc in Hc0. injection Hc0 as <-.
  destruct (dt_sub_months_fields calendar_lawful u y k z Hy Hk Hk' Hs Hz) as (cy0 & cz & Hcy0 & Hcz & G1 & G2 & G3).
  rewrite Hcy in Hcy0. injection Hcy0 as <-.
  pose proof (cr_civil_valid calendar_lawful c) as Hv. rewrite Hcv in Hv.
  rewrite F1, Hcv, (proj1 (C17_add_months_roundtrip_iff _ _ _ k Hv)) in G1.
  split.
  - intros ->. rewrite Hc in Hcz. injection Hcz as <-. rewrite Hcv in G1. injection G1 as G1. lia.
  - intros Hd. assert (cz = c).
    { apply cr_of_fields; [rewrite G1, Hcv; f_equal; lia|congruence|congruence]. }
    subst cz. symmetry. exact (as_cr_injective _ _ _ _ Hc Hcz).
Qed.
Theorem C17_dt_add_mixed_sequential :
  forall u x k n y1, x <> NaT -> k <> 0 -> k <> i32_min -> dt_add u x (mktd k 0) = Ok y1 -> y1 <> NaT ->
    dt_add u x (mktd k n) = dt_add u y1 (mktd 0 n).
Proof.
  intros u x k n y1 Hx Hk Hk' H1 Hy1.
  assert (Nk : forall n', td_is_nat (mktd k n') = false) by (intros n'; unfold td_is_nat; cbn [td_months]; lia).
  rewrite dt_add_shift in H1 by auto. rewrite dt_add_shift by auto. rewrite dt_add_monthfree by (auto || reflexivity).
  cbn [td_months td_ns] in *.
  (* the months step lands on the chrono value that as_cr reads back from y1 *)
  destruct (dt_shift_months_ok calendar_lawful u x k y1 Hk H1 Hy1) as (c & c1 & Ec & E1 & Ey).
  unfold dt_shift_spec. rewrite Ec, Ey. replace (k =? 0) with false by lia. rewrite E1. reflexivity.
Qed.
(* ---- (9f) Time: constructors on every i64, from_num_seconds_from_midnight, as_cr defined exactly where, +- total *)
Theorem C17_time_ctor_total :
  forall h m s, time_from_hms h m s =
    if in_i64 (h * 3600) && in_i64 (m * 60) && in_i64 (h * 3600 + m * 60) && in_i64 (h * 3600 + m * 60 + s)
       && in_i64 ((h * 3600 + m * 60 + s) * 1000000000)
    then Ok ((h * 3600 + m * 60 + s) * 1000000000) else Panic Overflow.
Proof. exact time_from_hms_total. Qed.
Theorem C17_time_ctor_linear :
  forall h m s x t,
  (time_from_hms h m s = Ok t -> t = (h * 3600 + m * 60 + s) * 1000000000)
  /\ (time_from_hms_nano h m s x = Ok t -> t = (h * 3600 + m * 60 + s) * 1000000000 + x)
  /\ (time_from_hms_micro h m s x = Ok t -> t = (h * 3600 + m * 60 + s) * 1000000000 + x * 1000)
  /\ (time_from_hms_milli h m s x = Ok t -> t = (h * 3600 + m * 60 + s) * 1000000000 + x * 1000000)
  /\ (time_from_nsm h x = Ok t -> t = h * 1000000000 + x).
Proof.
  intros h m s x t.
  assert (L : forall t0, time_from_hms h m s = Ok t0 -> t0 = (h * 3600 + m * 60 + s) * 1000000000).
  { intros t0. rewrite time_from_hms_total. destruct (_ && _); [intros [= <-]; reflexivity|discriminate]. }
  (* the milli and micro constructors are time_from_hms_sub at two scales *)
  assert (S : forall scale, time_from_hms_sub scale h m s x = Ok t ->
                            t = (h * 3600 + m * 60 + s) * 1000000000 + x * scale).
  { intros scale. unfold time_from_hms_sub. destruct (time_from_hms h m s) as [t0|] eqn:E; [|discriminate].
    cbn [bind]. destruct (chk64 (x * scale)) as [n|] eqn:En; [|discriminate]. cbn [bind]. intros H.
    apply chk64_inv in En. apply chk64_inv in H. pose proof (L _ eq_refl). lia. }
  split; [apply L|]. split; [|split; [apply (S 1000)|split; [apply (S 1000000)|]]].
  - unfold time_from_hms_nano. destruct (time_from_hms h m s) as [t0|] eqn:E; [|discriminate]. cbn [bind].
    intros H. apply chk64_inv in H. pose proof (L _ eq_refl). lia.
  - unfold time_from_nsm, NANOS_PER_SEC. destruct (chk64 (h * 1000000000)) as [a|] eqn:Ea; [|discriminate].
    cbn [bind]. intros H. apply chk64_inv in Ea. apply chk64_inv in H. lia.
Qed.
Theorem C17_time_from_num_seconds_from_midnight :
  forall secs n, 0 <= secs < 86400 -> 0 <= n < 1000000000 ->
    exists t, time_from_nsm secs n = Ok t /\ t = secs * 1000000000 + n /\ 0 <= t < 86400000000000
      /\ time_hour t = Ok (secs / 3600) /\ time_minute t = Ok (secs / 60 mod 60) /\ time_second t = Ok (secs mod 60)
      /\ time_nanosecond t = Ok n.
Proof.
  intros secs n Hs Hn. exists (secs * 1000000000 + n).
  assert (R : 0 <= secs * 1000000000 + n < 86400000000000) by lia.
  split; [unfold time_from_nsm, NANOS_PER_SEC; rewrite chk64_small by lia; apply chk64_small; lia|].
  split; [reflexivity|]. split; [exact R|].
  unfold time_hour, time_minute, time_second, time_nanosecond. rewrite time_as_cr_in_range by exact R.
  cbn [unwrap bind fst snd].
  rewrite <- (Z.div_unique (secs * 1000000000 + n) 1000000000 secs n),
          <- (Z.mod_unique (secs * 1000000000 + n) 1000000000 secs n) by lia. auto.
Qed.
Theorem C17_time_from_nsm_is_hms_nano :
  forall h m s n, hms_ok h m s -> 0 <= n < 1000000000 -> time_from_nsm (h * 3600 + m * 60 + s) n = time_from_hms_nano h m s n.
Proof.
  intros h m s n H Hn. rewrite (time_from_hms_nano_value h m s n H Hn). destruct H as (Hh & Hm & Hs).
  unfold time_from_nsm, NANOS_PER_SEC. rewrite chk64_small by lia. apply chk64_small. lia.
Qed.
Theorem C17_time_as_cr_some_iff :
  forall t, in_i64 t = true ->
    (time_as_cr t <> None <-> (0 <= t \/ Z.rem t 1000000000 = 0) /\ wrap_u32 (Z.quot t 1000000000) < 86400).
Proof. exact time_as_cr_some_iff. Qed.
Theorem C17_time_shift_total :
  (forall t d, time_add t d =
     if is_nat t || td_is_nat d then Ok NaT
     else if negb (td_months d =? 0) then Panic OtherPanic
     else if negb (in_i64 (td_ns d)) then Ok NaT
     else if in_i64 (t + td_ns d) then Ok (t + td_ns d) else Panic Overflow)
  /\ (forall t d, time_sub t d =
     if is_nat t || td_is_nat d then Ok NaT
     else if negb (td_months d =? 0) then Panic OtherPanic
     else if negb (in_i64 (td_ns d)) then Ok NaT
     else if in_i64 (t - td_ns d) then Ok (t - td_ns d) else Panic Underflow).
Proof. split; [exact time_add_total | exact time_sub_total]. Qed.
Theorem C17_time_shift_not_modular :
  (forall t d y, t <> NaT -> td_months d = 0 -> in_i64 (td_ns d) = true -> time_add t d = Ok y ->
     y = t + td_ns d /\ (0 <= y < 86400000000000 <-> 0 <= t + td_ns d < 86400000000000))
  /\ (exists t d y, time_add t d = Ok y /\ 0 <= t < 86400000000000 /\ td_months d = 0 /\ ~ (0 <= y < 86400000000000)
                    /\ time_as_cr y = None /\ time_hour y = Panic UnwrapNone).
Proof.
  split.
  - intros t d y Ht Hm Hd H. rewrite time_add_monthfree in H by assumption.
    apply chk64_inv in H. destruct H as [-> _]. split; [reflexivity|tauto].
  - exists 82800000000000, (mktd 0 7200000000000), 90000000000000.
    vm_compute. repeat split; try discriminate; intros [_ H]; discriminate H.
Qed.
Theorem C17_time_sub_add_inverse :
  forall t d y, in_i64 t = true -> t <> NaT -> td_months d = 0 -> in_i64 (td_ns d) = true ->
    time_sub t d = Ok y -> y <> NaT -> time_add y d = Ok t.
Proof.
  intros t d y Ht64 Ht Hm Hd H Hy. rewrite time_sub_monthfree in H by assumption.
  apply chk64s_inv in H. destruct H as [-> _]. rewrite time_add_monthfree by assumption.
  replace (t - td_ns d + td_ns d) with t by lia. apply chk64_ok. exact Ht64.
Qed.
Theorem C17_time_add_compose :
  forall t a b y z, t <> NaT -> td_months a = 0 -> td_months b = 0 -> in_i64 (td_ns a) = true -> in_i64 (td_ns b) = true ->
    in_i64 (td_ns a + td_ns b) = true -> time_add t a = Ok y -> y <> NaT -> time_add y b = Ok z ->
    time_add t (mktd 0 (td_ns a + td_ns b)) = Ok z.
Proof.
  intros t a b y z Ht Ha Hb Ia Ib Iab H1 Hy H2.
  rewrite time_add_monthfree in H1 by assumption. apply chk64_inv in H1. destruct H1 as [-> _].
  rewrite time_add_monthfree in H2 by assumption. rewrite time_add_monthfree by (assumption || reflexivity).
  cbn [td_ns]. rewrite Z.add_assoc. exact H2.
Qed.
(* ---- (9g) duration_trunc: the checks in source order, the rejected input exactly, what it must not change *)
Theorem C17_trunc_checks :
  forall u x d,
  (is_nat x = true -> dt_trunc u x d = Ok x)
  /\ (x <> NaT -> as_cr u x = None -> dt_trunc u x d = Panic UnwrapNone)
  /\ (forall c, x <> NaT -> as_cr u x = Some c -> td_months d < 0 -> dt_trunc u x d = Panic OtherPanic).
Proof.
  intros u x d. unfold dt_trunc. repeat split.
  - intros ->. reflexivity.
  - intros Hx ->. rewrite (proj2 (is_nat_false x) Hx). reflexivity.
  - intros c Hx -> Hm. rewrite (proj2 (is_nat_false x) Hx). cbn [unwrap bind].
    replace (td_months d =? 0) with false by lia. replace (td_months d <? 0) with true by lia. reflexivity.
Qed.
Theorem C17_trunc_monthfree_rejects :
  forall u x d c, x <> NaT -> td_months d = 0 -> as_cr u x = Some c ->
    td_ns d <= 0 \/ in_i64 (td_ns d) = false \/ in_i64 (instant_ns u x) = false -> dt_trunc u x d = Panic OtherPanic.
Proof. exact dt_trunc_monthfree_rejects. Qed.
Theorem C17_trunc_monthfree_total :
  forall u x d c, x <> NaT -> td_months d = 0 -> as_cr u x = Some c ->
    0 < td_ns d -> in_i64 (td_ns d) = true -> in_i64 (instant_ns u x) = true ->
    dt_trunc u x d = from_cr u (cr_of_total_ns (td_ns d * (instant_ns u x / td_ns d))).
Proof. exact dt_trunc_monthfree_total. Qed.
Theorem C17_trunc_idempotent :
  forall u x d y y', x <> NaT -> td_months d = 0 -> 0 < td_ns d -> td_ns d mod unit_ns u = 0 ->
    dt_trunc u x d = Ok y -> y <> NaT -> dt_trunc u y d = Ok y' -> y' <> NaT -> y' = y.
Proof.
  intros u x d y y' Hx Hm Hd Hk H1 Hy H2 Hy'.
  destruct (dt_trunc_monthfree_multiple u x d y Hx Hm Hd Hk H1 Hy) as [E1 _].
  destruct (dt_trunc_monthfree_multiple u y d y' Hy Hm Hd Hk H2 Hy') as [E2 _].
  assert (Q : td_ns d * (instant_ns u x / td_ns d) / td_ns d = instant_ns u x / td_ns d)
    by (rewrite Z.mul_comm; apply Z.div_mul; lia).
  rewrite E1, Q, <- E1 in E2.
  pose proof (unit_ns_pos u). apply (Z.mul_reg_r _ _ (unit_ns u)); [lia|exact E2].
Qed.
Theorem C17_trunc_monotone :
  forall u x x' d y y', x <> NaT -> x' <> NaT -> td_months d = 0 -> 0 < td_ns d ->
    dt_trunc u x d = Ok y -> y <> NaT -> dt_trunc u x' d = Ok y' -> y' <> NaT -> x <= x' -> y <= y'.
Proof.
  intros u x x' d y y' Hx Hx' Hm Hd H1 Hy H2 Hy' Hle.
  rewrite (dt_trunc_monthfree u x d y Hx Hm Hd H1 Hy), (dt_trunc_monthfree u x' d y' Hx' Hm Hd H2 Hy').
  pose proof (unit_ns_pos u) as HU. unfold instant_ns.
  apply Z.div_le_mono; [lia|]. apply Z.mul_le_mono_nonneg_l; [lia|]. apply Z.div_le_mono; [lia|].
  apply Z.mul_le_mono_nonneg_r; lia.
Qed.
Theorem C17_trunc_fixed_iff :
  forall u x d y, x <> NaT -> td_months d = 0 -> 0 < td_ns d -> td_ns d mod unit_ns u = 0 ->
    dt_trunc u x d = Ok y -> y <> NaT -> (y = x <-> instant_ns u x mod td_ns d = 0).
Proof.
  intros u x d y Hx Hm Hd Hk H Hy.
  destruct (dt_trunc_monthfree_multiple u x d y Hx Hm Hd Hk H Hy) as [E _].
  pose proof (unit_ns_pos u) as HU. pose proof (Z.div_mod (instant_ns u x) (td_ns d) ltac:(lia)) as DM.
  split.
  - intros ->. lia.
  - intros H0. apply (Z.mul_reg_r _ _ (unit_ns u)); [lia|]. fold (instant_ns u y) (instant_ns u x). lia.
Qed.
Theorem C17_trunc_mixed_sequential :
  forall u x m n y1 cy, x <> NaT -> divides12 m -> n <> 0 -> dt_trunc u x (mktd m 0) = Ok y1 -> as_cr u y1 = Some cy ->
    dt_trunc u x (mktd m n) = dt_trunc u y1 (mktd 0 n).
Proof.
  intros u x m n y1 cy Hx Hm Hn H1 Hcy. destruct (dt_trunc_months_ok u x m y1 Hx Hm H1) as (c & c1 & Ec & Et & Hf).
  rewrite (dt_trunc_months_unfold u x m n c Hx (proj1 (divides12_spec m Hm)) Ec), Et. cbn [bind].
  destruct (as_cr_total _ _ _ Hcy) as [_ Hy1]. unfold dt_trunc. rewrite (proj2 (is_nat_false y1) Hy1), Hcy.
  rewrite (trunc_months_as_cr calendar_lawful u c m c1 y1 cy Hm Et Hf Hcy). cbn [unwrap bind td_months td_ns Z.eqb negb].
  unfold num_ns. destruct (in_i64 n); [|reflexivity]. destruct n; [contradiction Hn|..]; reflexivity.
  
Qed.

(* ---- non-vacuity ---------------------------------------------------------------------------------------------- *)
Example C17_ex_add_sub :
  dt_add Sec 0 (mktd 0 90000000000) = Ok 90 /\ dt_sub Sec 90 (mktd 0 90000000000) = Ok 0
  /\ dt_add Sec 0 (mktd 0 1) = Ok 0 /\ dt_sub Sec 0 (mktd 0 1) = Ok (-1)
  /\ dt_add Nano (-5) (mktd 0 7) = Ok 2 /\ dt_sub Nano 2 (mktd 0 7) = Ok (-5).
Proof. vm_compute. auto 10. Qed.
Example C17_ex_diff : dt_diff Milli 5 (-3) = Ok (mktd 0 8000000) /\ dt_add Milli (-3) (mktd 0 8000000) = Ok 5.
Proof. vm_compute. auto. Qed.
Example C17_ex_months :
  (* 2000-01-31 00:00:00 + 1 month = 2000-02-29 (leap year, clamped); 1900 is not a leap year *)
  dt_add Sec 949276800 (mktd 1 0) = Ok 951782400 /\ cr_civil (mkcr 951782400 0) = (2000, 2, 29)
  /\ add_months (1900, 1, 31) 1 = (1900, 2, 28) /\ add_months (2023, 3, 31) (-13) = (2022, 2, 28).
Proof. vm_compute. auto. Qed.
Example C17_ex_time :
  time_from_hms_nano 23 59 59 999999999 = Ok 86399999999999 /\ time_hour 86399999999999 = Ok 23
  /\ time_add 0 (mktd 0 (-1)) = Ok (-1) /\ time_add 0 (mktd 1 0) = Panic OtherPanic.
Proof. vm_compute. auto. Qed.
Example C17_ex_out_of_range_is_nat :
  dt_add Nano i64_max (mktd 0 1) = Ok NaT /\ dt_trunc Nano (-9223372036854775807) (mktd 0 1000) = Ok NaT.
Proof. vm_compute. auto. Qed.
Example C17_ex_trunc :
  (* 2023-05-15 14:30:45 UTC = 1684161045 *)
  dt_trunc Sec 1684161045 (mktd 1 0) = Ok 1682899200      (* 2023-05-01 00:00:00 *)
  /\ dt_trunc Sec 1684161045 (mktd 3 0) = Ok 1680307200   (* 2023-04-01 00:00:00 *)
  /\ dt_trunc Sec 1684161045 (mktd 0 3600000000000) = Ok 1684159200
  /\ dt_trunc Nano (-1) (mktd 0 10) = Ok (-10).
Proof. vm_compute. auto. Qed.

Example C17_ex_order :
  (* 1 BC-12-31 < 0001-01-01 (year 0 = 1 BC), leap day 2000-02-29 < 2000-03-01 *)
  valid_civil (0, 12, 31) /\ valid_civil (1, 1, 1) /\ civil_lt (0, 12, 31) (1, 1, 1)
  /\ days_of_civil (0, 12, 31) = -719163 /\ days_of_civil (1, 1, 1) = -719162
  /\ days_of_civil (2000, 3, 1) = days_of_civil (2000, 2, 29) + 1.
Proof. vm_compute. intuition discriminate. Qed.
Example C17_ex_trunc_pre_epoch :
  (* 1969-11-15 12:00:00 = -4017600 s: quarter 1969-10-01 = -7948800, next quarter 1970-01-01 = 0 *)
  dt_trunc Sec (-4017600) (mktd 3 0) = Ok (-7948800)
  /\ is_period_start 3 (instant_ns Sec (-7948800)) /\ is_period_start 3 0
  /\ days_of_civil (add_months (1969, 10, 1) 3) = 0
  (* year 0 (year_ce arm for BCE): -62162208000 = 0000-02-29 00:00:00, half-year 0000-01-01 *)
  /\ dt_trunc Sec (-62162208000) (mktd 6 0) = Ok (-62167219200)
  (* d = 1.5 s on DateTime<Second>: not a whole number of units *)
  /\ dt_trunc Sec 10 (mktd 0 1500000000) = Ok 9 /\ kf_subunit Sec (mktd 0 1500000000) = true
  /\ dt_add Sec 10 (mktd 0 1500000000) = Ok 11 /\ dt_sub Sec 11 (mktd 0 1500000000) = Ok 9.
Proof.
  split; [vm_compute; reflexivity|].
  split; [exists 1969, 3; vm_compute; intuition discriminate|].
  split; [exists 1970, 0; vm_compute; intuition discriminate|].
  vm_compute. intuition.
Qed.

Example C17_ex_with :
  (* 12:34:56.000000007 *)
  time_with_hour 45296000000007 15 = Some 56096000000007 /\ time_with_minute 45296000000007 0 = Some 43256000000007
  /\ time_with_second 45296000000007 59 = Some 45299000000007 /\ time_with_nanosecond 45296000000007 999999999 = Some 45296999999999
  /\ time_with_hour 45296000000007 24 = None /\ time_with_nanosecond 45296000000007 2000000000 = None
  /\ time_with_hour NaT 0 = None /\ time_with_second (-1) 0 = None
  (* leap-second range at 23:59:59: a Some whose hour() panics *)
  /\ time_with_nanosecond 86399000000000 1500000000 = Some 86400500000000 /\ time_hour 86400500000000 = Panic UnwrapNone.
Proof. vm_compute. intuition. Qed.
Example C17_ex_div :
  td_mul (mktd 0 90000000000) 7 = Ok (mktd 0 630000000000) /\ td_div (mktd 0 630000000000) (mktd 0 90000000000) = Ok 7
  /\ td_mul (mktd 2 5) (-3) = Ok (mktd (-6) (-15)) /\ td_div (mktd (-6) (-15)) (mktd 2 5) = Ok (-3)
  /\ td_div (mktd 0 7) (mktd 0 (-2)) = Ok (-3) /\ td_div (mktd 0 (-7)) (mktd 0 2) = Ok (-3)
  (* pure months: divide by zero; mismatching quotients; NaT; silent `as i32` wrap-around: 2^32 ns / 1 ns = 0 *)
  /\ td_div (mktd 2 0) (mktd 1 0) = Panic OtherPanic /\ td_div (mktd 4 10) (mktd 2 3) = Panic OtherPanic
  /\ td_div td_nat (mktd 0 1) = Panic OtherPanic /\ td_div (mktd 0 4294967296) (mktd 0 1) = Ok 0
  /\ td_div (mktd 0 i64_min) (mktd 0 (-1)) = Panic Overflow /\ td_div (mktd 0 (i64_max + 1)) (mktd 0 1) = Panic UnwrapNone.
Proof. vm_compute. intuition. Qed.
Example C17_ex_scaling :
  td_mul (mktd 3 5) 4 = Ok (mktd 12 20) /\ td_mul (mktd 3 5) (-1) = Ok (td_neg (mktd 3 5)) /\ td_mul (mktd 3 5) 0 = Ok td_zero
  /\ td_mul td_nat 0 = Ok td_nat /\ td_mul td_nat 5 = Ok td_nat
  /\ td_mul (mktd 3 5) (2 + 4) = Ok (mktd 18 30) /\ td_add (mktd 6 10) (mktd 12 20) = Ok (mktd 18 30)
  /\ td_mul (mktd 6 10) 4 = Ok (mktd 24 40) /\ td_mul (mktd 3 5) (4 * 2) = Ok (mktd 24 40)
  /\ td_bounded 1000 (mktd (-1000) 1000000000000).
Proof. vm_compute. intuition discriminate. Qed.
Example C17_ex_order_td :
  td_partial_cmp (mktd 1 0) (mktd 0 999999999999999) = Some Gt /\ td_partial_cmp (mktd 0 (-1)) (mktd 0 1) = Some Lt
  /\ td_partial_cmp td_nat td_zero = None /\ td_partial_cmp td_zero td_nat = Some Gt
  /\ td_partial_cmp (mktd 2 5) (mktd 2 5) = Some Eq.
Proof. vm_compute. intuition. Qed.


(* non-vacuity of (9) *)
Example C17_ex_audit_shift :
  (* Sec 10 + 1.5 s = 11, - 1.5 s = 9 = 10 - 1: in the class; value = x + floor(ns / unit) *)
  dt_add Sec 10 (mktd 0 1500000000) = Ok 11 /\ 11 = 10 + 1500000000 / 1000000000
  /\ dt_sub Sec 11 (mktd 0 1500000000) = Ok 9 /\ 9 = 11 + (- 1500000000) / 1000000000
  /\ dt_sub Sec 10 (mktd 0 1500000000) = Ok 8 /\ dt_add Sec 8 (mktd 0 1500000000) = Ok 9
  (* the three panics in order: outside chrono's range; month step out of range; fixed part overflows *)
  /\ dt_add Sec 9000000000000 (mktd 0 1) = Panic UnwrapNone
  /\ dt_add Sec 8000000000000 (mktd 1000000 0) = Panic OtherPanic
  /\ dt_add Sec 8000000000000 (mktd 0 9000000000000000000000) = Panic Overflow
  /\ dt_sub Sec 0 (mktd (-15) 7) = dt_add Sec 0 (mktd 15 (-7)).
Proof. vm_compute. intuition. Qed.
Example C17_ex_audit_diff :
  dt_diff Milli 5 (-3) = Ok (mktd 0 8000000) /\ dt_sub Milli 5 (mktd 0 8000000) = Ok (-3)
  /\ dt_diff Milli (-3) 5 = Ok (mktd 0 (-8000000)) /\ dt_diff Sec 9000000000000 0 = Panic UnwrapNone
  /\ in_i64 (-3) = true /\ as_cr Milli 5 = Some (mkcr 0 5000000).
Proof. vm_compute. intuition. Qed.
Example C17_ex_audit_months :
  (* Jan 31 + 1 month: clamped, the round trip gives Jan 29 (2000 is a leap year); Jan 28: comes back *)
  add_months (add_months (2000, 1, 31) 1) (-1) = (2000, 1, 29) /\ valid_civil (2000, 1, 31)
  /\ add_months (add_months (2000, 1, 28) 1) (-1) = (2000, 1, 28)
  /\ dt_add Sec 949276800 (mktd 1 0) = Ok 951782400 /\ dt_sub Sec 951782400 (mktd 1 0) = Ok 949104000
  /\ as_cr Sec 949276800 = Some (mkcr 949276800 0) /\ cr_civil (mkcr 949276800 0) = (2000, 1, 31)
  (* mixed duration = months first, then the fixed part *)
  /\ dt_add Sec 949276800 (mktd 1 5000000000) = Ok 951782405 /\ dt_add Sec 951782400 (mktd 0 5000000000) = Ok 951782405.
Proof. vm_compute. intuition. Qed.
Example C17_ex_audit_time :
  time_from_nsm 45296 7 = Ok 45296000000007 /\ time_hour 45296000000007 = Ok 12
  /\ time_from_hms 0 90 0 = Ok 5400000000000 /\ time_from_hms 9223372036854775807 0 0 = Panic Overflow
  (* as_cr: Time(2^32 s) reads as midnight, Time(-1 ns) and Time(-1 s) are not times of day *)
  /\ time_as_cr 4294967296000000000 = Some (0, 0) /\ time_as_cr (-1) = None /\ time_as_cr (-1000000000) = None
  /\ time_add 0 (mktd 0 (i64_max + 1)) = Ok NaT /\ time_add i64_max (mktd 0 1) = Panic Overflow
  /\ time_sub (-9223372036854775807) (mktd 0 2) = Panic Underflow
  /\ time_sub 5 (mktd 0 7) = Ok (-2) /\ time_add (-2) (mktd 0 7) = Ok 5.
Proof. vm_compute. intuition. Qed.
Example C17_ex_audit_trunc :
  dt_trunc Sec NaT (mktd 0 5) = Ok NaT /\ dt_trunc Sec 9000000000000 (mktd 0 5) = Panic UnwrapNone
  /\ dt_trunc Sec 0 (mktd (-1) 0) = Panic OtherPanic /\ dt_trunc Sec 0 td_nat = Panic OtherPanic
  /\ dt_trunc Sec 0 (mktd 0 0) = Panic OtherPanic /\ dt_trunc Sec 0 (mktd 0 (-5)) = Panic OtherPanic
  (* DateTime<Second> in year 2300: outside the i64 nanosecond window, chrono reports TimestampExceedsLimit *)
  /\ dt_trunc Sec 10413792000 (mktd 0 1000000000) = Panic OtherPanic /\ in_i64 (instant_ns Sec 10413792000) = false
  /\ dt_trunc Sec 1684161045 (mktd 0 3600000000000) = Ok 1684159200
  /\ dt_trunc Sec 1684159200 (mktd 0 3600000000000) = Ok 1684159200
  (* 1 month + 1 hour *)
  /\ dt_trunc Sec 1684161045 (mktd 1 3600000000000) = Ok 1682899200 /\ divides12 1.
Proof. vm_compute. intuition. Qed.

Print Assumptions C17_add_sub_inverse.
Print Assumptions C17_diff_add_inverse.
Print Assumptions C17_td_scale_distributes.
Print Assumptions C17_month_add_executable_calendar.
Print Assumptions C17_time_ctor_getters_nano.
Print Assumptions C17_trunc_greatest_multiple.
Print Assumptions C17_trunc_months_executable_calendar.
Print Assumptions C17_days_of_civil_order_iso.
Print Assumptions C17_civil_of_days_monotone.
Print Assumptions C17_month_trunc_le.
Print Assumptions C17_month_trunc_greatest.
Print Assumptions C17_month_trunc_containing_period.
Print Assumptions C17_trunc_monthfree_le.
Print Assumptions C17_add_sub_class1_loses_one_unit.
Print Assumptions C17_time_with_components.
Print Assumptions C17_time_with_values.
Print Assumptions C17_time_with_invalid_receiver.
Print Assumptions C17_time_with_compose.
Print Assumptions C17_time_with_nanosecond_leap_range.
Print Assumptions C17_time_components_bijection.
Print Assumptions C17_timedelta_div.
Print Assumptions C17_timedelta_div_remainder.
Print Assumptions C17_timedelta_div_failures.
Print Assumptions C17_scaling_distributes_full.
Print Assumptions C17_td_scale_nat_absorbs.
Print Assumptions C17_td_scale_bounded.
Print Assumptions C17_td_order.
Print Assumptions C17_td_order_group_compatible.
Print Assumptions C17_dt_add_closed_form.
Print Assumptions C17_dt_sub_closed_form.
Print Assumptions C17_dt_shift_outcomes.
Print Assumptions C17_dt_add_monthfree_outcome.
Print Assumptions C17_dt_sub_is_add_neg.
Print Assumptions C17_dt_shift_monthfree_value.
Print Assumptions C17_inverse_law_iff_class1.
Print Assumptions C17_inverse_law_iff_class1_mirror.
Print Assumptions C17_sub_add_class1_loses_one_unit.
Print Assumptions C17_round_trip_value.
Print Assumptions C17_diff_closed_form.
Print Assumptions C17_diff_nano_total.
Print Assumptions C17_diff_algebra.
Print Assumptions C17_diff_sub_inverse.
Print Assumptions C17_diff_never_class1_and_valid.
Print Assumptions C17_td_ops_total.
Print Assumptions C17_td_ops_nat_total.
Print Assumptions C17_td_group_more.
Print Assumptions C17_add_months_roundtrip_iff.
Print Assumptions C17_add_months_compose.
Print Assumptions C17_month_add_sub_not_inverse.
Print Assumptions C17_month_add_sub_inverse_iff.
Print Assumptions C17_dt_add_mixed_sequential.
Print Assumptions C17_time_ctor_total.
Print Assumptions C17_time_ctor_linear.
Print Assumptions C17_time_from_num_seconds_from_midnight.
Print Assumptions C17_time_from_nsm_is_hms_nano.
Print Assumptions C17_time_as_cr_some_iff.
Print Assumptions C17_time_shift_total.
Print Assumptions C17_time_shift_not_modular.
Print Assumptions C17_time_sub_add_inverse.
Print Assumptions C17_time_add_compose.
Print Assumptions C17_trunc_checks.
Print Assumptions C17_trunc_monthfree_rejects.
Print Assumptions C17_trunc_monthfree_total.
Print Assumptions C17_trunc_idempotent.
Print Assumptions C17_trunc_monotone.
Print Assumptions C17_trunc_fixed_iff.
Print Assumptions C17_trunc_mixed_sequential.
