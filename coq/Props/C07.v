(* Props/C07.v — property C07: results are independent of input backend, output container and
   out-buffer path; each container's accessors describe one logical sequence.  Axiom-free.       *)
From Coq Require Import ZArith.
From Tevec Require Import Base.Prelude Base.Num Model.Driver Proofs.Driver Model.Features
     Proofs.Generic Model.Containers Proofs.Containers Model.PolarsOut Proofs.PolarsOut.

(* ---- VecDeque (ring buffer) in any rotation: wrapped or contiguous ---------------------------- *)
Theorem C07_ring_length : forall (A : Type) (r : ring A), ring_wf r -> length (ring_to_list r) = rlen r.
Proof. intros A r H. apply ring_to_list_length, ring_wf_wf0, H. Qed.

Theorem C07_ring_get : forall (A : Type) (r : ring A), ring_wf r ->
  forall i, nth_error (ring_to_list r) i = ring_get r i.
Proof. intros A r H. apply ring_get_to_list, ring_wf_wf0, H. Qed.

Theorem C07_ring_try_as_slice : forall (A : Type) (r : ring A), ring_wf r ->
  forall l, ring_try_as_slice r = Some l -> l = ring_to_list r.
Proof. intros A r H. apply ring_try_as_slice_sound, ring_wf_wf0, H. Qed.

(* ---- ndarray views with any stride (positive, negative) and offset ------------------------------ *)
Theorem C07_strided_length : forall (A : Type) (s : strided A), strided_wf s ->
  length (strided_to_list s) = slen s.
Proof. exact @strided_to_list_length. Qed.

Theorem C07_strided_get : forall (A : Type) (s : strided A), strided_wf s ->
  forall i, nth_error (strided_to_list s) i = strided_get s i.
Proof. exact @strided_to_list_nth. Qed.

Theorem C07_strided_try_as_slice : forall (A : Type) (s : strided A), strided_wf s ->
  forall l, strided_try_as_slice s = Some l -> l = strided_to_list s.
Proof. exact @strided_try_as_slice_sound. Qed.

(* ---- Polars chunked arrays under any chunking ------------------------------------------------------ *)
Theorem C07_chunked_get : forall (A : Type) (c : chunked A) (i : nat),
  chunked_get c i = nth_error (chunked_to_list c) i.
Proof. exact @chunked_get_spec. Qed.

Theorem C07_chunked_len : forall (A : Type) (c : chunked A), chunked_len c = length (chunked_to_list c).
Proof. exact @chunked_len_spec. Qed.

Theorem C07_chunking_irrelevant : forall (A : Type) (c1 c2 : chunked A) (i : nat),
  chunked_to_list c1 = chunked_to_list c2 -> chunked_get c1 i = chunked_get c2 i.
Proof. intros A c1 c2 i H. rewrite !chunked_get_spec, H. reflexivity. Qed.

(* ---- the checked accessor of view.rs ------------------------------------------------------------------ *)
Theorem C07_checked_get : forall (A : Type) (l : list A) (i : nat),
  checked_get (length l) (nth_error l) i
  = match nth_error l i with Some x => Ok x | None => Panic OtherPanic end.
Proof. intros A l i. apply (rep_checked_get _ _ _ (list_represents l)). Qed.

(* ---- returned path = caller-buffer path = fast path ------------------------------------------------- *)
(* every rolling feature (add-emit-remove) gives the same, complete result through the iterator body
   (default backends, returned) and the two-phase index body (caller buffer; Vec / ndarray fast path) *)
Theorem C07_out_path :
  forall (T St O : Type) (F : feat T St O) (w : nat) (xs : list T),
    1 <= w -> ts_run F true w xs = ts_run F false w xs.
Proof. intros T St O F w xs Hw. rewrite !ts_run_iter by exact Hw. reflexivity. Qed.

Theorem C07_total :
  forall (T St O : Type) (F : feat T St O) (w : nat) (xs : list T) (body : bool),
    1 <= w -> exists out, ts_run F body w xs = Done out /\ length out = length xs.
Proof. exact @ts_run_total. Qed.

(* the slice forms pass the same windows on both paths *)
Theorem C07_out_path_custom :
  forall (T St O : Type) (f : St -> list T -> St * O) (s0 : St) (xs : list T) (w : nat),
    1 <= w -> rolling_custom_to w f s0 xs = rolling_custom_default w f s0 xs.
Proof. intros. rewrite rolling_custom_to_eq, rolling_custom_default_eq by assumption. reflexivity. Qed.

(* ---- a Polars array as OUTPUT container (Model/PolarsOut.v; polars.rs) ---------------------------------
   results stored by index go through a staging buffer that starts all-null and is collected by
   assume_init; this is the caller-buffer path of every backend and the returned path of the Vec / ndarray
   fast paths with O = ChunkedArray (`unimplemented!` in polars.rs before the `fix:` commit that
   Model/PolarsOut.v names)                                                                             *)

(* any stores, in any order, any number of times: slot by slot the staged array is `join` of the generic
   MaybeUninit buffer of Model/Driver.v — equal to it when that is fully initialised, null (never
   garbage) where it is not *)
Theorem C07_polars_stage_refines :
  forall (St X A : Type) (g : St -> X -> St * option A) (s : St) (calls : list (nat * X)) (n : nat),
    finish_polars (pexec g s calls (pstage_uninit n))
    = match finish (exec g s calls (repeat None n)) with
      | Done out => Done out
      | Uninit buf => Done (map join buf)
      | Panicked k => Panicked k
      end.
Proof. exact @polars_stage_refines. Qed.

Theorem C07_polars_stage_total :
  forall (St X A : Type) (g : St -> X -> St * option A) (s : St) (calls : list (nat * X)) (n : nat),
    exists out, finish_polars (pexec g s calls (pstage_uninit n)) = Done out /\ length out = n.
Proof. intros. eexists. split; [apply finish_polars_eq|]. rewrite pexec_length. apply repeat_length. Qed.

(* uset / read-back of one slot *)
Theorem C07_polars_stage_slot :
  forall (A : Type) (i : nat) (v : option A) (b : pstage A) (j : nat),
    nth_error (pstage_uset i v b) j = if (j =? i) && (i <? length b) then Some v else nth_error b j.
Proof. intros. rewrite pstage_uset_update. apply nth_error_update. Qed.

(* rolling_apply_to at every window (0 included), every callback, every series; the other index bodies below at
   windows >= 1 *)
Theorem C07_polars_out_any_window :
  forall (T St A : Type) (w : nat) (f : St -> option T * T -> St * option A) (s0 : St) (xs : list T),
    rolling_apply_to_polars w f s0 xs = lift_uninit (rolling_apply_to w f s0 xs).
Proof. exact @rolling_apply_to_polars_spec. Qed.

Theorem C07_polars_out_rolling_apply :
  forall (T St A : Type) (w : nat) (f : St -> option T * T -> St * option A) (s0 : St) (xs : list T),
    1 <= w -> rolling_apply_to_polars w f s0 xs = rolling_apply_to w f s0 xs.
Proof. intros. apply rolling_apply_to_polars_eq. Qed.

Theorem C07_polars_out_rolling_apply_idx :
  forall (T St A : Type) (w : nat) (f : St -> option nat * nat * T -> St * option A) (s0 : St) (xs : list T),
    1 <= w -> rolling_apply_idx_to_polars w f s0 xs = rolling_apply_idx_to w f s0 xs.
Proof. intros. apply rolling_apply_idx_to_polars_eq. Qed.

Theorem C07_polars_out_rolling_custom :
  forall (T St A : Type) (w : nat) (f : St -> list T -> St * option A) (s0 : St) (xs : list T),
    1 <= w -> rolling_custom_to_polars w f s0 xs = collected_polars (rolling_custom_default w f s0 xs).
Proof.
  intros T St A w f s0 xs Hw.
  rewrite collected_polars_id, rolling_custom_to_polars_eq, rolling_custom_to_eq, rolling_custom_default_eq by exact Hw.
  reflexivity.
Qed.

Theorem C07_polars_out_rolling2_apply :
  forall (T1 T2 St A : Type) (w : nat) (f : St -> option (T1 * T2) * (T1 * T2) -> St * option A) (s0 : St)
         (xs : list T1) (ys : list T2),
    1 <= w -> rolling2_apply_to_polars w f s0 xs ys = rolling2_apply_to w f s0 xs ys.
Proof.
  intros. unfold rolling2_apply_to_polars, rolling2_apply_to.
  destruct (length ys <? length xs); [reflexivity|]. apply rolling_apply_to_polars_eq.
Qed.

Theorem C07_polars_out_rolling2_apply_idx :
  forall (T1 T2 St A : Type) (w : nat) (f : St -> option nat * nat * (T1 * T2) -> St * option A) (s0 : St)
         (xs : list T1) (ys : list T2),
    1 <= w -> rolling2_apply_idx_to_polars w f s0 xs ys = rolling2_apply_idx_to w f s0 xs ys.
Proof.
  intros. unfold rolling2_apply_idx_to_polars, rolling2_apply_idx_to.
  destruct (length ys <? length xs); [reflexivity|]. apply rolling_apply_idx_to_polars_eq.
Qed.

(* every rolling feature: staged into a Polars array = either body collected into a Polars array *)
Theorem C07_polars_out_feature :
  forall (T St A : Type) (F : feat T St (option A)) (w : nat) (xs : list T) (body : bool),
    1 <= w -> ts_run_polars F w xs = collected_polars (ts_run F body w xs).
Proof.
  intros T St A F w xs body _. rewrite collected_polars_id. unfold ts_run_polars. rewrite rolling_apply_to_polars_eq.
  destruct body; [reflexivity|]. apply (rolling_apply_bodies_agree_total (f_pre F) (f_emit F) (f_post F)).
Qed.

(* collecting into one chunk does not change the logical sequence *)
Theorem C07_polars_collect :
  forall (A : Type) (l : list (option A)), chunked_to_list (chunked_collect l) = l.
Proof. exact @chunked_single. Qed.

(* non-vacuity of the Polars-output theorems: a running count of valid elements with window 2 over a series
   with a null, staged out of a two-phase body; the window-index and slice forms; a window of 0 *)
Example C07_example_polars_out :
  let F := {| f_init := 0; f_pre := fun s (v : option nat) => match v with Some _ => S s | None => s end;
              f_emit := fun s => if 2 <=? s then Some s else None;
              f_post := fun s rm => match rm with Some (Some _) => s - 1 | _ => s end |} in
  ts_run_polars F 2 [Some 5; None; Some 7; Some 8; Some 9] = Done [None; None; None; Some 2; Some 2]
  /\ ts_run F false 2 [Some 5; None; Some 7; Some 8; Some 9] = Done [None; None; None; Some 2; Some 2].
Proof. split; vm_compute; reflexivity. Qed.

Example C07_example_polars_out_idx_custom :
  rolling_apply_idx_to_polars 2 (fun (s : unit) a => (s, Some (fst (fst a), snd a))) tt [10; 20; 30]
    = Done [Some (None, 10); Some (Some 0, 20); Some (Some 1, 30)]
  /\ rolling_custom_to_polars 2 (fun (s : unit) (l : list nat) => (s, Some l)) tt [10; 20; 30]
    = Done [Some [10]; Some [10; 20]; Some [20; 30]]
  /\ rolling2_apply_to_polars 2 (fun (s : unit) a => (s, Some (fst a))) tt [1; 2; 3] [4; 5; 6]
    = Done [Some None; Some (Some (1, 4)); Some (Some (2, 5))]
  /\ rolling2_apply_idx_to_polars 1 (fun (s : unit) a => (s, Some (snd a))) tt [1; 2] [4; 5]
    = Done [Some (1, 4); Some (2, 5)]
  /\ rolling_apply_to_polars 0 (fun (s : unit) (a : option nat * nat) => (s, Some (snd a))) tt [1]
    = Panicked AssertFail.
Proof. repeat split; vm_compute; reflexivity. Qed.

(* a store sequence that leaves a slot unwritten and writes another twice: null there, last write wins *)
Example C07_example_polars_stage :
  finish_polars (pexec (fun (s : unit) (a : nat) => (s, Some a)) tt [(2, 7); (0, 8); (2, 9)] (pstage_uninit 3))
    = Done [Some 8; None; Some 9]
  /\ finish (exec (fun (s : unit) (a : nat) => (s, Some a)) tt [(2, 7); (0, 8); (2, 9)] (repeat None 3))
    = Uninit [Some (Some 8); None; Some (Some 9)].
Proof. split; vm_compute; reflexivity. Qed.

(* non-vacuity: a wrapped ring and a reversed view *)
Example C07_example_ring :
  let r := {| rbuf := [3; 4; 1; 2]; rhead := 2; rlen := 4 |} in
  ring_wf r /\ ring_to_list r = [1; 2; 3; 4] /\ ring_try_as_slice r = None.
Proof. cbv zeta. unfold ring_wf, rcap. cbn. repeat split; lia. Qed.

Example C07_example_reversed_view :
  let s := {| sbase := [1; 2; 3; 4]; soff := 3; sstep := (-1)%Z; slen := 4 |} in
  strided_to_list s = [4; 3; 2; 1] /\ strided_try_as_slice s = None.
Proof. split; reflexivity. Qed.


(* ==== mutable accessors (Vec1Mut::get_mut / uget_mut / try_as_slice_mut) ============================================ *)
(* a write at logical index i is a write at index i of the logical sequence; an out-of-range index is rejected *)
Theorem C07_vec_set : forall (A : Type) (l : list A) (i : nat) (v : A),
  checked_set (length l) (list_uset l) i v = if i <? length l then Some (update l i v) else None.
Proof. intros. unfold checked_set, list_uset. destruct (i <? length l); reflexivity. Qed.

Theorem C07_ring_uset : forall (A : Type) (r : ring A), ring_wf r -> forall (i : nat) (v : A),
  option_map (@ring_to_list A) (ring_uset r i v) = if i <? rlen r then Some (update (ring_to_list r) i v) else None.
Proof. exact @ring_uset_to_list. Qed.

Theorem C07_ring_get_mut : forall (A : Type) (r : ring A), ring_wf r -> forall (i : nat) (v : A),
  option_map (@ring_to_list A) (checked_set (rlen r) (ring_uset r) i v)
  = if i <? rlen r then Some (update (ring_to_list r) i v) else None.
Proof. intros A r H i v. apply checked_set_to_list, ring_uset_to_list, H. Qed.

Theorem C07_ring_uset_wf : forall (A : Type) (r : ring A), ring_wf r -> forall (i : nat) (v : A) (r' : ring A),
  ring_uset r i v = Some r' -> ring_wf r'.
Proof. exact @ring_uset_wf. Qed.

Theorem C07_ring_uset_layout : forall (A : Type) (r : ring A) (i : nat) (v : A) (r' : ring A),
  ring_uset r i v = Some r' -> rhead r' = rhead r /\ rlen r' = rlen r /\ rcap r' = rcap r.
Proof. exact @ring_uset_layout. Qed.

Theorem C07_ring_get_after_set : forall (A : Type) (r r' : ring A) (i : nat) (v : A) (j : nat),
  ring_wf r -> ring_uset r i v = Some r' -> ring_get r' j = if j =? i then Some v else ring_get r j.
Proof.
  intros A r r' i v j Hwf E. destruct (ring_uset_Some r r' i v Hwf E) as [Hi H].
  apply (rep_get_update (rlen r) (ring_get r) (ring_get r') (ring_to_list r));
    [apply ring_represents, ring_wf_wf0, Hwf| |exact Hi].
  destruct (ring_uset_layout r i v r' E) as (_ & <- & _). rewrite <- H.
  apply ring_represents, ring_wf_wf0, (ring_uset_wf r Hwf i v r' E).
Qed.

(* try_as_slice_mut is offered exactly when try_as_slice is; a write through it at index k IS the write at
   logical index k (same resulting buffer), hence the update of the logical sequence at k *)
Theorem C07_ring_slice_mut_offered : forall (A : Type) (r : ring A), ring_wf r -> forall (k : nat) (v : A),
  ring_slice_mut_set r k v = None <-> ring_try_as_slice r = None.
Proof.
  intros A r Hwf k v. rewrite (ring_try_as_slice_offered_iff r (ring_wf_wf0 r Hwf)). unfold ring_slice_mut_set.
  destruct (Nat.leb_spec (rhead r + rlen r) (rcap r)) as [L|L]; split; intros H; try discriminate; try reflexivity; lia.
Qed.

Theorem C07_ring_slice_mut_is_set : forall (A : Type) (r : ring A), ring_wf r ->
  forall (k : nat) (v : A) (w : option (ring A)), ring_slice_mut_set r k v = Some w -> w = ring_uset r k v.
Proof. exact @ring_slice_mut_is_uset. Qed.

Theorem C07_ring_slice_mut : forall (A : Type) (r : ring A), ring_wf r ->
  forall (k : nat) (v : A) (w : option (ring A)), ring_slice_mut_set r k v = Some w ->
  option_map (@ring_to_list A) w = if k <? rlen r then Some (update (ring_to_list r) k v) else None.
Proof. intros A r H k v w E. rewrite (ring_slice_mut_is_uset r H k v w E). apply ring_uset_to_list, H. Qed.

Theorem C07_ring_slice_after_set : forall (A : Type) (r r' : ring A) (i : nat) (v : A),
  ring_wf r -> ring_uset r i v = Some r' ->
  ring_try_as_slice r' = option_map (fun l => update l i v) (ring_try_as_slice r).
Proof.
  intros A r r' i v Hwf E.
  pose proof (ring_wf_wf0 r Hwf) as H0. pose proof (ring_wf_wf0 r' (ring_uset_wf r Hwf _ _ _ E)) as H0'.
  destruct (ring_uset_layout _ _ _ _ E) as (Hh & Hl & Hc). destruct (ring_uset_Some r r' i v Hwf E) as [_ H].
  destruct (ring_try_as_slice r) as [l|] eqn:E1, (ring_try_as_slice r') as [l'|] eqn:E2; cbn [option_map].
  - rewrite (ring_try_as_slice_sound _ H0' _ E2), (ring_try_as_slice_sound _ H0 _ E1), H. reflexivity.
  - apply (ring_try_as_slice_offered_iff r' H0') in E2.
    assert (E3 : ring_try_as_slice r = None) by (apply (ring_try_as_slice_offered_iff r H0); lia). congruence.
  - apply (ring_try_as_slice_offered_iff r H0) in E1.
    assert (E3 : ring_try_as_slice r' = None) by (apply (ring_try_as_slice_offered_iff r' H0'); lia). congruence.
  - reflexivity.
Qed.

(* ndarray mutable views: every non-zero stride (a mutable view never aliases two logical positions) *)
Theorem C07_strided_uset : forall (A : Type) (s : strided A), strided_wf s -> (sstep s <> 0)%Z ->
  forall (i : nat) (v : A),
  option_map (@strided_to_list A) (strided_uset s i v)
  = if i <? slen s then Some (update (strided_to_list s) i v) else None.
Proof. exact @strided_uset_to_list. Qed.

Theorem C07_strided_get_mut : forall (A : Type) (s : strided A), strided_wf s -> (sstep s <> 0)%Z ->
  forall (i : nat) (v : A),
  option_map (@strided_to_list A) (checked_set (slen s) (strided_uset s) i v)
  = if i <? slen s then Some (update (strided_to_list s) i v) else None.
Proof. intros A s H Hs i v. apply checked_set_to_list, strided_uset_to_list; assumption. Qed.

Theorem C07_strided_uset_wf : forall (A : Type) (s : strided A), strided_wf s -> forall (i : nat) (v : A) (s' : strided A),
  strided_uset s i v = Some s' -> strided_wf s'.
Proof. exact @strided_uset_wf. Qed.

Theorem C07_strided_get_after_set : forall (A : Type) (s s' : strided A) (i : nat) (v : A) (j : nat),
  strided_wf s -> (sstep s <> 0)%Z -> strided_uset s i v = Some s' ->
  strided_get s' j = if j =? i then Some v else strided_get s j.
Proof.
  intros A s s' i v j Hwf Hst E. pose proof (strided_uset_to_list _ Hwf Hst i v) as H. rewrite E in H. cbn [option_map] in H.
  destruct (Nat.ltb_spec i (slen s)) as [Hi|Hi]; [|discriminate]. injection H as H.
  apply (rep_get_update (slen s) (strided_get s) (strided_get s') (strided_to_list s));
    [apply strided_represents, Hwf| |exact Hi].
  pose proof (strided_represents s' (strided_uset_wf s Hwf i v s' E)) as R. rewrite H in R.
  unfold strided_uset in E. rewrite (ltb_true _ _ Hi) in E. injection E as <-. exact R.
Qed.

Theorem C07_strided_slice_mut_offered : forall (A : Type) (s : strided A) (k : nat) (v : A),
  strided_slice_mut_set s k v = None <-> strided_try_as_slice s = None.
Proof.
  intros. unfold strided_slice_mut_set, strided_try_as_slice. destruct (orb _ _); split; intros H; try discriminate; reflexivity.
Qed.

Theorem C07_strided_slice_mut_is_set : forall (A : Type) (s : strided A) (k : nat) (v : A) (w : option (strided A)),
  strided_slice_mut_set s k v = Some w -> w = strided_uset s k v.
Proof. exact @strided_slice_mut_is_uset. Qed.

Theorem C07_strided_slice_mut : forall (A : Type) (s : strided A), strided_wf s -> (sstep s <> 0)%Z ->
  forall (k : nat) (v : A) (w : option (strided A)), strided_slice_mut_set s k v = Some w ->
  option_map (@strided_to_list A) w = if k <? slen s then Some (update (strided_to_list s) k v) else None.
Proof.
  intros A s H Hs k v w E. rewrite (strided_slice_mut_is_uset s k v w E). apply strided_uset_to_list; assumption.
Qed.

(* a reversed (or any negative-stride) view of two or more elements offers no mutable slice *)
Theorem C07_strided_reversed_no_slice_mut : forall (A : Type) (s : strided A) (k : nat) (v : A),
  (sstep s < 0)%Z -> 2 <= slen s -> strided_slice_mut_set s k v = None.
Proof.
  intros A s k v Hneg Hl. unfold strided_slice_mut_set.
  rewrite (proj2 (Z.eqb_neq (sstep s) 1)), (proj2 (Nat.leb_gt (slen s) 1)) by lia. reflexivity.
Qed.

(* handing out the mutable slice in memory order (as try_as_slice did in ndarray.rs before its `fix:` commit) would be
   wrong here too: witness *)
Theorem C07_memory_order_mut_refuted :
  exists (s : strided nat) (w : strided nat), strided_wf s /\ (sstep s <> 0)%Z /\
    strided_memory_order_mut_set s 0 9 = Some (Some w) /\
    strided_to_list s = [4; 3; 2; 1] /\ strided_to_list w = [4; 3; 2; 9] /\
    update (strided_to_list s) 0 9 = [9; 3; 2; 1].
Proof.
  exists {| sbase := [1; 2; 3; 4]; soff := 3; sstep := (-1)%Z; slen := 4 |}.
  eexists. split; [|split; [cbn; lia|split; [reflexivity|repeat split]]].
  intros i Hi. unfold spos. cbn [soff sstep sbase slen length] in *. lia.
Qed.

(* the list laws the statements above are phrased with *)
Theorem C07_update_nth : forall (A : Type) (l : list A) (i : nat) (v : A) (j : nat),
  nth_error (update l i v) j = if andb (j =? i) (i <? length l) then Some v else nth_error l j.
Proof. exact @nth_error_update. Qed.

Theorem C07_update_length : forall (A : Type) (l : list A) (i : nat) (v : A), length (update l i v) = length l.
Proof. exact @update_length. Qed.

Theorem C07_update_same : forall (A : Type) (l : list A) (i : nat) (x : A), nth_error l i = Some x -> update l i x = l.
Proof. exact @update_same. Qed.

Theorem C07_update_twice : forall (A : Type) (l : list A) (i : nat) (v w : A), update (update l i v) i w = update l i w.
Proof. exact @update_update. Qed.

Theorem C07_update_comm : forall (A : Type) (l : list A) (i j : nat) (v w : A), i <> j ->
  update (update l i v) j w = update (update l j w) i v.
Proof. exact @update_comm. Qed.

(* ==== valid get (vget / uvget) and the element-wise iterators (to_opt_iter / iter_cast / opt_iter_cast) ============= *)
(* vget c i = match get c i with Some x => if is_none x then None else Some (unwrap x) | None => None end *)
Theorem C07_vget : forall (T I : Type) (N : IsNone T I) (l : list T) (i : nat),
  valid_get to_opt (length l) (nth_error l) i
  = match nth_error l i with Some x => if is_none x then None else Some (unwrap x) | None => None end.
Proof. intros. apply (rep_valid_get _ _ _ (list_represents l)). Qed.

Theorem C07_uvget : forall (T I : Type) (to_opt : T -> option I) (l : list T) (i : nat),
  i < length l -> uvalid_get to_opt (nth_error l) i = valid_get to_opt (length l) (nth_error l) i.
Proof. intros T I to_opt l i H. unfold valid_get. rewrite (ltb_true _ _ H). reflexivity. Qed.

Theorem C07_ring_vget : forall (T I : Type) (to_opt : T -> option I) (r : ring T) (i : nat), ring_wf r ->
  valid_get to_opt (rlen r) (ring_get r) i
  = match nth_error (ring_to_list r) i with Some x => to_opt x | None => None end.
Proof. intros T I to_opt r i H. apply rep_valid_get, ring_represents, ring_wf_wf0, H. Qed.

Theorem C07_strided_vget : forall (T I : Type) (to_opt : T -> option I) (s : strided T) (i : nat), strided_wf s ->
  valid_get to_opt (slen s) (strided_get s) i
  = match nth_error (strided_to_list s) i with Some x => to_opt x | None => None end.
Proof. intros T I to_opt s i H. apply rep_valid_get, strided_represents, H. Qed.

Theorem C07_chunked_vget : forall (T I : Type) (to_opt : option T -> option I) (c : chunked T) (i : nat),
  valid_get to_opt (chunked_len c) (chunked_get c) i
  = match nth_error (chunked_to_list c) i with Some x => to_opt x | None => None end.
Proof. intros. apply rep_valid_get, chunked_represents. Qed.

(* position i of to_opt_iter is vget(i); opt_iter_cast is to_opt_iter followed by the cast; iter_cast is get then cast *)
Theorem C07_to_opt_iter : forall (T I : Type) (to_opt : T -> option I) (l : list T) (i : nat),
  nth_error (to_opt_iter_m to_opt l) i
  = if i <? length l then Some (valid_get to_opt (length l) (nth_error l) i) else None.
Proof. exact @to_opt_iter_nth. Qed.

Theorem C07_iter_cast : forall (T U : Type) (cast : T -> U) (l : list T) (i : nat),
  nth_error (iter_cast_m cast l) i = option_map cast (nth_error l i).
Proof. intros. apply nth_error_map. Qed.

Theorem C07_opt_iter_cast : forall (T I U : Type) (to_opt : T -> option I) (cast : I -> U) (l : list T) (i : nat),
  nth_error (opt_iter_cast_m to_opt cast l) i
  = if i <? length l then Some (option_map cast (valid_get to_opt (length l) (nth_error l) i)) else None.
Proof.
  intros. unfold opt_iter_cast_m. rewrite <- (map_map to_opt (option_map cast)), nth_error_map.
  fold (to_opt_iter_m to_opt l). rewrite to_opt_iter_nth. destruct (i <? length l); reflexivity.
Qed.

Theorem C07_elementwise_lengths : forall (T I U V : Type) (to_opt : T -> option I) (cast : T -> U) (cast' : I -> V) (l : list T),
  length (to_opt_iter_m to_opt l) = length l /\ length (iter_cast_m cast l) = length l
  /\ length (opt_iter_cast_m to_opt cast' l) = length l.
Proof. intros. unfold to_opt_iter_m, iter_cast_m, opt_iter_cast_m. rewrite !map_length. auto. Qed.

(* a write is seen by the valid get *)
Theorem C07_vget_after_set : forall (T I : Type) (to_opt : T -> option I) (l : list T) (i : nat) (v : T) (j : nat),
  i < length l ->
  valid_get to_opt (length (update l i v)) (nth_error (update l i v)) j
  = if j =? i then to_opt v else valid_get to_opt (length l) (nth_error l) j.
Proof.
  intros T I to_opt l i v j Hi. rewrite !(rep_valid_get _ _ _ (list_represents _)), nth_error_update.
  rewrite (ltb_true _ _ Hi), Bool.andb_true_r. destruct (j =? i); reflexivity.
Qed.

(* non-vacuity of the implications above *)
Example C07_example_ring_set :
  let r := {| rbuf := [3; 4; 1; 2]; rhead := 2; rlen := 4 |} in
  ring_wf r /\ option_map (@ring_to_list nat) (ring_uset r 3 9) = Some [1; 2; 3; 9]
  /\ ring_slice_mut_set r 0 9 = None /\ ring_uset r 4 9 = None.
Proof. cbv zeta. unfold ring_wf, rcap. cbn. repeat split; lia. Qed.

Example C07_example_ring_slice_mut :
  let r := {| rbuf := [0; 1; 2; 3]; rhead := 1; rlen := 3 |} in
  ring_wf r /\ exists w, ring_slice_mut_set r 2 9 = Some (Some w) /\ ring_to_list w = [1; 2; 9]
  /\ ring_try_as_slice r = Some [1; 2; 3].
Proof. cbv zeta. unfold ring_wf, rcap. cbn. split; [lia|]. eexists. repeat split. Qed.

Example C07_example_reversed_set :
  let s := {| sbase := [1; 2; 3; 4]; soff := 3; sstep := (-1)%Z; slen := 4 |} in
  strided_wf s /\ (sstep s <> 0)%Z /\ (sstep s < 0)%Z /\ 2 <= slen s
  /\ option_map (@strided_to_list nat) (strided_uset s 0 9) = Some [9; 3; 2; 1]
  /\ strided_slice_mut_set s 0 9 = None.
Proof.
  cbv zeta. split; [|cbn; repeat split; lia].
  intros i Hi. unfold spos. cbn [soff sstep sbase slen length] in *. lia.
Qed.

Example C07_example_standard_slice_mut :
  let s := {| sbase := [1; 2; 3; 4]; soff := 1; sstep := 1%Z; slen := 3 |} in
  exists w, strided_slice_mut_set s 1 9 = Some (Some w) /\ strided_to_list w = [2; 9; 4]
  /\ strided_uset s 1 9 = Some w.
Proof. cbv zeta. eexists. repeat split. Qed.

Example C07_example_vget :
  valid_get (fun x : nat => if x =? 0 then None else Some x) 3 (nth_error [5; 0; 7]) 0 = Some 5
  /\ valid_get (fun x : nat => if x =? 0 then None else Some x) 3 (nth_error [5; 0; 7]) 1 = None
  /\ valid_get (fun x : nat => if x =? 0 then None else Some x) 3 (nth_error [5; 0; 7]) 3 = None
  /\ update [5; 0; 7] 1 4 = [5; 4; 7] /\ nth_error [5; 0; 7] 2 = Some 7.
Proof. repeat split. Qed.


(* ====================================================================================================================
   The remaining clauses of the statement (notes/C07.md has the clause-by-clause matrix).  Proofs/Audit07.v.  Axiom-free.
   ==================================================================================================================== *)
From Coq Require Import Permutation.
From Tevec Require Import Model.Create Model.Collect Proofs.Audit07.

(* ---- VecDeque: hypothesis weakened.  `ring_wf` (head < cap) excludes the deque WITHOUT allocation (cap 0) - the
   len = 0 deques of the correspondence run; the accessor laws hold under `ring_wf0` (len <= cap, head <= cap)      *)
Theorem C07_ring_wf_weakened : forall (A : Type) (r : ring A), ring_wf r -> ring_wf0 r.
Proof. exact @ring_wf_wf0. Qed.
Theorem C07_ring_unallocated : forall A : Type,
  ring_wf0 {| rbuf := @nil A; rhead := 0; rlen := 0 |} /\ ~ ring_wf {| rbuf := @nil A; rhead := 0; rlen := 0 |}.
Proof. intros A. unfold ring_wf0, ring_wf, rcap. cbn. lia. Qed.
Theorem C07_ring_length_any : forall (A : Type) (r : ring A), ring_wf0 r -> length (ring_to_list r) = rlen r.
Proof. exact @ring_to_list_length. Qed.
Theorem C07_ring_get_any : forall (A : Type) (r : ring A), ring_wf0 r ->
  forall i, nth_error (ring_to_list r) i = ring_get r i.
Proof. exact @ring_get_to_list. Qed.
Theorem C07_ring_try_as_slice_any : forall (A : Type) (r : ring A), ring_wf0 r ->
  forall l, ring_try_as_slice r = Some l -> l = ring_to_list r.
Proof. exact @ring_try_as_slice_sound. Qed.
(* checked get over the deque's OWN uget (C07_checked_get is stated over a list) *)
Theorem C07_ring_checked_get : forall (A : Type) (r : ring A), ring_wf0 r -> forall i,
  checked_get (rlen r) (ring_get r) i
  = match nth_error (ring_to_list r) i with Some x => Ok x | None => Panic OtherPanic end.
Proof. intros A r H i. apply rep_checked_get, ring_represents, H. Qed.
(* titer(): VecDeque::iter() walks the two halves of as_slices(); their lengths; their concatenation *)
Theorem C07_ring_titer : forall (A : Type) (r : ring A), ring_wf0 r -> ring_iter r = ring_to_list r.
Proof. exact @ring_iter_spec. Qed.
Theorem C07_ring_as_slices_lengths : forall (A : Type) (r : ring A), ring_wf0 r ->
  length (fst (ring_slices r)) = Nat.min (rlen r) (rcap r - rhead r) /\
  length (snd (ring_slices r)) = rlen r - (rcap r - rhead r).
Proof.
  intros A r [Hl Hh]. unfold ring_slices, rcap in *.
  destruct (Nat.leb_spec (rhead r + rlen r) (length (rbuf r))); cbn [fst snd length]; rewrite !seg_length by lia; lia.
Qed.
(* iteration in the other direction: item i from the back is logical position len - 1 - i *)
Theorem C07_ring_rev_titer : forall (A : Type) (r : ring A), ring_wf0 r -> forall i,
  nth_error (rev (ring_to_list r)) i = if i <? rlen r then ring_get r (rlen r - 1 - i) else None.
Proof. intros A r H i. apply rep_rev_nth, ring_represents, H. Qed.
(* "the contiguous-slice view WHEN OFFERED": offered exactly when the ring has not wrapped, and then complete *)
Theorem C07_ring_try_as_slice_offered_iff : forall (A : Type) (r : ring A), ring_wf0 r ->
  (ring_try_as_slice r = None <-> rcap r < rhead r + rlen r).
Proof. exact @ring_try_as_slice_offered_iff. Qed.
Theorem C07_ring_try_as_slice_complete : forall (A : Type) (r : ring A), ring_wf0 r ->
  rhead r + rlen r <= rcap r -> ring_try_as_slice r = Some (ring_to_list r).
Proof. exact @ring_try_as_slice_complete. Qed.
(* sub-slicing: slice(a, b) = VecDeque::range(a..b) *)
Theorem C07_ring_slice : forall (A : Type) (r : ring A), ring_wf0 r -> forall a b i,
  nth_error (ring_range r a b) i = if i <? b - a then ring_get r (a + i) else None.
Proof. intros A r H a b i. apply (rep_slice_nth (rlen r)), ring_represents, H. Qed.
Theorem C07_ring_slice_length : forall (A : Type) (r : ring A), ring_wf0 r -> forall a b,
  a <= b -> b <= rlen r -> length (ring_range r a b) = b - a.
Proof. intros A r H a b Hab Hb. apply seg_length. rewrite ring_to_list_length by exact H. exact Hb. Qed.
Theorem C07_ring_slice_all : forall (A : Type) (r : ring A), ring_wf0 r -> ring_range r 0 (rlen r) = ring_to_list r.
Proof. intros A r H. unfold ring_range. rewrite <- (ring_to_list_length r H). apply seg_all. Qed.

(* ---- ndarray views ------------------------------------------------------------------------------------------------ *)
(* sub-slicing a view of ANY stride (0 and negative included): same memory, offset moved by a strides *)
Theorem C07_strided_slice : forall (A : Type) (s : strided A), strided_wf s -> forall a b,
  a <= b -> b <= slen s ->
  strided_wf (strided_slice s a b) /\ slen (strided_slice s a b) = b - a /\
  strided_to_list (strided_slice s a b) = seg a b (strided_to_list s).
Proof.
  intros A s Hwf a b Hab Hb.
  destruct (strided_reindex s Hwf (strided_slice s a b) _ eq_refl (strided_slice_reindex s Hwf a b Hab Hb)) as (W & _ & N).
  split; [exact W|]. split; [reflexivity|]. apply nth_error_ext. intros i. rewrite N, nth_error_seg. reflexivity.
Qed.
Theorem C07_strided_slice_get : forall (A : Type) (s : strided A), strided_wf s -> forall a b i,
  a <= b -> b <= slen s ->
  strided_get (strided_slice s a b) i = if i <? b - a then strided_get s (a + i) else None.
Proof.
  intros A s Hwf a b i Hab Hb. apply (strided_reindex s Hwf (strided_slice s a b) _ eq_refl (strided_slice_reindex s Hwf a b Hab Hb)).
Qed.
(* the reversed view (s![..;-1]) IS the reversed logical sequence; reversing twice gives the view back *)
Theorem C07_strided_reversed_view : forall (A : Type) (s : strided A), strided_wf s ->
  strided_wf (strided_rev s) /\ strided_to_list (strided_rev s) = rev (strided_to_list s).
Proof.
  intros A s Hwf. destruct (strided_reindex s Hwf (strided_rev s) _ eq_refl (strided_rev_reindex s Hwf)) as (W & _ & N).
  split; [exact W|]. apply nth_error_ext. intros i. rewrite N, nth_error_rev, (strided_to_list_length s Hwf). reflexivity.
Qed.
Theorem C07_strided_reversed_twice : forall (A : Type) (s : strided A), strided_wf s -> 1 <= slen s ->
  strided_rev (strided_rev s) = s.
Proof.
  intros A s Hwf Hl. destruct s as [base off step len]. unfold strided_rev. cbn [sbase soff sstep slen] in *.
  f_equal; [|lia].
  pose proof (Hwf (len - 1) ltac:(cbn; lia)) as H1. unfold spos in *. cbn [soff sstep sbase slen] in *.
  rewrite Z2Nat.id by lia. rewrite <- (Nat2Z.id off) at 2. f_equal. lia.
Qed.
Theorem C07_strided_rev_titer : forall (A : Type) (s : strided A), strided_wf s -> forall i,
  nth_error (rev (strided_to_list s)) i = if i <? slen s then strided_get s (slen s - 1 - i) else None.
Proof. intros A s H i. apply rep_rev_nth, strided_represents, H. Qed.
(* the stepped view (s![..;k], k >= 1): element i is element i * k; ceil(len / k) elements *)
Theorem C07_strided_stepped_view : forall (A : Type) (s : strided A), strided_wf s -> forall k i, 1 <= k ->
  strided_wf (strided_step s k) /\
  nth_error (strided_to_list (strided_step s k)) i
  = if i <? (slen s + k - 1) / k then nth_error (strided_to_list s) (i * k) else None.
Proof.
  intros A s Hwf k i Hk. destruct (strided_reindex s Hwf (strided_step s k) _ eq_refl (strided_step_reindex s k Hk)) as (W & _ & N).
  split; [exact W|apply N].
Qed.
Theorem C07_strided_step_one : forall (A : Type) (s : strided A), strided_wf s ->
  strided_to_list (strided_step s 1) = strided_to_list s.
Proof.
  intros A s Hwf. apply nth_error_ext. intros i.
  rewrite (proj2 (C07_strided_stepped_view A s Hwf 1 i (le_n 1))), Nat.mul_1_r.
  replace ((slen s + 1 - 1) / 1) with (slen s) by (rewrite Nat.div_1_r; lia).
  destruct (Nat.ltb_spec i (slen s)) as [E|E]; [reflexivity|].
  symmetry. apply nth_error_None. rewrite (strided_to_list_length s Hwf). exact E.
Qed.
Theorem C07_strided_try_as_slice_offered_iff : forall (A : Type) (s : strided A),
  strided_try_as_slice s = None <-> (sstep s <> 1%Z /\ 2 <= slen s).
Proof.
  intros A s. unfold strided_try_as_slice. destruct (orb _ _) eqn:E.
  - apply Bool.orb_true_iff in E. split; [discriminate|]. intros [H1 H2].
    destruct E as [E|E]; [apply Z.eqb_eq in E; contradiction|apply Nat.leb_le in E; lia].
  - apply Bool.orb_false_iff in E. destruct E as [E1 E2]. apply Z.eqb_neq in E1. apply Nat.leb_gt in E2.
    split; [intros _; split; [exact E1|lia]|reflexivity].
Qed.
Theorem C07_strided_try_as_slice_complete : forall (A : Type) (s : strided A), strided_wf s ->
  (sstep s = 1%Z \/ slen s <= 1) -> strided_try_as_slice s = Some (strided_to_list s).
Proof. exact @strided_try_as_slice_complete. Qed.
Theorem C07_strided_checked_get : forall (A : Type) (s : strided A), strided_wf s -> forall i,
  checked_get (slen s) (strided_get s) i
  = match nth_error (strided_to_list s) i with Some x => Ok x | None => Panic OtherPanic end.
Proof. intros A s H i. apply rep_checked_get, strided_represents, H. Qed.

(* ---- Polars chunked arrays ------------------------------------------------------------------------------------------ *)
Theorem C07_chunked_slice : forall (A : Type) (c : chunked A) (a b i : nat),
  nth_error (chunked_slice c a b) i = if i <? b - a then chunked_get c (a + i) else None.
Proof. intros. apply (rep_slice_nth (chunked_len c)), chunked_represents. Qed.
(* a slice that keeps a chunked layout (skip a, take b - a across the chunk boundaries) is that same sequence *)
Theorem C07_chunked_slice_chunks : forall (A : Type) (c : chunked A) (a b : nat),
  chunked_to_list (chunked_slice_chunks c a b) = chunked_slice c a b.
Proof.
  intros. unfold chunked_slice_chunks, chunked_slice, seg. rewrite chunked_take_spec, chunked_skip_spec. reflexivity.
Qed.
Theorem C07_chunked_rev_titer : forall (A : Type) (c : chunked A) (i : nat),
  nth_error (rev (chunked_to_list c)) i = if i <? chunked_len c then chunked_get c (chunked_len c - 1 - i) else None.
Proof. intros. apply rep_rev_nth, chunked_represents. Qed.
Theorem C07_chunked_checked_get : forall (A : Type) (c : chunked A) (i : nat),
  checked_get (chunked_len c) (chunked_get c) i
  = match nth_error (chunked_to_list c) i with Some x => Ok x | None => Panic OtherPanic end.
Proof. intros. apply rep_checked_get, chunked_represents. Qed.
Theorem C07_chunked_empty_chunk : forall (A : Type) (c1 c2 : chunked A),
  chunked_to_list (c1 ++ [] :: c2) = chunked_to_list (c1 ++ c2).
Proof. intros. unfold chunked_to_list. rewrite !concat_app. reflexivity. Qed.

(* ---- Arc-wrapped containers and the option view (no theorem named them before) -------------------------------------- *)
Theorem C07_arc_transparent : forall (A : Type) (l : list A) (i a b : nat),
  arc_to_list l = l /\ length (arc_to_list l) = length l /\ nth_error (arc_to_list l) i = nth_error l i
  /\ seg a b (arc_to_list l) = seg a b l /\ rev (arc_to_list l) = rev l.
Proof. repeat split. Qed.
Theorem C07_optview_accessors : forall (T I : Type) (to_opt : T -> option I) (l : list T) (i a b : nat),
  length (optview_to_list to_opt l) = length l
  /\ nth_error (optview_to_list to_opt l) i = option_map to_opt (nth_error l i)
  /\ seg a b (optview_to_list to_opt l) = optview_to_list to_opt (seg a b l)
  /\ rev (optview_to_list to_opt l) = optview_to_list to_opt (rev l)
  /\ optview_to_list to_opt l = to_opt_iter_m to_opt l.
Proof.
  intros. unfold optview_to_list. split; [apply map_length|]. split; [apply nth_error_map|]. split; [apply seg_map|].
  split; [symmetry; apply map_rev|reflexivity].
Qed.
Theorem C07_optview_is_vget : forall (T I : Type) (to_opt : T -> option I) (l : list T) (i : nat),
  nth_error (optview_to_list to_opt l) i
  = if i <? length l then Some (valid_get to_opt (length l) (nth_error l) i) else None.
Proof. intros. apply to_opt_iter_nth. Qed.
Theorem C07_optview_of_backends : forall (T I : Type) (to_opt : T -> option I) (r : ring T) (s : strided T) (i : nat),
  ring_wf0 r -> strided_wf s ->
  nth_error (optview_to_list to_opt (ring_to_list r)) i = option_map to_opt (ring_get r i) /\
  nth_error (optview_to_list to_opt (strided_to_list s)) i = option_map to_opt (strided_get s i).
Proof.
  intros T I to_opt r s i Hr Hs. split; [apply (rep_optview_nth (rlen r)), ring_represents, Hr|apply (rep_optview_nth (slen s)), strided_represents, Hs].
Qed.
Theorem C07_optview_of_chunked : forall (T I : Type) (to_opt : option T -> option I) (c : chunked T) (i : nat),
  nth_error (optview_to_list to_opt (chunked_to_list c)) i = option_map to_opt (chunked_get c i).
Proof. intros. apply (rep_optview_nth (chunked_len c)), chunked_represents. Qed.

(* ---- list laws the accessor statements are phrased with -------------------------------------------------------------- *)
Theorem C07_rev_nth : forall (A : Type) (l : list A) (i : nat),
  nth_error (rev l) i = if i <? length l then nth_error l (length l - 1 - i) else None.
Proof. exact @nth_error_rev. Qed.
Theorem C07_slice_of_slice : forall (A : Type) (a b a' b' : nat) (l : list A),
  a + b' <= b -> seg a' b' (seg a b l) = seg (a + a') (a + b') l.
Proof.
  intros A a b a' b' l H. apply nth_error_ext. intros i. rewrite !nth_error_seg.
  replace (a + b' - (a + a')) with (b' - a') by lia.
  destruct (Nat.ltb_spec i (b' - a')) as [E|E]; [|reflexivity]. rewrite ltb_true by lia. f_equal. lia.
Qed.
Theorem C07_slice_of_reversed : forall (A : Type) (a b : nat) (l : list A), a <= b -> b <= length l ->
  seg a b (rev l) = rev (seg (length l - b) (length l - a) l).
Proof.
  intros A a b l Hab Hb. apply nth_error_ext. intros i.
  rewrite nth_error_seg, !nth_error_rev, seg_length by lia. rewrite nth_error_seg.
  replace (length l - a - (length l - b)) with (b - a) by lia.
  destruct (Nat.ltb_spec i (b - a)) as [E|E]; [|reflexivity]. rewrite !ltb_true by lia. f_equal. lia.
Qed.
Theorem C07_slice_length_any : forall (A : Type) (a b : nat) (l : list A),
  length (seg a b l) = Nat.min (b - a) (length l - a).
Proof. intros. unfold seg. rewrite firstn_length, skipn_length. reflexivity. Qed.

(* ---- "generic algorithms written once against the view trait; backends only supply len / uget" ------------------------
   view_seq len uget is what such an algorithm sees.  For every backend it IS the logical sequence, and two containers of
   ANY kinds with the same length and the same uget have the same logical sequence - hence the same result of every
   function of Model/ (all of them take the logical sequence)                                                          *)
Theorem C07_view_seq_backends : forall (A : Type) (l : list A) (r : ring A) (s : strided A) (c : chunked A),
  ring_wf0 r ->
  view_seq (length l) (nth_error l) = l /\ view_seq (rlen r) (ring_get r) = ring_to_list r
  /\ view_seq (slen s) (strided_get s) = strided_to_list s
  /\ view_seq (chunked_len c) (chunked_get c) = chunked_to_list c.
Proof.
  intros A l r s c Hr. split; [apply view_seq_list|]. split; [apply rep_view_seq, ring_represents, Hr|].
  split; [apply strided_view_seq|apply rep_view_seq, chunked_represents].
Qed.
Theorem C07_view_determined_by_len_and_uget : forall (A : Type) (len : nat) (g1 g2 : nat -> option A),
  (forall i, i < len -> g1 i = g2 i) -> view_seq len g1 = view_seq len g2.
Proof. exact @view_seq_ext. Qed.
Theorem C07_backend_irrelevant_ring_strided : forall (A : Type) (r : ring A) (s : strided A),
  ring_wf0 r -> rlen r = slen s -> (forall i, i < rlen r -> ring_get r i = strided_get s i) ->
  ring_to_list r = strided_to_list s.
Proof.
  intros A r s Hr Hl H. apply (view_determined (rlen r) (ring_get r) (strided_get s));
    [apply rep_view_seq, ring_represents, Hr | rewrite Hl; apply strided_view_seq | exact H].
Qed.
Theorem C07_backend_irrelevant_ring_chunked : forall (A : Type) (r : ring (option A)) (c : chunked A),
  ring_wf0 r -> rlen r = chunked_len c -> (forall i, i < rlen r -> ring_get r i = chunked_get c i) ->
  ring_to_list r = chunked_to_list c.
Proof.
  intros A r c Hr Hl H. apply (view_determined (rlen r) (ring_get r) (chunked_get c));
    [apply rep_view_seq, ring_represents, Hr | rewrite Hl; apply rep_view_seq, chunked_represents | exact H].
Qed.
Theorem C07_backend_irrelevant_strided_chunked : forall (A : Type) (s : strided (option A)) (c : chunked A),
  slen s = chunked_len c -> (forall i, i < slen s -> strided_get s i = chunked_get c i) ->
  strided_to_list s = chunked_to_list c.
Proof.
  intros A s c Hl H. apply (view_determined (slen s) (strided_get s) (chunked_get c));
    [apply strided_view_seq | rewrite Hl; apply rep_view_seq, chunked_represents | exact H].
Qed.

(* ---- "whatever the output container": uninit / uset / assume_init of the MaybeUninit buffer (Vec, VecDeque, Array1) -- *)
Theorem C07_uset_slot : forall (O : Type) (i : nat) (v : O) (buf : list (option O)) (j : nat),
  nth_error (set_nth i v buf) j = if (j =? i) && (i <? length buf) then Some (Some v) else nth_error buf j.
Proof. exact @set_nth_nth. Qed.
Theorem C07_uset_length : forall (O : Type) (i : nat) (v : O) (buf : list (option O)), length (set_nth i v buf) = length buf.
Proof. exact @set_nth_length. Qed.
Theorem C07_uset_commutes : forall (O : Type) (i j : nat) (v w : O) (buf : list (option O)),
  i <> j -> set_nth i v (set_nth j w buf) = set_nth j w (set_nth i v buf).
Proof. intros O i j v w buf Hij. rewrite !set_nth_update. apply update_comm. auto. Qed.
Theorem C07_uninit_exposes_nothing : forall (O : Type) (n : nat),
  assume_init (repeat (@None O) n) = if n =? 0 then Some [] else None.
Proof. intros O n. destruct n; reflexivity. Qed.
Theorem C07_assume_init_exactly_when_all_written : forall (O : Type) (buf : list (option O)),
  (forall l, assume_init buf = Some l <-> buf = map Some l) /\
  (assume_init buf = None <-> exists j, nth_error buf j = Some None).
Proof. intros O buf. split; [intros l; apply assume_init_Some_iff|apply assume_init_None_iff]. Qed.
(* stores in ANY order, any number of times, covering every slot: a complete output, slot j = the last value stored at j *)
Theorem C07_stores_any_order : forall (O : Type) (ws : list (nat * O)) (n : nat),
  (forall j, j < n -> In j (map fst ws)) ->
  exists l, finish (apply_writes ws (repeat None n)) = Done l /\ length l = n /\
            forall j, j < n -> nth_error l j = last_write j ws.
Proof. exact @writes_cover_all. Qed.
(* every slot exactly once in any order (vrank's order): slot j = THE value stored at j *)
Theorem C07_stores_permutation : forall (O : Type) (ws : list (nat * O)) (n : nat),
  Permutation (map fst ws) (seq 0 n) ->
  exists l, finish (apply_writes ws (repeat None n)) = Done l /\ length l = n /\
            forall j v, In (j, v) ws -> nth_error l j = Some v.
Proof. exact @writes_permutation. Qed.
(* what must NOT happen: a slot never stored keeps the buffer from being exposed as initialised *)
Theorem C07_missing_store_detected : forall (O : Type) (ws : list (nat * O)) (n j : nat),
  j < n -> ~ In j (map fst ws) ->
  finish (apply_writes ws (repeat None n)) = Uninit (apply_writes ws (repeat None n)).
Proof. exact @missing_slot_uninit. Qed.
(* the collected sequence read back from a fresh VecDeque / Array1 / Arc / single chunk is the sequence *)
Theorem C07_output_container_irrelevant : forall (A : Type) (l : list A) (lo : list (option A)),
  ring_to_list (ring_of_list l) = l /\ strided_to_list (strided_of_list l) = l /\ arc_to_list l = l
  /\ chunked_to_list [lo] = lo.
Proof.
  intros A l lo. split; [apply ring_of_list_spec|]. split; [apply strided_of_list_spec|]. split; [reflexivity|].
  apply chunked_single.
Qed.
Theorem C07_fresh_containers_well_formed : forall (A : Type) (l : list A),
  ring_wf0 (ring_of_list l) /\ ring_try_as_slice (ring_of_list l) = Some l /\
  strided_wf (strided_of_list l) /\ strided_try_as_slice (strided_of_list l) = Some l.
Proof.
  intros A l. destruct (ring_of_list_spec l) as (H1 & _ & H2). destruct (strided_of_list_spec l) as (H3 & _ & H4).
  split; [exact H1|]. split; [exact H2|]. split; [exact H3|exact H4].
Qed.
(* the lazy (iterator) forms: collected by a trusted-length collector, or written through write_trust_iter into a
   caller buffer of the series' length - the sequence the iterator yields, every slot once, in order *)
Theorem C07_lazy_collected_and_written : forall (O : Type) (items : list O),
  collect_trusted (length items) items = Done items /\
  (let r := write_trust_iter (length items) (exact_iter items) in
   fst r = WOk /\ map fst (snd r) = seq 0 (length items)
   /\ finish (apply_writes (snd r) (repeat None (length items))) = Done items).
Proof. exact @lazy_collected_and_written. Qed.

(* ---- returned path = caller-buffer path: hypothesis `1 <= w` of C07_out_path / C07_total DROPPED ------------------------ *)
Theorem C07_out_path_any_window :
  forall (T St O : Type) (F : feat T St O) (w : nat) (xs : list T), ts_run F true w xs = ts_run F false w xs.
Proof. intros T St O F w xs. apply (rolling_apply_bodies_agree_total (f_pre F) (f_emit F) (f_post F)). Qed.
Theorem C07_outcome_any_window :
  forall (T St O : Type) (F : feat T St O) (w : nat) (xs : list T) (body : bool),
    if bad_window w xs then ts_run F body w xs = Panicked AssertFail
    else exists out, ts_run F body w xs = Done out /\ length out = length xs.
Proof.
  intros T St O F w xs body. unfold ts_run.
  destruct body; [rewrite rolling_apply_to_total|rewrite rolling_apply_default_total];
    (destruct (bad_window w xs); [reflexivity|]); eexists; (split; [reflexivity|]); rewrite run_length; apply mapi_length.
Qed.
Theorem C07_paths_reject_alike :
  forall (T St O : Type) (w : nat) (f : St -> option T * T -> St * O) (g : St -> option nat * nat * T -> St * O)
         (s0 : St) (xs : list T),
    (rolling_apply_to w f s0 xs = Panicked AssertFail <-> bad_window w xs = true) /\
    (rolling_apply_default w f s0 xs = Panicked AssertFail <-> bad_window w xs = true) /\
    (rolling_apply_idx_to w g s0 xs = Panicked AssertFail <-> bad_window w xs = true) /\
    (rolling_apply_idx_default w g s0 xs = Panicked AssertFail <-> bad_window w xs = true).
Proof.
  intros T St O w f g s0 xs.
  rewrite rolling_apply_to_total, rolling_apply_default_total, rolling_apply_idx_to_total, rolling_apply_idx_default_total.
  destruct (bad_window w xs); repeat split; intros H; try reflexivity; discriminate.
Qed.
(* the slice form is the exception: at window 0 the returned (lazy) path and the caller-buffer path DIFFER on every
   series - `window - 1` underflows before the assertion is reached; on the EMPTY series the buffer path returns the
   empty result while the lazy path panics (debug build).  The clause "whether the result is returned or written into a
   caller-supplied buffer" therefore holds for the slice form for window >= 1 only (C07_out_path_custom)              *)
Theorem C07_out_path_custom_window0_refuted :
  forall (T St O : Type) (f : St -> list T -> St * O) (s0 : St) (xs : list T),
    rolling_custom_default 0 f s0 xs = Panicked Underflow /\
    rolling_custom_to 0 f s0 xs = (if length xs =? 0 then Done [] else Panicked AssertFail) /\
    rolling_custom_to 0 f s0 xs <> rolling_custom_default 0 f s0 xs.
Proof.
  intros T St O f s0 xs. rewrite rolling_custom_default_total, rolling_custom_to_total. cbn [Nat.eqb].
  destruct xs as [|x xs]; cbn; repeat split; discriminate.
Qed.

(* ---- non-vacuity of the theorems of this part ------------------------------------------------------------------------ *)
Example C07_audit_example_ring :
  let r := {| rbuf := [3; 4; 1; 2]; rhead := 2; rlen := 4 |} in
  ring_wf0 r /\ ring_slices r = ([1; 2], [3; 4]) /\ ring_iter r = [1; 2; 3; 4] /\ ring_range r 1 3 = [2; 3]
  /\ rcap r < rhead r + rlen r /\ ring_try_as_slice r = None
  /\ (let r2 := {| rbuf := [0; 1; 2; 3]; rhead := 1; rlen := 3 |} in
      ring_wf0 r2 /\ rhead r2 + rlen r2 <= rcap r2 /\ ring_try_as_slice r2 = Some [1; 2; 3]).
Proof. cbv zeta. unfold ring_wf0, rcap. cbn. repeat split; lia. Qed.

Example C07_audit_example_strided :
  let s := {| sbase := [0; 1; 2; 3; 4; 5; 6]; soff := 1; sstep := 2%Z; slen := 3 |} in
  strided_wf s /\ strided_to_list s = [1; 3; 5]
  /\ strided_to_list (strided_slice s 1 3) = [3; 5] /\ 1 <= 3 /\ 3 <= slen s
  /\ strided_to_list (strided_rev s) = [5; 3; 1] /\ sstep (strided_rev s) = (-2)%Z /\ 1 <= slen s
  /\ strided_to_list (strided_step s 2) = [1; 5] /\ 1 <= 2
  /\ strided_try_as_slice s = None /\ sstep s <> 1%Z /\ 2 <= slen s
  /\ (let o := strided_of_list [7; 8] in (sstep o = 1%Z \/ slen o <= 1) /\ strided_try_as_slice o = Some [7; 8]).
Proof.
  cbv zeta. split.
  { intros i Hi. unfold spos. cbn [soff sstep sbase slen length] in *. lia. }
  cbn. repeat split; try lia; try discriminate.
Qed.

Example C07_audit_example_chunked :
  let c := [[Some 1; None]; []; [Some 3; Some 4]] in
  chunked_slice_chunks c 1 4 = [[None]; []; [Some 3; Some 4]] /\ chunked_slice c 1 4 = [None; Some 3; Some 4]
  /\ rev (chunked_to_list c) = [Some 4; Some 3; None; Some 1]
  /\ optview_to_list (fun x : nat => if x =? 0 then None else Some x) [5; 0; 7] = [Some 5; None; Some 7].
Proof. repeat split. Qed.

Example C07_audit_example_views_agree :
  let r := {| rbuf := [3; 4; 1; 2]; rhead := 2; rlen := 4 |} in
  let s := {| sbase := [4; 3; 2; 1]; soff := 3; sstep := (-1)%Z; slen := 4 |} in
  ring_wf0 r /\ rlen r = slen s /\ (forall i, i < rlen r -> ring_get r i = strided_get s i)
  /\ ring_to_list r = [1; 2; 3; 4] /\ strided_to_list s = [1; 2; 3; 4].
Proof.
  cbv zeta. split; [unfold ring_wf0, rcap; cbn; lia|]. split; [reflexivity|]. split; [|split; reflexivity].
  intros i Hi. cbn in Hi. do 4 (destruct i as [|i]; [reflexivity|]). lia.
Qed.

Example C07_audit_example_stores :
  let ws := [(2, 30); (0, 10); (1, 20)] in
  Permutation (map fst ws) (seq 0 3) /\ finish (apply_writes ws (repeat None 3)) = Done [10; 20; 30]
  /\ finish (apply_writes [(2, 30); (0, 10); (2, 31)] (repeat None 3)) = Uninit [Some 10; None; Some 31]
  /\ ~ In 1 (map fst [(2, 30); (0, 10); (2, 31)]) /\ last_write 2 [(2, 30); (0, 10); (2, 31)] = Some 31.
Proof.
  cbv zeta. split.
  { cbn. change [0; 1; 2] with ([0; 1] ++ [2]). apply Permutation_cons_app. cbn. apply Permutation_refl. }
  cbn. repeat split. intros [H|[H|[H|[]]]]; discriminate.
Qed.

Example C07_audit_example_window0 :
  bad_window 0 [1; 2] = true /\ bad_window 0 (@nil nat) = false /\ bad_window 3 [1; 2] = false
  /\ rolling_custom_to 0 (fun (s : unit) (l : list nat) => (s, l)) tt (@nil nat) = Done []
  /\ rolling_custom_default 0 (fun (s : unit) (l : list nat) => (s, l)) tt (@nil nat) = Panicked Underflow.
Proof. repeat split. Qed.

Print Assumptions C07_ring_length.
Print Assumptions C07_ring_get.
Print Assumptions C07_ring_try_as_slice.
Print Assumptions C07_strided_length.
Print Assumptions C07_strided_get.
Print Assumptions C07_strided_try_as_slice.
Print Assumptions C07_chunked_get.
Print Assumptions C07_chunked_len.
Print Assumptions C07_chunking_irrelevant.
Print Assumptions C07_checked_get.
Print Assumptions C07_out_path.
Print Assumptions C07_total.
Print Assumptions C07_out_path_custom.
Print Assumptions C07_polars_stage_refines.
Print Assumptions C07_polars_stage_total.
Print Assumptions C07_polars_stage_slot.
Print Assumptions C07_polars_out_any_window.
Print Assumptions C07_polars_out_rolling_apply.
Print Assumptions C07_polars_out_rolling_apply_idx.
Print Assumptions C07_polars_out_rolling_custom.
Print Assumptions C07_polars_out_rolling2_apply.
Print Assumptions C07_polars_out_rolling2_apply_idx.
Print Assumptions C07_polars_out_feature.
Print Assumptions C07_polars_collect.
Print Assumptions C07_vec_set.
Print Assumptions C07_ring_uset.
Print Assumptions C07_ring_get_mut.
Print Assumptions C07_ring_uset_wf.
Print Assumptions C07_ring_uset_layout.
Print Assumptions C07_ring_get_after_set.
Print Assumptions C07_ring_slice_mut_offered.
Print Assumptions C07_ring_slice_mut_is_set.
Print Assumptions C07_ring_slice_mut.
Print Assumptions C07_ring_slice_after_set.
Print Assumptions C07_strided_uset.
Print Assumptions C07_strided_get_mut.
Print Assumptions C07_strided_uset_wf.
Print Assumptions C07_strided_get_after_set.
Print Assumptions C07_strided_slice_mut_offered.
Print Assumptions C07_strided_slice_mut_is_set.
Print Assumptions C07_strided_slice_mut.
Print Assumptions C07_strided_reversed_no_slice_mut.
Print Assumptions C07_memory_order_mut_refuted.
Print Assumptions C07_update_nth.
Print Assumptions C07_update_length.
Print Assumptions C07_update_same.
Print Assumptions C07_update_twice.
Print Assumptions C07_update_comm.
Print Assumptions C07_vget.
Print Assumptions C07_uvget.
Print Assumptions C07_ring_vget.
Print Assumptions C07_strided_vget.
Print Assumptions C07_chunked_vget.
Print Assumptions C07_to_opt_iter.
Print Assumptions C07_iter_cast.
Print Assumptions C07_opt_iter_cast.
Print Assumptions C07_elementwise_lengths.
Print Assumptions C07_vget_after_set.
Print Assumptions C07_ring_wf_weakened.
Print Assumptions C07_ring_unallocated.
Print Assumptions C07_ring_length_any.
Print Assumptions C07_ring_get_any.
Print Assumptions C07_ring_try_as_slice_any.
Print Assumptions C07_ring_checked_get.
Print Assumptions C07_ring_titer.
Print Assumptions C07_ring_as_slices_lengths.
Print Assumptions C07_ring_rev_titer.
Print Assumptions C07_ring_try_as_slice_offered_iff.
Print Assumptions C07_ring_try_as_slice_complete.
Print Assumptions C07_ring_slice.
Print Assumptions C07_ring_slice_length.
Print Assumptions C07_ring_slice_all.
Print Assumptions C07_strided_slice.
Print Assumptions C07_strided_slice_get.
Print Assumptions C07_strided_reversed_view.
Print Assumptions C07_strided_reversed_twice.
Print Assumptions C07_strided_rev_titer.
Print Assumptions C07_strided_stepped_view.
Print Assumptions C07_strided_step_one.
Print Assumptions C07_strided_try_as_slice_offered_iff.
Print Assumptions C07_strided_try_as_slice_complete.
Print Assumptions C07_strided_checked_get.
Print Assumptions C07_chunked_slice.
Print Assumptions C07_chunked_slice_chunks.
Print Assumptions C07_chunked_rev_titer.
Print Assumptions C07_chunked_checked_get.
Print Assumptions C07_chunked_empty_chunk.
Print Assumptions C07_arc_transparent.
Print Assumptions C07_optview_accessors.
Print Assumptions C07_optview_is_vget.
Print Assumptions C07_optview_of_backends.
Print Assumptions C07_optview_of_chunked.
Print Assumptions C07_rev_nth.
Print Assumptions C07_slice_of_slice.
Print Assumptions C07_slice_of_reversed.
Print Assumptions C07_slice_length_any.
Print Assumptions C07_view_seq_backends.
Print Assumptions C07_view_determined_by_len_and_uget.
Print Assumptions C07_backend_irrelevant_ring_strided.
Print Assumptions C07_backend_irrelevant_ring_chunked.
Print Assumptions C07_backend_irrelevant_strided_chunked.
Print Assumptions C07_uset_slot.
Print Assumptions C07_uset_length.
Print Assumptions C07_uset_commutes.
Print Assumptions C07_uninit_exposes_nothing.
Print Assumptions C07_assume_init_exactly_when_all_written.
Print Assumptions C07_stores_any_order.
Print Assumptions C07_stores_permutation.
Print Assumptions C07_missing_store_detected.
Print Assumptions C07_output_container_irrelevant.
Print Assumptions C07_fresh_containers_well_formed.
Print Assumptions C07_lazy_collected_and_written.
Print Assumptions C07_out_path_any_window.
Print Assumptions C07_outcome_any_window.
Print Assumptions C07_paths_reject_alike.
Print Assumptions C07_out_path_custom_window0_refuted.

(* ==== the chunked model at an ARBITRARY element type (the hand-written Polars string impl
   `Vec1View<Option<&str>> for &ChunkedArray<StringType>`, polars.rs:174-225, is observed by harness-pl c07pl.rs
   `observe_str`, case tag `pl_str`, against `run_chunked`).  Every C07_chunked_* statement above (C07_chunked_get, _len,
   C07_chunking_irrelevant, C07_chunked_collect.., _vget, _slice, _slice_chunks, _rev_titer, _checked_get, _empty_chunk,
   C07_optview_of_chunked, C07_view_seq_backends, C07_backend_irrelevant_*_chunked) is quantified `forall (A : Type)`:
   they hold for strings as they stand.  Only the INTERPRETER is instantiated at `float`
   (`run_chunked : chunked float -> list Z`), because the harness renders each string (a decimal numeral) as the
   float it denotes.  The two theorems below justify that rendering for every element type (Proofs/LooseEnds.v). ========== *)
From Coq Require Import Floats.
From Tevec Require Import Proofs.LooseEnds.
From Tevec Require Run.Codec Run.RunC07.

(* the accessors are natural in the element: rendering the elements (f) and then accessing = accessing and then rendering -
   length, get (None past the end included), the flattened sequence, slices as sequences and as chunk layouts *)
Theorem C07_chunked_accessors_natural_any_element :
  forall (A B : Type) (f : A -> B) (c : chunked A),
    chunked_to_list (chunked_map f c) = map (option_map f) (chunked_to_list c)
    /\ chunked_len (chunked_map f c) = chunked_len c
    /\ (forall i, chunked_get (chunked_map f c) i = option_map (option_map f) (chunked_get c i))
    /\ (forall a b, chunked_slice (chunked_map f c) a b = map (option_map f) (chunked_slice c a b))
    /\ (forall a b, chunked_slice_chunks (chunked_map f c) a b = chunked_map f (chunked_slice_chunks c a b)).
Proof.
  intros A B f c. split; [apply chunked_map_to_list|]. split; [apply chunked_map_len|].
  split; [intros i; apply chunked_map_get|]. split; [intros a b; apply chunked_map_slice|].
  intros a b. apply chunked_map_slice_chunks.
Qed.

(* what the correspondence run computes for an array whose elements were rendered as floats by `enc` (strings: the numeral's
   value) IS the observation of the array itself - len, get 0..=len, titer, reversed, every slice - with the cell encoder
   `c_float o enc`, for EVERY element type and EVERY rendering *)
Theorem C07_chunked_observation_any_element :
  forall (A : Type) (enc : A -> float) (c : chunked A),
    Run.RunC07.run_chunked (chunked_map enc c)
    = Run.RunC07.observe (Run.Codec.c_opt (fun x => Run.Codec.c_float (enc x))) (chunked_to_list c) None.
Proof. exact @run_chunked_rendered. Qed.

(* non-vacuity: an array of three chunks (one empty, nulls) over a two-letter element type rendered as floats *)
Example C07_chunked_any_element_example :
  let enc := fun b : bool => if b then 1%float else 2%float in
  let c := [[Some true; None]; []; [Some false; Some true]] in
  chunked_map enc c = [[Some 1%float; None]; []; [Some 2%float; Some 1%float]]
  /\ chunked_get (chunked_map enc c) 2 = Some (Some 2%float) /\ chunked_get c 2 = Some (Some false)
  /\ chunked_get (chunked_map enc c) 4 = None
  /\ chunked_slice_chunks (chunked_map enc c) 1 3 = [[None]; []; [Some 2%float]]
  /\ chunked_slice_chunks c 1 3 = [[None]; []; [Some false]].
Proof. vm_compute. repeat split. Qed.

Print Assumptions C07_chunked_accessors_natural_any_element.
Print Assumptions C07_chunked_observation_any_element.
