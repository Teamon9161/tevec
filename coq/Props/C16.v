(* Props/C16.v — property C16: NaT is absorbing; unit changes agree with the calendar.
   Statements about the model (Model/Time.v, Model/TimeAccess.v); Print Assumptions at the end. *)
From Coq Require Import ZArith List Bool Lia.
From Tevec Require Import Base.Prelude Spec.Calendar Model.Time Proofs.Time Proofs.Calendar Model.TimeAccess Proofs.TimeAccess.
From Tevec Require Import Proofs.Audit17 Proofs.TimeCal2 Proofs.Time3 Proofs.Audit16.
Local Open Scope Z_scope.

(* ---- (1) NaT is preserved by every conversion ------------------------------------------------ *)
Theorem C16_nat_conv_unit : forall u t : tunit, into_unit u t NaT = Ok NaT.
Proof. exact into_unit_nat. Qed.

Theorem C16_nat_conv_opt_i64 :
  into_opt_i64 NaT = None /\ (forall x, x <> NaT -> into_opt_i64 x = Some x)
  /\ (forall x, from_opt_i64 (into_opt_i64 x) = x) /\ from_opt_i64 None = NaT.
Proof.
  repeat split; [|exact from_into_opt_i64].
  intros x H. unfold into_opt_i64. rewrite (proj2 (is_nat_false x) H). reflexivity.
Qed.

Theorem C16_nat_conv_calendar :
  forall u, as_cr u NaT = None /\ forall f, dt_field f u NaT = None.
Proof. intros u; split; [apply as_cr_nat | intros f; unfold dt_field; rewrite as_cr_nat; reflexivity]. Qed.

(* ---- (2) NaT is absorbed by every operator of impl_ops.rs ----------------------------------------- *)
Theorem C16_nat_ops_datetime :
  forall u x d b,
    dt_add u NaT d = Ok NaT /\ dt_sub u NaT d = Ok NaT
    /\ (td_is_nat d = true -> dt_add u x d = Ok NaT /\ dt_sub u x d = Ok NaT)
    /\ dt_diff u NaT b = Ok td_nat /\ dt_diff u x NaT = Ok td_nat
    /\ dt_trunc u NaT d = Ok NaT.
Proof.
  intros u x d b. split; [reflexivity|]. split; [reflexivity|]. split.
  - intros H. rewrite dt_add_closed_form, dt_sub_closed_form, H, !orb_true_r. split; reflexivity.
  - split; [reflexivity|]. split; [|reflexivity].
    rewrite dt_diff_closed_form. change (is_nat NaT) with true. rewrite orb_true_r. reflexivity.
Qed.

Theorem C16_nat_ops_timedelta :
  forall a b k, td_is_nat a = true ->
    td_is_nat (td_neg a) = true
    /\ td_add a b = Ok td_nat /\ td_add b a = Ok td_nat
    /\ td_sub a b = Ok td_nat /\ td_sub b a = Ok td_nat
    /\ td_mul a k = Ok td_nat.
Proof.
  intros a b k H. destruct (td_ops_nat_total a b k (or_introl H)) as (A1 & S1 & M).
  destruct (td_ops_nat_total b a k (or_intror H)) as (A2 & S2 & _).
  rewrite td_neg_total, H. repeat split; auto.
Qed.

Theorem C16_nat_ops_time :
  forall t d,
    time_add NaT d = Ok NaT /\ time_sub NaT d = Ok NaT
    /\ (td_is_nat d = true -> time_add t d = Ok NaT /\ time_sub t d = Ok NaT).
Proof.
  intros t d. split; [reflexivity|]. split; [reflexivity|]. intros H.
  rewrite time_add_total, time_sub_total, H, !orb_true_r. split; reflexivity.
Qed.

(* ---- (3) coarsening = the same instant truncated toward the past (Euclidean floor, also x < 0) ------ *)
Theorem C16_coarsen_floor :
  forall u t x y, finer t u = true -> x <> NaT -> into_unit u t x = Ok y ->
    y = x / ratio t u /\ y * ratio t u <= x < (y + 1) * ratio t u.
Proof.
  intros u t x y Hf Hx H. rewrite into_unit_coarsen in H by assumption. injection H as <-.
  pose proof (ratio_pos _ _ Hf) as Hr. split; [reflexivity|].
  pose proof (Z.mul_div_le x (ratio t u) ltac:(lia)). pose proof (Z.mul_succ_div_gt x (ratio t u) ltac:(lia)). lia.
Qed.

Theorem C16_coarsen_instant :
  forall u t x y, finer t u = true -> x <> NaT -> into_unit u t x = Ok y ->
    instant_ns t y = unit_ns t * (instant_ns u x / unit_ns t).
Proof.
  intros u t x y Hf Hx H. rewrite into_unit_coarsen in H by assumption. injection H as <-.
  unfold instant_ns. rewrite (ratio_unit_ns _ _ Hf).
  pose proof (unit_ns_pos u). pose proof (ratio_pos _ _ Hf).
  rewrite Z.div_mul_cancel_r by lia. lia.
Qed.

Theorem C16_coarsen_total : forall u t x, finer t u = true -> x <> NaT -> into_unit u t x = Ok (x / ratio t u).
Proof. exact into_unit_coarsen. Qed.

(* ... exactly as the calendar library does: DateTime<u> -> chrono -> DateTime<t> is the same value *)
Theorem C16_coarsen_as_chrono :
  forall u t x c, finer t u = true -> as_cr u x = Some c -> from_cr t c = into_unit u t x.
Proof.
  intros u t x c Hf Hc. destruct (as_cr_total _ _ _ Hc) as [-> Hx].
  rewrite into_unit_coarsen, from_cr_of_total, (finer_not_nano _ _ Hf) by assumption. cbn [andb].
  pose proof (unit_ns_pos u). pose proof (ratio_pos _ _ Hf).
  rewrite (ratio_unit_ns _ _ Hf), Z.div_mul_cancel_r by lia. reflexivity.
Qed.

(* ---- (4) refining denotes the same instant, and refining then coarsening back is the identity ------- *)
Theorem C16_refine_back :
  forall u t x y, finer u t = true -> x <> NaT -> into_unit u t x = Ok y -> into_unit t u y = Ok x.
Proof.
  intros u t x y Hf Hx H. rewrite into_unit_refine in H by assumption. apply chk64_inv in H. destruct H as [-> _].
  pose proof (ratio_pos _ _ Hf).
  assert (Hy : x * ratio u t <> NaT).
  { unfold NaT, i64_min. destruct (ratio_cases _ _ Hf) as [R|[R|R]]; rewrite R; lia. }
  rewrite (into_unit_coarsen _ _ _ Hf Hy), Z.div_mul by lia. reflexivity.
Qed.

Theorem C16_refine_same_instant :
  forall u t x y, finer u t = true -> x <> NaT -> into_unit u t x = Ok y -> instant_ns t y = instant_ns u x.
Proof.
  intros u t x y Hf Hx H. rewrite into_unit_refine in H by assumption. apply chk64_inv in H. destruct H as [-> _].
  unfold instant_ns. rewrite (ratio_unit_ns _ _ Hf). lia.
Qed.

Theorem C16_refine_defined :
  forall u t x, finer u t = true -> x <> NaT -> in_i64 (x * ratio u t) = true ->
    into_unit u t x = Ok (x * ratio u t).
Proof. intros u t x Hf Hx Hr. rewrite into_unit_refine by assumption. apply chk64_ok. exact Hr. Qed.

Theorem C16_same_unit : forall u x, into_unit u u x = Ok x.
Proof. exact into_unit_same. Qed.

(* ---- (5) to the calendar type and back, within the representable range ------------------------------- *)
Theorem C16_cr_roundtrip :
  forall u x c, in_i64 x = true -> as_cr u x = Some c -> from_cr u c = Ok x.
Proof. exact as_cr_from_cr. Qed.

Theorem C16_cr_roundtrip_from :
  forall u c x, cr_wf c -> cr_nanos c mod unit_ns u = 0 -> date_in_range (cr_day c) = true ->
    from_cr u c = Ok x -> x <> NaT -> as_cr u x = Some c.
Proof. exact from_cr_as_cr. Qed.

(* the conversion from the calendar type never panics; at nanosecond resolution an instant outside the
   i64 range is NaT (repo commit 3cb9707), every representable instant is its timestamp *)
Theorem C16_from_cr_total : forall u c, exists x, from_cr u c = Ok x.
Proof. exact from_cr_total. Qed.
Theorem C16_from_cr_nano :
  forall c, from_cr Nano c = Ok (if in_i64 (cr_total_ns c) then cr_total_ns c else NaT).
Proof. reflexivity. Qed.

(* as_cr is defined on every nanosecond timestamp and exactly on chrono's date range otherwise *)
Theorem C16_as_cr_defined :
  forall u x, x <> NaT -> date_in_range (x * unit_ns u / 1000000000 / SECS_PER_DAY) = true ->
    as_cr u x = Some (cr_of_total_ns (instant_ns u x)).
Proof. exact as_cr_of_total. Qed.

(* ---- (6) the executable calendar the fields are compared with is a bijection days <-> civil dates ---- *)
Theorem C16_calendar_days_civil_days : forall z, days_of_civil (civil_of_days z) = z.
Proof. exact days_civil_days. Qed.

Theorem C16_calendar_civil_days_civil : forall c, valid_civil c -> civil_of_days (days_of_civil c) = c.
Proof. exact civil_days_civil. Qed.

Theorem C16_calendar_lawful : CalendarLaws civil_of_days days_of_civil.
Proof. exact calendar_lawful. Qed.

(* ---- non-vacuity ------------------------------------------------------------------------------------- *)
Example C16_ex_coarsen_pre_epoch :
  into_unit Nano Micro (-1) = Ok (-1) /\ into_unit Nano Sec (-1500000000) = Ok (-2)
  /\ into_unit Micro Sec 1999999 = Ok 1.
Proof. vm_compute. auto. Qed.
Example C16_ex_refine_back :
  into_unit Sec Nano (-7) = Ok (-7000000000) /\ into_unit Nano Sec (-7000000000) = Ok (-7)
  /\ into_unit Sec Nano 10000000000 = Panic Overflow.
Proof. vm_compute. auto. Qed.
Example C16_ex_cr :
  as_cr Milli (-1) = Some (mkcr (-1) 999000000) /\ from_cr Milli (mkcr (-1) 999000000) = Ok (-1)
  /\ cr_civil (mkcr (-1) 999000000) = (1969, 12, 31) /\ as_cr Sec i64_max = None.
Proof. vm_compute. auto. Qed.
Example C16_ex_from_cr_out_of_range :
  (* 1600-01-01 is a valid chrono instant but not an i64 nanosecond timestamp *)
  from_cr Nano (mkcr (-11676096000) 0) = Ok NaT /\ from_cr Micro (mkcr (-11676096000) 0) = Ok (-11676096000000000).
Proof. vm_compute. auto. Qed.
Example C16_ex_calendar : civil_of_days 11016 = (2000, 2, 29) /\ days_of_civil (1900, 3, 1) = -25508.
Proof. vm_compute. auto. Qed.

(* ---- (7) is_not_nat, the Option<i64> view both ways, the TryFrom impl called directly, to_cr ---------------- *)
Theorem C16_is_not_nat :
  (forall x, is_not_nat x = negb (is_nat x)) /\ (forall x, is_not_nat x = true <-> x <> NaT)
  /\ (forall x, is_not_nat x = true <-> into_opt_i64 x = Some x) /\ is_not_nat NaT = false.
Proof.
  split; [reflexivity|]. split; [|split; [|reflexivity]].
  - intros x. unfold is_not_nat, NaT. rewrite negb_true_iff. apply Z.eqb_neq.
  - intros x. unfold is_not_nat, into_opt_i64, is_nat, NaT. destruct (x =? i64_min); cbn; split; congruence.
Qed.

Theorem C16_is_not_nat_timedelta :
  (forall d, td_is_not_nat d = negb (td_is_nat d)) /\ (forall v, td_is_not_nat (td_from_i64 v) = is_not_nat v).
Proof.
  split; [reflexivity|]. intros v. unfold td_from_i64, td_is_not_nat, is_not_nat. destruct (v =? i64_min); reflexivity.
Qed.

Theorem C16_opt_i64_roundtrip :
  (forall x, from_opt_i64 (into_opt_i64 x) = x)
  /\ (forall o, o <> Some NaT -> into_opt_i64 (from_opt_i64 o) = o)
  /\ into_opt_i64 (from_opt_i64 (Some NaT)) = None.
Proof.
  split; [exact from_into_opt_i64|]. split; [|reflexivity].
  intros [v|] H; [|reflexivity]. unfold from_opt_i64, into_opt_i64.
  rewrite (proj2 (is_nat_false v)); [reflexivity|congruence].
Qed.

(* the TryFrom<DateTime<U>> impls agree with as_cr on every timestamp of every unit — NaT included — so a NaT
   never reaches the calendar type by any route *)
Theorem C16_try_from_is_as_cr : forall u x, try_from_cr u x = as_cr u x.
Proof. exact try_from_cr_as_cr. Qed.

Theorem C16_try_from_nat : forall u, try_from_cr u NaT = None.
Proof. intros u. rewrite try_from_cr_as_cr. apply as_cr_nat. Qed.

Theorem C16_try_from_roundtrip :
  forall u x c, in_i64 x = true -> try_from_cr u x = Some c -> from_cr u c = Ok x.
Proof. intros u x c. rewrite try_from_cr_as_cr. apply as_cr_from_cr. Qed.

Theorem C16_try_from_valid_only : forall u x c, try_from_cr u x = Some c -> x <> NaT.
Proof. intros u x c H. rewrite try_from_cr_as_cr in H. apply (as_cr_total _ _ _ H). Qed.

Theorem C16_to_cr : forall u x, to_cr u x = as_cr u x.
Proof. reflexivity. Qed.

Example C16_ex_try_from :
  in_i64 (-1) = true /\ try_from_cr Nano (-1) = Some (mkcr (-1) 999999999) /\ from_cr Nano (mkcr (-1) 999999999) = Ok (-1)
  /\ is_not_nat (-1) = true /\ Some 5 <> Some NaT /\ into_opt_i64 (from_opt_i64 (Some 5)) = Some 5.
Proof. repeat split; discriminate. Qed.

(* ==== clause by clause (table: notes/C16.md "Audit matrix"; the closed form of into_unit is in Proofs/Audit16.v) ==== *)
(* ---- (8) all 4 x 4 unit pairs as one closed form; the rejected inputs exactly ------------------------------------ *)
Theorem C16_unit_pairs_trichotomy :
  forall u t, (u = t /\ finer u t = false /\ finer t u = false)
           \/ (u <> t /\ finer u t = true /\ finer t u = false)
           \/ (u <> t /\ finer u t = false /\ finer t u = true).
Proof. exact unit_trichotomy. Qed.

(* no `finer` hypothesis: identity on the diagonal, NaT kept, checked multiplication by the ratio when refining, floor
   division by the ratio when coarsening — for each of the 16 pairs and every i64 *)
Theorem C16_into_unit_closed_form : forall u t x, into_unit u t x = conv_spec u t x.
Proof. exact into_unit_closed_form. Qed.

Theorem C16_into_unit_panics_iff :
  forall u t x k, into_unit u t x = Panic k <->
    (k = Overflow /\ finer u t = true /\ x <> NaT /\ in_i64 (x * ratio u t) = false).
Proof. exact into_unit_panics_iff. Qed.

Theorem C16_into_unit_never_unimplemented : forall u t x, into_unit u t x <> Panic OtherPanic.
Proof. intros u t x H. apply into_unit_panics_iff in H. destruct H as [H _]. discriminate H. Qed.

Theorem C16_into_unit_returns_iff :
  forall u t x, (exists y, into_unit u t x = Ok y) <->
    (finer u t = true -> x <> NaT -> in_i64 (x * ratio u t) = true).
Proof.
  intros u t x. split.
  - intros [y Hy] Hf Hx. destruct (in_i64 (x * ratio u t)) eqn:Ei; [reflexivity|].
    rewrite (proj2 (into_unit_panics_iff u t x Overflow)) in Hy by auto. discriminate Hy.
  - intros H. destruct (into_unit u t x) as [y|k] eqn:E; [eauto|].
    apply into_unit_panics_iff in E. destruct E as (_ & Hf & Hx & Hi). rewrite (H Hf Hx) in Hi. discriminate Hi.
Qed.

(* ---- (9) what a unit change must NOT do --------------------------------------------------------------------------- *)
Theorem C16_valid_stays_valid : forall u t x, in_i64 x = true -> (into_unit u t x = Ok NaT <-> x = NaT).
Proof. exact into_unit_nat_iff. Qed.

Theorem C16_conversion_monotone :
  forall u t x x' y y', x <> NaT -> x' <> NaT -> x <= x' -> into_unit u t x = Ok y -> into_unit u t x' = Ok y' ->
    y <= y' /\ (finer u t = true -> x < x' -> y < y').
Proof.
  intros u t x x' y y' Hx Hx' Hle. rewrite !into_unit_closed_form. unfold conv_spec.
  apply is_nat_false in Hx. apply is_nat_false in Hx'. rewrite Hx, Hx'.
  destruct (unit_eqb u t) eqn:Eu.
  - intros [= <-] [= <-]. split; [exact Hle|]. intros Hf. rewrite (finer_neq _ _ Hf) in Eu. discriminate Eu.
  - destruct (finer u t) eqn:Ef.
    + intros H1 H2. apply chk64_inv in H1. apply chk64_inv in H2. destruct H1 as [-> _]. destruct H2 as [-> _].
      pose proof (ratio_pos _ _ Ef). split; [nia|intros _ Hlt; nia].
    + intros [= <-] [= <-]. split; [|discriminate].
      pose proof (ratio_pos _ _ (not_finer_coarser _ _ Eu Ef)). apply Z.div_le_mono; lia.
Qed.

Theorem C16_coarsen_compose :
  forall u t s x, finer t u = true -> finer s t = true -> in_i64 x = true ->
    (do y <- into_unit u t x; into_unit t s y) = into_unit u s x.
Proof.
  intros u t s x H1 H2 Hi. destruct (is_nat x) eqn:En.
  - apply is_nat_true in En. subst x. rewrite !into_unit_nat. cbn [bind]. apply into_unit_nat.
  - apply is_nat_false in En. destruct (finer_trans _ _ _ H2 H1) as [H3 R].
    rewrite (into_unit_coarsen u t x H1 En), (into_unit_coarsen u s x H3 En). cbn [bind].
    rewrite (into_unit_coarsen t s _ H2 (coarsened_not_nat _ _ _ H1 Hi)), R.
    pose proof (ratio_pos _ _ H1). pose proof (ratio_pos _ _ H2).
    rewrite Z.div_div, (Z.mul_comm (ratio s t)) by lia. reflexivity.
Qed.

(* the other order of "to a finer unit and back": coarsen first. NOT the identity *)
Theorem C16_coarsen_refine :
  forall u t x, finer t u = true -> x <> NaT -> in_i64 x = true ->
    into_unit u t x = Ok (x / ratio t u) /\ into_unit t u (x / ratio t u) = chk64 (x - x mod ratio t u).
Proof.
  intros u t x Hf Hx Hi. split; [apply into_unit_coarsen; assumption|].
  pose proof (ratio_pos _ _ Hf).
  rewrite (into_unit_refine _ _ _ Hf (coarsened_not_nat _ _ _ Hf Hi)). f_equal.
  rewrite Z.mod_eq by lia. lia.
Qed.

Theorem C16_coarsen_refine_identity_iff :
  forall u t x, finer t u = true -> x <> NaT -> in_i64 x = true ->
    (into_unit t u (x / ratio t u) = Ok x <-> x mod ratio t u = 0).
Proof.
  intros u t x Hf Hx Hi. destruct (C16_coarsen_refine u t x Hf Hx Hi) as [_ ->]. split.
  - intros H. apply chk64_inv in H. lia.
  - intros ->. rewrite Z.sub_0_r. apply chk64_ok. exact Hi.
Qed.

(* ---- (10) "exactly as the calendar library does" for the REFINING pairs and for all pairs at once ----------------- *)
Theorem C16_refine_as_chrono :
  forall u t x c, finer u t = true -> as_cr u x = Some c ->
    from_cr t c = Ok (if in_i64 (x * ratio u t) then x * ratio u t else NaT)
    /\ (t <> Nano -> in_i64 (x * ratio u t) = true).
Proof.
  intros u t x c Hf Hc. destruct (as_cr_total _ _ _ Hc) as [-> Hx]. pose proof (unit_ns_pos t).
  rewrite from_cr_of_total, (ratio_unit_ns _ _ Hf), Z.mul_assoc, Z.div_mul by lia.
  destruct (unit_eqb t Nano) eqn:Et; cbn [andb].
  - apply unit_eqb_eq in Et. subst t. cbn [unit_ns]. rewrite Z.mul_1_r.
    split; [destruct (in_i64 _); reflexivity|]. intros H'. contradiction H'. reflexivity.
  - (* below ns resolution the product stays an i64: x lies inside chrono's date range *)
    assert (Hi : in_i64 (x * ratio u t) = true).
    { rewrite as_cr_spec, (proj2 (is_nat_false x) Hx), (finer_not_nano _ _ Hf) in Hc. cbn [orb] in Hc.
      destruct (date_in_range _) eqn:E; [|discriminate Hc]. apply date_in_range_iff in E.
      apply in_i64_iff. unfold cr_min_day, cr_max_day, SECS_PER_DAY, i64_min, i64_max in *.
      destruct u, t; try discriminate Hf; try discriminate Et; cbn [per_sec] in E;
        [change (ratio Sec Milli) with 1000|change (ratio Sec Micro) with 1000000|change (ratio Milli Micro) with 1000];
        Z.div_mod_to_equations; lia. }
    rewrite Hi. split; [reflexivity|intros _; reflexivity].
Qed.

Theorem C16_refine_chrono_differs :
  forall u t x c, finer u t = true -> as_cr u x = Some c -> in_i64 (x * ratio u t) = false ->
    t = Nano /\ from_cr t c = Ok NaT /\ into_unit u t x = Panic Overflow.
Proof.
  intros u t x c Hf Hc Hi. destruct (C16_refine_as_chrono u t x c Hf Hc) as [E Hn]. rewrite Hi in E. repeat split.
  - destruct t; try reflexivity; (rewrite Hn in Hi by discriminate; discriminate Hi).
  - exact E.
  - apply into_unit_panics_iff. repeat split; try assumption. apply (as_cr_total _ _ _ Hc).
Qed.

Theorem C16_as_chrono_all_pairs :
  forall u t x c y, as_cr u x = Some c -> in_i64 x = true -> into_unit u t x = Ok y -> from_cr t c = Ok y.
Proof.
  intros u t x c y Hc Hi Hy. destruct (as_cr_total _ _ _ Hc) as [_ Hx].
  destruct (unit_trichotomy u t) as [(-> & _)|[(_ & Hf & _)|(_ & _ & Hf)]].
  - rewrite into_unit_same in Hy. injection Hy as <-. apply as_cr_from_cr; assumption.
  - rewrite into_unit_refine in Hy by assumption. apply chk64_inv in Hy. destruct Hy as [-> Hr].
    destruct (C16_refine_as_chrono u t x c Hf Hc) as [-> _]. rewrite Hr. reflexivity.
  - rewrite (C16_coarsen_as_chrono _ _ _ _ Hf Hc). exact Hy.
Qed.

(* ---- (11) as_cr: None exactly on NaT and outside chrono's date range; the getters reconstruct the instant -------- *)
Theorem C16_as_cr_none_iff :
  forall u x, as_cr u x = None <-> (x = NaT \/ (u <> Nano /\ date_in_range (x / per_sec u / SECS_PER_DAY) = false)).
Proof.
  intros u x. rewrite as_cr_spec. destruct (is_nat x) eqn:En.
  - apply is_nat_true in En. split; auto.
  - apply is_nat_false in En. destruct (unit_eqb u Nano) eqn:Eu; cbn [orb].
    + apply unit_eqb_eq in Eu. split; [discriminate|]. intros [H|[H _]]; contradiction.
    + assert (u <> Nano) by (intros ->; discriminate Eu).
      destruct (date_in_range _); split; try discriminate; auto.
      intros [H'|[_ H']]; [contradiction|discriminate].
Qed.

Theorem C16_as_cr_nano_none_iff : forall x, as_cr Nano x = None <-> x = NaT.
Proof.
  intros x. rewrite C16_as_cr_none_iff. split; [|auto]. intros [H|[H _]]; [exact H|contradiction H; reflexivity].
Qed.

Theorem C16_fields_reconstruct :
  forall u x c, as_cr u x = Some c ->
    exists y m d,
      dt_field cr_year u x = Some y /\ dt_field cr_month u x = Some m /\ dt_field cr_dom u x = Some d
      /\ dt_field cr_hour u x = Some (cr_hour c) /\ dt_field cr_minute u x = Some (cr_minute c)
      /\ dt_field cr_second u x = Some (cr_second c)
      /\ valid_civil (y, m, d)
      /\ 0 <= cr_hour c < 24 /\ 0 <= cr_minute c < 60 /\ 0 <= cr_second c < 60 /\ 0 <= cr_nanos c < 1000000000
      /\ ((days_of_civil (y, m, d) * 86400 + cr_hour c * 3600 + cr_minute c * 60 + cr_second c) * 1000000000
          + cr_nanos c = instant_ns u x).
Proof.
  intros u x c Hc. destruct (cr_civil c) as [[y m] d] eqn:E. exists y, m, d.
  destruct (cr_day_civil _ _ _ _ E) as [Hv Hd].
  destruct (as_cr_instant _ _ _ Hc) as (Hi & Hs & Hn).
  unfold dt_field. rewrite Hc. cbn [option_map]. unfold cr_year, cr_month, cr_dom. rewrite E.
  repeat (split; [reflexivity|]). split; [exact Hv|].
  rewrite Hi, Hd. unfold cr_hour, cr_minute, cr_second. set (sd := cr_sod c) in *. clearbody sd.
  set (D := days_of_civil (y, m, d)). clearbody D. repeat split; try lia; Z.div_mod_to_equations; lia.
Qed.

(* ---- (12) Default, From<NaiveDateTime / Option / NaiveDate / Duration / Option<Duration>>, the Cast views --------- *)
Theorem C16_defaults_and_none :
  dt_default = NaT /\ td_is_nat td_default = true /\ is_nat time_default = false
  /\ (forall u, from_opt_naive u None = Ok NaT) /\ td_is_nat (td_from_opt_dur None) = true
  /\ from_opt_i64 None = NaT /\ time_from_opt_i64 None = NaT /\ td_is_nat (td_from_opt_i64 None) = true.
Proof. repeat split. Qed.

Theorem C16_from_some_is_plain :
  (forall u c, from_opt_naive u (Some c) = from_cr u c) /\ (forall u c, from_naive u c = from_cr u c)
  /\ (forall ns, td_from_opt_dur (Some ns) = mktd 0 ns /\ td_is_nat (td_from_dur ns) = false)
  /\ (forall v, time_from_opt_i64 (Some v) = v) /\ (forall v, from_opt_i64 (Some v) = v).
Proof. repeat split. Qed.

Theorem C16_from_naive_date_value :
  forall u day, from_naive_date u day =
    Ok (if unit_eqb u Nano && negb (in_i64 (day * 86400 * per_sec u)) then NaT else day * 86400 * per_sec u).
Proof.
  intros u day. unfold from_naive_date, from_cr, SECS_PER_DAY. cbn [cr_secs cr_nanos].
  destruct u; cbn [unit_eqb andb per_sec]; f_equal; try (change (0 / 1000000) with 0; lia);
    try (change (0 / 1000) with 0; lia); try lia.
  rewrite Z.add_0_r. destruct (in_i64 (day * 86400 * 1000000000)); reflexivity.
Qed.

Theorem C16_from_naive_date_fields :
  forall u day x, date_in_range day = true -> from_naive_date u day = Ok x -> x <> NaT ->
    as_cr u x = Some (mkcr (day * SECS_PER_DAY) 0)
    /\ (exists y m d, civil_of_days day = (y, m, d)
         /\ dt_field cr_year u x = Some y /\ dt_field cr_month u x = Some m /\ dt_field cr_dom u x = Some d)
    /\ dt_field cr_hour u x = Some 0 /\ dt_field cr_minute u x = Some 0 /\ dt_field cr_second u x = Some 0.
Proof.
  intros u day x Hr Hx Hn.
  assert (Hc : as_cr u x = Some (mkcr (day * SECS_PER_DAY) 0)).
  { apply from_cr_as_cr; [unfold cr_wf; cbn [cr_nanos]; lia | cbn [cr_nanos]; apply Z.mod_0_l; pose proof (unit_ns_pos u); lia
                         | unfold cr_day; cbn [cr_secs]; unfold SECS_PER_DAY; rewrite Z.div_mul by lia; exact Hr
                         | exact Hx | exact Hn]. }
  split; [exact Hc|]. unfold dt_field. rewrite Hc. cbn [option_map].
  unfold cr_year, cr_month, cr_dom, cr_civil, cr_hour, cr_minute, cr_second, cr_sod, cr_day. cbn [cr_secs].
  unfold SECS_PER_DAY. rewrite Z.div_mul, Z.mod_mul by lia.
  destruct (civil_of_days day) as [[y m] d]. split; [exists y, m, d; repeat split|repeat split].
Qed.

Theorem C16_cast_views :
  (forall x, dt_cast_i64 x = x) /\ (forall x, dt_cast_opt_i64 x = into_opt_i64 x) /\ dt_cast_opt_i64 NaT = None
  /\ (forall u t x, dt_cast_unit u t x = into_unit u t x) /\ (forall u t, dt_cast_unit u t NaT = Ok NaT)
  /\ (forall t, time_cast_opt_i64 t = into_opt_i64 t) /\ time_cast_opt_i64 NaT = None.
Proof. repeat split. intros u t. apply into_unit_nat. Qed.

(* ---- (13) NaT operands where the result type has no NaT; the converse of absorption is false ---------------------- *)
Theorem C16_nat_div_panics : forall a b, td_is_nat a = true \/ td_is_nat b = true -> td_div a b = Panic OtherPanic.
Proof. exact td_div_nat. Qed.

Theorem C16_nat_trunc_duration :
  forall u x d, td_is_nat d = true ->
    dt_trunc u x d = if is_nat x then Ok NaT
                     else match as_cr u x with None => Panic UnwrapNone | Some _ => Panic OtherPanic end.
Proof.
  intros u x d Hd. unfold td_is_nat in Hd. apply Z.eqb_eq in Hd. unfold dt_trunc.
  destruct (is_nat x) eqn:En; [apply is_nat_true in En; subst x; reflexivity|].
  destruct (as_cr u x) as [c|]; cbn [unwrap bind]; [|reflexivity]. rewrite Hd. reflexivity.
Qed.

Theorem C16_nat_neg_unchanged : forall d, td_is_nat d = true -> td_neg d = d.
Proof. intros d H. rewrite td_neg_total, H. reflexivity. Qed.

Theorem C16_nat_result_converse_refuted :
  (td_is_nat (mktd (-1) 0) = false /\ td_is_nat (mktd (-2147483647) 0) = false
   /\ td_add (mktd (-1) 0) (mktd (-2147483647) 0) = Ok td_nat)
  /\ (td_is_nat (mktd 2147483647 0) = false /\ td_sub (mktd (-1) 0) (mktd 2147483647 0) = Ok td_nat)
  /\ (td_is_nat (mktd (-1073741824) 0) = false /\ td_mul (mktd (-1073741824) 0) 2 = Ok td_nat)
  /\ (is_nat 0 = false /\ td_is_nat (mktd 0 i64_min) = false /\ time_add 0 (mktd 0 i64_min) = Ok NaT)
  /\ (is_nat i64_max = false /\ td_is_nat (mktd 0 1) = false /\ dt_add Nano i64_max (mktd 0 1) = Ok NaT).
Proof. vm_compute. repeat split. Qed.

(* ---- non-vacuity of (8)-(13) ------------------------------------------------------------------------------------- *)
Example C16_ex_audit_closed_form :
  (* every branch of conv_spec; the panic; the overflow boundary of s -> ns *)
  into_unit Milli Milli (-5) = Ok (-5) /\ into_unit Sec Nano NaT = Ok NaT
  /\ into_unit Sec Nano 9223372036 = Ok 9223372036000000000 /\ into_unit Sec Nano 9223372037 = Panic Overflow
  /\ finer Sec Nano = true /\ 9223372037 <> NaT /\ in_i64 (9223372037 * ratio Sec Nano) = false
  /\ into_unit Nano Milli (-1) = Ok (-1).
Proof. vm_compute. repeat split; discriminate. Qed.

Example C16_ex_audit_not_identity :
  (* coarsen-then-refine clears the sub-unit part; next to i64::MIN it overflows; monotone; composition *)
  finer Sec Milli = true /\ -1500 <> NaT /\ in_i64 (-1500) = true
  /\ into_unit Milli Sec (-1500) = Ok (-2) /\ into_unit Sec Milli (-2) = Ok (-2000) /\ (-1500) mod ratio Sec Milli = 500
  /\ into_unit Milli Sec (i64_min + 1) = Ok (-9223372036854776)
  /\ into_unit Sec Milli (-9223372036854776) = Panic Overflow
  /\ finer Micro Nano = true /\ finer Milli Micro = true
  /\ (do y <- into_unit Nano Micro (-1234567); into_unit Micro Milli y) = Ok (-2)
  /\ into_unit Nano Milli (-1234567) = Ok (-2).
Proof. vm_compute. repeat split; discriminate. Qed.

Example C16_ex_audit_chrono :
  (* s -> ns outside the i64 window: the library route gives NaT, into_unit panics; inside they agree *)
  finer Sec Nano = true /\ as_cr Sec 9223372037 = Some (mkcr 9223372037 0)
  /\ in_i64 (9223372037 * ratio Sec Nano) = false /\ from_cr Nano (mkcr 9223372037 0) = Ok NaT
  /\ as_cr Sec (-7) = Some (mkcr (-7) 0) /\ from_cr Nano (mkcr (-7) 0) = Ok (-7000000000)
  /\ as_cr Sec 8210298412800 = None /\ Sec <> Nano
  /\ date_in_range (8210298412800 / per_sec Sec / SECS_PER_DAY) = false
  /\ as_cr Nano i64_max = Some (mkcr 9223372036 854775807).
Proof. vm_compute. repeat split; discriminate. Qed.

Example C16_ex_audit_fields :
  (* 1969-12-31 23:59:59.999 at ms resolution: the fields rebuild the instant -1 ms *)
  as_cr Milli (-1) = Some (mkcr (-1) 999000000)
  /\ dt_field cr_year Milli (-1) = Some 1969 /\ dt_field cr_hour Milli (-1) = Some 23
  /\ ((days_of_civil (1969, 12, 31) * 86400 + 23 * 3600 + 59 * 60 + 59) * 1000000000 + 999000000 = instant_ns Milli (-1))
  /\ date_in_range 11016 = true /\ from_naive_date Micro 11016 = Ok 951782400000000 /\ 951782400000000 <> NaT
  /\ dt_field cr_month Micro 951782400000000 = Some 2 /\ dt_field cr_dom Micro 951782400000000 = Some 29
  /\ from_naive_date Nano 200000 = Ok NaT /\ from_naive_date Sec 200000 = Ok 17280000000.
Proof. vm_compute. repeat split; discriminate. Qed.

Example C16_ex_audit_trunc_nat :
  td_is_nat (mktd i32_min 5) = true /\ dt_trunc Sec 0 (mktd i32_min 5) = Panic OtherPanic
  /\ dt_trunc Sec i64_max (mktd i32_min 5) = Panic UnwrapNone /\ dt_trunc Sec NaT (mktd i32_min 5) = Ok NaT
  /\ td_div (mktd i32_min 0) (mktd 0 1) = Panic OtherPanic /\ td_neg (mktd i32_min 5) = mktd i32_min 5.
Proof. vm_compute. repeat split. Qed.

Print Assumptions C16_nat_conv_unit.
Print Assumptions C16_nat_ops_datetime.
Print Assumptions C16_coarsen_floor.
Print Assumptions C16_coarsen_as_chrono.
Print Assumptions C16_refine_back.
Print Assumptions C16_cr_roundtrip.
Print Assumptions C16_cr_roundtrip_from.
Print Assumptions C16_from_cr_nano.
Print Assumptions C16_calendar_lawful.
Print Assumptions C16_is_not_nat.
Print Assumptions C16_is_not_nat_timedelta.
Print Assumptions C16_opt_i64_roundtrip.
Print Assumptions C16_try_from_is_as_cr.
Print Assumptions C16_try_from_nat.
Print Assumptions C16_try_from_roundtrip.
Print Assumptions C16_try_from_valid_only.
Print Assumptions C16_to_cr.
Print Assumptions C16_into_unit_closed_form.
Print Assumptions C16_into_unit_panics_iff.
Print Assumptions C16_into_unit_returns_iff.
Print Assumptions C16_valid_stays_valid.
Print Assumptions C16_conversion_monotone.
Print Assumptions C16_coarsen_compose.
Print Assumptions C16_coarsen_refine.
Print Assumptions C16_coarsen_refine_identity_iff.
Print Assumptions C16_refine_as_chrono.
Print Assumptions C16_refine_chrono_differs.
Print Assumptions C16_as_chrono_all_pairs.
Print Assumptions C16_as_cr_none_iff.
Print Assumptions C16_fields_reconstruct.
Print Assumptions C16_defaults_and_none.
Print Assumptions C16_from_naive_date_value.
Print Assumptions C16_from_naive_date_fields.
Print Assumptions C16_cast_views.
Print Assumptions C16_nat_div_panics.
Print Assumptions C16_nat_trunc_duration.
Print Assumptions C16_nat_result_converse_refuted.
