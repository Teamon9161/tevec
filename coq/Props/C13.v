(* Props/C13.v — property C13: element-wise mapping operations follow their positional definitions.
   Model: Model/MapOps.v (list versions of the iterator constructions of tea-map, repaired tree);
   positional definitions: Spec/MapOps.v; lemmas: Proofs/MapOps.v, Proofs/Audit13.v.
   `n : Z` is the i32 lag (every integer, so i32::MIN/MAX and |n| >= len are included);
   `NullDict` is the IsNone dictionary; `or_none d value = Ok v` says the effective fill value is v
   (value = Some v, or value = None on a type whose none() exists).                              *)
From Coq Require Import QArith Reals Floats.
From Tevec Require Import Base.XR Base.Prelude Model.MapOps Spec.MapOps Proofs.MapOps Proofs.MapOpsExamples Proofs.Audit13.
Local Open Scope Z_scope.

(* ---- (1) shift / vshift ------------------------------------------------------------------------ *)
(* total, length-preserving, element i = x[i-n] where that exists and the fill value elsewhere *)
Theorem C13_shift_positional :
  forall (T : Type) (n : Z) (v : T) (xs : list T),
  exists r, shift n v xs = Ok r /\ length r = length xs /\
    forall i, (i < length xs)%nat -> nth_error r i = Some (shift_at n v xs i).
Proof. exact (@shift_positional). Qed.

Theorem C13_vshift_positional :
  forall (T I : Type) (d : NullDict T I) (n : Z) (value : option T) (v : T) (xs : list T),
  or_none d value = Ok v ->
  exists r, vshift d n value xs = Ok r /\ length r = length xs /\
    forall i, (i < length xs)%nat -> nth_error r i = Some (shift_at n v xs i).
Proof. intros T I d n value v xs. apply vshift_positional. Qed.

(* reading shift_at: element j moves to place j+n (towards the end for n > 0, the start for n < 0) ... *)
Theorem C13_shift_moves_by_n :
  forall (T : Type) (n : Z) (v : T) (xs : list T) (j : nat),
  (j < length xs)%nat -> 0 <= Z.of_nat j + n < Z.of_nat (length xs) ->
  shift_at n v xs (Z.to_nat (Z.of_nat j + n)) = nth j xs v.
Proof.
  intros T n v xs j Hj Hr. unfold shift_at, in_range, src.
  replace (Z.of_nat (Z.to_nat (Z.of_nat j + n)) - n) with (Z.of_nat j) by lia.
  replace ((0 <=? Z.of_nat j) && (Z.of_nat j <? Z.of_nat (length xs))) with true by lia.
  rewrite Nat2Z.id. reflexivity.
Qed.

(* ... and the vacated places (the first n for n > 0, the last |n| for n < 0, all when |n| >= len) hold the fill *)
Theorem C13_shift_fills_vacated :
  forall (T : Type) (n : Z) (v : T) (xs : list T) (i : nat),
  (Z.of_nat i < n \/ Z.of_nat (length xs) + n <= Z.of_nat i) -> shift_at n v xs i = v.
Proof.
  intros T n v xs i H. unfold shift_at, in_range, src.
  destruct ((0 <=? Z.of_nat i - n) && (Z.of_nat i - n <? Z.of_nat (length xs))) eqn:E; [lia|reflexivity].
Qed.

(* integer element types: a missing fill value panics (none() on a non-float type), by design *)
Theorem C13_vshift_int_none_panics :
  forall (n : Z) (xs : list Z), vshift dict_int n None xs = Panic OtherPanic.
Proof. reflexivity. Qed.

(* ---- (2) vdiff --------------------------------------------------------------------------------- *)
(* x[i] - x[i-n] where x[i-n] exists, the fill value itself elsewhere (all n, incl. 0 and |n| >= len) *)
Theorem C13_vdiff_positional :
  forall (T I : Type) (d : NullDict T I) (sub : T -> T -> T) (n : Z) (value : option T) (v : T) (xs : list T),
  or_none d value = Ok v ->
  exists r, vdiff d sub n value xs = Ok r /\ length r = length xs /\
    forall i, (i < length xs)%nat -> nth_error r i = Some (diff_at sub n v xs i).
Proof. intros T I d sub n value v xs. apply vdiff_positional. Qed.

Theorem C13_vdiff_integer_formula :
  forall (n v : Z) (xs : list Z) (i : nat),
  in_range (length xs) (src n i) = true ->
  diff_at Z.sub n v xs i = nth i xs v - nth (Z.to_nat (src n i)) xs v.
Proof.
  intros n v xs i Hr. unfold diff_at. rewrite Hr. reflexivity.
Qed.

Theorem C13_vdiff_fill_elsewhere :
  forall (T : Type) (sub : T -> T -> T) (n : Z) (v : T) (xs : list T) (i : nat),
  in_range (length xs) (src n i) = false -> diff_at sub n v xs i = v.
Proof.
  intros T sub n v xs i Hr. unfold diff_at. rewrite Hr. reflexivity.
Qed.

(* a null operand gives null, for any subtraction that propagates nulls (IEEE NaN) *)
Theorem C13_vdiff_null_operand :
  forall (T I : Type) (d : NullDict T I) (sub : T -> T -> T) (n : Z) (v : T) (xs : list T) (i : nat),
  (forall a b, is_none d a = true \/ is_none d b = true -> is_none d (sub b a) = true) ->
  in_range (length xs) (src n i) = true ->
  is_none d (nth i xs v) = true \/ is_none d (nth (Z.to_nat (src n i)) xs v) = true ->
  is_none d (diff_at sub n v xs i) = true.
Proof. intros T I d sub n v xs i. apply diff_at_null. Qed.

(* ---- (3) vpct_change --------------------------------------------------------------------------- *)
(* for any f64-like operations in which a cast is null exactly when its argument is, and NAN is null *)
Theorem C13_vpct_change_positional :
  forall (T I F : Type) (d : NullDict T I) (o : FOps F) (cast : T -> F),
  (forall v, fisnan o (cast v) = is_none d v) -> fisnan o (fnanv o) = true ->
  forall (n : Z) (xs : list T),
  exists r, vpct_change d o cast n xs = Ok r /\ length r = length xs /\
    forall i, (i < length xs)%nat -> nth_error r i = Some (pct_at d o cast n xs i).
Proof. intros T I F d o cast H1 H2 n xs. apply vpct_change_positional; assumption. Qed.

(* pct_at is x[i]/x[i-n] - 1 on non-null operands with a non-zero base ... *)
Theorem C13_pct_formula_defined :
  forall (T I F : Type) (d : NullDict T I) (o : FOps F) (cast : T -> F) (a b : T),
  is_none d a = false -> is_none d b = false -> fis0 o (cast a) = false ->
  pct_formula d o cast a b = fsub o (fdiv o (cast b) (cast a)) (fone o).
Proof.
  intros T I F d o cast a b Ha Hb H0. unfold pct_formula. rewrite Ha, Hb, H0. reflexivity.
Qed.

(* ... and null on a null operand or a zero base (and, by pct_at, where x[i-n] does not exist) *)
Theorem C13_pct_formula_null :
  forall (T I F : Type) (d : NullDict T I) (o : FOps F) (cast : T -> F) (a b : T),
  is_none d a = true \/ is_none d b = true \/ fis0 o (cast a) = true ->
  pct_formula d o cast a b = fnanv o.
Proof.
  intros T I F d o cast a b H. unfold pct_formula.
  destruct (is_none d a), (is_none d b), (fis0 o (cast a)); try reflexivity.
  destruct H as [H|[H|H]]; discriminate.
Qed.

(* ---- (4) ffill / bfill ------------------------------------------------------------------------- *)
Theorem C13_ffill_mask_positional :
  forall (T I : Type) (d : NullDict T I) (mask : T -> bool) (value : option T) (dv : T) (xs : list T),
  or_none d value = Ok dv ->
  exists r, ffill_mask d mask value xs = Ok r /\ length r = length xs /\
    forall i x, nth_error xs i = Some x -> nth_error r i = Some (ffill_at mask dv xs i x).
Proof. intros T I d mask value dv xs. apply ffill_mask_positional. Qed.

Theorem C13_bfill_mask_positional :
  forall (T I : Type) (d : NullDict T I) (mask : T -> bool) (value : option T) (dv : T) (xs : list T),
  or_none d value = Ok dv ->
  exists r, bfill_mask d mask value xs = Ok r /\ length r = length xs /\
    forall i x, nth_error xs i = Some x -> nth_error r i = Some (bfill_at mask dv xs i x).
Proof. intros T I d mask value dv xs. apply bfill_mask_positional. Qed.

(* ffill / bfill are the is_none instances *)
Theorem C13_ffill_positional :
  forall (T I : Type) (d : NullDict T I) (value : option T) (dv : T) (xs : list T),
  or_none d value = Ok dv ->
  exists r, ffill d value xs = Ok r /\ length r = length xs /\
    forall i x, nth_error xs i = Some x ->
      nth_error r i = Some (if is_none d x
                            then match last_valid (is_none d) (firstn i xs) with Some y => y | None => dv end
                            else x).
Proof. intros T I d value dv xs. apply ffill_mask_positional. Qed.

Theorem C13_bfill_positional :
  forall (T I : Type) (d : NullDict T I) (value : option T) (dv : T) (xs : list T),
  or_none d value = Ok dv ->
  exists r, bfill d value xs = Ok r /\ length r = length xs /\
    forall i x, nth_error xs i = Some x ->
      nth_error r i = Some (if is_none d x
                            then match next_valid (is_none d) (skipn (S i) xs) with Some y => y | None => dv end
                            else x).
Proof. intros T I d value dv xs. apply bfill_mask_positional. Qed.

(* last_valid / next_valid are the NEAREST earlier / later unmasked (non-null) elements *)
Theorem C13_nearest_earlier :
  forall (T : Type) (mask : T -> bool) (xs : list T) (i : nat) (y : T),
  (i <= length xs)%nat ->
  (last_valid mask (firstn i xs) = Some y <->
   exists j, (j < i)%nat /\ nth_error xs j = Some y /\ mask y = false /\
             forall k x, (j < k < i)%nat -> nth_error xs k = Some x -> mask x = true).
Proof.
  intros T mask xs i y Hi. unfold last_valid.
  change (find (fun v => negb (mask v)) (rev (firstn i xs))) with (next_valid mask (rev (firstn i xs))).
  rewrite next_valid_Some.
  assert (Hlen : length (firstn i xs) = i) by (rewrite firstn_length; lia).
  split.
  - intros (j & Hj & Hy & Hall).
    assert (Hji : (j < i)%nat).
    { apply nth_error_Some_length in Hj. rewrite rev_length, Hlen in Hj. exact Hj. }
    rewrite nth_error_rev_lt in Hj by lia. rewrite Hlen, nth_error_firstn, ltb_true in Hj by lia.
    exists (i - S j)%nat. split; [lia|]. split; [exact Hj|]. split; [exact Hy|].
    intros k x Hk Hx. apply (Hall (i - S k)%nat x); [lia|].
    rewrite nth_error_rev_lt by lia. rewrite Hlen, nth_error_firstn, ltb_true by lia.
    replace (i - S (i - S k))%nat with k by lia. exact Hx.
  - intros (j & Hji & Hj & Hy & Hall). exists (i - S j)%nat.
    rewrite nth_error_rev_lt by lia. rewrite Hlen, nth_error_firstn, ltb_true by lia.
    replace (i - S (i - S j))%nat with j by lia.
    split; [exact Hj|]. split; [exact Hy|].
    intros k x Hk Hx.
    assert (Hki : (k < i)%nat) by lia.
    rewrite nth_error_rev_lt in Hx by lia. rewrite Hlen, nth_error_firstn, ltb_true in Hx by lia.
    apply (Hall (i - S k)%nat x); [lia|exact Hx].
Qed.

Theorem C13_no_earlier :
  forall (T : Type) (mask : T -> bool) (xs : list T) (i : nat),
  last_valid mask (firstn i xs) = None <->
  forall k x, (k < i)%nat -> nth_error xs k = Some x -> mask x = true.
Proof. exact (@last_valid_none_earlier). Qed.

Theorem C13_nearest_later :
  forall (T : Type) (mask : T -> bool) (xs : list T) (i : nat) (y : T),
  next_valid mask (skipn (S i) xs) = Some y <->
  exists j, (i < j)%nat /\ nth_error xs j = Some y /\ mask y = false /\
            forall k x, (i < k < j)%nat -> nth_error xs k = Some x -> mask x = true.
Proof.
  intros T mask xs i y.
  rewrite next_valid_Some. split.
  - intros (j & Hj & Hy & Hall). exists (S i + j)%nat. rewrite nth_error_skipn in Hj.
    split; [lia|]. split; [exact Hj|]. split; [exact Hy|].
    intros k x Hk Hx. apply (Hall (k - S i)%nat x); [lia|].
    rewrite nth_error_skipn. replace (S i + (k - S i))%nat with k by lia. exact Hx.
  - intros (j & Hij & Hj & Hy & Hall). exists (j - S i)%nat.
    rewrite nth_error_skipn. replace (S i + (j - S i))%nat with j by lia.
    split; [exact Hj|]. split; [exact Hy|].
    intros k x Hk Hx. rewrite nth_error_skipn in Hx. apply (Hall (S i + k)%nat x); [lia|exact Hx].
Qed.

Theorem C13_no_later :
  forall (T : Type) (mask : T -> bool) (xs : list T) (i : nat),
  next_valid mask (skipn (S i) xs) = None <->
  forall k x, (i < k)%nat -> nth_error xs k = Some x -> mask x = true.
Proof.
  intros T mask xs i.
  rewrite next_valid_None. split.
  - intros H k x Hk Hx. apply H. apply (nth_error_In _ (k - S i)).
    rewrite nth_error_skipn. replace (S i + (k - S i))%nat with k by lia. exact Hx.
  - intros H x Hx. apply In_nth_error in Hx. destruct Hx as [k Hk].
    rewrite nth_error_skipn in Hk. apply (H (S i + k)%nat x); [lia|exact Hk].
Qed.

(* nothing selected (e.g. an integer series, never null): identity, even where none() would panic *)
Theorem C13_fill_nothing_selected :
  forall (T I : Type) (d : NullDict T I) (mask : T -> bool) (value : option T) (xs : list T),
  (forall x, In x xs -> mask x = false) ->
  ffill_mask d mask value xs = Ok xs /\ bfill_mask d mask value xs = Ok xs.
Proof.
  intros T I d mask value xs H. split.
  - unfold ffill_mask. rewrite ffill_run_unmasked by exact H. apply sequence_map_Ok.
  - unfold bfill_mask. rewrite ffill_run_unmasked.
    + rewrite sequence_map_Ok. cbn [bind]. rewrite rev_involutive. reflexivity.
    + intros x Hx. apply H. apply in_rev. exact Hx.
Qed.

(* whenever ffill_mask / bfill_mask return at all, the length is the input's (no hypothesis) *)
Theorem C13_fill_directional_length :
  forall (T I : Type) (d : NullDict T I) (mask : T -> bool) (value : option T) (xs r : list T),
  (ffill_mask d mask value xs = Ok r -> length r = length xs) /\
  (bfill_mask d mask value xs = Ok r -> length r = length xs).
Proof.
  intros T I d mask value xs r. split.
  - unfold ffill_mask. intros H. apply sequence_length in H. rewrite run_length in H. exact H.
  - unfold bfill_mask. intros H.
    destruct (sequence (run (ffill_step d mask value) None (rev xs))) as [l|k] eqn:E; [|discriminate].
    cbn in H. injection H as <-. apply sequence_length in E.
    rewrite run_length, rev_length in E. rewrite rev_length. exact E.
Qed.

(* ---- (5) fill ------------------------------------------------------------------------------------ *)
Theorem C13_fill_mask_positional :
  forall (T : Type) (mask : T -> bool) (v : T) (xs : list T) (i : nat),
  nth_error (fill_mask mask v xs) i = option_map (fun x => if mask x then v else x) (nth_error xs i).
Proof. exact (@fill_mask_positional). Qed.

Theorem C13_fill_touches_only_nulls :
  forall (T I : Type) (d : NullDict T I) (v : T) (xs : list T) (i : nat) (x : T),
  nth_error xs i = Some x ->
  nth_error (fill d v xs) i = Some (if is_none d x then v else x) /\
  (is_none d x = false -> nth_error (fill d v xs) i = Some x).
Proof.
  intros T I d v xs i x Hx. unfold fill. rewrite fill_mask_positional, Hx. cbn [option_map]. split; [reflexivity|].
  intros Hn. rewrite Hn. reflexivity.
Qed.

Theorem C13_fill_length :
  forall (T : Type) (mask : T -> bool) (v : T) (xs : list T), length (fill_mask mask v xs) = length xs.
Proof.
  intros T mask v xs.
  unfold fill_mask. apply map_length.
Qed.

(* ---- (6) vclip ----------------------------------------------------------------------------------- *)
(* for every dictionary whose unwrap succeeds on non-null elements (all three families, below) *)
Theorem C13_vclip_positional :
  forall (T I : Type) (d : NullDict T I) (inner : T -> I) (ltb : I -> I -> bool),
  (forall v, is_none d v = false -> unwrap d v = Ok (inner v)) ->
  forall (lower upper : T) (xs : list T),
  exists r, vclip d ltb lower upper xs = Ok r /\ length r = length xs /\
    forall i, nth_error r i = option_map (clip_elem d inner ltb lower upper) (nth_error xs i).
Proof.
  intros T I d inner ltb unwrap_ok lower upper xs.
  exists (map (clip_elem d inner ltb lower upper) xs). split; [apply vclip_spec; exact unwrap_ok|].
  split; [apply map_length|]. intros i. apply nth_error_map.
Qed.

Theorem C13_unwrap_law_instances :
  forall (A : Type) (inan : A -> bool) (nanv dflt : A),
  (forall v, is_none (dict_float inan nanv) v = false -> unwrap (dict_float inan nanv) v = Ok v) /\
  (forall v : A, is_none dict_int v = false -> unwrap dict_int v = Ok v) /\
  (forall v, is_none (dict_opt inan) v = false -> unwrap (dict_opt inan) v = Ok (opt_inner dflt v)).
Proof.
  intros A inan nanv dflt. split; [|split].
  - reflexivity.
  - reflexivity.
  - intros [v|]; [reflexivity|discriminate].
Qed.

(* nulls stay null and non-nulls stay non-null, whatever the bounds *)
Theorem C13_clip_preserves_nullness :
  forall (T I : Type) (d : NullDict T I) (inner : T -> I) (ltb : I -> I -> bool) (lower upper x : T),
  is_none d (clip_elem d inner ltb lower upper x) = is_none d x /\
  (is_none d x = true -> clip_elem d inner ltb lower upper x = x).
Proof. intros. split; [apply clip_elem_nullness|apply clip_elem_null]. Qed.

(* lower <= upper (for the non-null bounds): idempotent ... *)
Theorem C13_clip_idempotent :
  forall (T I : Type) (d : NullDict T I) (inner : T -> I) (ltb : I -> I -> bool),
  (forall a, ltb a a = false) ->
  forall (lower upper x : T),
  (is_none d lower = false -> is_none d upper = false -> leb_of ltb (inner lower) (inner upper) = true) ->
  clip_elem d inner ltb lower upper (clip_elem d inner ltb lower upper x) = clip_elem d inner ltb lower upper x.
Proof. intros T I d inner ltb H lower upper x. apply clip_elem_idempotent. exact H. Qed.

(* ... and every non-null result lies inside the (non-null) bounds *)
Theorem C13_clip_contained :
  forall (T I : Type) (d : NullDict T I) (inner : T -> I) (ltb : I -> I -> bool),
  (forall a, ltb a a = false) ->
  forall (lower upper x : T),
  (is_none d lower = false -> is_none d upper = false -> leb_of ltb (inner lower) (inner upper) = true) ->
  is_none d x = false ->
  (is_none d lower = false -> leb_of ltb (inner lower) (inner (clip_elem d inner ltb lower upper x)) = true) /\
  (is_none d upper = false -> leb_of ltb (inner (clip_elem d inner ltb lower upper x)) (inner upper) = true).
Proof. intros T I d inner ltb H lower upper x. apply clip_elem_contained. exact H. Qed.

(* integers: the textbook max(lo, min(hi, x)) *)
Theorem C13_clip_integer :
  forall lo hi x : Z, lo <= hi ->
  clip_elem dict_int (fun v => v) Z.ltb lo hi x = Z.max lo (Z.min hi x).
Proof.
  intros lo hi x H. unfold clip_elem. cbn.
  destruct (x <? lo) eqn:E1; [lia|]. destruct (hi <? x) eqn:E2; lia.
Qed.

Theorem C13_vclip_length :
  forall (T I : Type) (d : NullDict T I) (ltb : I -> I -> bool) (lower upper : T) (xs r : list T),
  vclip d ltb lower upper xs = Ok r -> length r = length xs.
Proof.
  intros T I d ltb lower upper xs r.
  unfold vclip.
  destruct (negb (is_none d lower)), (negb (is_none d upper)).
  - destruct (unwrap d lower); cbn; [|discriminate]. destruct (unwrap d upper); cbn; [|discriminate].
    apply mapM_length.
  - destruct (unwrap d lower); cbn; [|discriminate]. apply mapM_length.
  - destruct (unwrap d upper); cbn; [|discriminate]. apply mapM_length.
  - intros H. injection H as <-. reflexivity.
Qed.

(* ---- (7) abs / vabs -------------------------------------------------------------------------------- *)
Theorem C13_abs_positional :
  forall (A : Type) (aabs : A -> A) (xs : list A) (i : nat),
  nth_error (abs_map aabs xs) i = option_map aabs (nth_error xs i) /\
  length (abs_map aabs xs) = length xs.
Proof. intros. split; [apply nth_error_map|apply map_length]. Qed.

Theorem C13_vabs_elementwise :
  forall (A : Type) (aabs : A -> A) (inan : A -> bool) (nanv : A) (xs : list A) (os : list (option A)),
  vabs dict_int aabs xs = Ok (map aabs xs) /\
  vabs (dict_float inan nanv) aabs xs = Ok (map aabs xs) /\
  vabs (dict_opt inan) aabs os = Ok (map (vabs_opt_elem aabs inan) os).
Proof. intros. split; [apply vabs_int|split; [apply vabs_float|apply vabs_opt]]. Qed.

(* |.| keeps null inner values null  ==>  vabs leaves nulls null and non-nulls non-null *)
Theorem C13_vabs_preserves_nullness :
  forall (A : Type) (aabs : A -> A) (inan : A -> bool) (nanv : A),
  (forall v, inan (aabs v) = inan v) ->
  (forall v, is_none (dict_float inan nanv) (aabs v) = is_none (dict_float inan nanv) v) /\
  (forall o, (forall v, o = Some v -> inan v = false) ->
     vabs_opt_elem aabs inan o = option_map aabs o /\
     is_none (dict_opt inan) (vabs_opt_elem aabs inan o) = is_none (dict_opt inan) o).
Proof.
  intros A aabs inan nanv H. split.
  - intros v. apply vabs_float_nullness. exact H.
  - intros o Ho. split; [apply vabs_opt_elem_canonical|apply vabs_opt_nullness]; assumption.
Qed.

Theorem C13_vabs_length :
  forall (T I : Type) (d : NullDict T I) (iabs : I -> I) (xs r : list T),
  vabs d iabs xs = Ok r -> length r = length xs.
Proof.
  intros T I d iabs xs r.
  apply mapM_length.
Qed.

(* ---- non-vacuity: the premises are satisfiable, on runs that reach every branch ------------------- *)
Example C13_ex_shift :
  shift 2 0 [1; 2; 3; 4; 5] = Ok [0; 0; 1; 2; 3] /\ shift (-2) 0 [1; 2; 3; 4; 5] = Ok [3; 4; 5; 0; 0] /\
  shift 0 0 [1; 2] = Ok [1; 2] /\ shift 7 0 [1; 2; 3] = Ok [0; 0; 0] /\
  shift (-2147483648) 9 [1; 2] = Ok [9; 9] /\ shift 2147483647 9 [1; 2] = Ok [9; 9] /\
  vshift (dict_opt (fun _ : Z => false)) 1 None [Some 1; None; Some 3] = Ok [None; Some 1; None] /\
  or_none (dict_opt (fun _ : Z => false)) None = Ok None /\ or_none dict_int (Some 5) = Ok 5.
Proof. vm_compute. repeat split. Qed.

(* the fill value itself in the first n places; lag 0 = x - x *)
Example C13_ex_vdiff :
  vdiff dict_int Z.sub 1 (Some 10) [4; 1; 12] = Ok [10; -3; 11] /\
  vdiff dict_int Z.sub (-1) (Some 0) [4; 1; 12; 4] = Ok [3; -11; 8; 0] /\
  vdiff dict_int Z.sub 0 (Some 7) [4; 1] = Ok [0; 0] /\
  vdiff dict_int Z.sub 5 (Some 7) [4; 1] = Ok [7; 7] /\
  in_range 3 (src 1 2) = true /\ in_range 3 (src 1 0) = false.
Proof. vm_compute. repeat split. Qed.

(* NaN-like arithmetic: a null operand gives null, the fill value is not subtracted from anything *)
Example C13_ex_vdiff_null :
  vdiff d_fz sub_fz 1 (Some (Some 10)) [Some 4; None; Some 12; Some 5] = Ok [Some 10; None; None; Some (-7)] /\
  vdiff d_fz sub_fz 0 None [Some 4; None] = Ok [Some 0; None] /\
  (forall a b, is_none d_fz a = true \/ is_none d_fz b = true -> is_none d_fz (sub_fz b a) = true).
Proof. split; [|split]; try (vm_compute; reflexivity). exact sub_fz_null. Qed.

Example C13_ex_vpct_change :
  vpct_change d_oz qops cast_oz 1 [Some 1; Some 2; None; Some 0; Some 4; Some 6]
  = Ok [None; Some 1%Q; None; None; None; Some (1 # 2)%Q] /\
  vpct_change d_oz qops cast_oz (-1) [Some 4; Some 2; Some 0]
  = Ok [Some 1%Q; None; None] /\
  vpct_change d_oz qops cast_oz 0 [Some 4; None; Some 0] = Ok [Some 0%Q; None; None] /\
  (forall v, fisnan qops (cast_oz v) = is_none d_oz v) /\ fisnan qops (fnanv qops) = true.
Proof. split; [|split; [|split; [|split]]]; try (vm_compute; reflexivity). exact cast_oz_null. Qed.

Example C13_ex_fills :
  let d := dict_opt (fun _ : Z => false) in
  ffill d None [None; Some 1; None; None; Some 3; None] = Ok [None; Some 1; Some 1; Some 1; Some 3; Some 3] /\
  ffill d (Some (Some 0)) [None; Some 1; None] = Ok [Some 0; Some 1; Some 1] /\
  bfill d (Some (Some 0)) [None; Some 1; None; None; Some 3; None]
  = Ok [Some 1; Some 1; Some 3; Some 3; Some 3; Some 0] /\
  fill d (Some 9) [None; Some 1; None] = [Some 9; Some 1; Some 9] /\
  ffill dict_int None [1; 2; 3] = Ok [1; 2; 3] /\
  ffill_mask dict_int (fun v => v <? 2) None [1; 2; 3] = Panic OtherPanic.
Proof. vm_compute. repeat split. Qed.

Example C13_ex_clip :
  let d := dict_opt (fun _ : Z => false) in
  vclip d Z.ltb (Some 2) (Some 6) [Some 1; None; Some 3; Some 5; Some 7] = Ok [Some 2; None; Some 3; Some 5; Some 6] /\
  vclip d Z.ltb (Some 2) None [Some 1; None; Some 7] = Ok [Some 2; None; Some 7] /\
  vclip d Z.ltb None (Some 6) [Some 1; None; Some 7] = Ok [Some 1; None; Some 6] /\
  vclip d Z.ltb None None [Some 1; None; Some 7] = Ok [Some 1; None; Some 7] /\
  (forall a, Z.ltb a a = false) /\ leb_of Z.ltb 2 6 = true.
Proof. split; [|split; [|split; [|split; [|split]]]]; try (vm_compute; reflexivity). exact Z.ltb_irrefl. Qed.

Example C13_ex_abs :
  vabs (dict_opt (fun _ : Z => false)) Z.abs [Some (-1); None; Some 2] = Ok [Some 1; None; Some 2] /\
  abs_map Z.abs [-1; 2; -3] = [1; 2; 3] /\
  (forall v : Z, (fun _ : Z => false) (Z.abs v) = (fun _ : Z => false) v).
Proof. split; [|split]; vm_compute; reflexivity. Qed.

(* Clause by clause (table: notes/C13.md, "Audit matrix"): the lag arithmetic, the rejected inputs exactly, what must
   not change, degenerate inputs, numeric carriers. *)

(* ---- (8) the i32 lag: `n.unsigned_abs() as usize` is |n| for EVERY i32, i32::MIN included; a signed
        negation would overflow there.  (Two's-complement definitions: Proofs/Audit13.v.) ---- *)
Theorem C13_lag_unsigned_abs :
  forall n : Z, in_i32 n -> i32_unsigned_abs n = Z.abs n /\ 0 <= i32_unsigned_abs n <= 2 ^ 31.
Proof. intros n H. split; [apply i32_unsigned_abs_spec|apply i32_unsigned_abs_range]; exact H. Qed.

Theorem C13_lag_i32_min :
  i32_checked_neg i32_min = Panic Overflow /\ i32_wrapping_abs i32_min = i32_min /\
  i32_unsigned_abs i32_min = 2 ^ 31 /\ i32_unsigned_abs i32_max = 2 ^ 31 - 1.
Proof.
  repeat split; reflexivity.
Qed.

(* ---- (9) shift / vshift corner lags, stated as whole results ---- *)
(* lag 0: the series itself (nothing changes, the fill value is not used) *)
Theorem C13_shift_zero_identity :
  forall (T I : Type) (d : NullDict T I) (v : T) (value : option T) (xs : list T),
  shift 0 v xs = Ok xs /\ (or_none d value = Ok v -> vshift d 0 value xs = Ok xs).
Proof. intros T I d v value xs. split; [apply shift_zero|exact (vshift_zero d value v xs)]. Qed.

(* |n| >= len: every place holds the fill; in particular i32::MIN / i32::MAX on any series shorter than 2^31 *)
Theorem C13_shift_beyond_length :
  forall (T : Type) (n : Z) (v : T) (xs : list T),
  (Z.of_nat (length xs) <= Z.abs n -> shift n v xs = Ok (repeat v (length xs))) /\
  ((n = i32_min \/ n = i32_max) -> Z.of_nat (length xs) < 2 ^ 31 -> shift n v xs = Ok (repeat v (length xs))).
Proof. intros T n v xs. split; [apply shift_beyond|apply shift_extreme]. Qed.

(* the omitted fill on a type without a null: vshift / vdiff return iff the effective fill exists, and the
   panic is none()'s — for every lag and every series, the empty one included *)
Theorem C13_vshift_returns_iff_fill_exists :
  forall (T I : Type) (d : NullDict T I) (n : Z) (value : option T) (xs : list T) (k : panic_kind),
  ((exists r, vshift d n value xs = Ok r) <-> (exists v, or_none d value = Ok v)) /\
  (vshift d n value xs = Panic k <-> (value = None /\ none d = Panic k)).
Proof. intros T I d n value xs k. split; [apply vshift_total_iff|apply vshift_panic_iff]. Qed.

Theorem C13_vdiff_panics_iff_fill_missing :
  forall (T I : Type) (d : NullDict T I) (sub : T -> T -> T) (n : Z) (value : option T) (xs : list T) (k : panic_kind),
  vdiff d sub n value xs = Panic k <-> (value = None /\ none d = Panic k).
Proof. intros T I d sub n value xs k. apply vdiff_panic_iff. Qed.

(* ---- (10) "exactly as many elements as the input", with NO hypothesis, for the operations whose
         positional theorem carries one ---- *)
Theorem C13_lengths_unconditional :
  forall (T I F : Type) (d : NullDict T I) (sub : T -> T -> T) (o : FOps F) (cast : T -> F)
         (n : Z) (v : T) (value : option T) (xs r : list T),
  (shift n v xs = Ok r -> length r = length xs) /\
  (vshift d n value xs = Ok r -> length r = length xs) /\
  (vdiff d sub n value xs = Ok r -> length r = length xs) /\
  (exists q, vpct_change d o cast n xs = Ok q /\ length q = length xs).
Proof.
  intros T I F d sub o cast n v value xs r.
  split; [apply shift_length|]. split; [apply vshift_length|]. split; [apply vdiff_length|apply vpct_change_total].
Qed.

(* ---- (11) vdiff / vpct_change corner lags as whole results ---- *)
Theorem C13_vdiff_corner_lags :
  forall (T I : Type) (d : NullDict T I) (sub : T -> T -> T) (n : Z) (value : option T) (v : T) (xs : list T),
  or_none d value = Ok v ->
  vdiff d sub 0 value xs = Ok (map (fun x => sub x x) xs) /\
  (Z.of_nat (length xs) <= Z.abs n -> vdiff d sub n value xs = Ok (repeat v (length xs))).
Proof. intros T I d sub n value v xs H. split; [apply (vdiff_zero d sub value v xs H)|apply vdiff_beyond; exact H]. Qed.

Theorem C13_vpct_change_corner_lags :
  forall (T I F : Type) (d : NullDict T I) (o : FOps F) (cast : T -> F) (n : Z) (xs : list T),
  vpct_change d o cast 0 xs = Ok (map (fun x => pct_neg d o cast x x) xs) /\
  (Z.of_nat (length xs) <= Z.abs n -> vpct_change d o cast n xs = Ok (repeat (fnanv o) (length xs))).
Proof. intros T I F d o cast n xs. split; [apply vpct_change_zero|apply vpct_change_beyond]. Qed.

(* ---- (12) ffill / bfill without the hypothesis `or_none d value = Ok dv`: the default is needed
         only for a masked FIRST (ffill) / LAST (bfill) element; otherwise the result is the positional
         one whatever `value` is (dv is arbitrary: it is never read), and the only panic is none()'s at
         such a head ---- *)
Theorem C13_ffill_head_unmasked :
  forall (T I : Type) (d : NullDict T I) (mask : T -> bool) (value : option T) (dv : T) (xs : list T),
  (forall x, hd_error xs = Some x -> mask x = false) ->
  ffill_mask d mask value xs = Ok (mapi (ffill_at mask dv xs) xs).
Proof. intros T I d mask value dv xs. apply ffill_mask_head_unmasked. Qed.

Theorem C13_bfill_tail_unmasked :
  forall (T I : Type) (d : NullDict T I) (mask : T -> bool) (value : option T) (dv : T) (xs : list T),
  (forall x, hd_error (rev xs) = Some x -> mask x = false) ->
  bfill_mask d mask value xs = Ok (mapi (bfill_at mask dv xs) xs).
Proof.
  intros T I d mask value dv xs Hh.
  (* the result does not depend on `value`: compare with the run that has the default Some dv *)
  assert (E : ffill_mask d mask value (rev xs) = ffill_mask d mask (Some dv) (rev xs)).
  { rewrite (ffill_mask_head_unmasked d mask value dv (rev xs) Hh).
    rewrite (ffill_mask_head_unmasked d mask (Some dv) dv (rev xs) Hh). reflexivity. }
  rewrite bfill_mask_rev, E, <- bfill_mask_rev. apply bfill_mask_spec. reflexivity.
Qed.

Theorem C13_fill_directional_panics_iff :
  forall (T I : Type) (d : NullDict T I) (mask : T -> bool) (value : option T) (xs : list T) (k : panic_kind),
  (ffill_mask d mask value xs = Panic k <->
   (value = None /\ none d = Panic k /\ exists x, hd_error xs = Some x /\ mask x = true)) /\
  (bfill_mask d mask value xs = Panic k <->
   (value = None /\ none d = Panic k /\ exists x, hd_error (rev xs) = Some x /\ mask x = true)).
Proof. intros T I d mask value xs k. split; [apply ffill_mask_panic_iff|apply bfill_mask_panic_iff]. Qed.

(* ---- (13) what the fills leave alone, and where a null can remain ---- *)
(* a place is still masked after ffill / bfill iff it was masked, every earlier / later element is masked and the
   default is masked; an unmasked place keeps its value *)
Theorem C13_fill_directional_remaining_nulls :
  forall (T : Type) (mask : T -> bool) (dv : T) (xs : list T) (i : nat) (x : T),
  mask (ffill_at mask dv xs i x) = mask x && forallb mask (firstn i xs) && mask dv /\
  mask (bfill_at mask dv xs i x) = mask x && forallb mask (skipn (S i) xs) && mask dv /\
  (mask x = false -> ffill_at mask dv xs i x = x /\ bfill_at mask dv xs i x = x).
Proof.
  intros T mask dv xs i x. split; [apply ffill_at_masked_iff|]. split; [apply bfill_at_masked_iff|].
  intros H. split; [apply ffill_at_unmasked|apply bfill_at_unmasked]; exact H.
Qed.

(* fill: no null is left when the value is non-null; null pattern afterwards; idempotent; identity when
   nothing is selected *)
Theorem C13_fill_result_nulls :
  forall (T I : Type) (d : NullDict T I) (v : T) (xs : list T),
  (is_none d v = false -> Forall (fun y => is_none d y = false) (fill d v xs)) /\
  (forall i x, nth_error xs i = Some x ->
     exists y, nth_error (fill d v xs) i = Some y /\ is_none d y = is_none d x && is_none d v).
Proof. intros T I d v xs. split; [apply fill_no_nulls_left|apply fill_nullness]. Qed.

Theorem C13_fill_idempotent_and_identity :
  forall (T : Type) (mask : T -> bool) (v : T) (xs : list T),
  fill_mask mask v (fill_mask mask v xs) = fill_mask mask v xs /\
  ((forall x, In x xs -> mask x = false) -> fill_mask mask v xs = xs).
Proof. intros T mask v xs. split; [apply fill_mask_idempotent|apply fill_mask_unmasked]. Qed.

(* ---- (14) clip with degenerate bounds: what the code does where idempotence / containment are not claimed ---- *)
(* both bounds null: the series itself, for every dictionary (nothing is unwrapped); one bound null: one-sided *)
Theorem C13_clip_null_bounds :
  forall (T I : Type) (d : NullDict T I) (inner : T -> I) (ltb : I -> I -> bool) (lower upper : T) (xs : list T) (x : T),
  (is_none d lower = true -> is_none d upper = true -> vclip d ltb lower upper xs = Ok xs) /\
  (is_none d upper = true -> is_none d x = false -> is_none d lower = false ->
   clip_elem d inner ltb lower upper x = if ltb (inner x) (inner lower) then lower else x) /\
  (is_none d lower = true -> is_none d x = false -> is_none d upper = false ->
   clip_elem d inner ltb lower upper x = if ltb (inner upper) (inner x) then upper else x).
Proof.
  intros T I d inner ltb lower upper xs x. split; [apply vclip_null_bounds|].
  split; [apply clip_elem_lower_only|apply clip_elem_upper_only].
Qed.

(* lower > upper is accepted silently: every non-null element becomes lower (if below it) or upper, and a second
   application swaps them — never idempotent, never contained *)
Theorem C13_clip_reversed_bounds :
  forall (T I : Type) (d : NullDict T I) (inner : T -> I) (ltb : I -> I -> bool),
  (forall a, ltb a a = false) -> (forall a b c, ltb a b = true -> ltb a c = true \/ ltb c b = true) ->
  forall (lower upper x : T),
  is_none d lower = false -> is_none d upper = false -> ltb (inner upper) (inner lower) = true ->
  is_none d x = false ->
  clip_elem d inner ltb lower upper x = (if ltb (inner x) (inner lower) then lower else upper) /\
  clip_elem d inner ltb lower upper (clip_elem d inner ltb lower upper x)
  = (if ltb (inner x) (inner lower) then upper else lower).
Proof.
  intros T I d inner ltb ltb_irrefl ltb_cotrans lower upper x Hl Hu Hrev Hx.
  assert (E1 : clip_elem d inner ltb lower upper x = if ltb (inner x) (inner lower) then lower else upper).
  { unfold clip_elem. rewrite Hx, Hl, Hu. cbn [negb andb].
    destruct (ltb (inner x) (inner lower)) eqn:E; [reflexivity|].
    destruct (ltb_cotrans _ _ (inner x) Hrev) as [H|H]; [rewrite H; reflexivity|congruence]. }
  split; [exact E1|]. rewrite E1.
  destruct (ltb (inner x) (inner lower)).
  - unfold clip_elem. rewrite Hl, Hu. cbn [negb andb]. rewrite ltb_irrefl, Hrev. reflexivity.
  - unfold clip_elem. rewrite Hl, Hu. cbn [negb andb]. rewrite Hrev. reflexivity.
Qed.

Theorem C13_clip_reversed_bounds_refute_idempotence :
  exists lo hi x : Z,
    let c := clip_elem dict_int (fun v : Z => v) Z.ltb lo hi in
    hi < lo /\ c (c x) <> c x /\ leb_of Z.ltb (c x) hi = false.
Proof.
  exists 5, 1, 0. destruct clip_reversed_Z_witness as (H1 & H2 & H3 & H4). cbv zeta.
  split; [lia|]. split; [exact H3|exact H4].
Qed.

(* a bound that compares false with everything (an inner NaN under Some, outside DESIGN 5.4) does nothing *)
Theorem C13_clip_unordered_bounds :
  forall (T I : Type) (d : NullDict T I) (inner : T -> I) (ltb : I -> I -> bool) (lower upper x : T),
  (forall a, ltb a (inner lower) = false) -> (forall a, ltb (inner upper) a = false) ->
  clip_elem d inner ltb lower upper x = x.
Proof.
  intros T I d inner ltb lower upper x Hl Hu. unfold clip_elem. rewrite Hl, Hu, !andb_false_r.
  destruct (is_none d x); reflexivity.
Qed.

(* ---- (15) carriers.  Exact reals with a null (option R): the arithmetic premises are discharged and the
         values are the textbook ones ---- *)
Theorem C13_vdiff_real :
  forall (n : Z) (value : option (option R)) (xs : list (option R)),
  exists r, vdiff d_xr xr_sub n value xs = Ok r /\ length r = length xs /\
    forall i, (i < length xs)%nat ->
      nth_error r i = Some (diff_real n (match value with Some v => v | None => None end) xs i).
Proof.
  intros n value xs.
  destruct (vdiff_positional d_xr xr_sub n value xs (or_none_xr value)) as (r & Hr & Hl & Hp).
  exists r. split; [exact Hr|]. split; [exact Hl|]. intros i Hi. rewrite (Hp i Hi), diff_at_real by exact Hi.
  reflexivity.
Qed.

Theorem C13_vpct_change_real :
  forall (n : Z) (xs : list (option R)),
  exists r, vpct_change d_xr xr_ops (fun x => x) n xs = Ok r /\ length r = length xs /\
    forall i, (i < length xs)%nat -> nth_error r i = Some (pct_real n xs i).
Proof.
  intros n xs.
  destruct (vpct_change_positional d_xr xr_ops (fun x => x) (fun v => eq_refl) eq_refl n xs) as (r & Hr & Hl & Hp).
  exists r. split; [exact Hr|]. split; [exact Hl|]. intros i Hi. rewrite (Hp i Hi). f_equal.
  unfold pct_at, pct_real. destruct (in_range (length xs) (src n i)) eqn:E; [|reflexivity].
  apply in_range_lt in E.
  rewrite (nth_error_nth' xs None E), (nth_error_nth' xs None Hi). apply pct_formula_real.
Qed.

Theorem C13_clip_real :
  forall lo hi x : R, (lo <= hi)%R ->
  clip_elem d_xr (fun v => v) xltb (Some lo) (Some hi) (Some x) = Some (Rmax lo (Rmin hi x)).
Proof.
  intros lo hi x H. unfold clip_elem. cbn [is_none d_xr dict_float xisnan negb andb xltb].
  unfold Rmax, Rmin.
  destruct (Rlt_dec x lo) as [H1|H1].
  - destruct (Rle_dec hi x) as [H2|H2]; [exfalso; apply (Rlt_irrefl x); apply Rlt_le_trans with lo; [exact H1|];
                                          apply Rle_trans with hi; assumption|].
    destruct (Rle_dec lo x) as [H3|H3]; [exfalso; exact (Rlt_irrefl x (Rlt_le_trans _ _ _ H1 H3))|reflexivity].
  - destruct (Rlt_dec hi x) as [H2|H2].
    + destruct (Rle_dec hi x) as [H3|H3]; [|exfalso; apply H3; left; exact H2].
      destruct (Rle_dec lo hi) as [H4|H4]; [reflexivity|contradiction].
    + destruct (Rle_dec hi x) as [H3|H3].
      * assert (E : x = hi) by (apply Rle_antisym; [apply Rnot_lt_le; exact H2|exact H3]). subst x.
        destruct (Rle_dec lo hi); [reflexivity|contradiction].
      * destruct (Rle_dec lo x) as [H4|H4]; [reflexivity|exfalso; apply H4; apply Rnot_lt_le; exact H1].
Qed.

(* ---- (16) binary64 (Coq's primitive float = the instance Run/RunC13.v executes against the code): NaN is the
         null; the IEEE facts the generic theorems take as premises are proved from the standard library's
         specification ---- *)
Theorem C13_vdiff_null_operand_binary64 :
  forall (n : Z) (v : float) (xs : list float) (i : nat),
  in_range (length xs) (src n i) = true ->
  is_nan (nth i xs v) = true \/ is_nan (nth (Z.to_nat (src n i)) xs v) = true ->
  is_nan (diff_at PrimFloat.sub n v xs i) = true.
Proof.
  intros n v xs i Hr H. apply (diff_at_null d_f64 PrimFloat.sub n v xs i); [|exact Hr|exact H].
  intros a b Hab. apply f64_sub_nan. exact Hab.
Qed.

Theorem C13_vpct_change_binary64 :
  forall (n : Z) (xs : list float),
  exists r, vpct_change d_f64 f64_fops (fun x => x) n xs = Ok r /\ length r = length xs /\
    forall i, (i < length xs)%nat -> nth_error r i = Some (pct_at d_f64 f64_fops (fun x => x) n xs i).
Proof.
  intros n xs.
  apply vpct_change_positional; [intros v; reflexivity|reflexivity].
Qed.

(* clip at binary64, bounds in order (not upper < lower) or NaN: idempotent, NaN kept, result inside the non-NaN bounds *)
Theorem C13_clip_binary64 :
  forall lower upper x : float,
  (is_nan lower = false -> is_nan upper = false -> (upper <? lower)%float = false) ->
  let c := clip_elem d_f64 (fun v => v) PrimFloat.ltb lower upper in
  c (c x) = c x /\ is_nan (c x) = is_nan x /\
  (is_nan x = false ->
   (is_nan lower = false -> (c x <? lower)%float = false) /\
   (is_nan upper = false -> (upper <? c x)%float = false)).
Proof. exact clip_f64. Qed.

Theorem C13_vabs_binary64 :
  forall xs : list float,
  vabs d_f64 abs xs = Ok (map abs xs) /\
  forall i x, nth_error xs i = Some x ->
    exists y, nth_error (map abs xs) i = Some y /\ is_nan y = is_nan x.
Proof.
  intros xs.
  split; [apply vabs_float|]. intros i x Hx. exists (abs x). split; [|apply f64_abs_nan].
  rewrite nth_error_map, Hx. reflexivity.
Qed.

Theorem C13_binary64_instance_is_the_run_instance :
  f64_fops = Tevec.Run.RunC13.f64ops /\ d_f64 = Tevec.Run.RunC13.dict Tevec.Run.RunC13.pF.
Proof. split; [exact f64_fops_is_run_ops|exact d_f64_is_run_dict]. Qed.

(* ---- non-vacuity of (8)-(16) ---- *)
Example C13_ex_audit_lags :
  in_i32 i32_min /\ in_i32 i32_max /\ in_i32 0 /\
  shift i32_min 9 [1; 2] = Ok [9; 9] /\ vdiff dict_int Z.sub i32_max (Some 7) [4; 1] = Ok [7; 7] /\
  vshift dict_int 1 None ([] : list Z) = Panic OtherPanic /\ vdiff dict_int Z.sub 0 None [4] = Panic OtherPanic.
Proof. unfold in_i32, i32_min, i32_max. vm_compute. repeat split; discriminate. Qed.

(* head unmasked with no default on an integer type: returns; head masked: none()'s panic; bfill symmetric *)
Example C13_ex_audit_fills :
  let m := fun v : Z => v <? 2 in
  ffill_mask dict_int m None [3; 1; 5; 0] = Ok [3; 3; 5; 5] /\
  ffill_mask dict_int m None [1; 3] = Panic OtherPanic /\
  bfill_mask dict_int m None [1; 3; 0; 4] = Ok [3; 3; 4; 4] /\
  bfill_mask dict_int m None [3; 1] = Panic OtherPanic /\
  (forall x, hd_error [3; 1; 5; 0] = Some x -> m x = false) /\
  (forall x, hd_error (rev [1; 3; 0; 4]) = Some x -> m x = false) /\
  let d := dict_opt (fun _ : Z => false) in
  ffill d (Some None) [None; Some 1; None] = Ok [None; Some 1; Some 1] /\
  fill d (Some 9) [None; Some 1] = [Some 9; Some 1] /\ is_none d (Some 9) = false.
Proof.
  cbv zeta. repeat split; try (vm_compute; reflexivity).
  - intros x H. cbn in H. injection H as <-. reflexivity.
  - intros x H. cbn in H. injection H as <-. reflexivity.
Qed.

Example C13_ex_audit_clip :
  let d := dict_opt (fun _ : Z => false) in
  vclip d Z.ltb (Some 5) (Some 1) [Some 0; None; Some 3; Some 7] = Ok [Some 5; None; Some 5; Some 1] /\
  (forall a, Z.ltb a a = false) /\ (forall a b c, (a <? b) = true -> (a <? c) = true \/ (c <? b) = true) /\
  (1 <? 5) = true.
Proof. cbv zeta. split; [vm_compute; reflexivity|]. split; [exact Z.ltb_irrefl|]. split; [exact Zltb_cotrans|reflexivity]. Qed.

Example C13_ex_audit_binary64 :
  vpct_change d_f64 f64_fops (fun x => x) 1 [1; 2; nan; 0; 4]%float = Ok [nan; 1; nan; nan; nan]%float /\
  vclip d_f64 PrimFloat.ltb 1%float 3%float [0; nan; 2; 7]%float = Ok [1; nan; 2; 3]%float /\
  (3 <? 1)%float = false /\ is_nan 1%float = false.
Proof. vm_compute. repeat split. Qed.


Print Assumptions C13_shift_positional.
Print Assumptions C13_vshift_positional.
Print Assumptions C13_shift_moves_by_n.
Print Assumptions C13_shift_fills_vacated.
Print Assumptions C13_vshift_int_none_panics.
Print Assumptions C13_vdiff_positional.
Print Assumptions C13_vdiff_integer_formula.
Print Assumptions C13_vdiff_fill_elsewhere.
Print Assumptions C13_vdiff_null_operand.
Print Assumptions C13_vpct_change_positional.
Print Assumptions C13_pct_formula_defined.
Print Assumptions C13_pct_formula_null.
Print Assumptions C13_ffill_mask_positional.
Print Assumptions C13_bfill_mask_positional.
Print Assumptions C13_ffill_positional.
Print Assumptions C13_bfill_positional.
Print Assumptions C13_nearest_earlier.
Print Assumptions C13_no_earlier.
Print Assumptions C13_nearest_later.
Print Assumptions C13_no_later.
Print Assumptions C13_fill_nothing_selected.
Print Assumptions C13_fill_directional_length.
Print Assumptions C13_fill_mask_positional.
Print Assumptions C13_fill_touches_only_nulls.
Print Assumptions C13_fill_length.
Print Assumptions C13_vclip_positional.
Print Assumptions C13_unwrap_law_instances.
Print Assumptions C13_clip_preserves_nullness.
Print Assumptions C13_clip_idempotent.
Print Assumptions C13_clip_contained.
Print Assumptions C13_clip_integer.
Print Assumptions C13_vclip_length.
Print Assumptions C13_abs_positional.
Print Assumptions C13_vabs_elementwise.
Print Assumptions C13_vabs_preserves_nullness.
Print Assumptions C13_vabs_length.
Print Assumptions C13_lag_unsigned_abs.
Print Assumptions C13_lag_i32_min.
Print Assumptions C13_shift_zero_identity.
Print Assumptions C13_shift_beyond_length.
Print Assumptions C13_vshift_returns_iff_fill_exists.
Print Assumptions C13_vdiff_panics_iff_fill_missing.
Print Assumptions C13_lengths_unconditional.
Print Assumptions C13_vdiff_corner_lags.
Print Assumptions C13_vpct_change_corner_lags.
Print Assumptions C13_ffill_head_unmasked.
Print Assumptions C13_bfill_tail_unmasked.
Print Assumptions C13_fill_directional_panics_iff.
Print Assumptions C13_fill_directional_remaining_nulls.
Print Assumptions C13_fill_result_nulls.
Print Assumptions C13_fill_idempotent_and_identity.
Print Assumptions C13_clip_null_bounds.
Print Assumptions C13_clip_reversed_bounds.
Print Assumptions C13_clip_reversed_bounds_refute_idempotence.
Print Assumptions C13_clip_unordered_bounds.
Print Assumptions C13_vdiff_real.
Print Assumptions C13_vpct_change_real.
Print Assumptions C13_clip_real.
Print Assumptions C13_vdiff_null_operand_binary64.
Print Assumptions C13_vpct_change_binary64.
Print Assumptions C13_clip_binary64.
Print Assumptions C13_vabs_binary64.
Print Assumptions C13_binary64_instance_is_the_run_instance.
