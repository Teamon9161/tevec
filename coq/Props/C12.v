(* Props/C12.v — property C12: quantiles, percentile ranks, ranks and partitions are true order
   statistics.  First at the carrier XR = option R, then the index arithmetic of vquantile at binary64, then the
   structural clauses at every carrier and the value of the quantile at binary64.
   Carrier of the first part: XR = option R (None = null); `valid xs` = the non-null elements in order (Spec/Stats.v);
   `rle rev` = `<=` (rev = false) or `>=` (rev = true).  The theorems are stated for ANY sorted
   arrangement s of the valid elements (one exists: C12_sorted_arrangement_exists).             *)
From Coq Require Import Reals Lra Lia List Sorting Permutation ZArith.
From Tevec Require Import Base.Prelude Base.Num Base.XR Spec.Stats Model.SortCmp Model.Quantile
     Model.Rank Model.Partition Proofs.SortCmp Proofs.OrderXR Proofs.Quantile Proofs.Partition Proofs.Rank.
Import ListNotations.
Local Open Scope R_scope.

Theorem C12_sort_is_permutation :
  forall (X : Type) (cmp : X -> X -> comparison) (l : list X), Permutation (isort cmp l) l.
Proof. exact @isort_perm. Qed.

Theorem C12_sort_is_sorted :
  forall (X : Type) (cmp : X -> X -> comparison),
    (forall a b, cle cmp a b = true \/ cle cmp b a = true) ->
    forall l, Sorted (fun a b => cle cmp a b = true) (isort cmp l).
Proof. exact @isort_sorted. Qed.

(* sort_cmp / sort_cmp_rev sort the valid elements ascending / descending and put the nulls last:
   the sorted series is s followed by the nulls, for the sorted arrangement s of the valid elements *)
Theorem C12_sort_cmp_nulls_last :
  forall (rev : bool) (xs : list XR) (s : list R),
    Sorted (rle rev) s -> Permutation s (valid xs) ->
    isort (cmp_dir (DT := IsNoneXR) rev) xs = map Some s ++ repeat None (length xs - nv xs).
Proof. exact isort_canon. Qed.

Theorem C12_sorted_arrangement_exists :
  forall (rev : bool) (l : list R), exists s, Sorted (rle rev) s /\ Permutation s l.
Proof. exact sorted_exists. Qed.

(* with s the ascending arrangement of the n >= 1 valid elements and h = (n-1) q:
   linear  s[floor h] + (s[ceil h] - s[floor h]) (h - floor h);  lower s[floor h];  higher s[ceil h];
   midpoint (s[floor h] + s[ceil h]) / 2 — on BOTH branches of the code (q <= 1/2 ascending select,
   q > 1/2 descending select with 1 - q) *)
Theorem C12_quantile :
  forall (xs : list XR) (q : R) (m : qmethod) (s : list R),
    0 <= q <= 1 -> Sorted Rle s -> Permutation s (valid xs) -> s <> [] ->
    vquantile (Some q) m xs = Ok (Some (Some (quantile_spec s q m))).
Proof. exact vquantile_spec. Qed.

Theorem C12_quantile_null_iff_no_valid :
  forall (xs : list XR) (q : R) (m : qmethod),
    0 <= q <= 1 -> (vquantile (Some q) m xs = Ok (Some None) <-> valid xs = []).
Proof.
  intros xs q m Hq. split.
  - intros H. destruct (valid xs) as [|x l] eqn:E; [reflexivity|exfalso].
    destruct (sorted_exists false (x :: l)) as (s & Hs & HP). rewrite <- E in HP.
    assert (Hne : s <> []) by (intros ->; apply Permutation_nil in HP; rewrite E in HP; discriminate).
    rewrite (vquantile_spec xs q m s Hq Hs HP Hne) in H. discriminate.
  - apply vquantile_all_null. exact Hq.
Qed.

Theorem C12_quantile_rejects_bad_q :
  forall (xs : list XR) (q : R) (m : qmethod), ~ (0 <= q <= 1) -> vquantile (Some q) m xs = Ok None.
Proof. exact vquantile_bad_q. Qed.

Theorem C12_median :
  forall (xs : list XR) (s : list R),
    Sorted Rle s -> Permutation s (valid xs) -> s <> [] ->
    vmedian xs = Ok (Some (quantile_spec s (1 / 2) Linear)).
Proof. exact vmedian_spec. Qed.

(* the mirrored index arithmetic used by the q > 1/2 branch *)
Theorem C12_mirrored_index :
  forall (L : Z) (h : R),
    Rfloor (IZR L - h) = (L - Rceil h)%Z /\ Rceil (IZR L - h) = (L - Rfloor h)%Z.
Proof. intros L h. split; [apply Rfloor_mirror|apply Rceil_mirror]. Qed.

(* L = #{valid < score}, E = #{valid = score}, N = #valid:
   rank: L/N when E = 0, (L + (E+1)/2)/N otherwise;  weak (L+E)/N;  strict L/N *)
Theorem C12_percentile_of :
  forall (xs : list XR) (sc : R) (m : pmethod),
    valid xs <> [] -> vpercentile_of (Some sc) m xs = Some (percentile_spec (valid xs) sc m).
Proof. exact vpercentile_of_spec. Qed.

Theorem C12_percentile_of_null :
  forall (xs : list XR) (sc : XR) (m : pmethod),
    sc = None \/ valid xs = [] -> vpercentile_of sc m xs = None.
Proof.
  intros xs sc m [->|H]; [reflexivity|apply vpercentile_of_all_null; exact H].
Qed.

(* every slot of the output is written; a valid element x gets  #{valid before x} + (#{valid = x} + 1)/2
   (before = smaller, or larger when rev), divided by the valid count when pct; a null gets null *)
Theorem C12_rank :
  forall (pct rev : bool) (xs : list XR) (i : nat),
    (i < length xs)%nat ->
    nth_error (vrank (DX := IsNoneXXR) pct rev xs) i
    = Some (Some (match nth i xs None with
                  | Some x =>
                      let r := INR (count_before rev x (valid xs)) + (INR (count_eq x (valid xs)) + 1) / 2 in
                      Some (if pct then r / INR (length (valid xs)) else r)
                  | None => None
                  end)).
Proof. intros pct rev xs i Hi. apply (proj2 (vrank_spec pct rev xs) i Hi). Qed.

Theorem C12_rank_length :
  forall (pct rev : bool) (xs : list XR), length (vrank (DX := IsNoneXXR) pct rev xs) = length xs.
Proof. intros pct rev xs. apply (proj1 (vrank_spec pct rev xs)). Qed.

(* closed form: with s the sorted (ascending / descending) arrangement of the valid elements, the result
   is a permutation of  [the k+1 first of s] ++ [k+1-n nulls]  — and exactly that list when sort = true *)
Theorem C12_partition_closed_form :
  forall (k : nat) (sort rev : bool) (xs : list XR) (s : list R),
    Sorted (rle rev) s -> Permutation s (valid xs) ->
    exists r, vpartition k sort rev xs = Ok r /\
              Permutation r (map Some (firstn (k + 1) s) ++ repeat None (k + 1 - length s)) /\
              (sort = true -> r = map Some (firstn (k + 1) s) ++ repeat None (k + 1 - length s)).
Proof. exact vpartition_spec. Qed.

(* the property's list: k+1 entries; the non-padding entries `taken` are a sub-multiset of the valid
   elements of size min (k+1) n, each <= (rev: >=) every valid element left out; the rest is null
   padding; sorted when requested *)
Theorem C12_partition :
  forall (k : nat) (sort rev : bool) (xs : list XR),
    exists (r : list XR) (taken rest : list R),
      vpartition k sort rev xs = Ok r /\
      length r = (k + 1)%nat /\
      Permutation (valid xs) (taken ++ rest) /\
      length taken = Nat.min (k + 1) (nv xs) /\
      (forall a b, In a taken -> In b rest -> rle rev a b) /\
      Permutation r (map Some taken ++ repeat None (k + 1 - nv xs)) /\
      (sort = true -> Sorted (rle rev) taken /\ r = map Some taken ++ repeat None (k + 1 - nv xs)).
Proof.
  intros k sort rev xs.
  destruct (sorted_exists rev (valid xs)) as (s & Hs & HP).
  destruct (vpartition_spec k sort rev xs s Hs HP) as (r & Hr & Hperm & Hsort).
  assert (Hlen : length s = nv xs) by (unfold nv; apply Permutation_length; exact HP).
  exists r, (firstn (k + 1) s), (skipn (k + 1) s). unfold part_canon in *. rewrite <- Hlen.
  split; [exact Hr|]. split.
  { rewrite (Permutation_length Hperm). apply (part_canon_length k s). }
  split; [rewrite firstn_skipn; symmetry; exact HP|].
  split; [apply firstn_length|].
  split; [intros a b Ha Hb; eapply sorted_split_le; eassumption|].
  split; [exact Hperm|].
  intros E. split; [apply sorted_firstn; exact Hs|apply Hsort; exact E].
Qed.

(* arg-partition: real indices (distinct, in range, pointing at non-null elements) followed by -1
   padding; the values at the indices are (a permutation of; exactly, when sorted) the k+1 first of s *)
Theorem C12_arg_partition :
  forall (k : nat) (sort rev : bool) (xs : list XR) (s : list R),
    Sorted (rle rev) s -> Permutation s (valid xs) ->
    exists idx : list nat,
      varg_partition k sort rev xs = map Z.of_nat idx ++ repeat (-1)%Z (k + 1 - length s) /\
      NoDup idx /\ (forall i, In i idx -> (i < length xs)%nat) /\
      Permutation (map (fun i => nth i xs None) idx) (map Some (firstn (k + 1) s)) /\
      (sort = true -> map (fun i => nth i xs None) idx = map Some (firstn (k + 1) s)).
Proof. exact varg_partition_spec. Qed.

Theorem C12_arg_partition_length_and_nonnull :
  forall (k : nat) (sort rev : bool) (xs : list XR),
    length (varg_partition k sort rev xs) = (k + 1)%nat /\
    (forall z, In z (varg_partition k sort rev xs) ->
               z = (-1)%Z \/ exists x, nth_error xs (Z.to_nat z) = Some (Some x) /\ (0 <= z)%Z).
Proof.
  intros k sort rev xs.
  destruct (sorted_exists rev (valid xs)) as (s & Hs & HP).
  destruct (varg_partition_spec k sort rev xs s Hs HP) as (idx & E & Hnd & Hr & Hperm & _).
  rewrite E. split.
  - assert (Hl : length idx = length (firstn (k + 1) s)).
    { apply Permutation_length in Hperm. rewrite !map_length in Hperm. exact Hperm. }
    rewrite app_length, map_length, repeat_length, Hl, firstn_length. lia.
  - intros z Hz. apply in_app_or in Hz. destruct Hz as [Hz|Hz]; [right|left; eapply repeat_spec; exact Hz].
    apply in_map_iff in Hz. destruct Hz as (i & <- & Hi).
    assert (Hin : In (nth i xs None) (map Some (firstn (k + 1) s))).
    { apply (Permutation_in _ Hperm). apply in_map_iff. exists i. split; [reflexivity|exact Hi]. }
    apply in_map_iff in Hin. destruct Hin as (x & Hx & _). exists x. split; [|lia].
    rewrite Nat2Z.id. rewrite (nth_error_nth' xs None) by (apply Hr; exact Hi). rewrite <- Hx. reflexivity.
Qed.

Example C12_example_sorted : Sorted Rle [1; 2; 4] /\ Permutation [1; 2; 4] (valid [Some 4; None; Some 1; Some 2]).
Proof.
  split.
  - repeat constructor; lra.
  - cbn. apply Permutation_sym. apply (Permutation_cons_app [1; 2] [] 4). reflexivity.
Qed.

Example C12_example_quantile :
  vquantile (Some (1 / 2)) Lower [Some 4; None; Some 1; Some 2] = Ok (Some (Some 2)).
Proof.
  destruct C12_example_sorted as [Hs HP].
  rewrite (C12_quantile _ (1 / 2) Lower [1; 2; 4]); try assumption; [|lra|discriminate].
  unfold quantile_spec. cbn [length Nat.sub INR].
  replace ((1 + 1) * (1 / 2)) with (IZR 1) by lra. rewrite Rfloor_IZR. reflexivity.
Qed.

Example C12_example_partition :
  exists r, vpartition 3 true false [Some 4; None; Some 1; Some 2] = Ok r /\ r = [Some 1; Some 2; Some 4; None].
Proof.
  destruct C12_example_sorted as [Hs HP].
  destruct (C12_partition_closed_form 3 true false _ [1; 2; 4] Hs HP) as (r & Hr & _ & Hsort).
  exists r. split; [exact Hr|]. rewrite (Hsort eq_refl). reflexivity.
Qed.

Example C12_example_rank :
  nth_error (vrank (DX := IsNoneXXR) false false [Some 2; None; Some 1; Some 1]) 0 = Some (Some (Some (2 + (1 + 1) / 2)))
  /\ nth_error (vrank (DX := IsNoneXXR) false false [Some 2; None; Some 1; Some 1]) 1 = Some (Some None).
Proof.
  split.
  - rewrite C12_rank by (cbn; lia). cbn [nth valid flat_map app]. unfold count_before, count_eq, before_b.
    cbn [filter]. destruct (Rlt_dec 2 2); [lra|]. destruct (Rlt_dec 1 2); [|lra].
    destruct (Req_EM_T 2 2); [|contradiction]. destruct (Req_EM_T 1 2); [lra|]. reflexivity.
  - rewrite C12_rank by (cbn; lia). reflexivity.
Qed.

Print Assumptions C12_sort_is_permutation.
Print Assumptions C12_sort_is_sorted.
Print Assumptions C12_sort_cmp_nulls_last.
Print Assumptions C12_sorted_arrangement_exists.
Print Assumptions C12_quantile.
Print Assumptions C12_quantile_null_iff_no_valid.
Print Assumptions C12_quantile_rejects_bad_q.
Print Assumptions C12_median.
Print Assumptions C12_mirrored_index.
Print Assumptions C12_percentile_of.
Print Assumptions C12_percentile_of_null.
Print Assumptions C12_rank.
Print Assumptions C12_rank_length.
Print Assumptions C12_partition_closed_form.
Print Assumptions C12_partition.
Print Assumptions C12_arg_partition.
Print Assumptions C12_arg_partition_length_and_nonnull.

(* ---- the index arithmetic of vquantile at binary64 -----------------------------------------------------------
   Carrier: Coq's primitive `float` (IEEE 754 binary64; instance NumF64 of Base/F64.v — the carrier the
   correspondence run evaluates and compares with Rust), floor / ceiling = the NumFloor instance of Run/RunC12.v.
   `f2r x` is the real value of a finite float (Flocq's B2R), `Zfloor` / `Zceil` Flocq's floor / ceiling of a real.
   Proofs: Proofs/QIdxFloat.v, through Flocq's specification of IEEE arithmetic (Bmult_correct, Bminus_correct,
   binary_normalize_correct, round_le, round_generic) and Flocq.IEEE754.PrimFloat.  Axioms: the Reals axioms and
   the standard library's specification of the primitive float operations (Floats/FloatAxioms.v); notes/C12.md. *)
From Coq Require Import Floats.
From Flocq Require Import Core.
From Tevec Require Import Base.F64 Proofs.TransQuantile Proofs.RoundSum Proofs.QIdxFloat.
From Tevec Require Run.RunC12.

(* the floor / ceiling instance the theorems below talk about is the one the correspondence run executes *)
Theorem C12_binary64_floor_instance_is_the_run_instance : QIdxFloat.NumFloorF64 = Run.RunC12.NumFloorF64.
Proof. reflexivity. Qed.

(* it computes the mathematical floor / ceiling of the value of every finite float *)
Theorem C12_binary64_floor_ceil :
  forall x : float, PrimFloat.is_finite x = true ->
    @nfloorZ float NumFloorF64 x = Zfloor (f2r x) /\ @nceilZ float NumFloorF64 x = Zceil (f2r x).
Proof. intros x H. split; [apply f64_floorZ_spec|apply f64_ceilZ_spec]; exact H. Qed.

(* `(m as f64)` is exact below 2^53 *)
Theorem C12_binary64_length_cast_exact :
  forall m : nat, (Z.of_nat m < 2 ^ 53)%Z ->
    PrimFloat.is_finite (nofnat (A := float) m) = true /\ f2r (nofnat (A := float) m) = IZR (Z.of_nat m).
Proof. exact nofnat_f64_exact. Qed.

(* the guard `0 <= q && q <= 1` in binary64 comparisons: q is finite (not NaN, not infinite) with value in [0, 1] *)
Theorem C12_binary64_unit_guard :
  forall q : float, nleb (A := float) nzero q && nleb q none = true ->
    PrimFloat.is_finite q = true /\ 0 <= f2r q <= 1.
Proof. exact unit_guard_f64. Qed.

(* THE INDEX LAW, both indices, on the branch the code takes (q <= 0.5: h = fl((n-1) q);  q > 0.5: h = fl((n-1) fl(1-q))):
   h is finite and 0 <= floor h <= ceil h <= n-1, ceil h - floor h <= 1 — for every q in [0, 1] and EVERY n >= 1 *)
Theorem C12_quantile_index_binary64 :
  forall (q : float) (n : nat),
    nleb (A := float) nzero q && nleb q none = true -> (1 <= n)%nat ->
    let h := nmul (nofnat (n - 1)) (if nleb q nhalf then q else nsub none q) in
    PrimFloat.is_finite h = true /\
    (0 <= @nfloorZ float NumFloorF64 h <= @nceilZ float NumFloorF64 h)%Z /\
    (@nceilZ float NumFloorF64 h <= Z.of_nat n - 1)%Z /\
    (@nceilZ float NumFloorF64 h - @nfloorZ float NumFloorF64 h <= 1)%Z.
Proof. exact qidx_f64_in_range_all. Qed.

(* whatever the branch: for n - 1 < 2^53 (the length cast is exact) BOTH products fl((n-1) q) and fl((n-1) fl(1-q))
   give indices in range, for every q in [0, 1]  (idx_in_range h n := the four conjuncts above) *)
Theorem C12_quantile_index_binary64_exact_length :
  forall (n : nat) (q : float),
    (1 <= n)%nat -> (Z.of_nat n <= 2 ^ 53)%Z -> nleb (A := float) nzero q && nleb q none = true ->
    idx_in_range (nmul (nofnat (n - 1)) q) n /\ idx_in_range (nmul (nofnat (n - 1)) (nsub none q)) n.
Proof. exact qidx_f64_in_range. Qed.

(* ... and the bound is needed there: (2^53+3) as f64 = 2^53+4, so with q = 1 the product the code does not form
   (q > 0.5 takes the mirrored branch) would be an index outside 0 .. n-1 *)
Theorem C12_quantile_naive_product_out_of_range :
  exists (n : nat) (q : float),
    nleb (A := float) nzero q && nleb q none = true /\ (2 <= n)%nat /\
    (Z.of_nat n - 1 < @nceilZ float NumFloorF64 (nmul (nofnat (n - 1)) q))%Z.
Proof.
  exists (Z.to_nat (2 ^ 53 + 4)), one. split; [vm_compute; reflexivity|]. split; [lia|].
  unfold nofnat. replace (Z.of_nat (Z.to_nat (2 ^ 53 + 4) - 1)) with 9007199254740995%Z by lia.
  rewrite Z2Nat.id by lia. vm_compute. reflexivity.
Qed.

(* TransQuantile.QIdxLaw (the premise of C10_vquantile_index_in_range / C10_vquantile_never_panics /
   C08_transparent_quantile_index_law) holds at binary64 *)
Theorem C12_quantile_index_law_binary64 : QIdxLaw (A := float) (NF := NumFloorF64).
Proof. exact qidx_law_f64. Qed.

(* hence vquantile / vmedian at binary64 are total, for every null dictionary over f64 (NaN as null, Option<f64>,
   never-null): a value, or the documented Err for q outside [0, 1] (NaN included) — never a panic *)
Theorem C12_quantile_total_binary64 :
  forall (T : Type) (DT : IsNone T float) (q : float) (m : qmethod) (xs : list T),
    (exists r, vquantile (NF := NumFloorF64) q m xs = Ok r /\
               (r = None <-> nleb (A := float) nzero q && nleb q none = false)) /\
    (exists v, vmedian (NF := NumFloorF64) xs = Ok v).
Proof. intros T DT q m xs. split; [apply vquantile_never_panics_f64|apply vmedian_never_panics_f64]. Qed.

Example C12_example_binary64_floor :
  PrimFloat.is_finite (-2.5)%float = true /\
  @nfloorZ float NumFloorF64 (-2.5)%float = (-3)%Z /\ @nceilZ float NumFloorF64 (-2.5)%float = (-2)%Z.
Proof. vm_compute. repeat split. Qed.

Example C12_example_binary64_cast : (Z.of_nat 5 < 2 ^ 53)%Z /\ nofnat (A := float) 5 = 5%float.
Proof. split; [reflexivity|vm_compute; reflexivity]. Qed.

(* q = 0x1.6666666666666p-1 (0.7) passes the guard and takes the mirrored branch: fl(1 - q) = 0.30000000000000004,
   h = fl(4 * that) = 1.2000000000000002 *)
Example C12_example_binary64_index :
  nleb (A := float) nzero 0x1.6666666666666p-1%float && nleb 0x1.6666666666666p-1%float none = true /\
  (1 <= 5)%nat /\ (Z.of_nat 5 <= 2 ^ 53)%Z /\
  nleb 0x1.6666666666666p-1%float (nhalf (A := float)) = false /\
  @nfloorZ float NumFloorF64 (nmul (nofnat (5 - 1)) (nsub none 0x1.6666666666666p-1%float)) = 1%Z /\
  @nceilZ float NumFloorF64 (nmul (nofnat (5 - 1)) (nsub none 0x1.6666666666666p-1%float)) = 2%Z.
Proof.
  split; [vm_compute; reflexivity|]. split; [lia|]. split; [lia|].
  split; [vm_compute; reflexivity|]. split; vm_compute; reflexivity.
Qed.

Example C12_example_binary64_quantile :
  vquantile (NF := NumFloorF64) (DT := IsNoneF64) 0x1.6666666666666p-1%float Lower
            [3%float; nan; 1%float; 2%float; 5%float; 4%float] = Ok (Some 3%float) /\
  vmedian (NF := NumFloorF64) (DT := IsNoneF64) [3%float; nan; 1%float; 2%float; 5%float; 4%float] = Ok 3%float.
Proof. split; vm_compute; reflexivity. Qed.

Print Assumptions C12_binary64_floor_instance_is_the_run_instance.
Print Assumptions C12_binary64_floor_ceil.
Print Assumptions C12_binary64_length_cast_exact.
Print Assumptions C12_binary64_unit_guard.
Print Assumptions C12_quantile_index_binary64.
Print Assumptions C12_quantile_index_binary64_exact_length.
Print Assumptions C12_quantile_naive_product_out_of_range.
Print Assumptions C12_quantile_index_law_binary64.
Print Assumptions C12_quantile_total_binary64.

(* ---- the clauses at EVERY carrier (Proofs/Audit12.v, Proofs/Audit12Float.v) ------------------------------------
   `Num A` is any numeric class instance (binary64 `float`, integers, option R ...), `IsNone T A` any null
   dictionary (NaN-as-null floats, Option<_>, never-null integer types).  No order law of the carrier and no axiom is
   used: these are the structural clauses of the property (how many entries, which entries, never a null, which
   elements the quantile is computed from, which counts the percentile rank divides).  notes/C12.md: the matrix. *)
From Tevec Require Import Model.NullView Proofs.Audit12 Proofs.Audit12Float.
Local Open Scope nat_scope.

(* partition: whenever `T::none()` is a null value (tnone = Ok pad), for EVERY kth (kth >= len included), both sort
   flags, both directions: Ok r with `part_shape`: r = taken ++ nulls, taken non-null elements of the series
   (a sub-multiset of size min (kth+1) n), nulls null, length r = kth + 1.  When `T::none()` panics (the integer
   element types): the call panics exactly when padding is needed (`needs_pad`), and is Ok with the same shape otherwise *)
Theorem C12_partition_any_carrier :
  forall (A : Type) (NA : Num A) (T : Type) (DT : IsNone T A) (DX : IsNoneX T A)
         (kth : nat) (sort rev : bool) (xs : list T),
    match tnone with
    | Ok pad => is_none pad = true -> exists r, vpartition kth sort rev xs = Ok r /\ part_shape kth xs r
    | Panic e => if needs_pad kth sort xs then vpartition kth sort rev xs = Panic e
                 else exists r, vpartition kth sort rev xs = Ok r /\ part_shape kth xs r
    end.
Proof. intros A NA T DT DX. exact vpartition_shape. Qed.

(* ... in the words of the property: kth + 1 entries; min (kth+1) n of them non-null; every non-null entry is an
   element of the series; the non-null entries are a sub-multiset of the non-null elements; nulls come last *)
Theorem C12_partition_shape_facts :
  forall (A : Type) (NA : Num A) (T : Type) (DT : IsNone T A) (kth : nat) (xs r : list T),
    part_shape kth xs r ->
    length r = kth + 1 /\
    length (filter not_none r) = Nat.min (kth + 1) (count_valid xs) /\
    (forall x, In x r -> not_none x = true -> In x xs) /\
    (exists rest, Permutation (filter not_none xs) (filter not_none r ++ rest)) /\
    (exists m, all_valid (firstn m r) /\ all_null (skipn m r)).
Proof.
  intros A NA T DT kth xs r (taken & nulls & rest & -> & Htv & Hnl & Hlt & Hlr & Hperm).
  assert (Hf : filter not_none (taken ++ nulls) = taken).
  { rewrite filter_app, (filter_valid_id _ Htv), (filter_valid_of_null _ Hnl). apply app_nil_r. }
  split; [exact Hlr|]. rewrite Hf. split; [exact Hlt|]. split; [|split].
  - intros x Hx Hxv. apply in_app_or in Hx. destruct Hx as [Hx|Hx].
    + assert (Hin : In x (filter not_none xs)).
      { apply Permutation_in with (taken ++ rest); [symmetry; exact Hperm|]. apply in_or_app. left. exact Hx. }
      apply filter_In in Hin. exact (proj1 Hin).
    + exfalso. unfold all_null in Hnl. rewrite Forall_forall in Hnl. specialize (Hnl x Hx).
      apply not_none_valid in Hxv. congruence.
  - exists rest. exact Hperm.
  - exists (length taken). rewrite firstn_app, Nat.sub_diag, firstn_all. cbn [firstn]. rewrite app_nil_r.
    rewrite skipn_app, Nat.sub_diag, skipn_all. cbn [skipn app]. split; assumption.
Qed.

(* arg-partition never panics and ALWAYS has kth + 1 entries: min (kth+1) n distinct positions of NON-NULL elements
   followed by -1 only *)
Theorem C12_arg_partition_any_carrier :
  forall (A : Type) (NA : Num A) (T : Type) (DT : IsNone T A) (kth : nat) (sort rev : bool) (xs : list T),
    argpart_shape kth xs (varg_partition kth sort rev xs).
Proof. intros A NA T DT. exact varg_partition_shape. Qed.

Theorem C12_arg_partition_shape_facts :
  forall (A : Type) (NA : Num A) (T : Type) (DT : IsNone T A) (kth : nat) (xs : list T) (out : list Z),
    argpart_shape kth xs out ->
    length out = kth + 1 /\
    (forall z, In z out -> z = (-1)%Z \/
       ((0 <= z)%Z /\ exists v, nth_error xs (Z.to_nat z) = Some v /\ not_none v = true)) /\
    (forall i j z, nth_error out i = Some z -> nth_error out j = Some z -> z <> (-1)%Z -> i = j) /\
    (exists m, m = Nat.min (kth + 1) (count_valid xs) /\
               Forall (fun z => (0 <= z)%Z) (firstn m out) /\ skipn m out = repeat (-1)%Z (kth + 1 - count_valid xs)).
Proof.
  intros A NA T DT kth xs out (idx & -> & Hnd & Hl & Hv).
  assert (Hnd' : NoDup (map Z.of_nat idx)).
  { apply FinFun.Injective_map_NoDup; [intros a b; apply Nat2Z.inj|exact Hnd]. }
  split; [rewrite app_length, map_length, repeat_length; lia|]. split; [|split].
  - intros z Hz. apply in_app_or in Hz. destruct Hz as [Hz|Hz]; [right|left; eapply repeat_spec; exact Hz].
    apply in_map_iff in Hz. destruct Hz as (i & <- & Hi). split; [lia|]. rewrite Nat2Z.id. apply Hv. exact Hi.
  - intros i j z Hi Hj Hz.
    assert (Hlt : forall k, nth_error (map Z.of_nat idx ++ repeat (-1)%Z (kth + 1 - count_valid xs)) k = Some z ->
                            nth_error (map Z.of_nat idx) k = Some z).
    { intros k Hk. rewrite nth_error_app in Hk. destruct (k <? length (map Z.of_nat idx))%nat; [exact Hk|].
      rewrite nth_error_repeat in Hk. destruct (_ <? _)%nat; [|discriminate]. injection Hk as <-. contradiction. }
    apply Hlt in Hi. apply Hlt in Hj.
    apply (proj1 (NoDup_nth_error (map Z.of_nat idx)) Hnd' i j); [|congruence].
    apply nth_error_Some. rewrite Hi. discriminate.
  - exists (length idx). split; [exact Hl|].
    rewrite firstn_app, skipn_app, map_length, Nat.sub_diag. cbn [firstn skipn].
    rewrite app_nil_r, <- (map_length Z.of_nat idx), firstn_all, skipn_all. cbn [app]. split; [|reflexivity].
    apply Forall_forall. intros z Hz. apply in_map_iff in Hz. destruct Hz as (i & <- & _). lia.
Qed.

(* quantile: given the carrier's index facts (floor <= ceil < n; proved at option R and at binary64), the result is
   `qvalue q n m vi vj` of two NON-NULL ELEMENTS vi, vj of the series: vj = (sorted valid)[ceil], vi the extremum of
   (sorted valid)[0 .. ceil) — lower / higher / the exact-index case return one of them unchanged *)
Theorem C12_quantile_elements_any_carrier :
  forall (A : Type) (NA : Num A) (T : Type) (DT : IsNone T A) (NF : NumFloor A)
         (q : A) (mth : qmethod) (xs : list T),
    nleb nzero q && nleb q none = true ->
    let n := count_valid xs in
    2 <= n -> qi_of q n <= qj_of q n -> qj_of q n < n ->
    exists vi vj, is_valid_elem xs vi /\ is_valid_elem xs vj /\
      vquantile q mth xs = Ok (Some (qvalue q n mth vi vj)) /\
      (let S0 := isort (cmp_dir (qrev q)) (filter not_none xs) in
       (exists m, nth_error S0 (qj_of q n) = Some m /\ vj = unwrap m) /\
       (qi_of q n <> qj_of q n -> exists x, In x (firstn (qj_of q n) S0) /\ vi = unwrap x)).
Proof. intros A NA T DT NF. exact vquantile_elements. Qed.

(* no valid element: null; exactly one: that element, wherever it stands *)
Theorem C12_quantile_small_any_carrier :
  forall (A : Type) (NA : Num A) (T : Type) (DT : IsNone T A) (NF : NumFloor A)
         (q : A) (mth : qmethod) (xs : list T),
    nleb nzero q && nleb q none = true ->
    (count_valid xs = 0 -> vquantile q mth xs = Ok (Some nnan)) /\
    (count_valid xs = 1 -> exists x, In x xs /\ not_none x = true /\ filter not_none xs = [x] /\
                            vquantile q mth xs = Ok (Some (unwrap x))).
Proof.
  intros A NA T DT NF q mth xs Hg. unfold vquantile. rewrite Hg. cbn [negb]. split.
  - intros ->. reflexivity.
  - intros E. rewrite E. cbn [Nat.eqb]. unfold count_valid in E.
    destruct (filter not_none xs) as [|x [|y r]] eqn:Ef; try discriminate.
    assert (Hx : In x xs /\ not_none x = true) by (apply filter_In; rewrite Ef; left; reflexivity).
    exists x. split; [exact (proj1 Hx)|]. split; [exact (proj2 Hx)|]. split; [reflexivity|].
    assert (Hf : vfirst xs = Some x).
    { unfold vfirst. clear -Ef. induction xs as [|y ys IH]; [discriminate|]. cbn [filter find] in *.
      destruct (not_none y); [injection Ef as -> _; reflexivity|apply IH; exact Ef]. }
    rewrite Hf, (tcast_valid x (proj2 Hx)). reflexivity.
Qed.

(* percentile of score: L = #{non-null < score}, E = #{non-null, not <, == score}, N = #non-null, in the carrier's
   own comparisons; the result is the documented proportion of these counts in the carrier's arithmetic *)
Theorem C12_percentile_of_counts_any_carrier :
  forall (A : Type) (NA : Num A) (T : Type) (DT : IsNone T A) (score : T) (m : pmethod) (xs : list T),
    vpercentile_of score m xs =
    if is_none score then nnan else
    let sc := unwrap score in
    let L := cnt_lt sc xs in let E := cnt_eq sc xs in let N := count_valid xs in
    if N =? 0 then nnan else
    match m with
    | PRank => if 1 <? E then ndiv (nmul (nofnat ((L + 1) + (L + 1 + (E - 1)))) nhalf) (nofnat N)
               else ndiv (nofnat (L + E)) (nofnat N)
    | PWeak => ndiv (nofnat (L + E)) (nofnat N)
    | PStrict => ndiv (nofnat L) (nofnat N)
    end.
Proof. intros A NA T DT. exact vpercentile_of_counts. Qed.

Theorem C12_rank_length_any_carrier :
  forall (A : Type) (NA : Num A) (T : Type) (DT : IsNone T A) (DX : IsNoneX T A) (pct rev : bool) (xs : list T),
    length (vrank pct rev xs) = length xs.
Proof.
  intros A NA T DT DX pct rev xs.
  unfold vrank. destruct (length xs =? 0)%nat eqn:E0; [apply Nat.eqb_eq in E0; rewrite E0; reflexivity|].
  destruct (length xs =? 1)%nat eqn:E1; [apply Nat.eqb_eq in E1; rewrite E1; reflexivity|].
  destruct (get_is_none xs _); [apply repeat_length|].
  match goal with |- context [rank_loop ?a ?b ?c ?d ?e ?f] =>
    pose proof (rank_loop_length a b c d e f) as H; destruct (rank_loop a b c d e f) as [st brk] end.
  cbn [fst r_out] in H. rewrite repeat_length in H. unfold rank_finish.
  destruct brk.
  - rewrite (fold_uset_length (fun i => nth i _ 0%nat) (fun _ => nnan)). exact H.
  - rewrite (fold_uset_length (fun i => nth i _ 0%nat) (fun _ => rk_avg pct _ _ _)). exact H.
Qed.

(* the index premises hold (C12_quantile_index_binary64): for every q passing the guard and every series with
   n >= 2 non-null elements, every null dictionary over f64, the quantile is computed from two non-null ELEMENTS of
   the series; floor <= ceil < n, ceil - floor <= 1.  Lower / Higher / the exact index return an element bit for bit *)
Theorem C12_quantile_elements_binary64 :
  forall (T : Type) (DT : IsNone T float) (q : float) (mth : qmethod) (xs : list T),
    nleb (A := float) nzero q && nleb q none = true ->
    let n := count_valid xs in
    2 <= n ->
    exists vi vj, is_valid_elem xs vi /\ is_valid_elem xs vj /\
      vquantile (NF := NumFloorF64) q mth xs = Ok (Some (qvalue (NF := NumFloorF64) q n mth vi vj)) /\
      (qi_of (NF := NumFloorF64) q n <= qj_of (NF := NumFloorF64) q n < n) /\
      (qj_of (NF := NumFloorF64) q n - qi_of (NF := NumFloorF64) q n <= 1).
Proof.
  intros T DT q mth xs Hg n Hn.
  destruct (qidx_f64_in_range_all q n Hg ltac:(lia)) as (_ & H1 & H2 & H3).
  assert (Hij : (qi_of (NF := NumFloorF64) q n <= qj_of (NF := NumFloorF64) q n)%nat).
  { unfold qi_of, qj_of. cbn [nfloorZ nceilZ NumFloorF64]. lia. }
  assert (Hjn : (qj_of (NF := NumFloorF64) q n < n)%nat).
  { unfold qj_of. cbn [nceilZ NumFloorF64]. lia. }
  destruct (vquantile_elements (NF := NumFloorF64) q mth xs Hg Hn Hij Hjn) as (vi & vj & Hvi & Hvj & E & _).
  exists vi, vj. split; [exact Hvi|]. split; [exact Hvj|]. split; [exact E|]. split; [lia|].
  unfold qi_of, qj_of. cbn [nfloorZ nceilZ NumFloorF64]. lia.
Qed.

(* the linear interpolation r = fl(vi + fl(fl(vj - vi) * fraction)), finite operands, 0 <= fraction <= 1, no overflow:
   r is finite and lies between vi and E = fl(vi + fl(vj - vi)), on vj's side of vi *)
Theorem C12_interpolation_binary64_between :
  forall vi vj fr : float,
    ffin vi = true -> ffin fr = true -> (0 <= f2r fr <= 1)%R ->
    ffin (vj - vi)%float = true -> ffin (vi + (vj - vi))%float = true ->
    let E := f2r (vi + (vj - vi))%float in
    ffin (interp64 vi vj fr) = true /\
    ((0 <= f2r (vj - vi)%float)%R -> (f2r vi <= f2r (interp64 vi vj fr) <= E)%R) /\
    ((f2r (vj - vi)%float <= 0)%R -> (E <= f2r (interp64 vi vj fr) <= f2r vi)%R).
Proof. exact interp_f64_between. Qed.

(* when the difference vj - vi is exact, r lies between vi and vj (both orientations: the mirrored branch has vj <= vi) *)
Theorem C12_interpolation_binary64_exact_difference :
  forall vi vj fr : float,
    ffin vi = true -> ffin vj = true -> ffin fr = true -> (0 <= f2r fr <= 1)%R ->
    ffin (vj - vi)%float = true -> f2r (vj - vi)%float = (f2r vj - f2r vi)%R ->
    ffin (interp64 vi vj fr) = true /\
    ((f2r vi <= f2r vj)%R -> (f2r vi <= f2r (interp64 vi vj fr) <= f2r vj)%R) /\
    ((f2r vj <= f2r vi)%R -> (f2r vj <= f2r (interp64 vi vj fr) <= f2r vi)%R).
Proof.
  intros vi vj fr Fvi Fvj Ffr Hfr Fd Ed.
  assert (Hsum : (f2r vi + f2r (vj - vi)%float)%R = f2r vj) by (rewrite Ed; ring).
  destruct (add_exact vi (vj - vi)%float Fvi Fd) as [FE EE].
  { rewrite Hsum. apply fmt64_f2r. }
  { rewrite Hsum. apply f2r_lt_emax. }
  rewrite Hsum in EE.
  destruct (interp_f64_between vi vj fr Fvi Ffr Hfr Fd FE) as (F & H1 & H2). rewrite EE in H1, H2.
  split; [exact F|]. split; intros H; [apply H1|apply H2]; rewrite Ed; lra.
Qed.

(* ... which is the case whenever the two elements are within a factor two of each other (Sterbenz) *)
Theorem C12_binary64_difference_exact_sterbenz :
  forall vi vj : float,
    ffin vi = true -> ffin vj = true -> (f2r vi / 2 <= f2r vj <= 2 * f2r vi)%R ->
    ffin (vj - vi)%float = true /\ f2r (vj - vi)%float = (f2r vj - f2r vi)%R.
Proof. exact sterbenz_f64. Qed.

(* and WITHOUT exactness the claim "r in [vi, vj]" is false at fraction = 1 (vi = -1, vj = 2^-53 + 2^-105: r = 2^-52) *)
Theorem C12_interpolation_binary64_overshoot :
  exists vi vj fr : float,
    ffin vi = true /\ ffin vj = true /\ ffin fr = true /\ PrimFloat.leb vi vj = true /\
    PrimFloat.leb PrimFloat.zero fr = true /\ PrimFloat.leb fr PrimFloat.one = true /\ ffin (vj - vi)%float = true /\
    PrimFloat.ltb vj (interp64 vi vj fr) = true.
Proof.
  exists (-1)%float, 0x1.0000000000001p-53%float, 1%float. vm_compute. repeat split.
Qed.

(* ... and the overshoot is reachable through vquantile: 50 valid elements {-1, 2^-53 + 2^-105, 1 x 48}, q = fl(1/49)
   (fl(49 q) = 0.9999999999999999: floor 0, ceil 1, fraction = 1): the linear quantile 2^-52 exceeds the `higher` quantile *)
Theorem C12_quantile_binary64_linear_above_higher :
  nleb (A := float) nzero overshoot_q && nleb overshoot_q none = true /\
  vquantile (NF := NumFloorF64) (DT := IsNoneF64) overshoot_q Linear overshoot_series = Ok (Some 0x1p-52%float) /\
  vquantile (NF := NumFloorF64) (DT := IsNoneF64) overshoot_q Higher overshoot_series = Ok (Some 0x1.0000000000001p-53%float) /\
  PrimFloat.ltb 0x1.0000000000001p-53%float 0x1p-52%float = true.
Proof. vm_compute. repeat split. Qed.

(* the partition clauses at the dictionaries the correspondence run executes: f64 with NaN as null (T::none() = NaN) *)
Theorem C12_partition_binary64 :
  forall (kth : nat) (sort rev : bool) (xs : list float),
    exists r, vpartition (DT := IsNoneF64) (DX := Run.RunC12.DXf) kth sort rev xs = Ok r /\
              part_shape (DT := IsNoneF64) kth xs r.
Proof.
  intros kth sort rev xs.
  exact (vpartition_shape (DT := IsNoneF64) (DX := Run.RunC12.DXf) kth sort rev xs eq_refl).
Qed.

(* ... and the never-null dictionary of the integer element types (T::none() panics), as the run executes it — over
   float elements, an i32 series being rendered by its exact f64 values: a panic exactly when padding is needed *)
Theorem C12_partition_integer_types :
  forall (kth : nat) (sort rev : bool) (xs : list float),
    if needs_pad (DT := Run.RunC12.Dn) kth sort xs
    then vpartition (DT := Run.RunC12.Dn) (DX := Run.RunC12.DXn) kth sort rev xs = Panic OtherPanic
    else exists r, vpartition (DT := Run.RunC12.Dn) (DX := Run.RunC12.DXn) kth sort rev xs = Ok r /\
                   part_shape (DT := Run.RunC12.Dn) kth xs r.
Proof.
  intros kth sort rev xs.
  exact (vpartition_shape (DT := Run.RunC12.Dn) (DX := Run.RunC12.DXn) kth sort rev xs).
Qed.

Example C12_example_any_carrier_partition :
  vpartition (DT := IsNoneF64) (DX := Run.RunC12.DXf) 5 true false [3%float; nan; 1%float] 
  = Ok [1%float; 3%float; nan; nan; nan; nan]
  /\ varg_partition (DT := IsNoneF64) 5 true false [3%float; nan; 1%float] = [2; 0; -1; -1; -1; -1]%Z
  /\ vpartition (DT := Run.RunC12.Dn) (DX := Run.RunC12.DXn) 5 false false [3%float; 1%float] = Panic OtherPanic
  /\ needs_pad (DT := Run.RunC12.Dn) 5 false [3%float; 1%float] = true
  /\ needs_pad (DT := Run.RunC12.Dn) 1 false [3%float; 1%float] = false.
Proof. vm_compute. repeat split. Qed.

Example C12_example_quantile_elements_premises :
  nleb (A := float) nzero 0.25%float && nleb 0.25%float none = true /\
  count_valid (DT := IsNoneF64) [3%float; nan; 1%float; 2%float] = 3 /\
  qi_of (NF := NumFloorF64) 0.25%float 3 = 0 /\ qj_of (NF := NumFloorF64) 0.25%float 3 = 1 /\
  vquantile (NF := NumFloorF64) (DT := IsNoneF64) 0.25%float Linear [3%float; nan; 1%float; 2%float] = Ok (Some 1.5%float).
Proof. vm_compute. repeat split. Qed.

Example C12_example_interpolation_premises :
  ffin 1%float = true /\ ffin 0.5%float = true /\ ffin (2 - 1)%float = true /\ ffin (1 + (2 - 1))%float = true /\
  interp64 1%float 2%float 0.5%float = 1.5%float /\ PrimFloat.leb 1%float 2%float = true.
Proof. vm_compute. repeat split. Qed.

Print Assumptions C12_partition_any_carrier.
Print Assumptions C12_partition_shape_facts.
Print Assumptions C12_arg_partition_any_carrier.
Print Assumptions C12_arg_partition_shape_facts.
Print Assumptions C12_quantile_elements_any_carrier.
Print Assumptions C12_quantile_small_any_carrier.
Print Assumptions C12_percentile_of_counts_any_carrier.
Print Assumptions C12_rank_length_any_carrier.
Print Assumptions C12_quantile_elements_binary64.
Print Assumptions C12_interpolation_binary64_between.
Print Assumptions C12_interpolation_binary64_exact_difference.
Print Assumptions C12_binary64_difference_exact_sterbenz.
Print Assumptions C12_interpolation_binary64_overshoot.
Print Assumptions C12_quantile_binary64_linear_above_higher.
Print Assumptions C12_partition_binary64.
Print Assumptions C12_partition_integer_types.
