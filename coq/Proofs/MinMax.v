(* Proofs/MinMax.v — ts_vminmaxnorm (Model/Norm.v) at XR = option R with float-like nulls: the lazily
   re-searched (max, max_idx) / (min, min_idx) pairs always describe the greatest / least valid element of the
   window, hence the output is (x - min) / (max - min), null when max = min, x is null, or below min_periods.
   The maximum and the minimum side are one proof over a direction (geb, le').                          *)
From Coq Require Import Reals Lra Lia List Bool.
From Tevec Require Import Base.Prelude Base.Num Base.XR Spec.Stats Model.Driver Proofs.Driver
     Model.Features Model.Cmp Model.Norm Proofs.IdxRun Proofs.CmpOrd Proofs.Norm.
Import ListNotations.
Local Open Scope R_scope.

(* greatest / least element of a list: a fold of a choice `op` that returns the `le`-greater of its arguments *)
Section FoldPick.
  Variable op : R -> R -> R.
  Variable le : R -> R -> Prop.
  Hypothesis op_pick : forall a b, op a b = a \/ op a b = b.
  Hypothesis op_l : forall a b, le a (op a b).
  Hypothesis op_r : forall a b, le b (op a b).
  Hypothesis le_refl : forall a, le a a.
  Hypothesis le_trans : forall a b c, le a b -> le b c -> le a c.
  Hypothesis le_antisym : forall a b, le a b -> le b a -> a = b.

  Lemma fold_pick_spec l : forall a0,
    (le a0 (fold_left op l a0) /\ forall a, In a l -> le a (fold_left op l a0)) /\
    (fold_left op l a0 = a0 \/ In (fold_left op l a0) l).
  Proof.
    induction l as [|b l IH]; intros a0; cbn [fold_left].
    - split; [split; [apply le_refl|intros a []]|left; reflexivity].
    - destruct (IH (op a0 b)) as [[H1 H2] H3]. split; [split|].
      + apply le_trans with (op a0 b); [apply op_l|exact H1].
      + intros a [<-|Ha]; [apply le_trans with (op a0 b); [apply op_r|exact H1]|apply H2; exact Ha].
      + destruct H3 as [H3|H3]; [|right; right; exact H3].
        rewrite H3. destruct (op_pick a0 b) as [->| ->]; [left; reflexivity|right; left; reflexivity].
  Qed.

  Lemma fold_pick_unique a0 l m :
    In m (a0 :: l) -> (forall a, In a (a0 :: l) -> le a m) -> fold_left op l a0 = m.
  Proof.
    intros Hin Hub. destruct (fold_pick_spec l a0) as [[H1 H2] H3]. apply le_antisym.
    - destruct H3 as [->|H3]; apply Hub; [left; reflexivity|right; exact H3].
    - destruct Hin as [<-|Hin]; [exact H1|apply H2; exact Hin].
  Qed.
End FoldPick.

Lemma Rmax_pick a b : Rmax a b = a \/ Rmax a b = b.
Proof. unfold Rmax. destruct (Rle_dec a b); [right|left]; reflexivity. Qed.
Lemma Rmin_pick a b : Rmin a b = a \/ Rmin a b = b.
Proof. unfold Rmin. destruct (Rle_dec a b); [left|right]; reflexivity. Qed.

Lemma lmaxR_spec l m : In m l -> (forall a, In a l -> a <= m) -> lmaxR l = m.
Proof.
  destruct l as [|a0 l]; [intros []|].
  exact (fold_pick_unique Rmax Rle Rmax_pick Rmax_l Rmax_r Rle_refl Rle_trans Rle_antisym a0 l m).
Qed.
Lemma lminR_spec l m : In m l -> (forall a, In a l -> m <= a) -> lminR l = m.
Proof.
  destruct l as [|a0 l]; [intros []|].
  exact (fold_pick_unique Rmin (fun a b => b <= a) Rmin_pick Rmin_l Rmin_r Rle_refl
           (fun a b c H1 H2 => Rle_trans c b a H2 H1) (fun a b H1 H2 => Rle_antisym a b H2 H1) a0 l m).
Qed.

Definition xv (xs : list XR) (j : nat) : XR := match nth_error xs j with Some v => v | None => None end.

Lemma xv_nth xs j v : nth_error xs j = Some v -> xv xs j = v.
Proof. intros H. unfold xv. rewrite H. reflexivity. Qed.

Lemma In_valid_seg_R xs a b r :
  In r (valid (seg a b xs)) <-> exists j, (a <= j < b)%nat /\ xv xs j = Some r.
Proof.
  unfold valid. rewrite in_flat_map. split.
  - intros (o & Ho & Hr). destruct o as [x|]; [|contradiction]. destruct Hr as [->|[]].
    apply In_nth_error in Ho. destruct Ho as [k Hk]. rewrite nth_error_seg in Hk.
    destruct (k <? b - a)%nat eqn:E; [|discriminate]. apply Nat.ltb_lt in E.
    exists (a + k)%nat. split; [lia|]. apply xv_nth. exact Hk.
  - intros (j & Hj & Hx). exists (Some r). split; [|left; reflexivity].
    apply nth_error_In with (n := (j - a)%nat). rewrite nth_error_seg.
    rewrite (ltb_true (j - a) (b - a)) by lia.
    replace (a + (j - a))%nat with j by lia.
    unfold xv in Hx. destruct (nth_error xs j) as [v|]; [rewrite Hx; reflexivity|discriminate].
Qed.

Section Dir.
  Variable xs : list XR.
  Variable geb : XR -> XR -> bool.       (* geb cached candidate: the candidate replaces the cached value *)
  Variable le' : R -> R -> Prop.         (* le' m x : x is at least as extreme as m *)
  Variable sent : R.
  Hypothesis geb_le : forall m x, geb (Some m) (Some x) = true <-> le' m x.
  Hypothesis le_refl' : forall a, le' a a.
  Hypothesis le_trans' : forall a b c, le' a b -> le' b c -> le' a c.
  Hypothesis le_total' : forall a b, ~ le' a b -> le' b a.
  Hypothesis sent_le : forall r, In (Some r) xs -> le' sent r.

  Fixpoint scan_gen (i cnt : nat) (m : XR) (mi : nat) : res (XR * nat) :=
    match cnt with
    | O => Ok (m, mi)
    | S c => do v <- uget xs i;
             if not_none v then
               let x := unwrap v in
               if geb m x then scan_gen (S i) c x i else scan_gen (S i) c m mi
             else scan_gen (S i) c m mi
    end.

  (* the pair (m, mi) describes the positions [a, b): either m is the extreme valid value, held at mi inside
     the interval, or the interval has no valid element and m is the sentinel *)
  Definition OKg (a b : nat) (m : XR) (mi : nat) : Prop :=
    (exists r, m = Some r /\ (a <= mi < b)%nat /\ xv xs mi = Some r /\
               forall j r', (a <= j < b)%nat -> xv xs j = Some r' -> le' r' r) \/
    (m = Some sent /\ forall j, (a <= j < b)%nat -> xv xs j = None).

  Definition upd (m : XR) (mi i : nat) (v : XR) : XR * nat :=
    if not_none v then (if geb m (unwrap v) then (unwrap v, i) else (m, mi)) else (m, mi).

  Lemma upd_ok a i m mi v :
    OKg a i m mi -> (a <= i)%nat -> nth_error xs i = Some v ->
    OKg a (S i) (fst (upd m mi i v)) (snd (upd m mi i v)).
  Proof.
    intros HOK Hai Hv. pose proof (xv_nth xs i v Hv) as Hxi. unfold upd.
    destruct v as [x|]; cbn [not_none is_none IsNoneXR IsNone_float nisnan NumXR xisnan negb unwrap].
    - assert (Hin : In (Some x) xs) by (apply nth_error_In with i; exact Hv).
      destruct HOK as [(r & -> & Hmi & Hxm & Hub)|(-> & Hnone)].
      + destruct (geb (Some r) (Some x)) eqn:E; cbn [fst snd].
        * apply geb_le in E. left. exists x. split; [reflexivity|]. split; [lia|]. split; [exact Hxi|].
          intros j r' Hj Hr'. destruct (Nat.eq_dec j i) as [->|Hne].
          -- rewrite Hxi in Hr'. injection Hr' as <-. apply le_refl'.
          -- apply le_trans' with r; [apply (Hub j); [lia|exact Hr']|exact E].
        * left. exists r. split; [reflexivity|]. split; [lia|]. split; [exact Hxm|].
          intros j r' Hj Hr'. destruct (Nat.eq_dec j i) as [->|Hne].
          -- rewrite Hxi in Hr'. injection Hr' as <-. apply le_total'. intros Hc.
             apply geb_le in Hc. congruence.
          -- apply (Hub j); [lia|exact Hr'].
      + assert (E : geb (Some sent) (Some x) = true) by (apply geb_le, sent_le; exact Hin).
        rewrite E. cbn [fst snd]. left. exists x. split; [reflexivity|]. split; [lia|]. split; [exact Hxi|].
        intros j r' Hj Hr'. destruct (Nat.eq_dec j i) as [->|Hne].
        * rewrite Hxi in Hr'. injection Hr' as <-. apply le_refl'.
        * rewrite Hnone in Hr' by lia. discriminate.
    - cbn [fst snd]. destruct HOK as [(r & -> & Hmi & Hxm & Hub)|(-> & Hnone)].
      + left. exists r. split; [reflexivity|]. split; [lia|]. split; [exact Hxm|].
        intros j r' Hj Hr'. destruct (Nat.eq_dec j i) as [->|Hne]; [rewrite Hxi in Hr'; discriminate|].
        apply (Hub j); [lia|exact Hr'].
      + right. split; [reflexivity|]. intros j Hj. destruct (Nat.eq_dec j i) as [->|Hne]; [exact Hxi|].
        apply Hnone. lia.
  Qed.

  Lemma scan_gen_step i c m mi v :
    nth_error xs i = Some v ->
    scan_gen i (S c) m mi = scan_gen (S i) c (fst (upd m mi i v)) (snd (upd m mi i v)).
  Proof.
    intros Hv. cbn [scan_gen]. unfold uget. rewrite Hv. cbn [bind]. unfold upd.
    destruct (not_none v); [destruct (geb m (unwrap v))|]; reflexivity.
  Qed.

  Lemma scan_gen_spec : forall cnt i m mi a,
    OKg a i m mi -> (a <= i)%nat -> (i + cnt <= length xs)%nat ->
    exists m' mi', scan_gen i cnt m mi = Ok (m', mi') /\ OKg a (i + cnt) m' mi'.
  Proof.
    induction cnt as [|cnt IH]; intros i m mi a HOK Hai Hlen.
    - exists m, mi. rewrite Nat.add_0_r. split; [reflexivity|exact HOK].
    - destruct (nth_error_Some_lt xs i) as [v Hv]; [lia|].
      rewrite (scan_gen_step i cnt m mi v Hv). replace (i + S cnt)%nat with (S i + cnt)%nat by lia.
      apply IH; [apply upd_ok; assumption|lia|lia].
  Qed.

  (* the lazy re-search at the top of step e: [a0, e) was described, the window now starts at a *)
  Lemma research_ok a0 a e m mi :
    OKg a0 e m mi -> (a0 <= a <= e)%nat -> (e <= length xs)%nat ->
    exists m' mi',
      (if (mi <? a)%nat then scan_gen a (e - a) (Some sent) mi else Ok (m, mi)) = Ok (m', mi') /\
      OKg a e m' mi'.
  Proof.
    intros HOK Ha He. destruct (mi <? a)%nat eqn:E.
    - destruct (scan_gen_spec (e - a) a (Some sent) mi a) as (m' & mi' & H1 & H2); [|lia|lia|].
      { right. split; [reflexivity|]. intros j Hj. lia. }
      exists m', mi'. split; [exact H1|]. replace (a + (e - a))%nat with e in H2 by lia. exact H2.
    - apply Nat.ltb_ge in E. exists m, mi. split; [reflexivity|].
      destruct HOK as [(r & -> & Hmi & Hxm & Hub)|(-> & Hnone)].
      + left. exists r. split; [reflexivity|]. split; [lia|]. split; [exact Hxm|].
        intros j r' Hj Hr'. apply (Hub j); [lia|exact Hr'].
      + right. split; [reflexivity|]. intros j Hj. apply Hnone. lia.
  Qed.

  (* with a valid element in the interval the pair is the extreme valid value *)
  Lemma OKg_extreme a b m mi j0 r0 :
    OKg a b m mi -> (a <= j0 < b)%nat -> xv xs j0 = Some r0 ->
    exists r, m = Some r /\ In r (valid (seg a b xs)) /\ forall r', In r' (valid (seg a b xs)) -> le' r' r.
  Proof.
    intros [(r & -> & Hmi & Hxm & Hub)|(-> & Hnone)] Hj Hx.
    - exists r. split; [reflexivity|]. split; [apply In_valid_seg_R; exists mi; split; assumption|].
      intros r' Hr'. apply In_valid_seg_R in Hr'. destruct Hr' as (j & Hj' & Hxj). apply (Hub j); assumption.
    - rewrite Hnone in Hx by exact Hj. discriminate.
  Qed.
End Dir.

(* the model's two scans are the generic scan in the two directions; the combined loop is both *)
Definition gmax (m x : XR) : bool := nleb m x.
Definition gmin (m x : XR) : bool := nleb x m.

Lemma scan_max_gen xs : forall cnt i m mi, scan_max (T := XR) xs i cnt m mi = scan_gen xs gmax i cnt m mi.
Proof.
  induction cnt as [|cnt IH]; intros i m mi; [reflexivity|]. cbn [scan_max scan_gen].
  destruct (uget xs i) as [v|k]; [|reflexivity]. cbn [bind]. unfold gmax.
  destruct (not_none v); [destruct (nleb m (unwrap v))|]; apply IH.
Qed.
Lemma scan_min_gen xs : forall cnt i m mi, scan_min (T := XR) xs i cnt m mi = scan_gen xs gmin i cnt m mi.
Proof.
  induction cnt as [|cnt IH]; intros i m mi; [reflexivity|]. cbn [scan_min scan_gen].
  destruct (uget xs i) as [v|k]; [|reflexivity]. cbn [bind]. unfold gmin.
  destruct (not_none v); [destruct (nleb (unwrap v) m)|]; apply IH.
Qed.
Lemma scan_both_split xs : forall cnt i mx mxi mn mni,
  scan_both (T := XR) xs i cnt mx mxi mn mni =
  do r1 <- scan_gen xs gmax i cnt mx mxi; do r2 <- scan_gen xs gmin i cnt mn mni; Ok (r1, r2).
Proof.
  induction cnt as [|cnt IH]; intros i mx mxi mn mni; [reflexivity|]. cbn [scan_both scan_gen].
  destruct (uget xs i) as [v|k]; [|reflexivity]. cbn [bind]. unfold gmax, gmin.
  destruct (not_none v); [|apply IH].
  destruct (nleb mx (unwrap v)), (nleb (unwrap v) mn); apply IH.
Qed.

Lemma gmax_le m x : gmax (Some m) (Some x) = true <-> m <= x.
Proof. unfold gmax. cbn. destruct (Rle_dec m x); split; intros; try reflexivity; try assumption; try discriminate; contradiction. Qed.
Lemma gmin_le m x : gmin (Some m) (Some x) = true <-> x <= m.
Proof. unfold gmin. cbn. destruct (Rle_dec x m); split; intros; try reflexivity; try assumption; try discriminate; contradiction. Qed.

Section MM.
  Variables lo hi : R.
  Variable xs : list XR.
  Hypothesis Hb : forall r, In (Some r) xs -> lo <= r <= hi.
  Variable wd : nat.
  Hypothesis Hwd : (1 <= wd)%nat.
  Variable mp : nat.

  Definition OKmax := OKg xs (fun m x => m <= x) lo.
  Definition OKmin := OKg xs (fun m x => x <= m) hi.
  Definition cntR (a b : nat) : nat := nv (seg a b xs).

  Definition PreMM (k : nat) (s : @mm XR) : Prop :=
    mm_n s = cntR (wstart wd k) k /\
    OKmax (wstart wd (k - 1)) k (mm_max s) (mm_maxi s) /\
    OKmin (wstart wd (k - 1)) k (mm_min s) (mm_mini s).

  Definition mm_at (k : nat) : XR :=
    match xv xs k with
    | Some x =>
        let V := valid (seg (wstart wd k) (S k) xs) in
        if (mp <=? length V)%nat then
          (if Req_EM_T (lmaxR V) (lminR V) then None else Some ((x - lminR V) / (lmaxR V - lminR V)))
        else None
    | None => None
    end.

  Lemma isv_R (v : XR) : not_none v = match v with Some _ => true | None => false end.
  Proof. destruct v; reflexivity. Qed.

  Lemma cntR_gcount a b : cntR a b = gcount xs a b.
  Proof.
    unfold cntR, gcount, govs, seg. rewrite skipn_map, firstn_map.
    induction (firstn (b - a) (skipn a xs)) as [|[x|] l IH]; [reflexivity|exact (f_equal S IH)|exact IH].
  Qed.

  Lemma max_dir_research a0 a e m mi :
    OKmax a0 e m mi -> (a0 <= a <= e)%nat -> (e <= length xs)%nat ->
    exists m' mi', (if (mi <? a)%nat then scan_gen xs gmax a (e - a) (Some lo) mi else Ok (m, mi)) = Ok (m', mi') /\
                   OKmax a e m' mi'.
  Proof.
    apply (research_ok xs gmax (fun m x : R => m <= x) lo gmax_le); try (intros; cbv beta in *; lra).
    intros r Hr. apply Hb in Hr. lra.
  Qed.
  Lemma min_dir_research a0 a e m mi :
    OKmin a0 e m mi -> (a0 <= a <= e)%nat -> (e <= length xs)%nat ->
    exists m' mi', (if (mi <? a)%nat then scan_gen xs gmin a (e - a) (Some hi) mi else Ok (m, mi)) = Ok (m', mi') /\
                   OKmin a e m' mi'.
  Proof.
    apply (research_ok xs gmin (fun m x : R => x <= m) hi gmin_le); try (intros; cbv beta in *; lra).
    intros r Hr. apply Hb in Hr. lra.
  Qed.
  Lemma max_upd a i m mi v :
    OKmax a i m mi -> (a <= i)%nat -> nth_error xs i = Some v ->
    OKmax a (S i) (fst (upd gmax m mi i v)) (snd (upd gmax m mi i v)).
  Proof.
    apply (upd_ok xs gmax (fun m x : R => m <= x) lo gmax_le); try (intros; cbv beta in *; lra).
    intros r Hr. apply Hb in Hr. lra.
  Qed.
  Lemma min_upd a i m mi v :
    OKmin a i m mi -> (a <= i)%nat -> nth_error xs i = Some v ->
    OKmin a (S i) (fst (upd gmin m mi i v)) (snd (upd gmin m mi i v)).
  Proof.
    apply (upd_ok xs gmin (fun m x : R => x <= m) hi gmin_le); try (intros; cbv beta in *; lra).
    intros r Hr. apply Hb in Hr. lra.
  Qed.

  Lemma mm_research_spec k s :
    (k < length xs)%nat -> PreMM k s ->
    exists s1, mm_research (Some lo) (Some hi) xs s (start_of wd k) k = Ok s1 /\
               mm_n s1 = mm_n s /\
               OKmax (wstart wd k) k (mm_max s1) (mm_maxi s1) /\
               OKmin (wstart wd k) k (mm_min s1) (mm_mini s1).
  Proof.
    intros Hk (Hn & HM & Hm). unfold mm_research. rewrite (start_of_wstart wd Hwd).
    assert (Hmono : (wstart wd (k - 1) <= wstart wd k <= k)%nat) by (unfold wstart; lia).
    destruct (k <? wd - 1)%nat eqn:Ew.
    - apply Nat.ltb_lt in Ew. exists s. split; [reflexivity|]. split; [reflexivity|].
      replace (wstart wd k) with (wstart wd (k - 1)) by (unfold wstart; lia). split; assumption.
    - set (a := wstart wd k) in *.
      destruct (max_dir_research (wstart wd (k - 1)) a k (mm_max s) (mm_maxi s))
        as (mx & mxi & HrM & HOKM); try assumption; try lia.
      destruct (min_dir_research (wstart wd (k - 1)) a k (mm_min s) (mm_mini s))
        as (mn & mni & Hrm & HOKm); try assumption; try lia.
      exists {| mm_max := mx; mm_maxi := mxi; mm_min := mn; mm_mini := mni; mm_n := mm_n s |}.
      cbn [mm_max mm_maxi mm_min mm_mini mm_n]. split; [|split; [reflexivity|split; assumption]].
      destruct (mm_maxi s <? a)%nat, (mm_mini s <? a)%nat.
      + rewrite scan_both_split, HrM. cbn [bind]. rewrite Hrm. cbn [bind fst snd]. reflexivity.
      + rewrite scan_max_gen, HrM. cbn [bind fst snd]. injection Hrm as <- <-. reflexivity.
      + rewrite scan_min_gen, Hrm. cbn [bind fst snd]. injection HrM as <- <-. reflexivity.
      + injection HrM as <- <-. injection Hrm as <- <-. destruct s; reflexivity.
  Qed.

  (* `if start.is_some() && uget(start).not_none() { n -= 1 }` takes a state that describes the window of step k
     to the state step k + 1 starts from *)
  Lemma mm_post_spec k (s2 : @mm XR) (o : XR) :
    (k < length xs)%nat -> mm_n s2 = cntR (wstart wd k) (S k) ->
    OKmax (wstart wd k) (S k) (mm_max s2) (mm_maxi s2) -> OKmin (wstart wd k) (S k) (mm_min s2) (mm_mini s2) ->
    exists s3,
      (do s3 <- match start_of wd k with
                | None => Ok s2
                | Some st =>
                    do v0 <- uget xs st;
                    if not_none v0 then
                      do n' <- usub (mm_n s2) 1;
                      Ok {| mm_max := mm_max s2; mm_maxi := mm_maxi s2; mm_min := mm_min s2;
                            mm_mini := mm_mini s2; mm_n := n' |}
                    else Ok s2
                end; Ok (s3, o)) = Ok (s3, o) /\ PreMM (S k) s3.
  Proof.
    intros Hk Hn HM Hm. rewrite cntR_gcount in Hn.
    assert (Hpre : forall s3, mm_max s3 = mm_max s2 -> mm_maxi s3 = mm_maxi s2 -> mm_min s3 = mm_min s2 ->
                     mm_mini s3 = mm_mini s2 -> mm_n s3 = gcount xs (wstart wd (S k)) (S k) -> PreMM (S k) s3).
    { intros s3 E1 E2 E3 E4 E5. split; [rewrite cntR_gcount; exact E5|]. cbn [Nat.sub].
      rewrite Nat.sub_0_r, E1, E2, E3, E4. split; assumption. }
    pose proof (leave_count xs wd k Hwd Hk) as HL. destruct (start_of wd k) as [st|].
    - destruct HL as (v0 & Hv0 & Hc0). rewrite (uget_nth _ _ _ Hv0). cbn [bind]. unfold gisv in Hc0.
      destruct (not_none v0).
      + rewrite usub_ok by lia. cbn [bind]. eexists. split; [reflexivity|].
        apply Hpre; cbn [mm_max mm_maxi mm_min mm_mini mm_n]; try reflexivity. lia.
      + exists s2. split; [reflexivity|]. apply Hpre; try reflexivity. lia.
    - exists s2. split; [reflexivity|]. apply Hpre; try reflexivity. lia.
  Qed.

  Lemma mmnorm_cb_step k v s :
    nth_error xs k = Some v -> PreMM k s ->
    exists s' o, mmnorm_cb (Some lo) (Some hi) mp xs s (start_of wd k, k, v) = Ok (s', o) /\
                 PreMM (S k) s' /\ o = mm_at k.
  Proof.
    intros Hv HP.
    assert (Hk : (k < length xs)%nat) by (apply nth_error_Some; congruence).
    destruct (mm_research_spec k s Hk HP) as (s1 & Hs1 & Hn1 & HM & Hm).
    destruct HP as (Hn & _ & _).
    unfold mmnorm_cb. rewrite Hs1. cbn [bind].
    set (a := wstart wd k) in *.
    assert (Hak : (a <= k)%nat) by (unfold a, wstart; lia).
    (* the update by the current element is one scan step in each direction *)
    pose proof (max_upd a k (mm_max s1) (mm_maxi s1) v HM Hak Hv) as HM'.
    pose proof (min_upd a k (mm_min s1) (mm_mini s1) v Hm Hak Hv) as Hm'.
    assert (Hcnt : cntR a (S k) = (mm_n s1 + gisv v)%nat)
      by (rewrite Hn1, Hn, !cntR_gcount; apply gcount_snoc; assumption).
    unfold mm_at. rewrite (xv_nth xs k v Hv). fold a.
    unfold upd in HM', Hm'.
    destruct v as [x|]; cbn [gisv not_none is_none IsNoneXR IsNone_float nisnan NumXR xisnan negb unwrap] in *.
    - (* valid current element *)
      unfold gmax in HM'. unfold gmin in Hm'.
      set (pM := if nleb (mm_max s1) (Some x) then (Some x, k) else (mm_max s1, mm_maxi s1)) in *.
      set (pm := if nleb (Some x) (mm_min s1) then (Some x, k) else (mm_min s1, mm_mini s1)) in *.
      destruct pM as [mx mxi] eqn:EM. destruct pm as [mn mni] eqn:Em. cbn [fst snd] in HM', Hm'.
      assert (Hxk : xv xs k = Some x) by (apply xv_nth; exact Hv).
      destruct (OKg_extreme xs (fun m x : R => m <= x) lo a (S k) mx mxi k x HM' ltac:(lia) Hxk) as (rM & -> & HinM & HubM).
      destruct (OKg_extreme xs (fun m x : R => x <= m) hi a (S k) mn mni k x Hm' ltac:(lia) Hxk) as (rm & -> & Hinm & Hlbm).
      rewrite (lmaxR_spec _ rM HinM HubM), (lminR_spec _ rm Hinm Hlbm).
      replace (S (mm_n s1)) with (cntR a (S k)) by lia. rewrite mmnorm_emit_closed.
      destruct (mm_post_spec k {| mm_max := Some rM; mm_maxi := mxi; mm_min := Some rm; mm_mini := mni;
                                  mm_n := cntR a (S k) |}
                  (if (mp <=? cntR a (S k))%nat
                   then (if Req_EM_T rM rm then None else Some ((x - rm) / (rM - rm))) else None)
                  Hk eq_refl HM' Hm') as (s3 & H3 & HP3).
      exists s3. eexists. split; [exact H3|]. split; [exact HP3|reflexivity].
    - (* null current element *)
      cbn [fst snd] in HM', Hm'.
      destruct (mm_post_spec k s1 nnan Hk ltac:(fold a; lia) HM' Hm') as (s3 & H3 & HP3).
      exists s3. eexists. split; [exact H3|]. split; [exact HP3|reflexivity].
  Qed.

  Lemma PreMM_init : PreMM 0 (mm0 (Some lo) (Some hi)).
  Proof.
    assert (H0 : wstart wd 0 = 0%nat) by (unfold wstart; lia).
    split; [cbn [mm_n mm0]; rewrite H0; unfold cntR; rewrite seg_nil; reflexivity|].
    cbn [Nat.sub]. rewrite H0. split; right; (split; [reflexivity|intros j Hj; lia]).
  Qed.
End MM.

Theorem ts_vminmaxnorm_spec (lo hi : R) body (w : nat) (mp : option nat) (xs : list XR) :
  (1 <= w)%nat ->
  (forall r, In (Some r) xs -> lo <= r <= hi) ->
  exists out, ts_vminmaxnorm (Some lo) (Some hi) body w mp xs = Done out /\ length out = length xs /\
    forall i, (i < length xs)%nat ->
      nth_error out i =
      Some (match nth_error xs i with
            | Some (Some x) =>
                let V := valid (win w i xs) in
                if (mp_eff mp w 0 <=? length V)%nat then
                  (if Req_EM_T (lmaxR V) (lminR V) then None
                   else Some ((x - lminR V) / (lmaxR V - lminR V)))
                else None
            | _ => None
            end).
Proof.
  intros Hw Hb. unfold ts_vminmaxnorm.
  destruct (Nat.eq_dec (length xs) 0) as [E0|En0].
  { (* the empty series: both bodies return the empty result *)
    apply length_zero_iff_nil in E0. subst xs.
    exists []. split; [|split; [reflexivity|intros i Hi; cbn in Hi; lia]].
    unfold idx_run. destruct body.
    - rewrite rolling_apply_idx_to_eq by exact Hw. reflexivity.
    - rewrite rolling_apply_idx_default_eq by exact Hw. reflexivity. }
  assert (Hlen : (1 <= length xs)%nat) by lia.
  set (wd := eff_window body w (length xs)). set (m := mp_eff mp w 0).
  assert (Hwd : (1 <= wd)%nat) by (unfold wd, eff_window; destruct body; lia).
  destruct (@idx_run_spec XR (@mm XR) XR (mmnorm_cb (Some lo) (Some hi) m xs) xs body w
              (PreMM lo hi xs wd) (fun k o => o = mm_at xs wd m k) (mm0 (Some lo) (Some hi)) Hw)
    as (out & H1 & H2 & H3).
  { apply PreMM_init. exact Hwd. }
  { intros k v s Hv HP. fold wd. apply mmnorm_cb_step; assumption. }
  exists out. split; [exact H1|]. split; [exact H2|].
  apply (@nth_from_rel XR out (length xs) (fun k o => o = mm_at xs wd m k)); [exact H2|exact H3|].
  intros i o Hi ->. unfold mm_at, xv.
  destruct (nth_error xs i) as [v|] eqn:Ev; [|apply nth_error_None in Ev; lia].
  rewrite win_seg.
  replace (wstart wd i) with (wstart w i) by (unfold wd, eff_window, wstart; destruct body; lia).
  destruct v; reflexivity.
Qed.
