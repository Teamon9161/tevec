(* Proofs/CastOrder.v — sort_cmp / sort_cmp_rev of Model/Cast.v are total preorders that order non-null
   values by the inner type's partial_cmp (resp. its reverse) and put nulls last in both directions.   *)
From Coq Require Import ZArith List Bool Lia.
From Tevec Require Import Base.Prelude Model.Cast Proofs.Cast.
Import ListNotations.
Local Open Scope Z_scope.

(* a partial comparison that is a total preorder on the values satisfying `ok` *)

Record good_cmp {A : Type} (ok : A -> bool) (pc : A -> A -> option comparison) : Prop := {
  gc_some : forall x y, ok x = true -> ok y = true -> exists c, pc x y = Some c;
  gc_refl : forall x, ok x = true -> pc x x = Some Eq;
  gc_anti : forall x y c, ok x = true -> ok y = true -> pc x y = Some c -> pc y x = Some (CompOpp c);
  gc_trans : forall x y z c1 c2, ok x = true -> ok y = true -> ok z = true ->
                                 pc x y = Some c1 -> pc y z = Some c2 -> c1 <> Gt -> c2 <> Gt ->
                                 exists c3, pc x z = Some c3 /\ c3 <> Gt;
}.

Arguments gc_some {A ok pc} _. Arguments gc_refl {A ok pc} _. Arguments gc_anti {A ok pc} _.
Arguments gc_trans {A ok pc} _.

Definition flip_pc {A} (pc : A -> A -> option comparison) (x y : A) : option comparison :=
  option_map CompOpp (pc x y).

Lemma CompOpp_ne_Gt c : CompOpp c <> Gt <-> c <> Lt.
Proof. destruct c; cbn; split; intros H; congruence. Qed.

Lemma good_flip {A} (ok : A -> bool) pc : good_cmp ok pc -> good_cmp ok (flip_pc pc).
Proof.
  intros G. unfold flip_pc. split.
  - intros x y Hx Hy. destruct (gc_some G x y Hx Hy) as [c ->]. eexists; reflexivity.
  - intros x Hx. rewrite (gc_refl G x Hx). reflexivity.
  - intros x y c Hx Hy H. destruct (pc x y) as [d|] eqn:E; [|discriminate]. injection H as <-.
    rewrite (gc_anti G x y d Hx Hy E). reflexivity.
  - intros x y z c1 c2 Hx Hy Hz H1 H2 N1 N2.
    destruct (pc x y) as [d1|] eqn:E1; [|discriminate]. injection H1 as <-.
    destruct (pc y z) as [d2|] eqn:E2; [|discriminate]. injection H2 as <-.
    (* x >= y >= z: use transitivity of <= on z, y, x *)
    pose proof (gc_anti G x y d1 Hx Hy E1) as A1. pose proof (gc_anti G y z d2 Hy Hz E2) as A2.
    destruct (gc_trans G z y x (CompOpp d2) (CompOpp d1) Hz Hy Hx A2 A1 N2 N1) as (c3 & E3 & N3).
    pose proof (gc_anti G z x c3 Hz Hx E3) as A3. rewrite A3. cbn. exists (CompOpp (CompOpp c3)). split; [reflexivity|].
    destruct c3; cbn; congruence.
Qed.

(* the comparison lifted to options, exactly the match of IsNone::sort_cmp *)
Definition ocmp {A} (pc : A -> A -> option comparison) (isn : A -> bool) (oa ob : option A) : comparison :=
  match oa, ob with
  | Some va, Some vb => match pc va vb with Some c => c | None => if isn va then Gt else Lt end
  | None, None => Eq
  | None, _ => Gt
  | _, None => Lt
  end.

Definition okopt {A} (ok : A -> bool) (o : option A) : bool := match o with Some x => ok x | None => true end.

Section OCmp.
  Context {A : Type} (ok : A -> bool) (pc : A -> A -> option comparison) (isn : A -> bool) (G : good_cmp ok pc).

  Lemma ocmp_refl o : okopt ok o = true -> ocmp pc isn o o = Eq.
  Proof. destruct o as [x|]; cbn; [|reflexivity]. intros H. rewrite (gc_refl G x H). reflexivity. Qed.

  Lemma ocmp_anti a b : okopt ok a = true -> okopt ok b = true -> ocmp pc isn b a = CompOpp (ocmp pc isn a b).
  Proof.
    destruct a as [x|], b as [y|]; cbn; intros Hx Hy; try reflexivity.
    destruct (gc_some G x y Hx Hy) as [c E]. rewrite E, (gc_anti G x y c Hx Hy E). reflexivity.
  Qed.

  Lemma ocmp_trans a b c :
    okopt ok a = true -> okopt ok b = true -> okopt ok c = true ->
    ocmp pc isn a b <> Gt -> ocmp pc isn b c <> Gt -> ocmp pc isn a c <> Gt.
  Proof.
    destruct a as [x|], b as [y|], c as [z|]; cbn; intros Hx Hy Hz H1 H2; try congruence.
    destruct (gc_some G x y Hx Hy) as [c1 E1]. destruct (gc_some G y z Hy Hz) as [c2 E2].
    rewrite E1 in H1. rewrite E2 in H2.
    destruct (gc_trans G x y z c1 c2 Hx Hy Hz E1 E2 H1 H2) as (c3 & E3 & N3). rewrite E3. exact N3.
  Qed.

  Lemma ocmp_values x y : ok x = true -> ok y = true ->
    exists c, pc x y = Some c /\ ocmp pc isn (Some x) (Some y) = c.
  Proof. intros Hx Hy. destruct (gc_some G x y Hx Hy) as [c E]. exists c. cbn. rewrite E. auto. Qed.

  Lemma ocmp_null_last y : ocmp pc isn None (Some y) = Gt /\ ocmp pc isn (Some y) None = Lt /\ ocmp pc isn None None = Eq.
  Proof. cbn. auto. Qed.
End OCmp.

(* the inner comparisons are good *)

Lemma Zcmp_good (ok : Z -> bool) : good_cmp ok (fun x y => Some (x ?= y)).
Proof.
  split.
  - intros; eexists; reflexivity.
  - intros x _. rewrite Z.compare_refl. reflexivity.
  - intros x y c _ _ H. injection H as <-. rewrite (Z.compare_antisym x y). reflexivity.
  - intros x y z c1 c2 _ _ _ H1 H2 N1 N2. injection H1 as <-. injection H2 as <-.
    exists (x ?= z). split; [reflexivity|].
    pose proof (proj1 (Z.compare_le_iff x y) N1). pose proof (proj1 (Z.compare_le_iff y z) N2).
    apply (proj2 (Z.compare_le_iff x z)). lia.
Qed.

Lemma bool_cmp_good (ok : bool -> bool) : good_cmp ok (fun x y => Some (bool_cmp x y)).
Proof.
  split.
  - intros; eexists; reflexivity.
  - intros [] _; reflexivity.
  - intros [] [] c _ _ H; injection H as <-; reflexivity.
  - intros [] [] [] c1 c2 _ _ _ H1 H2 N1 N2; injection H1 as <-; injection H2 as <-; cbn in *;
      eexists; split; try reflexivity; congruence.
Qed.

Lemma lex_refl a : lex_cmp a a = Eq.
Proof. induction a as [|x a IH]; cbn; [reflexivity|]. rewrite Z.compare_refl. exact IH. Qed.

Lemma lex_anti a : forall b, lex_cmp b a = CompOpp (lex_cmp a b).
Proof.
  induction a as [|x a IH]; intros [|y b]; cbn; try reflexivity.
  rewrite (Z.compare_antisym x y). destruct (x ?= y); cbn; auto.
Qed.

Lemma lex_trans a : forall b c, lex_cmp a b <> Gt -> lex_cmp b c <> Gt -> lex_cmp a c <> Gt.
Proof.
  induction a as [|x a IH]; intros [|y b] [|z c]; cbn; try congruence.
  destruct (x ?= y) eqn:E1; destruct (y ?= z) eqn:E2; intros H1 H2; try congruence.
  - apply Z.compare_eq in E1. apply Z.compare_eq in E2. subst. rewrite Z.compare_refl. eapply IH; eassumption.
  - apply Z.compare_eq in E1. subst. rewrite E2. congruence.
  - apply Z.compare_eq in E2. subst. rewrite E1. congruence.
  - assert (x ?= z = Lt) as ->; [|congruence].
    pose proof (proj1 (Z.compare_lt_iff x y) E1). pose proof (proj1 (Z.compare_lt_iff y z) E2).
    apply (proj2 (Z.compare_lt_iff x z)). lia.
Qed.

Lemma lex_good (ok : str -> bool) : good_cmp ok (fun x y => Some (lex_cmp x y)).
Proof.
  split.
  - intros; eexists; reflexivity.
  - intros x _. rewrite lex_refl. reflexivity.
  - intros x y c _ _ H. injection H as <-. rewrite lex_anti. reflexivity.
  - intros x y z c1 c2 _ _ _ H1 H2 N1 N2. injection H1 as <-. injection H2 as <-.
    eexists; split; [reflexivity|]. eapply lex_trans; eassumption.
Qed.

Section Order.
  Context {F : Type} (X : Ext F) (L : ExtLaws X).

  Definition b_ok (b : bt) (x : bval b) : bool := negb (b_is_none X b x).

  Lemma float_good : good_cmp (fun f : F => negb (fisnan X f)) (fcmp X).
  Proof.
    assert (Hf : forall f, negb (fisnan X f) = true -> feq X f f = true).
    { intros f H. unfold fisnan in H. rewrite negb_involutive in H. exact H. }
    split.
    - intros x y Hx Hy. apply (fcmp_some X L); auto.
    - intros x Hx. apply (fcmp_refl X L); auto.
    - intros x y c _ _ H. apply (fcmp_antisym X L). exact H.
    - intros x y z c1 c2 _ _ _. apply (fcmp_trans X L).
  Qed.

  Definition td_key (d : Z * Z) : str := [fst d; snd d].

  Lemma td_pcmp_lex (x y : Z * Z) : b_ok TD x = true -> b_pcmp X TD x y = Some (lex_cmp (td_key x) (td_key y)).
  Proof.
    unfold b_ok. cbn [b_is_none b_pcmp td_key lex_cmp]. intros Hx. rewrite Hx.
    destruct (fst x =? fst y) eqn:E; cbn [negb].
    - apply Z.eqb_eq in E. rewrite E, Z.compare_refl. destruct (snd x ?= snd y); reflexivity.
    - apply Z.eqb_neq in E. destruct (fst x ?= fst y) eqn:C; try reflexivity.
      apply Z.compare_eq in C. contradiction.
  Qed.

  Lemma td_good : good_cmp (b_ok TD) (b_pcmp X TD).
  Proof.
    split.
    - intros x y Hx _. rewrite td_pcmp_lex by exact Hx. eexists; reflexivity.
    - intros x Hx. rewrite td_pcmp_lex by exact Hx. rewrite lex_refl. reflexivity.
    - intros x y c Hx Hy. rewrite !td_pcmp_lex by assumption. intros H; injection H as <-.
      rewrite lex_anti. reflexivity.
    - intros x y z c1 c2 Hx Hy Hz. rewrite !td_pcmp_lex by assumption.
      intros H1 H2 N1 N2. injection H1 as <-. injection H2 as <-.
      eexists; split; [reflexivity|]. exact (lex_trans (td_key x) (td_key y) (td_key z) N1 N2).
  Qed.

  Lemma b_pcmp_good (b : bt) : good_cmp (b_ok b) (b_pcmp X b).
  Proof.
    destruct b as [[]| | | | |]; cbn [b_pcmp];
      try apply Zcmp_good; try apply bool_cmp_good; try apply lex_good; try apply td_good; apply float_good.
  Qed.

  (* sort_cmp and sort_cmp_rev are the lifted comparisons on as_opt *)

  Lemma intlike_pcmp_some b (x y : bval b) : is_intlike b = true -> exists c, b_pcmp X b x y = Some c.
  Proof. destruct b as [[]| | | | |]; cbn; intros H; try discriminate; eexists; reflexivity. Qed.

  Lemma intlike_as_opt b (x : bval b) : is_intlike b = true -> as_opt X (Plain b) x = Some x.
  Proof. destruct b as [[]| | | | |]; cbn; intros H; try discriminate; reflexivity. Qed.

  Lemma sort_cmp_ocmp t (a b : val t) :
    sort_cmp X t a b = Ok (ocmp (b_pcmp X (base t)) (b_is_none X (base t)) (as_opt X t a) (as_opt X t b)).
  Proof.
    destruct t as [bb|bb]; cbn [sort_cmp base].
    - destruct (is_intlike bb) eqn:E.
      + rewrite !intlike_as_opt by exact E. cbn [ocmp].
        destruct (intlike_pcmp_some bb a b E) as [c ->]. reflexivity.
      + unfold ocmp. destruct (as_opt X (Plain bb) a), (as_opt X (Plain bb) b); reflexivity.
    - unfold ocmp. destruct (as_opt X (Opt bb) a), (as_opt X (Opt bb) b); reflexivity.
  Qed.

  Lemma canonical_okopt t (v : val t) : canonical X t v = true -> okopt (b_ok (base t)) (as_opt X t v) = true.
  Proof.
    destruct t as [b|b]; cbn [canonical as_opt base okopt]; unfold b_ok.
    - intros _. destruct (b_is_none X b v) eqn:E; cbn; [reflexivity|]. rewrite E. reflexivity.
    - destruct v as [x|]; cbn; auto.
  Qed.

  Lemma as_opt_none_iff t (v : val t) : as_opt X t v = None <-> is_none X t v = true.
  Proof. rewrite as_opt_to_opt. apply to_opt_none_iff. Qed.

  (* the order theorems, for either comparator *)

  Definition le_res (r : res comparison) : Prop := r = Ok Lt \/ r = Ok Eq.

  Lemma le_res_Ok c : le_res (Ok c) <-> c <> Gt.
  Proof. unfold le_res. destruct c; split; intros H; try congruence; auto. destruct H; discriminate. Qed.

  (* reflexive, antisymmetric up to equivalence, hence total, transitive *)
  Definition total_preorder_at (cmp : forall t, @val F t -> @val F t -> res comparison) t (a b c : val t) : Prop :=
    cmp t a a = Ok Eq /\
    (exists o, cmp t a b = Ok o /\ cmp t b a = Ok (CompOpp o)) /\
    (le_res (cmp t a b) \/ le_res (cmp t b a)) /\
    (le_res (cmp t a b) -> le_res (cmp t b c) -> le_res (cmp t a c)).

  Section Either.
    Variable cmp : forall t, @val F t -> @val F t -> res comparison.
    Variable pcf : forall b, @bval F b -> @bval F b -> option comparison.
    Hypothesis cmp_is : forall t a b, cmp t a b = Ok (ocmp (pcf (base t)) (b_is_none X (base t)) (as_opt X t a) (as_opt X t b)).
    Hypothesis pcf_good : forall b, good_cmp (b_ok b) (pcf b).

    Lemma either_refl t a : canonical X t a = true -> cmp t a a = Ok Eq.
    Proof. intros H. rewrite cmp_is. f_equal. eapply ocmp_refl; [apply pcf_good|]. apply canonical_okopt. exact H. Qed.

    Lemma either_anti t a b : canonical X t a = true -> canonical X t b = true ->
      exists c, cmp t a b = Ok c /\ cmp t b a = Ok (CompOpp c).
    Proof.
      intros Ha Hb. rewrite !cmp_is. eexists. split; [reflexivity|]. f_equal.
      eapply ocmp_anti; [apply pcf_good| |]; apply canonical_okopt; assumption.
    Qed.

    Lemma either_total t a b : canonical X t a = true -> canonical X t b = true ->
      le_res (cmp t a b) \/ le_res (cmp t b a).
    Proof.
      intros Ha Hb. destruct (either_anti t a b Ha Hb) as (c & -> & ->). rewrite !le_res_Ok.
      destruct c; cbn; [left|left|right]; discriminate.
    Qed.

    Lemma either_trans t a b c : canonical X t a = true -> canonical X t b = true -> canonical X t c = true ->
      le_res (cmp t a b) -> le_res (cmp t b c) -> le_res (cmp t a c).
    Proof.
      intros Ha Hb Hc. rewrite !cmp_is, !le_res_Ok.
      apply (ocmp_trans (b_ok (base t)) (pcf (base t)) (b_is_none X (base t)) (pcf_good (base t)));
        apply canonical_okopt; assumption.
    Qed.

    Lemma either_preorder t a b c :
      canonical X t a = true -> canonical X t b = true -> canonical X t c = true -> total_preorder_at cmp t a b c.
    Proof.
      intros Ha Hb Hc. split; [exact (either_refl t a Ha)|]. split; [exact (either_anti t a b Ha Hb)|].
      split; [exact (either_total t a b Ha Hb)|exact (either_trans t a b c Ha Hb Hc)].
    Qed.

    Lemma either_values t a b x y :
      canonical X t a = true -> canonical X t b = true ->
      to_opt X t a = Some x -> to_opt X t b = Some y ->
      exists c, pcf (base t) x y = Some c /\ cmp t a b = Ok c.
    Proof.
      intros Ha Hb Ea Eb. rewrite cmp_is, !as_opt_to_opt, Ea, Eb.
      pose proof (to_opt_some_nonnull X t a x Ha Ea) as Nx. pose proof (to_opt_some_nonnull X t b y Hb Eb) as Ny.
      destruct (ocmp_values (b_ok (base t)) (pcf (base t)) (b_is_none X (base t)) (pcf_good (base t)) x y) as (c & E & E').
      { unfold b_ok. rewrite Nx. reflexivity. } { unfold b_ok. rewrite Ny. reflexivity. }
      exists c. split; [exact E|]. f_equal. exact E'.
    Qed.

    Lemma either_nulls_last t a b :
      is_none X t a = true ->
      (is_none X t b = false -> cmp t a b = Ok Gt /\ cmp t b a = Ok Lt) /\
      (is_none X t b = true -> cmp t a b = Ok Eq).
    Proof.
      intros Ha. apply as_opt_none_iff in Ha. rewrite !cmp_is, Ha. split; intros Hb.
      - destruct (as_opt X t b) as [y|] eqn:E.
        + cbn. auto.
        + apply as_opt_none_iff in E. congruence.
      - apply as_opt_none_iff in Hb. rewrite Hb. reflexivity.
    Qed.
  End Either.

  Definition rev_pc (b : bt) := flip_pc (b_pcmp X b).

  (* the reverse comparator is the lifting of the flipped comparison *)
  Lemma sort_cmp_rev_is t a b :
    sort_cmp_rev X t a b = Ok (ocmp (rev_pc (base t)) (b_is_none X (base t)) (as_opt X t a) (as_opt X t b)).
  Proof.
    unfold sort_cmp_rev, ocmp, rev_pc, flip_pc. destruct (as_opt X t a) as [x|], (as_opt X t b) as [y|]; try reflexivity.
    destruct (b_pcmp X (base t) x y); cbn [option_map]; [reflexivity|]. destruct (b_is_none X (base t) x); reflexivity.
  Qed.

  Lemma rev_pc_good b : good_cmp (b_ok b) (rev_pc b).
  Proof. apply good_flip. apply b_pcmp_good. Qed.
End Order.
