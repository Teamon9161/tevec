(* Proofs/CalendarC18.v — the calendar inverse law: days_from_civil inverts civil_from_days for every
   day number.  Spec/CalendarC18.v writes the algorithm of Spec/Calendar.v in one piece (mod for the
   remainders, the leap rule factored differently); the functions agree, so the law is calendar_lawful. *)
From Coq Require Import ZArith Lia Bool ZifyBool.
From Tevec Require Import Spec.CalendarC18 Proofs.Calendar.
From Tevec Require Spec.Calendar.
Local Open Scope Z_scope.

Lemma is_leap_agrees y : is_leap y = Calendar.is_leap y.
Proof. unfold is_leap, Calendar.is_leap. Z.div_mod_to_equations. lia. Qed.

Lemma valid_date_agrees y m d : valid_date y m d = Calendar.valid_civilb (y, m, d).
Proof.
  unfold valid_date, Calendar.valid_civilb, days_in_month, Calendar.days_in_month.
  rewrite is_leap_agrees. reflexivity.
Qed.

Lemma days_from_civil_agrees y m d : days_from_civil y m d = Calendar.days_of_civil (y, m, d).
Proof.
  unfold days_from_civil, Calendar.days_of_civil, Calendar.doe_of_parts. cbv zeta.
  destruct (m <=? 2) eqn:E1; destruct (2 <? m) eqn:E2; Z.div_mod_to_equations; lia.
Qed.

Lemma civil_from_days_agrees z : civil_from_days z = Calendar.civil_of_days z.
Proof.
  unfold civil_from_days, civil_of_doe, Calendar.civil_of_days, Calendar.parts_of_doe.
  replace ((z + 719468) mod 146097) with (z + 719468 - (z + 719468) / 146097 * 146097)
    by (Z.div_mod_to_equations; lia).
  cbv beta iota zeta.
  match goal with |- context [if ?b then _ else _] => destruct b end; f_equal; f_equal; lia.
Qed.

Lemma civil_roundtrip z :
  let '(y, m, d) := civil_from_days z in
  valid_date y m d = true /\ days_from_civil y m d = z.
Proof.
  pose proof (Calendar.cl_valid _ _ calendar_lawful z) as Hv.
  pose proof (Calendar.cl_days_civil_days _ _ calendar_lawful z) as Hd.
  rewrite civil_from_days_agrees. destruct (Calendar.civil_of_days z) as [[y m] d].
  rewrite valid_date_agrees, days_from_civil_agrees. exact (conj Hv Hd).
Qed.

Lemma civil_from_days_year z y m d : civil_from_days z = (y, m, d) ->
  (z + 719468) / 146097 * 400 <= y <= (z + 719468) / 146097 * 400 + 400.
Proof. rewrite civil_from_days_agrees. apply civil_of_days_year. Qed.

Lemma valid_date_bounds y m d : valid_date y m d = true -> 1 <= m <= 12 /\ 1 <= d <= 31.
Proof.
  rewrite valid_date_agrees. unfold Calendar.valid_civilb. intros H.
  pose proof (days_in_month_bounds y m). lia.
Qed.
