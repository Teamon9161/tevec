(* Proofs/RollRankOrd.v — ts_vrank (Model/Cmp.v).
   The callback, for EVERY input and output carrier and no law: its counter is the valid count of the window and
   its output is `rank_out` of that count and of whatever the recount loop returns on the window without the
   current element.  For every ordered input carrier (Spec/ExtremaOrd.OrdLaws as a Section hypothesis) and the
   output arithmetic in XR = option R the loop counts the smaller and the equivalent valid elements, so for every
   series whose valid elements are not NaN, window, min_periods, pct / rev flag, position and both driver bodies
   the output is the average rank of the current element among the valid elements of its window,
       #{a in V' : a < x} + 1 + #{a in V' : a == x} / 2      (V' = valid window without the current element,
                                                               <, == the carrier's own nltb, neqb)
   in the reversed form (n + 1) - that, divided by n = |V'| + 1 with pct; null when x is null or masked.   *)
From Coq Require Import ZArith List Lia Bool Reals Lra.
From Tevec Require Import Base.Prelude Base.Num Base.XR Model.Driver Proofs.Driver Model.Cmp Proofs.IdxRun
     Spec.ExtremaOrd Proofs.CmpOrd.
Import ListNotations.

Section RankStep.
  Context {A : Type} {NA : Num A} {T : Type} {DT : IsNone T A} {B : Type} {NB : Num B}.
  Variable xs : list T.
  (* F x a k: what the recount loop for the element x at position k returns on the positions [a, k) *)
  Variable F : A -> nat -> nat -> B * nat.
  Hypothesis loop_F : forall k v a, nth_error xs k = Some v -> not_none v = true -> a <= k ->
    rank_loop xs (unwrap v) a (k - a) none 1 = Ok (F (unwrap v) a k).

  Section Window.
  Variable wd : nat.
  Hypothesis Hwd : 1 <= wd.
  Variables (mp : nat) (pct rev : bool).

  (* what the closure computes at position k *)
  Definition rank_at (k : nat) : B :=
    match gov xs k with
    | Some x => let r := F x (wstart wd k) k in
                rank_out mp pct rev (gcount xs (wstart wd k) (S k)) (fst r) (snd r)
    | None => rank_out mp pct rev (gcount xs (wstart wd k) (S k)) nnan 1
    end.

  Lemma vrank_cb_step k v n :
    nth_error xs k = Some v -> n = gcount xs (wstart wd k) k ->
    exists n' o, vrank_cb mp (wd - 1) pct rev xs n (start_of wd k, k, v) = Ok (n', o) /\
                 n' = gcount xs (wstart wd (S k)) (S k) /\ o = rank_at k.
  Proof.
    intros Hv ->.
    assert (Hk : k < length xs) by (apply nth_error_Some; congruence).
    assert (Hcnt : gcount xs (wstart wd k) (S k) = gcount xs (wstart wd k) k + gisv v)
      by (apply gcount_snoc; [unfold wstart; lia|exact Hv]).
    (* the element that leaves the window is taken off the count of the full window *)
    assert (Hpost : forall o : B, exists n',
              (do n2 <- (if wd - 1 <=? k then
                           match start_of wd k with
                           | None => Panic UnwrapNone
                           | Some st => do v0 <- uget xs st;
                                        if not_none v0 then usub (gcount xs (wstart wd k) (S k)) 1
                                        else Ok (gcount xs (wstart wd k) (S k))
                           end
                         else Ok (gcount xs (wstart wd k) (S k)));
               Ok (n2, o)) = Ok (n', o) /\ n' = gcount xs (wstart wd (S k)) (S k)).
    { intros o. pose proof (leave_count xs wd k Hwd Hk) as HL.
      destruct (start_of_cases wd k Hwd) as [(Ew & E & _)|(Ew & E & _)]; rewrite E in HL |- *.
      - rewrite (proj2 (Nat.leb_gt (wd - 1) k)) by lia. cbn [bind]. eexists. split; [reflexivity|exact HL].
      - rewrite (proj2 (Nat.leb_le (wd - 1) k)) by lia. destruct HL as (v0 & Hv0 & Hc).
        rewrite (uget_nth _ _ _ Hv0). cbn [bind]. unfold gisv in Hc. destruct (not_none v0).
        + rewrite usub_ok by lia. cbn [bind]. eexists. split; [reflexivity|lia].
        + cbn [bind]. eexists. split; [reflexivity|lia]. }
    unfold vrank_cb, rank_at. rewrite (start_of_or_0 wd k Hwd), (gov_nth xs k v Hv).
    unfold gisv in Hcnt. destruct (not_none v) eqn:Ev.
    - rewrite (g_to_opt_valid v Ev), (loop_F k v _ Hv Ev) by (unfold wstart; lia). cbn [bind].
      replace (S (gcount xs (wstart wd k) k)) with (gcount xs (wstart wd k) (S k)) by lia.
      destruct (Hpost (let r := F (unwrap v) (wstart wd k) k in
                       rank_out mp pct rev (gcount xs (wstart wd k) (S k)) (fst r) (snd r))) as (n' & H1 & H2).
      exists n'. eexists. split; [exact H1|]. split; [exact H2|reflexivity].
    - rewrite (g_to_opt_null v Ev). cbn [bind].
      replace (gcount xs (wstart wd k) k) with (gcount xs (wstart wd k) (S k)) by lia.
      destruct (Hpost (rank_out mp pct rev (gcount xs (wstart wd k) (S k)) nnan 1)) as (n' & H1 & H2).
      exists n'. eexists. split; [exact H1|]. split; [exact H2|reflexivity].
  Qed.
  End Window.

  Lemma ts_vrank_at body w mp pct rev :
    1 <= w -> 1 <= length xs ->
    exists out, ts_vrank body w mp pct rev xs = Done out /\ length out = length xs /\
      forall i, i < length xs -> nth_error out i = Some (rank_at w (cmp_mp mp (cmp_window w xs)) pct rev i).
  Proof.
    intros Hw Hlen. assert (Hwd : 1 <= cmp_window w xs) by (unfold cmp_window; lia).
    destruct (cmp_run_spec (vrank_cb (cmp_mp mp (cmp_window w xs)) (cmp_window w xs - 1) pct rev xs) xs body w
                (fun k n => n = gcount xs (wstart (cmp_window w xs) k) k)
                (fun k o => o = rank_at (cmp_window w xs) (cmp_mp mp (cmp_window w xs)) pct rev k) 0 Hw Hlen)
      as (out & H1 & H2 & H3).
    { replace (wstart (cmp_window w xs) 0) with 0 by (unfold wstart; lia). rewrite gcount_nil. reflexivity. }
    { intros k v n. apply vrank_cb_step. exact Hwd. }
    exists out. split; [exact H1|]. split; [exact H2|].
    apply nth_from_rel with (1 := H2) (2 := H3).
    intros i o Hi ->. unfold rank_at, cmp_window. rewrite wstart_clamp by exact Hi. reflexivity.
  Qed.
End RankStep.

Lemma rank_out_valid mp pct rev n (lt eq : nat) :
  1 <= n ->
  rank_out (B := XR) mp pct rev n (Some (1 + INR lt)%R) (1 + eq) =
  if mp <=? n then
    Some (let asc := (1 + INR lt + INR eq / 2)%R in
          let r := if rev then (INR (n + 1) - asc)%R else asc in
          if pct then (r / INR n)%R else r)
  else None.
Proof.
  intros Hn. unfold rank_out. destruct (mp <=? n); [|reflexivity].
  assert (Hhalf : @half XR NumXR = Some (1 / 2)%R).
  { unfold half. change (@none XR NumXR) with (Some 1%R). change (@ntwo XR NumXR) with (Some 2%R).
    apply xdiv_some. lra. }
  rewrite Hhalf. replace (1 + eq - 1) with eq by lia. rewrite !xofnat.
  assert (Hn0 : INR n <> 0%R) by (apply not_0_INR; lia).
  destruct rev; cbn [negb]; rewrite ?xmul_some, ?xadd_some, ?xsub_some;
    destruct pct; rewrite ?(xdiv_some _ _ Hn0); f_equal; cbv zeta; lra.
Qed.

Lemma rank_out_null mp pct rev n nrep : rank_out (B := XR) mp pct rev n None nrep = None.
Proof. unfold rank_out. destruct (mp <=? n); [|reflexivity]. destruct rev, pct; reflexivity. Qed.

Section RankG.
  Context {A : Type} {NA : Num A} {T : Type} {DT : IsNone T A}.
  Hypothesis OL : OrdLaws A.
  Variable xs : list T.
  Hypothesis Hxs : forall v, In v xs -> okv (to_opt v).
  Notation govs := (govs xs).

  (* the recount loop over positions [i, i + cnt) *)
  Lemma g_rank_loop_spec (x : A) : num_ok x -> forall cnt i (r : R) nrep,
    i + cnt <= length xs ->
    rank_loop (B := XR) xs x i cnt (Some r) nrep =
    Ok (Some (r + INR (gcount_lt x (gvalid (seg i (i + cnt) govs))))%R,
        nrep + gcount_eq x (gvalid (seg i (i + cnt) govs))).
  Proof.
    intros Hx. induction cnt as [|cnt IH]; intros i r nrep Hlen.
    - rewrite Nat.add_0_r, seg_nil. cbn. rewrite Rplus_0_r, Nat.add_0_r. reflexivity.
    - destruct (nth_error_Some_lt xs i) as [v Hv]; [lia|].
      assert (Hseg : gvalid (seg i (i + S cnt) govs) = gvalid [to_opt v] ++ gvalid (seg (S i) (S i + cnt) govs)).
      { rewrite (@seg_cons _ i (i + S cnt) govs (to_opt v)); [|lia|rewrite govs_nth, Hv; reflexivity].
        replace (i + S cnt) with (S i + cnt) by lia.
        change (to_opt v :: seg (S i) (S i + cnt) govs) with ([to_opt v] ++ seg (S i) (S i + cnt) govs).
        apply gvalid_app. }
      rewrite Hseg, gcount_lt_app, gcount_eq_app.
      cbn [rank_loop]. rewrite (uget_nth xs i v Hv). cbn [bind].
      assert (Hvok : okv (to_opt v)) by (apply Hxs; apply nth_error_In with i; exact Hv).
      destruct (not_none v) eqn:Ev.
      + rewrite (g_to_opt_valid v Ev) in Hvok |- *. cbn in Hvok. cbn [gvalid flat_map app].
        unfold gcount_lt at 1, gcount_eq at 1. cbn [filter]. cbv zeta.
        rewrite (ol_eqb OL (unwrap v) x Hvok Hx).
        destruct (nltb (unwrap v) x) eqn:Hlt.
        * change (@nadd XR NumXR (Some r) (@none XR NumXR)) with (Some (r + 1)%R). rewrite IH by lia.
          cbn [negb andb length]. rewrite plus_INR. f_equal. apply f_equal2; [f_equal; cbn [INR]; lra|lia].
        * cbn [negb andb]. destruct (nltb x (unwrap v)); cbn [negb].
          -- rewrite IH by lia. cbn [length]. f_equal.
          -- rewrite IH by lia. cbn [length]. f_equal. apply f_equal2; [f_equal; cbn [INR]; lra|lia].
      + rewrite (g_to_opt_null v Ev). cbn [gvalid flat_map app]. rewrite IH by lia.
        unfold gcount_lt at 2, gcount_eq at 2. cbn. reflexivity.
  Qed.
End RankG.

(* average rank of x among V' ∪ {x}: ascending, descending, as a fraction of n = |V'| + 1 *)
Definition g_avg_rank {A} {NA : Num A} (pct rev : bool) (x : A) (V' : list A) : R :=
  let n := S (length V') in
  let asc := (1 + INR (gcount_lt x V') + INR (gcount_eq x V') / 2)%R in
  let r := if rev then (INR (n + 1) - asc)%R else asc in
  if pct then (r / INR n)%R else r.

Section RankFinalG.
  Context {A : Type} {NA : Num A} {T : Type} {DT : IsNone T A}.
  Hypothesis OL : OrdLaws A.

  Theorem ts_vrank_ord body w mp pct rev (xs : list T) :
    valid_not_nan xs -> 1 <= w -> 1 <= length xs ->
    exists out, ts_vrank (B := XR) body w mp pct rev xs = Done out /\ length out = length xs /\
      forall i, i < length xs ->
        nth_error out i =
        Some (match nth_error (map to_opt xs) i with
              | Some (Some x) =>
                  let V' := gvalid (seg (wstart w i) i (map to_opt xs)) in
                  if cmp_mp mp (cmp_window w xs) <=? S (length V') then Some (g_avg_rank pct rev x V')
                  else None
              | _ => None
              end).
  Proof.
    intros Hnan Hw Hlen. pose proof (valid_not_nan_okv xs Hnan) as Hxs.
    destruct (ts_vrank_at xs
                (fun x a k => let V := gvalid (seg a k (govs xs)) in
                              (Some (1 + INR (gcount_lt x V))%R, 1 + gcount_eq x V))
                ) with (body := body) (w := w) (mp := mp) (pct := pct) (rev := rev)
      as (out & H1 & H2 & H3); [|exact Hw|exact Hlen|].
    { intros k v a Hv Ev Ha.
      assert (Hx : num_ok (unwrap v)).
      { pose proof (Hxs v (nth_error_In _ _ Hv)) as H. rewrite (g_to_opt_valid v Ev) in H. exact H. }
      pose proof (g_rank_loop_spec OL xs Hxs (unwrap v) Hx (k - a) a 1 1) as HL.
      replace (a + (k - a)) with k in HL by lia. apply HL.
      apply Nat.lt_le_incl, nth_error_Some. congruence. }
    exists out. split; [exact H1|]. split; [exact H2|]. intros i Hi. rewrite (H3 i Hi). f_equal.
    unfold rank_at. fold (govs xs). rewrite govs_nth.
    unfold gov. destruct (nth_error xs i) as [v|] eqn:Ev; [|apply nth_error_None in Ev; lia].
    cbn [option_map]. destruct (to_opt v) as [x|] eqn:Ex.
    - assert (Hc : gcount xs (wstart w i) (S i) = S (length (gvalid (seg (wstart w i) i (govs xs))))).
      { rewrite (gcount_snoc xs (wstart w i) i v); [|unfold wstart; lia|exact Ev].
        unfold gcount, gisv. rewrite g_to_opt_not_none, Ex. lia. }
      cbv zeta. cbn [fst snd]. rewrite Hc, rank_out_valid by lia. reflexivity.
    - apply rank_out_null.
  Qed.
End RankFinalG.

(* the descending form is the ascending rank from the other end: #greater + 1 + #equal / 2 *)
Lemma g_avg_rank_rev_gt {A} {NA : Num A} (x : A) (V' : list A) :
  OrdLaws A -> num_ok x -> Forall num_ok V' ->
  g_avg_rank false true x V' = (1 + INR (gcount_gt x V') + INR (gcount_eq x V') / 2)%R.
Proof.
  intros OL Hx HV. unfold g_avg_rank. pose proof (gcount_partition x V' OL Hx HV) as HP.
  replace (S (length V') + 1) with (gcount_lt x V' + gcount_eq x V' + gcount_gt x V' + 2) by lia.
  rewrite !plus_INR. cbn [INR]. lra.
Qed.
