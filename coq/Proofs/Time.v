(* Proofs/Time.v — the arithmetic of Model/Time.v shared by C16 and C17: machine-integer checks, units and instants,
   chrono values as total nanoseconds, as_cr / from_cr in closed form, the time of day.  Axiom-free (Z, bool only). *)
From Coq Require Import ZArith List Bool Lia ZifyBool.
From Tevec Require Import Base.Prelude Model.Time.
Local Open Scope Z_scope.

Lemma is_nat_true x : is_nat x = true <-> x = NaT.
Proof. unfold is_nat. apply Z.eqb_eq. Qed.
Lemma is_nat_false x : is_nat x = false <-> x <> NaT.
Proof. unfold is_nat. apply Z.eqb_neq. Qed.

Lemma in_i64_iff z : in_i64 z = true <-> i64_min <= z <= i64_max.
Proof. unfold in_i64. lia. Qed.
Lemma in_i32_iff z : in_i32 z = true <-> i32_min <= z <= i32_max.
Proof. unfold in_i32. lia. Qed.

Lemma chk64_ok z : in_i64 z = true -> chk64 z = Ok z.
Proof. unfold chk64. intros ->. reflexivity. Qed.
Lemma chk64_inv z r : chk64 z = Ok r -> r = z /\ in_i64 z = true.
Proof. unfold chk64. destruct (in_i64 z); [intros [= <-]; auto|discriminate]. Qed.
Lemma chk64s_inv z r : chk64s z = Ok r -> r = z /\ in_i64 z = true.
Proof. unfold chk64s. destruct (in_i64 z); [intros [= <-]; auto|discriminate]. Qed.

(* a value far inside the i64 range passes every overflow check of the constructors *)
Lemma chk64_small z : - 4611686018427387904 <= z <= 4611686018427387904 -> chk64 z = Ok z.
Proof. intros H. apply chk64_ok, in_i64_iff. unfold i64_min, i64_max. lia. Qed.

Definition finer (u t : tunit) : bool := per_sec u <? per_sec t.      (* t strictly finer than u *)
Definition ratio (u t : tunit) : Z := per_sec t / per_sec u.           (* for t finer than u *)

Lemma unit_ns_per_sec u : unit_ns u * per_sec u = 1000000000.
Proof. destruct u; reflexivity. Qed.
Lemma unit_ns_pos u : 0 < unit_ns u.
Proof. destruct u; reflexivity. Qed.
Lemma per_sec_pos u : 0 < per_sec u.
Proof. destruct u; reflexivity. Qed.

Lemma ratio_pos u t : finer u t = true -> 1 < ratio u t.
Proof. destruct u, t; intros H; try discriminate H; reflexivity. Qed.
Lemma ratio_unit_ns u t : finer u t = true -> unit_ns u = ratio u t * unit_ns t.
Proof. destruct u, t; intros H; try discriminate H; reflexivity. Qed.

(* the instant a date-time denotes, in nanoseconds since the epoch *)
Definition instant_ns (u : tunit) (x : Z) : Z := x * unit_ns u.

Lemma instant_secs u x : x * unit_ns u / 1000000000 = x / per_sec u.
Proof.
  pose proof (unit_ns_pos u). pose proof (per_sec_pos u).
  rewrite <- (unit_ns_per_sec u), (Z.mul_comm (unit_ns u)). apply Z.div_mul_cancel_r; lia.
Qed.

Lemma into_unit_nat u t : into_unit u t NaT = Ok NaT.
Proof. destruct u, t; reflexivity. Qed.
Lemma into_opt_i64_nat : into_opt_i64 NaT = None.
Proof. reflexivity. Qed.
Lemma from_into_opt_i64 x : from_opt_i64 (into_opt_i64 x) = x.
Proof. unfold into_opt_i64. destruct (is_nat x) eqn:E; [apply is_nat_true in E; subst|]; reflexivity. Qed.
Lemma dt_add_nat_l u d : dt_add u NaT d = Ok NaT.
Proof. reflexivity. Qed.
Lemma dt_sub_nat_l u d : dt_sub u NaT d = Ok NaT.
Proof. reflexivity. Qed.
Lemma dt_diff_nat_l u b : dt_diff u NaT b = Ok td_nat.
Proof. reflexivity. Qed.
Lemma time_add_nat_l d : time_add NaT d = Ok NaT.
Proof. reflexivity. Qed.
Lemma time_sub_nat_l d : time_sub NaT d = Ok NaT.
Proof. reflexivity. Qed.
Lemma dt_trunc_nat u d : dt_trunc u NaT d = Ok NaT.
Proof. reflexivity. Qed.
Lemma td_from_i64_nat : td_is_nat (td_from_i64 i64_min) = true.
Proof. reflexivity. Qed.

Definition cr_wf (c : crdt) : Prop := 0 <= cr_nanos c < 1000000000.

Lemma cr_total_of_total t : cr_total_ns (cr_of_total_ns t) = t.
Proof.
  unfold cr_total_ns, cr_of_total_ns. cbn [cr_secs cr_nanos].
  rewrite (Z.mul_comm (t / 1000000000)). symmetry. apply Z.div_mod. lia.
Qed.

Lemma cr_of_total_total c : cr_wf c -> cr_of_total_ns (cr_total_ns c) = c.
Proof.
  destruct c as [s n]. unfold cr_wf, cr_total_ns, cr_of_total_ns. cbn [cr_secs cr_nanos]. intros H.
  rewrite Z.div_add_l, (Z.add_comm (s * 1000000000)), Z.mod_add, Z.div_small, Z.mod_small by lia.
  rewrite Z.add_0_r. reflexivity.
Qed.

Lemma cr_of_total_wf t : cr_wf (cr_of_total_ns t).
Proof. unfold cr_wf, cr_of_total_ns. cbn [cr_nanos]. apply Z.mod_pos_bound. lia. Qed.

(* seconds and sub-second part of the instant x * unit_ns u, with no case split on the unit *)
Lemma cr_of_instant u x :
  cr_of_total_ns (x * unit_ns u) = mkcr (x / per_sec u) (x mod per_sec u * unit_ns u).
Proof.
  pose proof (unit_ns_pos u). pose proof (per_sec_pos u).
  unfold cr_of_total_ns. rewrite <- (unit_ns_per_sec u), (Z.mul_comm (unit_ns u)).
  rewrite Z.div_mul_cancel_r, Z.mul_mod_distr_r by lia. reflexivity.
Qed.

(* as_cr: the instant as a chrono value; defined off NaT, at ns resolution always, else inside chrono's date range *)
Lemma as_cr_spec u x :
  as_cr u x = if is_nat x then None
              else if unit_eqb u Nano || date_in_range (x / per_sec u / SECS_PER_DAY)
                   then Some (cr_of_total_ns (x * unit_ns u)) else None.
Proof.
  rewrite cr_of_instant. unfold as_cr, cr_from_timestamp. destruct (is_nat x); [reflexivity|].
  destruct u; cbn [unit_eqb orb per_sec unit_ns]; rewrite ?Z.div_1_r, ?Z.mod_1_r, ?Z.mul_1_r; reflexivity.
Qed.

Lemma as_cr_nat u : as_cr u NaT = None.
Proof. destruct u; reflexivity. Qed.

Lemma as_cr_total u x c : as_cr u x = Some c -> c = cr_of_total_ns (x * unit_ns u) /\ x <> NaT.
Proof.
  rewrite as_cr_spec. destruct (is_nat x) eqn:E; [discriminate|]. apply is_nat_false in E.
  destruct (_ || _); [|discriminate]. intros [= <-]. auto.
Qed.

Lemma as_cr_wf u x c : as_cr u x = Some c -> cr_wf c.
Proof. intros H. destruct (as_cr_total _ _ _ H) as [-> _]. apply cr_of_total_wf. Qed.

Lemma as_cr_injective u x z c : as_cr u x = Some c -> as_cr u z = Some c -> x = z.
Proof.
  intros Hx Hz. destruct (as_cr_total _ _ _ Hx) as [E1 _]. destruct (as_cr_total _ _ _ Hz) as [E2 _].
  pose proof (unit_ns_pos u). apply (Z.mul_reg_r _ _ (unit_ns u)); [lia|].
  rewrite <- (cr_total_of_total (x * unit_ns u)), <- E1, E2. apply cr_total_of_total.
Qed.

(* every total within 2^65 ns of the epoch, hence every i64 nanosecond timestamp, is inside chrono's date range *)
Lemma ns_in_range T :
  - 36893488147419103232 <= T <= 36893488147419103232 -> date_in_range (T / 1000000000 / SECS_PER_DAY) = true.
Proof.
  unfold date_in_range, cr_min_day, cr_max_day, SECS_PER_DAY. intros H. Z.div_mod_to_equations. lia.
Qed.
Lemma nano_in_range x : in_i64 x = true -> date_in_range (x / 1000000000 / SECS_PER_DAY) = true.
Proof. rewrite in_i64_iff. unfold i64_min, i64_max. intros H. apply ns_in_range. lia. Qed.

Lemma as_cr_range u x c :
  in_i64 x = true -> as_cr u x = Some c -> date_in_range (x * unit_ns u / 1000000000 / SECS_PER_DAY) = true.
Proof.
  intros Hx. rewrite as_cr_spec, instant_secs. destruct (is_nat x); [discriminate|].
  destruct u; cbn [unit_eqb orb]; try (destruct (date_in_range _); [reflexivity|discriminate]).
  intros _. apply nano_in_range. exact Hx.
Qed.

Lemma as_cr_of_total u x :
  x <> NaT -> date_in_range (x * unit_ns u / 1000000000 / SECS_PER_DAY) = true ->
  as_cr u x = Some (cr_of_total_ns (x * unit_ns u)).
Proof.
  intros Hx Hr. apply is_nat_false in Hx. rewrite instant_secs in Hr.
  rewrite as_cr_spec, Hx, Hr, orb_true_r. reflexivity.
Qed.

(* From<chrono> of a total: floor to the unit; at ns resolution NaT when the total is not an i64 *)
Lemma div_split T U P : 0 < U -> 0 < P -> T / (U * P) * P + T mod (U * P) / U = T / U.
Proof.
  intros HU HP. rewrite (Z.div_mod T (U * P)) at 3 by lia.
  replace (U * P * (T / (U * P))) with (T / (U * P) * P * U) by ring.
  rewrite Z.div_add_l by lia. reflexivity.
Qed.

Lemma from_cr_of_total u T :
  from_cr u (cr_of_total_ns T) = Ok (if unit_eqb u Nano && negb (in_i64 T) then NaT else T / unit_ns u).
Proof.
  destruct u; unfold from_cr; cbn [unit_eqb andb unit_ns].
  - reflexivity.
  - f_equal. apply (div_split T 1000000 1000); reflexivity.
  - f_equal. apply (div_split T 1000 1000000); reflexivity.
  - fold (cr_total_ns (cr_of_total_ns T)). rewrite cr_total_of_total, Z.div_1_r.
    destruct (in_i64 T); reflexivity.
Qed.

Lemma from_cr_of_total_val u t y : from_cr u (cr_of_total_ns t) = Ok y -> y <> NaT -> y = t / unit_ns u.
Proof. rewrite from_cr_of_total. intros [= <-]. destruct (_ && _); [contradiction|reflexivity]. Qed.

Lemma from_cr_total u c : exists x, from_cr u c = Ok x.
Proof. destruct u; eexists; reflexivity. Qed.

(* the instant of an i64 date-time comes back as that date-time *)
Lemma from_cr_instant u x : in_i64 x = true -> from_cr u (cr_of_total_ns (x * unit_ns u)) = Ok x.
Proof.
  intros Hx. pose proof (unit_ns_pos u). rewrite from_cr_of_total, Z.div_mul by lia.
  destruct u; cbn [unit_eqb andb unit_ns]; try reflexivity. rewrite Z.mul_1_r, Hx. reflexivity.
Qed.

Lemma as_cr_from_cr u x c : in_i64 x = true -> as_cr u x = Some c -> from_cr u c = Ok x.
Proof. intros Hx Hc. destruct (as_cr_total _ _ _ Hc) as [-> _]. apply from_cr_instant. exact Hx. Qed.

(* a chrono value that is whole in the unit converts to the date-time of the same instant: the whole seconds are a
   whole number of units because unit_ns u divides 10^9 *)
Lemma from_cr_whole u c y :
  cr_wf c -> cr_nanos c mod unit_ns u = 0 -> from_cr u c = Ok y -> y <> NaT -> instant_ns u y = cr_total_ns c.
Proof.
  intros Hw Hm Hf Hy. pose proof (unit_ns_pos u) as HU.
  rewrite <- (cr_of_total_total c Hw) in Hf. apply from_cr_of_total_val in Hf; [|exact Hy].
  unfold instant_ns. subst y. rewrite Z.mul_comm. symmetry. apply Z.div_exact; [lia|]. unfold cr_total_ns.
  rewrite <- (unit_ns_per_sec u), (Z.mul_comm (unit_ns u)), Z.mul_assoc, Z.add_comm, Z.mod_add by lia.
  exact Hm.
Qed.

(* ... and comes back unchanged *)
Lemma from_cr_as_cr u c x :
  cr_wf c -> cr_nanos c mod unit_ns u = 0 -> date_in_range (cr_day c) = true ->
  from_cr u c = Ok x -> x <> NaT -> as_cr u x = Some c.
Proof.
  intros Hwf Hm Hr Hf Hx. pose proof (from_cr_whole u c x Hwf Hm Hf Hx) as E. unfold instant_ns in E.
  rewrite <- (cr_of_total_total c Hwf), <- E. apply as_cr_of_total; [exact Hx|].
  rewrite E. unfold cr_total_ns. destruct Hwf. rewrite Z.div_add_l, (Z.div_small (cr_nanos c)), Z.add_0_r by lia.
  exact Hr.
Qed.

(* chrono's checked_add_signed on a total *)
Lemma cr_add_ns_total T n :
  cr_add_ns (cr_of_total_ns T) n =
    if date_in_range ((T + n) / 1000000000 / SECS_PER_DAY) then Some (cr_of_total_ns (T + n)) else None.
Proof. unfold cr_add_ns. rewrite cr_total_of_total. reflexivity. Qed.

Lemma cr_add_ns_inv c n r :
  cr_add_ns c n = Some r -> r = cr_of_total_ns (cr_total_ns c + n) /\ date_in_range (cr_day r) = true.
Proof.
  unfold cr_add_ns. destruct (date_in_range _) eqn:E; [|discriminate]. intros [= <-]. auto.
Qed.

(* a valid (non-NaT, representable) duration *)
Definition td_valid (d : tdelta) : Prop :=
  i32_min < td_months d <= i32_max /\ - DUR_MAX_NS <= td_ns d <= DUR_MAX_NS.

Lemma td_valid_not_nat d : td_valid d -> td_is_nat d = false.
Proof. unfold td_valid, td_is_nat. intros [H _]. lia. Qed.

Lemma td_months0_not_nat d : td_months d = 0 -> td_is_nat d = false.
Proof. unfold td_is_nat. intros ->. reflexivity. Qed.

Definition hms_ok (h m s : Z) : Prop := 0 <= h < 24 /\ 0 <= m < 60 /\ 0 <= s < 60.

Lemma time_from_hms_value h m s :
  hms_ok h m s -> time_from_hms h m s = Ok ((h * 3600 + m * 60 + s) * 1000000000).
Proof.
  intros (Hh & Hm & Hs). unfold time_from_hms, SECS_PER_HOUR, SECS_PER_MINUTE, NANOS_PER_SEC.
  repeat (rewrite chk64_small by lia; cbn [bind]). reflexivity.
Qed.

Lemma time_from_hms_nano_value h m s n :
  hms_ok h m s -> 0 <= n < 1000000000 ->
  time_from_hms_nano h m s n = Ok ((h * 3600 + m * 60 + s) * 1000000000 + n).
Proof.
  intros H Hn. unfold time_from_hms_nano. rewrite (time_from_hms_value _ _ _ H). cbn [bind].
  destruct H as (Hh & Hm & Hs). apply chk64_small. lia.
Qed.

Lemma time_from_hms_sub_value scale h m s x :
  hms_ok h m s -> 0 < scale -> 0 <= x -> x * scale < 1000000000 ->
  time_from_hms_sub scale h m s x = Ok ((h * 3600 + m * 60 + s) * 1000000000 + x * scale).
Proof.
  intros H Hsc Hx Hlt. unfold time_from_hms_sub. rewrite (time_from_hms_value _ _ _ H). cbn [bind].
  destruct H as (Hh & Hm & Hs). assert (0 <= x * scale) by nia.
  rewrite (chk64_small (x * scale)) by lia. cbn [bind]. apply chk64_small. lia.
Qed.

(* a time of day inside 0 .. 86400 s converts to chrono's NaiveTime (secs, frac) exactly *)
Lemma time_as_cr_in_range t :
  0 <= t < 86400000000000 -> time_as_cr t = Some (t / 1000000000, t mod 1000000000).
Proof.
  intros Ht. unfold time_as_cr, NANOS_PER_SEC.
  rewrite Z.quot_div_nonneg, Z.rem_mod_nonneg by lia.
  pose proof (Z.mod_pos_bound t 1000000000 ltac:(lia)) as Hr.
  assert (Hq : 0 <= t / 1000000000 < 86400) by (split; [apply Z.div_pos|apply Z.div_lt_upper_bound]; lia).
  unfold wrap_u32. rewrite !Z.mod_small by lia.
  unfold naive_time_opt.
  replace (86400 <=? t / 1000000000) with false by lia.
  replace (2000000000 <=? t mod 1000000000) with false by lia.
  replace (1000000000 <=? t mod 1000000000) with false by lia.
  reflexivity.
Qed.

Lemma time_getters h m s n t :
  hms_ok h m s -> 0 <= n < 1000000000 -> t = (h * 3600 + m * 60 + s) * 1000000000 + n ->
  time_hour t = Ok h /\ time_minute t = Ok m /\ time_second t = Ok s /\ time_nanosecond t = Ok n.
Proof.
  intros (Hh & Hm & Hs) Hn ->.
  unfold time_hour, time_minute, time_second, time_nanosecond.
  rewrite time_as_cr_in_range by lia. cbn [unwrap bind fst snd].
  set (S0 := h * 3600 + m * 60 + s).
  rewrite <- (Z.div_unique (S0 * 1000000000 + n) 1000000000 S0 n), <- (Z.mod_unique (S0 * 1000000000 + n) 1000000000 S0 n)
    by lia.
  subst S0. repeat split; f_equal; Z.div_mod_to_equations; lia.
Qed.

(* chrono's three-way case on the truncating remainder is the Euclidean floor *)
Lemma trunc_floor T n :
  0 < n ->
  let dd := Z.rem T n in
  (if dd =? 0 then T else if 0 <? dd then T - dd else T - (n - Z.abs dd)) = n * (T / n).
Proof.
  intros Hn dd. pose proof (Z.quot_rem' T n) as HT. fold dd in HT.
  destruct (Z.le_gt_cases 0 T) as [Hpos | Hneg].
  - pose proof (Z.rem_bound_pos_pos T n Hn Hpos) as Hb. fold dd in Hb.
    assert (Hq : Z.quot T n = T / n) by (apply Z.div_unique with (r := dd); [left; exact Hb | exact HT]).
    destruct (dd =? 0) eqn:E0; [|destruct (0 <? dd) eqn:E1]; lia.
  - pose proof (Z.rem_bound_pos_neg T n Hn ltac:(lia)) as Hb. fold dd in Hb.
    destruct (dd =? 0) eqn:E0.
    + assert (Hq : Z.quot T n = T / n) by (apply Z.div_unique with (r := 0); [left; lia | lia]). lia.
    + assert (Hq : Z.quot T n - 1 = T / n) by (apply Z.div_unique with (r := dd + n); [left; lia | lia]).
      destruct (0 <? dd) eqn:E1; lia.
Qed.
