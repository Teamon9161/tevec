(* Proofs/KernelsXR.v — C10 at option R (exact reals + one NaN): vquantile / vmedian never panic, the carrier
   hypotheses of Proofs/KernelsMap.v (the index law of vquantile, 0 <= 0.5 <= 1) hold there.  Reals axioms of the
   standard library only.                                                                                  *)
From Coq Require Import Reals Lra List Bool.
From Tevec Require Import Base.Prelude Base.Num Base.XR Model.Quantile
     Proofs.OrderXR Proofs.Quantile Proofs.TransRank Proofs.Kernels3 Proofs.KernelsMap.
Import ListNotations.
Local Open Scope R_scope.

Lemma half_in_range_xr : nleb nzero (nhalf (A := XR)) && nleb (nhalf (A := XR)) none = true.
Proof.
  rewrite nhalf_xr. change (@nzero XR NumXR) with (Some 0). change (@none XR NumXR) with (Some 1).
  rewrite !xleb_true by lra. reflexivity.
Qed.

Theorem vquantile_never_panics_xr (q : XR) m (xs : list XR) :
  exists r, vquantile (NF := NumFloorXR) (DT := IsNoneXR) q m xs = Ok r /\
            (r = None <-> nleb nzero q && nleb q none = false).
Proof. apply vquantile_never_panics. exact qidx_law_xr. Qed.

Theorem vmedian_never_panics_xr (xs : list XR) :
  exists v, vmedian (NF := NumFloorXR) (DT := IsNoneXR) xs = Ok v.
Proof. apply vmedian_never_panics; [exact qidx_law_xr|exact half_in_range_xr]. Qed.

Lemma self_eq_on_xr (xs : list XR) : self_eq_on (DT := IsNoneXR) xs.
Proof.
  intros i v _ Hv. destruct v as [x|]; [|discriminate Hv]. cbn [unwrap IsNoneXR IsNone_float].
  split.
  - cbn [nltb NumXR]. unfold xltb. destruct (Rlt_dec x x) as [H|_]; [lra|reflexivity].
  - cbn [neqb NumXR]. unfold xeqb. destruct (Req_EM_T x x) as [_|H]; [reflexivity|contradiction].
Qed.
