(* Proofs/Audit13.v — lemmas and definitions behind sections (8)-(16) of Props/C13.v (clause table: notes/C13.md,
   "Audit matrix"): the i32 lag arithmetic, the rejected inputs exactly, what an operation must NOT change, the
   degenerate inputs.
   Part 1: axiom-free (lists, Z).  Part 2 (end of file): the two numeric carriers — exact reals with a
   null (option R) and Coq's primitive binary64.                                                    *)
From Coq Require Import ZArith List Lia Bool.
From Tevec Require Import Base.Prelude Model.MapOps Spec.MapOps Proofs.MapOps.
Import ListNotations.
Local Open Scope Z_scope.

(* (A) i32 lag arithmetic: what `n.unsigned_abs() as usize` is, and why the model may use Z.abs *)
(* two's complement i32 / u32 (core::num): wrapping_neg, wrapping_abs, `as u32`, unsigned_abs *)
Definition i32_min : Z := - 2 ^ 31.
Definition i32_max : Z := 2 ^ 31 - 1.
Definition in_i32 (n : Z) : Prop := i32_min <= n <= i32_max.
Definition wrap_i32 (z : Z) : Z := (z + 2 ^ 31) mod 2 ^ 32 - 2 ^ 31.
Definition as_u32 (z : Z) : Z := z mod 2 ^ 32.
Definition i32_wrapping_abs (n : Z) : Z := if n <? 0 then wrap_i32 (- n) else n.
Definition i32_unsigned_abs (n : Z) : Z := as_u32 (i32_wrapping_abs n).
(* `-n` / `n.abs()` on i32 in a debug build *)
Definition i32_checked_neg (n : Z) : res Z := if - n <=? i32_max then Ok (- n) else Panic Overflow.

Lemma i32_unsigned_abs_spec n : in_i32 n -> i32_unsigned_abs n = Z.abs n.
Proof.
  unfold in_i32, i32_min, i32_max, i32_unsigned_abs, i32_wrapping_abs, as_u32, wrap_i32. intros H.
  destruct (n <? 0) eqn:E.
  - apply Z.ltb_lt in E.
    destruct (Z.eq_dec n (- 2 ^ 31)) as [->|Hne]; [reflexivity|].
    rewrite (Z.mod_small (- n + 2 ^ 31)) by lia.
    rewrite Z.mod_small by lia. lia.
  - apply Z.ltb_ge in E. rewrite Z.mod_small by lia. lia.
Qed.

(* the lag as a usize: never more than 2^31, so the cast `as usize` (>= 32 bits) is lossless *)
Lemma i32_unsigned_abs_range n : in_i32 n -> 0 <= i32_unsigned_abs n <= 2 ^ 31.
Proof. intros H. rewrite i32_unsigned_abs_spec by exact H. unfold in_i32, i32_min, i32_max in H. lia. Qed.

(* (B) shift / vshift: lag 0 is the identity, |n| >= len is all fill, missing fill *)
Section ShiftAudit.
  Context {T : Type}.

  Lemma shift_zero (v : T) xs : shift 0 v xs = Ok xs.
  Proof.
    unfold shift. cbn [Z.abs]. destruct (Z.of_nat (length xs) <=? 0) eqn:E; [|reflexivity].
    apply Z.leb_le in E. destruct xs; [reflexivity|cbn [length] in E; lia].
  Qed.

  Lemma shift_beyond n (v : T) xs :
    Z.of_nat (length xs) <= Z.abs n -> shift n v xs = Ok (repeat v (length xs)).
  Proof. intros H. unfold shift. rewrite (proj2 (Z.leb_le _ _) H). reflexivity. Qed.

  (* the i32 extremes are ordinary lags: anything shorter than 2^31 elements becomes all fill *)
  Lemma shift_extreme n (v : T) xs :
    n = i32_min \/ n = i32_max -> Z.of_nat (length xs) < 2 ^ 31 -> shift n v xs = Ok (repeat v (length xs)).
  Proof. intros [-> | ->] H; apply shift_beyond; unfold i32_min, i32_max; lia. Qed.

  Lemma shift_length n (v : T) xs r : shift n v xs = Ok r -> length r = length xs.
  Proof. rewrite shift_spec. intros H. injection H as <-. apply tabulate_length. Qed.

  Context {I : Type} (d : NullDict T I).

  (* vshift is decided by the fill alone: it returns iff the effective fill value exists *)
  Lemma vshift_total_iff n value xs :
    (exists r, vshift d n value xs = Ok r) <-> (exists v, or_none d value = Ok v).
  Proof.
    unfold vshift. destruct (or_none d value) as [v|k]; cbn [bind].
    - rewrite shift_spec. split; intros _; eauto.
    - split; intros (x & Hx); discriminate.
  Qed.

  (* an operation that only needs the effective fill panics exactly when there is none, with none()'s panic *)
  Lemma or_none_bind_panic {R} (f : T -> res R) value k :
    (forall v, exists r, f v = Ok r) ->
    (do v <- or_none d value; f v) = Panic k <-> (value = None /\ none d = Panic k).
  Proof.
    intros Hf. unfold or_none. destruct value as [v|]; cbn [bind].
    - destruct (Hf v) as [r ->]. split; [discriminate|intros [H _]; discriminate].
    - destruct (none d) as [v|k']; cbn [bind].
      + destruct (Hf v) as [r ->]. split; [discriminate|intros [_ H]; discriminate].
      + split; [intros H; injection H as ->; auto|intros [_ H]; injection H as ->; reflexivity].
  Qed.

  Lemma vshift_panic_iff n value xs k :
    vshift d n value xs = Panic k <-> (value = None /\ none d = Panic k).
  Proof. apply or_none_bind_panic. intros v. rewrite shift_spec. eauto. Qed.

  Lemma vshift_length n value xs r : vshift d n value xs = Ok r -> length r = length xs.
  Proof.
    unfold vshift. destruct (or_none d value) as [v|k]; cbn [bind]; [apply shift_length|discriminate].
  Qed.

  Lemma vshift_zero value v xs : or_none d value = Ok v -> vshift d 0 value xs = Ok xs.
  Proof. intros H. unfold vshift. rewrite H. cbn [bind]. apply shift_zero. Qed.
End ShiftAudit.

(* (C) vdiff / vpct_change: length with no hypothesis, lag 0, |n| >= len, missing fill *)
Section DiffAudit.
  Context {T I : Type} (d : NullDict T I) (sub : T -> T -> T).

  Lemma vdiff_length n value xs r : vdiff d sub n value xs = Ok r -> length r = length xs.
  Proof.
    destruct (or_none d value) as [v|k] eqn:Hv.
    - rewrite (vdiff_spec d sub n value xs Hv). intros H. injection H as <-. apply tabulate_length.
    - unfold vdiff. rewrite Hv. discriminate.
  Qed.

  Lemma vdiff_panic_iff n value xs k :
    vdiff d sub n value xs = Panic k <-> (value = None /\ none d = Panic k).
  Proof.
    apply (or_none_bind_panic d (fun v => vdiff d sub n (Some v) xs)). intros v.
    rewrite (vdiff_spec d sub n (Some v) xs (v:=v) eq_refl). eauto.
  Qed.

  (* lag 0: x[i] - x[i] at every position, the fill value is not used *)
  Lemma vdiff_zero value v xs :
    or_none d value = Ok v -> vdiff d sub 0 value xs = Ok (map (fun x => sub x x) xs).
  Proof.
    intros Hv. unfold vdiff. rewrite Hv. cbn [bind Z.abs].
    destruct (Z.of_nat (length xs) <=? 0) eqn:E.
    - apply Z.leb_le in E. destruct xs; [reflexivity|cbn [length] in E; lia].
    - cbn [Z.ltb Z.compare Z.to_nat skipn repeat]. rewrite app_nil_r. f_equal.
      clear E. induction xs as [|x xs IH]; [reflexivity|]. cbn [combine map fst snd]. f_equal. exact IH.
  Qed.

  Lemma vdiff_beyond n value v xs :
    or_none d value = Ok v -> Z.of_nat (length xs) <= Z.abs n ->
    vdiff d sub n value xs = Ok (repeat v (length xs)).
  Proof.
    intros Hv H. unfold vdiff. rewrite Hv. cbn [bind]. rewrite (proj2 (Z.leb_le _ _) H). reflexivity.
  Qed.
End DiffAudit.

Section PctAudit.
  Context {T I F : Type} (d : NullDict T I) (o : FOps F) (cast : T -> F).

  (* vpct_change never panics and always returns len items: no assumption on the float operations *)
  Lemma vpct_change_total n xs : exists r, vpct_change d o cast n xs = Ok r /\ length r = length xs.
  Proof.
    unfold vpct_change. destruct (Z.of_nat (length xs) <=? Z.abs n) eqn:Hg.
    - eexists. split; [reflexivity|apply repeat_length].
    - apply Z.leb_gt in Hg. destruct (0 <? n) eqn:Hp.
      + unfold usub. rewrite (proj2 (Nat.leb_le _ _)) by lia. cbn [bind].
        eexists. split; [reflexivity|].
        rewrite map_length, combine_length, app_length, repeat_length, map_length, firstn_length. lia.
      + eexists. split; [reflexivity|].
        rewrite app_length, map_length, combine_length, skipn_length, repeat_length. lia.
  Qed.

  Lemma vpct_change_length n xs r : vpct_change d o cast n xs = Ok r -> length r = length xs.
  Proof. intros H. destruct (vpct_change_total n xs) as (r' & Hr & Hl). rewrite Hr in H. injection H as <-. exact Hl. Qed.

  Lemma vpct_change_beyond n xs :
    Z.of_nat (length xs) <= Z.abs n -> vpct_change d o cast n xs = Ok (repeat (fnanv o) (length xs)).
  Proof. intros H. unfold vpct_change. rewrite (proj2 (Z.leb_le _ _) H). reflexivity. Qed.

  (* lag 0: x/x - 1 on a non-null, non-zero element, null elsewhere; no cast-law needed *)
  Lemma vpct_change_zero xs :
    vpct_change d o cast 0 xs = Ok (map (fun x => pct_neg d o cast x x) xs).
  Proof.
    unfold vpct_change. cbn [Z.abs].
    destruct (Z.of_nat (length xs) <=? 0) eqn:E.
    - apply Z.leb_le in E. destruct xs; [reflexivity|cbn [length] in E; lia].
    - cbn [Z.ltb Z.compare Z.to_nat skipn repeat]. rewrite app_nil_r. f_equal.
      clear E. induction xs as [|x xs IH]; [reflexivity|]. cbn [combine map fst snd]. f_equal. exact IH.
  Qed.
End PctAudit.

(* (D) ffill / bfill: the default is needed exactly at a masked head (tail); that is the only panic *)
Section FillAudit.
  Context {T I : Type} (d : NullDict T I).

  Lemma last_valid_head_unmasked (mask : T -> bool) x l :
    mask x = false -> last_valid mask (x :: l) <> None.
  Proof.
    intros Hx E. pose proof (proj1 (last_valid_none_earlier mask (x :: l) (length (x :: l)))) as H.
    rewrite firstn_all in H. specialize (H E 0%nat x). cbn [length nth_error] in H.
    rewrite H in Hx by (try lia; reflexivity). discriminate.
  Qed.

  (* head unmasked (or empty series): the run never asks for the default, whatever `value` is *)
  Lemma ffill_run_head (mask : T -> bool) value dv xs :
    (forall x, hd_error xs = Some x -> mask x = false) ->
    run (ffill_step d mask value) None xs = map (@Ok T) (mapi (ffill_at mask dv xs) xs).
  Proof.
    intros Hh. apply ffill_run_ok. intros i x Hx Hm El. exfalso.
    destruct xs as [|x0 xs']; [destruct i; discriminate|]. specialize (Hh x0 eq_refl).
    destruct i as [|i]; [cbn in Hx; injection Hx as ->; congruence|].
    cbn [firstn] in El. exact (last_valid_head_unmasked mask x0 _ Hh El).
  Qed.

  Theorem ffill_mask_head_unmasked (mask : T -> bool) value dv xs :
    (forall x, hd_error xs = Some x -> mask x = false) ->
    ffill_mask d mask value xs = Ok (mapi (ffill_at mask dv xs) xs).
  Proof. intros H. unfold ffill_mask. rewrite (ffill_run_head _ value dv _ H). apply sequence_map_Ok. Qed.

  (* head masked: the first item is the default; if there is none, that is the panic *)
  Lemma ffill_mask_head_masked_panics (mask : T -> bool) x xs k :
    mask x = true -> none d = Panic k -> ffill_mask d mask None (x :: xs) = Panic k.
  Proof.
    intros Hm Hn. unfold ffill_mask. cbn [run]. unfold ffill_step at 1. rewrite Hm, Hn. reflexivity.
  Qed.

  (* exactly which inputs ffill_mask rejects, and with which panic *)
  Theorem ffill_mask_panic_iff (mask : T -> bool) value xs k :
    ffill_mask d mask value xs = Panic k <->
    (value = None /\ none d = Panic k /\ exists x, hd_error xs = Some x /\ mask x = true).
  Proof.
    split.
    - intros Hp.
      destruct (or_none d value) as [dv|k'] eqn:Hv.
      { rewrite (ffill_mask_spec d mask value xs Hv) in Hp. discriminate. }
      unfold or_none in Hv. destruct value as [v|]; [discriminate|].
      destruct xs as [|x xs].
      { cbn in Hp. discriminate. }
      destruct (mask x) eqn:Hm.
      + rewrite (ffill_mask_head_masked_panics mask x xs k' Hm Hv) in Hp. injection Hp as ->.
        split; [reflexivity|]. split; [exact Hv|]. exists x. split; [reflexivity|exact Hm].
      + assert (Hh : forall y, hd_error (x :: xs) = Some y -> mask y = false)
          by (intros y Hy; cbn in Hy; injection Hy as <-; exact Hm).
        rewrite (ffill_mask_head_unmasked mask None x (x :: xs) Hh) in Hp. discriminate.
    - intros (-> & Hn & x & Hx & Hm). destruct xs as [|x0 xs]; [discriminate|].
      cbn in Hx. injection Hx as ->. apply ffill_mask_head_masked_panics; assumption.
  Qed.

  (* bfill_mask is ffill_mask on the reversed series, reversed back *)
  Lemma bfill_mask_rev (mask : T -> bool) value xs :
    bfill_mask d mask value xs = (do l <- ffill_mask d mask value (rev xs); Ok (rev l)).
  Proof. reflexivity. Qed.

  Theorem bfill_mask_panic_iff (mask : T -> bool) value xs k :
    bfill_mask d mask value xs = Panic k <->
    (value = None /\ none d = Panic k /\ exists x, hd_error (rev xs) = Some x /\ mask x = true).
  Proof.
    rewrite bfill_mask_rev, <- ffill_mask_panic_iff.
    destruct (ffill_mask d mask value (rev xs)); cbn [bind]; split; intros H; try discriminate; exact H.
  Qed.

  Lemma mask_find_default (mask : T -> bool) l dv :
    mask (match find (fun v => negb (mask v)) l with Some y => y | None => dv end) = forallb mask l && mask dv.
  Proof.
    induction l as [|x l IH]; [reflexivity|]. cbn [find forallb].
    destruct (mask x) eqn:Hx; cbn [negb andb]; [exact IH|exact Hx].
  Qed.

  Lemma forallb_rev {A} (f : A -> bool) l : forallb f (rev l) = forallb f l.
  Proof.
    induction l as [|x l IH]; [reflexivity|]. cbn [rev forallb].
    rewrite forallb_app, IH. cbn [forallb]. rewrite andb_true_r. apply andb_comm.
  Qed.

  (* a place is still masked (null) after the forward fill exactly when it was masked, everything before
     it was masked, and the default is masked too *)
  Theorem ffill_at_masked_iff (mask : T -> bool) dv xs i x :
    mask (ffill_at mask dv xs i x) = mask x && forallb mask (firstn i xs) && mask dv.
  Proof.
    unfold ffill_at, last_valid. destruct (mask x) eqn:Hx; [|rewrite Hx; reflexivity]. cbn [andb].
    rewrite mask_find_default, forallb_rev. reflexivity.
  Qed.

  Theorem bfill_at_masked_iff (mask : T -> bool) dv xs i x :
    mask (bfill_at mask dv xs i x) = mask x && forallb mask (skipn (S i) xs) && mask dv.
  Proof.
    unfold bfill_at, next_valid. destruct (mask x) eqn:Hx; [|rewrite Hx; reflexivity]. cbn [andb].
    apply mask_find_default.
  Qed.

  (* an unmasked (non-null) place is never touched, by either direction *)
  Lemma ffill_at_unmasked (mask : T -> bool) dv xs i x : mask x = false -> ffill_at mask dv xs i x = x.
  Proof. intros H. unfold ffill_at. rewrite H. reflexivity. Qed.
  Lemma bfill_at_unmasked (mask : T -> bool) dv xs i x : mask x = false -> bfill_at mask dv xs i x = x.
  Proof. intros H. unfold bfill_at. rewrite H. reflexivity. Qed.

  Lemma fill_mask_idempotent (mask : T -> bool) v xs :
    fill_mask mask v (fill_mask mask v xs) = fill_mask mask v xs.
  Proof.
    unfold fill_mask. rewrite map_map. apply map_ext. intros x.
    destruct (mask x) eqn:Hx; [|rewrite Hx; reflexivity]. destruct (mask v); reflexivity.
  Qed.

  Lemma fill_no_nulls_left v xs :
    is_none d v = false -> Forall (fun y => is_none d y = false) (fill d v xs).
  Proof.
    intros Hv. unfold fill, fill_mask. apply Forall_forall. intros y Hy.
    apply in_map_iff in Hy. destruct Hy as (x & <- & _). destruct (is_none d x) eqn:Hx; [exact Hv|exact Hx].
  Qed.

  Lemma fill_mask_unmasked (mask : T -> bool) v xs :
    (forall x, In x xs -> mask x = false) -> fill_mask mask v xs = xs.
  Proof.
    intros H. unfold fill_mask. rewrite <- (map_id xs) at 2. apply map_ext_in. intros x Hx.
    rewrite (H x Hx). reflexivity.
  Qed.

  (* fill changes the number of nulls to 0 or keeps every null a null: the null pattern afterwards *)
  Lemma fill_nullness v xs i x :
    nth_error xs i = Some x ->
    exists y, nth_error (fill d v xs) i = Some y /\ is_none d y = is_none d x && is_none d v.
  Proof.
    intros Hx. unfold fill. rewrite fill_mask_positional, Hx. cbn [option_map].
    eexists. split; [reflexivity|]. destruct (is_none d x) eqn:E; [reflexivity|exact E].
  Qed.
End FillAudit.

(* (E) vclip: null bounds; the reversed-bounds witness over Z *)
Section ClipAudit.
  Context {T I : Type} (d : NullDict T I) (inner : T -> I) (ltb : I -> I -> bool).

  (* both bounds null: the series itself, for EVERY dictionary (no unwrap is evaluated) *)
  Lemma vclip_null_bounds lower upper xs :
    is_none d lower = true -> is_none d upper = true -> vclip d ltb lower upper xs = Ok xs.
  Proof. intros Hl Hu. unfold vclip. rewrite Hl, Hu. reflexivity. Qed.

  (* one bound null: the other side alone *)
  Lemma clip_elem_lower_only lower upper x :
    is_none d upper = true -> is_none d x = false -> is_none d lower = false ->
    clip_elem d inner ltb lower upper x = if ltb (inner x) (inner lower) then lower else x.
  Proof. intros Hu Hx Hl. unfold clip_elem. rewrite Hx, Hl, Hu. cbn [negb andb]. reflexivity. Qed.
  Lemma clip_elem_upper_only lower upper x :
    is_none d lower = true -> is_none d x = false -> is_none d upper = false ->
    clip_elem d inner ltb lower upper x = if ltb (inner upper) (inner x) then upper else x.
  Proof. intros Hl Hx Hu. unfold clip_elem. rewrite Hx, Hl, Hu. cbn [negb andb]. reflexivity. Qed.
End ClipAudit.

(* over Z: the reversed-bounds behaviour is not idempotent and not contained (witness) *)
Lemma clip_reversed_Z_witness :
  let c := clip_elem dict_int (fun v : Z => v) Z.ltb 5 1 in
  c 0 = 5 /\ c (c 0) = 1 /\ c (c 0) <> c 0 /\ leb_of Z.ltb (c 0) 1 = false.
Proof. vm_compute. repeat split; discriminate. Qed.

Lemma Zltb_cotrans a b c : (a <? b) = true -> (a <? c) = true \/ (c <? b) = true.
Proof. intros H. apply Z.ltb_lt in H. destruct (Z.ltb_spec a c); [left; reflexivity|right; apply Z.ltb_lt; lia]. Qed.

(* (F) abs / vabs over Z: |x|, non-negative *)
Lemma vabs_Z_spec xs : vabs dict_int Z.abs xs = Ok (map Z.abs xs) /\ Forall (fun y => 0 <= y) (map Z.abs xs).
Proof.
  split; [apply vabs_int|]. apply Forall_forall. intros y Hy. apply in_map_iff in Hy.
  destruct Hy as (x & <- & _). apply Z.abs_nonneg.
Qed.

(* Part 2 — numeric carriers *)
(* (G) exact reals with one null: XR = option R.  At this carrier the hypotheses of the generic theorems
   about the arithmetic (subtraction propagates nulls; a cast is null exactly when its argument is) hold by
   computation, and diff_at / pct_formula are the textbook x[i] - x[i-n] and x[i] / x[i-n] - 1
   (diff_at_real, pct_formula_real; used by C13_vdiff_real, C13_vpct_change_real). *)
From Coq Require Import Reals.
From Tevec Require Import Base.XR.

Definition d_xr : NullDict XR XR := dict_float xisnan None.
Definition xr_sub : XR -> XR -> XR := xlift2 Rminus.
Definition xr_ops : FOps XR :=
  {| fnanv := None; fisnan := xisnan; fis0 := fun a => xeqb a (Some 0%R);
     fdiv := xdiv; fsub := xlift2 Rminus; fone := Some 1%R |}.

(* the effective fill of an f64-like series: `value.unwrap_or(NaN)` *)
Lemma or_none_xr value : or_none d_xr value = Ok (match value with Some v => v | None => None end).
Proof. destruct value; reflexivity. Qed.

Definition diff_real (n : Z) (v : XR) (xs : list XR) (i : nat) : XR :=
  if in_range (length xs) (src n i) then
    match nth i xs None, nth (Z.to_nat (src n i)) xs None with
    | Some b, Some a => Some (b - a)%R
    | _, _ => None
    end
  else v.

Lemma diff_at_real n v xs i : (i < length xs)%nat -> diff_at xr_sub n v xs i = diff_real n v xs i.
Proof.
  intros Hi. unfold diff_at, diff_real. destruct (in_range (length xs) (src n i)) eqn:E; [|reflexivity].
  apply in_range_lt in E.
  rewrite (nth_indep xs v None Hi), (nth_indep xs v None E).
  destruct (nth i xs None), (nth (Z.to_nat (src n i)) xs None); reflexivity.
Qed.

Definition pct_real (n : Z) (xs : list XR) (i : nat) : XR :=
  if in_range (length xs) (src n i) then
    match nth (Z.to_nat (src n i)) xs None, nth i xs None with
    | Some a, Some b => if Req_EM_T a 0 then None else Some (b / a - 1)%R
    | _, _ => None
    end
  else None.

Lemma pct_formula_real (a b : XR) :
  pct_formula d_xr xr_ops (fun x => x) a b =
  match a, b with Some a, Some b => if Req_EM_T a 0 then None else Some (b / a - 1)%R | _, _ => None end.
Proof.
  destruct a as [a|], b as [b|]; try reflexivity.
  unfold pct_formula. cbn [is_none d_xr dict_float xisnan negb andb fis0 xr_ops xeqb fdiv fsub fone fnanv xdiv].
  destruct (Req_EM_T a 0); reflexivity.
Qed.

Lemma xltb_irrefl (a : XR) : xltb a a = false.
Proof. destruct a as [a|]; [|reflexivity]. cbn. destruct (Rlt_dec a a) as [H|H]; [exfalso; exact (Rlt_irrefl a H)|reflexivity]. Qed.

(* (H) Coq's primitive binary64 (`float`), the instance the correspondence run executes.  From the
   standard library's specification of the primitive operations (Floats.FloatAxioms: eqb_spec,
   ltb_spec, sub_spec, abs_spec). *)
From Coq Require Import Floats.

Lemma SFcompare_refl s : s <> S754_nan -> SFcompare s s = Some Eq.
Proof.
  destruct s as [b|b| |b m e]; try congruence; intros _; cbn [SFcompare].
  - reflexivity.
  - destruct b; reflexivity.
  - rewrite Z.compare_refl. change (Pos.compare_cont Eq m m) with (Pos.compare m m).
    rewrite Pos.compare_refl. destruct b; reflexivity.
Qed.

Lemma f64_is_nan_iff (a : float) : is_nan a = true <-> Prim2SF a = S754_nan.
Proof.
  unfold is_nan. rewrite FloatAxioms.eqb_spec. unfold SFeqb.
  destruct (Prim2SF a) as [b|b| |b m e] eqn:E.
  - cbn. split; discriminate.
  - rewrite SFcompare_refl by discriminate. cbn. split; discriminate.
  - cbn. split; reflexivity.
  - rewrite SFcompare_refl by discriminate. cbn. split; discriminate.
Qed.

Lemma f64_ltb_irrefl (a : float) : (a <? a)%float = false.
Proof.
  rewrite FloatAxioms.ltb_spec. unfold SFltb.
  destruct (Prim2SF a) as [b|b| |b m e] eqn:E; try reflexivity.
  - rewrite SFcompare_refl by discriminate. reflexivity.
  - rewrite SFcompare_refl by discriminate. reflexivity.
Qed.

(* IEEE subtraction propagates NaN: the premise of C13_vdiff_null_operand at binary64 *)
Lemma f64_sub_nan (a b : float) : is_nan a = true \/ is_nan b = true -> is_nan (b - a)%float = true.
Proof.
  intros H. apply f64_is_nan_iff. rewrite FloatAxioms.sub_spec. unfold SF64sub, SFsub.
  destruct H as [H|H]; apply f64_is_nan_iff in H; rewrite H.
  - destruct (Prim2SF b); reflexivity.
  - reflexivity.
Qed.

(* |NaN| is NaN and |x| is not NaN otherwise: the premise of C13_vabs_preserves_nullness at binary64 *)
Lemma f64_abs_nan (a : float) : is_nan (abs a) = is_nan a.
Proof.
  destruct (is_nan a) eqn:E.
  - apply f64_is_nan_iff. rewrite FloatAxioms.abs_spec. apply f64_is_nan_iff in E. rewrite E. reflexivity.
  - destruct (is_nan (abs a)) eqn:E2; [|reflexivity].
    apply f64_is_nan_iff in E2. rewrite FloatAxioms.abs_spec in E2.
    destruct (Prim2SF a) eqn:Ea; try discriminate.
    assert (is_nan a = true) by (apply f64_is_nan_iff; exact Ea). congruence.
Qed.

Definition d_f64 : NullDict float float := dict_float is_nan nan.
Definition f64_fops : FOps float :=
  {| fnanv := nan; fisnan := is_nan; fis0 := fun a => (a =? 0)%float;
     fdiv := PrimFloat.div; fsub := PrimFloat.sub; fone := one |}.

Theorem clip_f64 (lower upper x : float) :
  (is_nan lower = false -> is_nan upper = false -> (upper <? lower)%float = false) ->
  let c := clip_elem d_f64 (fun v => v) PrimFloat.ltb lower upper in
  c (c x) = c x /\ is_nan (c x) = is_nan x /\
  (is_nan x = false ->
   (is_nan lower = false -> (c x <? lower)%float = false) /\
   (is_nan upper = false -> (upper <? c x)%float = false)).
Proof.
  intros Hle c. split; [|split].
  - apply (clip_elem_idempotent d_f64 (fun v => v) PrimFloat.ltb f64_ltb_irrefl lower upper x).
    intros Hl Hu. unfold leb_of. rewrite (Hle Hl Hu). reflexivity.
  - apply (clip_elem_nullness d_f64 (fun v => v) PrimFloat.ltb lower upper x).
  - intros Hx.
    destruct (clip_elem_contained d_f64 (fun v => v) PrimFloat.ltb f64_ltb_irrefl lower upper x) as [H1 H2].
    + intros Hl Hu. unfold leb_of. rewrite (Hle Hl Hu). reflexivity.
    + exact Hx.
    + unfold leb_of in H1, H2. split; intros Hb.
      * specialize (H1 Hb). fold c in H1. destruct (c x <? lower)%float; [discriminate|reflexivity].
      * specialize (H2 Hb). fold c in H2. destruct (upper <? c x)%float; [discriminate|reflexivity].
Qed.

(* the operation record above is the one Run/RunC13.v executes against the real code *)
From Tevec Require Run.RunC13.
Lemma f64_fops_is_run_ops : f64_fops = Tevec.Run.RunC13.f64ops.
Proof. reflexivity. Qed.
Lemma d_f64_is_run_dict : d_f64 = Tevec.Run.RunC13.dict Tevec.Run.RunC13.pF.
Proof. reflexivity. Qed.
