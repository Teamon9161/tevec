(* Proofs/Rank.v — vrank at XR: every valid element gets #{before} + (#{equal} + 1)/2 among the valid
   elements (/ valid count when pct), nulls get null, every output slot is written.            *)
From Coq Require Import Reals Lra Lia List Sorting Permutation ZArith Bool.
From Tevec Require Import Base.Prelude Base.Num Base.XR Spec.Stats Model.SortCmp Model.Rank Proofs.OrderXR Proofs.Audit12 Proofs.Quantile Proofs.Partition.
Import ListNotations.


Lemma uset_nth {X} i (v : X) out k :
  nth_error (uset i v out) k = if ((k =? i) && (i <? length out))%nat then Some (Some v) else nth_error out k.
Proof.
  revert out k. induction i as [|i IH]; intros [|y out] [|k]; try reflexivity.
  - cbn. rewrite andb_false_r. reflexivity.
  - exact (IH out k).
Qed.

Lemma uset_same {X} i (v : X) out : (i < length out)%nat -> nth_error (uset i v out) i = Some (Some v).
Proof. intros H. rewrite uset_nth, Nat.eqb_refl, (proj2 (Nat.ltb_lt _ _) H). reflexivity. Qed.
Lemma uset_other {X} i (v : X) out k : k <> i -> nth_error (uset i v out) k = nth_error out k.
Proof. intros H. rewrite uset_nth, (proj2 (Nat.eqb_neq _ _) H). reflexivity. Qed.

Lemma fold_uset_nth {X} (g : nat -> nat) (v : X) js out k :
  (forall j, In j js -> g j < length out)%nat ->
  nth_error (fold_left (fun o j => uset (g j) v o) js out) k
  = if existsb (fun j => k =? g j)%nat js then Some (Some v) else nth_error out k.
Proof.
  revert out. induction js as [|j js IH]; intros out Hr; [reflexivity|].
  cbn [fold_left existsb]. rewrite IH by (intros j' Hj'; rewrite Audit12.uset_length; apply Hr; right; exact Hj').
  rewrite uset_nth. replace (g j <? length out)%nat with true
    by (symmetry; apply Nat.ltb_lt; apply Hr; left; reflexivity).
  rewrite andb_true_r. destruct (k =? g j)%nat; cbn [orb]; [|reflexivity].
  destruct (existsb _ js); reflexivity.
Qed.

Lemma fold_uset_in {X} (g : nat -> nat) (v : X) js out j :
  (forall j, In j js -> g j < length out)%nat -> In j js ->
  nth_error (fold_left (fun o j => uset (g j) v o) js out) (g j) = Some (Some v).
Proof.
  intros Hr Hj. rewrite fold_uset_nth by exact Hr.
  replace (existsb _ js) with true; [reflexivity|].
  symmetry. apply existsb_exists. exists j. split; [exact Hj|apply Nat.eqb_refl].
Qed.

Lemma fold_uset_out {X} (g : nat -> nat) (v : X) js out k :
  (forall j, In j js -> k <> g j) ->
  nth_error (fold_left (fun o j => uset (g j) v o) js out) k = nth_error out k.
Proof.
  revert out. induction js as [|j js IH]; intros out Hk; [reflexivity|].
  cbn [fold_left]. rewrite IH by (intros j' Hj'; apply Hk; right; exact Hj').
  apply uset_other. apply Hk. left. reflexivity.
Qed.

(* sum of the ranks u+1 of the sorted positions a <= u < b *)
Definition sumr (a b : nat) : nat := fold_right Nat.add 0%nat (map S (seq a (b - a))).
Lemma sumr_nil a : sumr a a = 0%nat.
Proof. unfold sumr. rewrite Nat.sub_diag. reflexivity. Qed.
Lemma sumr_snoc a b : (a <= b)%nat -> sumr a (S b) = (sumr a b + S b)%nat.
Proof.
  intros H. unfold sumr. replace (S b - a)%nat with (S (b - a)) by lia.
  rewrite seq_S, map_app. cbn [map]. replace (a + (b - a))%nat with b by lia.
  generalize (map S (seq a (b - a))). intros l. induction l as [|x l IH]; cbn; [lia|]. rewrite IH. lia.
Qed.
Lemma sumr_closed a e : (2 * sumr a (a + e) = e * (2 * a + e + 1))%nat.
Proof.
  induction e as [|e IH]; [rewrite Nat.add_0_r, sumr_nil; lia|].
  replace (a + S e)%nat with (S (a + e)) by lia. rewrite sumr_snoc by lia. lia.
Qed.

Section RankLoop.
  Variables (pct : bool) (nn : nat) (xs : list XR) (p : list nat) (s : list R) (len : nat).
  Let n := length s.
  Let P (t : nat) : nat := nth t p 0%nat.
  Hypothesis Hplen : length p = len.
  Hypothesis Hpnd : NoDup p.
  Hypothesis Hpr : forall i, In i p -> (i < len)%nat.
  Hypothesis Hn : (1 <= n <= len)%nat.
  Hypothesis Hnone : forall t, (t < len)%nat -> get_is_none (DT := IsNoneXR) xs (P t) = (n <=? t)%nat.
  Hypothesis Heq : forall t, (S t < n)%nat ->
    get_eq (DX := IsNoneXXR) xs (P t) (P (S t)) = if Req_EM_T (nth t s 0%R) (nth (S t) s 0%R) then true else false.

  Lemma P_range t : (t < len)%nat -> (P t < len)%nat.
  Proof. intros Ht. apply Hpr. unfold P. apply nth_In. lia. Qed.
  Lemma P_inj t u : (t < len)%nat -> (u < len)%nat -> P t = P u -> t = u.
  Proof. intros Ht Hu E. apply (proj1 (NoDup_nth p 0%nat) Hpnd); [lia|lia|exact E]. Qed.

  Definition val (a b : nat) : XR := rk_avg (A := XR) pct nn (sumr a (S b)) (b - a + 1).
  Definition Written (t : nat) (out : list (option XR)) (v : XR) : Prop := nth_error out (P t) = Some (Some v).

  Definition is_run (a b : nat) : Prop :=
    (a <= b < n)%nat /\ (forall u, (a <= u <= b)%nat -> nth u s 0%R = nth a s 0%R) /\
    (a = 0%nat \/ nth (a - 1) s 0%R <> nth a s 0%R) /\ (S b = n \/ nth (S b) s 0%R <> nth b s 0%R).

  Definition Done (out : list (option XR)) (a : nat) : Prop :=
    forall t, (t < a)%nat -> exists a' b', is_run a' b' /\ (a' <= t <= b')%nat /\ Written t out (val a' b').

  Definition Final (out : list (option XR)) : Prop :=
    length out = len /\ Done out n /\ (forall t, (n <= t < len)%nat -> Written t out None).

  Definition Inv (i : nat) (st : rstate (A := XR)) : Prop :=
    (i < n)%nat /\ r_cur st = S i /\ (1 <= r_rep st <= S i)%nat /\
    (forall u, (S i - r_rep st <= u <= i)%nat -> nth u s 0%R = nth i s 0%R) /\
    (S i - r_rep st = 0%nat \/ nth (S i - r_rep st - 1) s 0%R <> nth (S i - r_rep st) s 0%R) /\
    r_sum st = sumr (S i - r_rep st) i /\ length (r_out st) = len /\ Done (r_out st) (S i - r_rep st).

  Lemma Done_mono out out' a :
    Done out a -> (forall t, (t < a)%nat -> nth_error out' (P t) = nth_error out (P t)) -> Done out' a.
  Proof.
    intros HD Hsame t Ht. destruct (HD t Ht) as (a' & b' & Hr & Hab & Hw).
    exists a', b'. split; [exact Hr|]. split; [exact Hab|]. unfold Written. rewrite Hsame by exact Ht. exact Hw.
  Qed.

  Lemma Done_extend out out' a i :
    Done out a -> is_run a i ->
    (forall t, (t < a)%nat -> nth_error out' (P t) = nth_error out (P t)) ->
    (forall t, (a <= t <= i)%nat -> Written t out' (val a i)) ->
    Done out' (S i).
  Proof.
    intros HD Hrun Hsame Hw t Ht. destruct (Nat.lt_ge_cases t a) as [Hta|Hta].
    - exact (Done_mono out out' a HD Hsame t Hta).
    - exists a, i. split; [exact Hrun|]. split; [lia|]. apply Hw. lia.
  Qed.

  Lemma write_run_in i rep (v : XR) out t :
    (i < len)%nat -> length out = len -> (S i - rep <= t <= i)%nat ->
    nth_error (write_run p i rep v out) (P t) = Some (Some v).
  Proof.
    intros Hi Hlen Ht. unfold write_run, P. replace t with (i - (i - t))%nat by lia.
    apply (fold_uset_in (fun j => nth (i - j) p 0%nat)); [|apply in_seq; lia].
    intros j Hj. apply in_seq in Hj. rewrite Hlen. apply (P_range (i - j)). lia.
  Qed.
  Lemma write_run_out i rep (v : XR) out t :
    (i < len)%nat -> (t < S i - rep)%nat ->
    nth_error (write_run p i rep v out) (P t) = nth_error out (P t).
  Proof.
    intros Hi Ht. apply fold_uset_out. intros j Hj E. apply in_seq in Hj. apply (P_inj t (i - j)) in E; lia.
  Qed.
  Lemma fold_seq_in a m (v : XR) out t :
    (a + m <= len)%nat -> length out = len -> (a <= t < a + m)%nat ->
    nth_error (fold_left (fun o i => uset (nth i p 0%nat) v o) (seq a m) out) (P t) = Some (Some v).
  Proof.
    intros Ham Hlen Ht. apply (fold_uset_in (fun j => nth j p 0%nat)); [|apply in_seq; lia].
    intros j Hj. apply in_seq in Hj. rewrite Hlen. apply (P_range j). lia.
  Qed.
  Lemma fold_seq_out a m (v : XR) out t :
    (a + m <= len)%nat -> (t < a)%nat ->
    nth_error (fold_left (fun o i => uset (nth i p 0%nat) v o) (seq a m) out) (P t) = nth_error out (P t).
  Proof.
    intros Ham Ht. apply fold_uset_out. intros j Hj E. apply in_seq in Hj. apply (P_inj t j) in E; lia.
  Qed.

  Lemma rk_one_val i : rk_one (A := XR) pct nn (S i) = val i i.
  Proof.
    unfold val, rk_one, rk_avg. rewrite sumr_snoc, sumr_nil by lia.
    replace (i - i + 1)%nat with 1%nat by lia. cbn [Nat.add Nat.mul]. rewrite Nat.add_0_r.
    destruct pct; [reflexivity|].
    rewrite !xofnat. cbn [INR]. rewrite xdiv_some by lra. f_equal. field.
  Qed.

  Lemma Inv_run i st :
    Inv i st -> (S i = n \/ nth (S i) s 0%R <> nth i s 0%R) -> is_run (S i - r_rep st) i.
  Proof.
    intros (Hi & _ & Hrep & Hall & Hleft & _) Hright. split; [lia|].
    split; [|split; [exact Hleft|exact Hright]].
    intros u Hu. rewrite Hall by lia. symmetry. apply Hall. lia.
  Qed.
  Lemma Inv_val i st :
    Inv i st -> rk_avg (A := XR) pct nn (r_sum st + r_cur st) (r_rep st) = val (S i - r_rep st) i.
  Proof.
    intros (Hi & Hcur & Hrep & _ & _ & Hsum & _). unfold val. rewrite sumr_snoc by lia.
    rewrite Hsum, Hcur. f_equal. lia.
  Qed.

  Lemma loop_correct m : forall i st,
    (i + m = len - 1)%nat -> Inv i st ->
    Final (rank_finish pct nn p len (rank_loop (DX := IsNoneXXR) pct nn xs p (seq i m) st)).
  Proof.
    induction m as [|m IH]; intros i st Him HI;
      pose proof (Inv_val i st HI) as Hval; pose proof (Inv_run i st HI) as Hrun;
      destruct HI as (Hi & Hcur & Hrep & Hall & Hleft & Hsum & Hlen & HD);
      remember (S i - r_rep st)%nat as a eqn:Ea.
    - (* the loop ran to the end without break: i = len - 1 = n - 1 *)
      cbn [seq rank_loop rank_finish]. rewrite Hval.
      replace (len - r_rep st)%nat with a by lia.
      split; [rewrite fold_uset_length; exact Hlen|]. split; [|intros t Ht; lia].
      replace n with (S i) by lia. apply (Done_extend (r_out st) _ a i HD); [apply Hrun; left; lia| |].
      + intros t Ht. apply fold_seq_out; lia.
      + intros t Ht. apply fold_seq_in; lia.
    - (* one iteration at i <= len - 2 *)
      cbn [seq rank_loop]. fold (P i). fold (P (S i)). rewrite Hnone by lia.
      destruct (n <=? S i)%nat eqn:En.
      + (* the next value is null: break, the nulls S i .. len - 1 are written by rank_finish *)
        apply Nat.leb_le in En. cbn [rank_finish r_out]. rewrite Hval.
        split; [rewrite fold_uset_length, write_run_length; exact Hlen|]. split.
        * replace n with (S i) by lia. apply (Done_extend (r_out st) _ a i HD); [apply Hrun; left; lia| |].
          -- intros t Ht. rewrite fold_seq_out by (rewrite ?write_run_length; lia).
             apply write_run_out; lia.
          -- intros t Ht. unfold Written. rewrite fold_seq_out by (rewrite ?write_run_length; lia).
             apply write_run_in; lia.
        * intros t Ht. apply fold_seq_in; rewrite ?write_run_length; lia.
      + apply Nat.leb_gt in En. rewrite Heq by lia.
        destruct (Req_EM_T (nth i s 0%R) (nth (S i) s 0%R)) as [Esame|Ediff].
        * (* the run continues *)
          apply IH; [lia|]. unfold Inv. cbn [r_rep r_cur r_sum r_out].
          replace (S (S i) - S (r_rep st))%nat with a by lia.
          split; [lia|]. split; [lia|]. split; [lia|]. split.
          { intros u Hu. destruct (Nat.eq_dec u (S i)) as [->|Hne]; [reflexivity|].
            rewrite <- Esame. apply Hall. lia. }
          split; [exact Hleft|]. split; [rewrite sumr_snoc by lia; lia|]. split; [exact Hlen|exact HD].
        * (* the run a..i ends, a new run opens at S i *)
          assert (Hrun' : is_run a i) by (apply Hrun; right; intros E; apply Ediff; symmetry; exact E).
          assert (Hnew : forall out, length out = len -> Done out (S i) ->
                    Inv (S i) {| r_rep := 1; r_cur := S (r_cur st); r_sum := 0; r_out := out |}).
          { intros out Hl HD'. unfold Inv. cbn [r_rep r_cur r_sum r_out].
            replace (S (S i) - 1)%nat with (S i) by lia.
            split; [lia|]. split; [lia|]. split; [lia|]. split.
            { intros u Hu. replace u with (S i) by lia. reflexivity. }
            split; [right; replace (S i - 1)%nat with i by lia; exact Ediff|].
            split; [rewrite sumr_nil; reflexivity|]. split; [exact Hl|exact HD']. }
          destruct (r_rep st =? 1)%nat eqn:Erep.
          -- (* it has one element, written through rk_one *)
             apply Nat.eqb_eq in Erep. assert (Ha : a = i) by lia. rewrite Ha in *.
             apply IH; [lia|]. rewrite Erep.
             replace (r_sum st) with 0%nat by (rewrite Hsum; symmetry; apply sumr_nil).
             apply Hnew; [rewrite Audit12.uset_length; exact Hlen|].
             apply (Done_extend (r_out st) _ i i HD Hrun').
             ++ intros t Ht. apply uset_other. intros E. apply P_inj in E; lia.
             ++ intros t Ht. replace t with i by lia. unfold Written. rewrite Hcur, rk_one_val.
                apply uset_same. rewrite Hlen. apply P_range. lia.
          -- (* it has several elements *)
             apply IH; [lia|]. rewrite Hval. apply Hnew; [rewrite write_run_length; exact Hlen|].
             apply (Done_extend (r_out st) _ a i HD Hrun').
             ++ intros t Ht. apply write_run_out; lia.
             ++ intros t Ht. apply write_run_in; lia.
  Qed.

  Lemma loop_from_start :
    (2 <= len)%nat ->
    Final (rank_finish pct nn p len
             (rank_loop (DX := IsNoneXXR) pct nn xs p (seq 0 (len - 1))
                        {| r_rep := 1; r_cur := 1; r_sum := 0; r_out := repeat None len |})).
  Proof.
    intros Hlen. apply loop_correct; [lia|].
    unfold Inv. cbn [r_rep r_cur r_sum r_out]. split; [lia|]. split; [reflexivity|]. split; [lia|].
    split; [intros u Hu; replace u with 0%nat by lia; reflexivity|].
    split; [left; reflexivity|]. split; [reflexivity|]. split; [apply repeat_length|].
    intros t Ht. lia.
  Qed.
End RankLoop.

Local Open Scope R_scope.

(* y comes strictly before x in the order: y < x ascending, y > x descending *)
Definition before_b (rev : bool) (x y : R) : bool :=
  if rev then (if Rlt_dec x y then true else false) else (if Rlt_dec y x then true else false).
Definition count_before (rev : bool) (x : R) (l : list R) : nat := length (filter (before_b rev x) l).

(* average rank: #{before} + (#{equal} + 1) / 2, as a fraction of the valid count when pct *)
Definition rank_spec (pct rev : bool) (l : list R) (x : R) : R :=
  let r := INR (count_before rev x l) + (INR (count_eq x l) + 1) / 2 in
  if pct then r / INR (length l) else r.

Lemma filter_length_perm {X} (f : X -> bool) l1 l2 :
  Permutation l1 l2 -> length (filter f l1) = length (filter f l2).
Proof.
  intros HP. induction HP as [|x l1 l2 HP IH|x y l|l1 l2 l3 H1 IH1 H2 IH2]; cbn.
  - reflexivity.
  - destruct (f x); cbn; rewrite IH; reflexivity.
  - destruct (f x), (f y); reflexivity.
  - rewrite IH1. exact IH2.
Qed.

Lemma count_interval {X} (f : X -> bool) (d : X) (l : list X) : forall a c,
  (a <= c <= length l)%nat ->
  (forall u, (u < a)%nat -> f (nth u l d) = false) ->
  (forall u, (a <= u < c)%nat -> f (nth u l d) = true) ->
  (forall u, (c <= u < length l)%nat -> f (nth u l d) = false) ->
  length (filter f l) = (c - a)%nat.
Proof.
  induction l as [|x l IH]; intros a c Hac Hlo Hin Hhi; [cbn in *; lia|].
  cbn [length] in Hac, Hhi. cbn [filter].
  destruct a as [|a], c as [|c]; try lia.
  - pose proof (Hhi 0%nat ltac:(lia)) as H0. cbn [nth] in H0. rewrite H0.
    apply (IH 0%nat 0%nat); [lia|intros u Hu; lia|intros u Hu; lia|].
    intros u Hu. exact (Hhi (S u) ltac:(lia)).
  - pose proof (Hin 0%nat ltac:(lia)) as H0. cbn [nth] in H0. rewrite H0. cbn [length].
    rewrite (IH 0%nat c); [lia|lia|intros u Hu; lia| |].
    + intros u Hu. exact (Hin (S u) ltac:(lia)).
    + intros u Hu. exact (Hhi (S u) ltac:(lia)).
  - pose proof (Hlo 0%nat ltac:(lia)) as H0. cbn [nth] in H0. rewrite H0.
    apply (IH a c); [lia| | |].
    + intros u Hu. exact (Hlo (S u) ltac:(lia)).
    + intros u Hu. exact (Hin (S u) ltac:(lia)).
    + intros u Hu. exact (Hhi (S u) ltac:(lia)).
Qed.

Lemma before_b_strict rev x y z :
  rle rev x y -> rle rev y z -> x <> y \/ y <> z ->
  before_b rev z x = true /\ before_b rev x z = false /\ x <> z.
Proof.
  unfold before_b, rle. intros H1 H2 Hne.
  destruct rev; destruct (Rlt_dec x z), (Rlt_dec z x); repeat split; try reflexivity; destruct Hne; lra.
Qed.

Lemma before_b_irrefl rev x : before_b rev x x = false.
Proof. unfold before_b. destruct rev; destruct (Rlt_dec x x); try reflexivity; lra. Qed.

Section Runs.
  Variables (rev : bool) (s : list R).
  Hypothesis Hs : Sorted (rle rev) s.

  Lemma run_counts a b :
    (a <= b < length s)%nat ->
    (forall u, (a <= u <= b)%nat -> nth u s 0 = nth a s 0) ->
    (a = 0%nat \/ nth (a - 1) s 0 <> nth a s 0) -> (S b = length s \/ nth (S b) s 0 <> nth b s 0) ->
    count_before rev (nth a s 0) s = a /\ count_eq (nth a s 0) s = (b - a + 1)%nat.
  Proof.
    intros Hab Hrun Hleft Hright. set (v := nth a s 0) in *.
    assert (Hlt : forall u, (u < a)%nat -> before_b rev v (nth u s 0) = true /\ nth u s 0 <> v).
    { intros u Hu. destruct Hleft as [->|Hne]; [lia|].
      destruct (before_b_strict rev (nth u s 0) (nth (a - 1) s 0) v) as (H & _ & H'); [| |right; exact Hne|split; assumption].
      - apply sorted_nth_mono; [exact Hs|lia].
      - apply sorted_nth_mono; [exact Hs|lia]. }
    assert (Hgt : forall u, (b < u < length s)%nat -> before_b rev v (nth u s 0) = false /\ nth u s 0 <> v).
    { intros u Hu. destruct Hright as [E|Hne]; [lia|]. rewrite (Hrun b ltac:(lia)) in Hne.
      destruct (before_b_strict rev v (nth (S b) s 0) (nth u s 0)) as (_ & H & H').
      - rewrite <- (Hrun b ltac:(lia)). apply sorted_nth_mono; [exact Hs|lia].
      - apply sorted_nth_mono; [exact Hs|lia].
      - left. intros E. apply Hne. symmetry. exact E.
      - split; [exact H|]. intros E. apply H'. symmetry. exact E. }
    split.
    - unfold count_before. rewrite (count_interval (before_b rev v) 0 s 0%nat a); [lia|lia|intros u Hu; lia| |].
      + intros u Hu. apply Hlt. lia.
      + intros u Hu. destruct (Nat.le_gt_cases u b) as [H|H].
        * rewrite Hrun by lia. apply before_b_irrefl.
        * apply Hgt. lia.
    - unfold count_eq. rewrite (count_interval (fun x => if Req_EM_T x v then true else false) 0 s a (S b)); [lia|lia| | |].
      + intros u Hu. destruct (Req_EM_T (nth u s 0) v) as [E|]; [|reflexivity]. destruct (proj2 (Hlt u Hu) E).
      + intros u Hu. rewrite Hrun by lia. destruct (Req_EM_T v v); [reflexivity|contradiction].
      + intros u Hu. destruct (Req_EM_T (nth u s 0) v) as [E|]; [|reflexivity]. destruct (proj2 (Hgt u ltac:(lia)) E).
  Qed.
End Runs.

Lemma val_closed pct nn a b :
  (a <= b)%nat -> (1 <= nn)%nat ->
  val pct nn a b
  = Some (let r := INR a + (INR (b - a + 1) + 1) / 2 in if pct then r / INR nn else r).
Proof.
  intros Hab Hnn. unfold val, rk_avg.
  set (e := (b - a + 1)%nat).
  assert (He : INR e <> 0) by (apply not_0_INR; unfold e; lia).
  assert (Hn' : INR nn <> 0) by (apply not_0_INR; lia).
  assert (Hsum : 2 * INR (sumr a (S b)) = INR e * (2 * INR a + INR e + 1)).
  { replace (S b) with (a + e)%nat by (unfold e; lia).
    pose proof (sumr_closed a e) as H. apply (f_equal INR) in H.
    rewrite !mult_INR, !plus_INR, mult_INR in H. cbn [INR] in H. lra. }
  destruct pct.
  - rewrite !xofnat, mult_INR, xdiv_some by (apply Rmult_integral_contrapositive; split; assumption).
    f_equal. cbn zeta. field_simplify_eq; [|split; assumption]. lra.
  - rewrite !xofnat, xdiv_some by exact He. f_equal. cbn zeta. field_simplify_eq; [|assumption]. lra.
Qed.

Lemma valid_nil_all_none (xs : list XR) i : valid xs = [] -> nth i xs None = None.
Proof.
  revert i. induction xs as [|[x|] xs IH]; intros i Hv; [destruct i; reflexivity|discriminate|].
  destruct i; [reflexivity|]. cbn [nth]. apply IH. exact Hv.
Qed.

Lemma canon_nth (s : list R) z t :
  nth t (map Some s ++ repeat None z) None = if (t <? length s)%nat then Some (nth t s 0) else None.
Proof.
  destruct (t <? length s)%nat eqn:E.
  - apply Nat.ltb_lt in E. rewrite app_nth1 by (rewrite map_length; exact E).
    rewrite (nth_indep _ None (Some 0)) by (rewrite map_length; exact E). apply map_nth.
  - apply Nat.ltb_ge in E. rewrite app_nth2 by (rewrite map_length; exact E).
    rewrite map_length. destruct (Nat.lt_ge_cases (t - length s) z) as [H|H].
    + apply nth_repeat.
    + apply nth_overflow. rewrite repeat_length. exact H.
Qed.

Definition rank_expected (pct rev : bool) (xs : list XR) (i : nat) : XR :=
  match nth i xs None with Some x => Some (rank_spec pct rev (valid xs) x) | None => None end.

Lemma vrank_spec (pct rev : bool) (xs : list XR) :
  length (vrank (DX := IsNoneXXR) pct rev xs) = length xs /\
  forall i, (i < length xs)%nat ->
    nth_error (vrank (DX := IsNoneXXR) pct rev xs) i = Some (Some (rank_expected pct rev xs i)).
Proof.
  destruct (sorted_exists rev (valid xs)) as (s & Hs & HP).
  assert (Hnv : count_valid (DT := IsNoneXR) xs = length s).
  { rewrite count_valid_nv. unfold nv. symmetry. apply Permutation_length. exact HP. }
  unfold vrank.
  destruct (length xs) as [|[|len2]] eqn:Hlen.
  - cbn [Nat.eqb]. split; [reflexivity|]. intros i Hi. lia.
  - cbn [Nat.eqb]. split; [reflexivity|]. intros i Hi. assert (i = 0%nat) by lia. subst i.
    destruct xs as [|x0 [|? ?]]; try discriminate. unfold rank_expected, get_is_none. cbn [nth_error nth].
    destruct x0 as [x|]; [|reflexivity].
    change (is_none (IsNone := IsNoneXR) (Some x)) with false. cbn iota. do 2 f_equal.
    change (@none XR NumXR) with (Some 1). f_equal.
    unfold rank_spec, count_before, count_eq. cbn [valid flat_map app filter length].
    rewrite before_b_irrefl. destruct (Req_EM_T x x); [|contradiction]. cbn [length INR]. destruct pct; lra.
  - cbn [Nat.eqb]. set (len := S (S len2)) in *.
    set (cmpi := cmp_idx (cmp_dir (DT := IsNoneXR) rev) xs).
    set (p := isort cmpi (seq 0 len)).
    destruct (argsort_facts (cmp_dir (DT := IsNoneXR) rev) xs) as (Hpp & Hpnd & Hplen & Hpr).
    rewrite Hlen in Hpp, Hpnd, Hplen, Hpr. fold cmpi p in Hpp, Hpnd, Hplen, Hpr.
    assert (Hpv : map (xval xs) p = map Some s ++ repeat None (nnull xs)).
    { unfold p, cmpi. rewrite <- Hlen. rewrite argsort_values. apply isort_canon; assumption. }
    assert (Hvs : forall t, (t < len)%nat ->
              nth_error xs (nth t p 0%nat) = Some (if (t <? length s)%nat then Some (nth t s 0) else None)).
    { intros t Ht. assert (Hr : (nth t p 0%nat < length xs)%nat) by (rewrite Hlen; apply Hpr; apply nth_In; lia).
      rewrite (nth_error_nth' xs None Hr). f_equal. fold (xval xs (nth t p 0%nat)).
      rewrite <- canon_nth with (z := nnull xs). rewrite <- Hpv.
      rewrite (nth_indep _ None (xval xs 0%nat)) by (rewrite map_length; lia). symmetry. apply map_nth. }
    assert (Hsl : (length s <= len)%nat).
    { rewrite <- Hnv, count_valid_nv, <- Hlen. apply nv_le_length. }
    assert (Hnone : forall t, (t < len)%nat ->
              get_is_none (DT := IsNoneXR) xs (nth t p 0%nat) = (length s <=? t)%nat).
    { intros t Ht. unfold get_is_none. rewrite Hvs by exact Ht.
      rewrite Nat.leb_antisym. destruct (t <? length s)%nat; reflexivity. }
    rewrite Hnone by (unfold len; lia).
    destruct (length s <=? 0)%nat eqn:E0.
    + (* no valid element *)
      apply Nat.leb_le in E0. assert (Hs0 : s = []) by (destruct s; [reflexivity|cbn in E0; lia]).
      subst s. apply Permutation_nil in HP.
      split; [apply repeat_length|]. intros i Hi.
      rewrite nth_error_repeat. replace (i <? len)%nat with true by (symmetry; apply Nat.ltb_lt; exact Hi).
      unfold rank_expected. rewrite valid_nil_all_none by exact HP. reflexivity.
    + apply Nat.leb_gt in E0.
      destruct (loop_from_start pct (count_valid (DT := IsNoneXR) xs) xs p s len Hplen Hpnd Hpr)
        as (HFlen & HFdone & HFnull); [lia|exact Hnone| |unfold len; lia|].
      { intros t Ht. unfold get_eq. rewrite !Hvs by lia.
        replace (t <? length s)%nat with true by (symmetry; apply Nat.ltb_lt; lia).
        replace (S t <? length s)%nat with true by (symmetry; apply Nat.ltb_lt; lia).
        reflexivity. }
      split; [exact HFlen|]. intros i Hi.
      assert (Hin : In i p) by (apply (Permutation_in _ (Permutation_sym Hpp)); apply in_seq; lia).
      destruct (In_nth p i 0%nat Hin) as (t & Ht & Et). rewrite Hplen in Ht.
      pose proof (Hvs t Ht) as Hx. rewrite Et in Hx.
      unfold rank_expected. rewrite (nth_error_nth xs i None Hx).
      destruct (t <? length s)%nat eqn:Etn.
      * apply Nat.ltb_lt in Etn.
        destruct (HFdone t Etn) as (a' & b' & Hrun & Hab & Hw).
        unfold Written in Hw. rewrite Et in Hw. rewrite Hw. do 2 f_equal.
        destruct Hrun as (Hr1 & Hr2 & Hr3 & Hr4).
        rewrite val_closed by lia.
        destruct (run_counts rev s Hs a' b' Hr1 Hr2 Hr3 Hr4) as [Hcb Hce].
        rewrite <- (Hr2 t Hab) in Hcb, Hce.
        f_equal. unfold rank_spec, count_before, count_eq.
        rewrite <- (filter_length_perm _ _ _ HP), <- (filter_length_perm _ _ _ HP).
        fold (count_before rev (nth t s 0) s). fold (count_eq (nth t s 0) s).
        rewrite Hcb, Hce, Hnv, (Permutation_length HP). reflexivity.
      * apply Nat.ltb_ge in Etn. specialize (HFnull t ltac:(lia)).
        unfold Written in HFnull. rewrite Et in HFnull. exact HFnull.
Qed.
