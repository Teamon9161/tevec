(* Proofs/Fdiff2.v — the null-aware fractional difference ts_vfdiff at XR and the coefficient table
   fdiff_coef.

   What ts_vfdiff computes (tevec/src/rolling.rs:94-133), faithfully:
     * the window is max(0,i-w+1)..=i; n = number of its non-null elements;
     * mask: the output is null iff n < min(min_periods.unwrap_or(w/2), w);
     * otherwise the nulls are COMPACTED OUT of the window and the coefficient table of length n is
       laid over the survivors: the k-th most recent VALID element gets (-1)^k C(d,k), whatever its
       distance in time from the current position.  So a null shifts the weights of every older
       element, and the output is NOT null when the current element is null (as long as enough
       valid elements remain): it is the fractional difference of the compacted window.          *)
From Coq Require Import Reals Lra Lia List.
From Tevec Require Import Base.Prelude Base.Num Base.XR Spec.Stats Model.Driver Proofs.Driver
     Model.Features Model.Fdiff Proofs.Outcome Proofs.Features Proofs.Fdiff.
Import ListNotations.
Local Open Scope R_scope.

(* ====================================================================== *)
(* 1. the fractional difference of a window, positional and recursive forms *)

Lemma fdiffR_nil d : fdiffR d [] = 0.
Proof. reflexivity. Qed.

(* an older element in front: it sits `length l` steps behind the most recent one *)
Lemma fdiffR_cons d x l : fdiffR d (x :: l) = x * fdiff_weight d (length l) + fdiffR d l.
Proof.
  unfold fdiffR. cbn [length]. rewrite rev_seq_S. cbn [combine map sumR fold_right fst snd].
  reflexivity.
Qed.

Lemma sumR_map_ext {X} (f g : X -> R) l :
  (forall x, In x l -> f x = g x) -> sumR (map f l) = sumR (map g l).
Proof. intros H. f_equal. apply map_ext_in. exact H. Qed.

(* positional form: weight k on the element k steps before the end of the window *)
Lemma fdiffR_nth d l :
  fdiffR d l
  = sumR (map (fun k => fdiff_weight d k * nth (length l - 1 - k) l 0) (seq 0 (length l))).
Proof.
  induction l as [|x l IH]; [reflexivity|].
  rewrite fdiffR_cons, IH. cbn [length]. rewrite seq_S, map_app, sumR_app. cbn [plus map].
  replace (S (length l) - 1 - length l)%nat with 0%nat by lia. cbn [nth sumR fold_right].
  rewrite (sumR_map_ext
             (fun k => fdiff_weight d k * nth (S (length l) - 1 - k) (x :: l) 0)
             (fun k => fdiff_weight d k * nth (length l - 1 - k) l 0)).
  - ring.
  - intros k Hk. apply in_seq in Hk.
    replace (S (length l) - 1 - k)%nat with (S (length l - 1 - k)) by lia. reflexivity.
Qed.

(* ====================================================================== *)
(* 2. ts_vfdiff *)

Lemma not_none_xr (o : XR) :
  @not_none XR XR IsNoneXR o = match o with Some _ => true | None => false end.
Proof. destruct o; reflexivity. Qed.

Lemma filter_valid (l : list XR) : filter (@not_none XR XR IsNoneXR) l = map Some (valid l).
Proof.
  unfold valid. induction l as [|[r|] l IH]; cbn [filter flat_map app map]; rewrite ?not_none_xr.
  - reflexivity.
  - f_equal. exact IH.
  - exact IH.
Qed.

Lemma valid_map_some (l : list R) : valid (map Some l) = l.
Proof. unfold valid. induction l as [|r l IH]; cbn [map flat_map app]; [reflexivity|]. f_equal. exact IH. Qed.

Lemma all_valid (l : list XR) : length (valid l) = length l -> l = map Some (valid l).
Proof.
  induction l as [|[r|] l IH]; intros H.
  - reflexivity.
  - unfold valid in *. cbn [flat_map app length map] in *. f_equal. apply IH. lia.
  - exfalso. pose proof (valid_length_le l) as Hle. unfold valid in *.
    cbn [flat_map app length] in H. lia.
Qed.

Lemma vdot_some (g : nat -> R) (l : list R) : forall (ks : list nat) (a : R),
  fold_left (fun acc (vc : XR * XR) =>
               if @not_none XR XR IsNoneXR (fst vc)
               then nadd acc (nmul (@unwrap XR XR IsNoneXR (fst vc)) (snd vc)) else acc)
            (combine (map Some l) (map (fun v => Some (g v)) ks)) (Some a)
  = Some (a + sumR (map (fun p => fst p * g (snd p)) (combine l ks))).
Proof.
  induction l as [|x l IH]; intros ks a; [cbn; f_equal; ring|].
  destruct ks as [|k ks]; [cbn; f_equal; ring|].
  cbn [map combine fold_left fst snd]. rewrite not_none_xr.
  cbn [unwrap IsNoneXR IsNone_float]. rewrite xmul_some, xadd_some, IH.
  cbn [sumR fold_right map fst snd]. f_equal.
  fold (sumR (map (fun p : R * nat => fst p * g (snd p)) (combine l ks))). ring.
Qed.

Lemma vdot_spec d (l : list R) :
  vdot (DT := IsNoneXR) (map Some l) (fdiff_coef (Some d) (length l)) = Some (fdiffR d l).
Proof.
  unfold vdot. rewrite fdiff_coef_spec. change nzero with (Some 0).
  rewrite (vdot_some (fdiff_weight d) l (rev (seq 0 (length l))) 0). unfold fdiffR. f_equal. ring.
Qed.

(* the callback on one window: mask on the number of valid elements, value = fractional
   difference of the COMPACTED window *)
Lemma ts_vfdiff_cb_spec d w mp (W : list XR) :
  (length W <= w)%nat -> (mp <= w)%nat ->
  snd (ts_vfdiff_cb (DT := IsNoneXR) (Some d) w mp tt W)
  = if (mp <=? length (valid W))%nat then Some (fdiffR d (valid W)) else None.
Proof.
  intros HW Hmp. unfold ts_vfdiff_cb. cbn [snd]. rewrite filter_valid, map_length.
  pose proof (valid_length_le W) as Hle.
  destruct (length (valid W) =? w)%nat eqn:E.
  - apply Nat.eqb_eq in E.
    replace (mp <=? length (valid W))%nat with true by (symmetry; apply Nat.leb_le; lia).
    rewrite (all_valid W) at 1 by lia. rewrite <- E. apply vdot_spec.
  - destruct (mp <=? length (valid W))%nat; [|reflexivity]. apply vdot_spec.
Qed.

(* what ts_vfdiff returns at a position, as a function of the valid elements V of the window there *)
Definition vfdiff_out (d : R) (mp : nat) (V : list R) : XR :=
  if (mp <=? length V)%nat then Some (fdiffR d V) else None.

Theorem ts_vfdiff_run body d (w : nat) (mp : option nat) (xs : list XR) :
  (1 <= w)%nat ->
  ts_vfdiff (DT := IsNoneXR) body (Some d) w mp xs
  = Done (map (fun i => vfdiff_out d (mp_eff mp w 0) (valid (win w i xs))) (seq 0 (length xs))).
Proof.
  intros Hw. unfold ts_vfdiff. cbv zeta. rewrite rolling_custom_stateless by exact Hw. f_equal.
  apply map_ext. intros i. apply ts_vfdiff_cb_spec; [apply win_length_le, Hw|apply mp_eff_le_window, Nat.le_0_l].
Qed.

Theorem ts_vfdiff_spec body d (w : nat) (mp : option nat) (xs : list XR) :
  (1 <= w)%nat ->
  exists out, ts_vfdiff (DT := IsNoneXR) body (Some d) w mp xs = Done out /\
    length out = length xs /\
    forall i, (i < length xs)%nat ->
      nth_error out i =
      Some (let V := valid (win w i xs) in
            if (mp_eff mp w 0 <=? length V)%nat then Some (fdiffR d V) else None).
Proof. intros Hw. apply done_map_iff, ts_vfdiff_run, Hw. Qed.

(* ====================================================================== *)
(* 3. the coefficient table *)

(* for every carrier (also binary64): no arithmetic involved *)
Lemma coef_go_length {A} `{Num A} (d s : A) vs : length (coef_go d s vs) = length vs.
Proof. revert s; induction vs as [|v r IH]; intros s; cbn [coef_go length]; [reflexivity|]. f_equal. apply IH. Qed.

(* the generalised binomial coefficient is the product prod_{j<k} (d-j)/(j+1) ... *)
Definition prodR (l : list R) : R := fold_right Rmult 1 l.

Lemma binomR_from_prod d j k :
  binomR_from d j k = prodR (map (fun i => (d - INR i) / INR (S i)) (seq j k)).
Proof.
  revert j; induction k as [|k IH]; intros j; [reflexivity|].
  cbn [binomR_from seq map prodR fold_right]. rewrite IH. reflexivity.
Qed.

(* ... with the usual recurrence C(d,k+1) = C(d,k) (d-k)/(k+1) *)
Lemma binomR_from_S d j k :
  binomR_from d j (S k) = binomR_from d j k * ((d - INR (j + k)) / INR (S (j + k))).
Proof.
  revert j; induction k as [|k IH]; intros j.
  - cbn [binomR_from]. rewrite Nat.add_0_r. ring.
  - change (binomR_from d j (S (S k)))
      with ((d - INR j) / INR (S j) * binomR_from d (S j) (S k)).
    rewrite IH. cbn [binomR_from]. replace (S j + k)%nat with (j + S k)%nat by lia. ring.
Qed.

Lemma binomR_0 d : binomR d 0 = 1.
Proof. reflexivity. Qed.

Lemma binomR_S d k : binomR d (S k) = binomR d k * ((d - INR k) / INR (S k)).
Proof. unfold binomR. rewrite binomR_from_S. reflexivity. Qed.

Lemma binomR_1 d : binomR d 1 = d.
Proof. rewrite binomR_S, binomR_0. cbn [INR]. field. Qed.

(* integer order: the coefficients beyond d vanish, and up to d they are the binomial numbers *)
Lemma binomR_nat_vanish n k : (n < k)%nat -> binomR (INR n) k = 0.
Proof.
  induction k as [|k IH]; intros Hk; [lia|]. rewrite binomR_S.
  destruct (Nat.eq_dec k n) as [->|Hne].
  - unfold Rdiv. rewrite Rminus_diag_eq by reflexivity. ring.
  - rewrite IH by lia. ring.
Qed.

Lemma binomR_nat_C n k : (k <= n)%nat -> binomR (INR n) k = C n k.
Proof.
  induction k as [|k IH]; intros Hk.
  - rewrite binomR_0. unfold C. rewrite Nat.sub_0_r. cbn [fact INR].
    pose proof (INR_fact_neq_0 n). field. assumption.
  - rewrite binomR_S, IH by lia. unfold C.
    replace (n - k)%nat with (S (n - S k)) by lia.
    rewrite !fact_simpl, !mult_INR.
    pose proof (INR_fact_neq_0 k). pose proof (INR_fact_neq_0 (n - S k)).
    assert (INR (S k) <> 0) by (apply not_0_INR; lia).
    assert (INR (S (n - S k)) <> 0) by (apply not_0_INR; lia).
    replace (INR n - INR k) with (INR (S (n - S k)))
      by (rewrite <- minus_INR by lia; f_equal; lia).
    field. repeat split; assumption.
Qed.

Lemma fdiff_weight_0 d : fdiff_weight d 0 = 1.
Proof. unfold fdiff_weight. rewrite binomR_0. cbn [pow]. ring. Qed.

Lemma fdiff_weight_1 d : fdiff_weight d 1 = - d.
Proof. unfold fdiff_weight. rewrite binomR_1. cbn [pow]. ring. Qed.

Lemma fdiff_weight_nat_vanish n k : (n < k)%nat -> fdiff_weight (INR n) k = 0.
Proof. intros H. unfold fdiff_weight. rewrite binomR_nat_vanish by exact H. ring. Qed.

(* position of coefficient k in the table: counted from the END (most recent element) *)
Lemma nth_error_rev_seq w k : (k < w)%nat -> nth_error (rev (seq 0 w)) (w - 1 - k) = Some k.
Proof.
  induction w as [|w IH]; intros Hk; [lia|]. rewrite rev_seq_S.
  destruct (Nat.eq_dec k w) as [->|Hne].
  - replace (S w - 1 - w)%nat with 0%nat by lia. reflexivity.
  - replace (S w - 1 - k)%nat with (S (w - 1 - k)) by lia. cbn [nth_error]. apply IH. lia.
Qed.

Theorem fdiff_coef_nth d w k :
  (k < w)%nat ->
  nth_error (fdiff_coef (Some d) w) (w - 1 - k) = Some (Some ((-1) ^ k * binomR d k)).
Proof.
  intros Hk. rewrite fdiff_coef_spec, nth_error_map, nth_error_rev_seq by exact Hk.
  cbn [option_map]. unfold fdiff_weight. do 2 f_equal. ring.
Qed.

Lemma map_const_in {X Y} (f : X -> Y) c l : (forall x, In x l -> f x = c) -> map f l = repeat c (length l).
Proof.
  induction l as [|a l IH]; intros H; [reflexivity|]. cbn [map length repeat].
  rewrite (H a (or_introl eq_refl)). f_equal. apply IH. intros x Hx. apply H. right. exact Hx.
Qed.

Lemma sumR_zero {X} (f : X -> R) l : (forall x, In x l -> f x = 0) -> sumR (map f l) = 0.
Proof.
  induction l as [|a l IH]; intros H; [reflexivity|]. cbn [map sumR fold_right].
  fold (sumR (map f l)). rewrite (H a (or_introl eq_refl)), IH; [ring|].
  intros x Hx. apply H. right. exact Hx.
Qed.

(* the order-1 "fractional" difference of a window is the first difference of its last two elements
   (and the element itself on a one-element warm-up window) *)
Lemma fdiffR_d1 (l : list R) :
  fdiffR 1 l = match length l with
               | O => 0
               | S O => nth 0 l 0
               | S (S m) => nth (S m) l 0 - nth m l 0
               end.
Proof.
  rewrite fdiffR_nth. destruct (length l) as [|[|m]] eqn:E; [reflexivity| |].
  - cbn [seq map sumR fold_right]. rewrite fdiff_weight_0. cbn [Nat.sub]. ring.
  - replace (S (S m)) with (2 + m)%nat by lia. rewrite seq_app, map_app, sumR_app.
    cbn [plus seq map sumR fold_right]. rewrite fdiff_weight_0, fdiff_weight_1.
    rewrite sumR_zero.
    + replace (S (S m) - 1 - 0)%nat with (S m) by lia.
      replace (S (S m) - 1 - 1)%nat with m by lia. ring.
    + intros k Hk. apply in_seq in Hk. change 1 with (INR 1) at 1.
      rewrite fdiff_weight_nat_vanish by lia. ring.
Qed.

(* ====================================================================== *)
(* 4. textbook forms in the coordinates of the series *)

(* sum_{k < min(i+1,w)} (-1)^k C(d,k) x_{i-k} *)
Lemma fdiffR_win d w i (rs : list R) :
  (1 <= w)%nat -> (i < length rs)%nat ->
  fdiffR d (win w i rs)
  = sumR (map (fun k => fdiff_weight d k * nth (i - k) rs 0) (seq 0 (Nat.min (S i) w))).
Proof.
  intros Hw Hi. rewrite fdiffR_nth, win_length_min by assumption.
  apply sumR_map_ext. intros k Hk. apply in_seq in Hk. f_equal.
  rewrite nth_win by (unfold wstart; lia). f_equal. unfold wstart. lia.
Qed.

(* integer order n: the (window-truncated) n-th finite difference, with the binomial numbers *)
Theorem fdiffR_nat n (l : list R) :
  fdiffR (INR n) l
  = sumR (map (fun k => (-1) ^ k * C n k * nth (length l - 1 - k) l 0)
              (seq 0 (Nat.min (S n) (length l)))).
Proof.
  rewrite fdiffR_nth. set (m := Nat.min (S n) (length l)).
  assert (Hs : seq 0 (length l) = seq 0 m ++ seq (0 + m) (length l - m)).
  { rewrite <- seq_app. f_equal. lia. }
  rewrite Hs, map_app, sumR_app, (sumR_zero _ (seq (0 + m) _)).
  - rewrite Rplus_0_r. apply sumR_map_ext. intros k Hk. apply in_seq in Hk.
    unfold fdiff_weight. rewrite binomR_nat_C by lia. ring.
  - intros k Hk. apply in_seq in Hk. rewrite fdiff_weight_nat_vanish by lia. ring.
Qed.

Lemma nth_length_last (l : list R) x : nth (length l) (x :: l) 0 = last (x :: l) 0.
Proof.
  revert x; induction l as [|y l IH]; intros x; [reflexivity|].
  change (nth (length (y :: l)) (x :: y :: l) 0) with (nth (length l) (y :: l) 0).
  rewrite IH. reflexivity.
Qed.

Lemma fdiffR_two d a b : fdiffR d [a; b] = b - d * a.
Proof.
  rewrite fdiffR_cons, fdiffR_cons, fdiffR_nil. cbn [length].
  rewrite fdiff_weight_0, fdiff_weight_1. ring.
Qed.

(* positional alternative (NOT what the code does): weight k on the element k steps back in
   time, nulls contributing nothing *)
Definition fdiff_positional (d : R) (W : list XR) : R :=
  sumR (map (fun k => fdiff_weight d k *
                      match nth (length W - 1 - k) W None with Some x => x | None => 0 end)
            (seq 0 (length W))).

(* ====================================================================== *)
(* 5. the weights as usually defined in the fractional-differencing literature:
      w_0 = 1, w_{k+1} = - w_k (d - k)/(k + 1); for 0 < d < 1 every weight but the first is
      negative                                                     *)
Lemma fdiff_weight_S d k :
  fdiff_weight d (S k) = - fdiff_weight d k * ((d - INR k) / INR (S k)).
Proof. unfold fdiff_weight. rewrite binomR_S. cbn [pow]. ring. Qed.

Lemma fdiff_weight_negative d k :
  0 < d < 1 -> (1 <= k)%nat -> fdiff_weight d k < 0.
Proof.
  intros Hd Hk. induction k as [|k IH]; [lia|].
  destruct k as [|k].
  - rewrite fdiff_weight_1. lra.
  - rewrite fdiff_weight_S. specialize (IH ltac:(lia)).
    assert (Hk1 : 1 <= INR (S k)) by (apply (le_INR 1); lia).
    assert (Hpos : 0 < INR (S (S k))) by (apply lt_0_INR; lia).
    assert (Hq : (d - INR (S k)) / INR (S (S k)) < 0).
    { assert (Hinv : 0 < / INR (S (S k))) by (apply Rinv_0_lt_compat; exact Hpos).
      unfold Rdiv. set (iv := / INR (S (S k))) in *. clearbody iv. nra. }
    set (q := (d - INR (S k)) / INR (S (S k))) in *. set (v := fdiff_weight d (S k)) in *.
    clearbody q v. nra.
Qed.
