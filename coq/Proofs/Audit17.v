(* Proofs/Audit17.v — the operators of Model/Time.v in closed form, for every operand (notes/C17.md, "Audit matrix"):
     DateTime +- TimeDelta: one closed form (order of the checks, which panic), sign-uniform in the months; a month-free
       shift is x + floor(ns / unit) for EVERY d, which makes known-finding class 1 an arithmetic fact;
     DateTime - DateTime;  TimeDelta + - * neg: the rejected inputs exactly (which check fails first);
     Time: constructors, as_cr defined exactly where, +- total;
     month-free duration_trunc: rejected inputs exactly, the value otherwise.
   The laws of C17 (Props/C17.v) are derived from these.  Axiom-free (Z, lia). *)
From Coq Require Import ZArith List Bool Lia.
From Tevec Require Import Base.Prelude Model.Time Proofs.Time.
Local Open Scope Z_scope.

(* the common shape of DateTime + d and DateTime - d on non-NaT operands: months k (signed), then ns n *)
Definition dt_shift_spec (u : tunit) (x k n : Z) : res Z :=
  match as_cr u x with
  | None => Panic UnwrapNone                                   (* as_cr().unwrap(): outside chrono's range *)
  | Some c =>
    match (if k =? 0 then Some c else cr_add_months c k) with
    | None => Panic OtherPanic                                 (* `DateTime + Months` out of range *)
    | Some c1 =>
      match cr_add_ns c1 n with
      | None => Panic Overflow                                 (* `DateTime + TimeDelta` overflowed *)
      | Some r => from_cr u r
      end
    end
  end.

Lemma cr_sub_months_opp c k : cr_sub_months c (- k) = cr_add_months c k.
Proof. unfold cr_sub_months. rewrite Z.opp_involutive. reflexivity. Qed.

Theorem dt_add_closed_form u x d :
  dt_add u x d = if is_nat x || td_is_nat d then Ok NaT else dt_shift_spec u x (td_months d) (td_ns d).
Proof.
  unfold dt_add, dt_shift_spec. destruct (is_nat x); [reflexivity|]. destruct (td_is_nat d); [reflexivity|].
  cbn [negb andb orb]. destruct (as_cr u x) as [c|]; [|reflexivity]. cbn [unwrap bind].
  destruct (td_months d =? 0) eqn:E0; cbn [negb].
  - cbn [bind]. destruct (cr_add_ns c (td_ns d)); reflexivity.
  - apply Z.eqb_neq in E0. destruct (0 <? td_months d) eqn:Ep.
    + destruct (cr_add_months c (td_months d)); cbn [expect_other bind]; [|reflexivity].
      destruct (cr_add_ns _ _); reflexivity.
    + rewrite cr_sub_months_opp. destruct (cr_add_months c (td_months d)); cbn [expect_other bind]; [|reflexivity].
      destruct (cr_add_ns _ _); reflexivity.
Qed.

Theorem dt_sub_closed_form u x d :
  dt_sub u x d = if is_nat x || td_is_nat d then Ok NaT else dt_shift_spec u x (- td_months d) (- td_ns d).
Proof.
  unfold dt_sub, dt_shift_spec. destruct (is_nat x); [reflexivity|]. destruct (td_is_nat d); [reflexivity|].
  cbn [negb andb orb]. destruct (as_cr u x) as [c|]; [|reflexivity]. cbn [unwrap bind].
  replace (- td_months d =? 0) with (td_months d =? 0) by lia.
  (* both arms of the sign test are cr_add_months c (- months) *)
  destruct (td_months d =? 0); cbn [negb]; [|destruct (0 <? td_months d); unfold cr_sub_months];
    cbn [bind]; try (destruct (cr_add_months c (- td_months d)); cbn [expect_other bind]; [|reflexivity]);
    destruct (cr_add_ns _ _); reflexivity.
Qed.

Lemma dt_add_shift u x d :
  x <> NaT -> td_is_nat d = false -> dt_add u x d = dt_shift_spec u x (td_months d) (td_ns d).
Proof. intros Hx Hd. apply is_nat_false in Hx. rewrite dt_add_closed_form, Hx, Hd. reflexivity. Qed.
Lemma dt_sub_shift u x d :
  x <> NaT -> td_is_nat d = false -> dt_sub u x d = dt_shift_spec u x (- td_months d) (- td_ns d).
Proof. intros Hx Hd. apply is_nat_false in Hx. rewrite dt_sub_closed_form, Hx, Hd. reflexivity. Qed.

Lemma dt_add_monthfree u x d : x <> NaT -> td_months d = 0 -> dt_add u x d = dt_shift_spec u x 0 (td_ns d).
Proof. intros Hx Hm. rewrite dt_add_shift, Hm by auto using td_months0_not_nat. reflexivity. Qed.
Lemma dt_sub_monthfree u x d : x <> NaT -> td_months d = 0 -> dt_sub u x d = dt_shift_spec u x 0 (- td_ns d).
Proof. intros Hx Hm. rewrite dt_sub_shift, Hm by auto using td_months0_not_nat. reflexivity. Qed.

(* a month-free shift never raises the month panic; it panics with "overflowed" exactly when the shifted instant leaves
   chrono's date range *)
Lemma dt_shift_monthfree u x n :
  dt_shift_spec u x 0 n =
    match as_cr u x with
    | None => Panic UnwrapNone
    | Some _ => if date_in_range ((instant_ns u x + n) / 1000000000 / SECS_PER_DAY)
                then from_cr u (cr_of_total_ns (instant_ns u x + n)) else Panic Overflow
    end.
Proof.
  unfold dt_shift_spec. destruct (as_cr u x) as [c|] eqn:Ec; [|reflexivity].
  destruct (as_cr_total _ _ _ Ec) as [-> _]. cbn [Z.eqb]. rewrite cr_add_ns_total.
  destruct (date_in_range _); reflexivity.
Qed.

(* its value, for EVERY n (whole number of units or not): x + floor(n / unit).  Both steps of a round trip floor
   toward the past; this is all there is to known-finding class 1 *)
Lemma dt_shift_monthfree_value u x n y :
  dt_shift_spec u x 0 n = Ok y -> y <> NaT ->
  y = x + n / unit_ns u /\ date_in_range ((instant_ns u x + n) / 1000000000 / SECS_PER_DAY) = true.
Proof.
  rewrite dt_shift_monthfree. destruct (as_cr u x); [|discriminate]. destruct (date_in_range _); [|discriminate].
  intros H Hy. apply from_cr_of_total_val in H; [|exact Hy]. split; [|reflexivity].
  pose proof (unit_ns_pos u). unfold instant_ns in H. rewrite Z.add_comm, Z.div_add in H by lia. lia.
Qed.

(* the shift by the distance to a representable date-time z arrives at z *)
Lemma dt_shift_to u x z c c' :
  as_cr u x = Some c -> in_i64 z = true -> as_cr u z = Some c' ->
  dt_shift_spec u x 0 (instant_ns u z - instant_ns u x) = Ok z.
Proof.
  intros Hc Hz Hc'. rewrite dt_shift_monthfree, Hc.
  replace (instant_ns u x + (instant_ns u z - instant_ns u x)) with (instant_ns u z) by lia.
  unfold instant_ns. rewrite (as_cr_range _ _ _ Hz Hc'). apply from_cr_instant. exact Hz.
Qed.

(* a shift by a whole number of units is undone by the opposite shift *)
Lemma dt_shift_back u x n y :
  in_i64 x = true -> n mod unit_ns u = 0 -> dt_shift_spec u x 0 n = Ok y -> y <> NaT ->
  dt_shift_spec u y 0 (- n) = Ok x.
Proof.
  intros Hx Hn H Hy. destruct (dt_shift_monthfree_value _ _ _ _ H Hy) as [Ey Hr].
  pose proof (unit_ns_pos u) as HU. apply Z.div_exact in Hn; [|lia].
  assert (E : instant_ns u y = instant_ns u x + n) by (unfold instant_ns; lia).
  unfold dt_shift_spec in H. destruct (as_cr u x) as [c|] eqn:Ec; [|discriminate].
  replace (- n) with (instant_ns u x - instant_ns u y) by lia.
  eapply (dt_shift_to u y x); [|exact Hx|exact Ec].
  apply as_cr_of_total; [exact Hy|]. fold (instant_ns u y). rewrite E. exact Hr.
Qed.

Theorem dt_add_monthfree_value u x d y :
  x <> NaT -> td_months d = 0 -> dt_add u x d = Ok y -> y <> NaT -> y = x + td_ns d / unit_ns u.
Proof. intros Hx Hm. rewrite dt_add_monthfree by assumption. intros H Hy. apply (dt_shift_monthfree_value _ _ _ _ H Hy). Qed.
Theorem dt_sub_monthfree_value u x d y :
  x <> NaT -> td_months d = 0 -> dt_sub u x d = Ok y -> y <> NaT -> y = x + (- td_ns d) / unit_ns u.
Proof. intros Hx Hm. rewrite dt_sub_monthfree by assumption. intros H Hy. apply (dt_shift_monthfree_value _ _ _ _ H Hy). Qed.

(* floor(n / U) + floor(-n / U) is 0 when U | n and -1 otherwise *)
Lemma floor_neg_sum n U : 0 < U -> n / U + (- n) / U = if n mod U =? 0 then 0 else -1.
Proof.
  intros HU. destruct (n mod U =? 0) eqn:E.
  - apply Z.eqb_eq in E. rewrite (Z.div_opp_l_z n U) by lia. lia.
  - apply Z.eqb_neq in E. rewrite (Z.div_opp_l_nz n U) by lia. lia.
Qed.

(* the class in arithmetic: whatever the two steps return, the round trip is x + (0 or -1), in both orders *)
Theorem round_trip_value u x d y z :
  x <> NaT -> td_months d = 0 -> dt_add u x d = Ok y -> y <> NaT -> dt_sub u y d = Ok z -> z <> NaT ->
  z = x + (if kf_subunit u d then -1 else 0).
Proof.
  intros Hx Hm Ha Hy Hs Hz.
  pose proof (dt_add_monthfree_value u x d y Hx Hm Ha Hy) as Ey.
  pose proof (dt_sub_monthfree_value u y d z Hy Hm Hs Hz) as Ez.
  pose proof (floor_neg_sum (td_ns d) (unit_ns u) (unit_ns_pos u)) as HF.
  unfold kf_subunit. destruct (td_ns d mod unit_ns u =? 0); cbn [negb]; lia.
Qed.
Lemma round_trip_value_mirror u x d y z :
  x <> NaT -> td_months d = 0 -> dt_sub u x d = Ok y -> y <> NaT -> dt_add u y d = Ok z -> z <> NaT ->
  z = x + (if kf_subunit u d then -1 else 0).
Proof.
  intros Hx Hm Hs Hy Ha Hz.
  pose proof (dt_sub_monthfree_value u x d y Hx Hm Hs Hy) as Ey.
  pose proof (dt_add_monthfree_value u y d z Hy Hm Ha Hz) as Ez.
  pose proof (floor_neg_sum (td_ns d) (unit_ns u) (unit_ns_pos u)) as HF.
  unfold kf_subunit. destruct (td_ns d mod unit_ns u =? 0); cbn [negb]; lia.
Qed.

(* DateTime - DateTime on every pair of operands: NaT either side, else the two `unwrap`s, else the exact distance *)
Theorem dt_diff_closed_form u a b :
  dt_diff u a b =
    if is_nat a || is_nat b then Ok td_nat
    else match as_cr u a, as_cr u b with
         | Some _, Some _ => Ok (mktd 0 (instant_ns u a - instant_ns u b))
         | _, _ => Panic UnwrapNone
         end.
Proof.
  unfold dt_diff. destruct (is_nat a); [reflexivity|]. destruct (is_nat b); [reflexivity|]. cbn [negb andb orb].
  destruct (as_cr u a) as [ca|] eqn:Ea; [|reflexivity]. destruct (as_cr u b) as [cb|] eqn:Eb; [|reflexivity].
  cbn [unwrap bind]. destruct (as_cr_total _ _ _ Ea) as [-> _]. destruct (as_cr_total _ _ _ Eb) as [-> _].
  rewrite !cr_total_of_total. reflexivity.
Qed.

Lemma dt_diff_ok_inv u a b d :
  a <> NaT -> b <> NaT -> dt_diff u a b = Ok d ->
  (exists ca cb, as_cr u a = Some ca /\ as_cr u b = Some cb) /\ d = mktd 0 (instant_ns u a - instant_ns u b).
Proof.
  intros Ha Hb. rewrite dt_diff_closed_form. apply is_nat_false in Ha. apply is_nat_false in Hb. rewrite Ha, Hb.
  cbn [orb]. destruct (as_cr u a) as [ca|]; [|discriminate]. destruct (as_cr u b) as [cb|]; [|discriminate].
  intros [= <-]. split; [exists ca, cb; auto|reflexivity].
Qed.
Lemma dt_diff_ok_intro u a b ca cb :
  as_cr u a = Some ca -> as_cr u b = Some cb -> dt_diff u a b = Ok (mktd 0 (instant_ns u a - instant_ns u b)).
Proof.
  intros Ea Eb. rewrite dt_diff_closed_form.
  destruct (as_cr_total _ _ _ Ea) as [_ Ha]. destruct (as_cr_total _ _ _ Eb) as [_ Hb].
  apply is_nat_false in Ha. apply is_nat_false in Hb. rewrite Ha, Hb, Ea, Eb. reflexivity.
Qed.

(* TimeDelta + TimeDelta, - and * i32 on every pair of non-NaT operands: the value, or WHICH check fails first
   (the month arithmetic is evaluated before the Duration arithmetic: struct field order) *)
Theorem td_add_total a b :
  td_is_nat a = false -> td_is_nat b = false ->
  td_add a b =
    if negb (in_i32 (td_months a + td_months b)) then Panic Overflow
    else if negb (dur_in_range (td_ns a + td_ns b)) then Panic Overflow
    else Ok (mktd (td_months a + td_months b) (td_ns a + td_ns b)).
Proof.
  intros Ha Hb. unfold td_add, chk32, dur_chk. rewrite Ha, Hb. cbn [negb andb].
  destruct (in_i32 _); cbn [negb bind]; [|reflexivity]. destruct (dur_in_range _); reflexivity.
Qed.
Theorem td_sub_total a b :
  td_is_nat a = false -> td_is_nat b = false ->
  td_sub a b =
    if negb (in_i32 (td_months a - td_months b)) then Panic Underflow
    else if negb (dur_in_range (td_ns a - td_ns b)) then Panic Overflow
    else Ok (mktd (td_months a - td_months b) (td_ns a - td_ns b)).
Proof.
  intros Ha Hb. unfold td_sub, chk32s, dur_chk. rewrite Ha, Hb. cbn [negb andb].
  destruct (in_i32 _); cbn [negb bind]; [|reflexivity]. destruct (dur_in_range _); reflexivity.
Qed.
Theorem td_mul_total a k :
  td_is_nat a = false ->
  td_mul a k =
    if negb (in_i32 (td_months a * k)) then Panic Overflow
    else if (td_ns a * k / 1000000000 <=? i64_min) || (i64_max <=? td_ns a * k / 1000000000) then Panic Overflow
    else Ok (mktd (td_months a * k) (td_ns a * k)).
Proof.
  intros Ha. unfold td_mul, chk32, dur_mul. rewrite Ha. cbn [negb].
  destruct (in_i32 _); cbn [negb bind]; [|reflexivity]. destruct (_ || _); reflexivity.
Qed.
(* NaT operands: the result is NaT without any arithmetic being evaluated (no panic whatever the other operand) *)
Theorem td_ops_nat_total a b k :
  td_is_nat a = true \/ td_is_nat b = true ->
  td_add a b = Ok td_nat /\ td_sub a b = Ok td_nat /\ (td_is_nat a = true -> td_mul a k = Ok td_nat).
Proof.
  intros H. unfold td_add, td_sub, td_mul.
  destruct H as [H|H]; rewrite H; cbn [negb andb]; rewrite ?andb_false_r; repeat split; try reflexivity.
  intros ->. reflexivity.
Qed.
(* negation never panics; the value on every operand *)
Theorem td_neg_total d :
  td_neg d = if td_is_nat d then d else mktd (- td_months d) (- td_ns d).
Proof. unfold td_neg. destruct (td_is_nat d); reflexivity. Qed.

Lemma td_neg_not_nat d : td_is_nat d = false -> td_neg d = mktd (- td_months d) (- td_ns d).
Proof. intros H. rewrite td_neg_total, H. reflexivity. Qed.
Lemma td_neg_valid a : td_valid a -> td_valid (td_neg a).
Proof.
  intros Hv. rewrite (td_neg_not_nat _ (td_valid_not_nat _ Hv)).
  unfold td_valid, i32_min, i32_max in *. cbn [td_months td_ns]. lia.
Qed.

(* the two directions of td_add_total / td_mul_total in the form the laws use them *)
Lemma td_add_inv a b r :
  td_is_nat a = false -> td_is_nat b = false -> td_add a b = Ok r ->
  r = mktd (td_months a + td_months b) (td_ns a + td_ns b)
  /\ in_i32 (td_months a + td_months b) = true /\ dur_in_range (td_ns a + td_ns b) = true.
Proof.
  intros Ha Hb. rewrite td_add_total by assumption.
  destruct (in_i32 _); [|discriminate]. destruct (dur_in_range _); [|discriminate]. intros [= <-]. auto.
Qed.
Lemma td_add_intro a b :
  td_is_nat a = false -> td_is_nat b = false ->
  in_i32 (td_months a + td_months b) = true -> dur_in_range (td_ns a + td_ns b) = true ->
  td_add a b = Ok (mktd (td_months a + td_months b) (td_ns a + td_ns b)).
Proof. intros Ha Hb Hm Hn. rewrite td_add_total, Hm, Hn by assumption. reflexivity. Qed.
Lemma td_mul_inv_full a k r :
  td_is_nat a = false -> td_mul a k = Ok r ->
  r = mktd (td_months a * k) (td_ns a * k) /\ in_i32 (td_months a * k) = true
  /\ i64_min < td_ns a * k / 1000000000 < i64_max.
Proof.
  intros Ha. rewrite td_mul_total by assumption. destruct (in_i32 _); [|discriminate].
  destruct (_ || _) eqn:E; [discriminate|]. intros [= <-]. repeat split; lia.
Qed.
Lemma td_mul_intro a k :
  td_is_nat a = false -> in_i32 (td_months a * k) = true ->
  i64_min < td_ns a * k / 1000000000 < i64_max ->
  td_mul a k = Ok (mktd (td_months a * k) (td_ns a * k)).
Proof.
  intros Ha Hm Hn. rewrite td_mul_total, Hm by assumption. cbn [negb].
  replace (_ || _) with false by lia. reflexivity.
Qed.

(* Time constructors on EVERY i64 argument: the debug-build overflow checks fail in source order *)
Theorem time_from_hms_total h m s :
  time_from_hms h m s =
    if in_i64 (h * 3600) && in_i64 (m * 60) && in_i64 (h * 3600 + m * 60) && in_i64 (h * 3600 + m * 60 + s)
       && in_i64 ((h * 3600 + m * 60 + s) * 1000000000)
    then Ok ((h * 3600 + m * 60 + s) * 1000000000) else Panic Overflow.
Proof.
  unfold time_from_hms, chk64, SECS_PER_HOUR, SECS_PER_MINUTE, NANOS_PER_SEC.
  destruct (in_i64 (h * 3600)); cbn [bind andb]; [|reflexivity].
  destruct (in_i64 (m * 60)); cbn [bind andb]; [|reflexivity].
  destruct (in_i64 (h * 3600 + m * 60)); cbn [bind andb]; [|reflexivity].
  destruct (in_i64 (h * 3600 + m * 60 + s)); cbn [bind andb]; [|reflexivity].
  destruct (in_i64 _); reflexivity.
Qed.

(* Time::as_cr is defined EXACTLY on: a non-negative value, or a negative whole number of seconds, whose whole
   seconds wrapped to u32 (`as u32`) fall below 86400.  (So every time of day; not NaT; no value in -(2^32-86400) s .. 0;
   but e.g. Time(2^32 s) reads as midnight.) *)
Theorem time_as_cr_some_iff t :
  in_i64 t = true ->
  (time_as_cr t <> None
   <-> (0 <= t \/ Z.rem t 1000000000 = 0) /\ wrap_u32 (Z.quot t 1000000000) < 86400).
Proof.
  intros H64. apply in_i64_iff in H64. unfold i64_min, i64_max in H64.
  unfold time_as_cr, NANOS_PER_SEC, naive_time_opt.
  set (q := Z.quot t 1000000000). set (r := Z.rem t 1000000000).
  pose proof (Z.quot_rem' t 1000000000) as E. fold q r in E.
  assert (HW : 0 <= wrap_u32 q < 4294967296) by (unfold wrap_u32; apply Z.mod_pos_bound; lia).
  destruct (Z_le_gt_dec 0 t) as [Hp|Hn].
  - pose proof (Z.rem_bound_pos t 1000000000 Hp ltac:(lia)) as B. fold r in B.
    assert (Wr : wrap_u32 r = r) by (unfold wrap_u32; apply Z.mod_small; lia). rewrite Wr.
    replace (2000000000 <=? r) with false by lia. replace (1000000000 <=? r) with false by lia.
    cbn [andb]. rewrite !orb_false_r. destruct (Z.leb_spec 86400 (wrap_u32 q)).
    + split; [intros C; contradiction C; reflexivity|lia].
    + split; [intros _; split; [left; exact Hp|assumption]|discriminate].
  - pose proof (Z.rem_bound_pos_neg t 1000000000 ltac:(lia) ltac:(lia)) as B. fold r in B.
    destruct (Z.eq_dec r 0) as [R0|R0].
    + rewrite R0. change (wrap_u32 0) with 0. cbn [Z.leb Z.compare andb]. rewrite !orb_false_r.
      destruct (Z.leb_spec 86400 (wrap_u32 q)).
      * split; [intros C; contradiction C; reflexivity|lia].
      * split; [intros _; split; [right; reflexivity|assumption]|discriminate].
    + assert (Wr : wrap_u32 r = r + 4294967296) by (unfold wrap_u32; symmetry; apply (Z.mod_unique _ _ (-1)); lia).
      rewrite Wr. replace (2000000000 <=? r + 4294967296) with true by lia. rewrite orb_true_r. cbn [orb].
      split; [intros C; contradiction C; reflexivity|lia].
Qed.

(* Time + d and Time - d on EVERY pair of operands, checks in source order: NaT either side -> NaT; months -> panic;
   a fixed part beyond i64 nanoseconds -> NaT (silently); i64 overflow -> debug panic; else the exact sum *)
Theorem time_add_total t d :
  time_add t d =
    if is_nat t || td_is_nat d then Ok NaT
    else if negb (td_months d =? 0) then Panic OtherPanic
    else if negb (in_i64 (td_ns d)) then Ok NaT
    else if in_i64 (t + td_ns d) then Ok (t + td_ns d) else Panic Overflow.
Proof.
  unfold time_add, num_ns, chk64. destruct (is_nat t); [reflexivity|]. destruct (td_is_nat d); [reflexivity|].
  cbn [negb andb orb]. destruct (td_months d =? 0); cbn [negb]; [|reflexivity].
  destruct (in_i64 (td_ns d)); reflexivity.
Qed.
Theorem time_sub_total t d :
  time_sub t d =
    if is_nat t || td_is_nat d then Ok NaT
    else if negb (td_months d =? 0) then Panic OtherPanic
    else if negb (in_i64 (td_ns d)) then Ok NaT
    else if in_i64 (t - td_ns d) then Ok (t - td_ns d) else Panic Underflow.
Proof.
  unfold time_sub, num_ns, chk64s. destruct (is_nat t); [reflexivity|]. destruct (td_is_nat d); [reflexivity|].
  cbn [negb andb orb]. destruct (td_months d =? 0); cbn [negb]; [|reflexivity].
  destruct (in_i64 (td_ns d)); reflexivity.
Qed.

(* on a non-NaT time and a month-free duration whose fixed part is an i64: the checked sum / difference *)
Lemma time_add_monthfree t d :
  t <> NaT -> td_months d = 0 -> in_i64 (td_ns d) = true -> time_add t d = chk64 (t + td_ns d).
Proof.
  intros Ht Hm Hd. apply is_nat_false in Ht. rewrite time_add_total, Ht, (td_months0_not_nat _ Hm), Hm, Hd. reflexivity.
Qed.
Lemma time_sub_monthfree t d :
  t <> NaT -> td_months d = 0 -> in_i64 (td_ns d) = true -> time_sub t d = chk64s (t - td_ns d).
Proof.
  intros Ht Hm Hd. apply is_nat_false in Ht. rewrite time_sub_total, Ht, (td_months0_not_nat _ Hm), Hm, Hd. reflexivity.
Qed.

(* chrono's duration_trunc on a total that is an i64, by a span that is a positive i64: the Euclidean floor; the
   intermediate checked_add cannot leave chrono's range (the result lies within one span below the stamp) *)
Lemma cr_duration_trunc_total T n :
  0 < n -> in_i64 n = true -> in_i64 T = true ->
  cr_duration_trunc (cr_of_total_ns T) n = Ok (cr_of_total_ns (n * (T / n))).
Proof.
  intros Hn Hn64 HT. unfold cr_duration_trunc, num_ns. rewrite cr_total_of_total, Hn64, HT.
  replace (n <=? 0) with false by lia.
  pose proof (trunc_floor T n Hn) as HF. cbv zeta in HF.
  pose proof (Z.mul_div_le T n Hn). pose proof (Z.mul_succ_div_gt T n Hn).
  apply in_i64_iff in HT, Hn64. unfold i64_min, i64_max in *.
  assert (HR : date_in_range (n * (T / n) / 1000000000 / SECS_PER_DAY) = true) by (apply ns_in_range; lia).
  revert HF. destruct (Z.rem T n =? 0); [intros <-; reflexivity|].
  destruct (0 <? Z.rem T n); intros HF; rewrite cr_add_ns_total.
  - replace (T + - Z.rem T n) with (n * (T / n)) by lia. rewrite HR. reflexivity.
  - replace (T + - (n - Z.abs (Z.rem T n))) with (n * (T / n)) by lia. rewrite HR. reflexivity.
Qed.

Lemma dt_trunc_monthfree_unfold u x d c :
  x <> NaT -> td_months d = 0 -> as_cr u x = Some c ->
  dt_trunc u x d = do r <- cr_duration_trunc (cr_of_total_ns (instant_ns u x)) (td_ns d); from_cr u r.
Proof.
  intros Hx Hm Ec. unfold dt_trunc. rewrite (proj2 (is_nat_false x) Hx), Hm, Ec.
  destruct (as_cr_total _ _ _ Ec) as [-> _]. reflexivity.
Qed.

(* month-free: the rejected input exactly — a duration <= 0 or beyond i64 nanoseconds, or an instant outside the i64
   nanosecond window (coarse units only): chrono's RoundingError, `expect("Rounding Error")` *)
Theorem dt_trunc_monthfree_rejects u x d c :
  x <> NaT -> td_months d = 0 -> as_cr u x = Some c ->
  td_ns d <= 0 \/ in_i64 (td_ns d) = false \/ in_i64 (instant_ns u x) = false ->
  dt_trunc u x d = Panic OtherPanic.
Proof.
  intros Hx Hm Ec H. rewrite (dt_trunc_monthfree_unfold _ _ _ _ Hx Hm Ec).
  unfold cr_duration_trunc, num_ns. rewrite cr_total_of_total.
  destruct (in_i64 (td_ns d)) eqn:I; [|reflexivity].
  destruct (Z.leb_spec (td_ns d) 0); [reflexivity|].
  destruct H as [H|[H|H]]; [lia|discriminate|]. rewrite H. reflexivity.
Qed.
(* ... and on every other input it returns, with the value in closed form *)
Theorem dt_trunc_monthfree_total u x d c :
  x <> NaT -> td_months d = 0 -> as_cr u x = Some c ->
  0 < td_ns d -> in_i64 (td_ns d) = true -> in_i64 (instant_ns u x) = true ->
  dt_trunc u x d = from_cr u (cr_of_total_ns (td_ns d * (instant_ns u x / td_ns d))).
Proof.
  intros Hx Hm Ec Hd Hd64 HT. rewrite (dt_trunc_monthfree_unfold _ _ _ _ Hx Hm Ec).
  rewrite cr_duration_trunc_total by assumption. reflexivity.
Qed.

(* hence the value whenever it returns one *)
Lemma dt_trunc_monthfree u x d y :
  x <> NaT -> td_months d = 0 -> 0 < td_ns d -> dt_trunc u x d = Ok y -> y <> NaT ->
  y = (td_ns d * (instant_ns u x / td_ns d)) / unit_ns u.
Proof.
  intros Hx Hm Hd H Hy. destruct (as_cr u x) as [c|] eqn:Ec.
  - destruct (in_i64 (td_ns d)) eqn:I1; [destruct (in_i64 (instant_ns u x)) eqn:I2|].
    + rewrite (dt_trunc_monthfree_total u x d c) in H by assumption. apply from_cr_of_total_val in H; assumption.
    + rewrite (dt_trunc_monthfree_rejects u x d c) in H by auto. discriminate.
    + rewrite (dt_trunc_monthfree_rejects u x d c) in H by auto. discriminate.
  - unfold dt_trunc in H. rewrite (proj2 (is_nat_false x) Hx), Ec in H. discriminate.
Qed.

(* when d is a whole number of units: the greatest multiple of d not after x, as instants *)
Lemma dt_trunc_monthfree_multiple u x d y :
  x <> NaT -> td_months d = 0 -> 0 < td_ns d -> td_ns d mod unit_ns u = 0 -> dt_trunc u x d = Ok y ->
  y <> NaT ->
  instant_ns u y = td_ns d * (instant_ns u x / td_ns d)
  /\ instant_ns u y <= instant_ns u x < instant_ns u y + td_ns d.
Proof.
  intros Hx Hm Hd Hk H Hyn. apply dt_trunc_monthfree in H; try assumption.
  pose proof (unit_ns_pos u) as HU.
  set (n := td_ns d) in *. set (T := instant_ns u x) in *.
  (* unit_ns u | n | n * (T / n) *)
  assert (E : instant_ns u y = n * (T / n)).
  { unfold instant_ns at 1. subst y. rewrite Z.mul_comm. symmetry. apply Z.div_exact; [lia|].
    apply Z.div_exact in Hk; [|lia]. rewrite Hk, <- Z.mul_assoc, Z.mul_comm. apply Z.mod_mul. lia. }
  split; [exact E|]. rewrite E.
  pose proof (Z.mul_div_le T n Hd). pose proof (Z.mul_succ_div_gt T n Hd). lia.
Qed.
