(* Proofs/TimeCal2.v — C17, the order-theoretic half of the calendar and of duration_trunc:
     * days_of_civil is strictly monotone for the lexicographic order on valid dates (hence an order
       isomorphism between valid dates and day numbers);
     * the month-truncated instant (m | 12) is midnight on the first of x's year-aligned period of m months, inside
       the bounds of x's month, and is <= x  (the rest of the order statements of C17 follow in Props/C17.v).
   Axiom-free. *)
From Coq Require Import ZArith List Bool Lia ZifyBool.
From Tevec Require Import Base.Prelude Spec.Calendar Model.Time Proofs.Time Proofs.Calendar Proofs.TimeCal.
Local Open Scope Z_scope.

Local Ltac zdm := Z.div_mod_to_equations; lia.

(* first day of the month with index t = 12 * year + (month - 1) *)
Definition month_start (t : Z) : Z := days_of_civil (t / 12, t mod 12 + 1, 1).

(* Hinnant counts years from 1 March, so that the leap day comes last: the day number of a date is the days before
   1 March of its March-based year (365 a year and the leap days), plus the days from 1 March to the first of its
   month, plus the day *)
Definition march_year (y m : Z) : Z := if m <=? 2 then y - 1 else y.
Definition march_days (y : Z) : Z := 365 * y + y / 4 - y / 100 + y / 400.
Definition march_offset (m : Z) : Z := (153 * (if 2 <? m then m - 3 else m + 9) + 2) / 5.

Lemma days_of_civil_split y m d :
  days_of_civil (y, m, d) = march_days (march_year y m) + march_offset m + d - 1 - 719468.
Proof.
  unfold days_of_civil, doe_of_parts, march_days, march_offset. cbv zeta. fold (march_year y m).
  set (Y := march_year y m). set (era := Y / 400). set (yoe := Y - era * 400).
  (* Y = yoe + era * 400 splits the leap counts of Y into those of the era and of the year of era *)
  replace (Y / 4) with (yoe / 4 + era * 100) by (rewrite <- Z.div_add by lia; f_equal; lia).
  replace (Y / 100) with (yoe / 100 + era * 4) by (rewrite <- Z.div_add by lia; f_equal; lia).
  lia.
Qed.

Lemma days_of_civil_day y m d : days_of_civil (y, m, d) = days_of_civil (y, m, 1) + (d - 1).
Proof. rewrite !days_of_civil_split. lia. Qed.

#[local] Opaque days_of_civil civil_of_days.

(* every month but February is followed by a month of the same March-based year, whose offset is larger by the
   month's length: eleven closed facts *)
Lemma march_succ y m :
  1 <= m <= 12 -> m <> 2 ->
  march_year (if m =? 12 then y + 1 else y) (if m =? 12 then 1 else m + 1) = march_year y m
  /\ march_offset (if m =? 12 then 1 else m + 1) = march_offset m + days_in_month y m.
Proof.
  intros Hm H2.
  assert (Hc : m = 1 \/ m = 3 \/ m = 4 \/ m = 5 \/ m = 6 \/ m = 7 \/ m = 8 \/ m = 9 \/ m = 10 \/ m = 11 \/ m = 12)
    by lia.
  destruct Hc as [->|[->|[->|[->|[->|[->|[->|[->|[->|[->| ->]]]]]]]]]]; split; try reflexivity.
  exact (Z.add_simpl_r y 1).
Qed.

(* February closes the March-based year: 337 days lie between 1 March and 1 February *)
Lemma march_days_succ y : march_days y = march_days (y - 1) + 337 + days_in_month y 2.
Proof.
  change (days_in_month y 2) with (if is_leap y then 29 else 28). unfold march_days.
  destruct (is_leap y) eqn:E; unfold is_leap in E; zdm.
Qed.

(* the day number of the first of the next month = this month's + its length *)
Lemma month_start_step_ym y m :
  1 <= m <= 12 ->
  days_of_civil (if m =? 12 then y + 1 else y, if m =? 12 then 1 else m + 1, 1)
  = days_of_civil (y, m, 1) + days_in_month y m.
Proof.
  intros Hm. rewrite !days_of_civil_split. destruct (Z.eq_dec m 2) as [->|H2].
  - change (march_days y + 0 + 1 - 1 - 719468 = march_days (y - 1) + 337 + 1 - 1 - 719468 + days_in_month y 2).
    rewrite (march_days_succ y). lia.
  - destruct (march_succ y m Hm H2) as [-> ->]. lia.
Qed.

Lemma month_start_succ t :
  month_start (t + 1) = month_start t + days_in_month (t / 12) (t mod 12 + 1).
Proof.
  unfold month_start.
  pose proof (Z.mod_pos_bound t 12 ltac:(lia)) as Hr.
  rewrite <- (month_start_step_ym (t / 12) (t mod 12 + 1)) by lia.
  destruct (Z.eqb_spec (t mod 12 + 1) 12) as [E|E].
  - replace ((t + 1) / 12) with (t / 12 + 1) by zdm.
    replace ((t + 1) mod 12 + 1) with 1 by zdm. reflexivity.
  - replace ((t + 1) / 12) with (t / 12) by zdm.
    replace ((t + 1) mod 12 + 1) with (t mod 12 + 1 + 1) by zdm. reflexivity.
Qed.

Lemma month_start_add t n : 0 <= n -> month_start t + 28 * n <= month_start (t + n).
Proof.
  intros Hn. pattern n. apply natlike_ind; [| |exact Hn].
  - rewrite (Z.add_0_r t). lia.
  - intros k Hk IH. replace (t + Z.succ k) with (t + k + 1) by lia. rewrite month_start_succ.
    pose proof (dim_bounds ((t + k) / 12) ((t + k) mod 12 + 1)). lia.
Qed.

Lemma month_start_mono_le a b : a <= b -> month_start a <= month_start b.
Proof.
  intros H. pose proof (month_start_add a (b - a) ltac:(lia)) as H1. rewrite Zplus_minus in H1. lia.
Qed.

Lemma month_start_reflect a b : month_start a < month_start b -> a < b.
Proof.
  intros H. destruct (Z_lt_le_dec a b) as [Hlt|Hge]; [exact Hlt|].
  pose proof (month_start_mono_le b a Hge). lia.
Qed.

Lemma month_start_of_ym y m : 1 <= m <= 12 -> month_start (y * 12 + (m - 1)) = days_of_civil (y, m, 1).
Proof.
  intros Hm. unfold month_start. destruct (month_index_split y (m - 1)) as [-> ->]; [lia|].
  rewrite Z.sub_add. reflexivity.
Qed.

(* the day number of a valid date lies inside its month *)
Lemma days_of_civil_in_month y m d :
  valid_civil (y, m, d) ->
  month_start (y * 12 + (m - 1)) <= days_of_civil (y, m, d) < month_start (y * 12 + (m - 1) + 1).
Proof.
  intros Hv. apply valid_civil_iff in Hv. destruct Hv as [Hm Hd].
  rewrite month_start_succ, (month_start_of_ym y m Hm), (days_of_civil_day y m d).
  destruct (month_index_split y (m - 1)) as [-> ->]; [lia|]. rewrite Z.sub_add. lia.
Qed.

Definition civil_lt (a b : civil) : Prop :=
  let '(y1, m1, d1) := a in let '(y2, m2, d2) := b in
  y1 < y2 \/ (y1 = y2 /\ (m1 < m2 \/ (m1 = m2 /\ d1 < d2))).

Theorem days_of_civil_mono a b :
  valid_civil a -> valid_civil b -> civil_lt a b -> days_of_civil a < days_of_civil b.
Proof.
  destruct a as [[y1 m1] d1], b as [[y2 m2] d2]. intros Ha Hb Hlt. unfold civil_lt in Hlt.
  pose proof (days_of_civil_in_month _ _ _ Ha) as Ia. pose proof (days_of_civil_in_month _ _ _ Hb) as Ib.
  apply valid_civil_iff in Ha, Hb. destruct Ha as [Hm1 Hd1], Hb as [Hm2 Hd2].
  destruct (Z.eq_dec (y1 * 12 + (m1 - 1)) (y2 * 12 + (m2 - 1))) as [E|E].
  - assert (y1 = y2 /\ m1 = m2) as [-> ->] by lia.
    rewrite (days_of_civil_day y2 m2 d1), (days_of_civil_day y2 m2 d2). lia.
  - assert (Ht : y1 * 12 + (m1 - 1) + 1 <= y2 * 12 + (m2 - 1)) by lia.
    pose proof (month_start_mono_le _ _ Ht). lia.
Qed.

(* ... and it reflects the order (the lexicographic order is total on triples) *)
Theorem days_of_civil_lt_iff a b :
  valid_civil a -> valid_civil b -> (days_of_civil a < days_of_civil b <-> civil_lt a b).
Proof.
  intros Ha Hb. split; [|apply days_of_civil_mono; assumption].
  intros H. destruct a as [[y1 m1] d1], b as [[y2 m2] d2].
  assert (T : civil_lt (y1, m1, d1) (y2, m2, d2) \/ (y1 = y2 /\ m1 = m2 /\ d1 = d2) \/ civil_lt (y2, m2, d2) (y1, m1, d1))
    by (unfold civil_lt; lia).
  destruct T as [T|[(-> & -> & ->)|T]]; [exact T|lia|].
  pose proof (days_of_civil_mono _ _ Hb Ha T). lia.
Qed.

Definition DAY_NS : Z := 86400000000000.

Lemma as_cr_instant u x c :
  as_cr u x = Some c ->
  instant_ns u x = (cr_day c * 86400 + cr_sod c) * 1000000000 + cr_nanos c
  /\ 0 <= cr_sod c < 86400 /\ 0 <= cr_nanos c < 1000000000.
Proof.
  intros H. split; [|split; [apply sod_bounds|exact (as_cr_wf _ _ _ H)]].
  destruct (as_cr_total _ _ _ H) as [-> _]. rewrite <- cr_secs_split. symmetry.
  apply (cr_total_of_total (instant_ns u x)).
Qed.

Lemma as_cr_instant_day u x c :
  as_cr u x = Some c -> cr_day c * DAY_NS <= instant_ns u x < (cr_day c + 1) * DAY_NS.
Proof. intros H. destruct (as_cr_instant _ _ _ H) as (-> & Hs & Hn). unfold DAY_NS. lia. Qed.

Lemma cr_day_civil c yr mo dd :
  cr_civil c = (yr, mo, dd) -> valid_civil (yr, mo, dd) /\ cr_day c = days_of_civil (yr, mo, dd).
Proof. intros <-. split; [apply civil_of_days_valid|symmetry; apply days_civil_days]. Qed.

(* a chrono value is determined by its calendar fields *)
Lemma cr_of_fields c1 c2 :
  cr_civil c1 = cr_civil c2 -> cr_sod c1 = cr_sod c2 -> cr_nanos c1 = cr_nanos c2 -> c1 = c2.
Proof.
  intros Ec Es En. assert (Ed : cr_day c1 = cr_day c2).
  { rewrite <- (days_civil_days (cr_day c1)), <- (days_civil_days (cr_day c2)). exact (f_equal days_of_civil Ec). }
  destruct c1 as [s1 n1], c2 as [s2 n2]. cbn [cr_nanos] in En. subst n2. f_equal.
  change (cr_secs (mkcr s1 n1) = cr_secs (mkcr s2 n1)). rewrite !cr_secs_split, Ed, Es. reflexivity.
Qed.

(* first instant (ns since the epoch) of the month with index t *)
Definition month_instant (t : Z) : Z := month_start t * DAY_NS.

(* a year-aligned period of m months starts at month index yr * 12 + k * m *)
Definition is_period_start (m T : Z) : Prop :=
  exists yr k, 0 <= k /\ k * m < 12 /\ T = days_of_civil (yr, k * m + 1, 1) * DAY_NS.

Lemma month_trunc_instant u x m y :
  x <> NaT -> divides12 m -> dt_trunc u x (mktd m 0) = Ok y -> y <> NaT ->
  exists c yr mo dd, as_cr u x = Some c /\ cr_civil c = (yr, mo, dd) /\ 1 <= mo <= 12
    /\ instant_ns u y = days_of_civil (yr, period_start mo m, 1) * DAY_NS
    /\ month_start (yr * 12 + (mo - 1)) * DAY_NS <= instant_ns u x
       < month_start (yr * 12 + (mo - 1) + 1) * DAY_NS.
Proof.
  intros Hx Hm H Hy. destruct (dt_trunc_months_ok u x m y Hx Hm H) as (c & c1 & Ec & Et & Hf).
  pose proof (trunc_months_spec calendar_lawful _ _ _ Hm Et) as HS.
  destruct (cr_civil c) as [[yr mo] dd] eqn:Ecv. destruct HS as (S1 & S2 & S3).
  destruct (cr_day_civil _ _ _ _ Ecv) as [Hv Hday]. pose proof (days_of_civil_in_month _ _ _ Hv) as Hin.
  apply valid_civil_iff in Hv. exists c, yr, mo, dd. split; [exact Ec|]. split; [exact Ecv|].
  split; [exact (proj1 Hv)|]. split.
  - (* c1 is midnight on the first of the period *)
    destruct (trunc_months_whole calendar_lawful u c m c1 Hm Et) as [Hw Hu].
    rewrite (from_cr_whole u c1 y Hw Hu Hf Hy). unfold cr_total_ns. rewrite S3, cr_secs_split, S2.
    destruct (cr_day_civil _ _ _ _ S1) as [_ ->]. unfold DAY_NS. lia.
  - pose proof (as_cr_instant_day _ _ _ Ec) as Hc. rewrite Hday in Hc. unfold DAY_NS in Hc |- *. lia.
Qed.

(* the truncated instant is not after x *)
Theorem month_trunc_le u x m y :
  x <> NaT -> divides12 m -> dt_trunc u x (mktd m 0) = Ok y -> y <> NaT ->
  instant_ns u y <= instant_ns u x /\ y <= x.
Proof.
  intros Hx Hm H Hy.
  destruct (month_trunc_instant u x m y Hx Hm H Hy) as (c & yr & mo & dd & _ & _ & Hmo & Ey & Ex).
  destruct (period_start_range mo m (proj1 (divides12_spec m Hm)) Hmo) as (Hps & _ & _).
  rewrite <- (month_start_of_ym yr (period_start mo m)) in Ey by lia.
  assert (Hns : instant_ns u y <= instant_ns u x).
  { rewrite Ey. apply Z.le_trans with (2 := proj1 Ex). apply Z.mul_le_mono_nonneg_r; [discriminate|].
    apply month_start_mono_le. lia. }
  split; [exact Hns|]. apply (Z.mul_le_mono_pos_r y x (unit_ns u) (unit_ns_pos u)). exact Hns.
Qed.

(* a multiple of m that is not after t is not after the floor of t *)
Lemma multiple_le_floor a t m : 0 < m -> a * m <= t -> a * m <= t - t mod m.
Proof.
  intros Hm H. rewrite Z.mod_eq, Z.sub_sub_distr, Z.sub_diag, Z.add_0_l, (Z.mul_comm m) by lia.
  apply Z.mul_le_mono_nonneg_r; [lia|]. apply Z.div_le_lower_bound; [exact Hm|]. rewrite Z.mul_comm. exact H.
Qed.
