(* Proofs/ParseRejects.v — the converse of C18_wellformed: a characterisation of the language the
   duration scanner accepts (hence, contrapositively, of what it rejects).

   `parse s = POk m ns` implies  s = render_terms ts ++ tail  where every term of ts is well formed
   (sign? digit+ unit), tail is empty or ONE arbitrary character followed by digits only (the
   scanner skips the head character of a pending number without looking at it, and a pending
   number that is never followed by a unit is silently dropped), and m / ns are the sums of the
   terms.  Everything outside that language is `PErr` (never a panic: `parse_total`).            *)
From Coq Require Import List ZArith Lia Bool.
From Tevec Require Import Model.Parse Spec.DurationC18 Proofs.Parse.
Import ListNotations.
Local Open Scope Z_scope.

(* what may follow the last complete term: nothing, or one character (not alphabetic when it follows
   a term: an alphabetic one would have been taken into the unit) followed by digits only *)
Definition tail_ok (ts : list term) (tail : str) : Prop :=
  tail = [] \/
  exists c ds, tail = c :: ds /\ Forall (fun d => is_digit d = true) ds /\ (ts <> [] -> is_alpha c = false).

(* the accepted language (shape only) and the accepted language with its value *)
Definition in_language (s : str) : Prop :=
  exists (ts : list term) (tail : str),
    s = render_terms ts ++ tail /\ Forall wf_term ts /\ tail_ok ts tail.

Definition accepted (s : str) (m ns : Z) : Prop :=
  exists (ts : list term) (tail : str),
    s = render_terms ts ++ tail /\ Forall wf_term ts /\ tail_ok ts tail /\
    m = sumf t_months ts /\ ns = fixed_ns ts.

Lemma str_eqb_true : forall a b, str_eqb a b = true -> a = b.
Proof.
  induction a as [|x a IH]; intros [|y b] H; cbn [str_eqb] in H; try discriminate; [reflexivity|].
  apply andb_true_iff in H. destruct H as [H1 H2]. apply Z.eqb_eq in H1. subst y.
  f_equal. apply IH. exact H2.
Qed.

Lemma unit_of_inv s u : unit_of s = Some u -> s = unit_str u.
Proof.
  unfold unit_of. intros H. apply find_some in H. destruct H as [_ H]. apply str_eqb_true. exact H.
Qed.

Lemma digits_val_inv : forall ds acc v, digits_val acc ds = Some v ->
  Forall digit ds /\ v = fold_left (fun a c => a * 10 + (c - 48)) ds acc.
Proof.
  induction ds as [|c r IH]; intros acc v H; cbn [digits_val] in H.
  - injection H as <-. split; [constructor|reflexivity].
  - destruct (is_digit c) eqn:E; [|discriminate]. apply IH in H. destruct H as [H1 H2].
    split; [constructor; [exact E|exact H1]|exact H2].
Qed.

(* the term whose number is the slice  hd :: ds  *)
Definition term_of (hd : Z) (ds : str) (u : unit_kind) : term :=
  if hd =? 45 then mk_term (Some true) ds u
  else if hd =? 43 then mk_term (Some false) ds u
  else mk_term None (hd :: ds) u.

Lemma term_of_unit hd ds u : t_unit (term_of hd ds u) = u.
Proof. unfold term_of. destruct (hd =? 45); [|destruct (hd =? 43)]; reflexivity. Qed.

(* the digits after the optional sign *)
Lemma digits_signed_inv (neg : bool) ds n :
  match ds with
  | [] => None
  | _ :: _ => match digits_val 0 ds with
              | Some v => let n := if neg then - v else v in if in_i64 n then Some n else None
              | None => None
              end
  end = Some n ->
  ds <> [] /\ Forall digit ds /\ n = (if neg then - dval ds else dval ds) /\ in_i64 n = true.
Proof.
  destruct ds as [|d dr]; [discriminate|].
  destruct (digits_val 0 (d :: dr)) as [v|] eqn:E; [|discriminate].
  apply digits_val_inv in E. destruct E as [Hd ->]. cbv zeta. fold (dval (d :: dr)).
  destruct (in_i64 _) eqn:Er; [|discriminate]. intros [= <-]. repeat split; [discriminate|exact Hd|exact Er].
Qed.

(* converse of `parse_i64_term` *)
Lemma parse_i64_inv hd ds u n : parse_i64 (hd :: ds) = Some n ->
  wf_term (term_of hd ds u) /\
  sign_str (t_sign (term_of hd ds u)) ++ t_digits (term_of hd ds u) = hd :: ds /\
  n = tval (term_of hd ds u) /\ in_i64 n = true.
Proof.
  unfold parse_i64, term_of. intros H.
  destruct (Z.eqb_spec hd 45) as [->|_]; [apply (digits_signed_inv true ds) in H|];
    [|destruct (Z.eqb_spec hd 43) as [->|_];
      [apply (digits_signed_inv false ds) in H|apply (digits_signed_inv false (hd :: ds)) in H]];
    destruct H as (Hne & Hd & -> & Hr);
    unfold wf_term, tval; cbn [t_sign t_digits sign_str app]; repeat split; assumption.
Qed.

(* converse of `apply_unit_term` *)
Lemma apply_unit_inv t a a' : apply_unit (t_unit t) (tval t) a = Some a' -> a' = acc_plus a t.
Proof.
  unfold acc_plus, t_months, t_secs, t_nsecs.
  destruct (t_unit t); cbn [apply_unit unit_scale]; intros H;
    match type of H with option_map _ ?e = _ => destruct e as [v|] eqn:E; [|discriminate] end;
    cbn [option_map] in H; injection H as <-;
    first [apply add_i64_inv in E | apply add_i32_inv in E]; destruct E as [-> _]; f_equal; lia.
Qed.

Lemma render_terms_app ts1 ts2 : render_terms (ts1 ++ ts2) = render_terms ts1 ++ render_terms ts2.
Proof. unfold render_terms. apply flat_map_app. Qed.

Lemma sumf_snoc f ts t : sumf f (ts ++ [t]) = sumf f ts + f t.
Proof. unfold sumf. induction ts as [|x ts IH]; cbn [app fold_right]; lia. Qed.

(* the accumulators after the terms ts *)
Definition acc_of (ts : list term) : accs :=
  mk_accs (sumf t_nsecs ts) (sumf t_secs ts) (sumf t_months ts).

Lemma finish_acc_of ts m ns : finish (acc_of ts) = POk m ns -> m = sumf t_months ts /\ ns = fixed_ns ts.
Proof. intros H. apply finish_spec in H. exact (proj2 H). Qed.

(* the scanner invariant at a term boundary: the complete terms ts have been read, the head character hd of
   the pending number has been consumed and `start` indexes it.  What follows splits into digits, letters
   and the rest, on which `scan_one_term` says what the scanner does. *)
Lemma scan_accepts : forall n fuel s rest ts hd m ns,
  (length rest < n)%nat ->
  s = render_terms ts ++ hd :: rest -> Forall wf_term ts -> (ts <> [] -> is_alpha hd = false) ->
  (length rest < fuel)%nat ->
  scan fuel s rest (S (length (render_terms ts))) (length (render_terms ts)) (acc_of ts) = POk m ns ->
  accepted s m ns.
Proof.
  induction n as [|n IH]; intros fuel s rest ts hd m ns Hn Hs Hw Hh Hf H; [lia|].
  destruct (prefix_split is_digit rest) as (ds & post1 & -> & Hd & Hp1).
  destruct post1 as [|ch rest1].
  - (* digits up to the end of the input: the pending number is dropped *)
    destruct (scan_digits ds fuel s [] (S (length (render_terms ts))) (length (render_terms ts)) (acc_of ts) Hd Hf)
      as (f2 & Hf2 & E).
    rewrite E in H. destruct f2; [cbn in Hf2; lia|]. cbn [scan] in H. apply finish_acc_of in H.
    rewrite app_nil_r in Hs. exists ts, (hd :: ds).
    split; [exact Hs|]. split; [exact Hw|]. split; [|exact H].
    right. exists hd, ds. auto.
  - destruct (prefix_split is_alpha (ch :: rest1)) as (us & post & Eu & Hal & Hpost).
    assert (Hne : us <> [] \/ (post <> [] /\ nondigit_head post)).
    { destruct us; [right; cbn [app] in Eu; subst post; split; [discriminate|exact Hp1]|left; discriminate]. }
    rewrite Eu in *. clear Eu Hp1.
    destruct (scan_one_term s (render_terms ts) hd ds us post (acc_of ts) fuel Hs Hd Hal Hpost Hne Hf)
      as (f2 & Hf2 & Es).
    rewrite Es in H. clear Es.
    destruct (parse_i64 (hd :: ds)) as [v|] eqn:En; [|discriminate].
    destruct (unit_of us) as [u|] eqn:Eus; [|discriminate]. apply unit_of_inv in Eus. subst us.
    destruct (apply_unit u v (acc_of ts)) as [a'|] eqn:Ea; [|discriminate].
    (* the term just read *)
    destruct (parse_i64_inv hd ds u v En) as [Hwt [Er [Hv _]]].
    pose proof (term_of_unit hd ds u) as Htu.
    set (t := term_of hd ds u) in *.
    assert (Ea' : a' = acc_of (ts ++ [t])).
    { rewrite Hv, <- Htu in Ea. apply apply_unit_inv in Ea. rewrite Ea.
      unfold acc_plus, acc_of. cbn [a_nsecs a_secs a_months]. rewrite !sumf_snoc. reflexivity. }
    assert (ERt : render_terms (ts ++ [t]) = render_terms ts ++ (hd :: ds) ++ unit_str u).
    { rewrite render_terms_app. f_equal. unfold render_terms. cbn [flat_map]. rewrite app_nil_r.
      unfold render_term. rewrite app_assoc, Er, Htu. reflexivity. }
    assert (Hw' : Forall wf_term (ts ++ [t])).
    { apply Forall_app. split; [exact Hw|]. constructor; [exact Hwt|constructor]. }
    subst a'. destruct post as [|c1 more].
    + (* the unit runs to the end of the input *)
      apply finish_acc_of in H. exists (ts ++ [t]), []. rewrite app_nil_r, ERt.
      split; [rewrite Hs, app_nil_r; reflexivity|]. split; [exact Hw'|]. split; [left; reflexivity|exact H].
    + (* the unit is followed by c1, the head of the next pending number *)
      cbv zeta in H. rewrite <- ERt in H.
      apply (IH f2 s more (ts ++ [t]) c1 m ns).
      * rewrite !app_length in Hn. cbn [length] in Hn. lia.
      * rewrite ERt, Hs, <- !app_assoc. reflexivity.
      * exact Hw'.
      * intros _. exact Hpost.
      * exact Hf2.
      * exact H.
Qed.

(* MAIN THEOREM: whatever the scanner accepts is  term* tail , with the value of the terms *)
Theorem parse_accepts_grammar : forall (s : str) (m ns : Z), parse s = POk m ns -> accepted s m ns.
Proof.
  intros s m ns H. unfold parse in H. destruct s as [|c r].
  - cbn [length scan] in H. apply (finish_acc_of []) in H. destruct H as [Hm Hn].
    exists [], []. split; [reflexivity|]. split; [constructor|]. split; [left; reflexivity|].
    split; assumption.
  - cbn [length] in H. rewrite scan_first in H.
    apply (scan_accepts (S (length r)) (S (length r)) (c :: r) r [] c m ns); try reflexivity; try constructor.
    + intros N. contradiction N. reflexivity.
    + exact H.
Qed.

Corollary parse_accepts_language s m ns : parse s = POk m ns -> in_language s.
Proof.
  intros H. apply parse_accepts_grammar in H. destruct H as [ts [tail [H1 [H2 [H3 _]]]]].
  exists ts, tail. auto.
Qed.

(* the outcome is Ok or Err, never a panic / fuel exhaustion *)
Lemma parse_ok_or_err s : (exists m ns, parse s = POk m ns) \/ parse s = PErr.
Proof.
  destruct (parse_total s) as [Hp Hf]. destruct (parse s) as [m ns| |k|].
  - left. exists m, ns. reflexivity.
  - right. reflexivity.
  - exfalso. exact (Hp k eq_refl).
  - exfalso. exact (Hf eq_refl).
Qed.

Corollary parse_not_in_language_err : forall s, ~ in_language s -> parse s = PErr.
Proof.
  intros s Hno. destruct (parse_ok_or_err s) as [[m [ns H]]|H]; [|exact H].
  exfalso. exact (Hno (parse_accepts_language s m ns H)).
Qed.

(* a string is accepted with a value only if that value is the one of its grammar reading *)
Corollary parse_value_of_terms : forall ts m ns, parse (render_terms ts) = POk m ns ->
  exists ts' tail, render_terms ts = render_terms ts' ++ tail /\ Forall wf_term ts' /\ tail_ok ts' tail /\
                   m = sumf t_months ts' /\ ns = fixed_ns ts'.
Proof. intros ts m ns H. apply parse_accepts_grammar. exact H. Qed.

Lemma parse_empty : parse [] = POk 0 0.
Proof. vm_compute. reflexivity. Qed.

(* a rendered term starts with a sign or a digit *)
Lemma render_term_head t : wf_term t ->
  exists c0 more, render_term t = c0 :: more /\ (is_digit c0 = true \/ c0 = 43 \/ c0 = 45).
Proof.
  intros [Hne Hd]. unfold render_term. destruct (t_digits t) as [|d dr]; [contradiction|].
  inversion Hd as [|? ? Hc Hr]; subst.
  destruct (t_sign t) as [[|]|]; cbn [sign_str app]; do 2 eexists; (split; [reflexivity|]); auto.
Qed.

(* a string whose first character is neither a sign nor a digit, and which is not that character
   followed by digits only, is rejected (leading white space, "a1d", ...) *)
Theorem parse_bad_head_rejected : forall c r,
  is_digit c = false -> c <> 43 -> c <> 45 -> ~ Forall digit r -> parse (c :: r) = PErr.
Proof.
  intros c r Hc H43 H45 Hr. apply parse_not_in_language_err. intros (ts & tail & Hs & Hw & Ht).
  destruct ts as [|t ts].
  - cbn [render_terms flat_map app] in Hs. subst tail.
    destruct Ht as [Ht|[c' [ds [E [Hd _]]]]]; [discriminate|].
    injection E as _ <-. exact (Hr Hd).
  - inversion Hw as [|? ? Hwt _]; subst.
    destruct (render_term_head t Hwt) as [c0 [more [E Hc0]]].
    change (render_terms (t :: ts)) with (render_term t ++ render_terms ts) in Hs.
    rewrite E in Hs. cbn [app] in Hs. injection Hs as <- _.
    destruct Hc0 as [Hc0|[Hc0|Hc0]]; [rewrite Hc in Hc0; discriminate|contradiction|contradiction].
Qed.

(* conversely the degenerate part of the language really is accepted: any single character followed
   by digits only (no unit at all) parses to the zero duration *)
Theorem parse_tail_only : forall c ds, Forall digit ds -> parse (c :: ds) = POk 0 0.
Proof.
  intros c ds Hd. unfold parse. cbn [length]. rewrite scan_first.
  destruct (scan_digits ds (S (length ds)) (c :: ds) [] 1%nat 0%nat (mk_accs 0 0 0) Hd) as [f2 [Hf2 E]].
  { rewrite app_nil_r. lia. }
  rewrite app_nil_r in E. rewrite E. destruct f2 as [|f2]; [cbn [length] in Hf2; lia|].
  cbn [scan]. vm_compute. reflexivity.
Qed.

Print Assumptions parse_accepts_grammar.
Print Assumptions parse_not_in_language_err.
Print Assumptions parse_bad_head_rejected.
Print Assumptions parse_tail_only.
