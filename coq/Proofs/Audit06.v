(* Proofs/Audit06.v — audit of property C06 (notes/C06.md, "Audit matrix"): the two facts about the OUTCOME of a call
   behind section (D) of Props/C06.v.  For every window (0 included), whenever the call on the whole series returns, the
   call on any prefix returns the prefix of its result (in particular it does not panic); a two-series entry point
   (ts_run2) that its body accepts returns the outputs of the one-series run over the zipped series.               *)
From Coq Require Import Lia List Bool.
From Tevec Require Import Base.Prelude Model.Driver Proofs.Driver Model.Features Model.Binary Proofs.Generic
     Proofs.Audit01 Proofs.Audit05.
Import ListNotations.

Section AnyFeature.
  Context {T St O : Type}.
  Variable F : feat T St O.

  Theorem ts_run_prefix_outcome body (w : nat) (xs : list T) (k : nat) (out : list O) :
    ts_run F body w xs = Done out -> ts_run F body w (firstn k xs) = Done (firstn k out).
  Proof.
    intros H. destruct w as [|w].
    - rewrite ts_run_window0 in H. destruct xs; [|discriminate]. injection H as <-.
      rewrite !firstn_nil. apply ts_run_empty.
    - pose proof (ts_out_prefix F (S w) xs body k ltac:(lia)) as P. unfold ts_out in P. rewrite H in P.
      destruct (Generic.ts_run_total F (S w) (firstn k xs) body ltac:(lia)) as (o' & E & _). rewrite E in P |- *.
      rewrite P. reflexivity.
  Qed.
End AnyFeature.

Section TwoSeries.
  Context {T1 T2 St O : Type}.
  Variable F : feat (T1 * T2) St O.

  Lemma ts_run2_done_ts_out body (w : nat) (xs : list T1) (ys : list T2) :
    1 <= w -> (body = false \/ length xs <= length ys) ->
    ts_run2 F body w xs ys = Done (ts_out F body w (combine xs ys)).
  Proof.
    intros Hw Hb. rewrite ts_run2_as_ts_run by exact Hw.
    replace (body && (length ys <? length xs)) with false.
    - unfold ts_out. destruct (Generic.ts_run_total F w (combine xs ys) body Hw) as (o & E & _). rewrite E. reflexivity.
    - symmetry. destruct Hb as [->|Hb]; [reflexivity|]. replace (length ys <? length xs) with false
        by (symmetry; apply Nat.ltb_ge; exact Hb). apply andb_false_r.
  Qed.
End TwoSeries.
