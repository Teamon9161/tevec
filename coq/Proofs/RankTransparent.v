(* Proofs/RankTransparent.v — C08: `vrank` (Model/Rank.v, tea-map/src/vec_map.rs:112-276) under insertion / deletion
   of nulls at a GENERIC carrier: every `Num A`, every null dictionary `IsNone T A`, every `IsNoneX T A` (so an
   arbitrary `==`), NO order law on the comparison of two non-null values, and the single arithmetic law

        nofnat 1 / nofnat 1 = none                     (`1 as f64 / 1 as f64 == 1.0`)

   which is what reconciles the length-1 early return (the literal `1.0`) with the loop (`sum_rank / repeat_num`
   for a lone valid element followed by nulls).  The generic theorems rest on no axiom; of the three instances of
   the law at the end of the file, the one at option R is proved over the classical reals.

   Steps:
   (1) `isort_split_abs` (Proofs/TransQuantile.v): for an abstract comparator with a null predicate (null vs non-null
       = Gt, null vs null = Eq, non-null vs null = Lt — nothing about two non-nulls) the insertion sort is the sort of
       the non-nulls followed by the nulls; on index vectors: `argsort ys = map phi (argsort V) ++ npos ys`, V = filter not_none ys,
       phi k = position of the k-th valid element (`argsort_split`);
   (2) `loop_rel`: the run-length loop on ys along `map phi pV ++ nl` and the loop on V along `pV` take the same
       branches on the first nn - 1 sorted positions and keep `out_y[phi k] = out_V[k]`, null slots untouched;
   (3) at sorted position nn - 1 the run on ys either ends too (no null) or breaks and writes the last tie group with
       `write_run` where the run on V writes it in `rank_finish` — same slots, same value (`rel_write`); then the
       null slots get NaN (`rel_fill`);
   (4) `series_final_rel`: for V = filter not_none ys the embedding phi = vphi ys and the null positions npos ys meet the
       hypotheses of (2), (3); `vrank_scatter`: vrank ys = scatter ys (vrank V), and `scatter` commutes with `insert_pat`
       (`vrank_insert_pat_generic`) and with the inductive `NullInsert` (`vrank_null_insert_generic`).           *)
From Coq Require Import List Bool Arith Lia ZArith Permutation.
From Tevec Require Import Base.Prelude Base.Num Model.NullView Model.SortCmp Model.Rank
     Proofs.SortCmp Proofs.Audit12 Proofs.Rank Proofs.ViewBase Proofs.TransQuantile.
Import ListNotations.

Lemma filter_map_S (f : nat -> bool) l : filter f (map S l) = map S (filter (fun j => f (S j)) l).
Proof. induction l as [|x l IH]; [reflexivity|]. cbn [map filter]. destruct (f (S x)); cbn [map]; rewrite IH; reflexivity. Qed.

Lemma map_nth_seq {X} (d : X) (l : list X) : map (fun k => nth k l d) (seq 0 (length l)) = l.
Proof.
  induction l as [|x l IH]; [reflexivity|]. cbn [length seq map nth]. f_equal.
  rewrite <- seq_shift, map_map. exact IH.
Qed.

Lemma nth_map_lt {X Y} (f : X -> Y) l t dx dy : t < length l -> nth t (map f l) dy = f (nth t l dx).
Proof. intros Ht. rewrite (nth_indep _ dy (f dx)) by (rewrite map_length; exact Ht). apply map_nth. Qed.

Section Pos.
  Context {A : Type} {NA : Num A} {T : Type} {DT : IsNone T A}.

  Fixpoint vpos (ys : list T) : list nat :=
    match ys with [] => [] | y :: r => if is_none y then map S (vpos r) else 0 :: map S (vpos r) end.
  Fixpoint npos (ys : list T) : list nat :=
    match ys with [] => [] | y :: r => if is_none y then 0 :: map S (npos r) else map S (npos r) end.

  Lemma vpos_filter ys : filter (fun j => negb (get_is_none ys j)) (seq 0 (length ys)) = vpos ys.
  Proof.
    induction ys as [|y r IH]; [reflexivity|]. cbn [length seq filter vpos].
    rewrite <- seq_shift, filter_map_S.
    change (filter (fun j => negb (get_is_none (y :: r) (S j))) (seq 0 (length r)))
      with (filter (fun j => negb (get_is_none r j)) (seq 0 (length r))).
    rewrite IH. unfold get_is_none at 1. cbn [nth_error]. destruct (is_none y); reflexivity.
  Qed.
  Lemma npos_filter ys : filter (get_is_none ys) (seq 0 (length ys)) = npos ys.
  Proof.
    induction ys as [|y r IH]; [reflexivity|]. cbn [length seq filter npos].
    rewrite <- seq_shift, filter_map_S.
    change (filter (fun j => get_is_none (y :: r) (S j)) (seq 0 (length r)))
      with (filter (get_is_none r) (seq 0 (length r))).
    rewrite IH. unfold get_is_none at 1. cbn [nth_error]. destruct (is_none y); reflexivity.
  Qed.

  Lemma vpos_nth ys : map (nth_error ys) (vpos ys) = map Some (filter not_none ys).
  Proof.
    induction ys as [|y r IH]; [reflexivity|]. cbn [vpos filter]. unfold not_none at 1.
    destruct (is_none y); cbn [negb map]; rewrite map_map;
      change (map (fun x => nth_error (y :: r) (S x)) (vpos r)) with (map (nth_error r) (vpos r));
      rewrite IH; reflexivity.
  Qed.
  Lemma vpos_length ys : length (vpos ys) = count_valid ys.
  Proof. unfold count_valid. rewrite <- (map_length (nth_error ys)), vpos_nth, map_length. reflexivity. Qed.

  Lemma npos_length ys : count_valid ys + length (npos ys) = length ys.
  Proof.
    rewrite <- vpos_length. induction ys as [|y r IH]; [reflexivity|]. cbn [vpos npos length].
    destruct (is_none y); cbn [length]; rewrite !map_length; lia.
  Qed.

  Lemma vpos_In ys j : In j (vpos ys) <-> j < length ys /\ get_is_none ys j = false.
  Proof.
    rewrite <- vpos_filter, filter_In, in_seq. destruct (get_is_none ys j); cbn [negb]; split; intros [H1 H2]; split;
      try lia; try reflexivity; try discriminate.
  Qed.
  Lemma npos_In ys j : In j (npos ys) <-> j < length ys /\ get_is_none ys j = true.
  Proof. rewrite <- npos_filter, filter_In, in_seq. split; intros [H1 H2]; split; try lia; exact H2. Qed.
  Lemma vpos_NoDup ys : NoDup (vpos ys).
  Proof. rewrite <- vpos_filter. apply NoDup_filter. apply seq_NoDup. Qed.

  Definition vphi (ys : list T) (k : nat) : nat := nth k (vpos ys) 0.

  Lemma vphi_nth_error ys k : k < count_valid ys -> nth_error (vpos ys) k = Some (vphi ys k).
  Proof. intros Hk. apply nth_error_nth'. rewrite vpos_length. exact Hk. Qed.
  Lemma vphi_get ys k : k < count_valid ys -> nth_error ys (vphi ys k) = nth_error (filter not_none ys) k.
  Proof.
    intros Hk. pose proof (f_equal (fun l => nth_error l k) (vpos_nth ys)) as E. cbn beta in E.
    rewrite !nth_error_map, (vphi_nth_error ys k Hk) in E. cbn [option_map] in E.
    destruct (nth_error (filter not_none ys) k) eqn:E2; cbn [option_map] in E; [injection E as E; exact E|].
    apply nth_error_None in E2. unfold count_valid in Hk. lia.
  Qed.
  Lemma vphi_In ys k : k < count_valid ys -> In (vphi ys k) (vpos ys).
  Proof. intros Hk. apply nth_In. rewrite vpos_length. exact Hk. Qed.
  Lemma vphi_inj ys a b : a < count_valid ys -> b < count_valid ys -> vphi ys a = vphi ys b -> a = b.
  Proof. intros Ha Hb E. apply (proj1 (NoDup_nth (vpos ys) 0) (vpos_NoDup ys)); rewrite ?vpos_length; assumption. Qed.
  Lemma vpos_map_vphi ys : vpos ys = map (vphi ys) (seq 0 (count_valid ys)).
  Proof. rewrite <- vpos_length. symmetry. apply map_nth_seq. Qed.

  Lemma filter_valid_all_valid ys k v : nth_error (filter not_none ys) k = Some v -> is_none v = false.
  Proof.
    intros E. apply nth_error_In, filter_In in E. destruct E as [_ E]. unfold not_none in E.
    destruct (is_none v); [discriminate|reflexivity].
  Qed.
  Lemma filter_valid_idem ys : filter not_none (filter not_none ys) = filter not_none ys.
  Proof.
    induction ys as [|y r IH]; [reflexivity|]. cbn [filter]. destruct (not_none y) eqn:E; [|exact IH].
    cbn [filter]. rewrite E, IH. reflexivity.
  Qed.

  (* on valid indices the index comparator and the null test read actual elements *)
  Lemma cmp_idx_get rev ys x y : x < length ys -> y < length ys ->
    exists vx vy, cmp_idx (cmp_dir rev) ys x y = cmp_dir rev vx vy /\
                  get_is_none ys x = is_none vx /\ get_is_none ys y = is_none vy.
  Proof.
    intros Hx Hy. unfold cmp_idx, get_is_none.
    destruct (nth_error ys x) as [vx|] eqn:Ex; [|apply nth_error_None in Ex; lia].
    destruct (nth_error ys y) as [vy|] eqn:Ey; [|apply nth_error_None in Ey; lia].
    exists vx, vy. repeat split.
  Qed.

  Lemma argsort_split rev ys :
    isort (cmp_idx (cmp_dir rev) ys) (seq 0 (length ys))
    = map (vphi ys) (isort (cmp_idx (cmp_dir rev) (filter not_none ys)) (seq 0 (count_valid ys))) ++ npos ys.
  Proof.
    rewrite (isort_split_abs (cmp_idx (cmp_dir rev) ys) (get_is_none ys) (fun j => j < length ys)).
    - rewrite vpos_filter, npos_filter. f_equal.
      rewrite vpos_map_vphi at 1. rewrite <- isort_map. f_equal.
      apply isort_ext_in. intros a b Ha Hb. apply in_seq in Ha. apply in_seq in Hb.
      unfold cmp_idx. rewrite !vphi_get by lia. reflexivity.
    - intros x y Dx Dy. destruct (cmp_idx_get rev ys x y Dx Dy) as (vx & vy & -> & -> & ->). apply cmp_null_valid.
    - intros x y Dx Dy. destruct (cmp_idx_get rev ys x y Dx Dy) as (vx & vy & -> & -> & ->). apply cmp_null_null.
    - intros x y Dx Dy. destruct (cmp_idx_get rev ys x y Dx Dy) as (vx & vy & -> & -> & ->). apply cmp_valid_null.
    - apply Forall_forall. intros j Hj. apply in_seq in Hj. lia.
  Qed.
End Pos.

Section Loop.
  Context {A : Type} {NA : Num A} {T : Type} {DT : IsNone T A} {DX : IsNoneX T A}.
  Variables (pct : bool) (nn len : nat) (ys V : list T) (phi : nat -> nat) (pV nl : list nat).
  Let pY := map phi pV ++ nl.
  Hypothesis HpVlen : length pV = nn.
  Hypothesis HpVr : forall a, In a pV -> a < nn.
  Hypothesis Hlen : nn + length nl = len.
  Hypothesis Hphi : forall k, k < nn -> nth_error ys (phi k) = nth_error V k.
  Hypothesis HVlen : length V = nn.
  Hypothesis HVvalid : forall k v, nth_error V k = Some v -> is_none v = false.
  Hypothesis Hphir : forall k, k < nn -> phi k < len.
  Hypothesis Hphiinj : forall a b, a < nn -> b < nn -> phi a = phi b -> a = b.
  Hypothesis Hnl : forall j, In j nl -> j < len /\ get_is_none ys j = true.

  Lemma pV_nth_r t : t < nn -> nth t pV 0 < nn.
  Proof. intros Ht. apply HpVr. apply nth_In. lia. Qed.
  Lemma pY_nth t : t < nn -> nth t pY 0 = phi (nth t pV 0).
  Proof. intros Ht. unfold pY. rewrite app_nth1 by (rewrite map_length; lia). apply nth_map_lt. lia. Qed.
  Lemma pY_nth_hi t : nn <= t < len -> In (nth t pY 0) nl.
  Proof. intros Ht. unfold pY. rewrite app_nth2 by (rewrite map_length; lia). rewrite map_length. apply nth_In. lia. Qed.
  Lemma pY_nth_range t : t < len -> nth t pY 0 < len.
  Proof.
    intros Ht. destruct (lt_dec t nn) as [H|H].
    - rewrite pY_nth by exact H. apply Hphir. apply pV_nth_r. exact H.
    - apply Hnl. apply pY_nth_hi. lia.
  Qed.

  Lemma gin_phi k : k < nn -> get_is_none ys (phi k) = false /\ get_is_none V k = false.
  Proof.
    intros Hk. unfold get_is_none. rewrite (Hphi _ Hk).
    destruct (nth_error V k) as [v|] eqn:E; [|apply nth_error_None in E; lia].
    rewrite (HVvalid _ _ E). split; reflexivity.
  Qed.
  Lemma geq_phi a b : a < nn -> b < nn -> get_eq ys (phi a) (phi b) = get_eq V a b.
  Proof. intros Ha Hb. unfold get_eq. rewrite (Hphi _ Ha), (Hphi _ Hb). reflexivity. Qed.
  Lemma phi_not_nl k : k < nn -> ~ In (phi k) nl.
  Proof. intros Hk Hin. destruct (Hnl _ Hin) as [_ Hn]. rewrite (proj1 (gin_phi _ Hk)) in Hn. discriminate. Qed.

  Definition Rel (oY oV : list (option A)) : Prop :=
    length oY = len /\ length oV = nn /\ (forall k, k < nn -> nth_error oY (phi k) = nth_error oV k) /\
    (forall j, In j nl -> nth_error oY j = Some None).
  Definition FinalRel (oY oV : list (option A)) : Prop :=
    length oY = len /\ length oV = nn /\ (forall k, k < nn -> nth_error oY (phi k) = nth_error oV k) /\
    (forall j, In j nl -> nth_error oY j = Some (Some nnan)).

  Lemma rel_uset a (v : A) oY oV : a < nn -> Rel oY oV -> Rel (uset (phi a) v oY) (uset a v oV).
  Proof.
    intros Ha (H1 & H2 & H3 & H4). split; [rewrite Audit12.uset_length; exact H1|]. split; [rewrite Audit12.uset_length; exact H2|]. split.
    - intros k Hk. rewrite !uset_nth, H1, H2.
      replace (phi a <? len) with true by (symmetry; apply Nat.ltb_lt; apply Hphir; exact Ha).
      replace (a <? nn) with true by (symmetry; apply Nat.ltb_lt; exact Ha). rewrite !andb_true_r.
      destruct (k =? a) eqn:E.
      + apply Nat.eqb_eq in E. subst k. rewrite Nat.eqb_refl. reflexivity.
      + apply Nat.eqb_neq in E. replace (phi k =? phi a) with false; [apply H3; exact Hk|].
        symmetry. apply Nat.eqb_neq. intros E'. apply Hphiinj in E'; [contradiction|exact Hk|exact Ha].
    - intros j Hj. rewrite uset_nth. replace (j =? phi a) with false; [cbn [andb]; apply H4; exact Hj|].
      symmetry. apply Nat.eqb_neq. intros ->. exact (phi_not_nl _ Ha Hj).
  Qed.

  Lemma rel_fold (g : nat -> nat) (v : A) js : (forall j, In j js -> g j < nn) -> forall oY oV, Rel oY oV ->
    Rel (fold_left (fun o j => uset (nth (g j) pY 0) v o) js oY) (fold_left (fun o j => uset (nth (g j) pV 0) v o) js oV).
  Proof.
    induction js as [|j js IH]; intros Hg oY oV HR; [exact HR|]. cbn [fold_left].
    apply IH; [intros j' Hj'; apply Hg; right; exact Hj'|].
    rewrite pY_nth by (apply Hg; left; reflexivity).
    apply rel_uset; [apply pV_nth_r; apply Hg; left; reflexivity|exact HR].
  Qed.

  (* one value written over two sets of slots that correspond under phi and miss the null slots *)
  Lemma rel_write (gY gV : nat -> nat) jsY jsV (v : A) oY oV :
    (forall j, In j jsY -> gY j < len) -> (forall t, In t jsV -> gV t < nn) ->
    (forall k, k < nn -> existsb (fun j => phi k =? gY j) jsY = existsb (fun t => k =? gV t) jsV) ->
    (forall j, In j nl -> existsb (fun j' => j =? gY j') jsY = false) ->
    Rel oY oV ->
    Rel (fold_left (fun o j => uset (gY j) v o) jsY oY) (fold_left (fun o t => uset (gV t) v o) jsV oV).
  Proof.
    intros HrY HrV Hsame Hnull (H1 & H2 & H3 & H4).
    split; [rewrite Audit12.fold_uset_length; exact H1|]. split; [rewrite Audit12.fold_uset_length; exact H2|]. split.
    - intros k Hk. rewrite (fold_uset_nth gY), (fold_uset_nth gV) by (rewrite ?H1, ?H2; assumption).
      rewrite (Hsame k Hk), (H3 k Hk). reflexivity.
    - intros j Hj. rewrite (fold_uset_nth gY) by (rewrite H1; exact HrY). rewrite (Hnull j Hj). apply H4, Hj.
  Qed.

  (* the null slots, sorted positions nn .. len - 1 of pY, get NaN; the valid slots are not among them *)
  Lemma rel_fill oY oV :
    Rel oY oV -> FinalRel (fold_left (fun o t => uset (nth t pY 0) nnan o) (seq nn (len - nn)) oY) oV.
  Proof.
    intros (H1 & H2 & H3 & H4).
    assert (Hr : forall t, In t (seq nn (len - nn)) -> nth t pY 0 < length oY)
      by (intros t Ht; apply in_seq in Ht; rewrite H1; apply pY_nth_range; lia).
    split; [rewrite Audit12.fold_uset_length; exact H1|]. split; [exact H2|]. split.
    - intros k Hk. rewrite (fold_uset_nth (fun t => nth t pY 0)) by exact Hr.
      replace (existsb (fun t => phi k =? nth t pY 0) (seq nn (len - nn))) with false; [apply H3; exact Hk|].
      symmetry. apply not_true_iff_false. intros HE. apply existsb_exists in HE. destruct HE as (t & Ht & E).
      apply in_seq in Ht. apply Nat.eqb_eq in E. apply (phi_not_nl _ Hk). rewrite E. apply pY_nth_hi. lia.
    - intros j Hj. rewrite (fold_uset_nth (fun t => nth t pY 0)) by exact Hr.
      replace (existsb (fun t => j =? nth t pY 0) (seq nn (len - nn))) with true; [reflexivity|].
      symmetry. apply existsb_exists. destruct (In_nth nl j 0 Hj) as (u & Hu & Eu).
      exists (nn + u). split; [apply in_seq; lia|]. apply Nat.eqb_eq. unfold pY.
      rewrite app_nth2 by (rewrite map_length; lia). rewrite map_length, HpVlen.
      replace (nn + u - nn) with u by lia. symmetry. exact Eu.
  Qed.

  Lemma loop_rel m : forall i rep cur sum oY oV,
    i + m = nn - 1 -> 1 <= nn -> rep <= S i -> Rel oY oV ->
    FinalRel
      (rank_finish pct nn pY len (rank_loop pct nn ys pY (seq i (m + (len - nn)))
          {| r_rep := rep; r_cur := cur; r_sum := sum; r_out := oY |}))
      (rank_finish pct nn pV nn (rank_loop pct nn V pV (seq i m)
          {| r_rep := rep; r_cur := cur; r_sum := sum; r_out := oV |})).
  Proof.
    induction m as [|m IH]; intros i rep cur sum oY oV Him Hnn Hrep HR.
    - (* the last valid sorted position i = nn - 1: the run on V ends and writes its last tie group in `rank_finish`;
         the run on ys ends too (no null), or breaks, writes the group with `write_run` and fills the null slots *)
      cbn [seq rank_loop rank_finish Nat.add r_rep r_cur r_sum r_out].
      assert (Ei : S i = nn) by lia. set (v := rk_avg pct nn (sum + cur) rep).
      destruct (len - nn) as [|d] eqn:Ed.
      + cbn [seq rank_loop rank_finish r_rep r_cur r_sum r_out]. fold v.
        assert (Eln : len = nn) by lia. rewrite Eln at 1.
        pose proof (rel_fold (fun t => t) v (seq (nn - rep) rep)) as HF. cbn beta in HF.
        specialize (HF ltac:(intros j Hj; apply in_seq in Hj; lia) oY oV HR).
        apply rel_fill in HF. rewrite Ed in HF. exact HF.
      + assert (Hgn : get_is_none ys (nth (S i) pY 0) = true) by (apply Hnl; apply pY_nth_hi; lia).
        cbn [seq rank_loop]. rewrite Hgn. cbn [rank_finish r_rep r_cur r_sum r_out]. fold v. rewrite Ei.
        apply rel_fill. unfold write_run.
        apply (rel_write (fun j => nth (i - j) pY 0) (fun t => nth t pV 0)); [| | | |exact HR].
        * intros j Hj. apply in_seq in Hj. apply pY_nth_range. lia.
        * intros t Ht. apply in_seq in Ht. apply pV_nth_r. lia.
        * (* positions i, i - 1, .. of pY are the images of positions nn - rep .. nn - 1 of pV *)
          intros k Hk. apply eq_true_iff_eq. rewrite !existsb_exists. split.
          -- intros (j & Hj & E). apply in_seq in Hj. apply Nat.eqb_eq in E. rewrite pY_nth in E by lia.
             apply Hphiinj in E; [|lia|apply pV_nth_r; lia].
             exists (i - j). split; [apply in_seq; lia|apply Nat.eqb_eq; exact E].
          -- intros (t & Ht & E). apply in_seq in Ht. apply Nat.eqb_eq in E.
             exists (i - t). split; [apply in_seq; lia|]. apply Nat.eqb_eq.
             replace (i - (i - t)) with t by lia. rewrite pY_nth by lia. f_equal. exact E.
        * intros j Hj. apply not_true_iff_false. intros HE. apply existsb_exists in HE. destruct HE as (t & Ht & E).
          apply in_seq in Ht. apply Nat.eqb_eq in E. rewrite pY_nth in E by lia. subst j.
          apply (phi_not_nl (nth (i - t) pV 0)); [apply pV_nth_r; lia|exact Hj].
    - (* a sorted position i < nn - 1: both runs look at two valid elements and take the same branch *)
      assert (Hi : S i < nn) by lia.
      cbn [seq rank_loop Nat.add r_rep r_cur r_sum r_out].
      rewrite !pY_nth by lia.
      destruct (gin_phi _ (pV_nth_r _ Hi)) as [G1 G2]. rewrite G1, G2.
      rewrite geq_phi by (apply pV_nth_r; lia).
      destruct (get_eq V (nth i pV 0) (nth (S i) pV 0)).
      + apply IH; [lia|exact Hnn|lia|exact HR].
      + destruct (rep =? 1).
        * apply IH; [lia|exact Hnn|lia|]. apply rel_uset; [apply pV_nth_r; lia|exact HR].
        * apply IH; [lia|exact Hnn|lia|]. unfold write_run.
          apply (rel_fold (fun j => i - j)); [intros j Hj; lia|exact HR].
  Qed.

  Lemma loop_rel_start : 1 <= nn ->
    FinalRel
      (rank_finish pct nn pY len (rank_loop pct nn ys pY (seq 0 (len - 1))
          {| r_rep := 1; r_cur := 1; r_sum := 0; r_out := repeat None len |}))
      (rank_finish pct nn pV nn (rank_loop pct nn V pV (seq 0 (nn - 1))
          {| r_rep := 1; r_cur := 1; r_sum := 0; r_out := repeat None nn |})).
  Proof.
    intros Hnn. replace (len - 1) with ((nn - 1) + (len - nn)) by lia.
    apply loop_rel; [lia|exact Hnn|lia|].
    split; [apply repeat_length|]. split; [apply repeat_length|]. split.
    - intros k Hk. rewrite !nth_error_repeat.
      replace (phi k <? len) with true by (symmetry; apply Nat.ltb_lt; apply Hphir; exact Hk).
      replace (k <? nn) with true by (symmetry; apply Nat.ltb_lt; exact Hk). reflexivity.
    - intros j Hj. rewrite nth_error_repeat.
      replace (j <? len) with true by (symmetry; apply Nat.ltb_lt; apply Hnl; exact Hj). reflexivity.
  Qed.
End Loop.

Section Scatter.
  Context {A : Type} {NA : Num A} {T : Type} {DT : IsNone T A} {DX : IsNoneX T A}.

  (* walk ys: a null gets the null rank, a valid element consumes the next rank of rs *)
  Fixpoint scatter (ys : list T) (rs : list (option A)) : list (option A) :=
    match ys with
    | [] => []
    | y :: r => if is_none y then Some nnan :: scatter r rs else hd (Some nnan) rs :: scatter r (tl rs)
    end.

  Lemma count_valid_cons y (r : list T) :
    count_valid (y :: r) = if is_none y then count_valid r else S (count_valid r).
  Proof. unfold count_valid. cbn [filter]. unfold not_none at 1. destruct (is_none y); reflexivity. Qed.

  Lemma scatter_char : forall ys oY oV,
    length oY = length ys -> length oV = count_valid ys ->
    (forall k j, nth_error (vpos ys) k = Some j -> nth_error oY j = nth_error oV k) ->
    (forall j, In j (npos ys) -> nth_error oY j = Some (Some nnan)) ->
    oY = scatter ys oV.
  Proof.
    induction ys as [|y r IH]; intros oY oV H1 H2 H3 H4.
    - destruct oY; [reflexivity|discriminate].
    - destruct oY as [|o oY]; [discriminate|]. rewrite count_valid_cons in H2.
      cbn [scatter vpos npos] in *. destruct (is_none y) eqn:Hy.
      + f_equal.
        * specialize (H4 0 (or_introl eq_refl)). cbn [nth_error] in H4. congruence.
        * apply IH; [cbn [length] in H1; lia|exact H2| |].
          -- intros k j E. apply (H3 k (S j)). apply map_nth_error. exact E.
          -- intros j Hj. apply (H4 (S j)). right. apply in_map. exact Hj.
      + destruct oV as [|v oV]; [discriminate|]. cbn [hd tl]. f_equal.
        * specialize (H3 0 0 eq_refl). cbn [nth_error] in H3. congruence.
        * apply IH; [cbn [length] in H1; lia|cbn [length] in H2; lia| |].
          -- intros k j E. apply (H3 (S k) (S j)). cbn [nth_error]. apply map_nth_error. exact E.
          -- intros j Hj. apply (H4 (S j)). apply in_map. exact Hj.
  Qed.

  Lemma scatter_all_null ys rs : count_valid ys = 0 -> scatter ys rs = repeat (Some nnan) (length ys).
  Proof.
    induction ys as [|y r IH]; intros H; [reflexivity|]. rewrite count_valid_cons in H. cbn [scatter length repeat].
    destruct (is_none y); [|discriminate]. f_equal. apply IH. exact H.
  Qed.

  Hypothesis Hlaw : ndiv (nofnat (A := A) 1) (nofnat 1) = none.

  (* a series without nulls, at least one element: the early return of length 1 agrees with the loop (the law) *)
  Lemma vrank_all_valid pct rev (V : list T) :
    (forall k v, nth_error V k = Some v -> is_none v = false) -> 1 <= length V ->
    vrank pct rev V
    = rank_finish pct (length V) (isort (cmp_idx (cmp_dir rev) V) (seq 0 (length V))) (length V)
        (rank_loop pct (length V) V (isort (cmp_idx (cmp_dir rev) V) (seq 0 (length V))) (seq 0 (length V - 1))
           {| r_rep := 1; r_cur := 1; r_sum := 0; r_out := repeat None (length V) |}).
  Proof.
    intros HV HL. destruct V as [|v [|v' V']]; [cbn in HL; lia| |].
    - pose proof (HV 0 v eq_refl) as Hv. unfold vrank, get_is_none.
      cbn [length Nat.eqb nth_error seq isort fold_right insert Nat.sub rank_loop rank_finish
           r_rep r_cur r_sum r_out Nat.add fold_left nth uset firstn skipn app repeat].
      rewrite Hv. unfold rk_avg. cbn [Nat.mul Nat.add]. rewrite Hlaw. destruct pct; reflexivity.
    - set (W := v :: v' :: V') in *. unfold vrank. cbv zeta.
      replace (length W =? 0) with false by (symmetry; apply Nat.eqb_neq; lia).
      replace (length W =? 1) with false by (symmetry; apply Nat.eqb_neq; cbn; lia).
      set (pV := isort (cmp_idx (cmp_dir rev) W) (seq 0 (length W))).
      assert (Hh : get_is_none W (nth 0 pV 0) = false).
      { assert (Hin : In (nth 0 pV 0) pV) by (apply nth_In; unfold pV; rewrite isort_length, seq_length; lia).
        apply (Permutation_in _ (isort_perm _ _)) in Hin. apply in_seq in Hin. unfold get_is_none.
        destruct (nth_error W (nth 0 pV 0)) as [u|] eqn:E; [apply (HV _ _ E)|apply nth_error_None in E; lia]. }
      rewrite Hh.
      assert (Hc : count_valid W = length W).
      { unfold count_valid. f_equal. clear -HV. induction W as [|u W IH]; [reflexivity|]. cbn [filter].
        unfold not_none at 1. rewrite (HV 0 u eq_refl). cbn [negb]. f_equal. apply IH.
        intros k x E. apply (HV (S k) x E). }
      rewrite Hc. reflexivity.
  Qed.

  (* the run on ys along its argsort and the run on its valid elements along theirs, started as `vrank` starts them:
     the position embedding vphi and the null positions npos satisfy the hypotheses of Section Loop *)
  Lemma series_final_rel pct rev (ys : list T) :
    let V := filter not_none ys in let nn := count_valid ys in
    let pV := isort (cmp_idx (cmp_dir rev) V) (seq 0 nn) in
    1 <= nn ->
    FinalRel nn (length ys) (vphi ys) (npos ys)
      (rank_finish pct nn (map (vphi ys) pV ++ npos ys) (length ys)
         (rank_loop pct nn ys (map (vphi ys) pV ++ npos ys) (seq 0 (length ys - 1))
            {| r_rep := 1; r_cur := 1; r_sum := 0; r_out := repeat None (length ys) |}))
      (rank_finish pct nn pV nn
         (rank_loop pct nn V pV (seq 0 (nn - 1))
            {| r_rep := 1; r_cur := 1; r_sum := 0; r_out := repeat None nn |})).
  Proof.
    intros V nn pV Hnn. apply loop_rel_start; [| | | | | | | | |exact Hnn].
    - unfold pV. rewrite isort_length. apply seq_length.
    - intros a Ha. apply (Permutation_in _ (isort_perm _ _)) in Ha. apply in_seq in Ha. lia.
    - apply npos_length.
    - intros k Hk. apply vphi_get. exact Hk.
    - reflexivity.
    - apply filter_valid_all_valid.
    - intros k Hk. apply (vpos_In ys). apply vphi_In. exact Hk.
    - intros a b Ha Hb E. apply (vphi_inj ys); assumption.
    - intros j Hj. apply npos_In. exact Hj.
  Qed.

  Theorem vrank_scatter pct rev (ys : list T) :
    vrank pct rev ys = scatter ys (vrank pct rev (filter not_none ys)).
  Proof.
    destruct (le_lt_dec 2 (length ys)) as [HL|HL].
    2:{ destruct ys as [|y0 [|y1 r]]; [reflexivity| |cbn in HL; lia].
        unfold vrank at 1. unfold get_is_none. cbn [length Nat.eqb nth_error filter scatter]. unfold not_none.
        destruct (is_none y0) eqn:Hy; cbn [negb]; [reflexivity|].
        unfold vrank, get_is_none. cbn [length Nat.eqb nth_error hd]. rewrite Hy. reflexivity. }
    set (V := filter not_none ys). set (nn := count_valid ys).
    pose proof (npos_length ys) as Hlen. fold nn in Hlen.
    unfold vrank at 1. cbv zeta.
    replace (length ys =? 0) with false by (symmetry; apply Nat.eqb_neq; lia).
    replace (length ys =? 1) with false by (symmetry; apply Nat.eqb_neq; lia).
    rewrite (argsort_split rev ys). fold V nn.
    set (pV := isort (cmp_idx (cmp_dir rev) V) (seq 0 nn)).
    assert (HpVlen : length pV = nn) by (unfold pV; rewrite isort_length; apply seq_length).
    destruct (Nat.eq_dec nn 0) as [H0|H0].
    - (* no valid element *)
      assert (EV : V = []) by (apply length_zero_iff_nil; exact H0).
      assert (EpV : pV = []) by (apply length_zero_iff_nil; lia).
      rewrite EpV, EV. cbn [map app].
      assert (Hin : In (nth 0 (npos ys) 0) (npos ys)) by (apply nth_In; lia).
      apply npos_In in Hin. rewrite (proj2 Hin). rewrite scatter_all_null by exact H0. reflexivity.
    - assert (Hnn : 1 <= nn) by lia.
      assert (Hh : get_is_none ys (nth 0 (map (vphi ys) pV ++ npos ys) 0) = false).
      { rewrite app_nth1 by (rewrite map_length; lia). rewrite (nth_map_lt (vphi ys) pV 0 0) by lia.
        assert (Hp0 : In (nth 0 pV 0) pV) by (apply nth_In; lia).
        apply (Permutation_in _ (isort_perm _ _)), in_seq in Hp0. apply (vpos_In ys), vphi_In. fold nn. lia. }
      rewrite Hh.
      rewrite (vrank_all_valid pct rev V (filter_valid_all_valid ys)) by (change (length V) with nn; exact Hnn).
      change (length V) with nn. fold pV.
      destruct (series_final_rel pct rev ys Hnn) as (F1 & F2 & F3 & F4).
      apply scatter_char; [exact F1|exact F2| |exact F4].
      intros k j E.
      assert (Hk : k < nn) by (unfold nn; rewrite <- vpos_length; apply nth_error_Some; congruence).
      rewrite (vphi_nth_error ys k Hk) in E. injection E as <-. apply F3. exact Hk.
  Qed.

  Lemma scatter_insert_pat (nl : T) p : is_none nl = true ->
    forall xs rs, scatter (insert_pat nl p xs) rs = insert_pat (Some nnan) p (scatter xs rs).
  Proof.
    intros Hn. induction p as [|b p IH]; intros xs rs; [reflexivity|]. destruct b; cbn [insert_pat].
    - cbn [scatter]. rewrite Hn. f_equal. apply IH.
    - destruct xs as [|x xs]; [apply (IH [] rs)|]. cbn [scatter].
      destruct (is_none x); cbn [insert_pat]; f_equal; apply IH.
  Qed.

  (* Props/C08.v: C08_transparent_rank_generic_full_statement *)
  Theorem vrank_insert_pat_generic pct rev (nl : T) p xs : is_none nl = true ->
    vrank pct rev (insert_pat nl p xs) = insert_pat (Some nnan) p (vrank pct rev xs).
  Proof.
    intros Hn. rewrite (vrank_scatter pct rev (insert_pat nl p xs)), (vrank_scatter pct rev xs).
    rewrite (filter_valid_insert (insert_pat_insert nl p xs Hn)). apply scatter_insert_pat. exact Hn.
  Qed.

  (* the inductive insertion (the inserted nulls may be different null elements of T) *)
  Lemma scatter_null_insert xs ys : NullInsert xs ys ->
    exists p, map (to_opt (H := DT)) ys = insert_pat None p (map (to_opt (H := DT)) xs) /\
              forall rs, scatter ys rs = insert_pat (Some nnan) p (scatter xs rs).
  Proof.
    induction 1 as [|x xs ys _ [p [IH1 IH2]]|v xs ys Hv _ [p [IH1 IH2]]].
    - exists []. split; [reflexivity|intros rs; reflexivity].
    - exists (false :: p). split.
      + cbn [map insert_pat]. rewrite IH1. reflexivity.
      + intros rs. cbn [scatter]. destruct (is_none x); cbn [insert_pat]; rewrite IH2; reflexivity.
    - exists (true :: p). split.
      + cbn [map insert_pat]. rewrite IH1. unfold to_opt at 1. rewrite Hv. reflexivity.
      + intros rs. cbn [scatter insert_pat]. rewrite Hv, IH2. reflexivity.
  Qed.

  Theorem vrank_null_insert_generic pct rev xs ys : NullInsert xs ys ->
    exists p, map (to_opt (H := DT)) ys = insert_pat None p (map (to_opt (H := DT)) xs) /\
              vrank pct rev ys = insert_pat (Some nnan) p (vrank pct rev xs).
  Proof.
    intros H. destruct (scatter_null_insert xs ys H) as (p & H1 & H2). exists p. split; [exact H1|].
    rewrite (vrank_scatter pct rev ys), (vrank_scatter pct rev xs), (filter_valid_insert H). apply H2.
  Qed.

  (* deleting every null: the ranks of a series are the ranks of its valid elements at the valid slots *)
  Corollary vrank_delete_nulls pct rev ys :
    vrank pct rev ys = scatter ys (vrank pct rev (filter not_none ys)) /\
    length (vrank pct rev (filter not_none ys)) = count_valid ys.
  Proof.
    split; [apply vrank_scatter|].
    pose proof (f_equal (@length _) (vrank_scatter pct rev (filter not_none ys))) as E.
    rewrite filter_valid_idem in E.
    assert (HS : forall (l : list T) rs, (forall v, In v l -> is_none v = false) -> length (scatter l rs) = length l).
    { induction l as [|v l IH]; intros rs Hl; [reflexivity|]. cbn [scatter]. rewrite (Hl v (or_introl eq_refl)).
      cbn [length]. f_equal. apply IH. intros u Hu. apply Hl. right. exact Hu. }
    rewrite HS in E; [exact E|].
    intros v Hv. apply filter_In in Hv. destruct Hv as [_ Hv]. unfold not_none in Hv. destruct (is_none v); [discriminate|reflexivity].
  Qed.
End Scatter.

(* the law `1 as f64 / 1 as f64 = 1.0` at the carriers in use, and a carrier where it fails *)
From Coq Require Floats.
From Coq Require Import Reals Lra.
From Tevec Require Base.XR Base.F64 Model.Cmp.

Definition RankUnitLaw (A : Type) {NA : Num A} : Prop := ndiv (nofnat (A := A) 1) (nofnat 1) = none.

Lemma rank_unit_law_Z : RankUnitLaw Z (NA := Cmp.NumZ).
Proof. reflexivity. Qed.
Lemma rank_unit_law_f64 : RankUnitLaw PrimFloat.float (NA := F64.NumF64).
Proof. vm_compute. reflexivity. Qed.
Lemma rank_unit_law_xr : RankUnitLaw XR.XR (NA := XR.NumXR).
Proof.
  unfold RankUnitLaw. rewrite XR.xofnat. cbn [INR]. rewrite XR.xdiv_some by lra.
  change (@none XR.XR XR.NumXR) with (Some 1%R). f_equal. field.
Qed.

(* the integers with a division that returns 0: every other field as NumZ.  The law fails, and so does the
   transparency: the lone valid element gets `1.0` from the early return and `1 / 1 = 0` from the loop. *)
Definition NumZ_baddiv : Num Z :=
  {| nzero := 0%Z; none := 1%Z; nadd := Z.add; nsub := Z.sub; nmul := Z.mul; ndiv := fun _ _ => 0%Z;
     nneg := Z.opp; nabs := Z.abs; nsqrt := Z.sqrt; nofZ := fun z => z;
     nltb := Z.ltb; nleb := Z.leb; neqb := Z.eqb; nisnan := fun _ => false; nnan := 0%Z; neps := 0%Z; ntwo := 2%Z |}.

Lemma rank_unit_law_necessary :
  ~ RankUnitLaw Z (NA := NumZ_baddiv) /\
  vrank (NA := NumZ_baddiv) (DT := IsNone_option (H := NumZ_baddiv)) (DX := IsNoneX_option (H := NumZ_baddiv))
        false false (insert_pat None [true] [Some 5%Z])
  <> insert_pat (Some (nnan (Num := NumZ_baddiv))) [true]
       (vrank (NA := NumZ_baddiv) (DT := IsNone_option (H := NumZ_baddiv)) (DX := IsNoneX_option (H := NumZ_baddiv))
              false false [Some 5%Z]).
Proof. split; [intros H; vm_compute in H; discriminate H|vm_compute; intros H; discriminate H]. Qed.

From Tevec Require Proofs.EncRank.

Theorem vrank_insert_across_encodings {A : Type} {NA : Num A} {T1 T2 : Type} (D1 : IsNone T1 A) (D2 : IsNone T2 A)
        (X1 : IsNoneX T1 A) (X2 : IsNoneX T2 A) (pct rev : bool) (xs : list T1) (xs' ys : list T2) :
  RankUnitLaw A -> EncRank.EqbView D1 D2 X1 X2 -> SameView D1 D2 xs xs' -> NullInsert (D := D2) xs' ys ->
  exists p, opt_view (D := D2) ys = insert_pat None p (opt_view (D := D1) xs) /\
            vrank (DT := D2) (DX := X2) pct rev ys
            = insert_pat (Some nnan) p (vrank (DT := D1) (DX := X1) pct rev xs).
Proof.
  intros HL HE HS HI.
  destruct (vrank_null_insert_generic (DX := X2) HL pct rev xs' ys HI) as (p & H1 & H2).
  exists p. split.
  - unfold opt_view. rewrite H1. f_equal. symmetry. apply (proj1 (same_view_opt_view D1 D2 xs xs') HS).
  - rewrite H2. f_equal. symmetry. apply EncRank.vrank_view; assumption.
Qed.
