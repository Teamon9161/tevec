(* Proofs/Fdiff.v — plain ts_fdiff at XR: output i = sum_k (-1)^k C(d,k) x_{i-k} over the window. *)
From Coq Require Import Reals Lra Lia List.
From Tevec Require Import Base.Prelude Base.Num Base.XR Spec.Stats Model.Driver Proofs.Driver
     Model.Features Model.Fdiff Proofs.Outcome.
Import ListNotations.
Local Open Scope R_scope.

(* generalised binomial coefficient over R: prod_{i=j}^{j+k-1} (d-i)/(i+1) *)
Fixpoint binomR_from (d : R) (j k : nat) : R :=
  match k with O => 1 | S k' => ((d - INR j) / INR (S j)) * binomR_from d (S j) k' end.
Definition binomR (d : R) (k : nat) : R := binomR_from d 0 k.

(* weight of the k-th most recent element *)
Definition fdiff_weight (d : R) (k : nat) : R := binomR d k * (-1) ^ k.
(* the from-scratch fractional difference of a window (oldest element first) *)
Definition fdiffR (d : R) (l : list R) : R :=
  sumR (map (fun p => fst p * fdiff_weight d (snd p)) (combine l (rev (seq 0 (length l))))).

Lemma binom_from_some d j k : binom_from (Some d) j k = Some (binomR_from d j k).
Proof.
  revert j; induction k as [|k IH]; intros j; cbn [binom_from binomR_from]; [reflexivity|].
  rewrite IH, !xofnat, xsub_some. rewrite xdiv_some by (apply not_0_INR; lia).
  rewrite xmul_some. reflexivity.
Qed.

Lemma sign_pow w : (if Nat.even w then 1 else -1) = (-1) ^ w.
Proof.
  destruct (Nat.even w) eqn:E.
  - apply Nat.even_spec in E. destruct E as [m ->]. rewrite pow_1_even. reflexivity.
  - assert (Ho : Nat.odd w = true) by (rewrite <- Nat.negb_even, E; reflexivity).
    apply Nat.odd_spec in Ho. destruct Ho as [m ->].
    replace (2 * m + 1)%nat with (S (2 * m)) by lia. rewrite pow_1_odd. reflexivity.
Qed.

Lemma rev_seq_S w : rev (seq 0 (S w)) = w :: rev (seq 0 w).
Proof. rewrite seq_S, rev_app_distr. reflexivity. Qed.

Lemma coef_go_spec d w :
  coef_go (Some d) (Some ((-1) ^ w)) (rev (seq 0 w))
  = map (fun v => Some (fdiff_weight d v)) (rev (seq 0 w)).
Proof.
  induction w as [|w IH]; [reflexivity|].
  rewrite rev_seq_S. cbn [coef_go map]. unfold binom. rewrite binom_from_some.
  cbn [nneg NumXR xlift1]. rewrite xmul_some.
  replace (- (-1) ^ S w) with ((-1) ^ w) by (cbn [pow]; ring).
  rewrite IH. reflexivity.
Qed.

Lemma fdiff_coef_spec d w :
  fdiff_coef (Some d) w = map (fun v => Some (fdiff_weight d v)) (rev (seq 0 w)).
Proof.
  unfold fdiff_coef.
  replace (if Nat.even w then none else nneg none) with (Some ((-1) ^ w)).
  - apply coef_go_spec.
  - rewrite <- sign_pow. destruct (Nat.even w); cbn; f_equal; ring.
Qed.

Lemma skipn_rev_seq {Y} (f : nat -> Y) w m :
  (m <= w)%nat -> skipn (w - m) (map f (rev (seq 0 w))) = map f (rev (seq 0 m)).
Proof.
  intros Hm. replace w with (m + (w - m))%nat at 2 by lia.
  rewrite seq_app, rev_app_distr, map_app, skipn_app.
  rewrite map_length, rev_length, seq_length, Nat.sub_diag. cbn [skipn].
  rewrite skipn_all2 by (rewrite map_length, rev_length, seq_length; lia). reflexivity.
Qed.

Lemma dot_some (g : nat -> R) (l : list R) : forall (ks : list nat) (a : R),
  fold_left (fun acc (vc : XR * XR) => nadd acc (nmul (fst vc) (snd vc)))
            (combine (map Some l) (map (fun v => Some (g v)) ks)) (Some a)
  = Some (a + sumR (map (fun p => fst p * g (snd p)) (combine l ks))).
Proof.
  induction l as [|x l IH]; intros ks a; [cbn; f_equal; ring|].
  destruct ks as [|k ks]; [cbn; f_equal; ring|].
  cbn [map combine fold_left fst snd]. rewrite xmul_some, xadd_some, IH.
  cbn [sumR fold_right map fst snd]. f_equal.
  fold (sumR (map (fun p : R * nat => fst p * g (snd p)) (combine l ks))). ring.
Qed.

Lemma ts_fdiff_cb_spec d w (l : list R) :
  (length l <= w)%nat ->
  snd (ts_fdiff_cb (Some d) w (fun x : XR => x) tt (map Some l)) = Some (fdiffR d l).
Proof.
  intros Hl. unfold ts_fdiff_cb. cbn [snd]. rewrite map_length, fdiff_coef_spec.
  rewrite skipn_rev_seq by exact Hl. unfold dot. change nzero with (Some 0).
  rewrite (dot_some (fdiff_weight d) l (rev (seq 0 (length l))) 0). unfold fdiffR. f_equal. ring.
Qed.

Lemma run_stateless {X O} (f : unit -> X -> unit * O) (args : list X) :
  run f tt args = map (fun a => snd (f tt a)) args.
Proof.
  induction args as [|a r IH]; [reflexivity|]. cbn [run map].
  destruct (f tt a) as [u o] eqn:E. destruct u. cbn [snd]. f_equal. exact IH.
Qed.

(* both bodies of rolling_custom with a callback that keeps no state *)
Lemma rolling_custom_stateless {T O} (f : unit -> list T -> unit * O) (body : bool) (w : nat) (xs : list T) :
  (1 <= w)%nat ->
  (if body then rolling_custom_to w f tt xs else rolling_custom_default w f tt xs)
  = Done (map (fun i => snd (f tt (win w i xs))) (seq 0 (length xs))).
Proof.
  intros Hw. destruct body;
    [rewrite rolling_custom_to_eq by exact Hw|rewrite rolling_custom_default_eq by exact Hw];
    rewrite run_stateless; unfold windows; rewrite map_map; reflexivity.
Qed.

Theorem ts_fdiff_run body d (w : nat) (rs : list R) :
  (1 <= w)%nat ->
  ts_fdiff body (Some d) w (fun x : XR => x) (map Some rs)
  = Done (map (fun i => Some (fdiffR d (win w i rs))) (seq 0 (length rs))).
Proof.
  intros Hw. unfold ts_fdiff. rewrite rolling_custom_stateless, map_length by exact Hw. f_equal.
  apply map_ext. intros i. rewrite win_map. apply ts_fdiff_cb_spec, win_length_le, Hw.
Qed.

Theorem ts_fdiff_spec body d (w : nat) (rs : list R) :
  (1 <= w)%nat ->
  exists out, ts_fdiff body (Some d) w (fun x : XR => x) (map Some rs) = Done out /\
    length out = length rs /\
    forall i, (i < length rs)%nat -> nth_error out i = Some (Some (fdiffR d (win w i rs))).
Proof. intros Hw. apply done_map_iff, ts_fdiff_run, Hw. Qed.
