(* Proofs/Create.v — lemmas about Model/Create.v: the Linspace iterator, trusted collection,
   range / linspace at Z. *)
From Tevec Require Import Base.Prelude Model.Driver Proofs.Driver Model.Create.
Set Implicit Arguments.

(* ------------------------------------------------------------------------------------------ *)
(* trusted collection: slots 0..hint-1 each written exactly once, in order                     *)

(* the raw write loop is the driver's store loop over a callback that hands each item through *)
Lemma fill_from_exec {A} (items : list A) : forall k buf,
  fill_from k items buf = exec (fun (s : unit) x => (s, x)) tt (combine (seq k (length items)) items) buf.
Proof. induction items as [|x r IH]; intros k buf; [reflexivity|]. cbn. apply IH. Qed.

Lemma run_hand_through {A} (items : list A) : run (fun (s : unit) x => (s, x)) tt items = items.
Proof. induction items as [|x r IH]; [reflexivity|]. cbn. f_equal. exact IH. Qed.

Lemma fill_from_prefix {A} (items : list A) (pre old : list (option A)) :
  length items <= length old ->
  fill_from (length pre) items (pre ++ old) = pre ++ map Some items ++ skipn (length items) old.
Proof. intros H. rewrite fill_from_exec, exec_prefix by exact H. rewrite run_hand_through. reflexivity. Qed.

Lemma fill_from_app {A} (items : list A) (pre : list (option A)) (n : nat) :
  fill_from (length pre) items (pre ++ repeat None (length items + n))
  = pre ++ map Some items ++ repeat None n.
Proof.
  rewrite fill_from_prefix by (rewrite repeat_length; lia).
  rewrite repeat_app, skipn_app, repeat_length, Nat.sub_diag, skipn_all2 by (rewrite repeat_length; lia).
  reflexivity.
Qed.

Lemma assume_init_app_None {A} (l : list A) (rest : list (option A)) :
  assume_init (map Some l ++ None :: rest) = None.
Proof. induction l as [|a l IH]; [reflexivity|]. cbn. rewrite IH. reflexivity. Qed.

(* a fresh buffer of length |xs| + n after the stores: complete iff n = 0 *)
Lemma fill_finish {A} (xs : list A) (n : nat) :
  finish (fill_from 0 xs (repeat None (length xs + n)))
  = match n with 0 => Done xs | S _ => Uninit (map Some xs ++ repeat None n) end.
Proof.
  pose proof (fill_from_app xs [] n) as H. cbn [app length] in H. rewrite H.
  unfold finish. destruct n as [|n]; cbn [repeat].
  - rewrite app_nil_r, assume_init_map_Some. reflexivity.
  - rewrite assume_init_app_None. reflexivity.
Qed.

(* the raw collector against every announcement: too short panics, too long exposes the unwritten tail *)
Lemma collect_trusted_spec {A} hint (items : list A) :
  collect_trusted hint items
  = if hint <? length items then Panicked OtherPanic
    else if length items <? hint then Uninit (map Some items ++ repeat None (hint - length items))
    else Done items.
Proof.
  unfold collect_trusted. destruct (hint <? length items) eqn:E; [reflexivity|]. apply Nat.ltb_ge in E.
  remember (hint - length items) as n eqn:Hn. assert (Hh : hint = length items + n) by lia. clear Hn E. subst hint.
  rewrite fill_finish. destruct n as [|n].
  - rewrite Nat.add_0_r, Nat.ltb_irrefl. reflexivity.
  - replace (length items <? length items + S n) with true by (symmetry; apply Nat.ltb_lt; lia). reflexivity.
Qed.

(* right hint: the items, in order *)
Lemma collect_trusted_exact {A} (items : list A) :
  collect_trusted (length items) items = Done items.
Proof. rewrite collect_trusted_spec, Nat.ltb_irrefl. reflexivity. Qed.

(* whatever the hint: a completed collection never reorders, drops or invents an item *)
Lemma collect_trusted_done {A} hint (items out : list A) :
  collect_trusted hint items = Done out -> out = items /\ hint = length items.
Proof.
  rewrite collect_trusted_spec. destruct (hint <? length items) eqn:E1; [discriminate|].
  destruct (length items <? hint) eqn:E2; [discriminate|]. apply Nat.ltb_ge in E1, E2.
  intros [= <-]. split; [reflexivity | lia].
Qed.

(* hint too large: the tail of the buffer is exposed uninitialised (never Done) *)
Lemma collect_trusted_long_hint {A} hint (items : list A) :
  length items < hint ->
  collect_trusted hint items = Uninit (map Some items ++ repeat None (hint - length items)).
Proof.
  intros Hlt. rewrite collect_trusted_spec.
  replace (hint <? length items) with false by (symmetry; apply Nat.ltb_ge; lia).
  replace (length items <? hint) with true by (symmetry; apply Nat.ltb_lt; lia). reflexivity.
Qed.

(* ------------------------------------------------------------------------------------------ *)
(* the Linspace iterator, for any Number dictionary                                            *)
Section Linspace.
  Context {A : Type} (N : num_ops A).

  Definition elem_at (a st : A) (k : nat) : A := n_add N a (n_mul N st (n_of_usize N k)).

  (* abstraction: the items a Linspace still has to yield, front to back *)
  Definition ls_to_list (s : linspace A) : list A :=
    map (elem_at (ls_start s) (ls_step s)) (seq (ls_index s) (ls_len s - ls_index s)).

  Lemma ls_next_spec (s : linspace A) :
    match ls_to_list s with
    | [] => ls_next N s = (None, s)
    | x :: r => exists s', ls_next N s = (Some x, s') /\ ls_to_list s' = r
    end.
  Proof.
    unfold ls_to_list, ls_next. destruct s as [a st i n]. cbn [ls_start ls_step ls_index ls_len].
    destruct (n <=? i) eqn:E.
    - apply Nat.leb_le in E. replace (n - i) with 0 by lia. reflexivity.
    - apply Nat.leb_gt in E. replace (n - i) with (S (n - S i)) by lia.
      cbn [seq map]. eexists. split; [reflexivity|]. reflexivity.
  Qed.

  Lemma ls_next_back_spec (s : linspace A) :
    ls_to_list s = [] /\ ls_next_back N s = (None, s)
    \/ exists r x s', ls_to_list s = r ++ [x] /\ ls_next_back N s = (Some x, s') /\ ls_to_list s' = r.
  Proof.
    unfold ls_to_list, ls_next_back. destruct s as [a st i n]. cbn [ls_start ls_step ls_index ls_len].
    destruct (n <=? i) eqn:E.
    - apply Nat.leb_le in E. left. replace (n - i) with 0 by lia. split; reflexivity.
    - apply Nat.leb_gt in E. right.
      exists (map (elem_at a st) (seq i (n - 1 - i))), (elem_at a st (n - 1)). eexists.
      split; [|split; [reflexivity|reflexivity]].
      replace (n - i) with (S (n - 1 - i)) by lia. rewrite seq_S, map_app. cbn [map].
      replace (i + (n - 1 - i)) with (n - 1) by lia. reflexivity.
  Qed.

  Lemma ls_size_hint_spec (s : linspace A) :
    ls_index s <= ls_len s -> ls_size_hint s = Ok (length (ls_to_list s)).
  Proof.
    intros H. unfold ls_size_hint, usub, ls_to_list. rewrite map_length, seq_length.
    replace (ls_index s <=? ls_len s) with true by (symmetry; apply Nat.leb_le; exact H). reflexivity.
  Qed.

  (* the invariant index <= len is kept by both ends *)
  Lemma ls_next_inv s : ls_index s <= ls_len s -> ls_index (snd (ls_next N s)) <= ls_len (snd (ls_next N s)).
  Proof.
    unfold ls_next. destruct (ls_len s <=? ls_index s) eqn:E; cbn; [auto|]. apply Nat.leb_gt in E. lia.
  Qed.
  Lemma ls_next_back_inv s :
    ls_index s <= ls_len s -> ls_index (snd (ls_next_back N s)) <= ls_len (snd (ls_next_back N s)).
  Proof.
    unfold ls_next_back. destruct (ls_len s <=? ls_index s) eqn:E; cbn; [auto|]. apply Nat.leb_gt in E. lia.
  Qed.

  (* a double-ended consumption script against the abstract deque *)
  Fixpoint deque_script {X} (sc : list bool) (l : list X) : list (option X * nat) :=
    match sc with
    | [] => []
    | true :: r => match l with
                   | [] => (None, 0) :: deque_script r []
                   | x :: t => (Some x, length t) :: deque_script r t
                   end
    | false :: r => match rev l with
                    | [] => (None, 0) :: deque_script r []
                    | x :: t => (Some x, length t) :: deque_script r (rev t)
                    end
    end.

  Lemma ls_script_spec (sc : list bool) : forall s,
    ls_index s <= ls_len s ->
    ls_script N sc s = map (fun p => (fst p, Ok (snd p))) (deque_script sc (ls_to_list s)).
  Proof.
    induction sc as [|d sc IH]; intros s Hinv; [reflexivity|].
    cbn [ls_script]. destruct d.
    - pose proof (ls_next_spec s) as Hn. pose proof (ls_next_inv s Hinv) as Hi.
      cbn [deque_script]. destruct (ls_to_list s) as [|x r] eqn:El.
      + rewrite Hn in *. cbn [snd] in Hi. cbn [map fst snd]. rewrite IH by exact Hi.
        rewrite ls_size_hint_spec by exact Hinv. rewrite El. reflexivity.
      + destruct Hn as (s' & Hn & Hl). rewrite Hn in *. cbn [snd] in Hi. cbn [map fst snd].
        rewrite IH by exact Hi. rewrite ls_size_hint_spec by exact Hi. rewrite Hl. reflexivity.
    - pose proof (ls_next_back_inv s Hinv) as Hi. cbn [deque_script].
      destruct (ls_next_back_spec s) as [[El Hn]|(r & x & s' & El & Hn & Hl)].
      + rewrite Hn in *. cbn [snd] in Hi. rewrite El. cbn [rev map fst snd].
        rewrite IH by exact Hi. rewrite ls_size_hint_spec by exact Hinv. rewrite El. reflexivity.
      + rewrite Hn in *. cbn [snd] in Hi. rewrite El, rev_app_distr. cbn [rev app map fst snd].
        rewrite rev_involutive, rev_length.
        rewrite IH by exact Hi. rewrite ls_size_hint_spec by exact Hi. rewrite Hl. reflexivity.
  Qed.

  (* `for v in iter`: with enough fuel the loop yields exactly to_list and ends exhausted *)
  Lemma ls_drain_spec (fuel : nat) : forall s,
    ls_len s - ls_index s <= fuel ->
    fst (ls_drain N fuel s) = ls_to_list s /\ fst (ls_next N (snd (ls_drain N fuel s))) = None.
  Proof.
    induction fuel as [|f IH]; intros s Hf.
    - cbn [ls_drain fst snd]. unfold ls_to_list, ls_next. replace (ls_len s - ls_index s) with 0 by lia.
      replace (ls_len s <=? ls_index s) with true by (symmetry; apply Nat.leb_le; lia). split; reflexivity.
    - cbn [ls_drain]. pose proof (ls_next_spec s) as Hn.
      destruct (ls_to_list s) as [|x r] eqn:El.
      + rewrite Hn. cbn [fst snd]. split; [reflexivity|]. rewrite Hn. reflexivity.
      + destruct Hn as (s' & Hn & Hl). rewrite Hn.
        assert (Hf' : ls_len s' - ls_index s' <= f).
        { revert Hn. unfold ls_next. destruct (ls_len s <=? ls_index s) eqn:E; [discriminate|].
          intros [= _ <-]. cbn. apply Nat.leb_gt in E. lia. }
        destruct (IH s' Hf') as [H1 H2]. destruct (ls_drain N f s') as [l s'']. cbn [fst snd] in *.
        rewrite H1, Hl. split; [reflexivity|exact H2].
  Qed.

  (* a fresh Linspace of length n collected by any backend: the n elements, in order *)
  Lemma collect_ls_fresh (trusted : bool) (a st : A) (n : nat) :
    collect_ls N trusted (LS a st 0 n) = Done (map (elem_at a st) (seq 0 n)).
  Proof.
    unfold collect_ls. unfold ls_size_hint, usub. cbn [ls_len ls_index Nat.leb]. rewrite Nat.sub_0_r.
    destruct (ls_drain_spec (fuel := n) (LS a st 0 n)) as [H _]; [cbn; lia|].
    cbn [ls_len] . rewrite H. unfold ls_to_list. cbn [ls_start ls_step ls_index ls_len].
    rewrite !Nat.sub_0_r. destruct trusted; [|reflexivity].
    set (l := map _ _). replace n with (length l) at 1 by (unfold l; rewrite map_length, seq_length; reflexivity).
    apply collect_trusted_exact.
  Qed.

  (* Vec1Create::range / linspace once the result of the constructor is known *)
  Lemma create_range_of (trusted : bool) (start : option A) (e : A) (step : option A) a st n :
    range_new N (match start with Some v => v | None => n_zero N end) e
                (match step with Some v => v | None => n_one N end) = Ok (LS a st 0 n) ->
    create_range N trusted start e step = Done (map (elem_at a st) (seq 0 n)).
  Proof. intros H. unfold create_range. cbv zeta. rewrite H. apply collect_ls_fresh. Qed.

  Lemma create_linspace_of (trusted : bool) (start : option A) (e : A) (m : nat) a st n :
    linspace_new N (match start with Some v => v | None => n_zero N end) e m = Ok (LS a st 0 n) ->
    create_linspace N trusted start e m = Done (map (elem_at a st) (seq 0 n)).
  Proof. intros H. unfold create_linspace. cbv zeta. rewrite H. apply collect_ls_fresh. Qed.
End Linspace.

(* ------------------------------------------------------------------------------------------ *)
(* range at Z                                                                                  *)
Local Open Scope Z_scope.

(* x lies strictly before b in the direction of step *)
Definition before (step x b : Z) : Prop := if 0 <? step then x < b else b < x.

(* the arithmetic progression a, a+step, ... (n terms) *)
Definition progression (a step : Z) (n : nat) : list Z :=
  map (fun k => a + step * Z.of_nat k) (seq 0 n).

Lemma elem_at_Z sg a st k : elem_at (z_ops sg) a st k = a + st * Z.of_nat k.
Proof. reflexivity. Qed.

Lemma progression_elem_at sg a st n : map (elem_at (z_ops sg) a st) (seq 0 n) = progression a st n.
Proof. reflexivity. Qed.

(* counting lemma for positive span and step: the truncated quotient, plus one when a remainder is left *)
Lemma count_pos (span step : Z) (k : nat) :
  0 < span -> 0 < step ->
  let q := Z.quot span step in
  let rest := span - q * step in
  (Z.of_nat k < (if andb (negb (rest =? 0)) (Bool.eqb (0 <? rest) (0 <? step)) then q + 1 else q)
   <-> step * Z.of_nat k < span).
Proof.
  intros Hs Hst q rest. subst q rest.
  rewrite Z.quot_div_nonneg by lia.
  pose proof (Z.div_mod span step ltac:(lia)) as Hdm.
  pose proof (Z.mod_pos_bound span step Hst) as Hb.
  set (q := span / step) in *. set (r := span mod step) in *.
  replace (span - q * step) with r by lia.
  replace (0 <? step) with true by (symmetry; apply Z.ltb_lt; lia).
  destruct (r =? 0) eqn:Er; cbn [negb andb].
  - apply Z.eqb_eq in Er. split; intros H; nia.
  - apply Z.eqb_neq in Er. replace (0 <? r) with true by (symmetry; apply Z.ltb_lt; lia).
    cbn [Bool.eqb]. split; intros H; nia.
Qed.

Lemma count_neg (span step : Z) (k : nat) :
  span < 0 -> step < 0 ->
  let q := Z.quot span step in
  let rest := span - q * step in
  (Z.of_nat k < (if andb (negb (rest =? 0)) (Bool.eqb (0 <? rest) (0 <? step)) then q + 1 else q)
   <-> span < step * Z.of_nat k).
Proof.
  intros Hs Hst q rest. subst q rest.
  pose proof (@count_pos (- span) (- step) k ltac:(lia) ltac:(lia)) as H. cbv zeta in H.
  rewrite Z.quot_opp_opp in H by lia.
  set (q := Z.quot span step) in *.
  replace (- span - q * - step) with (- (span - q * step)) in H by ring.
  set (rest := span - q * step) in *.
  assert (Hr : rest <= 0).
  { subst rest q. pose proof (Z.quot_rem' span step) as Hqr.
    pose proof (Z.rem_nonpos span step ltac:(lia) ltac:(lia)). lia. }
  replace (0 <? step) with false by (symmetry; apply Z.ltb_ge; lia).
  replace (0 <? - step) with true in H by (symmetry; apply Z.ltb_lt; lia).
  replace (0 <? rest) with false by (symmetry; apply Z.ltb_ge; lia).
  replace (- rest =? 0) with (rest =? 0) in H by (destruct (Z.eqb_spec rest 0), (Z.eqb_spec (- rest) 0); lia).
  destruct (rest =? 0) eqn:Er; cbn [negb andb Bool.eqb] in *.
  - rewrite H. lia.
  - apply Z.eqb_neq in Er. replace (0 <? - rest) with true in H by (symmetry; apply Z.ltb_lt; lia).
    cbn [Bool.eqb] in H. rewrite H. lia.
Qed.

(* signed integer range: the count `range_new` produces is characterised exactly *)
Lemma range_new_Z_signed (a b step : Z) :
  step <> 0 ->
  exists n : nat,
    range_new (z_ops true) a b step = Ok (LS a step 0%nat n) /\
    forall k : nat, (k < n)%nat <-> before step (a + step * Z.of_nat k) b.
Proof.
  intros Hstep. unfold range_new, gtb, geb, before.
  cbn [z_ops n_zero n_one n_ltb n_leb n_eqb n_sub n_div n_mul n_add n_ceil n_to_usize bind].
  destruct (0 <? step) eqn:Epos.
  - apply Z.ltb_lt in Epos. destruct (b <=? a) eqn:Eba.
    + apply Z.leb_le in Eba. exists 0%nat. split; [reflexivity|]. intros k. split; [lia|]. nia.
    + apply Z.leb_gt in Eba.
      replace (step =? 0) with false by (symmetry; apply Z.eqb_neq; lia). cbn [bind].
      set (q := Z.quot (b - a) step). set (rest := b - a - q * step).
      set (steps := if (negb (rest =? 0) && Bool.eqb (0 <? rest) true)%bool then q + 1 else q).
      assert (Hq : 0 <= q) by (subst q; apply Z.quot_pos; lia).
      assert (Hs : 0 <= steps) by (subst steps; destruct (andb _ _); lia).
      replace (steps <? 0) with false by (symmetry; apply Z.ltb_ge; lia). cbn [bind].
      exists (Z.to_nat steps). split; [reflexivity|]. intros k.
      pose proof (@count_pos (b - a) step k ltac:(lia) Epos) as H. cbv zeta in H.
      fold q in H. fold rest in H. replace (0 <? step) with true in H by (symmetry; apply Z.ltb_lt; lia).
      fold steps in H. split; intros Hk.
      * assert (Z.of_nat k < steps) by lia. apply H in H0. lia.
      * assert (step * Z.of_nat k < b - a) by lia. apply H in H0. lia.
  - apply Z.ltb_ge in Epos. assert (Hneg : step < 0) by lia. destruct (a <=? b) eqn:Eab.
    + apply Z.leb_le in Eab. exists 0%nat. split; [reflexivity|]. intros k. split; [lia|]. nia.
    + apply Z.leb_gt in Eab.
      replace (step =? 0) with false by (symmetry; apply Z.eqb_neq; lia). cbn [bind].
      set (q := Z.quot (b - a) step). set (rest := b - a - q * step).
      set (steps := if (negb (rest =? 0) && Bool.eqb (0 <? rest) false)%bool then q + 1 else q).
      assert (Hq : 0 <= q).
      { subst q. rewrite <- Z.quot_opp_opp by lia. apply Z.quot_pos; lia. }
      assert (Hs : 0 <= steps) by (subst steps; destruct (andb _ _); lia).
      replace (steps <? 0) with false by (symmetry; apply Z.ltb_ge; lia). cbn [bind].
      exists (Z.to_nat steps). split; [reflexivity|]. intros k.
      pose proof (@count_neg (b - a) step k ltac:(lia) Hneg) as H. cbv zeta in H.
      fold q in H. fold rest in H. replace (0 <? step) with false in H by (symmetry; apply Z.ltb_ge; lia).
      fold steps in H. split; intros Hk.
      * assert (Z.of_nat k < steps) by lia. apply H in H0. lia.
      * assert (b - a < step * Z.of_nat k) by lia. apply H in H0. lia.
Qed.

(* unsigned types: same statement for non-negative arguments and a positive step; in particular
   the unsigned subtractions of `range_new` never underflow *)
Lemma range_new_Z_unsigned (a b step : Z) :
  0 <= a -> 0 <= b -> 0 < step ->
  exists n : nat,
    range_new (z_ops false) a b step = Ok (LS a step 0%nat n) /\
    forall k : nat, (k < n)%nat <-> a + step * Z.of_nat k < b.
Proof.
  intros Ha Hb Hstep.
  destruct (@range_new_Z_signed a b step ltac:(lia)) as (n & Hr & Hk).
  exists n. split.
  - rewrite <- Hr. unfold range_new, gtb, geb.
    cbn [z_ops n_zero n_one n_ltb n_leb n_eqb n_sub n_div n_mul n_add n_ceil n_to_usize bind].
    replace (0 <? step) with true by (symmetry; apply Z.ltb_lt; lia).
    destruct (b <=? a) eqn:Eba; [reflexivity|]. apply Z.leb_gt in Eba.
    replace (b <? a) with false by (symmetry; apply Z.ltb_ge; lia). cbn [bind].
    replace (step =? 0) with false by (symmetry; apply Z.eqb_neq; lia). cbn [bind].
    set (q := Z.quot (b - a) step).
    assert (Hq : q * step <= b - a).
    { subst q. rewrite Z.quot_div_nonneg by lia. pose proof (Z.mul_div_le (b - a) step Hstep). lia. }
    replace (b - a <? q * step) with false by (symmetry; apply Z.ltb_ge; lia). reflexivity.
  - intros k. rewrite Hk. unfold before. replace (0 <? step) with true by (symmetry; apply Z.ltb_lt; lia).
    reflexivity.
Qed.

(* `range_old` (create.rs before its `fix:` commit, Model/Create.v) loses the last element / panics: witnesses *)
Lemma range_old_loses_last :
  create_range_old (z_ops true) (Some 0) 5 (Some 2) = Done [0; 2]
  /\ create_range_old (z_ops true) (Some 5) 0 (Some (-2)) = Done [5; 3]
  /\ create_range_old (z_ops true) (Some 3) 0 (Some 1) = Panicked Overflow.
Proof. vm_compute. auto. Qed.

(* ------------------------------------------------------------------------------------------ *)
(* linspace at Z *)
Lemma linspace_new_Z_signed (a b : Z) (n : nat) :
  linspace_new (z_ops true) a b n
  = Ok (LS a (if (1 <? n)%nat then Z.quot (b - a) (Z.of_nat (n - 1)) else 0) 0%nat n).
Proof.
  unfold linspace_new. cbn [z_ops n_zero n_sub n_div n_of_usize bind].
  destruct (1 <? n)%nat eqn:E; [|reflexivity]. apply Nat.ltb_lt in E.
  replace (Z.of_nat (n - 1) =? 0) with false by (symmetry; apply Z.eqb_neq; lia). reflexivity.
Qed.

Lemma linspace_new_Z_unsigned (a b : Z) (n : nat) :
  a <= b ->
  linspace_new (z_ops false) a b n = linspace_new (z_ops true) a b n.
Proof.
  intros Hab. unfold linspace_new. cbn [z_ops n_zero n_sub n_div n_of_usize bind].
  replace (b <? a) with false by (symmetry; apply Z.ltb_ge; lia). reflexivity.
Qed.

(* ------------------------------------------------------------------------------------------ *)
(* Vec1Create::range / linspace at Z, through the collector of any backend                     *)
Definition dflt (d : Z) (o : option Z) : Z := match o with Some v => v | None => d end.

Lemma create_range_Z_signed (trusted : bool) (start : option Z) (e : Z) (step : option Z) :
  let a := dflt 0 start in
  let st := dflt 1 step in
  st <> 0 ->
  exists n : nat,
    create_range (z_ops true) trusted start e step = Done (progression a st n) /\
    forall k : nat, (k < n)%nat <-> before st (a + st * Z.of_nat k) e.
Proof.
  cbv zeta. intros Hst.
  destruct (@range_new_Z_signed (dflt 0 start) e (dflt 1 step) Hst) as (n & Hr & Hk).
  exists n. split; [|exact Hk]. exact (create_range_of (z_ops true) trusted start e step Hr).
Qed.

(* membership form: exactly the terms of the progression that lie strictly before the end *)
Lemma progression_In (a st : Z) (n : nat) (x : Z) :
  In x (progression a st n) <-> exists k : nat, (k < n)%nat /\ x = a + st * Z.of_nat k.
Proof.
  unfold progression. rewrite in_map_iff. split.
  - intros (k & <- & Hin). apply in_seq in Hin. exists k. split; [lia|reflexivity].
  - intros (k & Hk & ->). exists k. split; [reflexivity|]. apply in_seq. lia.
Qed.

Lemma progression_length a st n : length (progression a st n) = n.
Proof. unfold progression. rewrite map_length, seq_length. reflexivity. Qed.

Lemma progression_nth a st n k :
  (k < n)%nat -> nth_error (progression a st n) k = Some (a + st * Z.of_nat k).
Proof.
  intros Hk. unfold progression. rewrite nth_error_map, nth_error_seq.
  replace (k <? n)%nat with true by (symmetry; apply Nat.ltb_lt; exact Hk). reflexivity.
Qed.

Definition lin_step (a b : Z) (n : nat) : Z :=
  if (1 <? n)%nat then Z.quot (b - a) (Z.of_nat (n - 1)) else 0.

