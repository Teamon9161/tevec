(* Proofs/Unique.v — vsorted_unique_idx (Keep::First / Keep::Last) at Z on run-structured inputs, the run-length
   decomposition, and the positional tests of Spec/Binning.v as booleans.  Axiom-free.                       *)
From Coq Require Import ZArith List Lia Bool Sorted.
From Tevec Require Import Base.Prelude Model.Binning Spec.Binning.
Import ListNotations.

Definition firstZ := @uidx_first Z Z.eqb.
Definition lastZ := @uidx_last Z Z.eqb.
Definition uniqZ := @vsorted_unique Z Z.eqb.

Lemma last_is_true last v : last_is Z.eqb last v = true <-> last = Some v.
Proof.
  unfold last_is. destruct last as [u|]; [|split; discriminate].
  rewrite Z.eqb_eq. split; [intros ->; reflexivity|intros H; injection H; auto].
Qed.

Lemma last_is_refl v : last_is Z.eqb (Some v) v = true.
Proof. apply last_is_true. reflexivity. Qed.

Lemma last_is_false last v : last <> Some v -> last_is Z.eqb last v = false.
Proof.
  intros H. destruct (last_is Z.eqb last v) eqn:E; [|reflexivity].
  apply last_is_true in E. contradiction.
Qed.

Lemma run_cells_cons v n rs t :
  flat_map run_cells ((v, n) :: rs) ++ t = Some v :: repeat (Some v) n ++ flat_map run_cells rs ++ t.
Proof. cbn [flat_map]. unfold run_cells at 1. cbn [fst snd repeat app]. rewrite <- app_assoc. reflexivity. Qed.

Lemma first_go_nulls last a : forall i r,
  uidx_first_go Z.eqb last i (repeat None a ++ r) = uidx_first_go Z.eqb last (a + i) r.
Proof.
  induction a as [|a IH]; intros i r; [reflexivity|].
  cbn [repeat app uidx_first_go]. rewrite IH. f_equal. lia.
Qed.

Lemma first_go_same v n : forall i r,
  uidx_first_go Z.eqb (Some v) i (repeat (Some v) n ++ r) = uidx_first_go Z.eqb (Some v) (n + i) r.
Proof.
  induction n as [|n IH]; intros i r; [reflexivity|].
  cbn [repeat app uidx_first_go]. rewrite last_is_refl, IH. f_equal. lia.
Qed.

Lemma first_go_only_nulls last b : forall i, uidx_first_go Z.eqb last i (repeat None b) = [].
Proof.
  induction b as [|b IH]; intros i; [reflexivity|].
  cbn [repeat uidx_first_go]. apply IH.
Qed.

Definition head_differs (last : option Z) (runs : list (Z * nat)) : Prop :=
  match runs with r :: _ => last <> Some (fst r) | [] => True end.

Lemma first_go_runs b : forall runs last i,
  adjacent_distinct runs -> head_differs last runs ->
  uidx_first_go Z.eqb last i (flat_map run_cells runs ++ repeat None b) = starts i runs.
Proof.
  induction runs as [|[v n] rs IH]; intros last i Had Hh.
  - cbn [flat_map app starts]. apply first_go_only_nulls.
  - rewrite run_cells_cons. cbn [uidx_first_go].
    cbn in Hh. rewrite (last_is_false _ _ Hh).
    rewrite first_go_same. cbn [starts snd]. f_equal.
    replace (n + S i) with (i + S n) by lia.
    apply IH.
    + destruct rs as [|r2 rs']; [exact I|]. destruct Had as [_ H]. exact H.
    + destruct rs as [|r2 rs']; [exact I|]. destruct Had as [H _]. cbn in H |- *. congruence.
Qed.

Lemma last_go_nulls a : forall i r,
  uidx_last_go Z.eqb None i (repeat None a ++ r) = uidx_last_go Z.eqb None (a + i) r.
Proof.
  induction a as [|a IH]; intros i r; [reflexivity|].
  cbn [repeat app uidx_last_go is_some]. rewrite IH. f_equal. lia.
Qed.

Lemma last_go_same v n : forall i r,
  uidx_last_go Z.eqb (Some v) i (repeat (Some v) n ++ r) = uidx_last_go Z.eqb (Some v) (n + i) r.
Proof.
  induction n as [|n IH]; intros i r; [reflexivity|].
  cbn [repeat app uidx_last_go]. rewrite last_is_refl, IH. f_equal. lia.
Qed.

Lemma last_go_only_nulls b : forall i, uidx_last_go Z.eqb None i (repeat None b) = [].
Proof.
  induction b as [|b IH]; intros i; [reflexivity|].
  cbn [repeat uidx_last_go is_some app]. apply IH.
Qed.

(* the remembered element sits at index i and is the first cell of the run (v, n) *)
Lemma last_go_runs b : forall rs v n i,
  adjacent_distinct ((v, n) :: rs) ->
  uidx_last_go Z.eqb (Some v) i (repeat (Some v) n ++ flat_map run_cells rs ++ repeat None (S b))
  = ends i ((v, n) :: rs).
Proof.
  induction rs as [|[v' n'] rs IH]; intros v n i Had.
  - cbn [flat_map app]. rewrite last_go_same.
    cbn [repeat uidx_last_go is_some app].
    rewrite last_go_only_nulls. cbn [ends snd]. f_equal. lia.
  - rewrite last_go_same, run_cells_cons. cbn [uidx_last_go].
    destruct Had as [Hne Had]. cbn in Hne.
    rewrite last_is_false by congruence. cbn [is_some app].
    cbn [ends snd]. f_equal; [lia|].
    replace (S (n + i)) with (i + S n) by lia.
    apply IH. exact Had.
Qed.

(* facts about starts / ends: ascending, inside the runs, never a null *)

Lemma expand_length a runs b :
  length (expand a runs b) = a + fold_right (fun r s => S (snd r) + s) 0 runs + b.
Proof.
  unfold expand. rewrite !app_length, !repeat_length.
  assert (H : length (flat_map run_cells runs) = fold_right (fun r s => S (snd r) + s) 0 runs).
  { induction runs as [|r rs IH]; [reflexivity|].
    cbn [flat_map fold_right]. rewrite app_length. unfold run_cells at 1. rewrite repeat_length. lia. }
  lia.
Qed.

(* the cell at a start / end index is the run's value *)
Lemma nth_flat_runs_start b : forall runs i0 k r,
  nth_error runs k = Some r ->
  nth_error (flat_map run_cells runs ++ repeat None b)
            (nth k (starts i0 runs) 0 - i0) = Some (Some (fst r))
  /\ nth_error (flat_map run_cells runs ++ repeat None b)
            (nth k (ends i0 runs) 0 - i0) = Some (Some (fst r))
  /\ i0 <= nth k (starts i0 runs) 0 <= nth k (ends i0 runs) 0.
Proof.
  induction runs as [|[v n] rs IH]; intros i0 k r Hk; [destruct k; discriminate|].
  destruct k as [|k].
  - cbn in Hk. injection Hk as <-. cbn [starts ends nth fst snd flat_map].
    unfold run_cells at 1 3. cbn [fst snd].
    rewrite <- !app_assoc. rewrite Nat.sub_diag.
    split; [reflexivity|]. split; [|lia].
    replace (i0 + n - i0) with n by lia.
    rewrite nth_error_app1 by (rewrite repeat_length; lia).
    rewrite nth_error_repeat. replace (n <? S n) with true by (symmetry; apply Nat.ltb_lt; lia). reflexivity.
  - cbn in Hk. cbn [starts ends nth snd flat_map].
    destruct (IH (i0 + S n) k r Hk) as (H1 & H2 & H3).
    unfold run_cells at 1 3. cbn [fst snd]. rewrite <- !app_assoc.
    split; [|split; [|lia]].
    + rewrite nth_error_app2 by (rewrite repeat_length; lia). rewrite repeat_length.
      replace (nth k (starts (i0 + S n) rs) 0 - i0 - S n) with (nth k (starts (i0 + S n) rs) 0 - (i0 + S n)) by lia.
      exact H1.
    + rewrite nth_error_app2 by (rewrite repeat_length; lia). rewrite repeat_length.
      replace (nth k (ends (i0 + S n) rs) 0 - i0 - S n) with (nth k (ends (i0 + S n) rs) 0 - (i0 + S n)) by lia.
      exact H2.
Qed.

Lemma starts_length i runs : length (starts i runs) = length runs.
Proof. revert i; induction runs as [|r rs IH]; intros i; cbn; [reflexivity|]. f_equal. apply IH. Qed.
Lemma ends_length i runs : length (ends i runs) = length runs.
Proof. revert i; induction runs as [|r rs IH]; intros i; cbn; [reflexivity|]. f_equal. apply IH. Qed.

(* the k-th reported index holds the value of the k-th run: never a null *)
Lemma starts_value a runs b k r :
  nth_error runs k = Some r ->
  nth_error (expand a runs b) (nth k (starts a runs) 0) = Some (Some (fst r)).
Proof.
  intros Hk. destruct (nth_flat_runs_start b runs a k r Hk) as (H1 & _ & H3).
  unfold expand. rewrite nth_error_app2 by (rewrite repeat_length; lia).
  rewrite repeat_length. exact H1.
Qed.

Lemma ends_value a runs b k r :
  nth_error runs k = Some r ->
  nth_error (expand a runs b) (nth k (ends a runs) 0) = Some (Some (fst r)).
Proof.
  intros Hk. destruct (nth_flat_runs_start b runs a k r Hk) as (_ & H2 & H3).
  unfold expand. rewrite nth_error_app2 by (rewrite repeat_length; lia).
  rewrite repeat_length. exact H2.
Qed.

Lemma starts_lower i runs : forall x, In x (starts i runs) -> i <= x.
Proof.
  revert i; induction runs as [|r rs IH]; intros i x Hx; [destruct Hx|].
  cbn in Hx. destruct Hx as [<-|Hx]; [lia|]. specialize (IH _ _ Hx). lia.
Qed.
Lemma ends_lower i runs : forall x, In x (ends i runs) -> i <= x.
Proof.
  revert i; induction runs as [|r rs IH]; intros i x Hx; [destruct Hx|].
  cbn in Hx. destruct Hx as [<-|Hx]; [lia|]. specialize (IH _ _ Hx). lia.
Qed.

Lemma starts_sorted i runs : StronglySorted lt (starts i runs).
Proof.
  revert i; induction runs as [|r rs IH]; intros i; cbn; constructor; [apply IH|].
  apply Forall_forall. intros x Hx. apply starts_lower in Hx. lia.
Qed.
Lemma ends_sorted i runs : StronglySorted lt (ends i runs).
Proof.
  revert i; induction runs as [|r rs IH]; intros i; cbn; constructor; [apply IH|].
  apply Forall_forall. intros x Hx. apply ends_lower in Hx. lia.
Qed.

(* i is the last index of a run: non-null and the next cell (if any) is not the same value *)
Definition last_of_run_b (xs : list (option Z)) (i : nat) : bool :=
  match nth_error xs i with
  | Some (Some v) => negb (match nth_error xs (S i) with Some (Some u) => Z.eqb v u | _ => false end)
  | _ => false
  end.

Lemma last_of_run_b_spec xs i : last_of_run_b xs i = true <-> last_of_run xs i.
Proof.
  unfold last_of_run_b, last_of_run. destruct (nth_error xs i) as [[v|]|] eqn:E.
  - destruct (nth_error xs (S i)) as [[u|]|] eqn:E2.
    + destruct (Z.eqb_spec v u) as [->|Hne]; cbn [negb]; split; try discriminate.
      * intros (w & Hw & Hn). injection Hw as <-. contradiction.
      * intros _. exists v. split; [reflexivity|]. intros H. injection H. auto.
      * intros _. reflexivity.
    + cbn. split; [intros _; exists v; split; [reflexivity|discriminate]|reflexivity].
    + cbn. split; [intros _; exists v; split; [reflexivity|discriminate]|reflexivity].
  - split; [discriminate|]. intros (w & Hw & _). discriminate.
  - split; [discriminate|]. intros (w & Hw & _). discriminate.
Qed.

Definition first_of_run_b (xs : list (option Z)) (i : nat) : bool :=
  match nth_error xs i with
  | Some (Some v) =>
      match i with
      | 0 => true
      | S j => negb (match nth_error xs j with Some (Some u) => Z.eqb u v | _ => false end)
      end
  | _ => false
  end.

Lemma first_of_run_b_spec xs i : first_of_run_b xs i = true <-> first_of_run xs i.
Proof.
  unfold first_of_run_b, first_of_run. destruct (nth_error xs i) as [[v|]|] eqn:E.
  - destruct i as [|j].
    + split; [intros _; exists v; auto|reflexivity].
    + cbn [Nat.sub]. rewrite Nat.sub_0_r.
      destruct (nth_error xs j) as [[u|]|] eqn:E2.
      * destruct (Z.eqb_spec u v) as [->|Hne]; cbn [negb]; split; try discriminate.
        -- intros (w & Hw & [Hz|Hn]); [discriminate|]. injection Hw as <-. contradiction.
        -- intros _. exists v. split; [reflexivity|]. right. intros H. injection H. auto.
        -- intros _. reflexivity.
      * cbn. split; [intros _; exists v; split; [reflexivity|right; discriminate]|reflexivity].
      * cbn. split; [intros _; exists v; split; [reflexivity|right; discriminate]|reflexivity].
  - split; [discriminate|]. intros (w & Hw & _). discriminate.
  - split; [discriminate|]. intros (w & Hw & _). discriminate.
Qed.

(* run-length encoding: through it every series whose nulls form a prefix and/or suffix is run-structured
   (C14_runs_decomposition) *)

Fixpoint rle (vs : list Z) : list (Z * nat) :=
  match vs with
  | [] => []
  | v :: r =>
      match rle r with
      | (u, n) :: t => if Z.eqb v u then (u, S n) :: t else (v, 0) :: (u, n) :: t
      | [] => [(v, 0)]
      end
  end.

Lemma rle_expand vs : flat_map run_cells (rle vs) = map Some vs.
Proof.
  induction vs as [|v r IH]; [reflexivity|].
  cbn [rle map]. destruct (rle r) as [|[u n] t].
  - cbn in IH |- *. rewrite <- IH. reflexivity.
  - destruct (Z.eqb_spec v u) as [->|Hne].
    + rewrite <- IH. cbn [flat_map]. unfold run_cells at 1 3. cbn [fst snd repeat app]. reflexivity.
    + rewrite <- IH. reflexivity.
Qed.

Lemma rle_adjacent vs : adjacent_distinct (rle vs).
Proof.
  induction vs as [|v r IH]; [exact I|].
  cbn [rle]. destruct (rle r) as [|[u n] t]; [exact I|].
  destruct (Z.eqb_spec v u) as [->|Hne].
  - destruct t as [|r2 t']; [exact I|]. exact IH.
  - split; [exact Hne|exact IH].
Qed.

(* the non-null values of a run-structured series are the run values *)
Lemma In_expand a runs b v : In (Some v) (expand a runs b) <-> In v (map fst runs).
Proof.
  unfold expand. rewrite !in_app_iff, in_flat_map, in_map_iff. split.
  - intros [H|[(r & Hr & Hv)|H]].
    + apply repeat_spec in H. discriminate.
    + unfold run_cells in Hv. apply repeat_spec in Hv. injection Hv as ->. exists r. auto.
    + apply repeat_spec in H. discriminate.
  - intros (r & <- & Hr). right. left. exists r. split; [exact Hr|].
    unfold run_cells. cbn [repeat]. left. reflexivity.
Qed.
