(* Proofs/Spearman.v — C20: the rank vector that vcorr(.., Spearman) hands to vcorr_pearson is the list of
   average ranks (C12's characterisation of vrank), and ranks are invariant under strictly increasing
   maps of the series.  Carrier XR.                                                                *)
From Coq Require Import Reals Lra Lia List ZArith Bool.
From Tevec Require Import Base.Prelude.
From Tevec Require Import Base.XR Spec.Stats Model.Rank Model.Composite Proofs.Quantile Proofs.Partition Proofs.Rank.
Import ListNotations.
Local Open Scope R_scope.

(* the rank vector of a series: a valid x gets #{valid before x} + (#{valid = x} + 1) / 2
   (a fraction of the valid count when pct), a null stays null *)
Definition ranks (pct rev : bool) (xs : list XR) : list XR :=
  map (fun o => match o with Some x => Some (rank_spec pct rev (valid xs) x) | None => None end) xs.

Lemma slots_map_Some {A} (l : list A) : slots (map Some l) = Some l.
Proof. induction l as [|a l IH]; [reflexivity|]. cbn [map slots]. rewrite IH. reflexivity. Qed.

(* C12_rank as an equation between lists *)
Lemma vrank_ranks (pct rev : bool) (xs : list XR) :
  vrank (DT := IsNoneXR) (DX := IsNoneXXR) pct rev xs = map Some (ranks pct rev xs).
Proof.
  destruct (vrank_spec pct rev xs) as [Hlen Hnth].
  apply nth_error_ext. intros i.
  destruct (Nat.lt_ge_cases i (length xs)) as [Hi|Hi].
  - rewrite (Hnth i Hi). unfold ranks. rewrite !nth_error_map.
    destruct (nth_error xs i) as [o|] eqn:E; [|apply nth_error_None in E; lia].
    cbn [option_map]. unfold rank_expected. rewrite (nth_error_nth xs i None E). reflexivity.
  - rewrite (proj2 (nth_error_None _ _)) by lia.
    symmetry. apply nth_error_None. unfold ranks. rewrite !map_length. exact Hi.
Qed.

Lemma rank_vec_xr (xs : list XR) :
  rank_vec (DT := IsNoneXR) (DX := IsNoneXXR) xs = Some (ranks false false xs).
Proof. unfold rank_vec. rewrite vrank_ranks. apply slots_map_Some. Qed.

Definition strict_mono (f : R -> R) : Prop := forall x y, x < y -> f x < f y.

Lemma strict_mono_lt f x y : strict_mono f -> (f x < f y <-> x < y).
Proof.
  intros Hf. split; [|apply Hf]. intros H.
  destruct (Rlt_le_dec x y) as [L|L]; [exact L|exfalso].
  destruct L as [L|L]; [pose proof (Hf _ _ L); lra|subst; lra].
Qed.
Lemma strict_mono_inj f x y : strict_mono f -> (f x = f y <-> x = y).
Proof.
  intros Hf. split; [|intros ->; reflexivity]. intros H.
  destruct (Rtotal_order x y) as [L|[E|L]]; [|exact E|]; pose proof (Hf _ _ L); lra.
Qed.

Lemma valid_map (f : R -> R) (xs : list XR) : valid (map (option_map f) xs) = map f (valid xs).
Proof.
  induction xs as [|[x|] xs IH]; [reflexivity| |exact IH].
  cbn [map option_map valid flat_map app]. fold (valid xs) (valid (map (option_map f) xs)). f_equal. exact IH.
Qed.

Lemma filter_map_length {X Y} (p : Y -> bool) (q : X -> bool) (g : X -> Y) l :
  (forall a, p (g a) = q a) -> length (filter p (map g l)) = length (filter q l).
Proof.
  intros H. induction l as [|a l IH]; [reflexivity|]. cbn [map filter]. rewrite H.
  destruct (q a); cbn [length]; rewrite IH; reflexivity.
Qed.

Lemma count_before_map rev f x l :
  strict_mono f -> count_before rev (f x) (map f l) = count_before rev x l.
Proof.
  intros Hf. unfold count_before. apply filter_map_length. intros y. unfold before_b.
  destruct rev.
  - destruct (Rlt_dec (f x) (f y)) as [H|H], (Rlt_dec x y) as [H'|H']; try reflexivity; exfalso;
      apply (strict_mono_lt f x y Hf) in H || (apply H; apply Hf; exact H'); contradiction.
  - destruct (Rlt_dec (f y) (f x)) as [H|H], (Rlt_dec y x) as [H'|H']; try reflexivity; exfalso;
      apply (strict_mono_lt f y x Hf) in H || (apply H; apply Hf; exact H'); contradiction.
Qed.

Lemma count_eq_map f x l : strict_mono f -> count_eq (f x) (map f l) = count_eq x l.
Proof.
  intros Hf. unfold count_eq. apply filter_map_length. intros y.
  destruct (Req_EM_T (f y) (f x)) as [H|H], (Req_EM_T y x) as [H'|H']; try reflexivity; exfalso.
  - apply (strict_mono_inj f y x Hf) in H. contradiction.
  - apply H. rewrite H'. reflexivity.
Qed.

Lemma rank_spec_map pct rev f l x :
  strict_mono f -> rank_spec pct rev (map f l) (f x) = rank_spec pct rev l x.
Proof.
  intros Hf. unfold rank_spec. rewrite count_before_map, count_eq_map, map_length by exact Hf. reflexivity.
Qed.

(* ranks only see the order: rank (map f xs) = rank xs for a strictly increasing f (nulls map to nulls) *)
Theorem ranks_invariant (pct rev : bool) (f : R -> R) (xs : list XR) :
  strict_mono f -> ranks pct rev (map (option_map f) xs) = ranks pct rev xs.
Proof.
  intros Hf. unfold ranks. rewrite map_map, valid_map. apply map_ext. intros [x|]; [|reflexivity].
  cbn [option_map]. rewrite rank_spec_map by exact Hf. reflexivity.
Qed.
