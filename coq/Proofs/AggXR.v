(* Proofs/AggXR.v — the arithmetic aggregations at the proof instance XR = option R (exact reals + one
   absorbing NaN), for every null dictionary whose valid elements are real numbers (canonical nulls,
   DESIGN 5.4): the model's output equals the textbook statistic of the non-null elements.          *)
From Coq Require Import Reals Lra Lia List Permutation Bool.
From Tevec Require Import Base.Num Base.XR Spec.Stats Spec.Stats2 Model.Agg Proofs.AggGeneric.
Import ListNotations.
Local Open Scope R_scope.
Set Implicit Arguments.

Notation idX := (fun x : XR => x).

Section Canonical.
  (* A: the element's inner type; tof: its cast into the statistics' carrier (Number::f64) *)
  Context {A : Type} {T : Type} {DT : IsNone T A}.
  Variable tof : A -> XR.

  (* canonical nulls: a non-null element is a number *)
  Definition canonical (xs : list T) : Prop :=
    forall v, In v xs -> not_none v = true -> tof (unwrap v) <> None.
  Definition rvals (xs : list T) : list R :=
    flat_map (fun v => if not_none v then match tof (unwrap v) with Some r => [r] | None => [] end else []) xs.
  Definition nvalid (xs : list T) : nat := length (rvals xs).

  Lemma vals_rvals xs : canonical xs -> map tof (vals xs) = map Some (rvals xs).
  Proof.
    intros H. induction xs as [|v xs IH]; [reflexivity|].
    rewrite vals_cons. cbn [rvals flat_map]. fold (rvals xs).
    assert (IH' : map tof (vals xs) = map Some (rvals xs)).
    { apply IH. intros w Hw. apply H. right. exact Hw. }
    destruct (not_none v) eqn:E; [|exact IH'].
    pose proof (H v (or_introl eq_refl) E) as Hv. cbn [map]. destruct (tof (unwrap v)) as [r|]; [|contradiction].
    cbn [app map]. rewrite IH'. reflexivity.
  Qed.

  Lemma canonical_perm xs ys : Permutation xs ys -> canonical xs -> canonical ys.
  Proof. intros HP H v Hv. apply H. eapply Permutation_in; [apply Permutation_sym|]; eassumption. Qed.

  Lemma rvals_perm xs ys : Permutation xs ys -> Permutation (rvals xs) (rvals ys).
  Proof. apply Permutation_flat_map. Qed.

  Lemma count_valid_nvalid xs : canonical xs -> count_valid xs = nvalid xs.
  Proof.
    intros H. rewrite count_valid_spec. unfold nvalid.
    rewrite <- (map_length tof), (vals_rvals H), map_length. reflexivity.
  Qed.
End Canonical.

(* f64 / f32: the float-like dictionary (NaN is the null) is canonical by construction, rvals = Stats.valid *)
Lemma canonical_float (xs : list XR) : canonical (DT := IsNoneXR) idX xs.
Proof. intros v _ Hv. destruct v; [discriminate|discriminate Hv]. Qed.
Lemma rvals_float (xs : list XR) : rvals (DT := IsNoneXR) idX xs = valid xs.
Proof.
  unfold rvals, valid. induction xs as [|v xs IH]; [reflexivity|]. cbn [flat_map]. rewrite IH.
  destruct v; reflexivity.
Qed.
(* Option<f64>: T = option XR; canonical = no Some(NaN) (DESIGN 5.4) *)
Definition IsNoneOptXR : IsNone (option XR) XR := IsNone_opt None.
(* i32 / i64 / Option<i32>: inner type Z, cast IZR; every integer series is canonical *)
Definition zR (z : Z) : XR := Some (IZR z).
Lemma canonical_int {T} {DT : IsNone T Z} (xs : list T) : canonical zR xs.
Proof. intros v _ _. discriminate. Qed.

Lemma sumR_cons x V : sumR (x :: V) = x + sumR V. Proof. reflexivity. Qed.
Lemma sumR_nil : sumR [] = 0. Proof. reflexivity. Qed.
Lemma psum_nil k : psum k [] = 0. Proof. reflexivity. Qed.

Lemma fold_add_some V a : fold_left (fun acc x : XR => nadd acc x) (map Some V) (Some a) = Some (a + sumR V).
Proof.
  revert a. induction V as [|x V IH]; intros a; cbn [map fold_left].
  - rewrite sumR_nil. f_equal. lra.
  - rewrite xadd_some, IH, sumR_cons. f_equal. ring.
Qed.

Lemma fold_mv V a b :
  fold_left (mv_step idX) (map Some V) (Some a, Some b) = (Some (a + psum 1 V), Some (b + psum 2 V)).
Proof.
  revert a b. induction V as [|x V IH]; intros a b; cbn [map fold_left].
  - rewrite !psum_nil. f_equal; f_equal; lra.
  - change (mv_step idX (Some a, Some b) (Some x)) with (Some (a + x), Some (b + x * x)).
    rewrite IH, !psum_cons. f_equal; f_equal; ring.
Qed.
Lemma fold_sk V a b c :
  fold_left (sk_step idX) (map Some V) (Some a, Some b, Some c)
  = (Some (a + psum 1 V), Some (b + psum 2 V), Some (c + psum 3 V)).
Proof.
  revert a b c. induction V as [|x V IH]; intros a b c; cbn [map fold_left].
  - rewrite !psum_nil. f_equal; [f_equal|]; f_equal; lra.
  - change (sk_step idX (Some a, Some b, Some c) (Some x)) with (Some (a + x), Some (b + x * x), Some (c + x * x * x)).
    rewrite IH, !psum_cons. f_equal; [f_equal|]; f_equal; ring.
Qed.
Lemma fold_ku V a b c d :
  fold_left (ku_step idX) (map Some V) (Some a, Some b, Some c, Some d)
  = (Some (a + psum 1 V), Some (b + psum 2 V), Some (c + psum 3 V), Some (d + psum 4 V)).
Proof.
  revert a b c d. induction V as [|x V IH]; intros a b c d; cbn [map fold_left].
  - rewrite !psum_nil. f_equal; [f_equal; [f_equal|]|]; f_equal; lra.
  - change (ku_step idX (Some a, Some b, Some c, Some d) (Some x))
      with (Some (a + x), Some (b + x * x), Some (c + x * x * x), Some (d + x * x * (x * x))).
    rewrite IH, !psum_cons. f_equal; [f_equal; [f_equal|]|]; f_equal; ring.
Qed.

(* the accumulating closures see an element only through its cast: `mv_step tof` is
   `fun s x => mv_step idX s (tof x)` by conversion, likewise sk_step and ku_step *)
Lemma fold_left_map {X Y S} (h : S -> X -> S) (g : S -> Y -> S) (f : X -> Y) :
  (forall s x, h s x = g s (f x)) -> forall l s, fold_left h l s = fold_left g (map f l) s.
Proof. intros H l. induction l as [|x l IH]; intros s; [reflexivity|]. cbn [map fold_left]. rewrite H. apply IH. Qed.

(* the shape of the moment statistics: null below max(min_periods, k) observations, 0 under the variance floor *)
Definition mform (k : nat) (S : list R -> R) (mp : nat) (V : list R) : XR :=
  if (length V <? Nat.max mp k)%nat then None else if Rle_dec (popvarR V) EPS then Some 0 else Some (S V).
Lemma mform_null k S mp V : mform k S mp V = None <-> (length V < Nat.max mp k)%nat.
Proof.
  unfold mform. rewrite <- Nat.ltb_lt. destruct (length V <? Nat.max mp k)%nat; [tauto|].
  destruct (Rle_dec _ _); split; intros; discriminate.
Qed.
Lemma mform_perm k S mp V V' : Permutation V V' -> S V = S V' -> mform k S mp V = mform k S mp V'.
Proof. intros HP HS. unfold mform. rewrite (Permutation_length HP), (popvarR_perm HP), HS. reflexivity. Qed.
Lemma ltb_max n mp k : (n <? Nat.max mp k)%nat = ((n <? mp)%nat || (n <? k)%nat).
Proof.
  destruct (n <? mp)%nat eqn:E1, (n <? k)%nat eqn:E2; cbn [orb];
    rewrite ?Nat.ltb_lt, ?Nat.ltb_ge in *; lia.
Qed.

Section Identities.
  Variable V : list R.
  Let n := length V.
  Let S1 := psum 1 V.
  Let S2 := psum 2 V.
  Let S3 := psum 3 V.
  Let S4 := psum 4 V.

  Lemma meanR_psum : meanR V = S1 / INR n.
  Proof. unfold meanR, nR, S1. rewrite psum_1. reflexivity. Qed.

  Lemma popvar_id : n <> 0%nat -> S2 / INR n - (S1 / INR n) ^ 2 = popvarR V.
  Proof.
    intros Hn. unfold popvarR, cmom. rewrite meanR_psum, devsum2_expand. unfold nR. fold n S1 S2.
    assert (INR n <> 0) by (apply not_0_INR; exact Hn). field. assumption.
  Qed.

  Lemma sample_from_pop' : (2 <= n)%nat -> popvarR V * INR n / INR (n - 1) = samplevarR V.
  Proof.
    intros Hn. unfold popvarR, cmom, samplevarR, nR. fold n. rewrite minus_INR by lia. cbn [INR].
    assert (INR n <> 0) by (apply not_0_INR; lia).
    assert (INR n - 1 <> 0). { assert (2 <= INR n) by (apply (le_INR 2); lia). lra. }
    field. split; assumption.
  Qed.

  Lemma samplevar_nonneg' : (2 <= n)%nat -> 0 <= samplevarR V.
  Proof.
    intros Hn. unfold samplevarR. apply Rmult_le_pos; [apply devsum2_nonneg|].
    apply Rlt_le, Rinv_0_lt_compat. unfold nR. fold n.
    assert (2 <= INR n) by (apply (le_INR 2); lia). lra.
  Qed.

  (* skewness: m3/std^3 - 3 (m1/std) - (m1/std)^3 is the standardised third central moment *)
  Lemma skew_core (s : R) :
    n <> 0%nat -> s <> 0 -> s * s = popvarR V ->
    S3 / INR n / s ^ 3 - 3 * (S1 / INR n / s) - (S1 / INR n / s) ^ 3 = cmom 3 V / s ^ 3.
  Proof.
    intros Hn Hs Hvar. rewrite <- (popvar_id Hn) in Hvar.
    assert (Hn0 : INR n <> 0) by (apply not_0_INR; exact Hn).
    assert (HS2 : S2 = INR n * (s * s + (S1 / INR n) ^ 2)) by (rewrite Hvar; field; exact Hn0).
    unfold cmom. rewrite meanR_psum, devsum3_expand. unfold nR. fold n S1 S2 S3.
    rewrite HS2. field. split; assumption.
  Qed.

  (* kurtosis: (m4 - 4 m1 m3)/var^2 + 6 m1^2/var + 3 (m1^2/var)^2 is the standardised fourth central moment *)
  Lemma kurt_core (v : R) :
    n <> 0%nat -> v <> 0 -> v = popvarR V ->
    (S4 / INR n - 4 * (S1 / INR n) * (S3 / INR n)) / v ^ 2 + 6 * ((S1 / INR n) ^ 2 / v)
      + 3 * ((S1 / INR n) ^ 2 / v) ^ 2 = cmom 4 V / v ^ 2.
  Proof.
    intros Hn Hv Hvar. rewrite <- (popvar_id Hn) in Hvar.
    assert (Hn0 : INR n <> 0) by (apply not_0_INR; exact Hn).
    assert (HS2 : S2 = INR n * (v + (S1 / INR n) ^ 2)) by (rewrite Hvar; field; exact Hn0).
    unfold cmom. rewrite meanR_psum, devsum4_expand. unfold nR. fold n S1 S2 S3 S4.
    rewrite HS2. field. split; assumption.
  Qed.
End Identities.

Lemma devsum4_nonneg c l : 0 <= devsum 4 c l.
Proof.
  unfold devsum. induction l as [|a l IH]; [cbn; lra|].
  cbn [map]. rewrite sumR_cons.
  assert (0 <= (a - c) ^ 4). { replace ((a - c) ^ 4) with (((a - c) ^ 2) ^ 2) by ring. apply pow2_ge_0. }
  lra.
Qed.
Lemma devsum4_zero c l : devsum 4 c l = 0 -> devsum 2 c l = 0.
Proof.
  unfold devsum. induction l as [|a l IH]; [reflexivity|].
  cbn [map]. rewrite !sumR_cons. intros H.
  assert (H4 : 0 <= (a - c) ^ 4). { replace ((a - c) ^ 4) with (((a - c) ^ 2) ^ 2) by ring. apply pow2_ge_0. }
  pose proof (devsum4_nonneg c l) as Hr. unfold devsum in Hr.
  assert (Ha : (a - c) ^ 4 = 0) by lra.
  assert (Hl : sumR (map (fun x => (x - c) ^ 4) l) = 0) by lra.
  rewrite (IH Hl).
  assert (a - c = 0).
  { destruct (Req_dec (a - c) 0) as [E|E]; [exact E|]. exfalso. exact (pow_nonzero _ 4 E Ha). }
  replace (a - c) with 0 by assumption. ring.
Qed.
Lemma cmom4_pos V : (length V <> 0)%nat -> 0 < popvarR V -> 0 < cmom 4 V.
Proof.
  intros Hn Hv. unfold popvarR, cmom in *.
  assert (Hn0 : 0 < nR V) by (unfold nR; apply lt_0_INR; lia).
  assert (H2 : devsum 2 (meanR V) V <> 0).
  { intros E. rewrite E in Hv. unfold Rdiv in Hv. rewrite Rmult_0_l in Hv. lra. }
  assert (H4 : devsum 4 (meanR V) V <> 0) by (intros E; apply H2, devsum4_zero, E).
  pose proof (devsum4_nonneg (meanR V) V). apply Rdiv_lt_0_compat; lra.
Qed.

Section ClosedForms.
  Context {A : Type} {NA : Num A} {T : Type} {DT : IsNone T A}.
  Variable tof : A -> XR.
  Variable xs : list T.
  Variable V : list R.
  Hypothesis HV : map tof (vals xs) = map Some V.
  Local Notation n := (length V).

  Lemma len_vals : length (vals xs) = n.
  Proof. rewrite <- (map_length tof), HV, map_length. reflexivity. Qed.

  (* vmean: the sum is accumulated in the inner type A and cast once *)
  Hypothesis Hsum : tof (fold_left (fun acc x : A => nadd acc x) (vals xs) nzero) = Some (sumR V).
  Lemma vmean_closed : vmean tof xs = if (n =? 0)%nat then None else Some (meanR V).
  Proof.
    unfold vmean. rewrite vfold_n_spec, len_vals. cbn [fst snd]. rewrite Hsum.
    destruct (n =? 0)%nat eqn:E.
    - apply Nat.eqb_eq in E. rewrite E. reflexivity.
    - apply Nat.eqb_neq in E. replace (1 <=? n)%nat with true by (symmetry; apply Nat.leb_le; lia).
      rewrite xofnat, xdiv_some by (apply not_0_INR, E). reflexivity.
  Qed.

  Lemma vmean_var_closed mp :
    vmean_var tof mp xs =
    if (n <? mp)%nat then (None, None)
    else if (n =? 0)%nat then (None, None)
    else if (n <? 2)%nat then (Some (meanR V), None)
    else if Rle_dec (popvarR V) EPS then (Some (meanR V), Some 0)
    else (Some (meanR V), Some (samplevarR V)).
  Proof.
    unfold vmean_var. rewrite vapply_n_spec, len_vals, (fold_left_map (mv_step tof) (mv_step idX) tof (fun _ _ => eq_refl)), HV. cbn [fst snd].
    change (@nzero XR NumXR) with (Some 0). rewrite fold_mv, !Rplus_0_l. cbn [fst snd].
    destruct (n <? mp)%nat; [reflexivity|].
    destruct (n =? 0)%nat eqn:E0.
    - apply Nat.eqb_eq in E0. rewrite E0. cbn [Nat.ltb Nat.leb]. rewrite xofnat. cbn [INR].
      rewrite xdiv_zero. reflexivity.
    - apply Nat.eqb_neq in E0. rewrite xofnat, !xdiv_some by (apply not_0_INR, E0).
      rewrite powi_some, xsub_some. rewrite (popvar_id V E0), <- (meanR_psum V).
      destruct (n <? 2)%nat eqn:E2; [reflexivity|]. apply Nat.ltb_ge in E2.
      change (@neps XR NumXR) with (Some EPS). change (@nzero XR NumXR) with (Some 0).
      cbn [nleb NumXR xleb]. destruct (Rle_dec (popvarR V) EPS); [reflexivity|].
      rewrite xofnat, xmul_some, xdiv_some by (apply not_0_INR; lia).
      rewrite (sample_from_pop' V) by exact E2. reflexivity.
  Qed.

  Lemma vvar_closed mp : vvar tof mp xs = mform 2 samplevarR mp V.
  Proof.
    unfold vvar, mform. rewrite vmean_var_closed, ltb_max. destruct (n <? mp)%nat; [reflexivity|]. cbn [orb].
    destruct (n =? 0)%nat eqn:E0; [apply Nat.eqb_eq in E0; rewrite E0; reflexivity|].
    destruct (n <? 2)%nat; [reflexivity|]. destruct (Rle_dec (popvarR V) EPS); reflexivity.
  Qed.

  Lemma vstd_closed mp : vstd tof mp xs = mform 2 samplestdR mp V.
  Proof.
    unfold vstd. rewrite vvar_closed. unfold mform.
    destruct (n <? Nat.max mp 2)%nat eqn:E; [reflexivity|]. apply Nat.ltb_ge in E.
    destruct (Rle_dec (popvarR V) EPS).
    - rewrite xsqrt_some by lra. rewrite sqrt_0. reflexivity.
    - rewrite xsqrt_some by (apply (samplevar_nonneg' V); lia). reflexivity.
  Qed.

  Lemma vskew_closed mp : vskew tof mp xs = mform 3 skewR mp V.
  Proof.
    unfold vskew, mform. rewrite vapply_n_spec, len_vals, (fold_left_map (sk_step tof) (sk_step idX) tof (fun _ _ => eq_refl)), HV. cbn [fst snd].
    change (@nzero XR NumXR) with (Some 0). rewrite fold_sk, !Rplus_0_l, ltb_max, (Nat.ltb_antisym 3 n).
    destruct (n <? mp)%nat; [reflexivity|]. cbn [orb].
    destruct (3 <=? n)%nat eqn:E3; [|reflexivity]. cbn [negb]. apply Nat.leb_le in E3.
    assert (E0 : n <> 0%nat) by lia. assert (Hn0 : INR n <> 0) by (apply not_0_INR; exact E0).
    rewrite xofnat, !xdiv_some by exact Hn0.
    rewrite powi_some, xsub_some, (popvar_id V E0).
    change (@neps XR NumXR) with (Some EPS). cbn [nleb NumXR xleb].
    destruct (Rle_dec (popvarR V) EPS) as [Hle|Hgt].
    { cbn [nisnan neqb NumXR xisnan xeqb negb andb]. destruct (Req_EM_T 0 0); [reflexivity|contradiction]. }
    assert (Hpos : 0 < popvarR V) by (pose proof EPS_pos; lra).
    set (s := sqrt (popvarR V)).
    assert (Hs : 0 < s) by (apply sqrt_lt_R0; exact Hpos).
    assert (Hss : s * s = popvarR V) by (apply sqrt_sqrt; lra).
    rewrite xsqrt_some by lra. fold s.
    rewrite powi_some. rewrite !xdiv_some by (try apply pow_nonzero; lra).
    unfold three. cbn [nofZ NumXR]. rewrite xmul_some, powi_some, !xsub_some.
    rewrite (@skew_core V s E0 (Rgt_not_eq _ _ Hs) Hss).
    cbn [nisnan neqb NumXR xisnan xeqb negb andb].
    destruct (Req_EM_T (cmom 3 V / s ^ 3) 0) as [Ez|Enz]; cbn [negb andb].
    - f_equal. unfold skewR. change (cmom 2 V) with (popvarR V). fold s. rewrite Ez. ring.
    - rewrite !xofnat. rewrite xsqrt_some by apply pos_INR.
      rewrite xdiv_some by (apply not_0_INR; lia). rewrite xmul_some. f_equal.
      unfold skewR, nR. change (cmom 2 V) with (popvarR V). fold s.
      rewrite mult_INR, !minus_INR by lia. cbn [INR].
      assert (H3 : 3 <= INR n) by (pose proof (le_INR _ _ E3) as H3; cbn [INR] in H3; lra). field. lra.
  Qed.

  Lemma vkurt_closed mp : vkurt tof mp xs = mform 4 kurtR mp V.
  Proof.
    unfold vkurt, mform. rewrite vapply_n_spec, len_vals, (fold_left_map (ku_step tof) (ku_step idX) tof (fun _ _ => eq_refl)), HV. cbn [fst snd].
    change (@nzero XR NumXR) with (Some 0). rewrite fold_ku, !Rplus_0_l, ltb_max, (Nat.ltb_antisym 4 n).
    destruct (n <? mp)%nat; [reflexivity|]. cbn [orb].
    destruct (4 <=? n)%nat eqn:E4; [|reflexivity]. cbn [negb]. apply Nat.leb_le in E4.
    assert (E0 : n <> 0%nat) by lia. assert (Hn0 : INR n <> 0) by (apply not_0_INR; exact E0).
    rewrite xofnat, !xdiv_some by exact Hn0.
    rewrite !powi_some, xsub_some, (popvar_id V E0).
    change (@neps XR NumXR) with (Some EPS). cbn [nleb NumXR xleb].
    destruct (Rle_dec (popvarR V) EPS) as [Hle|Hgt].
    { cbn [nisnan neqb NumXR xisnan xeqb negb andb]. destruct (Req_EM_T 0 0); [reflexivity|contradiction]. }
    assert (Hpos : 0 < popvarR V) by (pose proof EPS_pos; lra).
    set (pv := popvarR V) in *.
    assert (Hpv : pv <> 0) by lra.
    rewrite !powi_some. rewrite !xdiv_some by (try apply pow_nonzero; exact Hpv).
    unfold three, four, six. cbn [nofZ NumXR]. rewrite !powi_some, !xmul_some, xsub_some.
    rewrite !xdiv_some by (try apply pow_nonzero; exact Hpv). rewrite !xadd_some.
    rewrite (@kurt_core V pv E0 Hpv eq_refl).
    assert (Hr : cmom 4 V / pv ^ 2 <> 0).
    { apply Rgt_not_eq. apply Rdiv_lt_0_compat; [apply cmom4_pos; assumption|]. apply pow_lt. exact Hpos. }
    cbn [nisnan neqb NumXR xisnan xeqb negb andb].
    destruct (Req_EM_T (cmom 4 V / pv ^ 2) 0) as [Ez|_]; [contradiction|]. cbn [negb andb].
    change (@none XR NumXR) with (Some 1). rewrite !xofnat.
    assert (H4 : 4 <= INR n) by (pose proof (le_INR _ _ E4) as H4; cbn [INR] in H4; lra).
    assert (Hd : INR ((n - 2) * (n - 3)) <> 0) by (apply not_0_INR; nia).
    rewrite xdiv_some by exact Hd. rewrite xmul_some, xsub_some, xmul_some. f_equal.
    unfold kurtR, nR. change (cmom 2 V) with pv.
    rewrite (minus_INR (n * n) 1) by nia.
    rewrite !mult_INR, !minus_INR by lia. cbn [INR]. field. lra.
  Qed.
End ClosedForms.

Section TwoSeries.
  Context {A : Type} {T T2 : Type} {DT : IsNone T A} {DT2 : IsNone T2 A}.
  Variable tof : A -> XR.

  Definition rp (l : list (T * T2)) : list (R * R) :=
    flat_map (fun p => if not_none (fst p) && not_none (snd p)
                       then match tof (unwrap (fst p)), tof (unwrap (snd p)) with Some a, Some b => [(a, b)] | _, _ => [] end
                       else []) l.
  Definition rpairs (xs : list T) (ys : list T2) : list (R * R) := rp (combine xs ys).

  Definition canon_pairs (l : list (T * T2)) : Prop :=
    forall p, In p l -> (not_none (fst p) = true -> tof (unwrap (fst p)) <> None) /\ (not_none (snd p) = true -> tof (unwrap (snd p)) <> None).
  Lemma canon_pairs_combine xs ys : canonical tof xs -> canonical tof ys -> canon_pairs (combine xs ys).
  Proof.
    intros Hx Hy [a b] Hp. split; intros H.
    - apply Hx; [eapply in_combine_l; eassumption|exact H].
    - apply Hy; [eapply in_combine_r; eassumption|exact H].
  Qed.

  Lemma rp_perm l1 l2 : Permutation l1 l2 -> Permutation (rp l1) (rp l2).
  Proof. apply Permutation_flat_map. Qed.

  Lemma prodsum_cons a b P : prodsum ((a, b) :: P) = a * b + prodsum P. Proof. reflexivity. Qed.

  Lemma fold_corr l n0 a a2 b b2 c :
    canon_pairs l ->
    fold_left (corr_step tof) l (n0, Some a, Some a2, Some b, Some b2, Some c)
    = ((n0 + length (rp l))%nat, Some (a + psum 1 (xs_of (rp l))), Some (a2 + psum 2 (xs_of (rp l))),
       Some (b + psum 1 (ys_of (rp l))), Some (b2 + psum 2 (ys_of (rp l))), Some (c + prodsum (rp l))).
  Proof.
    revert n0 a a2 b b2 c. induction l as [|[u w] l IH]; intros n0 a a2 b b2 c Hc.
    - cbn [fold_left rp flat_map length xs_of ys_of map]. rewrite !psum_nil. unfold prodsum. cbn [map]. rewrite sumR_nil.
      rewrite Nat.add_0_r, !Rplus_0_r. reflexivity.
    - assert (Hc' : canon_pairs l) by (intros p Hp; apply Hc; right; exact Hp).
      destruct (Hc (u, w) (or_introl eq_refl)) as [Hu Hw]. cbn [fst snd] in Hu, Hw.
      cbn [fold_left]. unfold corr_step at 2. cbn [fst snd]. cbn [rp flat_map fst snd]. fold (rp l).
      destruct (not_none u) eqn:Eu; [destruct (not_none w) eqn:Ew|]; cbn [andb].
      + specialize (Hu eq_refl). specialize (Hw eq_refl).
        destruct (tof (unwrap u)) as [x|]; [|contradiction]. destruct (tof (unwrap w)) as [y|]; [|contradiction].
        rewrite !xmul_some, !xadd_some, IH by exact Hc'.
        cbn [app length xs_of ys_of map fst snd]. fold (xs_of (rp l)) (ys_of (rp l)).
        rewrite !psum_cons, prodsum_cons.
        f_equal; [f_equal; [f_equal; [f_equal; [f_equal; [lia|]|]|]|]|]; f_equal; ring.
      + cbn [app]. apply IH, Hc'.
      + cbn [app]. apply IH, Hc'.
  Qed.

  Lemma fold_cov l n0 a b c :
    canon_pairs l ->
    fold_left (cov_step tof) l (n0, Some a, Some b, Some c)
    = ((n0 + length (rp l))%nat, Some (a + psum 1 (xs_of (rp l))), Some (b + psum 1 (ys_of (rp l))),
       Some (c + prodsum (rp l))).
  Proof.
    intros Hc. change (n0, Some a, Some b, Some c) with (cov_of (n0, Some a, Some 0, Some b, Some 0, Some c)).
    rewrite fold_cov_of, (fold_corr _ _ _ _ _ _ Hc). reflexivity.
  Qed.

  Variable xs : list T.
  Variable ys : list T2.
  Hypothesis Hx : canonical tof xs.
  Hypothesis Hy : canonical tof ys.
  Local Notation P := (rpairs xs ys).
  Local Notation n := (length (rpairs xs ys)).

  Lemma len_xs_of (l : list (R * R)) : length (xs_of l) = length l. Proof. apply map_length. Qed.
  Lemma len_ys_of (l : list (R * R)) : length (ys_of l) = length l. Proof. apply map_length. Qed.

  Lemma cov_identity (l : list (R * R)) :
    (2 <= length l)%nat ->
    (prodsum l - psum 1 (xs_of l) * psum 1 (ys_of l) / INR (length l)) / INR (length l - 1) = samplecovR l.
  Proof.
    intros Hn. unfold samplecovR. rewrite covsum_expand, !meanR_psum, len_xs_of, len_ys_of, <- !psum_1.
    rewrite minus_INR by lia. cbn [INR].
    assert (2 <= INR (length l)) by (apply (le_INR 2); lia). field. lra.
  Qed.

  Lemma vcov_closed mp :
    vcov tof mp xs ys = if (n <? Nat.max mp 2)%nat then None else Some (samplecovR P).
  Proof.
    unfold vcov. change (@nzero XR NumXR) with (Some 0).
    rewrite (fold_cov 0 0 0 0 (canon_pairs_combine Hx Hy)). fold (rpairs xs ys).
    rewrite !Rplus_0_l. cbn [plus].
    destruct (Nat.max mp 2 <=? n)%nat eqn:E.
    - apply Nat.leb_le in E. replace (n <? Nat.max mp 2)%nat with false by (symmetry; apply Nat.ltb_ge; lia).
      assert (Hn : (2 <= n)%nat) by lia.
      rewrite !xofnat, xmul_some, xdiv_some by (apply not_0_INR; lia).
      rewrite xsub_some, xdiv_some by (apply not_0_INR; lia). f_equal. apply cov_identity, Hn.
    - apply Nat.leb_gt in E. replace (n <? Nat.max mp 2)%nat with true by (symmetry; apply Nat.ltb_lt; lia).
      reflexivity.
  Qed.

  Lemma corr_identity (l : list (R * R)) :
    (length l <> 0)%nat ->
    prodsum l / INR (length l) - psum 1 (xs_of l) * psum 1 (ys_of l) / (INR (length l) * INR (length l))
    = popcovR l.
  Proof.
    intros Hn. unfold popcovR. rewrite covsum_expand, !meanR_psum, len_xs_of, len_ys_of, <- !psum_1.
    assert (INR (length l) <> 0) by (apply not_0_INR; exact Hn). field. assumption.
  Qed.

  Lemma vcorr_closed mp :
    vcorr_pearson tof mp xs ys =
    if (n <? Nat.max mp 2)%nat then None
    else if Rlt_dec EPS (popvarR (xs_of P)) then
           (if Rlt_dec EPS (popvarR (ys_of P)) then Some (corrR P) else None)
         else None.
  Proof.
    unfold vcorr_pearson. change (@nzero XR NumXR) with (Some 0).
    rewrite (fold_corr 0 0 0 0 0 0 (canon_pairs_combine Hx Hy)). fold (rpairs xs ys).
    rewrite !Rplus_0_l. cbn [plus].
    destruct (Nat.max mp 2 <=? n)%nat eqn:E.
    2:{ apply Nat.leb_gt in E. replace (n <? Nat.max mp 2)%nat with true by (symmetry; apply Nat.ltb_lt; lia).
        reflexivity. }
    apply Nat.leb_le in E. replace (n <? Nat.max mp 2)%nat with false by (symmetry; apply Nat.ltb_ge; lia).
    assert (E0 : n <> 0%nat) by lia. assert (Hn0 : INR n <> 0) by (apply not_0_INR; exact E0).
    rewrite xofnat, !xdiv_some by exact Hn0. rewrite !powi_some, !xsub_some.
    pose proof (popvar_id (xs_of P)) as Ha. pose proof (popvar_id (ys_of P)) as Hb.
    rewrite len_xs_of in Ha. rewrite len_ys_of in Hb. rewrite (Ha E0), (Hb E0).
    change (@neps XR NumXR) with (Some EPS). cbn [nltb NumXR xltb].
    destruct (Rlt_dec EPS (popvarR (xs_of P))) as [Ga|Ga]; [|reflexivity].
    destruct (Rlt_dec EPS (popvarR (ys_of P))) as [Gb|Gb]; [|reflexivity]. cbn [andb].
    pose proof EPS_pos as He.
    assert (Hprod : 0 < popvarR (xs_of P) * popvarR (ys_of P)) by (apply Rmult_lt_0_compat; lra).
    rewrite !xmul_some. rewrite xdiv_some by (apply Rmult_integral_contrapositive_currified; exact Hn0).
    rewrite xsub_some, xsqrt_some by lra.
    rewrite xdiv_some by (apply Rgt_not_eq, sqrt_lt_R0, Hprod).
    f_equal. unfold corrR. rewrite <- (corr_identity (rpairs xs ys) E0). reflexivity.
  Qed.
End TwoSeries.
