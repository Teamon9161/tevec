(* Proofs/KernelsMapFast.v — vrank_tr_fast = vrank_tr (the bind that evaluates its continuation once is the
   bind of Model/Kernels.v).  Axiom-free (no functional extensionality: a congruence lemma for tbind).    *)
From Coq Require Import List.
From Tevec Require Import Base.Prelude Base.Num Model.Driver Model.Kernels Model.SortCmp Model.Rank
     Model.KernelsMap Model.KernelsMapFast.
Import ListNotations.

Lemma tbind1_eq {X Y} (m : tr X) (f : X -> tr Y) : tbind1 m f = tbind m f.
Proof. reflexivity. Qed.

Lemma tbind_ext {X Y} (m : tr X) (f g : X -> tr Y) : (forall x, f x = g x) -> tbind m f = tbind m g.
Proof. intros H. unfold tbind. destruct (snd m); [rewrite H|]; reflexivity. Qed.

Section RankFast.
  Context {A : Type} {NA : Num A} {T : Type} {DT : IsNone T A} {DX : IsNoneX T A}.
  Variables (pct : bool) (nn : nat) (xs : list T) (idx_sorted : list nat).

  Lemma write_run_fast_eq i (v : A) : forall js out,
    write_run_fast idx_sorted i v js out = write_run_tr idx_sorted i v js out.
  Proof.
    induction js as [|j r IH]; intros out; [reflexivity|].
    cbn [write_run_fast write_run_tr]. rewrite !tbind1_eq.
    apply tbind_ext. intros d. rewrite tbind1_eq. apply tbind_ext. intros slot.
    rewrite tbind1_eq. apply tbind_ext. intros o'. apply IH.
  Qed.

  Lemma fill_fast_eq (v : A) : forall is out, fill_fast idx_sorted v is out = fill_tr idx_sorted v is out.
  Proof.
    induction is as [|i r IH]; intros out; [reflexivity|].
    cbn [fill_fast fill_tr]. rewrite tbind1_eq. apply tbind_ext. intros slot.
    rewrite tbind1_eq. apply tbind_ext. intros o'. apply IH.
  Qed.

  Lemma rank_loop_fast_eq : forall is st,
    rank_loop_fast pct nn xs idx_sorted is st = KernelsMap.rank_loop_tr pct nn xs idx_sorted is st.
  Proof.
    induction is as [|i rest IH]; intros st; [reflexivity|].
    cbn [rank_loop_fast KernelsMap.rank_loop_tr]. rewrite tbind1_eq. apply tbind_ext. intros idx.
    rewrite tbind1_eq. apply tbind_ext. intros idx1.
    rewrite tbind1_eq. apply tbind_ext. intros v.
    rewrite tbind1_eq. apply tbind_ext. intros v1.
    destruct (is_none v1).
    { cbv zeta. rewrite tbind1_eq, write_run_fast_eq. reflexivity. }
    destruct (teqb v v1); [apply IH|].
    destruct (r_rep st =? 1)%nat.
    { rewrite tbind1_eq. apply tbind_ext. intros o. apply IH. }
    cbv zeta. rewrite tbind1_eq, write_run_fast_eq. apply tbind_ext. intros o. apply IH.
  Qed.

  Lemma rank_finish_fast_eq len r :
    rank_finish_fast pct nn idx_sorted len r = rank_finish_tr pct nn idx_sorted len r.
  Proof.
    destruct r as [st [idx|]]; cbn [rank_finish_fast rank_finish_tr]; [apply fill_fast_eq|].
    cbv zeta. rewrite tbind1_eq. apply tbind_ext. intros a. apply fill_fast_eq.
  Qed.
End RankFast.

Theorem vrank_tr_fast_eq {A : Type} {NA : Num A} {T : Type} {DT : IsNone T A} {DX : IsNoneX T A}
        (pct rev : bool) (xs : list T) :
  vrank_tr_fast pct rev xs = vrank_tr pct rev xs.
Proof.
  unfold vrank_tr_fast, vrank_tr. cbv zeta.
  destruct (length xs =? 0)%nat; [reflexivity|]. destruct (length xs =? 1)%nat; [reflexivity|].
  rewrite tbind1_eq. apply tbind_ext. intros i0. rewrite tbind1_eq. apply tbind_ext. intros v0.
  destruct (is_none v0); [reflexivity|]. rewrite tbind1_eq, rank_loop_fast_eq. apply tbind_ext. intros r.
  apply rank_finish_fast_eq.
Qed.
