(* Proofs/HalfLifeProbes.v — C20: the two loops of half_life, WHICH lags they probe, and when the probed correlation
   is defined.
   1. `doubling_tr` / `bisect_tr` / `half_life_tr` are the two loops of Model/HalfLife.v with the list of the lags at
      which the oracle is evaluated recorded next to the result (same control flow; `*_tr_fst`: erasing the trace gives
      the model back, for every oracle, fuel and state).  The bisection of a bracket IS `bis_end` / `mids`, for every
      oracle: never out of fuel, no underflow.
   2. ANY oracle, len >= 1.  Let j be the first exponent at which the oracle is false.  If 2^(j-1) < len the doubling
      phase probes EXACTLY 2^0, 2^1, .., 2^j — no lag is skipped for any other reason, in particular not because of
      min_periods — and hands the bracket (2^(j-1) or 0, 2^j capped at len-1) to the bisection; the result r is in
      range, and it is the cap len-1 or a genuine down-crossing: oracle false at r and true at r-1 (or r = 1).
      Otherwise the oracle is true on the whole doubling sequence up to the first power of two >= len, and
      `n - last_n` underflows.  An oracle that is false beyond the length (the executable one is:
      Proofs/HalfLifeExec.v) is always in the first case.
   3. The executable oracle: autocorr mp nv xs lag = Pearson's r of the complete pairs (x[i+lag], x[i]); it is null
      iff fewer than max(mp, 2) such pairs or no spread — so a lag that leaves exactly min_periods pairs IS evaluated.
   4. The executable half_life at every carrier whose NaN tests as NaN (binary64 included), every element type whose
      T::none() is a null, every series, every min_periods.
   5. half_life is encoding independent: two series with the same option view, two dictionaries whose T::none() is
      a null — the same probes get the same answers, so the same half-life (f64 vs Option<f64>).
   Items 1 and 2 are axiom-free.                                                                               *)
From Coq Require Import Reals Lra Lia List ZArith Bool.
From Tevec Require Import Base.Prelude Model.MapOps.
From Tevec Require Import Base.Num Base.XR Spec.Stats Spec.Stats2 Model.HalfLife
     Model.Composite Model.NullView Proofs.Quantile Proofs.AggXR Proofs.Agg Proofs.ViewBase Proofs.NullView
     Proofs.HalfLife Proofs.HalfLifeExec.
Import ListNotations.

Section Traced.
  Variable above : nat -> bool.
  Variable len : nat.

  Fixpoint doubling_tr (fuel n last_n i : nat) : option (nat * nat) * list nat :=
    match fuel with
    | O => (None, [])
    | S fuel' =>
        if n <? len then
          let n' := 2 ^ i in
          if above n' then let rt := doubling_tr fuel' n' n' (S i) in (fst rt, n' :: snd rt)
          else (Some (n', last_n), [n'])
        else (Some (n, last_n), [])
    end.

  Fixpoint bisect_tr (fuel n last_n : nat) : option (res nat) * list nat :=
    match fuel with
    | O => (None, [])
    | S fuel' =>
        match usub n last_n with
        | Panic k => (Some (Panic k), [])
        | Ok d =>
            if 1 <? d then
              let life := (n + last_n) / 2 in
              let rt := if above life then bisect_tr fuel' n life else bisect_tr fuel' life last_n in
              (fst rt, life :: snd rt)
            else (Some (Ok n), [])
        end
    end.

  Definition half_life_tr : option (res nat) * list nat :=
    if len =? 0 then (Some (Ok 0), [])
    else
      let d := doubling_tr (S (S len)) 0 0 0 in
      match fst d with
      | None => (None, snd d)
      | Some (n, last_n) => let b := bisect_tr (S len) (Nat.min n (len - 1)) last_n in (fst b, snd d ++ snd b)
      end.

  Lemma doubling_tr_fst fuel : forall n last i, fst (doubling_tr fuel n last i) = doubling above len fuel n last i.
  Proof.
    induction fuel as [|fuel IH]; intros n last i; [reflexivity|]. cbn [doubling_tr doubling].
    destruct (n <? len); [|reflexivity]. destruct (above (2 ^ i)); [|reflexivity]. cbn [fst]. apply IH.
  Qed.
  Lemma bisect_tr_fst fuel : forall n last, fst (bisect_tr fuel n last) = bisect above fuel n last.
  Proof.
    induction fuel as [|fuel IH]; intros n last; [reflexivity|]. cbn [bisect_tr bisect].
    destruct (usub n last) as [d|k]; [|reflexivity]. destruct (1 <? d); [|reflexivity].
    cbn [fst]. destruct (above ((n + last) / 2)); apply IH.
  Qed.
  Theorem half_life_tr_fst : fst half_life_tr = half_life above len.
  Proof.
    unfold half_life_tr, half_life. destruct (len =? 0); [reflexivity|].
    rewrite doubling_tr_fst. destruct (doubling above len (S (S len)) 0 0 0) as [[n last]|]; [|reflexivity].
    cbn [fst]. apply bisect_tr_fst.
  Qed.

  (* the spec of the bisection phase: the midpoints determined by the answers, and the bracket end it stops at;
     k bounds the number of steps (k = n - last is always enough) *)
  Fixpoint mids (k n last : nat) : list nat :=
    match k with
    | O => []
    | S k' => if 1 <? n - last then
                let m := (n + last) / 2 in m :: (if above m then mids k' n m else mids k' m last)
              else []
    end.
  Fixpoint bis_end (k n last : nat) : nat :=
    match k with
    | O => n
    | S k' => if 1 <? n - last then
                let m := (n + last) / 2 in if above m then bis_end k' n m else bis_end k' m last
              else n
    end.

  (* the traced bisection IS the spec, for any oracle and every bound k >= n - last: each step shrinks the bracket,
     so fuel and k outlast it, and the bracket stays ordered, so `n - last_n` never underflows *)
  Lemma bisect_tr_spec fuel : forall k n last,
    last <= n -> n - last < fuel -> n - last <= k ->
    bisect_tr fuel n last = (Some (Ok (bis_end k n last)), mids k n last).
  Proof.
    induction fuel as [|fuel IH]; intros k n last Hle Hf Hk; [lia|].
    cbn [bisect_tr]. rewrite (usub_le n last Hle).
    destruct k as [|k]; cbn [bis_end mids].
    - replace (n - last) with 0 by lia. reflexivity.
    - destruct (1 <? n - last) eqn:E; [|reflexivity].
      apply Nat.ltb_lt in E. pose proof (mid_between n last E) as Hm.
      destruct (above ((n + last) / 2)); rewrite (IH k) by lia; reflexivity.
  Qed.

  Lemma bisect_underflow fuel n last : n < last -> bisect above (S fuel) n last = Some (Panic Underflow).
  Proof.
    intros H. cbn [bisect]. unfold usub. rewrite (proj2 (Nat.leb_gt last n) H). reflexivity.
  Qed.

  (* where the bisection ends: inside the bracket, at its upper end or at a lag where the oracle is false, and
     (unless the bracket is empty) right after its lower end or after a lag where the oracle is true *)
  Lemma bis_end_spec k : forall n last,
    last <= n -> n - last <= k ->
    last <= bis_end k n last <= n /\
    (bis_end k n last = n \/ above (bis_end k n last) = false) /\
    (last < n -> last < bis_end k n last /\
                 (bis_end k n last - 1 = last \/ above (bis_end k n last - 1) = true)).
  Proof.
    induction k as [|k IH]; intros n last Hle Hk; cbn [bis_end].
    - split; [lia|]. split; [left; reflexivity|lia].
    - destruct (1 <? n - last) eqn:E.
      + apply Nat.ltb_lt in E. pose proof (mid_between n last E) as Hm. set (m := (n + last) / 2) in *.
        destruct (above m) eqn:Ea.
        * destruct (IH n m ltac:(lia) ltac:(lia)) as (Hin & Hhi & Hlo). destruct (Hlo ltac:(lia)) as (Hlt & Hb).
          split; [lia|]. split; [exact Hhi|]. intros _. split; [lia|].
          right. destruct Hb as [->|Hb]; [exact Ea|exact Hb].
        * destruct (IH m last ltac:(lia) ltac:(lia)) as (Hin & Hhi & Hlo).
          split; [lia|]. split; [|intros _; apply Hlo; lia].
          right. destruct Hhi as [->|Hhi]; [exact Ea|exact Hhi].
      + apply Nat.ltb_ge in E. split; [lia|]. split; [left; reflexivity|]. intros L. split; [exact L|left; lia].
  Qed.

  Lemma mids_inside k : forall n last, Forall (fun m => last < m < n) (mids k n last).
  Proof.
    induction k as [|k IH]; intros n last; cbn [mids]; [constructor|].
    destruct (1 <? n - last) eqn:E; [|constructor].
    apply Nat.ltb_lt in E. pose proof (mid_between n last E) as Hm. set (m := (n + last) / 2) in *.
    constructor; [exact Hm|].
    destruct (above m).
    - eapply Forall_impl; [|apply IH]. intros a Ha. cbv beta in *. lia.
    - eapply Forall_impl; [|apply IH]. intros a Ha. cbv beta in *. lia.
  Qed.

  (* over a threshold oracle (true exactly below L, from lag 1 on) a bracket whose lower end is below the threshold
     ends at the threshold, capped by the upper end *)
  Lemma bis_end_threshold L :
    (forall m, 1 <= m -> above m = (m <? L)) -> forall k n last,
    last <= n -> n - last <= k -> last < L -> bis_end k n last = Nat.min L n.
  Proof.
    intros Hthr. induction k as [|k IH]; intros n last Hle Hk Hl; cbn [bis_end]; [lia|].
    destruct (1 <? n - last) eqn:E; [|apply Nat.ltb_ge in E; lia].
    apply Nat.ltb_lt in E. pose proof (mid_between n last E) as Hm.
    rewrite Hthr by lia. destruct ((n + last) / 2 <? L) eqn:EL.
    - apply Nat.ltb_lt in EL. apply IH; lia.
    - apply Nat.ltb_ge in EL. rewrite IH by lia. lia.
  Qed.
End Traced.

Lemma first_false_below (f : nat -> bool) (n : nat) :
  (forall i, i < n -> f i = true) \/ exists j, j < n /\ f j = false /\ forall i, i < j -> f i = true.
Proof.
  induction n as [|m IH]; [left; intros i Hi; lia|].
  destruct IH as [IH|(j & Hj & Hf & Hb)].
  - destruct (f m) eqn:E.
    + left. intros i Hi. destruct (Nat.eq_dec i m) as [->|Hne]; [exact E|apply IH; lia].
    + right. exists m. split; [lia|]. split; [exact E|exact IH].
  - right. exists j. split; [lia|]. split; assumption.
Qed.

Section Search.
  Variable above : nat -> bool.
  Variable len : nat.

  (* j is the first exponent at which the oracle is false *)
  Definition first_fail (j : nat) : Prop := above (2 ^ j) = false /\ forall i, i < j -> above (2 ^ i) = true.
  (* the lower end of the bracket: the last power of two at which the oracle was true, 0 if none *)
  Definition prev_pow (j : nat) : nat := match j with O => 0 | S j' => 2 ^ j' end.
  Definition pows (i k : nat) : list nat := map (Nat.pow 2) (seq i k).

  Lemma first_fail_unique j j' : first_fail j -> first_fail j' -> j = j'.
  Proof.
    intros [F1 B1] [F2 B2]. destruct (Nat.lt_trichotomy j j') as [L|[E|L]]; [|exact E|].
    - rewrite (B2 j L) in F1. discriminate.
    - rewrite (B1 j' L) in F2. discriminate.
  Qed.
  Lemma prev_pow_lt j : prev_pow j < 2 ^ j.
  Proof.
    destruct j as [|j]; cbn [prev_pow]; [cbn; lia|]. rewrite Nat.pow_succ_r'. pose proof (pow2_pos j). lia.
  Qed.
  Lemma prev_pow_mono i j : i <= j -> prev_pow i <= prev_pow j.
  Proof.
    intros H. destruct i as [|i]; cbn [prev_pow]; [lia|]. destruct j as [|j]; [lia|]. cbn [prev_pow].
    apply Nat.pow_le_mono_r; lia.
  Qed.
  Lemma prev_pow_small j n : prev_pow j < n -> j <= n.
  Proof. destruct j as [|j]; cbn [prev_pow]; [lia|]. pose proof (pow2_gt j). lia. Qed.
  Lemma prev_pow_above j : first_fail j -> prev_pow j = 0 \/ above (prev_pow j) = true.
  Proof. intros [_ B]. destruct j as [|j]; [left; reflexivity|right]. cbn [prev_pow]. apply B. lia. Qed.

  (* the states the doubling loop passes through are (n, last_n, i) = (prev_pow i, prev_pow i, i) *)
  Lemma doubling_tr_exact j : first_fail j -> prev_pow j < len -> forall fuel i,
    i <= j -> j - i < fuel ->
    doubling_tr above len fuel (prev_pow i) (prev_pow i) i = (Some (2 ^ j, prev_pow j), pows i (S j - i)).
  Proof.
    intros [Ff Fb] Hp. induction fuel as [|fuel IH]; intros i Hij Hf; [lia|].
    cbn [doubling_tr]. pose proof (prev_pow_mono i j Hij) as Hn.
    rewrite (proj2 (Nat.ltb_lt (prev_pow i) len)) by lia.
    destruct (Nat.eq_dec i j) as [->|Hne].
    - rewrite Ff. replace (S j - j) with 1 by lia. reflexivity.
    - rewrite (Fb i) by lia. pose proof (IH (S i)) as IH'. cbn [prev_pow] in IH'. rewrite IH' by lia.
      cbn [fst snd]. replace (S j - i) with (S (S j - S i)) by lia. reflexivity.
  Qed.

  Lemma doubling_all_true :
    (forall t, prev_pow t < len -> above (2 ^ t) = true) -> forall fuel i,
    i <= S len -> S len < fuel + i ->
    exists t, len <= prev_pow t /\ doubling above len fuel (prev_pow i) (prev_pow i) i = Some (prev_pow t, prev_pow t).
  Proof.
    intros Hall. induction fuel as [|fuel IH]; intros i Hi Hf; [lia|].
    cbn [doubling]. destruct (prev_pow i <? len) eqn:E.
    - apply Nat.ltb_lt in E. rewrite (Hall i E). pose proof (prev_pow_small i len E). apply (IH (S i)); lia.
    - apply Nat.ltb_ge in E. exists i. split; [exact E|reflexivity].
  Qed.

  Lemma first_fail_or_all_true :
    (exists j, first_fail j /\ prev_pow j < len) \/ (forall t, prev_pow t < len -> above (2 ^ t) = true).
  Proof.
    destruct (first_false_below (fun t => above (2 ^ t)) (S len)) as [Hall|(j & _ & Ff & Fb)].
    - right. intros t Ht. apply Hall. pose proof (prev_pow_small t len Ht). lia.
    - destruct (Nat.lt_ge_cases (prev_pow j) len) as [Hp|Hp].
      + left. exists j. split; [split; assumption|exact Hp].
      + right. intros t Ht. apply Fb. destruct (Nat.lt_ge_cases t j) as [L|L]; [exact L|].
        pose proof (prev_pow_mono j t L). lia.
  Qed.

  Lemma first_fail_exists : (forall k, len <= k -> above k = false) -> exists j, first_fail j.
  Proof.
    intros above_out. destruct (first_false_below (fun i => above (2 ^ i)) (S len)) as [Hall|(j & _ & Ff & Fb)].
    - pose proof (Hall len ltac:(lia)) as H. rewrite above_out in H by (pose proof (pow2_gt len); lia). discriminate.
    - exists j. split; assumption.
  Qed.

  Section NonEmpty.
    Hypothesis Hlen : 1 <= len.

    Theorem half_life_tr_exact j :
      first_fail j -> prev_pow j < len ->
      let n := Nat.min (2 ^ j) (len - 1) in let last := prev_pow j in
      half_life_tr above len = (Some (Ok (bis_end above (n - last) n last)), pows 0 (S j) ++ mids above (n - last) n last).
    Proof.
      intros F Hp n last. unfold half_life_tr. rewrite (proj2 (Nat.eqb_neq len 0)) by lia.
      pose proof (prev_pow_small j len Hp) as Hj.
      pose proof (doubling_tr_exact j F Hp (S (S len)) 0) as Hd. cbn [prev_pow] in Hd.
      rewrite Hd by lia. cbn [fst snd]. rewrite Nat.sub_0_r. fold n last.
      pose proof (prev_pow_lt j) as Hlt.
      rewrite (bisect_tr_spec above (S len) (n - last) n last) by (unfold n, last; lia).
      reflexivity.
    Qed.

    Theorem half_life_exact j :
      first_fail j -> prev_pow j < len ->
      let n := Nat.min (2 ^ j) (len - 1) in let last := prev_pow j in
      half_life above len = Some (Ok (bis_end above (n - last) n last)).
    Proof. intros F Hp n last. rewrite <- half_life_tr_fst, (half_life_tr_exact j F Hp). reflexivity. Qed.

    (* the result: inside the bracket left by the doubling phase, and the cap or a genuine down-crossing *)
    Theorem half_life_crossing j r :
      first_fail j -> prev_pow j < len -> half_life above len = Some (Ok r) ->
      prev_pow j <= r <= Nat.min (2 ^ j) (len - 1) /\ (prev_pow j < len - 1 -> prev_pow j < r) /\
      (r = len - 1 \/ (above r = false /\ (r = 1 \/ above (r - 1) = true))).
    Proof.
      intros F Hl Hr. rewrite (half_life_exact j F Hl) in Hr. injection Hr as Hr.
      pose proof (prev_pow_lt j) as Hp.
      set (n := Nat.min (2 ^ j) (len - 1)) in *. set (last := prev_pow j) in *.
      destruct (bis_end_spec above (n - last) n last ltac:(unfold n; lia) ltac:(lia)) as (Hin & Hhi & Hlo).
      rewrite Hr in *. split; [exact Hin|]. split; [intros Hc; apply Hlo; unfold n; lia|].
      destruct (Nat.eq_dec r (len - 1)) as [E|Hne]; [left; exact E|right].
      (* r is not the cap: if it is the upper end, that is 2 ^ j, where the oracle is false; the bracket was not empty *)
      split; [destruct Hhi as [Hhi|Hhi]; [|exact Hhi]; replace r with (2 ^ j) by (unfold n in *; lia); apply F|].
      destruct (Hlo ltac:(unfold n in *; lia)) as (Hlt & [Hb|Hb]); [|right; exact Hb].
      destruct (prev_pow_above j F) as [P0|Pa]; [left; fold last in P0; lia|right; rewrite Hb; exact Pa].
    Qed.

    (* ANY oracle: the search never runs out of fuel; it returns a lag in range, or it panics with the underflow
            of `n - last_n`, and that exactly when the oracle stays true on the whole doubling sequence, i.e. also at
            the first power of two >= len — a lag at which the real autocorrelation is null (autocorr_out).  So the
            hypothesis "false for lags >= len" of half_life_range is needed only at that one lag, and it IS needed. *)
    Theorem half_life_any_oracle :
      (exists j, first_fail j /\ prev_pow j < len /\
         exists r, half_life above len = Some (Ok r) /\ r <= len - 1 /\ (r = 0 <-> len < 2)) \/
      ((forall t, prev_pow t < len -> above (2 ^ t) = true) /\ half_life above len = Some (Panic Underflow)).
    Proof.
      destruct first_fail_or_all_true as [(j & F & Hp)|Hall].
      - left. exists j. split; [exact F|]. split; [exact Hp|].
        pose proof (half_life_exact j F Hp) as Hr. eexists. split; [exact Hr|].
        destruct (half_life_crossing j _ F Hp Hr) as ((H1 & H2) & H3 & _). lia.
      - right. split; [exact Hall|]. unfold half_life. rewrite (proj2 (Nat.eqb_neq len 0)) by lia.
        destruct (doubling_all_true Hall (S (S len)) 0) as (t & Ht & Hd); [lia|lia|].
        cbn [prev_pow] in Hd. rewrite Hd. apply bisect_underflow. lia.
    Qed.

    Corollary half_life_panics_iff :
      half_life above len = Some (Panic Underflow) <-> forall t, prev_pow t < len -> above (2 ^ t) = true.
    Proof.
      destruct half_life_any_oracle as [(j & [Ff _] & Hp & r & Hr & _)|(Hall & Hr)].
      - split; [rewrite Hr; discriminate|]. intros Hall. rewrite (Hall j Hp) in Ff. discriminate.
      - split; [intros _; exact Hall|intros _; exact Hr].
    Qed.

    Section FalseBeyond.
      (* a lag >= len shifts every element out: the lagged series is all null and the correlation is NaN *)
      Hypothesis above_out : forall k, len <= k -> above k = false.

      Lemma prev_pow_in j : first_fail j -> prev_pow j < len.
      Proof.
        intros F. destruct (prev_pow_above j F) as [E|Ha]; [lia|].
        destruct (Nat.lt_ge_cases (prev_pow j) len) as [L|L]; [exact L|]. rewrite (above_out _ L) in Ha. discriminate.
      Qed.

      (* never out of fuel, never a panic, in range, 0 iff len < 2 *)
      Theorem half_life_range :
        exists r, half_life above len = Some (Ok r) /\ r <= len - 1 /\ (r = 0 <-> len < 2).
      Proof.
        destruct half_life_any_oracle as [(j & _ & _ & H)|(Hall & _)]; [exact H|exfalso].
        destruct (first_fail_exists above_out) as (j & F). pose proof (prev_pow_in j F) as Hp.
        destruct F as [Ff _]. rewrite (Hall j Hp) in Ff. discriminate.
      Qed.

      (* threshold oracle, above exactly for the lags 1 .. L-1: the first lag that is not, capped at len-1;
         L = 0 ("never above") behaves as L = 1 *)
      Theorem half_life_threshold (L : nat) :
        (forall k, 1 <= k -> above k = (k <? L)) ->
        half_life above len = Some (Ok (Nat.min (Nat.max L 1) (len - 1))).
      Proof.
        intros Hthr. destruct (first_fail_exists above_out) as (j & F). pose proof (prev_pow_in j F) as Hp.
        rewrite (half_life_exact j F Hp). cbv zeta. do 2 f_equal.
        assert (Hthr' : forall m, 1 <= m -> above m = (m <? Nat.max L 1)).
        { intros m Hm. rewrite (Hthr m Hm). destruct (Nat.ltb_spec m L), (Nat.ltb_spec m (Nat.max L 1)); try reflexivity; lia. }
        pose proof (prev_pow_lt j) as Hlt. pose proof (pow2_pos j) as Hpos.
        assert (Hlo : prev_pow j < Nat.max L 1).
        { destruct (prev_pow_above j F) as [E|Ha]; [lia|].
          destruct (Nat.eq_dec (prev_pow j) 0) as [E|Hne]; [lia|].
          rewrite Hthr' in Ha by lia. apply Nat.ltb_lt in Ha. exact Ha. }
        assert (Hhi : Nat.max L 1 <= 2 ^ j).
        { destruct F as [Ff _]. rewrite Hthr' in Ff by exact Hpos. apply Nat.ltb_ge in Ff. exact Ff. }
        rewrite (bis_end_threshold above (Nat.max L 1) Hthr') by lia. lia.
      Qed.
    End FalseBeyond.
  End NonEmpty.
End Search.

(* what the probe theorems say of an outcome `out` of the search with the oracle ab over len lags: the exponent j at
   which the doubling phase stopped, the exact probe sequence, and where the result r lies *)
Definition probe_report (ab : nat -> bool) (len : nat) (out : option (res nat)) : Prop :=
  exists j r,
    first_fail ab j /\
    out = Some (Ok r) /\
    (let n := Nat.min (2 ^ j) (len - 1) in let last := prev_pow j in
     half_life_tr ab len = (Some (Ok r), pows 0 (S j) ++ mids ab (n - last) n last) /\
     Forall (fun m => last < m < n) (mids ab (n - last) n last)) /\
    prev_pow j <= r <= Nat.min (2 ^ j) (len - 1) /\ (prev_pow j < len - 1 -> prev_pow j < r) /\
    (r = len - 1 \/ (ab r = false /\ (r = 1 \/ ab (r - 1) = true))).

Theorem half_life_probes (above : nat -> bool) (len : nat) :
  1 <= len -> (forall k, len <= k -> above k = false) -> probe_report above len (half_life above len).
Proof.
  intros Hlen Hout. destruct (first_fail_exists above len Hout) as (j & F).
  pose proof (prev_pow_in above len Hlen Hout j F) as Hp.
  pose proof (half_life_exact above len Hlen j F Hp) as Hr.
  eexists j, _. split; [exact F|]. split; [exact Hr|]. split.
  - split; [apply (half_life_tr_exact above len Hlen j F Hp)|apply mids_inside].
  - apply (half_life_crossing above len Hlen j _ F Hp Hr).
Qed.

Section ExecOracle.
  Context {T : Type} {DT : IsNone T XR}.
  Variable nv : T.
  Lemma lagged_eq (lag : nat) (xs : list T) :
    lag < length xs -> lagged nv lag xs = repeat nv lag ++ firstn (length xs - lag) xs.
  Proof.
    intros H. unfold lagged, shift.
    replace (Z.of_nat (length xs) <=? Z.abs (Z.of_nat lag))%Z with false by (symmetry; apply Z.leb_gt; lia).
    rewrite Z.abs_eq by lia. rewrite Nat2Z.id.
    destruct lag as [|lag].
    - cbn [Z.of_nat Z.ltb Z.compare repeat app]. rewrite Nat.sub_0_r, firstn_all. reflexivity.
    - replace (0 <? Z.of_nat (S lag))%Z with true by (symmetry; apply Z.ltb_lt; lia).
      unfold usub. replace (S lag <=? length xs) with true by (symmetry; apply Nat.leb_le; lia).
      reflexivity.
  Qed.

  Hypothesis Hnv : Num.is_none nv = true.

  (* the first `lag` pairs have the fill on the lagged side: pairwise deletion drops them *)
  Lemma rp_lag : forall (lag : nat) (xs ys : list T),
    lag <= length xs ->
    rp (DT := DT) (DT2 := DT) (@idA XR) (combine xs (repeat nv lag ++ ys))
    = rp (DT := DT) (DT2 := DT) (@idA XR) (combine (skipn lag xs) ys).
  Proof.
    induction lag as [|lag IH]; intros xs ys H; [reflexivity|].
    destruct xs as [|x xs]; [cbn in H; lia|]. cbn [repeat app combine skipn].
    unfold rp at 1. cbn [flat_map fst snd]. fold (rp (DT := DT) (DT2 := DT) (@idA XR) (combine xs (repeat nv lag ++ ys))).
    unfold not_none at 2. rewrite Hnv. cbn [negb]. rewrite andb_false_r. cbn [app].
    apply IH. cbn in H. lia.
  Qed.

  (* the complete pairs (x[i + lag], x[i]) *)
  Definition lag_pairs (xs : list T) (lag : nat) : list (R * R) :=
    rpairs (DT := DT) (DT2 := DT) (@idA XR) (skipn lag xs) xs.

  Lemma rpairs_lagged (xs : list T) (lag : nat) :
    rpairs (DT := DT) (DT2 := DT) (@idA XR) xs (lagged nv lag xs) = lag_pairs xs lag.
  Proof.
    unfold lag_pairs, rpairs. destruct (Nat.lt_ge_cases lag (length xs)) as [L|L].
    - rewrite (lagged_eq lag xs L), rp_lag by lia.
      rewrite (combine_firstn_l (skipn lag xs) xs), skipn_length. reflexivity.
    - rewrite (lagged_out nv lag xs L). rewrite <- (app_nil_r (repeat nv (length xs))), rp_lag by lia.
      rewrite !skipn_all2 by lia. reflexivity.
  Qed.

  Lemma canonical_lagged (xs : list T) (lag : nat) :
    canonical (@idA XR) xs -> canonical (@idA XR) (lagged nv lag xs).
  Proof.
    intros Hc v Hv Hn. destruct (Nat.lt_ge_cases lag (length xs)) as [L|L].
    - rewrite (lagged_eq lag xs L) in Hv. apply in_app_or in Hv. destruct Hv as [Hv|Hv].
      + apply repeat_spec in Hv. subst v. unfold not_none in Hn. rewrite Hnv in Hn. discriminate.
      + apply Hc; [|exact Hn]. rewrite <- (firstn_skipn (length xs - lag) xs). apply in_or_app. left. exact Hv.
    - rewrite (lagged_out nv lag xs L) in Hv. apply repeat_spec in Hv. subst v.
      unfold not_none in Hn. rewrite Hnv in Hn. discriminate.
  Qed.

  Local Open Scope R_scope.

  (* the autocorrelation at lag L is Pearson's r of the complete pairs (x[i + L], x[i]), null below max(mp, 2) pairs
     or on zero spread — every series, every lag (also 0 and >= len), every min_periods (also 0 and 1) *)
  Theorem autocorr_textbook (mp : nat) (xs : list T) (lag : nat) :
    canonical (@idA XR) xs ->
    let P := lag_pairs xs lag in
    autocorr (DT := DT) mp nv xs lag
    = if (length P <? Nat.max mp 2)%nat then None
      else if Rlt_dec EPS (popvarR (xs_of P)) then
             (if Rlt_dec EPS (popvarR (ys_of P)) then Some (corrR P) else None)
           else None.
  Proof.
    intros Hc P. unfold autocorr.
    rewrite (vcorr_textbook mp Hc (canonical_lagged xs lag Hc)), rpairs_lagged. reflexivity.
  Qed.

  Theorem autocorr_defined_iff (mp : nat) (xs : list T) (lag : nat) :
    canonical (@idA XR) xs ->
    let P := lag_pairs xs lag in
    autocorr (DT := DT) mp nv xs lag = None <->
    (length P < Nat.max mp 2)%nat \/ ~ EPS < popvarR (xs_of P) \/ ~ EPS < popvarR (ys_of P).
  Proof.
    intros Hc P. unfold autocorr.
    rewrite (vcorr_null mp Hc (canonical_lagged xs lag Hc)), rpairs_lagged. reflexivity.
  Qed.

  (* the test of both loops: true exactly when the correlation is defined and exceeds 1/2 *)
  Theorem above_half_iff (mp : nat) (xs : list T) (lag : nat) :
    canonical (@idA XR) xs ->
    let P := lag_pairs xs lag in
    above_half (DT := DT) mp nv xs lag = true <->
    (Nat.max mp 2 <= length P)%nat /\ EPS < popvarR (xs_of P) /\ EPS < popvarR (ys_of P) /\ 1 / 2 < corrR P.
  Proof.
    intros Hc P. unfold above_half. rewrite (autocorr_textbook mp xs lag Hc). fold P. rewrite nhalf_xr.
    destruct (length P <? Nat.max mp 2)%nat eqn:E.
    { apply Nat.ltb_lt in E. split; [discriminate|]. intros (H & _). lia. }
    apply Nat.ltb_ge in E.
    destruct (Rlt_dec EPS (popvarR (xs_of P))) as [Ga|Ga]; [|split; [discriminate|tauto]].
    destruct (Rlt_dec EPS (popvarR (ys_of P))) as [Gb|Gb]; [|split; [discriminate|tauto]].
    change (nisnan (Some (corrR P))) with false. rewrite orb_false_r.
    destruct (Rle_dec (corrR P) (1 / 2)) as [L|L].
    - rewrite xleb_true by exact L. split; [discriminate|]. intros (_ & _ & _ & H). lra.
    - rewrite xleb_false by exact L. split; [|reflexivity]. intros _. repeat split; try assumption. lra.
  Qed.
End ExecOracle.

(* a series without nulls (f64 dictionary): the lag-L pairs are ALL len - L overlapping pairs, so the correlation at
   lag L is defined iff len - L >= max(mp, 2) and the spread is not zero — a lag leaving exactly min_periods pairs
   (>= 2) is evaluated *)
Lemma lag_pairs_all_valid (rs : list R) (lag : nat) :
  lag_pairs (DT := IsNoneXR) (map Some rs) lag = combine (skipn lag rs) rs.
Proof.
  unfold lag_pairs, rpairs. rewrite skipn_map.
  generalize (skipn lag rs) as l. intros l. revert rs.
  induction l as [|a l IH]; intros [|b rs]; try reflexivity.
  cbn [map combine]. unfold rp. cbn [flat_map]. fold (rp (DT := IsNoneXR) (DT2 := IsNoneXR) (@idA XR) (combine (map Some l) (map Some rs))).
  rewrite IH. reflexivity.
Qed.
Lemma lag_pairs_all_valid_length (rs : list R) (lag : nat) :
  length (lag_pairs (DT := IsNoneXR) (map Some rs) lag) = length rs - lag.
Proof. rewrite lag_pairs_all_valid, combine_length, skipn_length. lia. Qed.

Theorem autocorr_all_valid_defined_iff (mp : nat) (rs : list R) (lag : nat) :
  let P := combine (skipn lag rs) rs in
  autocorr (DT := IsNoneXR) mp None (map Some rs) lag = None <->
  (length rs - lag < Nat.max mp 2)%nat \/ ~ (EPS < popvarR (xs_of P))%R \/ ~ (EPS < popvarR (ys_of P))%R.
Proof.
  intros P.
  rewrite (autocorr_defined_iff (DT := IsNoneXR) None eq_refl mp (map Some rs) lag (canonical_float _)).
  rewrite lag_pairs_all_valid_length, lag_pairs_all_valid. reflexivity.
Qed.

Section ExecHalfLife.
  Context {A : Type} {NA : Num A} {T : Type} {DT : IsNone T A}.
  Variable dm : NullDict T A.
  Lemma half_life_exec_nonempty (mp : option nat) (nv : T) (xs : list T) :
    MapOps.none dm = Ok nv -> xs <> [] ->
    half_life_exec (DT := DT) dm mp xs
    = half_life (above_half (DT := DT) (mp_default mp (length xs)) nv xs) (length xs) /\ 1 <= length xs.
  Proof.
    intros Hn Hne. destruct xs as [|x xs']; [contradiction|]. split; [|cbn [length]; lia].
    unfold half_life_exec. cbn [length Nat.eqb]. rewrite Hn. reflexivity.
  Qed.

  Hypothesis nan_is_nan : nisnan (nnan : A) = true.

  Theorem half_life_exec_total (mp : option nat) (nv : T) (xs : list T) :
    MapOps.none dm = Ok nv -> Num.is_none nv = true ->
    exists r, half_life_exec (DT := DT) dm mp xs = Some (Ok r) /\
              r <= length xs - 1 /\ (r = 0 <-> length xs < 2).
  Proof.
    intros Hn Hnv. destruct xs as [|x xs'] eqn:Exs.
    - exists 0. split; [reflexivity|]. cbn [length]. lia.
    - rewrite <- Exs. destruct (half_life_exec_nonempty mp nv xs Hn) as [-> Hlen]; [rewrite Exs; discriminate|].
      apply (half_life_range _ _ Hlen). intros k Hk. apply above_half_out; assumption.
  Qed.

  Theorem half_life_exec_threshold (mp : option nat) (nv : T) (xs : list T) (L : nat) :
    MapOps.none dm = Ok nv -> Num.is_none nv = true -> xs <> [] ->
    (forall k, 1 <= k -> above_half (DT := DT) (mp_default mp (length xs)) nv xs k = (k <? L)) ->
    half_life_exec (DT := DT) dm mp xs = Some (Ok (Nat.min (Nat.max L 1) (length xs - 1))).
  Proof.
    intros Hn Hnv Hne Hthr. destruct (half_life_exec_nonempty mp nv xs Hn Hne) as [-> Hlen].
    apply (half_life_threshold _ _ Hlen); [|exact Hthr]. intros k Hk. apply above_half_out; assumption.
  Qed.

  Theorem half_life_exec_probes (mp : option nat) (nv : T) (xs : list T) :
    MapOps.none dm = Ok nv -> Num.is_none nv = true -> xs <> [] ->
    probe_report (above_half (DT := DT) (mp_default mp (length xs)) nv xs) (length xs) (half_life_exec (DT := DT) dm mp xs).
  Proof.
    intros Hn Hnv Hne. destruct (half_life_exec_nonempty mp nv xs Hn Hne) as [-> Hlen].
    apply (half_life_probes _ _ Hlen). intros k Hk. apply above_half_out; assumption.
  Qed.

  (* element types without a null value (plain integers, DESIGN 5.4): T::none() panics in the first vshift, whatever the
     carrier; only the empty series returns *)
  Theorem half_life_exec_none_panics (mp : option nat) (k : panic_kind) (xs : list T) :
    MapOps.none dm = Panic k ->
    half_life_exec (DT := DT) dm mp xs = if length xs =? 0 then Some (Ok 0) else Some (Panic k).
  Proof. intros Hn. unfold half_life_exec. destruct (length xs =? 0); [reflexivity|]. rewrite Hn. reflexivity. Qed.
End ExecHalfLife.

Section ExecEnc.
  Context {T1 T2 : Type} (D1 : IsNone T1 XR) (D2 : IsNone T2 XR).
  Variables (dm1 : NullDict T1 XR) (dm2 : NullDict T2 XR) (nv1 : T1) (nv2 : T2).
  Hypothesis Hn1 : MapOps.none dm1 = Ok nv1.
  Hypothesis Hn2 : MapOps.none dm2 = Ok nv2.
  Hypothesis Hnv1 : Num.is_none (IsNone := D1) nv1 = true.
  Hypothesis Hnv2 : Num.is_none (IsNone := D2) nv2 = true.

  Lemma nv_same_view : same_view D1 D2 nv1 nv2.
  Proof. unfold same_view, to_opt. rewrite Hnv1, Hnv2. reflexivity. Qed.

  Lemma lagged_view xs1 xs2 lag :
    SameView D1 D2 xs1 xs2 -> SameView D1 D2 (lagged nv1 lag xs1) (lagged nv2 lag xs2).
  Proof.
    intros HS. pose proof (Forall2_len HS) as HL. unfold SameView.
    destruct (Nat.lt_ge_cases lag (length xs1)) as [L|L].
    - rewrite (lagged_eq nv1 lag xs1 L), (lagged_eq nv2 lag xs2) by lia.
      apply Forall2_app; [apply Forall2_repeat, nv_same_view|]. rewrite HL. apply Forall2_firstn. exact HS.
    - rewrite (lagged_out nv1 lag xs1 L), (lagged_out nv2 lag xs2) by lia. rewrite HL.
      apply Forall2_repeat, nv_same_view.
  Qed.

  Lemma above_half_view mp xs1 xs2 lag :
    SameView D1 D2 xs1 xs2 -> above_half (DT := D1) mp nv1 xs1 lag = above_half (DT := D2) mp nv2 xs2 lag.
  Proof.
    intros HS. unfold above_half, autocorr.
    rewrite (vcorr_pairs (@idA XR) xs1 (lagged nv1 lag xs1) xs2 (lagged nv2 lag xs2)
               (vpairs_same_view HS (lagged_view xs1 xs2 lag HS)) mp).
    reflexivity.
  Qed.

  Theorem half_life_exec_view mp xs1 xs2 :
    SameView D1 D2 xs1 xs2 -> half_life_exec (DT := D1) dm1 mp xs1 = half_life_exec (DT := D2) dm2 mp xs2.
  Proof.
    intros HS. unfold half_life_exec. rewrite (Forall2_len HS), Hn1, Hn2.
    destruct (length xs2 =? 0); [reflexivity|].
    apply half_life_ext. intros k _. apply above_half_view. exact HS.
  Qed.
End ExecEnc.

(* the concrete reading against an "optimisation" that skips a lag because it leaves only min_periods pairs: on a series
   without nulls the test at lag L is true iff len - L >= max(mp, 2), both spreads exceed the floor and r > 1/2 *)
Theorem above_half_all_valid_iff (mp : nat) (rs : list R) (lag : nat) :
  let P := combine (skipn lag rs) rs in
  above_half (DT := IsNoneXR) mp None (map Some rs) lag = true <->
  (Nat.max mp 2 <= length rs - lag)%nat /\ (EPS < popvarR (xs_of P))%R /\ (EPS < popvarR (ys_of P))%R /\ (1 / 2 < corrR P)%R.
Proof.
  intros P.
  rewrite (above_half_iff (DT := IsNoneXR) None eq_refl mp (map Some rs) lag (canonical_float _)).
  rewrite lag_pairs_all_valid_length, lag_pairs_all_valid. reflexivity.
Qed.
