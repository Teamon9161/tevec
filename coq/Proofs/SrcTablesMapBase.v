(* Proofs/SrcTablesMapBase.v — what the four conformance files of the translator tie for binning / unique (C14,
   SrcTablesMapBin.v), the generators (C19, SrcTablesMapGen.v), partition / rank (C12, SrcTablesMapPart.v) and the extrema
   kernels (C03, SrcTablesMapExt.v) share: the `conformance` tactic that names a broken theorem in the error message (the one
   Proofs/SrcTablesAgg.v and Proofs/SrcTablesDrv.v use as well), table lookups, and the reading of a comparison operator on
   nat.  Deliberately independent of Proofs/SrcTablesAgg.v, and without any proof that reads a table, so that a changed
   aggregation table does not break the obligations of these four properties.  Axiom-free.                               *)
From Coq Require Import List String PeanoNat Bool.
From Tevec Require Import Gen.SrcTables.
Import ListNotations.
Local Open Scope string_scope.
Local Open Scope nat_scope.

(* A failing conformance proof names the theorem in the error message (the check's replay quotes the tail of the log). *)
Tactic Notation "conformance" constr(name) tactic3(t) :=
  first [ solve [ t ] | fail 1 "SOURCE TABLE NO LONGER CONFORMS TO THE MODEL:" name ].

Fixpoint slookup {V : Type} (n : string) (l : list (string * V)) : option V :=
  match l with
  | [] => None
  | (k, v) :: r => if String.eqb n k then Some v else slookup n r
  end.

Fixpoint blookup {V : Type} (b : bool) (l : list (bool * V)) : option V :=
  match l with
  | [] => None
  | (k, v) :: r => if Bool.eqb b k then Some v else blookup b r
  end.

(* Rust's comparison operators on usize *)
Definition mcmp_nat (c : src_cmp) (a b : nat) : bool :=
  match c with
  | CLt => a <? b | CLe => a <=? b | CGt => b <? a | CGe => b <=? a | CEq => a =? b | CNe => negb (a =? b)
  end.

(* ... and on bool (`(x > 0) == (y > 0)`) *)
Definition mcmp_bool (c : src_cmp) (a b : bool) : bool :=
  match c with CEq => Bool.eqb a b | CNe => negb (Bool.eqb a b) | _ => false end.

(* `a..b` / `a..=b`: the number of iterations of `for i in a..b` *)
Definition rng_count (r : src_rng) (a b : nat) : nat := match r with RgExcl => b - a | RgIncl => S b - a end.

Definition sortcmp_pick {X} (s : src_sortcmp) (fwd rev : X) : X := match s with SrcSortCmp => fwd | SrcSortCmpRev => rev end.
