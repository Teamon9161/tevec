(* Proofs/Features2.v — C01 complements:
   (a) plain ts_fdiff against its null-aware twin on null-free input;
   (b) sums and central moments of a constant list (for: a constant window has no spread);
   (c) the ewm denominator vanishes on the empty window only;
   (d) window = 0 for the fractional differences.                                               *)
From Coq Require Import Reals Lra Lia List.
From Tevec Require Import Base.Prelude Base.Num Base.XR Spec.Stats Model.Driver Proofs.Driver
     Model.Features Model.Fdiff Proofs.Outcome Proofs.Features Proofs.Fdiff Proofs.Fdiff2.
Import ListNotations.
Local Open Scope R_scope.

(* ====================================================================== *)
(* (a) plain ts_fdiff = null-aware ts_vfdiff on null-free input *)

(* position by position: the null-aware twin only adds the min_periods mask; on a null-free
   series the number of valid elements of the window is min(i+1, w) *)
Theorem plain_fdiff_vs_vfdiff body d (w : nat) (mp : option nat) (rs : list R) :
  (1 <= w)%nat ->
  exists outp outv,
    ts_fdiff body (Some d) w (fun x : XR => x) (map Some rs) = Done outp /\
    ts_vfdiff (DT := IsNoneXR) body (Some d) w mp (map Some rs) = Done outv /\
    length outp = length rs /\ length outv = length rs /\
    forall i, (i < length rs)%nat ->
      nth_error outv i =
      if (mp_eff mp w 0 <=? Nat.min (S i) w)%nat then nth_error outp i else Some None.
Proof.
  intros Hw.
  destruct (ts_fdiff_spec body d w rs Hw) as (outp & P1 & P2 & P3).
  destruct (ts_vfdiff_spec body d w mp (map Some rs) Hw) as (outv & V1 & V2 & V3).
  rewrite map_length in V2, V3.
  exists outp, outv. repeat split; try assumption.
  intros i Hi. rewrite (V3 i Hi), (P3 i Hi). cbv zeta.
  rewrite win_map, valid_map_some, win_length_min by assumption.
  destruct (mp_eff mp w 0 <=? Nat.min (S i) w)%nat; reflexivity.
Qed.

(* whole outputs coincide as soon as min_periods cannot mask anything (effective value <= 1) *)
Theorem plain_family_fdiff body d (w : nat) (mp : option nat) (rs : list R) :
  (1 <= w)%nat -> (mp_eff mp w 0 <= 1)%nat ->
  ts_fdiff body (Some d) w (fun x : XR => x) (map Some rs)
  = ts_vfdiff (DT := IsNoneXR) body (Some d) w mp (map Some rs).
Proof.
  intros Hw Hmp.
  destruct (plain_fdiff_vs_vfdiff body d w mp rs Hw) as (outp & outv & P1 & V1 & P2 & V2 & H).
  rewrite P1, V1. f_equal. apply nth_error_ext. intros i.
  destruct (Nat.lt_ge_cases i (length rs)) as [Hi|Hi].
  - rewrite (H i Hi).
    replace (mp_eff mp w 0 <=? Nat.min (S i) w)%nat with true by (symmetry; apply Nat.leb_le; lia).
    reflexivity.
  - transitivity (@None XR); [|symmetry]; apply nth_error_None; lia.
Qed.

(* ====================================================================== *)
(* (b) sums and deviations of a constant list *)

Lemma samplevar_nonneg' (V : list R) : (2 <= length V)%nat -> 0 <= samplevarR V.
Proof. apply samplevarR_nonneg. Qed.

Lemma sumR_repeat c n : sumR (repeat c n) = INR n * c.
Proof.
  induction n as [|n IH]; [cbn; ring|]. cbn [repeat sumR fold_right]. fold (sumR (repeat c n)).
  rewrite IH, S_INR. ring.
Qed.

Lemma devsum_repeat_self k c n : devsum (S k) c (repeat c n) = 0.
Proof.
  unfold devsum. apply sumR_zero. intros x Hx. apply repeat_spec in Hx. subst x.
  rewrite Rminus_diag_eq by reflexivity. cbn [pow]. ring.
Qed.

(* ====================================================================== *)
(* (c) the exponentially weighted mean is null exactly on windows without a valid element (DESIGN 5.6):
       the normalising denominator 1 - (1 - 2/w)^n vanishes iff n = 0, for n <= w
       (for w = 1 the base is -1 and an even n >= 2 would also cancel, but a window of 1 holds <= 1)  *)
Lemma ewm_denominator_zero_iff (w n : nat) :
  (1 <= w)%nat -> (n <= w)%nat ->
  (1 - (1 - 2 / INR w) ^ n = 0 <-> n = 0%nat).
Proof.
  intros Hw Hn. split; [|intros ->; cbn [pow]; ring].
  intros H0. destruct n as [|k]; [reflexivity|exfalso].
  destruct (Nat.eq_dec w 1) as [->|Hw1].
  - assert (k = 0%nat) by lia. subst k. cbn in H0. lra.
  - (* w >= 2: the base q lies in [0, 1), so q * q^k <= q < 1 *)
    assert (Hw2 : 2 <= INR w) by (apply (le_INR 2); lia).
    set (q := 1 - 2 / INR w) in *.
    assert (Hq : 0 <= q < 1).
    { unfold q. assert (0 < 2 / INR w <= 1); [|lra]. split.
      - apply Rdiv_lt_0_compat; lra.
      - apply (Rmult_le_reg_r (INR w)); [lra|]. unfold Rdiv. rewrite Rmult_assoc, Rinv_l by lra. lra. }
    assert (Hk : q ^ k <= 1) by (rewrite <- (pow1 k); apply pow_incr; lra).
    assert (Hk0 : 0 <= q ^ k) by (apply pow_le; lra).
    cbn [pow] in H0. nra.
Qed.

(* ====================================================================== *)
(* (d) window = 0 (why every theorem asks 1 <= w): both fractional differences are rejected, for
       every carrier — the iterator body underflows `window - 1`, the index body asserts        *)
Theorem fdiff_window0 {A} `{Num A} {T} `{IsNone T A} (d : A) (cast : T -> A) mp (xs : list T) :
  ts_fdiff false d 0 cast xs = Panicked Underflow /\
  ts_vfdiff false d 0 mp xs = Panicked Underflow /\
  (xs <> [] -> ts_fdiff true d 0 cast xs = Panicked AssertFail /\
               ts_vfdiff true d 0 mp xs = Panicked AssertFail).
Proof.
  split; [reflexivity|]. split; [reflexivity|]. intros Hx.
  destruct xs as [|x xs]; [contradiction|]. split; reflexivity.
Qed.
