(* Proofs/Audit14.v — property C14 for EVERY carrier the code is generic over.
     Part 1 (vcut): the model `cut1`/`vcut` of Model/Binning.v is generic in the element type A and its `<`, `<=`.
       Here the specification is generic too (extended carrier `gext` = -inf | a | +inf, interval membership written
       with the carrier's own comparisons), the first-match / Err theorems need NO order law at all, uniqueness of
       the enclosing interval and totality with open bounds need the laws of a strict weak order on the non-null
       elements (`CutLaws`), which hold at Z (i32 / i64 / u64 / usize) and at binary64 (f64, and f32 whose values
       are binary64 values) — instances in Part 3.
     Part 2 (vsorted_unique_idx / vsorted_unique): generic in A and its `==`; positional characterisations for
       ARBITRARY series (nulls anywhere) under the laws of a partial equivalence on the non-null elements
       (`EqLaws`), law-free range / non-null / ascending facts about the reported indices.
     Part 3: the laws at Z and binary64; at Z the generic specification is that of Spec/Binning.v.
     Part 4: `unwrap_all`, the edge unwrapping of `vcut_call`.
   The theorems of Props/C14.v about `cut1`, the positional ones about unique and sections (17)-(28) are these, stated
   for every carrier or instantiated at Z and at binary64; the run-length ones (9)-(14) are those of Proofs/Unique.v.
   Stdlib only; axiom-free except the binary64 instances (FloatAxioms through Proofs/CmpOrdFloat.v).          *)
From Coq Require Import ZArith List Lia Bool Sorted.
From Tevec Require Import Base.Prelude Model.Binning Proofs.Binning Proofs.Unique.
Import ListNotations.

(* Part 1: vcut *)

Lemma nth_error_framed {B} (a b : B) l k :
  nth_error (a :: l ++ [b]) k =
  if (k =? 0)%nat then Some a
  else if (k <=? length l)%nat then nth_error l (k - 1)
  else if (k =? S (length l))%nat then Some b else None.
Proof.
  destruct k as [|k]; [reflexivity|].
  cbn [nth_error Nat.eqb]. rewrite Nat.sub_succ, Nat.sub_0_r.
  destruct (Nat.leb_spec (S k) (length l)) as [H|H].
  - apply nth_error_app1. exact H.
  - rewrite nth_error_app2 by lia. destruct (Nat.eqb_spec k (length l)) as [->|H'].
    + rewrite Nat.sub_diag. reflexivity.
    + destruct (k - length l)%nat as [|[|d]] eqn:E; [lia|reflexivity|reflexivity].
Qed.

Lemma sorted_nth {B} (R : B -> B -> Prop) l : StronglySorted R l ->
  forall i j x y, (i < j)%nat -> nth_error l i = Some x -> nth_error l j = Some y -> R x y.
Proof.
  induction 1 as [|a l Hs IH Ha]; intros i j x y Hij Hi Hj; [destruct i; discriminate|].
  destruct j as [|j]; [lia|]. cbn in Hj. destruct i as [|i]; cbn in Hi.
  - injection Hi as <-. rewrite Forall_forall in Ha. apply Ha. eapply nth_error_In. exact Hj.
  - apply (IH i j); [lia|assumption|assumption].
Qed.

Lemma sorted_snoc {B} (R : B -> B -> Prop) l z :
  StronglySorted R l -> Forall (fun x => R x z) l -> StronglySorted R (l ++ [z]).
Proof.
  induction 1 as [|a l Hs IH Ha]; intros Hz; [repeat constructor|].
  inversion Hz as [|? ? Haz Hz']; subst. cbn [app]. constructor; [apply IH; exact Hz'|].
  apply Forall_app. split; [exact Ha|repeat constructor; exact Haz].
Qed.

Section GenCut.
  Context {A : Type}.
  Variables ltb leb : A -> A -> bool.

  (* the carrier extended by the two infinities that `add_bounds` stands for *)
  Inductive gext := GNeg | GFin (a : A) | GPos.

  Definition gext_edges (ab : bool) (edges : list A) : list gext :=
    if ab then GNeg :: map GFin edges ++ [GPos] else map GFin edges.

  (* v lies above the lower edge / below the upper edge of an interval, right- or left-closed *)
  Definition above (right : bool) (lo : gext) (v : A) : bool :=
    match lo with GNeg => true | GFin a => if right then ltb a v else leb a v | GPos => false end.
  Definition below (right : bool) (hi : gext) (v : A) : bool :=
    match hi with GPos => true | GFin b => if right then leb v b else ltb v b | GNeg => false end.

  (* interval number j (between edge j and edge j+1 of the extended edge sequence) contains v *)
  Definition gcontains (right ab : bool) (edges : list A) (j : nat) (v : A) : Prop :=
    exists lo hi, nth_error (gext_edges ab edges) j = Some lo
               /\ nth_error (gext_edges ab edges) (S j) = Some hi
               /\ above right lo v = true /\ below right hi v = true.

  Lemma g_mat_bins_nth (tmin tmax : A) (ab : bool) (edges : list A) k :
    nth_error (mat_bins tmin tmax ab edges) k =
    if ab then
      if (k =? 0)%nat then Some tmin
      else if (k <=? length edges)%nat then nth_error edges (k - 1)
      else if (k =? S (length edges))%nat then Some tmax else None
    else nth_error edges k.
  Proof. unfold mat_bins. destruct ab; [apply nth_error_framed|reflexivity]. Qed.

  Lemma gext_edges_nth (ab : bool) (edges : list A) k :
    nth_error (gext_edges ab edges) k =
    if ab then
      if (k =? 0)%nat then Some GNeg
      else if (k <=? length edges)%nat then option_map GFin (nth_error edges (k - 1))
      else if (k =? S (length edges))%nat then Some GPos else None
    else option_map GFin (nth_error edges k).
  Proof.
    unfold gext_edges. destruct ab; [|apply nth_error_map].
    rewrite nth_error_framed, map_length, nth_error_map. reflexivity.
  Qed.

  Lemma gext_edges_length ab edges :
    length (gext_edges ab edges) = if ab then (length edges + 2)%nat else length edges.
  Proof.
    unfold gext_edges. destruct ab; [|apply map_length].
    cbn [length]. rewrite app_length, map_length. cbn. lia.
  Qed.

  Lemma g_mat_bins_length (tmin tmax : A) ab (edges : list A) :
    length (mat_bins tmin tmax ab edges) = if ab then (length edges + 2)%nat else length edges.
  Proof.
    unfold mat_bins. destruct ab; [|reflexivity].
    cbn [length]. rewrite app_length. cbn. lia.
  Qed.

  Lemma g_scan_some {L} right ab nlab v (ws : list ((A * A) * L)) : forall i lab,
    scan ltb leb right ab nlab v i ws = Some lab ->
    exists k w, nth_error ws k = Some (w, lab) /\ bin_test ltb leb right ab nlab (i + k) w v = true
                /\ forall k' w' lab', (k' < k)%nat -> nth_error ws k' = Some (w', lab') ->
                                      bin_test ltb leb right ab nlab (i + k') w' v = false.
  Proof.
    induction ws as [|[w l0] r IH]; intros i lab H; [discriminate|].
    cbn [scan] in H.
    destruct (bin_test ltb leb right ab nlab i w v) eqn:E.
    - injection H as <-. exists 0%nat, w. rewrite Nat.add_0_r. repeat split; [exact E|].
      intros k' w' lab' Hk. lia.
    - destruct (IH _ _ H) as (k & w1 & Hn & Ht & Hmin).
      exists (S k), w1. replace (i + S k)%nat with (S i + k)%nat by lia. repeat split; [exact Hn|exact Ht|].
      intros [|k'] w' lab' Hk Hn'.
      + cbn in Hn'. injection Hn' as <- <-. rewrite Nat.add_0_r. exact E.
      + replace (i + S k')%nat with (S i + k')%nat by lia. apply (Hmin k' w' lab'); [lia|exact Hn'].
  Qed.

  Lemma g_scan_none {L} right ab nlab v (ws : list ((A * A) * L)) : forall i,
    scan ltb leb right ab nlab v i ws = None ->
    forall k w lab, nth_error ws k = Some (w, lab) -> bin_test ltb leb right ab nlab (i + k) w v = false.
  Proof.
    induction ws as [|[w l0] r IH]; intros i H k w1 lab Hn; [destruct k; discriminate|].
    cbn [scan] in H.
    destruct (bin_test ltb leb right ab nlab i w v) eqn:E; [discriminate|].
    destruct k as [|k].
    - cbn in Hn. injection Hn as <- <-. rewrite Nat.add_0_r. exact E.
    - replace (i + S k)%nat with (S i + k)%nat by lia. apply (IH _ H k w1 lab). exact Hn.
  Qed.

  Lemma count_ok_spec {L} ab (edges : list A) (labels : list L) :
    count_ok ab edges labels = true <->
    (if ab then length labels = (length edges + 1)%nat else (length labels + 1)%nat = length edges).
  Proof. unfold count_ok. destruct ab; apply Nat.eqb_eq. Qed.

  (* ---- the test at position k = membership in interval k of the extended edges ------------------------ *)
  Lemma g_ws_nth {L} (tmin tmax : A) ab (edges : list A) (labels : list L) k w lab :
    nth_error (combine (windows (mat_bins tmin tmax ab edges)) labels) k = Some (w, lab) ->
    nth_error (mat_bins tmin tmax ab edges) k = Some (fst w)
    /\ nth_error (mat_bins tmin tmax ab edges) (S k) = Some (snd w)
    /\ nth_error labels k = Some lab.
  Proof.
    rewrite nth_error_combine, nth_error_windows.
    destruct (nth_error (mat_bins tmin tmax ab edges) k) as [lo|]; [|discriminate].
    destruct (nth_error (mat_bins tmin tmax ab edges) (S k)) as [hi|]; [|discriminate].
    destruct (nth_error labels k) as [l|]; [|discriminate].
    intros H. injection H as <- <-. auto.
  Qed.

  Lemma g_ws_nth_inv {L} (tmin tmax : A) ab (edges : list A) (labels : list L) k lo hi lab :
    nth_error (mat_bins tmin tmax ab edges) k = Some lo ->
    nth_error (mat_bins tmin tmax ab edges) (S k) = Some hi ->
    nth_error labels k = Some lab ->
    nth_error (combine (windows (mat_bins tmin tmax ab edges)) labels) k = Some ((lo, hi), lab).
  Proof.
    intros H1 H2 H3. rewrite nth_error_combine, nth_error_windows, H1, H2, H3. reflexivity.
  Qed.

  Lemma g_test_contains {L} (tmin tmax : A) right ab (edges : list A) (labels : list L) k lo hi v :
    count_ok ab edges labels = true ->
    (k < length labels)%nat ->
    nth_error (mat_bins tmin tmax ab edges) k = Some lo ->
    nth_error (mat_bins tmin tmax ab edges) (S k) = Some hi ->
    (bin_test ltb leb right ab (length labels) k (lo, hi) v = true <-> gcontains right ab edges k v).
  Proof.
    intros Hc Hk Hlo Hhi. apply count_ok_spec in Hc.
    unfold gcontains. rewrite !gext_edges_nth. rewrite g_mat_bins_nth in Hlo, Hhi.
    unfold bin_test. cbn [fst snd].
    destruct ab.
    - rewrite Hc in *.
      replace (length edges + 1)%nat with (S (length edges)) in * by lia.
      change (S k =? S (length edges))%nat with (k =? length edges)%nat in *.
      change (S k =? 0)%nat with false in *.
      rewrite Nat.sub_succ, Nat.sub_0_r in *.
      replace (k <=? length edges)%nat with true in * by (symmetry; apply Nat.leb_le; lia).
      destruct (Nat.eqb_spec k 0) as [K0|K0]; destruct (Nat.leb_spec (S k) (length edges)) as [K1|K1];
        [ replace (k =? length edges)%nat with false in * by (symmetry; apply Nat.eqb_neq; lia)
        | replace (k =? length edges)%nat with true in * by (symmetry; apply Nat.eqb_eq; lia)
        | replace (k =? length edges)%nat with false in * by (symmetry; apply Nat.eqb_neq; lia)
        | replace (k =? length edges)%nat with true in * by (symmetry; apply Nat.eqb_eq; lia) ];
        cbn [andb orb]; try rewrite Hlo; try rewrite Hhi; cbn [option_map];
        (split;
         [ intros H; do 2 eexists; split; [reflexivity|split; [reflexivity|]];
           cbn [above below]; destruct right; rewrite ?andb_true_iff in H; intuition
         | intros (lo' & hi' & E1 & E2 & H1 & H2); injection E1 as <-; injection E2 as <-;
           cbn [above below] in H1, H2; destruct right; rewrite ?andb_true_iff; intuition ]).
    - cbn [andb orb]. rewrite Hlo, Hhi. cbn [option_map]. split.
      + intros H. exists (GFin lo), (GFin hi). cbn [above below].
        destruct right; rewrite andb_true_iff in H; intuition.
      + intros (lo' & hi' & E1 & E2 & H1 & H2). injection E1 as <-. injection E2 as <-.
        cbn [above below] in H1, H2. destruct right; rewrite andb_true_iff; intuition.
  Qed.

  Lemma gcontains_in_range {L} right ab (edges : list A) (labels : list L) j v :
    count_ok ab edges labels = true -> gcontains right ab edges j v -> (j < length labels)%nat.
  Proof.
    intros Hc (lo & hi & _ & H2 & _). apply count_ok_spec in Hc.
    assert (Hl : (S j < length (gext_edges ab edges))%nat) by (apply nth_error_Some; congruence).
    rewrite gext_edges_length in Hl. destruct ab; lia.
  Qed.

  Lemma g_in_range_ws {L} (tmin tmax : A) ab (edges : list A) (labels : list L) j :
    count_ok ab edges labels = true -> (j < length labels)%nat ->
    exists lo hi lab, nth_error (mat_bins tmin tmax ab edges) j = Some lo
                   /\ nth_error (mat_bins tmin tmax ab edges) (S j) = Some hi
                   /\ nth_error labels j = Some lab.
  Proof.
    intros Hc Hj. apply count_ok_spec in Hc.
    assert (H1 : (j < length (mat_bins tmin tmax ab edges))%nat) by (rewrite g_mat_bins_length; destruct ab; lia).
    assert (H2 : (S j < length (mat_bins tmin tmax ab edges))%nat) by (rewrite g_mat_bins_length; destruct ab; lia).
    apply nth_error_Some in H1, H2, Hj.
    destruct (nth_error (mat_bins tmin tmax ab edges) j) as [lo|]; [|congruence].
    destruct (nth_error (mat_bins tmin tmax ab edges) (S j)) as [hi|]; [|congruence].
    destruct (nth_error labels j) as [lab|]; [|congruence].
    exists lo, hi, lab. auto.
  Qed.

  (* ---- the element closure: no order law needed ------------------------------------------------------- *)
  Lemma g_cut1_some_inv {L} (tmin tmax : A) right ab (edges : list A) (labels : list L) v l :
    count_ok ab edges labels = true ->
    cut1 ltb leb tmin tmax right ab edges labels (Some v) = Lab l ->
    exists j, gcontains right ab edges j v /\ nth_error labels j = Some l
              /\ forall j', (j' < j)%nat -> ~ gcontains right ab edges j' v.
  Proof.
    intros Hc H. unfold cut1 in H.
    destruct (scan ltb leb right ab (length labels) v 0 _) as [lab|] eqn:E; [|discriminate].
    injection H as ->.
    destruct (g_scan_some _ _ _ _ _ _ _ E) as (k & [lo hi] & Hn & Ht & Hmin). cbn [plus] in Ht.
    destruct (g_ws_nth _ _ _ _ _ _ _ _ Hn) as (Hlo & Hhi & Hlab). cbn [fst snd] in Hlo, Hhi.
    assert (Hk : (k < length labels)%nat) by (apply nth_error_Some; congruence).
    exists k. split; [|split; [exact Hlab|]].
    - apply (g_test_contains tmin tmax right ab edges labels k lo hi v Hc Hk Hlo Hhi). exact Ht.
    - intros j' Hj' Hcj'.
      assert (Hr : (j' < length labels)%nat) by lia.
      destruct (g_in_range_ws tmin tmax ab edges labels _ Hc Hr) as (lo' & hi' & lab' & H1 & H2 & H3).
      pose proof (g_ws_nth_inv _ _ _ _ _ _ _ _ _ H1 H2 H3) as Hw.
      specialize (Hmin j' (lo', hi') lab' Hj' Hw). cbn [plus] in Hmin.
      apply (g_test_contains tmin tmax right ab edges labels j' lo' hi' v Hc Hr H1 H2) in Hcj'.
      congruence.
  Qed.

  Lemma g_cut1_err_inv {L} (tmin tmax : A) right ab (edges : list A) (labels : list L) v :
    count_ok ab edges labels = true ->
    cut1 ltb leb tmin tmax right ab edges labels (Some v) = ErrItem ->
    forall j, ~ gcontains right ab edges j v.
  Proof.
    intros Hc H j Hcj. unfold cut1 in H.
    destruct (scan ltb leb right ab (length labels) v 0 _) as [lab|] eqn:E; [discriminate|].
    pose proof (gcontains_in_range _ _ _ labels _ _ Hc Hcj) as Hr.
    destruct (g_in_range_ws tmin tmax ab edges labels _ Hc Hr) as (lo & hi & lab & H1 & H2 & H3).
    pose proof (g_ws_nth_inv _ _ _ _ _ _ _ _ _ H1 H2 H3) as Hw.
    pose proof (g_scan_none _ _ _ _ _ _ E _ _ _ Hw) as Hf. cbn [plus] in Hf.
    apply (g_test_contains tmin tmax right ab edges labels j lo hi v Hc Hr H1 H2) in Hcj.
    congruence.
  Qed.

  Lemma g_cut1_cases {L} (tmin tmax : A) right ab (edges : list A) (labels : list L) v :
    (exists l, cut1 ltb leb tmin tmax right ab edges labels (Some v) = Lab l)
    \/ cut1 ltb leb tmin tmax right ab edges labels (Some v) = ErrItem.
  Proof.
    unfold cut1. destruct (scan _ _ _ _ _ _ _ _); [left; eauto|right; reflexivity].
  Qed.

  (* first match wins — any carrier, any comparison functions, any (unsorted, repeated, NaN) edges *)
  Theorem g_cut1_first_match {L} (tmin tmax : A) right ab (edges : list A) (labels : list L) v l :
    count_ok ab edges labels = true ->
    (cut1 ltb leb tmin tmax right ab edges labels (Some v) = Lab l
     <-> exists j, gcontains right ab edges j v /\ nth_error labels j = Some l
                   /\ forall j', (j' < j)%nat -> ~ gcontains right ab edges j' v).
  Proof.
    intros Hc. split; [apply g_cut1_some_inv; exact Hc|].
    intros (j & Hj & Hl & Hmin).
    destruct (g_cut1_cases tmin tmax right ab edges labels v) as [[l' H]|H].
    - destruct (g_cut1_some_inv _ _ _ _ _ _ _ _ Hc H) as (k & H1 & H2 & Hmin').
      destruct (Nat.lt_trichotomy k j) as [Hlt|[->|Hlt]].
      + exfalso. exact (Hmin k Hlt H1).
      + rewrite H. congruence.
      + exfalso. exact (Hmin' j Hlt Hj).
    - exfalso. exact (g_cut1_err_inv _ _ _ _ _ _ _ Hc H _ Hj).
  Qed.

  Theorem g_cut1_err_iff {L} (tmin tmax : A) right ab (edges : list A) (labels : list L) v :
    count_ok ab edges labels = true ->
    (cut1 ltb leb tmin tmax right ab edges labels (Some v) = ErrItem <-> forall j, ~ gcontains right ab edges j v).
  Proof.
    intros Hc. split; [apply g_cut1_err_inv; exact Hc|].
    intros Hno. destruct (g_cut1_cases tmin tmax right ab edges labels v) as [[l H]|H]; [|exact H].
    destruct (g_cut1_some_inv _ _ _ _ _ _ _ _ Hc H) as (j & H1 & _). exfalso. exact (Hno j H1).
  Qed.

  (* ---- with the laws of a strict weak order on the non-null elements ----------------------------------- *)
  Variable ok : A -> Prop.

  Record CutLaws : Prop := {
    cl_asym : forall a b, ok a -> ok b -> ltb a b = true -> ltb b a = false;
    cl_cotrans : forall a b c, ok a -> ok b -> ok c -> ltb a b = true -> ltb a c = true \/ ltb c b = true;
    cl_leb : forall a b, ok a -> ok b -> leb a b = negb (ltb b a);
  }.
  Hypothesis CL : CutLaws.

  Lemma cl_trans a b c : ok a -> ok b -> ok c -> ltb a b = true -> ltb b c = true -> ltb a c = true.
  Proof.
    intros Ha Hb Hc H1 H2. destruct (cl_cotrans CL a b c Ha Hb Hc H1) as [H|H]; [exact H|].
    rewrite (cl_asym CL b c Hb Hc H2) in H. discriminate.
  Qed.

  (* strictly ascending edges, in the carrier's own `<` *)
  Fixpoint gascending (l : list A) : Prop :=
    match l with
    | a :: (b :: _) as r => ltb a b = true /\ gascending r
    | _ => True
    end.

  Lemma gascending_tail a l : gascending (a :: l) -> gascending l.
  Proof. destruct l as [|b r]; [intros; exact I|]. intros [_ H]. exact H. Qed.

  (* order of two positions of the extended edge sequence *)
  Definition gxlt (x y : gext) : Prop :=
    match x, y with
    | GNeg, GNeg => False
    | GNeg, _ => True
    | GFin a, GFin b => ltb a b = true
    | GFin _, GPos => True
    | _, _ => False
    end.

  (* consecutive `<` gives `<` between any two positions: transitivity on the non-null elements *)
  Lemma gascending_sorted l : Forall ok l -> gascending l -> StronglySorted gxlt (map GFin l).
  Proof.
    induction l as [|a l IH]; intros Hok Ha; [constructor|].
    inversion Hok as [|? ? Oa Hok']; subst. specialize (IH Hok' (gascending_tail _ _ Ha)).
    cbn [map]. constructor; [exact IH|].
    destruct l as [|b r]; [constructor|]. destruct Ha as [Hab _]. inversion Hok' as [|? ? Ob Hok'']; subst.
    cbn [map]. constructor; [exact Hab|]. inversion IH as [|? ? _ Hb]; subst.
    rewrite Forall_map in Hb |- *. rewrite Forall_forall in *. intros c Hc.
    apply (cl_trans a b c); auto. apply (Hb c Hc).
  Qed.

  Lemma gext_edges_ascending ab edges : Forall ok edges -> gascending edges -> forall i j x y, (i < j)%nat ->
    nth_error (gext_edges ab edges) i = Some x -> nth_error (gext_edges ab edges) j = Some y -> gxlt x y.
  Proof.
    intros Hok Ha. apply sorted_nth. pose proof (gascending_sorted edges Hok Ha) as Hs.
    unfold gext_edges. destruct ab; [|exact Hs].
    constructor.
    - apply sorted_snoc; [exact Hs|]. apply Forall_map, Forall_forall. intros a _. exact I.
    - apply Forall_app. split; [apply Forall_map, Forall_forall; intros a _; exact I|repeat constructor].
  Qed.

  Lemma gext_ok ab edges k a : Forall ok edges -> nth_error (gext_edges ab edges) k = Some (GFin a) -> ok a.
  Proof.
    intros Hok H. assert (Hin : In (GFin a) (gext_edges ab edges)) by (eapply nth_error_In; exact H).
    unfold gext_edges in Hin. rewrite Forall_forall in Hok.
    destruct ab; cbn in Hin; rewrite ?in_app_iff, ?in_map_iff in Hin.
    - destruct Hin as [Hin|[(b & E & Hb)|[Hin|[]]]]; try discriminate. injection E as <-. apply Hok. exact Hb.
    - destruct Hin as (b & E & Hb). injection E as <-. apply Hok. exact Hb.
  Qed.

  Lemma gcontains_lt_absurd right ab edges j j' v :
    Forall ok edges -> ok v -> gascending edges -> (j < j')%nat ->
    gcontains right ab edges j v -> gcontains right ab edges j' v -> False.
  Proof.
    intros Hok Hv Ha Hjj (lo & hi & _ & Hhi & _ & Hb) (lo' & hi' & Hlo' & _ & Ha' & _).
    assert (Hle : hi = lo' \/ gxlt hi lo').
    { destruct (Nat.eq_dec (S j) j') as [E|E].
      - subst j'. rewrite Hhi in Hlo'. injection Hlo' as <-. left. reflexivity.
      - right. apply (gext_edges_ascending ab edges Hok Ha (S j) j'); [lia|assumption|assumption]. }
    destruct hi as [|h|]; [discriminate Hb| |].
    2:{ destruct Hle as [<-|Hle]; [discriminate Ha'|destruct lo'; exact Hle]. }
    destruct lo' as [|l|]; [|  |discriminate Ha'].
    1:{ destruct Hle as [E|Hle]; [discriminate E|exact Hle]. }
    pose proof (gext_ok ab edges _ _ Hok Hhi) as Oh. pose proof (gext_ok ab edges _ _ Hok Hlo') as Ol.
    cbn [above below] in Hb, Ha'. destruct right.
    - (* v <= h, l < v, h = l or h < l *)
      rewrite (cl_leb CL v h Hv Oh) in Hb. apply negb_true_iff in Hb.
      destruct Hle as [E|Hle].
      + injection E as ->. congruence.
      + cbn in Hle. destruct (cl_cotrans CL h l v Oh Ol Hv Hle) as [H|H]; [congruence|].
        rewrite (cl_asym CL v l Hv Ol H) in Ha'. discriminate.
    - (* v < h, l <= v *)
      rewrite (cl_leb CL l v Ol Hv) in Ha'. apply negb_true_iff in Ha'.
      destruct Hle as [E|Hle].
      + injection E as ->. congruence.
      + cbn in Hle. rewrite (cl_trans v h l Hv Oh Ol Hb Hle) in Ha'. discriminate.
  Qed.

  Theorem gcontains_unique right ab edges j j' v :
    Forall ok edges -> ok v -> gascending edges ->
    gcontains right ab edges j v -> gcontains right ab edges j' v -> j = j'.
  Proof.
    intros Hok Hv Ha H H'. destruct (Nat.lt_trichotomy j j') as [Hl|[He|Hl]]; [|exact He|].
    - exfalso. exact (gcontains_lt_absurd _ _ _ _ _ _ Hok Hv Ha Hl H H').
    - exfalso. exact (gcontains_lt_absurd _ _ _ _ _ _ Hok Hv Ha Hl H' H).
  Qed.

  Theorem g_cut1_label_iff {L} (tmin tmax : A) right ab (edges : list A) (labels : list L) v l :
    Forall ok edges -> ok v -> gascending edges -> count_ok ab edges labels = true ->
    (cut1 ltb leb tmin tmax right ab edges labels (Some v) = Lab l
     <-> exists j, gcontains right ab edges j v /\ nth_error labels j = Some l).
  Proof.
    intros Hok Hv Ha Hc. split.
    - intros H. destruct (g_cut1_some_inv _ _ _ _ _ _ _ _ Hc H) as (j & H1 & H2 & _). eauto.
    - intros (j & Hj & Hl).
      destruct (g_cut1_cases tmin tmax right ab edges labels v) as [[l' H]|H].
      + destruct (g_cut1_some_inv _ _ _ _ _ _ _ _ Hc H) as (k & H1 & H2 & _).
        assert (k = j) by (eapply gcontains_unique; eassumption). subst k.
        rewrite H. congruence.
      + exfalso. exact (g_cut1_err_inv _ _ _ _ _ _ _ Hc H _ Hj).
  Qed.

  (* open outer bounds: some interval always contains a non-null v (edges need not be sorted).
     Walking from a left end that satisfies P to a right end that satisfies Q, with Q or P at every member,
     there is a first member satisfying Q; its predecessor satisfies P. *)
  Lemma g_exists_bin (P Q : gext -> bool) :
    forall (l : list gext) (a : gext), P a = true -> l <> [] ->
    (forall b, In b l -> Q b = true \/ P b = true) -> (forall d, Q (last l d) = true) ->
    exists j lo hi, nth_error (a :: l) j = Some lo /\ nth_error (a :: l) (S j) = Some hi
                    /\ P lo = true /\ Q hi = true.
  Proof.
    induction l as [|b r IH]; intros a Pa Hne tot Hq; [congruence|].
    destruct (tot b (or_introl eq_refl)) as [Qb|Pb].
    - exists 0%nat, a, b. cbn. auto.
    - destruct r as [|c r'].
      + specialize (Hq a). cbn in Hq. exists 0%nat, a, b. cbn. auto.
      + destruct (IH b Pb ltac:(discriminate)) as (j & lo & hi & H1 & H2 & H3 & H4).
        { intros x Hx. apply tot. right. exact Hx. }
        { intros d. specialize (Hq d). cbn [last] in Hq |- *. exact Hq. }
        exists (S j), lo, hi. cbn [nth_error]. auto.
  Qed.

  Theorem g_open_bounds_contains right edges v :
    Forall ok edges -> ok v -> exists j, gcontains right true edges j v.
  Proof.
    intros Hok Hv. unfold gcontains, gext_edges.
    destruct (g_exists_bin (fun b => above right b v) (fun b => below right b v))
      with (l := map GFin edges ++ [GPos]) (a := GNeg) as (j & lo & hi & H); [reflexivity| | | |eauto].
    - destruct (map GFin edges); discriminate.
    - intros b Hb. apply in_app_iff in Hb. destruct Hb as [Hb|[<-|[]]]; [|left; reflexivity].
      apply in_map_iff in Hb. destruct Hb as (e & <- & He). rewrite Forall_forall in Hok. specialize (Hok e He).
      cbn [above below]. destruct right.
      + rewrite (cl_leb CL v e Hv Hok). destruct (ltb e v); auto.
      + rewrite (cl_leb CL e v Hok Hv). destruct (ltb v e); auto.
    - intros d. rewrite last_last. reflexivity.
  Qed.

  Theorem g_cut1_open_total {L} (tmin tmax : A) right (edges : list A) (labels : list L) v :
    Forall ok edges -> ok v -> count_ok true edges labels = true ->
    exists l, cut1 ltb leb tmin tmax right true edges labels (Some v) = Lab l.
  Proof.
    intros Hok Hv Hc. destruct (g_cut1_cases tmin tmax right true edges labels v) as [H|H]; [exact H|].
    exfalso. destruct (g_open_bounds_contains right edges v Hok Hv) as [j Hj].
    exact (g_cut1_err_inv _ _ _ _ _ _ _ Hc H _ Hj).
  Qed.
End GenCut.

Arguments GNeg {A}.
Arguments GFin {A} a.
Arguments GPos {A}.

(* Part 2: vsorted_unique_idx / vsorted_unique *)

Lemma filter_seq_shift (p : nat -> bool) : forall n a,
  filter p (seq (S a) n) = map S (filter (fun k => p (S k)) (seq a n)).
Proof.
  induction n as [|n IH]; intros a; [reflexivity|].
  cbn [seq filter]. rewrite IH. destruct (p (S a)); reflexivity.
Qed.

Lemma filter_ext_in_seq (p q : nat -> bool) n :
  (forall k, (k < n)%nat -> p k = q k) -> filter p (seq 0 n) = filter q (seq 0 n).
Proof.
  intros H. apply filter_ext_in. intros k Hk. apply in_seq in Hk. apply H. lia.
Qed.

Lemma filter_seq_lt (p : nat -> bool) n : forall a, StronglySorted lt (filter p (seq a n)).
Proof.
  induction n as [|n IH]; intros a; [constructor|].
  cbn [seq filter]. destruct (p a); [|apply IH].
  constructor; [apply IH|]. apply Forall_forall. intros k Hk.
  apply filter_In in Hk. destruct Hk as [Hk _]. apply in_seq in Hk. lia.
Qed.

Section GenUnique.
  Context {A : Type}.
  Variable eqb : A -> A -> bool.

  (* the cell at position k holds a non-null value *)
  Definition cell_some (xs : list (option A)) (k : nat) : Prop := exists v, nth_error xs k = Some (Some v).

  (* ---- law-free: every reported index is a position of the input, of a non-null cell; strictly ascending.
     Holds for ANY `==` (also a non-reflexive one: Some(NaN) elements), any series.                      *)
  Lemma g_first_go_range : forall xs last i k, In k (uidx_first_go eqb last i xs) ->
    (i <= k)%nat /\ cell_some xs (k - i).
  Proof.
    induction xs as [|x r IH]; intros last i k Hk; [destruct Hk|].
    assert (Hrec : forall l', In k (uidx_first_go eqb l' (S i) r) -> (i <= k)%nat /\ cell_some (x :: r) (k - i)).
    { intros l' Hin. destruct (IH _ _ _ Hin) as [H1 (w & H2)]. split; [lia|]. exists w.
      replace (k - i)%nat with (S (k - S i)) by lia. exact H2. }
    cbn [uidx_first_go] in Hk. destruct x as [v|]; [|exact (Hrec _ Hk)].
    destruct (last_is eqb last v); [exact (Hrec _ Hk)|].
    destruct Hk as [<-|Hk]; [|exact (Hrec _ Hk)].
    split; [lia|]. exists v. rewrite Nat.sub_diag. reflexivity.
  Qed.

  Lemma g_first_go_sorted : forall xs last i, StronglySorted lt (uidx_first_go eqb last i xs).
  Proof.
    induction xs as [|x r IH]; intros last i; [constructor|].
    cbn [uidx_first_go]. destruct x as [v|]; [|apply IH].
    destruct (last_is eqb last v); [apply IH|].
    constructor; [apply IH|]. apply Forall_forall. intros k Hk.
    apply g_first_go_range in Hk. lia.
  Qed.

  Theorem g_first_idx_valid xs :
    (forall k, In k (uidx_first eqb xs) -> (k < length xs)%nat /\ cell_some xs k)
    /\ StronglySorted lt (uidx_first eqb xs).
  Proof.
    split; [|apply g_first_go_sorted].
    intros k Hk. apply g_first_go_range in Hk. rewrite Nat.sub_0_r in Hk. destruct Hk as [_ (v & Hv)].
    split; [apply nth_error_Some; congruence|exists v; exact Hv].
  Qed.

  (* position i stands for the remembered cell `last`, position i + 1 + m for cell m of ys *)
  Lemma g_last_go_range : forall ys last i k, In k (uidx_last_go eqb last i ys) ->
    (i <= k < i + length ys)%nat /\ cell_some (last :: ys) (k - i).
  Proof.
    induction ys as [|y r IH]; intros last i k Hk; [destruct Hk|].
    cbn [uidx_last_go] in Hk. cbn [length].
    assert (Hrec : forall l', l' = y \/ is_some y = true -> In k (uidx_last_go eqb l' (S i) r) ->
                     (i <= k < i + S (length r))%nat /\ cell_some (last :: y :: r) (k - i)).
    { intros l' Hy Hin. destruct (IH _ _ _ Hin) as [H1 (w & Hw)]. split; [lia|].
      replace (k - i)%nat with (S (k - S i)) by lia. cbn [nth_error]. destruct (k - S i)%nat as [|m].
      - destruct Hy as [<-|Hy]; [exists w; exact Hw|]. destruct y as [v|]; [exists v; reflexivity|discriminate].
      - exists w. exact Hw. }
    assert (Hhd : In k (if is_some last then [i] else []) ->
                  (i <= k < i + S (length r))%nat /\ cell_some (last :: y :: r) (k - i)).
    { destruct last as [u|]; [|intros []]. intros [<-|[]]. split; [lia|]. rewrite Nat.sub_diag. exists u. reflexivity. }
    destruct y as [v|].
    - destruct (last_is eqb last v).
      + apply (Hrec last); [right; reflexivity|exact Hk].
      + apply in_app_iff in Hk. destruct Hk as [Hk|Hk]; [exact (Hhd Hk)|].
        apply (Hrec (Some v)); [left; reflexivity|exact Hk].
    - apply in_app_iff in Hk. destruct Hk as [Hk|Hk]; [exact (Hhd Hk)|].
      apply (Hrec None); [left; reflexivity|exact Hk].
  Qed.

  Lemma g_last_go_sorted : forall ys last i, StronglySorted lt (uidx_last_go eqb last i ys).
  Proof.
    assert (Hcons : forall i l, StronglySorted lt l -> (forall k, In k l -> (S i <= k)%nat) ->
                                forall b : bool, StronglySorted lt ((if b then [i] else []) ++ l)).
    { intros i l Hs Hl [|]; [|exact Hs]. cbn [app]. constructor; [exact Hs|].
      apply Forall_forall. intros k Hk. specialize (Hl k Hk). lia. }
    induction ys as [|y r IH]; intros last i; [constructor|].
    cbn [uidx_last_go]. destruct y as [v|].
    - destruct (last_is eqb last v); [apply IH|].
      apply Hcons; [apply IH|]. intros k Hk. apply g_last_go_range in Hk. lia.
    - apply Hcons; [apply IH|]. intros k Hk. apply g_last_go_range in Hk. lia.
  Qed.

  Theorem g_last_idx_valid xs :
    (forall k, In k (uidx_last eqb xs) -> (k < length xs)%nat /\ cell_some xs k)
    /\ StronglySorted lt (uidx_last eqb xs).
  Proof.
    unfold uidx_last. destruct xs as [|x r]; (split; [|apply g_last_go_sorted]); [intros k []|].
    intros k Hk. destruct (g_last_go_range _ _ _ _ Hk) as [H1 (w & Hw)].
    rewrite app_length, Nat.add_1_r in H1. rewrite Nat.sub_0_r in Hw. cbn [length]. split; [lia|]. exists w.
    change (x :: r ++ [None]) with ((x :: r) ++ [None]) in Hw.
    rewrite nth_error_app1 in Hw by (cbn [length]; lia). exact Hw.
  Qed.

  (* ---- with the laws of a (partial) equivalence on the non-null elements -------------------------------- *)
  Variable ok : A -> Prop.
  Record EqLaws : Prop := {
    el_refl : forall a, ok a -> eqb a a = true;
    el_sym : forall a b, ok a -> ok b -> eqb a b = eqb b a;
    el_trans : forall a b c, ok a -> ok b -> ok c -> eqb a b = true -> eqb b c = true -> eqb a c = true;
  }.
  Hypothesis EL : EqLaws.
  Definition okc (o : option A) : Prop := match o with Some x => ok x | None => True end.

  Lemma el_transfer u p v : ok u -> ok p -> ok v -> eqb u p = true -> eqb u v = eqb p v.
  Proof.
    intros Hu Hp Hv H. destruct (eqb p v) eqn:E.
    - apply (el_trans EL u p v); assumption.
    - destruct (eqb u v) eqn:E2; [|reflexivity].
      rewrite (el_sym EL u p Hu Hp) in H. rewrite (el_trans EL p u v Hp Hu Hv H E2) in E. discriminate.
  Qed.

  (* the state of the scans (`last_value`) is the FIRST element of the current run; `rep last p`: it represents
     the same value as the cell p *)
  Definition rep (last : option A) (p : option A) : Prop :=
    match p with
    | None => last = None
    | Some a => exists u, last = Some u /\ ok u /\ eqb u a = true
    end.

  (* ---- Keep::Last, positional, for EVERY series ------------------------------------------------------- *)
  (* p is non-null and y is not an equal value *)
  Definition g_differs (p y : option A) : bool :=
    match p with
    | Some a => negb (match y with Some b => eqb a b | None => false end)
    | None => false
    end.
  Fixpoint g_pair_scan (i : nat) (prev : option A) (ys : list (option A)) : list nat :=
    match ys with
    | [] => []
    | y :: r => (if g_differs prev y then [i] else []) ++ g_pair_scan (S i) y r
    end.

  Lemma g_last_go_pair_scan : forall ys last prev i,
    Forall okc ys -> okc prev -> rep last prev -> uidx_last_go eqb last i ys = g_pair_scan i prev ys.
  Proof.
    induction ys as [|y r IH]; intros last prev i Hok Hp Hr; [reflexivity|].
    inversion Hok as [|? ? Hy Hok']; subst.
    cbn [uidx_last_go g_pair_scan]. destruct y as [v|].
    - destruct prev as [p|]; cbn [rep] in Hr.
      + destruct Hr as (u & -> & Hu & Hup). cbn [last_is g_differs is_some okc] in *.
        rewrite (el_transfer u p v Hu Hp Hy Hup). destruct (eqb p v) eqn:E; cbn [negb app].
        * apply IH; [exact Hok'|exact Hy|]. exists u. repeat split; [exact Hu|].
          rewrite (el_transfer u p v Hu Hp Hy Hup). exact E.
        * f_equal. apply IH; [exact Hok'|exact Hy|]. exists v. repeat split; [exact Hy|apply (el_refl EL); exact Hy].
      + subst last. cbn [last_is g_differs is_some app].
        apply IH; [exact Hok'|exact Hy|]. exists v. repeat split; [exact Hy|apply (el_refl EL); exact Hy].
    - destruct prev as [p|]; cbn [rep] in Hr.
      + destruct Hr as (u & -> & _). cbn [g_differs is_some negb app]. f_equal. apply IH; [exact Hok'|exact I|reflexivity].
      + subst last. cbn [g_differs is_some app]. apply IH; [exact Hok'|exact I|reflexivity].
  Qed.

  Definition g_pair_b (zs : list (option A)) (k : nat) : bool :=
    match nth_error zs k, nth_error zs (S k) with
    | Some p, Some y => g_differs p y
    | _, _ => false
    end.

  Lemma g_pair_scan_filter : forall ys prev i,
    g_pair_scan i prev ys = map (Nat.add i) (filter (g_pair_b (prev :: ys)) (seq 0 (length ys))).
  Proof.
    induction ys as [|y r IH]; intros prev i; [reflexivity|].
    cbn [g_pair_scan length]. change (seq 0 (S (length r))) with (0 :: seq 1 (length r)).
    cbn [filter]. unfold g_pair_b at 1. cbn [nth_error].
    rewrite filter_seq_shift, IH.
    assert (Hext : filter (fun k => g_pair_b (prev :: y :: r) (S k)) (seq 0 (length r))
                   = filter (g_pair_b (y :: r)) (seq 0 (length r))).
    { apply filter_ext. intros k. reflexivity. }
    rewrite Hext.
    assert (Hm : map (Nat.add i) (map S (filter (g_pair_b (y :: r)) (seq 0 (length r))))
                 = map (Nat.add (S i)) (filter (g_pair_b (y :: r)) (seq 0 (length r)))).
    { rewrite map_map. apply map_ext. intros k. lia. }
    destruct (g_differs prev y); cbn [app map]; rewrite Hm; [rewrite Nat.add_0_r|]; reflexivity.
  Qed.

  (* i is the last index of a run: non-null and the next cell (if any) is not an equal value *)
  Definition g_last_of_run_b (xs : list (option A)) (i : nat) : bool :=
    match nth_error xs i with
    | Some p => g_differs p (match nth_error xs (S i) with Some y => y | None => None end)
    | None => false
    end.

  Lemma g_pair_b_last xs k : (k < length xs)%nat -> g_pair_b (xs ++ [None]) k = g_last_of_run_b xs k.
  Proof.
    intros Hk. unfold g_pair_b, g_last_of_run_b.
    rewrite nth_error_app1 by exact Hk.
    destruct (nth_error xs k) as [p|] eqn:E; [|apply nth_error_None in E; lia].
    destruct (Nat.eq_dec (S k) (length xs)) as [He|Hne].
    - assert (Hn : nth_error xs (S k) = None) by (apply nth_error_None; lia). rewrite Hn.
      rewrite nth_error_app2 by lia. replace (S k - length xs)%nat with 0%nat by lia. reflexivity.
    - rewrite nth_error_app1 by lia.
      destruct (nth_error xs (S k)) as [y|] eqn:E2; [reflexivity|apply nth_error_None in E2; lia].
  Qed.

  Theorem g_last_positional xs :
    Forall okc xs -> uidx_last eqb xs = filter (g_last_of_run_b xs) (seq 0 (length xs)).
  Proof.
    intros Hok. unfold uidx_last. destruct xs as [|x r]; [reflexivity|].
    inversion Hok as [|? ? Hx Hok']; subst.
    rewrite (g_last_go_pair_scan (r ++ [None]) x x 0).
    - rewrite g_pair_scan_filter. rewrite app_length. cbn [length]. rewrite Nat.add_1_r.
      change (x :: r ++ [None]) with ((x :: r) ++ [None]).
      rewrite (filter_ext_in_seq (g_pair_b ((x :: r) ++ [None])) (g_last_of_run_b (x :: r)))
        by (intros k Hk; apply g_pair_b_last; cbn [length]; exact Hk).
      rewrite map_ext with (g := fun k => k) by reflexivity. apply map_id.
    - apply Forall_app. split; [exact Hok'|]. constructor; [exact I|constructor].
    - exact Hx.
    - destruct x as [p|]; [|reflexivity]. exists p. repeat split; [exact Hx|apply (el_refl EL); exact Hx].
  Qed.

  Lemma g_last_of_run_b_spec xs i :
    g_last_of_run_b xs i = true <->
    exists v, nth_error xs i = Some (Some v) /\ forall u, nth_error xs (S i) = Some (Some u) -> eqb v u = false.
  Proof.
    unfold g_last_of_run_b. destruct (nth_error xs i) as [[v|]|].
    - cbn [g_differs]. destruct (nth_error xs (S i)) as [[u|]|].
      + split.
        * intros H. exists v. split; [reflexivity|]. intros u' E. injection E as <-. apply negb_true_iff. exact H.
        * intros (w & E & H). injection E as <-. apply negb_true_iff. apply H. reflexivity.
      + split; [intros _; exists v; split; [reflexivity|intros u E; discriminate]|reflexivity].
      + split; [intros _; exists v; split; [reflexivity|intros u E; discriminate]|reflexivity].
    - split; [discriminate|intros (w & E & _); discriminate].
    - split; [discriminate|intros (w & E & _); discriminate].
  Qed.

  (* ---- Keep::First, positional, for EVERY series: the cell is compared with the NEAREST NON-NULL cell before it
     (a null between two equal values does not separate them) ---------------------------------------------- *)
  Fixpoint last_valid (l : list (option A)) (acc : option A) : option A :=
    match l with
    | [] => acc
    | Some v :: r => last_valid r (Some v)
    | None :: r => last_valid r acc
    end.

  Lemma last_valid_app l1 l2 acc : last_valid (l1 ++ l2) acc = last_valid l2 (last_valid l1 acc).
  Proof. revert acc; induction l1 as [|[v|] r IH]; intros acc; cbn; auto. Qed.

  Definition g_first_b (xs : list (option A)) (i : nat) : bool :=
    match nth_error xs i with
    | Some (Some v) => negb (last_is eqb (last_valid (firstn i xs) None) v)
    | _ => false
    end.

  Lemma firstn_app_exact (l1 l2 : list (option A)) : firstn (length l1) (l1 ++ l2) = l1.
  Proof. rewrite firstn_app, Nat.sub_diag, firstn_all. cbn. apply app_nil_r. Qed.

  Lemma g_first_go_filter : forall xs pre last,
    Forall okc pre -> Forall okc xs -> rep last (last_valid pre None) ->
    uidx_first_go eqb last (length pre) xs = filter (g_first_b (pre ++ xs)) (seq (length pre) (length xs)).
  Proof.
    induction xs as [|x r IH]; intros pre last Hpre Hok Hr; [reflexivity|].
    inversion Hok as [|? ? Hx Hok']; subst.
    cbn [length seq filter uidx_first_go].
    assert (Hnth : nth_error (pre ++ x :: r) (length pre) = Some x).
    { rewrite nth_error_app2 by lia. rewrite Nat.sub_diag. reflexivity. }
    assert (Hre : pre ++ x :: r = (pre ++ [x]) ++ r) by (rewrite <- app_assoc; reflexivity).
    assert (Hlen : S (length pre) = length (pre ++ [x])) by (rewrite app_length; cbn; lia).
    assert (Hpre' : Forall okc (pre ++ [x])) by (apply Forall_app; split; [exact Hpre|constructor; [exact Hx|constructor]]).
    assert (Hlv : forall acc, okc acc -> okc (last_valid pre acc)).
    { clear -Hpre. induction pre as [|[v|] p IHp]; intros acc Ha; cbn; [exact Ha| |];
        inversion Hpre; subst; apply IHp; assumption. }
    unfold g_first_b at 1. rewrite Hnth, firstn_app_exact.
    destruct x as [v|].
    - assert (Hli : last_is eqb last v = last_is eqb (last_valid pre None) v).
      { pose proof (Hlv None I) as Hp. destruct (last_valid pre None) as [p|]; cbn [rep] in Hr.
        - destruct Hr as (u & -> & Hu & Hup). cbn [last_is]. apply el_transfer; assumption.
        - subst last. reflexivity. }
      rewrite <- Hli. destruct (last_is eqb last v) eqn:E; cbn [negb].
      + rewrite Hre, Hlen. apply IH; [exact Hpre'|exact Hok'|].
        rewrite last_valid_app. cbn [last_valid rep].
        destruct last as [u|]; [|discriminate E]. cbn [last_is] in E. exists u. repeat split; [|exact E].
        pose proof (Hlv None I) as Hp. destruct (last_valid pre None) as [p|]; cbn [rep] in Hr.
        * destruct Hr as (u' & Eu & Hu & _). injection Eu as <-. exact Hu.
        * discriminate Hr.
      + f_equal. rewrite Hre, Hlen. apply IH; [exact Hpre'|exact Hok'|].
        rewrite last_valid_app. cbn [last_valid rep]. exists v. repeat split; [exact Hx|apply (el_refl EL); exact Hx].
    - rewrite Hre, Hlen. apply IH; [exact Hpre'|exact Hok'|].
      rewrite last_valid_app. cbn [last_valid]. exact Hr.
  Qed.

  Theorem g_first_positional xs :
    Forall okc xs -> uidx_first eqb xs = filter (g_first_b xs) (seq 0 (length xs)).
  Proof.
    intros Hok. exact (g_first_go_filter xs [] None (Forall_nil _) Hok eq_refl).
  Qed.

  (* what `last_valid` is: the nearest non-null cell, everything after it being null *)
  Lemma last_valid_spec l p :
    last_valid l None = Some p <->
    exists j, nth_error l j = Some (Some p) /\ forall k, (j < k)%nat -> (k < length l)%nat -> nth_error l k = Some None.
  Proof.
    (* from the right: the last cell decides, or is null and the rest decides *)
    induction l as [|x l IH] using rev_ind.
    - split; [discriminate|intros ([|j] & Hj & _); discriminate].
    - rewrite last_valid_app, app_length, Nat.add_1_r. cbn [last_valid].
      assert (Hlast : nth_error (l ++ [x]) (length l) = Some x)
        by (rewrite nth_error_app2, Nat.sub_diag by lia; reflexivity).
      destruct x as [v|].
      + split.
        * intros E. injection E as ->. exists (length l). split; [exact Hlast|]. intros k H1 H2. lia.
        * intros (j & Hj & Hn). destruct (Nat.lt_trichotomy j (length l)) as [H|[->|H]].
          -- rewrite (Hn (length l) H ltac:(lia)) in Hlast. discriminate Hlast.
          -- rewrite Hlast in Hj. injection Hj as ->. reflexivity.
          -- rewrite (proj2 (nth_error_None _ _)) in Hj by (rewrite app_length; cbn; lia). discriminate Hj.
      + rewrite IH. split; intros (j & Hj & Hn).
        * assert (H : (j < length l)%nat) by (apply nth_error_Some; congruence).
          exists j. split; [rewrite nth_error_app1 by lia; exact Hj|]. intros k H1 H2.
          destruct (Nat.eq_dec k (length l)) as [->|Hk]; [exact Hlast|].
          rewrite nth_error_app1 by lia. apply Hn; lia.
        * destruct (Nat.lt_trichotomy j (length l)) as [H|[->|H]].
          -- exists j. rewrite nth_error_app1 in Hj by lia. split; [exact Hj|]. intros k H1 H2.
             specialize (Hn k H1 ltac:(lia)). rewrite nth_error_app1 in Hn by lia. exact Hn.
          -- rewrite Hlast in Hj. discriminate Hj.
          -- rewrite (proj2 (nth_error_None _ _)) in Hj by (rewrite app_length; cbn; lia). discriminate Hj.
  Qed.

  Lemma g_first_b_spec xs i :
    g_first_b xs i = true <->
    exists v, nth_error xs i = Some (Some v) /\ forall p, last_valid (firstn i xs) None = Some p -> eqb p v = false.
  Proof.
    unfold g_first_b. destruct (nth_error xs i) as [[v|]|].
    - destruct (last_valid (firstn i xs) None) as [p|]; cbn [last_is].
      + split.
        * intros H. exists v. split; [reflexivity|]. intros p' E. injection E as <-. apply negb_true_iff. exact H.
        * intros (w & E & H). injection E as <-. apply negb_true_iff. apply H. reflexivity.
      + split; [intros _; exists v; split; [reflexivity|intros p E; discriminate]|reflexivity].
    - split; [discriminate|intros (w & E & _); discriminate].
    - split; [discriminate|intros (w & E & _); discriminate].
  Qed.

  (* ---- vsorted_unique = the values at the Keep::First indices, for EVERY series --------------------------- *)
  Definition cell_vals (zs : list (option A)) (k : nat) : list A :=
    match nth_error zs k with Some (Some v) => [v] | _ => [] end.

  Lemma g_uniq_first_go : forall xs pre last,
    Forall okc xs -> okc last ->
    uniq_go eqb last xs = flat_map (cell_vals (pre ++ xs)) (uidx_first_go eqb last (length pre) xs).
  Proof.
    induction xs as [|x r IH]; intros pre last Hok Hl; [reflexivity|].
    inversion Hok as [|? ? Hx Hok']; subst.
    assert (Hre : pre ++ x :: r = (pre ++ [x]) ++ r) by (rewrite <- app_assoc; reflexivity).
    assert (Hlen : S (length pre) = length (pre ++ [x])) by (rewrite app_length; cbn; lia).
    assert (Hcv : forall v, x = Some v -> cell_vals (pre ++ x :: r) (length pre) = [v]).
    { intros v ->. unfold cell_vals. rewrite nth_error_app2 by lia. rewrite Nat.sub_diag. reflexivity. }
    cbn [uniq_go uidx_first_go]. destruct x as [v|].
    - destruct last as [lv|]; cbn [last_is].
      + rewrite (el_sym EL v lv Hx Hl). destruct (eqb lv v); cbn [negb].
        * rewrite Hre, Hlen. apply IH; assumption.
        * cbn [flat_map]. rewrite (Hcv v eq_refl). cbn [app]. f_equal. rewrite Hre, Hlen. apply IH; assumption.
      + cbn [flat_map]. rewrite (Hcv v eq_refl). cbn [app]. f_equal. rewrite Hre, Hlen. apply IH; assumption.
    - rewrite Hre, Hlen. apply IH; assumption.
  Qed.

  Theorem g_uniq_is_values_at_first xs :
    Forall okc xs -> vsorted_unique eqb xs = flat_map (cell_vals xs) (uidx_first eqb xs).
  Proof. intros Hok. exact (g_uniq_first_go xs [] None Hok I). Qed.

  (* one value per reported index, each of them a non-null cell of the input: as many representatives as indices *)
  Theorem g_uniq_length xs : Forall okc xs -> length (vsorted_unique eqb xs) = length (uidx_first eqb xs).
  Proof.
    intros Hok. rewrite (g_uniq_is_values_at_first xs Hok).
    pose proof (proj1 (g_first_idx_valid xs)) as Hv.
    induction (uidx_first eqb xs) as [|k l IH]; [reflexivity|].
    cbn [flat_map]. rewrite app_length. cbn [length].
    destruct (Hv k (or_introl eq_refl)) as [_ (v & E)]. unfold cell_vals at 1. rewrite E. cbn [length Nat.add].
    f_equal. apply IH. intros k' Hk'. apply Hv. right. exact Hk'.
  Qed.

  Theorem g_uniq_values_from_input xs v :
    Forall okc xs -> In v (vsorted_unique eqb xs) -> In (Some v) xs.
  Proof.
    intros Hok. rewrite (g_uniq_is_values_at_first xs Hok). rewrite in_flat_map.
    intros (k & _ & Hk). unfold cell_vals in Hk. destruct (nth_error xs k) as [[w|]|] eqn:E; [|contradiction|contradiction].
    destruct Hk as [<-|[]]. eapply nth_error_In. exact E.
  Qed.
End GenUnique.

(* Part 3: the laws hold on every carrier the code is instantiated at *)
From Coq Require Import Floats ZifyBool.
From Tevec Require Import Base.Num Spec.ExtremaOrd Proofs.CmpOrdFloat Spec.Binning.

(* any carrier of the `Num` class whose non-NaN elements satisfy the order laws of Spec/ExtremaOrd.v *)
Lemma cutlaws_of_ordlaws {A} {NA : Num A} : OrdLaws A -> CutLaws (A := A) nltb nleb num_ok.
Proof.
  intros [H1 H2 H3 H4]. split.
  - exact H1.
  - exact H2.
  - exact H4.
Qed.

Lemma eqlaws_of_ordlaws {A} {NA : Num A} : OrdLaws A -> EqLaws (A := A) neqb num_ok.
Proof.
  intros [H1 H2 H3 H4].
  assert (Hirr : forall a, num_ok a -> nltb a a = false).
  { intros a Ha. destruct (nltb a a) eqn:E; [|reflexivity]. rewrite (H1 a a Ha Ha E) in E. discriminate. }
  split.
  - intros a Ha. rewrite (H3 a a Ha Ha), (Hirr a Ha). reflexivity.
  - intros a b Ha Hb. rewrite (H3 a b Ha Hb), (H3 b a Hb Ha). apply andb_comm.
  - intros a b c Ha Hb Hc. rewrite (H3 a b Ha Hb), (H3 b c Hb Hc), (H3 a c Ha Hc).
    rewrite !andb_true_iff, !negb_true_iff. intros [Eab Eba] [Ebc Ecb]. split.
    + destruct (nltb a c) eqn:E; [|reflexivity]. destruct (H2 a c b Ha Hc Hb E); congruence.
    + destruct (nltb c a) eqn:E; [|reflexivity]. destruct (H2 c a b Hc Ha Hb E); congruence.
Qed.

(* Z: i32 / i64 / u64 / usize and their Option forms (every element is non-null) *)
Lemma Forall_True {A} (l : list A) : Forall (fun _ => True) l.
Proof. apply Forall_forall. intros x _. exact I. Qed.
Lemma cutlaws_Z : CutLaws Z.ltb Z.leb (fun _ => True).
Proof. split; intros; lia. Qed.
Lemma eqlaws_Z : EqLaws Z.eqb (fun _ => True).
Proof. split; intros; lia. Qed.

(* binary64: f64 (and f32, whose values and comparisons are those of binary64); ok = not NaN *)
Definition f64_ok (a : float) : Prop := PrimFloat.is_nan a = false.
Lemma cutlaws_f64 : CutLaws PrimFloat.ltb PrimFloat.leb f64_ok.
Proof. exact (cutlaws_of_ordlaws ordlaws_F64). Qed.
Lemma eqlaws_f64 : EqLaws PrimFloat.eqb f64_ok.
Proof. exact (eqlaws_of_ordlaws ordlaws_F64). Qed.

(* at Z the generic specification is the integer specification of Spec/Binning.v *)
Lemma gascending_Z l : gascending Z.ltb l <-> ascending l.
Proof.
  induction l as [|a [|b r] IH]; cbn; try tauto.
  cbn in IH. rewrite IH. rewrite Z.ltb_lt. tauto.
Qed.

Definition of_ext (x : ext) : gext (A := Z) :=
  match x with NegInf => GNeg | Fin z => GFin z | PosInf => GPos end.

Lemma gext_edges_Z ab edges : gext_edges ab edges = map of_ext (ext_edges ab edges).
Proof.
  unfold gext_edges, ext_edges. destruct ab; cbn [map]; rewrite ?map_app, ?map_map; reflexivity.
Qed.

Lemma gcontains_Z right ab edges j v : gcontains Z.ltb Z.leb right ab edges j v <-> contains right ab edges j v.
Proof.
  unfold gcontains, contains. rewrite gext_edges_Z, !nth_error_map. split.
  - intros (lo & hi & H1 & H2 & H3 & H4).
    destruct (nth_error (ext_edges ab edges) j) as [lo'|]; [|discriminate].
    destruct (nth_error (ext_edges ab edges) (S j)) as [hi'|]; [|discriminate].
    cbn in H1, H2. injection H1 as <-. injection H2 as <-. exists lo', hi'. repeat split.
    unfold in_bin. destruct lo', hi', right; cbn in H3, H4 |- *; try discriminate; lia.
  - intros (lo & hi & H1 & H2 & H3). rewrite H1, H2. exists (of_ext lo), (of_ext hi). repeat split.
    + unfold in_bin in H3. destruct lo, right; cbn in H3 |- *; lia.
    + unfold in_bin in H3. destruct hi, right; cbn in H3 |- *; lia.
Qed.

Lemma okc_Z xs : Forall (okc (fun _ : Z => True)) xs.
Proof. apply Forall_forall. intros [v|] _; exact I. Qed.

(* the values at the reported indices, when the k-th index points at a cell holding the k-th run's value *)
Lemma cell_vals_runs (xs : list (option Z)) : forall (idx : list nat) (runs : list (Z * nat)),
  length idx = length runs ->
  (forall k r, nth_error runs k = Some r -> nth_error xs (nth k idx 0%nat) = Some (Some (fst r))) ->
  flat_map (cell_vals xs) idx = map fst runs.
Proof.
  induction idx as [|i idx IH]; intros [|r runs] Hlen H; try discriminate; [reflexivity|].
  cbn [flat_map map]. unfold cell_vals at 1. pose proof (H 0%nat r eq_refl) as H0. cbn [nth] in H0.
  rewrite H0. cbn [app]. f_equal.
  apply IH; [cbn in Hlen; lia|]. intros k r' Hk. exact (H (S k) r' Hk).
Qed.

Lemma last_of_run_b_Z xs i : g_last_of_run_b Z.eqb xs i = last_of_run_b xs i.
Proof.
  unfold g_last_of_run_b, last_of_run_b, g_differs.
  destruct (nth_error xs i) as [[v|]|]; [|reflexivity|reflexivity].
  destruct (nth_error xs (S i)) as [[u|]|]; reflexivity.
Qed.

(* When nulls form a prefix and a suffix only, the nearest non-null cell before a non-null cell is the previous cell.
   Past the leading nulls the remembered cell `acc` plays the part of a cell put in front of the series. *)
Lemma first_of_run_b_Z xs : nulls_at_ends xs -> forall i, g_first_b Z.eqb xs i = first_of_run_b xs i.
Proof.
  assert (Hshift : forall l i, first_of_run_b (None :: l) (S i) = first_of_run_b l i) by (intros l [|j]; reflexivity).
  assert (Hvals : forall b vs acc i,
            match nth_error (map Some vs ++ repeat None b) i with
            | Some (Some v) => negb (last_is Z.eqb (last_valid (firstn i (map Some vs ++ repeat None b)) acc) v)
            | _ => false
            end = first_of_run_b (acc :: map Some vs ++ repeat None b) (S i)).
  { intros b. induction vs as [|u vs IH]; intros acc i.
    - unfold first_of_run_b. cbn [map app nth_error].
      destruct (nth_error (repeat None b) i) as [[v|]|] eqn:E; [|reflexivity|reflexivity].
      apply nth_error_In, repeat_spec in E. discriminate.
    - destruct i as [|j]; [destruct acc; reflexivity|].
      cbn [map app nth_error firstn last_valid]. rewrite IH. reflexivity. }
  intros (a & vs & b & ->). induction a as [|a IH]; intros i.
  - rewrite <- Hshift. apply Hvals.
  - destruct i as [|i]; [reflexivity|]. cbn [repeat app]. rewrite Hshift, <- IH. reflexivity.
Qed.

(* model and specification at binary64 *)
Definition cut1F {L} := @cut1 float L PrimFloat.ltb PrimFloat.leb.
Definition containsF := @gcontains float PrimFloat.ltb PrimFloat.leb.
Definition ascendingF := @gascending float PrimFloat.ltb.
Definition okcF := @okc float f64_ok.

(* Part 4: `unwrap_all` of Model/Binning.v `vcut_call` *)
Lemma unwrap_all_some {A} (es : list (option A)) l : unwrap_all es = Some l <-> es = map Some l.
Proof.
  revert l; induction es as [|[e|] r IH]; intros l; cbn [unwrap_all].
  - split; [intros H; injection H as <-; reflexivity|]. destruct l; [reflexivity|discriminate].
  - destruct (unwrap_all r) as [l'|] eqn:E.
    + split.
      * intros H. injection H as <-. cbn. f_equal. apply IH. reflexivity.
      * destruct l as [|a l]; [discriminate|]. cbn. intros H. injection H as -> Hr.
        apply IH in Hr. injection Hr as ->. reflexivity.
    + split; [discriminate|]. destruct l as [|a l]; [discriminate|]. cbn. intros H. injection H as _ Hr.
      apply IH in Hr. discriminate.
  - split; [discriminate|]. destruct l; discriminate.
Qed.

Lemma unwrap_all_none {A} (es : list (option A)) : unwrap_all es = None <-> In None es.
Proof.
  induction es as [|[e|] r IH]; cbn [unwrap_all In].
  - split; [discriminate|tauto].
  - destruct (unwrap_all r); split; try discriminate.
    + intros [H|H]; [discriminate|]. apply IH in H. discriminate.
    + intros _. right. apply IH. reflexivity.
    + intros _. reflexivity.
  - split; [intros _; left; reflexivity|reflexivity].
Qed.
