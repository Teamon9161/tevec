(* Proofs/Binning.v — the model of vcut at Z, and positions of `windows` (tuple_windows).  The theorems about `cut1` are
   proved for every carrier in Proofs/Audit14.v; Props/C14.v instantiates them at Z. *)
From Coq Require Import ZArith List Lia Bool.
From Tevec Require Import Base.Prelude Model.Binning Spec.Binning.
Import ListNotations.
Local Open Scope Z_scope.

Definition cut1Z {L} (tmin tmax : Z) := @cut1 Z L Z.ltb Z.leb tmin tmax.
Definition vcutZ {L} (tmin tmax : Z) := @vcut Z L Z.ltb Z.leb tmin tmax.

Lemma xlt_trans a b c : xlt a b -> xlt b c -> xlt a c.
Proof. destruct a, b, c; cbn; try tauto; lia. Qed.

Lemma nth_error_windows {A} (l : list A) i :
  nth_error (windows l) i =
  match nth_error l i, nth_error l (S i) with Some a, Some b => Some (a, b) | _, _ => None end.
Proof.
  revert i; induction l as [|a l IH]; intros i.
  - destruct i; reflexivity.
  - destruct l as [|b r].
    + destruct i as [|[|i]]; reflexivity.
    + change (windows (a :: b :: r)) with ((a, b) :: windows (b :: r)).
      destruct i as [|i]; [reflexivity|].
      cbn [nth_error]. rewrite IH. reflexivity.
Qed.

Lemma windows_length {A} (l : list A) : length (windows l) = (length l - 1)%nat.
Proof.
  induction l as [|a l IH]; [reflexivity|].
  destruct l as [|b r]; [reflexivity|].
  change (windows (a :: b :: r)) with ((a, b) :: windows (b :: r)).
  cbn [length] in *. lia.
Qed.
