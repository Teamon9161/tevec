(* Proofs/Audit11Floor.v — C11: `f64::floor` / `f64::ceil` as executed by the correspondence run
   (Run/RunC11.v f64_floor / f64_ceil, the NumRound instance of Coq's binary64) ARE the mathematical floor / ceiling
   of the real value, for every finite float; NaN and the infinities are returned unchanged.
   Through Flocq's specification of IEEE 754 (Prim2B / B2R) and Proofs/QIdxFloat.v (f64_floorZ_spec, nofnat_f64_exact). *)
From Coq Require Import Reals Lra Lia ZArith List Floats Bool.
From Flocq Require Import Core BinarySingleNaN.
From Flocq Require PrimFloat.
From Tevec Require Import Base.Num Base.F64 Proofs.RoundSum.
From Tevec Require Proofs.QIdxFloat Run.RunC11.
Local Open Scope R_scope.

Module FPx := Flocq.IEEE754.PrimFloat.

Lemma floorZ_same x : Run.RunC11.f64_floorZ x = Proofs.QIdxFloat.f64_floorZ x.
Proof. reflexivity. Qed.

(* an integer below 2^53 in magnitude converts exactly *)
Lemma f64_ofZ_exact (z : Z) : (Z.abs z < 2 ^ 53)%Z -> ffin (f64_ofZ z) = true /\ f2r (f64_ofZ z) = IZR z.
Proof.
  intros H. destruct (Z.ltb_spec z 0) as [Hn|Hp].
  - assert (E : f64_ofZ z = (- f64_ofZ (- z))%float).
    { unfold f64_ofZ. rewrite Z.abs_opp.
      replace (z <? 0)%Z with true by (symmetry; apply Z.ltb_lt; lia).
      replace (- z <? 0)%Z with false by (symmetry; apply Z.ltb_ge; lia). reflexivity. }
    rewrite E, ffin_opp, f2r_opp.
    destruct (Proofs.QIdxFloat.nofnat_f64_exact (Z.to_nat (- z))) as [F V]; [rewrite Z2Nat.id; lia|].
    unfold nofnat in F, V. cbn [nofZ NumF64] in F, V. rewrite Z2Nat.id in F, V by lia.
    split; [exact F|]. rewrite V, opp_IZR. ring.
  - destruct (Proofs.QIdxFloat.nofnat_f64_exact (Z.to_nat z)) as [F V]; [rewrite Z2Nat.id; lia|].
    unfold nofnat in F, V. cbn [nofZ NumF64] in F, V. rewrite Z2Nat.id in F, V by lia. split; assumption.
Qed.

(* what the representation of a finite float says about its real value *)
Lemma repr_facts (x : float) : ffin x = true ->
  match Prim2SF x with
  | S754_zero _ => f2r x = 0
  | S754_finite s m e =>
      ((0 <= e)%Z -> f2r x = IZR (if s then - (Zpos m * 2 ^ e) else Zpos m * 2 ^ e)) /\
      ((e < 0)%Z -> Rabs (f2r x) < IZR (2 ^ 52))
  | _ => False
  end.
Proof.
  rewrite ffin_equiv. unfold f2r. rewrite <- FPx.B2SF_Prim2B.
  destruct (FPx.Prim2B x) as [s|s| |s m e Hb]; cbn [B2SF B2R is_finite]; try discriminate; intros _; [reflexivity|].
  split.
  - intros He. unfold F2R. cbn [Fnum Fexp]. rewrite <- (IZR_Zpower radix2) by exact He. rewrite <- mult_IZR.
    change (radix2 : Z) with 2%Z. destruct s; cbn [cond_Zopp]; f_equal; lia.
  - intros He.
    (* mantissa below 2^53 *)
    assert (Hm : (Zpos m < 2 ^ 53)%Z).
    { unfold bounded in Hb. apply andb_prop in Hb. destruct Hb as [Hc _]. unfold canonical_mantissa in Hc.
      apply Zeq_bool_eq in Hc. rewrite Zpos_digits2_pos in Hc.
      pose proof (Zdigits_correct radix2 (Zpos m)) as [_ Hd]. rewrite Z.abs_eq in Hd by lia.
      unfold SpecFloat.fexp in Hc.
      assert (Hle : (Zdigits radix2 (Z.pos m) <= 53)%Z) by (unfold FloatOps.prec in Hc; lia).
      eapply Z.lt_le_trans; [exact Hd|]. change (radix2 : Z) with 2%Z. apply Z.pow_le_mono_r; lia. }
    unfold F2R. cbn [Fnum Fexp]. rewrite Rabs_mult, <- abs_IZR.
    assert (Ha : Z.abs (cond_Zopp s (Z.pos m)) = Z.pos m) by (destruct s; reflexivity). rewrite Ha.
    rewrite (Rabs_pos_eq (bpow radix2 e)) by apply bpow_ge_0.
    assert (Hb1 : bpow radix2 e <= bpow radix2 (-1)) by (apply bpow_le; lia).
    assert (Hb0 : 0 < bpow radix2 e) by apply bpow_gt_0.
    assert (Hm' : IZR (Z.pos m) < IZR (2 ^ 53)) by (apply IZR_lt, Hm).
    assert (Hmp : 0 < IZR (Z.pos m)) by (apply IZR_lt; lia).
    apply Rlt_le_trans with (IZR (2 ^ 53) * bpow radix2 e).
    + apply Rmult_lt_compat_r; assumption.
    + apply Rle_trans with (IZR (2 ^ 53) * bpow radix2 (-1)).
      * apply Rmult_le_compat_l; [apply IZR_le; lia|exact Hb1].
      * change (bpow radix2 (-1)) with (/ 2). change (2 ^ 53)%Z with (2 * 2 ^ 52)%Z. rewrite mult_IZR. lra.
Qed.

Lemma floor_abs_bound (r : R) (k : Z) : Rabs r < IZR k -> (Z.abs (Zfloor r) <= k)%Z.
Proof.
  intros H. pose proof (Zfloor_lb r) as L. pose proof (Zfloor_ub r) as U.
  assert (Hk : 0 < IZR k) by (pose proof (Rabs_pos r); lra).
  apply Rabs_def2 in H. destruct H as [H1 H2].
  assert (A : (Zfloor r < k)%Z) by (apply lt_IZR; lra).
  assert (B : (- k - 1 < Zfloor r)%Z) by (apply lt_IZR; rewrite minus_IZR, opp_IZR; lra).
  lia.
Qed.

Theorem f64_floor_spec (x : float) : ffin x = true ->
  ffin (Run.RunC11.f64_floor x) = true /\ f2r (Run.RunC11.f64_floor x) = IZR (Zfloor (f2r x)).
Proof.
  intros Hf. pose proof (Proofs.QIdxFloat.f64_floorZ_spec x Hf) as Hz. rewrite <- floorZ_same in Hz.
  pose proof (repr_facts x Hf) as HR. unfold Run.RunC11.f64_floor.
  set (z := Run.RunC11.f64_floorZ x) in *.
  destruct (Prim2SF x) as [s|s| |s m e]; try contradiction.
  - split; [exact Hf|]. rewrite HR. symmetry. f_equal. apply (Zfloor_IZR 0).
  - destruct HR as [HR1 HR2]. destruct (Z.leb_spec 0 e) as [He|He].
    + split; [exact Hf|]. rewrite (HR1 He). rewrite Zfloor_IZR. reflexivity.
    + assert (Hb : (Z.abs z < 2 ^ 53)%Z).
      { rewrite Hz. pose proof (floor_abs_bound (f2r x) (2 ^ 52) (HR2 He)). lia. }
      destruct (Z.eqb_spec z 0) as [E0|E0].
      * rewrite <- Hz, E0. destruct s.
        -- split; [reflexivity|]. change neg_zero with (- zero)%float. rewrite f2r_opp, f2r_zero. ring.
        -- split; [reflexivity|]. apply f2r_zero.
      * destruct (f64_ofZ_exact z Hb) as [F V]. split; [exact F|]. rewrite V, Hz. reflexivity.
Qed.

(* NaN and the infinities are returned as they are *)
Theorem f64_floor_nonfinite (x : float) : ffin x = false -> Run.RunC11.f64_floor x = x \/ Prim2SF x = S754_zero true \/ Prim2SF x = S754_zero false.
Proof.
  intros Hf. unfold Run.RunC11.f64_floor. destruct (Prim2SF x) eqn:E; try (left; reflexivity).
  exfalso. rewrite ffin_equiv in Hf. rewrite <- FPx.B2SF_Prim2B in E.
  destruct (FPx.Prim2B x); cbn [B2SF is_finite] in *; discriminate.
Qed.

Theorem f64_ceil_spec (x : float) : ffin x = true ->
  ffin (Run.RunC11.f64_ceil x) = true /\ f2r (Run.RunC11.f64_ceil x) = IZR (Zceil (f2r x)).
Proof.
  intros Hf. unfold Run.RunC11.f64_ceil.
  destruct (f64_floor_spec (- x)%float) as [F V]; [rewrite ffin_opp; exact Hf|].
  rewrite ffin_opp, f2r_opp. split; [exact F|]. rewrite V, f2r_opp. unfold Zceil. rewrite opp_IZR. reflexivity.
Qed.
