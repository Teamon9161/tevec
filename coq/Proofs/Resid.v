(* Proofs/Resid.v — the residual statistics of reg.rs (ts_vregx_resid_mean / std / skew), index-form driver:
   positional sliding invariant for callbacks that re-read the series through (start, end), the three
   aggregations of agg.rs at XR, and the closed form "statistic of the OLS residual list".          *)
From Coq Require Import Reals Lra Lia List.
From Tevec Require Import Base.Prelude Base.Num Base.XR Spec.Stats Spec.Ols Model.Driver Proofs.Driver
     Model.Features Proofs.IdxRun Proofs.Sliding Proofs.Features Model.Binary Model.Reg Proofs.Ols Proofs.Binary.
Import ListNotations.
Local Open Scope R_scope.

(* ---- positional variant of the sliding invariant ------------------------------------------ *)
Section SlidingIdx.
  Context {T St O : Type}.
  Variable zs : list T.
  Variable pre : St -> T -> St.
  Variable post : St -> option T -> St.
  Variable emit : St -> option nat -> nat -> O.
  Variable s0 : St.
  (* add the new element; emit reading (start, end); then remove the element at `start` *)
  Definition idx_cb (s : St) (a : option nat * nat * T) : St * O :=
    let '(st, e, v) := a in
    let s1 := pre s v in
    (match st with Some j => post s1 (nth_error zs j) | None => s1 end, emit s1 st e).

  Variable Abs : St -> list T -> Prop.
  Hypothesis Abs_init : Abs s0 [].
  Hypothesis Abs_pre : forall s l v, Abs s l -> Abs (pre s v) (l ++ [v]).
  Hypothesis Abs_post : forall s x l, Abs s (x :: l) -> Abs (post s (Some x)) l.
  Variable w : nat.
  Hypothesis Hw : (1 <= w)%nat.
  (* the start index handed to the callback at each position: equal to the iterator body's except
     possibly at the last position (index body with w > len) *)
  Variable sf : nat -> option nat.
  Hypothesis sf_inner : forall j, (S j < length zs)%nat -> sf j = start_of w j.

  Theorem idx_sliding_emit i :
    (i < length zs)%nat ->
    exists s, Abs s (win w i zs) /\
              nth_error (run idx_cb s0 (mapi (fun i v => (sf i, i, v)) zs)) i = Some (emit s (sf i) i).
  Proof.
    intros Hi. destruct (nth_error_Some_lt zs i Hi) as [v Hv].
    destruct (sliding_any idx_cb pre (fun s x => post s (Some x)) s0 Abs (fun _ => True)
                Abs_init (fun s l v _ => Abs_pre s l v) (fun s x l _ => Abs_post s x l) w zs
                (mapi (fun i v => (sf i, i, v)) zs) (length zs - 1) (mapi_length _ _) (fun _ _ _ => I))
      with (i := i) (a := (sf i, i, v)) (v := v) as (s & Habs & Hout); try assumption; try lia.
    - intros k a u s Hk Ha Hu. rewrite nth_error_mapi, Hu in Ha. injection Ha as <-.
      cbn [idx_cb fst]. rewrite sf_inner by lia. unfold start_of, removed.
      destruct (k <? w - 1)%nat; [reflexivity|].
      (* the start index is a position of the series *)
      destruct (nth_error_Some_lt zs (k - (w - 1)) ltac:(lia)) as [x ->]. reflexivity.
    - rewrite nth_error_mapi, Hv. reflexivity.
    - exists (pre s v). split; [exact Habs|exact Hout].
  Qed.
End SlidingIdx.

(* ---- the aggregations of agg.rs at XR ------------------------------------------------------ *)
Lemma valid_cons_some x (l : list XR) : valid (Some x :: l) = x :: valid l.
Proof. reflexivity. Qed.
Lemma valid_cons_none (l : list XR) : valid (None :: l) = valid l.
Proof. reflexivity. Qed.

Lemma vmean_fold (l : list XR) : forall n0 s0,
  fold_left (fun (st : nat * XR) (v : XR) => if nisnan v then st else (S (fst st), (snd st + v)%num)) l
            (n0, Some s0)
  = ((n0 + length (valid l))%nat, Some (s0 + sumR (valid l))).
Proof.
  induction l as [|[x|] l IH]; intros n0 s0; cbn [fold_left].
  - cbn. rewrite Nat.add_0_r, Rplus_0_r. reflexivity.
  - cbn [nisnan NumXR xisnan fst snd]. rewrite xadd_some, IH, valid_cons_some.
    cbn [length sumR fold_right]. fold (sumR (valid l)). f_equal; [lia|f_equal; ring].
  - cbn [nisnan NumXR xisnan]. rewrite valid_cons_none. apply IH.
Qed.

Lemma agg_vmean_spec (l : list XR) : agg_vmean l = agg_mean_spec (valid l).
Proof.
  unfold agg_vmean. change (@nzero XR NumXR) with (Some 0). rewrite vmean_fold. cbn [plus].
  rewrite Rplus_0_l. unfold agg_mean_spec. destruct (length (valid l)) as [|k] eqn:E; [reflexivity|].
  cbn [Nat.leb Nat.eqb]. rewrite xofnat, xdiv_some by (apply not_0_INR; lia).
  unfold meanR, nR. rewrite E. reflexivity.
Qed.

Lemma acc3_fold (l : list XR) : forall n0 s1 s2 s3,
  fold_left acc3_step l {| a_n := n0; a_m1 := Some s1; a_m2 := Some s2; a_m3 := Some s3 |}
  = {| a_n := (n0 + length (valid l))%nat; a_m1 := Some (s1 + psum 1 (valid l));
       a_m2 := Some (s2 + psum 2 (valid l)); a_m3 := Some (s3 + psum 3 (valid l)) |}.
Proof.
  induction l as [|[x|] l IH]; intros n0 s1 s2 s3; cbn [fold_left].
  - unfold psum. cbn. rewrite Nat.add_0_r, !Rplus_0_r. reflexivity.
  - unfold acc3_step at 2. cbn [nisnan NumXR xisnan a_n a_m1 a_m2 a_m3].
    rewrite !xmul_some, !xadd_some, IH, valid_cons_some, !psum_cons. cbn [length].
    f_equal; [lia|f_equal; ring..].
  - unfold acc3_step at 2. cbn [nisnan NumXR xisnan]. rewrite valid_cons_none. apply IH.
Qed.

Lemma acc3_of_spec (l : list XR) :
  acc3_of l = {| a_n := length (valid l); a_m1 := Some (psum 1 (valid l));
                 a_m2 := Some (psum 2 (valid l)); a_m3 := Some (psum 3 (valid l)) |}.
Proof.
  unfold acc3_of, acc3_0. change (@nzero XR NumXR) with (Some 0). rewrite acc3_fold. cbn [plus].
  rewrite !Rplus_0_l. reflexivity.
Qed.

Lemma popvar_from_sums_n (V : list R) :
  INR (length V) <> 0 ->
  psum 2 V / INR (length V) - (psum 1 V / INR (length V)) ^ 2 = popvarR V.
Proof. exact (popvar_from_sums V). Qed.

Lemma agg_vvar_spec mp (l : list XR) :
  (2 <= mp)%nat ->
  agg_vvar mp l =
  if (length (valid l) <? mp)%nat then None
  else if Rle_dec (popvarR (valid l)) EPS then Some 0 else Some (samplevarR (valid l)).
Proof.
  intros Hmp. unfold agg_vvar. rewrite acc3_of_spec. cbn [a_n a_m1 a_m2].
  set (V := valid l). set (n := length V).
  destruct (n <? mp)%nat eqn:E; [reflexivity|]. apply Nat.ltb_ge in E.
  assert (Hn0 : INR n <> 0) by (apply not_0_INR; lia).
  rewrite xofnat, !xdiv_some by exact Hn0. rewrite powi_some, xsub_some.
  unfold n. rewrite popvar_from_sums_n by exact Hn0. fold n.
  change (@neps XR NumXR) with (Some EPS). cbn [nleb NumXR xleb].
  destruct (Rle_dec (popvarR V) EPS); [reflexivity|].
  replace (2 <=? n)%nat with true by (symmetry; apply Nat.leb_le; lia).
  rewrite xofnat, xmul_some, xdiv_some by (apply not_0_INR; lia). f_equal.
  apply (sample_from_pop l). fold V. fold n. lia.
Qed.

Lemma agg_vstd_spec (l : list XR) : agg_vstd 2 l = agg_std_spec (valid l).
Proof.
  unfold agg_vstd. rewrite agg_vvar_spec by lia. unfold agg_std_spec.
  destruct (length (valid l) <? 2)%nat eqn:E; [reflexivity|]. apply Nat.ltb_ge in E.
  destruct (Rle_dec (popvarR (valid l)) EPS).
  - rewrite xsqrt_some by lra. rewrite sqrt_0. reflexivity.
  - rewrite xsqrt_some by (apply (samplevar_nonneg l); exact E). reflexivity.
Qed.

(* E[x^3]/s^3 - 3 (m/s) - (m/s)^3 is the standardised third central moment *)
Lemma skew_raw_identity (V : list R) :
  INR (length V) <> 0 -> 0 < popvarR V ->
  psum 3 V / INR (length V) / sqrt (popvarR V) ^ 3
  - 3 * (psum 1 V / INR (length V) / sqrt (popvarR V))
  - (psum 1 V / INR (length V) / sqrt (popvarR V)) ^ 3
  = cmom 3 V / sqrt (popvarR V) ^ 3.
Proof.
  intros Hn Hv. set (sd := sqrt (popvarR V)). set (n := INR (length V)) in *.
  assert (Hsd : sd * sd = popvarR V) by (apply sqrt_sqrt; lra).
  assert (Hsd0 : sd <> 0) by (apply Rgt_not_eq, sqrt_lt_R0; exact Hv).
  assert (Hc3 : cmom 3 V = psum 3 V / n - 3 * (psum 1 V / n) * (sd * sd) - (psum 1 V / n) ^ 3).
  { rewrite Hsd. rewrite <- (popvar_from_sums_n V Hn). fold n.
    unfold cmom, meanR. rewrite devsum3_expand, <- psum_1. unfold nR. fold n. field. exact Hn. }
  rewrite Hc3. field. split; assumption.
Qed.

Lemma agg_vskew_spec (l : list XR) : agg_vskew 3 l = agg_skew_spec (valid l).
Proof.
  unfold agg_vskew. rewrite acc3_of_spec. cbn [a_n a_m1 a_m2 a_m3]. unfold agg_skew_spec.
  set (V := valid l). set (n := length V).
  destruct (n <? 3)%nat eqn:E; [reflexivity|]. apply Nat.ltb_ge in E.
  replace (3 <=? n)%nat with true by (symmetry; apply Nat.leb_le; lia).
  assert (Hn0 : INR n <> 0) by (apply not_0_INR; lia).
  rewrite !xofnat, !xdiv_some by exact Hn0. rewrite powi_some, xsub_some.
  unfold n. rewrite popvar_from_sums_n by exact Hn0. fold n.
  change (@neps XR NumXR) with (Some EPS). change (@nzero XR NumXR) with (Some 0).
  cbn [nleb NumXR xleb].
  destruct (Rle_dec (popvarR V) EPS) as [Hle|Hgt].
  - cbn [nisnan neqb NumXR xisnan xeqb negb andb].
    destruct (Req_EM_T 0 0) as [_|C]; [reflexivity|exfalso; apply C; reflexivity].
  - pose proof EPS_pos as He. assert (Hv : 0 < popvarR V) by lra.
    rewrite xsqrt_some by lra. set (sd := sqrt (popvarR V)).
    assert (Hsd0 : sd <> 0) by (apply Rgt_not_eq, sqrt_lt_R0; exact Hv).
    rewrite xdiv_some by exact Hsd0. rewrite !powi_some.
    rewrite xdiv_some by (apply pow_nonzero; exact Hsd0).
    change (@three XR NumXR) with (Some 3). rewrite xmul_some, !xsub_some.
    pose proof (skew_raw_identity V Hn0 Hv) as Hid. fold n sd in Hid. rewrite Hid.
    cbn [nisnan neqb NumXR xisnan xeqb negb andb].
    destruct (Req_EM_T (cmom 3 V / sd ^ 3) 0) as [E0|E0]; cbn [negb].
    + f_equal. unfold skewR. change (cmom 2 V) with (popvarR V). fold sd. rewrite E0. ring.
    + rewrite xsqrt_some by apply pos_INR.
      rewrite xdiv_some by (apply not_0_INR; lia). rewrite xmul_some. f_equal.
      unfold skewR. change (cmom 2 V) with (popvarR V). fold sd. unfold nR. fold n.
      rewrite mult_INR, !minus_INR by lia. cbn [INR]. replace (1 + 1) with 2 by ring. unfold Rdiv. ring.
Qed.

(* ---- the residual list --------------------------------------------------------------------- *)
Lemma resid_valid_some al be (W : list (XR * XR)) :
  valid (map (resid_of (Some al) (Some be)) W) = resids al be (vpairs W).
Proof.
  induction W as [|[[a|] [b|]] W IH]; [reflexivity|..]; cbn [map];
    unfold resid_of at 1, both, not_none;
    cbn [fst snd is_none IsNoneXR IsNone_float nisnan NumXR xisnan negb andb unwrap].
  - rewrite xmul_some, !xsub_some, valid_cons_some, IH. reflexivity.
  - change (@nnan XR NumXR) with (@None R). rewrite valid_cons_none. exact IH.
  - change (@nnan XR NumXR) with (@None R). rewrite valid_cons_none. exact IH.
  - change (@nnan XR NumXR) with (@None R). rewrite valid_cons_none. exact IH.
Qed.
Lemma resid_valid_none (W : list (XR * XR)) : valid (map (resid_of None None) W) = [].
Proof.
  induction W as [|[[a|] [b|]] W IH]; [reflexivity|..]; cbn [map];
    unfold resid_of at 1, both, not_none;
    cbn [fst snd is_none IsNoneXR IsNone_float nisnan NumXR xisnan negb andb unwrap];
    (change (@nnan XR NumXR) with (@None R) || cbn [nsub nmul NumXR xlift2]);
    rewrite valid_cons_none; exact IH.
Qed.

Definition rstat_spec (k : rstat) (V : list R) : XR :=
  match k with RMean => agg_mean_spec V | RStd => agg_std_spec V | RSkew => agg_skew_spec V end.
Lemma rstat_apply_spec k (l : list XR) : rstat_apply k l = rstat_spec k (valid l).
Proof. destruct k; [apply agg_vmean_spec|apply agg_vstd_spec|apply agg_vskew_spec]. Qed.
Lemma rstat_spec_nil k : rstat_spec k [] = None.
Proof. destruct k; reflexivity. Qed.

(* what the residual closures emit, in terms of the window they re-read *)
Definition resid_stat_x (k : rstat) (mp : nat) (P : list (R * R)) : XR :=
  if (mp <=? length P)%nat then
    (if Req_EM_T (detB P) 0 then None else rstat_spec k (resids (ols_alpha P) (ols_beta P) P))
  else None.

Lemma resid_emit_spec k mp zs (s : @csum XR) st e (W : list (XR * XR)) :
  W = seg (match st with Some j => j | None => 0%nat end) (S e) zs ->
  csum_abs s W ->
  resid_emit k mp zs s st e = resid_stat_x k mp (vpairs W).
Proof.
  intros HW HA. unfold resid_emit, resid_stat_x. rewrite <- HW. rewrite (cs_n s W HA).
  destruct (mp <=? length (vpairs W))%nat; [|reflexivity]. cbv zeta.
  assert (Hal : ((c_a s - regx_beta s * c_b s) / nofnat (length (vpairs W)))%num
                = ols_x (vpairs W) (fun al _ => al)).
  { rewrite <- (regx_alpha_spec s W HA). unfold regx_alpha. rewrite (cs_n s W HA). reflexivity. }
  rewrite Hal, (regx_beta_spec s W HA), rstat_apply_spec. unfold ols_x.
  destruct (Req_EM_T (detB (vpairs W)) 0) as [E|E].
  - rewrite resid_valid_none. apply rstat_spec_nil.
  - rewrite resid_valid_some. reflexivity.
Qed.

(* both bodies of rolling2_apply_idx on series of equal length, at any carrier: behind output i stands a
   state that a sliding invariant Abs relates to the window, and the (start, end) the callback re-reads
   through is that window *)
Lemma resid_sliding {A} `{NA : Num A} {T1} {D1 : IsNone T1 A} {T2} {D2 : IsNone T2 A}
      (Abs : @csum A -> list (T1 * T2) -> Prop) k body (w : nat) (mp : option nat)
      (xs : list T1) (ys : list T2) :
  Abs csum0 [] -> (forall s l v, Abs s l -> Abs (csum_pre s v) (l ++ [v])) ->
  (forall s x l, Abs s (x :: l) -> Abs (csum_post s (Some x)) l) ->
  (1 <= w)%nat -> length xs = length ys ->
  let zs := combine xs ys in
  exists out, ts_vregx_resid k body w mp xs ys = Done out /\ length out = length xs /\
    forall i, (i < length xs)%nat ->
      exists s st, Abs s (win w i zs) /\
                   win w i zs = seg (match st with Some j => j | None => 0%nat end) (S i) zs /\
                   nth_error out i = Some (resid_emit k (mp_eff mp w 0) zs s st i).
Proof.
  intros Hinit Hpre Hpost Hw Hlen zs. unfold ts_vregx_resid. fold zs. set (m := mp_eff mp w 0).
  assert (Hzl : length zs = length xs) by (unfold zs; rewrite combine_length; lia).
  change (resid_cb k m zs) with (idx_cb zs csum_pre csum_post (resid_emit k m zs)).
  assert (Hgen : forall sf : nat -> option nat,
             (forall j, (S j < length zs)%nat -> sf j = start_of w j) ->
             (forall i, (i < length zs)%nat -> match sf i with Some j => j | None => 0%nat end = wstart w i) ->
             let out := run (idx_cb zs csum_pre csum_post (resid_emit k m zs)) csum0
                            (mapi (fun i v => (sf i, i, v)) zs) in
             length out = length xs /\
             forall i, (i < length xs)%nat ->
               exists s st, Abs s (win w i zs) /\
                            win w i zs = seg (match st with Some j => j | None => 0%nat end) (S i) zs /\
                            nth_error out i = Some (resid_emit k m zs s st i)).
  { intros sf H1 H2 out. split; [unfold out; rewrite run_length, mapi_length; exact Hzl|].
    intros i Hi. rewrite <- Hzl in Hi.
    destruct (@idx_sliding_emit _ _ _ zs csum_pre csum_post (resid_emit k m zs) csum0 Abs
                Hinit Hpre Hpost w Hw sf H1 i Hi) as (s & Habs & Hnth).
    exists s, (sf i). split; [exact Habs|]. split; [rewrite (H2 i Hi); apply win_seg|exact Hnth]. }
  destruct body.
  - unfold rolling2_apply_idx_to.
    rewrite (ltb_false (length ys) (length xs)) by lia.
    fold zs. rewrite rolling_apply_idx_to_eq by exact Hw. unfold args_to_idx.
    destruct (Hgen (start_of (Nat.min w (length zs)))) as [HL HO].
    + intros j Hj. apply start_of_min_eq; [lia|right; exact Hj].
    + intros i Hi. rewrite start_of_or_0, Nat.min_comm by lia. apply wstart_clamp, Hi.
    + eexists. split; [reflexivity|]. split; [exact HL|exact HO].
  - rewrite rolling2_apply_idx_default_pos by exact Hw. fold zs. rewrite rolling_apply_idx_default_eq by exact Hw.
    destruct (Hgen (start_of w)) as [HL HO].
    + intros j Hj. reflexivity.
    + intros i Hi. apply start_of_or_0. exact Hw.
    + eexists. split; [reflexivity|]. split; [exact HL|exact HO].
Qed.

Theorem resid_entry k body (w : nat) (mp : option nat) (xs ys : list XR) :
  (1 <= w)%nat -> length xs = length ys ->
  exists out, ts_vregx_resid k body w mp xs ys = Done out /\ length out = length xs /\
    forall i, (i < length xs)%nat ->
      nth_error out i = Some (resid_stat_x k (mp_eff mp w 0) (pairs (win w i xs) (win w i ys))).
Proof.
  intros Hw Hlen.
  destruct (resid_sliding csum_abs k body w mp xs ys csum_abs_init csum_abs_pre csum_abs_post Hw Hlen)
    as (out & Hrun & Hl & Hout).
  exists out. split; [exact Hrun|]. split; [exact Hl|]. intros i Hi.
  destruct (Hout i Hi) as (s & st & Habs & Hseg & Hnth). rewrite Hnth. f_equal.
  rewrite (resid_emit_spec k _ _ s st i _ Hseg Habs). unfold pairs. rewrite <- win_combine. reflexivity.
Qed.

(* a perfect linear window: every residual statistic is 0 *)
Lemma perfect_resid_stats k mp c d (P : list (R * R)) :
  detB P <> 0 -> Forall (fun p => fst p = c + d * snd p) P -> (mp <= length P)%nat ->
  (k = RSkew -> (3 <= length P)%nat) ->
  resid_stat_x k mp P = Some 0.
Proof.
  intros HD HL Hmp Hk. unfold resid_stat_x.
  replace (mp <=? length P)%nat with true by (symmetry; apply Nat.leb_le; exact Hmp).
  destruct (Req_EM_T (detB P) 0) as [E|_]; [contradiction|].
  destruct (perfect_fit c d P HD HL) as (_ & _ & _ & HZ).
  pose proof (det_nonzero_two P HD) as H2.
  destruct (zeros_stats _ HZ ltac:(rewrite resids_length; exact H2)) as (Hm & Hs & Hsk).
  destruct k; cbn [rstat_spec]; [exact Hm|exact Hs|].
  apply Hsk. rewrite resids_length. apply Hk. reflexivity.
Qed.
