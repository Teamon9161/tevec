(* Proofs/Audit05.v — audit of property C05 (notes/C05.md, "Audit matrix").
   (A) huge windows: for every window beyond the series length the drivers pass no removed element / no start
       index, and an explicit min_periods gate `mp' <= n` cannot tell two such windows apart because the count n
       never exceeds the length — so every entry point whose closure uses the window only through the gate gives
       THE SAME OUTCOME for every w > len (in particular w = len + 1, where the correspondence run evaluates the
       model, and w = 2^40 .. usize::MAX, where it runs the code).  Every carrier, both bodies.
   (B) the two-series functions on series of unequal length: the masks on the common prefix.
   (C) "null below min_periods" at EVERY carrier, no order law, for the entry points that had it at ordered
       carriers / option R only: ts_vmin, ts_vmax, ts_vargmin, ts_vargmax, ts_vminmaxnorm, ts_vfdiff.
   (D) min_periods > window.
   (E) every input of every entry point: the shape of the outcome.                                                                              *)
From Coq Require Import ZArith Reals Lia List Bool.
From Tevec Require Import Base.Prelude Base.Num Base.XR Spec.Stats Spec.Ols Model.Driver Proofs.Driver
     Model.Features Model.Cmp Model.Norm Model.Binary Model.Reg Model.Fdiff Proofs.Generic Proofs.IdxRun
     Proofs.Outcome Proofs.Features Proofs.Fdiff Proofs.IdxPrefix Proofs.Kernels3 Proofs.Audit01 Proofs.Audit03
     Proofs.Audit04 Proofs.Mask Proofs.Mask2 Proofs.Mask3.
Import ListNotations.

(* (A) huge windows.  Two callbacks that agree on the states an indexed invariant allows give the same run *)
Lemma run_ext_inv {St X O} (g1 g2 : St -> X -> St * O) (I : nat -> St -> Prop) (N : nat) :
  (forall k s a, k < N -> I k s -> g1 s a = g2 s a /\ I (S k) (fst (g2 s a))) ->
  forall args k s, k + length args <= N -> I k s -> run g1 s args = run g2 s args.
Proof.
  intros H. induction args as [|a r IH]; intros k s Hk HI; [reflexivity|].
  cbn [run]. cbn [length] in Hk. destruct (H k s a ltac:(lia) HI) as [E HI'].
  rewrite E. destruct (g2 s a) as [s' o]. cbn [fst] in HI'. f_equal. apply (IH (S k)); [lia|exact HI'].
Qed.

(* the same feature under two windows beyond the length: no element is ever removed *)
Lemma ts_run_large_window {T St O} (F : feat T St O) body (w1 w2 : nat) (xs : list T) :
  length xs < w1 -> length xs < w2 -> ts_run F body w1 xs = ts_run F body w2 xs.
Proof.
  intros H1 H2. rewrite !ts_run_eq, !bad_window_false by lia. do 2 f_equal.
  apply mapi_ext. intros i v Hv. assert (Hi : i < length xs) by (apply nth_error_Some; congruence).
  unfold removed.
  rewrite (ltb_true i (w1 - 1)) by lia.
  rewrite (ltb_true i (w2 - 1)) by lia. reflexivity.
Qed.

(* two features that differ in the emit function only, a counter that the add step raises by at most one and the
   remove step never raises: emits that agree on counts <= len give the same outcome *)
Section EmitExt.
  Context {T St O : Type}.
  Variables F1 F2 : feat T St O.
  Variable cnt : St -> nat.
  Hypothesis Hinit : f_init F1 = f_init F2.
  Hypothesis Hpre : forall s v, f_pre F1 s v = f_pre F2 s v.
  Hypothesis Hpost : forall s rm, f_post F1 s rm = f_post F2 s rm.
  Hypothesis cnt0 : cnt (f_init F2) = 0.
  Hypothesis cnt_pre : forall s v, cnt (f_pre F2 s v) <= S (cnt s).
  Hypothesis cnt_post : forall s rm, cnt (f_post F2 s rm) <= cnt s.

  Lemma ts_run_emit_ext body (w : nat) (xs : list T) :
    (forall s, cnt s <= length xs -> f_emit F1 s = f_emit F2 s) ->
    ts_run F1 body w xs = ts_run F2 body w xs.
  Proof.
    intros He. rewrite !ts_run_eq. destruct (bad_window w xs); [reflexivity|]. f_equal.
    rewrite Hinit.
    apply (run_ext_inv (feat_cb F1) (feat_cb F2) (fun k s => cnt s <= k) (length xs)) with (k := 0).
    - intros k s [rm v] Hk HI. unfold feat_cb. cbn [fst snd]. rewrite Hpre, Hpost.
      pose proof (cnt_pre s v) as P1. pose proof (cnt_post (f_pre F2 s v) rm) as P2.
      split; [f_equal; apply He; lia|lia].
    - rewrite mapi_length. lia.
    - rewrite cnt0. lia.
  Qed.
End EmitExt.

(* a min_periods gate: the emit function looks at its threshold only through `m <=? count` *)
Definition gated {St O} (cnt : St -> nat) (emit : nat -> St -> O) : Prop :=
  forall m1 m2 s, (m1 <=? cnt s) = (m2 <=? cnt s) -> emit m1 s = emit m2 s.

(* two windows beyond the length and an explicit min_periods: the effective thresholds differ at most above len *)
Lemma mp_eff_gate_agree (m w1 w2 k len n : nat) :
  len < w1 -> len < w2 -> n <= len -> (mp_eff (Some m) w1 k <=? n) = (mp_eff (Some m) w2 k <=? n).
Proof.
  intros H1 H2 Hn. unfold mp_eff.
  destruct (Nat.leb_spec (Nat.max (Nat.min m w1) k) n), (Nat.leb_spec (Nat.max (Nat.min m w2) k) n);
    try reflexivity; lia.
Qed.

Section HugeFamily.
  Context {T St O : Type}.
  Variable init : St.
  Variable pre : St -> T -> St.
  Variable post : St -> option T -> St.
  Variable cnt : St -> nat.
  Variable emit : nat -> St -> O.
  Hypothesis cnt0 : cnt init = 0.
  Hypothesis cnt_pre : forall s v, cnt (pre s v) <= S (cnt s).
  Hypothesis cnt_post : forall s rm, cnt (post s rm) <= cnt s.
  Hypothesis Hg : gated cnt emit.
  Let F (m : nat) : feat T St O := {| f_init := init; f_pre := pre; f_emit := emit m; f_post := post |}.

  Lemma huge_window_family body (w1 w2 k m : nat) (xs : list T) :
    length xs < w1 -> length xs < w2 ->
    ts_run (F (mp_eff (Some m) w1 k)) body w1 xs = ts_run (F (mp_eff (Some m) w2 k)) body w2 xs.
  Proof.
    intros H1 H2. rewrite (ts_run_large_window _ body w1 w2 xs H1 H2).
    apply (ts_run_emit_ext _ _ cnt); try reflexivity; try assumption.
    intros s Hs. cbn [f_emit F]. apply Hg. apply (mp_eff_gate_agree m w1 w2 k (length xs)); assumption.
  Qed.
End HugeFamily.

(* past the checks a two-series run is the one-series run over the zipped series *)
Lemma ts_run2_as_ts_run {T1 T2 St O} (F : feat (T1 * T2) St O) body (w : nat) (xs : list T1) (ys : list T2) :
  1 <= w ->
  ts_run2 F body w xs ys =
  if body && (length ys <? length xs) then Panicked AssertFail else ts_run F body w (combine xs ys).
Proof.
  intros Hw. unfold ts_run2, ts_run. destruct body; cbn [andb].
  - unfold rolling2_apply_to. destruct (length ys <? length xs); reflexivity.
  - unfold rolling2_apply_default, rolling_apply_default. rewrite !bad_window_false by exact Hw. reflexivity.
Qed.

Section HugeInstances.
  Context {A : Type} {NA : Num A} {T : Type} {DT : IsNone T A}.

  Lemma mom_cnt_pre (s : @mom A) (v : T) : m_n (mom_pre s v) <= S (m_n s).
  Proof. unfold mom_pre. destruct (not_none v); cbn [m_n mom_add]; lia. Qed.
  Lemma mom_cnt_post (s : @mom A) (rm : option T) : m_n (mom_post s rm) <= m_n s.
  Proof. unfold mom_post. destruct rm as [v|]; [|lia]. destruct (not_none v); cbn [m_n mom_sub]; lia. Qed.

  (* any gated emit of the moment accumulator *)
  Lemma huge_window_mom (emit : nat -> @mom A -> A) body (w1 w2 k m : nat) (xs : list T) :
    gated (@m_n A) emit -> length xs < w1 -> length xs < w2 ->
    ts_run (mom_feat (emit (mp_eff (Some m) w1 k))) body w1 xs
    = ts_run (mom_feat (emit (mp_eff (Some m) w2 k))) body w2 xs.
  Proof.
    intros Hg. exact (huge_window_family mom0 mom_pre mom_post (@m_n A) emit eq_refl mom_cnt_pre mom_cnt_post Hg
                                         body w1 w2 k m xs).
  Qed.

  Lemma gated_sum : gated (@m_n A) emit_sum.
  Proof. intros m1 m2 s E. unfold emit_sum. rewrite E. reflexivity. Qed.
  Lemma gated_mean : gated (@m_n A) emit_mean.
  Proof. intros m1 m2 s E. unfold emit_mean. rewrite E. reflexivity. Qed.
  Lemma gated_var : gated (@m_n A) emit_var.
  Proof. intros m1 m2 s E. unfold emit_var. rewrite E. reflexivity. Qed.
  Lemma gated_std : gated (@m_n A) emit_std.
  Proof. intros m1 m2 s E. unfold emit_std. rewrite E. reflexivity. Qed.
  Lemma gated_skew : gated (@m_n A) emit_skew.
  Proof. intros m1 m2 s E. unfold emit_skew. rewrite E. reflexivity. Qed.
  Lemma gated_kurt : gated (@m_n A) emit_kurt.
  Proof. intros m1 m2 s E. unfold emit_kurt. rewrite E. reflexivity. Qed.

  Theorem huge_window_moments body (w1 w2 m : nat) (xs : list T) :
    length xs < w1 -> length xs < w2 ->
    ts_run (ts_vsum_f w1 (Some m)) body w1 xs = ts_run (ts_vsum_f w2 (Some m)) body w2 xs /\
    ts_run (ts_vmean_f w1 (Some m)) body w1 xs = ts_run (ts_vmean_f w2 (Some m)) body w2 xs /\
    ts_run (ts_vvar_f w1 (Some m)) body w1 xs = ts_run (ts_vvar_f w2 (Some m)) body w2 xs /\
    ts_run (ts_vstd_f w1 (Some m)) body w1 xs = ts_run (ts_vstd_f w2 (Some m)) body w2 xs /\
    ts_run (ts_vskew_f w1 (Some m)) body w1 xs = ts_run (ts_vskew_f w2 (Some m)) body w2 xs /\
    ts_run (ts_vkurt_f w1 (Some m)) body w1 xs = ts_run (ts_vkurt_f w2 (Some m)) body w2 xs.
  Proof.
    intros H1 H2. repeat split.
    - apply (huge_window_mom emit_sum); [exact gated_sum|exact H1|exact H2].
    - apply (huge_window_mom emit_mean); [exact gated_mean|exact H1|exact H2].
    - apply (huge_window_mom emit_var); [exact gated_var|exact H1|exact H2].
    - apply (huge_window_mom emit_std); [exact gated_std|exact H1|exact H2].
    - apply (huge_window_mom emit_skew); [exact gated_skew|exact H1|exact H2].
    - apply (huge_window_mom emit_kurt); [exact gated_kurt|exact H1|exact H2].
  Qed.

  (* the linearly weighted mean: its weights 1..n do not depend on the window either *)
  Theorem huge_window_wma body (w1 w2 m : nat) (xs : list T) :
    length xs < w1 -> length xs < w2 ->
    ts_run (ts_vwma_f w1 (Some m)) body w1 xs = ts_run (ts_vwma_f w2 (Some m)) body w2 xs.
  Proof.
    apply (huge_window_family {| w_n := 0; w_sum := nzero; w_xt := nzero |} wma_pre wma_post (@w_n A) wma_emit).
    - reflexivity.
    - intros s v. unfold wma_pre. destruct (not_none v); cbn [w_n]; lia.
    - intros s [v|]; cbn [wma_post]; [|lia]. destruct (not_none v); cbn [w_n]; lia.
    - intros m1 m2 s E. unfold wma_emit. rewrite E. reflexivity.
  Qed.

  Theorem huge_window_zscore body (w1 w2 m : nat) (xs : list T) :
    length xs < w1 -> length xs < w2 ->
    ts_vzscore body w1 (Some m) xs = ts_vzscore body w2 (Some m) xs.
  Proof.
    unfold ts_vzscore.
    apply (huge_window_family zs0 zs_pre zs_post (@z_n A) zs_emit).
    - reflexivity.
    - intros s v. unfold zs_pre. destruct (not_none v); cbn [z_n]; lia.
    - intros s [v|]; cbn [zs_post]; [|lia]. destruct (not_none v); cbn [z_n]; lia.
    - intros m1 m2 s E. unfold zs_emit. destruct (z_cur s); [rewrite E|]; reflexivity.
  Qed.

  (* the five time-trend regressions: any gated emit of the trend accumulator *)
  Lemma huge_window_trend (emit : nat -> @tr_st A -> A) body (w1 w2 m : nat) (xs : list T) :
    gated (@t_n A) emit -> length xs < w1 -> length xs < w2 ->
    ts_run (tr_feat (emit (mp_eff (Some m) w1 0))) body w1 xs
    = ts_run (tr_feat (emit (mp_eff (Some m) w2 0))) body w2 xs.
  Proof.
    intros Hg. apply (huge_window_family tr0 tr_pre tr_post (@t_n A) emit).
    - reflexivity.
    - intros s v. unfold tr_pre. destruct (not_none v); cbn [t_n]; lia.
    - intros s [v|]; cbn [tr_post]; [|lia]. destruct (not_none v); cbn [t_n]; lia.
    - exact Hg.
  Qed.

  Theorem huge_window_trends body (w1 w2 m : nat) (xs : list T) :
    length xs < w1 -> length xs < w2 ->
    ts_run (ts_vreg_f w1 (Some m)) body w1 xs = ts_run (ts_vreg_f w2 (Some m)) body w2 xs /\
    ts_run (ts_vtsf_f w1 (Some m)) body w1 xs = ts_run (ts_vtsf_f w2 (Some m)) body w2 xs /\
    ts_run (ts_vreg_slope_f w1 (Some m)) body w1 xs = ts_run (ts_vreg_slope_f w2 (Some m)) body w2 xs /\
    ts_run (ts_vreg_intercept_f w1 (Some m)) body w1 xs = ts_run (ts_vreg_intercept_f w2 (Some m)) body w2 xs /\
    ts_run (ts_vreg_resid_mean_f w1 (Some m)) body w1 xs = ts_run (ts_vreg_resid_mean_f w2 (Some m)) body w2 xs.
  Proof.
    intros H1 H2. repeat split.
    - apply (huge_window_trend emit_reg); [|exact H1|exact H2]. intros m1 m2 s E. unfold emit_reg. rewrite E. reflexivity.
    - apply (huge_window_trend emit_tsf); [|exact H1|exact H2]. intros m1 m2 s E. unfold emit_tsf. rewrite E. reflexivity.
    - apply (huge_window_trend emit_slope); [|exact H1|exact H2]. intros m1 m2 s E. unfold emit_slope. rewrite E. reflexivity.
    - apply (huge_window_trend emit_intercept); [|exact H1|exact H2].
      intros m1 m2 s E. unfold emit_intercept. rewrite E. reflexivity.
    - apply (huge_window_trend emit_resid_mean); [|exact H1|exact H2].
      intros m1 m2 s E. unfold emit_resid_mean. rewrite E. reflexivity.
  Qed.
End HugeInstances.

(* the two-series cross-sum family: cov, corr, regression-on-x alpha / beta / (alpha, beta, SSE) *)
Section HugeTwo.
  Context {A : Type} {NA : Num A} {T1 : Type} {D1 : IsNone T1 A} {T2 : Type} {D2 : IsNone T2 A}.

  Lemma huge_window_csum {O} (emit : nat -> @csum A -> O) body (w1 w2 k m : nat) (xs : list T1) (ys : list T2) :
    gated (@c_n A) emit -> length xs < w1 -> length xs < w2 ->
    ts_run2 (csum_feat (D1 := D1) (D2 := D2) (emit (mp_eff (Some m) w1 k))) body w1 xs ys
    = ts_run2 (csum_feat (D1 := D1) (D2 := D2) (emit (mp_eff (Some m) w2 k))) body w2 xs ys.
  Proof.
    intros Hg H1 H2. rewrite !ts_run2_as_ts_run by lia. destruct (body && (length ys <? length xs)); [reflexivity|].
    assert (Hc : length (combine xs ys) <= length xs) by (rewrite combine_length; lia).
    apply (huge_window_family csum0 (csum_pre (D1 := D1) (D2 := D2)) (csum_post (D1 := D1) (D2 := D2))
                              (@c_n A) emit); try lia.
    - reflexivity.
    - intros s v. unfold csum_pre. destruct (both v); cbn [c_n csum_add]; lia.
    - intros s [v|]; cbn [csum_post]; [|lia]. destruct (both v); cbn [c_n csum_sub]; lia.
    - exact Hg.
  Qed.

  Theorem huge_window_two_series body (w1 w2 m : nat) (xs : list T1) (ys : list T2) :
    length xs < w1 -> length xs < w2 ->
    ts_run2 (ts_vcov_f (D1 := D1) (D2 := D2) w1 (Some m)) body w1 xs ys
      = ts_run2 (ts_vcov_f (D1 := D1) (D2 := D2) w2 (Some m)) body w2 xs ys /\
    ts_run2 (ts_vcorr_f (D1 := D1) (D2 := D2) w1 (Some m)) body w1 xs ys
      = ts_run2 (ts_vcorr_f (D1 := D1) (D2 := D2) w2 (Some m)) body w2 xs ys /\
    ts_run2 (ts_vregx_alpha_f (D1 := D1) (D2 := D2) w1 (Some m)) body w1 xs ys
      = ts_run2 (ts_vregx_alpha_f (D1 := D1) (D2 := D2) w2 (Some m)) body w2 xs ys /\
    ts_run2 (ts_vregx_beta_f (D1 := D1) (D2 := D2) w1 (Some m)) body w1 xs ys
      = ts_run2 (ts_vregx_beta_f (D1 := D1) (D2 := D2) w2 (Some m)) body w2 xs ys /\
    ts_run2 (ts_vregx_all_f (D1 := D1) (D2 := D2) w1 (Some m)) body w1 xs ys
      = ts_run2 (ts_vregx_all_f (D1 := D1) (D2 := D2) w2 (Some m)) body w2 xs ys.
  Proof.
    intros H1 H2. repeat split.
    - apply (huge_window_csum emit_cov); [|exact H1|exact H2]. intros m1 m2 s E. unfold emit_cov. rewrite E. reflexivity.
    - apply (huge_window_csum emit_corr); [|exact H1|exact H2]. intros m1 m2 s E. unfold emit_corr. rewrite E. reflexivity.
    - apply (huge_window_csum emit_regx_alpha); [|exact H1|exact H2].
      intros m1 m2 s E. unfold emit_regx_alpha. rewrite E. reflexivity.
    - apply (huge_window_csum emit_regx_beta); [|exact H1|exact H2].
      intros m1 m2 s E. unfold emit_regx_beta. rewrite E. reflexivity.
    - apply (huge_window_csum emit_regx_all); [|exact H1|exact H2].
      intros m1 m2 s E. unfold emit_regx_all. rewrite E. reflexivity.
  Qed.
End HugeTwo.

(* the extrema / arg-extrema / rank family clamps the window to the length first: EVERY window >= len is the window
   len, for omitted min_periods too *)
Section HugeCmp.
  Context {A : Type} {NA : Num A} {T : Type} {DT : IsNone T A}.

  Lemma cmp_window_ge (w : nat) (xs : list T) : length xs <= w -> cmp_window w xs = cmp_window (length xs) xs.
  Proof. intros H. unfold cmp_window. lia. Qed.

  Theorem huge_window_cmp_family body (w : nat) (mp : option nat) (xs : list T) :
    length xs <= w ->
    ts_vmin body w mp xs = ts_vmin body (length xs) mp xs /\
    ts_vmax body w mp xs = ts_vmax body (length xs) mp xs /\
    ts_vargmin body w mp xs = ts_vargmin body (length xs) mp xs /\
    ts_vargmax body w mp xs = ts_vargmax body (length xs) mp xs /\
    (forall (B : Type) (NB : Num B) pct rev,
        ts_vrank (B := B) body w mp pct rev xs = ts_vrank (B := B) body (length xs) mp pct rev xs).
  Proof.
    intros H. unfold ts_vmin, ts_vmax, ts_vargmin, ts_vargmax, ts_vext, ts_varg, ts_vrank. cbv zeta.
    rewrite (cmp_window_ge w xs H). repeat split; reflexivity.
  Qed.
End HugeCmp.

(* window-index drivers (ts_vminmaxnorm, the regression-residual statistics): the window is NOT clamped *)
Lemma idx_args_large_window {T} body (w1 w2 : nat) (xs : list T) :
  length xs < w1 -> length xs < w2 ->
  mapi (fun i v => (start_of (eff_window body w1 (length xs)) i, i, v)) xs
  = mapi (fun i v => (start_of (eff_window body w2 (length xs)) i, i, v)) xs.
Proof.
  intros H1 H2. destruct body; cbn [eff_window].
  - rewrite !Nat.min_r by lia. reflexivity.
  - apply mapi_ext. intros i v Hv. assert (Hi : i < length xs) by (apply nth_error_Some; congruence).
    unfold start_of.
    rewrite (ltb_true i (w1 - 1)) by lia.
    rewrite (ltb_true i (w2 - 1)) by lia. reflexivity.
Qed.

Lemma idx_raw_eq {T St O} (body : bool) (w : nat) (f : St -> option nat * nat * T -> St * O) s0 (xs : list T) :
  1 <= w ->
  (if body then rolling_apply_idx_to w f s0 xs else rolling_apply_idx_default w f s0 xs)
  = Done (run f s0 (mapi (fun i v => (start_of (eff_window body w (length xs)) i, i, v)) xs)).
Proof.
  intros Hw. destruct body; cbn [eff_window].
  - rewrite rolling_apply_idx_to_eq by exact Hw. reflexivity.
  - apply rolling_apply_idx_default_eq. exact Hw.
Qed.

Lemma idx_run_large_window {T St O} body (w1 w2 : nat) (cb : St -> option nat * nat * T -> res (St * O)) s0
      (xs : list T) :
  length xs < w1 -> length xs < w2 -> idx_run body w1 cb s0 xs = idx_run body w2 cb s0 xs.
Proof.
  intros H1 H2. unfold idx_run. rewrite !idx_raw_eq by lia.
  rewrite (idx_args_large_window body w1 w2 xs H1 H2). reflexivity.
Qed.

Lemma cnt_at_le {T} (p : T -> bool) (xs : list T) (W k : nat) : cnt_at p xs W k <= k.
Proof.
  unfold cnt_at, cntp, seg.
  pose proof (filter_length_le p (firstn (k - (k - (W - 1))) (skipn (k - (W - 1)) xs))) as H.
  rewrite firstn_length in H. lia.
Qed.

Section HugeNorm.
  Context {A : Type} {NA : Num A} {T : Type} {DT : IsNone T A}.
  Variables tmin tmax : A.

  Lemma mm_head_gate (m1 m2 : nat) (s1 : @mm A) (e : nat) (v : T) :
    (m1 <=? S (mm_n s1)) = (m2 <=? S (mm_n s1)) -> mm_head m1 s1 e v = mm_head m2 s1 e v.
  Proof. intros E. unfold mm_head. rewrite E. reflexivity. Qed.

  Theorem huge_window_minmaxnorm body (w1 w2 m : nat) (xs : list T) :
    length xs < w1 -> length xs < w2 ->
    ts_vminmaxnorm tmin tmax body w1 (Some m) xs = ts_vminmaxnorm tmin tmax body w2 (Some m) xs.
  Proof.
    intros H1 H2. unfold ts_vminmaxnorm. rewrite (idx_run_large_window body w1 w2 _ _ xs H1 H2).
    set (W := eff_window body w2 (length xs)).
    apply (idx_run_agree _ _ xs (fun k s => mm_n s = cnt_at (@not_none T A DT) xs W k)).
    - rewrite cnt_at_0. reflexivity.
    - intros k v s Hv HP. fold W.
      assert (Hk : k < length xs) by (apply nth_error_Some; congruence).
      destruct (mmnorm_step tmin tmax xs W (mp_eff (Some m) w1 0) k v s Hv HP) as (s' & o & E & HP').
      exists s', o. split; [exact E|]. split; [exact HP'|].
      rewrite mmnorm_cb_unfold in E |- *.
      destruct (mm_research_ok tmin tmax xs s (start_of W k) k (start_of_le W k) ltac:(lia)) as (s1 & R & N0).
      rewrite R in E |- *. cbn [bind] in E |- *.
      rewrite (mm_head_gate (mp_eff (Some m) w2 0) (mp_eff (Some m) w1 0) s1 k v); [exact E|].
      symmetry. apply (mp_eff_gate_agree m w1 w2 0 (length xs)); [exact H1|exact H2|].
      rewrite N0, HP. pose proof (cnt_at_le (@not_none T A DT) xs W k). lia.
  Qed.
End HugeNorm.

Section HugeResid.
  Context {A : Type} {NA : Num A} {T1 : Type} {D1 : IsNone T1 A} {T2 : Type} {D2 : IsNone T2 A}.

  Theorem huge_window_resid (k : rstat) body (w1 w2 m : nat) (xs : list T1) (ys : list T2) :
    length xs < w1 -> length xs < w2 ->
    ts_vregx_resid (D1 := D1) (D2 := D2) k body w1 (Some m) xs ys
    = ts_vregx_resid (D1 := D1) (D2 := D2) k body w2 (Some m) xs ys.
  Proof.
    intros H1 H2. unfold ts_vregx_resid. cbv zeta. set (zs := combine xs ys).
    assert (Hz : length zs <= length xs) by (unfold zs; rewrite combine_length; lia).
    assert (Hcore : forall b : bool,
               (if b then rolling_apply_idx_to w1 (resid_cb k (mp_eff (Some m) w1 0) zs) csum0 zs
                else rolling_apply_idx_default w1 (resid_cb k (mp_eff (Some m) w1 0) zs) csum0 zs)
               = (if b then rolling_apply_idx_to w2 (resid_cb k (mp_eff (Some m) w2 0) zs) csum0 zs
                  else rolling_apply_idx_default w2 (resid_cb k (mp_eff (Some m) w2 0) zs) csum0 zs)).
    { intros b. rewrite !idx_raw_eq by lia. rewrite (idx_args_large_window b w1 w2 zs) by lia. f_equal.
      apply (run_ext_inv _ _ (fun j (s : @csum A) => c_n s <= j) (length zs)) with (k := 0).
      - intros j s [[st e] v] Hj HI. unfold resid_cb. cbn [fst].
        assert (P1 : c_n (csum_pre (D1 := D1) (D2 := D2) s v) <= S (c_n s)).
        { unfold csum_pre. destruct (both v); cbn [c_n csum_add]; lia. }
        assert (P2 : c_n (resid_post zs (csum_pre (D1 := D1) (D2 := D2) s v) st) <= c_n (csum_pre (D1 := D1) (D2 := D2) s v)).
        { unfold resid_post. destruct st as [j0|]; [|lia]. unfold csum_post.
          destruct (nth_error zs j0) as [p|]; [|lia]. destruct (both p); cbn [c_n csum_sub]; lia. }
        split; [|lia]. f_equal. unfold resid_emit.
        rewrite (mp_eff_gate_agree m w1 w2 0 (length xs)) by lia. reflexivity.
      - rewrite mapi_length. lia.
      - cbn. lia. }
    destruct body.
    - unfold rolling2_apply_idx_to. destruct (length ys <? length xs); [reflexivity|]. exact (Hcore true).
    - rewrite !rolling2_apply_idx_default_pos by lia. exact (Hcore false).
  Qed.
End HugeResid.

(* (B) two-series functions on series of unequal length: any statement about the windows lifts from equal
   lengths to every accepted pair of lengths, on the common prefix *)
Lemma two_series_lift {T1 T2 St O} (F : feat (T1 * T2) St O) body (w : nat) (xs : list T1) (ys : list T2)
      (Q : nat -> O -> list T1 -> list T2 -> Prop) :
  1 <= w -> (body = false \/ length xs <= length ys) ->
  (forall xs' ys', length xs' = length ys' ->
     outputs (ts_run2 F body w xs' ys') (length xs') (fun i o => Q i o (win w i xs') (win w i ys'))) ->
  outputs (ts_run2 F body w xs ys) (common xs ys) (fun i o => Q i o (win w i xs) (win w i ys)).
Proof.
  intros Hw Hb H. rewrite (ts_run2_common F body w xs ys Hw Hb).
  destruct (firstn_common_lengths xs ys) as [L1 L2].
  destruct (H (firstn (common xs ys) xs) (firstn (common xs ys) ys) ltac:(congruence)) as (out & E1 & E2 & E3).
  exists out. split; [exact E1|]. split; [rewrite E2; exact L1|].
  intros i Hi. destruct (E3 i ltac:(rewrite L1; exact Hi)) as (o & Ho & HQ). exists o. split; [exact Ho|].
  rewrite !win_firstn in HQ by exact Hi. exact HQ.
Qed.

Theorem mask_vcov_any_lengths body (w : nat) mp (xs ys : list XR) :
  1 <= w -> (body = false \/ length xs <= length ys) ->
  outputs (ts_run2 (ts_vcov_f w mp) body w xs ys) (common xs ys)
      (fun i o => is_null o = (length (pairs (win w i xs) (win w i ys)) <? mp_eff mp w 2)).
Proof.
  intros Hw Hb.
  apply (two_series_lift (ts_vcov_f w mp) body w xs ys
           (fun _ o W1 W2 => is_null o = (length (pairs W1 W2) <? mp_eff mp w 2)) Hw Hb).
  intros xs' ys' Hl. exact (mask_vcov body w mp xs' ys' Hw Hl).
Qed.

Theorem mask_vcorr_any_lengths body (w : nat) mp (xs ys : list XR) :
  1 <= w -> (body = false \/ length xs <= length ys) ->
  outputs (ts_run2 (ts_vcorr_f w mp) body w xs ys) (common xs ys)
      (fun i o => (is_null o = true <->
        length (pairs (win w i xs) (win w i ys)) < mp_eff mp w 0 \/
        (popvarR (map fst (pairs (win w i xs) (win w i ys))) <= EPS)%R \/
        (popvarR (map snd (pairs (win w i xs) (win w i ys))) <= EPS)%R)).
Proof.
  intros Hw Hb.
  apply (two_series_lift (ts_vcorr_f w mp) body w xs ys
           (fun _ o W1 W2 => is_null o = true <->
              length (pairs W1 W2) < mp_eff mp w 0 \/ (popvarR (map fst (pairs W1 W2)) <= EPS)%R \/
              (popvarR (map snd (pairs W1 W2)) <= EPS)%R) Hw Hb).
  intros xs' ys' Hl. exact (mask_vcorr body w mp xs' ys' Hw Hl).
Qed.

Theorem mask_vregx_any_lengths body (w : nat) mp (xs ys : list XR) :
  1 <= w -> (body = false \/ length xs <= length ys) ->
  (exists out, ts_run2 (ts_vregx_alpha_f w mp) body w xs ys = Done out /\ length out = common xs ys /\
     forall i, i < common xs ys ->
       exists o, nth_error out i = Some o /\
         (is_null o = true <->
          length (pairs (win w i xs) (win w i ys)) < mp_eff mp w 0 \/ detB (pairs (win w i xs) (win w i ys)) = 0%R)) /\
  (exists out, ts_run2 (ts_vregx_beta_f w mp) body w xs ys = Done out /\ length out = common xs ys /\
     forall i, i < common xs ys ->
       exists o, nth_error out i = Some o /\
         (is_null o = true <->
          length (pairs (win w i xs) (win w i ys)) < mp_eff mp w 0 \/ detB (pairs (win w i xs) (win w i ys)) = 0%R)) /\
  (exists out, ts_run2 (ts_vregx_all_f w mp) body w xs ys = Done out /\ length out = common xs ys /\
     forall i, i < common xs ys ->
       exists o, nth_error out i = Some o /\
         (is_null (fst (fst o)) = true <->
          length (pairs (win w i xs) (win w i ys)) < mp_eff mp w 0 \/ detB (pairs (win w i xs) (win w i ys)) = 0%R) /\
         (is_null (snd (fst o)) = true <->
          length (pairs (win w i xs) (win w i ys)) < mp_eff mp w 0 \/ detB (pairs (win w i xs) (win w i ys)) = 0%R) /\
         (is_null (snd o) = true <->
          length (pairs (win w i xs) (win w i ys)) < mp_eff mp w 0 \/ detB (pairs (win w i xs) (win w i ys)) = 0%R)).
Proof.
  intros Hw Hb. split; [|split].
  - apply (two_series_lift (ts_vregx_alpha_f w mp) body w xs ys
             (fun _ o W1 W2 => is_null o = true <-> length (pairs W1 W2) < mp_eff mp w 0 \/ detB (pairs W1 W2) = 0%R) Hw Hb).
    intros xs' ys' Hl. exact (mask_vregx_alpha body w mp xs' ys' Hw Hl).
  - apply (two_series_lift (ts_vregx_beta_f w mp) body w xs ys
             (fun _ o W1 W2 => is_null o = true <-> length (pairs W1 W2) < mp_eff mp w 0 \/ detB (pairs W1 W2) = 0%R) Hw Hb).
    intros xs' ys' Hl. exact (mask_vregx_beta body w mp xs' ys' Hw Hl).
  - apply (two_series_lift (ts_vregx_all_f w mp) body w xs ys
             (fun _ o W1 W2 =>
                (is_null (fst (fst o)) = true <-> length (pairs W1 W2) < mp_eff mp w 0 \/ detB (pairs W1 W2) = 0%R) /\
                (is_null (snd (fst o)) = true <-> length (pairs W1 W2) < mp_eff mp w 0 \/ detB (pairs W1 W2) = 0%R) /\
                (is_null (snd o) = true <-> length (pairs W1 W2) < mp_eff mp w 0 \/ detB (pairs W1 W2) = 0%R)) Hw Hb).
    intros xs' ys' Hl. exact (mask_vregx_all body w mp xs' ys' Hw Hl).
Qed.

Theorem mask_vregx_resid_any_lengths k body (w : nat) mp (xs ys : list XR) :
  1 <= w -> (body = false \/ length xs <= length ys) ->
  outputs (ts_vregx_resid k body w mp xs ys) (common xs ys)
      (fun i o => (is_null o = true <->
        length (pairs (win w i xs) (win w i ys)) < mp_eff mp w 0 \/ detB (pairs (win w i xs) (win w i ys)) = 0%R \/
        (k = RSkew /\ length (pairs (win w i xs) (win w i ys)) < 3))).
Proof.
  intros Hw Hb. rewrite resid_common by assumption.
  destruct (firstn_common_lengths xs ys) as [L1 L2].
  destruct (mask_vregx_resid k body w mp (firstn (common xs ys) xs) (firstn (common xs ys) ys) Hw ltac:(congruence))
    as (out & E1 & E2 & E3).
  exists out. split; [exact E1|]. split; [rewrite E2; exact L1|].
  intros i Hi. destruct (E3 i ltac:(rewrite L1; exact Hi)) as (o & Ho & HQ). exists o. split; [exact Ho|].
  cbv zeta in HQ. rewrite !win_firstn in HQ by exact Hi. exact HQ.
Qed.

(* (C) null below min_periods at every carrier.  The window of the clamped driver window is the window of the requested one *)
Lemma seg_is_win {T} (w k : nat) (xs : list T) :
  1 <= w -> k < length xs ->
  seg (k - (cmp_window w xs - 1)) (S k) xs = win w k xs.
Proof. intros Hw Hk. rewrite win_seg. unfold wstart, cmp_window. f_equal. lia. Qed.
Lemma seg_is_win_unclamped {T} (W w k : nat) (xs : list T) :
  1 <= w -> k < length xs -> (W = w \/ W = Nat.min w (length xs)) ->
  seg (k - (W - 1)) (S k) xs = win w k xs.
Proof. intros Hw Hk HW. rewrite win_seg. unfold wstart. f_equal. lia. Qed.

Section ExtBelow.
  Context {A : Type} {NA : Num A} {T : Type} {DT : IsNone T A}.
  Variable scmp : option A -> option A -> comparison.
  Variable xs : list T.
  Variable W : nat.

  Lemma vext_step_out mp k v s : nth_error xs k = Some v -> x_n s = cnt_at (@not_none T A DT) xs W k ->
    exists s' o, vext_cb scmp mp xs s (start_of W k, k, v) = Ok (s', o) /\
                 x_n s' = cnt_at (@not_none T A DT) xs W (S k) /\
                 (cntp (@not_none T A DT) (seg (k - (W - 1)) (S k) xs) < mp -> o = None).
  Proof.
    intros Hv Hn. destruct (ext_step_ok scmp xs s (start_of W k) k v (start_of_le W k) Hv) as (s1 & E1 & N1).
    unfold vext_cb. rewrite E1. cbn [bind].
    assert (N1' : x_n s1 = cntp (@not_none T A DT) (seg (k - (W - 1)) (S k) xs)).
    { rewrite N1, Hn. symmetry. apply cnt_add. exact Hv. }
    destruct (ext_post_ok xs W s1 k v Hv N1') as (s2 & E2 & N2).
    rewrite E2. cbn [bind]. eexists _, _. split; [reflexivity|]. split; [exact N2|].
    intros Hlt. rewrite N1', (proj2 (Nat.leb_gt _ _) Hlt). reflexivity.
  Qed.

  Hypothesis Hrefl : scmp_refl_on scmp xs.
  Lemma varg_step_out mp k v s : nth_error xs k = Some v -> x_n s = cnt_at (@not_none T A DT) xs W k ->
    exists s' o, varg_cb scmp mp xs s (start_of W k, k, v) = Ok (s', o) /\
                 x_n s' = cnt_at (@not_none T A DT) xs W (S k) /\
                 (cntp (@not_none T A DT) (seg (k - (W - 1)) (S k) xs) < mp -> o = None).
  Proof.
    intros Hv Hn. destruct (varg_step scmp xs W Hrefl mp k v s Hv Hn) as (s' & o & E & N).
    exists s', o. split; [exact E|]. split; [exact N|]. intros Hlt.
    destruct (ext_step_ok scmp xs s (start_of W k) k v (start_of_le W k) Hv) as (s1 & E1 & N1).
    assert (N1' : x_n s1 = cntp (@not_none T A DT) (seg (k - (W - 1)) (S k) xs)).
    { rewrite N1, Hn. symmetry. apply cnt_add. exact Hv. }
    unfold varg_cb in E. rewrite E1 in E. cbn [bind] in E.
    rewrite N1', (proj2 (Nat.leb_gt _ _) Hlt) in E. cbn [andb bind] in E.
    destruct (ext_post xs s1 (start_of W k)) as [s2|pk]; cbn [bind] in E; [|discriminate].
    injection E as _ <-. reflexivity.
  Qed.
End ExtBelow.

Section ExtBelowEntry.
  Context {A : Type} {NA : Num A} {T : Type} {DT : IsNone T A}.
  Variable scmp : option A -> option A -> comparison.

  Definition nvalid_win (w i : nat) (xs : list T) : nat := cntp (@not_none T A DT) (win w i xs).

  (* one argument for both callbacks: a step that keeps the count of the clamped window and emits None below mp *)
  Lemma ext_below_null {O} (cb : nat -> list T -> @ext A -> option nat * nat * T -> res (@ext A * option O))
        body (w : nat) mp (xs : list T) :
    1 <= w ->
    (forall W m k v s, nth_error xs k = Some v -> x_n s = cnt_at (@not_none T A DT) xs W k ->
       exists s' o, cb m xs s (start_of W k, k, v) = Ok (s', o) /\
                    x_n s' = cnt_at (@not_none T A DT) xs W (S k) /\
                    (cntp (@not_none T A DT) (seg (k - (W - 1)) (S k) xs) < m -> o = None)) ->
    exists out, idx_run body (cmp_window w xs) (cb (cmp_mp mp (cmp_window w xs)) xs) ext0 xs = Done out /\
      length out = length xs /\
      forall i, i < length xs -> nvalid_win w i xs < cmp_mp mp (cmp_window w xs) -> nth_error out i = Some None.
  Proof.
    intros Hw Hstep. destruct xs as [|x0 xs'] eqn:Ex.
    { exists []. split; [apply idx_run_empty|]. split; [reflexivity|]. intros i Hi. cbn in Hi. lia. }
    rewrite <- Ex in *. assert (Hl : 1 <= length xs) by (rewrite Ex; cbn; lia). clear Ex x0 xs'.
    set (W := cmp_window w xs). assert (HW : 1 <= W) by (unfold W, cmp_window; lia).
    destruct (idx_run_spec (cb (cmp_mp mp W) xs) xs body W
                (fun k s => x_n s = cnt_at (@not_none T A DT) xs W k)
                (fun k o => k < length xs -> nvalid_win w k xs < cmp_mp mp W -> o = None) ext0 HW)
      as (outs & E & L & Hout).
    - rewrite cnt_at_0. reflexivity.
    - intros k v s Hv HP. unfold W. rewrite cmp_window_eff. fold W.
      destruct (Hstep W (cmp_mp mp W) k v s Hv HP) as (s' & o & E & N & Hb).
      exists s', o. split; [exact E|]. split; [exact N|]. intros Hk Hlt. apply Hb.
      unfold W. rewrite seg_is_win by assumption. exact Hlt.
    - exists outs. split; [exact E|]. split; [exact L|]. intros i Hi Hlt.
      destruct (nth_error outs i) as [o|] eqn:Eo; [|apply nth_error_None in Eo; lia].
      rewrite (Hout i o Eo Hi Hlt). reflexivity.
  Qed.

  Theorem ts_vext_below_null body (w : nat) mp (xs : list T) : 1 <= w ->
    exists out, ts_vext scmp body w mp xs = Done out /\ length out = length xs /\
      forall i, i < length xs -> nvalid_win w i xs < cmp_mp mp (cmp_window w xs) -> nth_error out i = Some None.
  Proof.
    intros Hw. apply (ext_below_null (vext_cb scmp) body w mp xs Hw).
    intros W m k v s. apply vext_step_out.
  Qed.

  Theorem ts_varg_below_null body (w : nat) mp (xs : list T) : 1 <= w -> scmp_refl_on scmp xs ->
    exists out, ts_varg scmp body w mp xs = Done out /\ length out = length xs /\
      forall i, i < length xs -> nvalid_win w i xs < cmp_mp mp (cmp_window w xs) -> nth_error out i = Some None.
  Proof.
    intros Hw Hr. apply (ext_below_null (varg_cb scmp) body w mp xs Hw).
    intros W m k v s. apply varg_step_out, Hr.
  Qed.
End ExtBelowEntry.

(* ts_vminmaxnorm: below the effective min_periods the carrier's NaN, whatever the sentinels and the order *)
Section NormBelow.
  Context {A : Type} {NA : Num A} {T : Type} {DT : IsNone T A}.
  Variables tmin tmax : A.

  Lemma mm_head_below mp (s1 : @mm A) e v : mm_n s1 + b2n (not_none v) < mp -> snd (mm_head mp s1 e v) = nnan.
  Proof.
    intros H. unfold mm_head. destruct (not_none v); [|reflexivity]. cbn [b2n] in H.
    assert (Hg : (mp <=? S (mm_n s1)) = false) by (apply Nat.leb_gt; lia).
    destruct (nleb (mm_max s1) (unwrap v)), (nleb (unwrap v) (mm_min s1)); cbn [snd]; rewrite Hg; reflexivity.
  Qed.

  Theorem ts_vminmaxnorm_below_null body (w : nat) mp (xs : list T) : 1 <= w ->
    exists out, ts_vminmaxnorm tmin tmax body w mp xs = Done out /\ length out = length xs /\
      forall i, i < length xs -> nvalid_win (DT := DT) w i xs < mp_eff mp w 0 -> nth_error out i = Some nnan.
  Proof.
    intros Hw. unfold ts_vminmaxnorm. set (W := eff_window body w (length xs)).
    destruct (idx_run_spec (mmnorm_cb tmin tmax (mp_eff mp w 0) xs) xs body w
                (fun k s => mm_n s = cnt_at (@not_none T A DT) xs W k)
                (fun k o => k < length xs -> nvalid_win (DT := DT) w k xs < mp_eff mp w 0 -> o = nnan) (mm0 tmin tmax) Hw)
      as (outs & E & L & Hout).
    - rewrite cnt_at_0. reflexivity.
    - intros k v s Hv HP. fold W.
      assert (Hk : k < length xs) by (apply nth_error_Some; congruence).
      destruct (mmnorm_step tmin tmax xs W (mp_eff mp w 0) k v s Hv HP) as (s' & o & Ecb & HP').
      exists s', o. split; [exact Ecb|]. split; [exact HP'|]. intros _ Hlt.
      rewrite mmnorm_cb_unfold in Ecb.
      destruct (mm_research_ok tmin tmax xs s (start_of W k) k (start_of_le W k) ltac:(lia)) as (s1 & R & N0).
      rewrite R in Ecb. cbn [bind] in Ecb. cbv zeta in Ecb.
      match type of Ecb with (do s3 <- ?X; _) = _ => destruct X as [s3|pk]; cbn [bind] in Ecb; [|discriminate] end.
      injection Ecb as _ <-. apply mm_head_below.
      rewrite N0, HP, <- (cnt_add (@not_none T A DT) xs W k v Hv).
      rewrite (seg_is_win_unclamped W w k xs Hw Hk); [exact Hlt|]. unfold W. destruct body; cbn [eff_window]; auto.
    - exists outs. split; [exact E|]. split; [exact L|]. intros i Hi Hlt.
      destruct (nth_error outs i) as [o|] eqn:Eo; [|apply nth_error_None in Eo; lia].
      rewrite (Hout i o Eo Hi Hlt). reflexivity.
  Qed.
End NormBelow.

(* ts_vfdiff: below the effective min_periods the carrier's NaN, for every order d (a null order included) *)
Section FdiffBelow.
  Context {A : Type} {NA : Num A} {T : Type} {DT : IsNone T A}.

  Theorem ts_vfdiff_below_null body (d : A) (w : nat) mp (xs : list T) : 1 <= w ->
    exists out, ts_vfdiff body d w mp xs = Done out /\ length out = length xs /\
      forall i, i < length xs -> nvalid_win (DT := DT) w i xs < mp_eff mp w 0 -> nth_error out i = Some nnan.
  Proof.
    intros Hw. unfold ts_vfdiff. cbv zeta. rewrite rolling_custom_stateless by exact Hw.
    eexists. split; [reflexivity|]. split; [rewrite map_length; apply seq_length|].
    intros i Hi Hlt. rewrite nth_error_map_seq, (ltb_true i (length xs)) by exact Hi.
    f_equal. unfold ts_vfdiff_cb. cbn [snd]. unfold nvalid_win, cntp in Hlt.
    pose proof (mp_eff_le_window mp w 0 ltac:(lia)) as Hle.
    replace (length (filter not_none (win w i xs)) =? w) with false by (symmetry; apply Nat.eqb_neq; lia).
    rewrite (proj2 (Nat.leb_gt _ _) Hlt). reflexivity.
  Qed.
End FdiffBelow.

(* (D) min_periods above the window: the clamp `.min(window)` makes it the window; all other entry points *)
Section AboveWindow.
  Context {A : Type} {NA : Num A} {T : Type} {DT : IsNone T A} {T2 : Type} {D2 : IsNone T2 A}.

  Theorem min_periods_above_window_rest (w m : nat) : w <= m ->
    ts_vzscore_f (DT := DT) w (Some m) = ts_vzscore_f w (Some w) /\
    ts_vreg_f (DT := DT) w (Some m) = ts_vreg_f w (Some w) /\
    ts_vtsf_f (DT := DT) w (Some m) = ts_vtsf_f w (Some w) /\
    ts_vreg_slope_f (DT := DT) w (Some m) = ts_vreg_slope_f w (Some w) /\
    ts_vreg_intercept_f (DT := DT) w (Some m) = ts_vreg_intercept_f w (Some w) /\
    ts_vreg_resid_mean_f (DT := DT) w (Some m) = ts_vreg_resid_mean_f w (Some w) /\
    ts_vcov_f (D1 := DT) (D2 := D2) w (Some m) = ts_vcov_f w (Some w) /\
    ts_vcorr_f (D1 := DT) (D2 := D2) w (Some m) = ts_vcorr_f w (Some w) /\
    ts_vregx_alpha_f (D1 := DT) (D2 := D2) w (Some m) = ts_vregx_alpha_f w (Some w) /\
    ts_vregx_beta_f (D1 := DT) (D2 := D2) w (Some m) = ts_vregx_beta_f w (Some w) /\
    ts_vregx_all_f (D1 := DT) (D2 := D2) w (Some m) = ts_vregx_all_f w (Some w) /\
    (forall tmin tmax body xs, ts_vminmaxnorm (DT := DT) tmin tmax body w (Some m) xs
                               = ts_vminmaxnorm tmin tmax body w (Some w) xs) /\
    (forall k body xs ys, ts_vregx_resid (D1 := DT) (D2 := D2) k body w (Some m) xs ys
                          = ts_vregx_resid k body w (Some w) xs ys) /\
    (forall body d xs, ts_vfdiff (DT := DT) body d w (Some m) xs = ts_vfdiff body d w (Some w) xs).
  Proof.
    intros H.
    assert (E : forall k, mp_eff (Some m) w k = mp_eff (Some w) w k) by (intros k; unfold mp_eff; lia).
    unfold ts_vzscore_f, ts_vreg_f, ts_vtsf_f, ts_vreg_slope_f, ts_vreg_intercept_f, ts_vreg_resid_mean_f,
      ts_vcov_f, ts_vcorr_f, ts_vregx_alpha_f, ts_vregx_beta_f, ts_vregx_all_f, ts_vminmaxnorm, ts_vregx_resid,
      ts_vfdiff.
    rewrite !E. repeat split; reflexivity.
  Qed.
End AboveWindow.

(* (E) the shape of the outcome of every entry point on every input *)
Lemma ts_run_safe {T St O} (F : feat T St O) body (w : nat) (xs : list T) : kernel_safe w xs (ts_run F body w xs).
Proof.
  rewrite ts_run_eq. destruct (bad_window_cases w xs) as [(Hb & Hw & Hx)|(Hb & Hc)]; rewrite Hb.
  - right. split; [exact Hw|]. split; [exact Hx|reflexivity].
  - left. eexists. split; [reflexivity|]. rewrite run_length. apply mapi_length.
Qed.

(* the iterator body of the two-series entry points never compares the lengths: with a shorter second series it
   returns FEWER outputs than the first series has elements *)
Lemma shorter_second_iterator_truncates {T1 T2 St O} (F : feat (T1 * T2) St O) (w : nat) (xs : list T1) (ys : list T2) :
  1 <= w -> length ys < length xs ->
  exists out, ts_run2 F false w xs ys = Done out /\ length out = length ys /\ length out < length xs.
Proof.
  intros Hw Hl. pose proof (ts_run2_by_check F false w xs ys) as H. unfold check2, check2_default in H.
  rewrite bad_window_false in H by exact Hw. destruct H as (l & E & Hn). unfold common in Hn.
  exists l. split; [exact E|]. lia.
Qed.

(* witnesses: the huge-window equivalence needs an EXPLICIT min_periods (omitted means floor(w/2), which grows with
   the window), and does not hold for the exponentially weighted mean (its weights are powers of 1 - 2/w) *)
Lemma huge_window_omitted_differs :
  ts_run (ts_vsum_f (A := Z) (DT := IsNone_option) 3 None) true 3 [Some 1%Z; Some 2%Z]
  <> ts_run (ts_vsum_f (A := Z) (DT := IsNone_option) 9 None) true 9 [Some 1%Z; Some 2%Z].
Proof. vm_compute. discriminate. Qed.
Lemma huge_window_ewm_differs :
  ts_run (ts_vewm_f (A := Z) (DT := IsNone_option) 2 (Some 1)) true 2 [Some 5%Z]
  <> ts_run (ts_vewm_f (A := Z) (DT := IsNone_option) 3 (Some 1)) true 3 [Some 5%Z].
Proof. vm_compute. discriminate. Qed.
