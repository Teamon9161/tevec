(* Proofs/RoundMean.v — rounding, continued (Proofs/RoundSum.v is the first part):
     (1) the MEANS at binary64: one more rounding, the division  sum / (n as f64).  `n as f64` is exact for
         n < 2^53; binary64 division CAN underflow, so the standard model of a correctly rounded operation is
              |fl(x) - x| <= u |x| + eta,      u = 2^-53,  eta = 2^-1075  (half the smallest subnormal)
         (Flocq: relative_error_N_FLT'_ex), and  eta  disappears when |x| >= 2^-1022 (relative_error_N_FLT).
         Hence   |vmean_float xs - mean (valid xs)| <= ((1+u)^(n+1) - 1) * (sum |x|) / n + eta
         for the one-pass `vmean` (Model/Agg.v) and, with the drift bound of the rolling sum carried through the
         division, for the rolling `ts_vmean_f` (Model/Features.v, `emit_mean`).
     (2) exactness on a dyadic grid for ALL FOUR power sums of the rolling moment accumulator (`mom_add` /
         `mom_sub`): when every valid element is a multiple of 2^e and every window's fourth-power sum stays below
         2^(4e+53), no product and no addition / subtraction ever rounds; the float state IS the exact state
         (window-local premise: the history does not enter at all).
   Only executable premises about finiteness; no overflow premise (a finite output certifies it).          *)
From Coq Require Import Reals ZArith List Floats Psatz.
From Flocq Require Import Core Relative BinarySingleNaN.
From Flocq Require PrimFloat.
From Tevec Require Import Base.Prelude Base.Num Base.XR Base.F64 Spec.Stats Model.Driver Proofs.Driver
     Model.Features Proofs.Generic Model.Agg Proofs.AggGeneric Proofs.Features Proofs.RoundSum
     Proofs.QIdxFloat.
Import ListNotations.
Local Open Scope R_scope.

Module FP := Flocq.IEEE754.PrimFloat.
Module CF := Coq.Floats.PrimFloat.

(* ===================================================================================================== *)
(* (1a) real level: a quotient of an approximate sum, rounded once more                                  *)
(* ===================================================================================================== *)
Lemma gam_S_prod u m : (1 + u) * (1 + gam u m) - 1 = gam u (S m).
Proof. unfold gam. cbn [pow]. ring. Qed.

(* s approximates S within g*H, |S| <= H, q is s/d rounded with relative error u and absolute error eta *)
Lemma quotient_error (u eta g s S0 H d q : R) :
  0 <= u -> 0 <= g -> 0 < d ->
  Rabs (s - S0) <= g * H -> Rabs S0 <= H ->
  Rabs (q - s / d) <= u * Rabs (s / d) + eta ->
  Rabs (q - S0 / d) <= ((1 + u) * (1 + g) - 1) * (H / d) + eta.
Proof.
  intros Hu Hg Hd Hs HS Hq.
  assert (Hid : 0 < / d) by (apply Rinv_0_lt_compat; exact Hd).
  assert (HH : 0 <= H) by (pose proof (Rabs_pos S0); lra).
  assert (Hsa : Rabs s <= (1 + g) * H).
  { replace s with ((s - S0) + S0) by ring. eapply Rle_trans; [apply Rabs_triang|]. lra. }
  assert (Hsd : Rabs (s / d) = Rabs s * / d).
  { unfold Rdiv. rewrite Rabs_mult, (Rabs_pos_eq (/ d)) by lra. reflexivity. }
  assert (Hdd : Rabs (s / d - S0 / d) = Rabs (s - S0) * / d).
  { replace (s / d - S0 / d) with ((s - S0) * / d) by (unfold Rdiv; ring).
    rewrite Rabs_mult, (Rabs_pos_eq (/ d)) by lra. reflexivity. }
  replace (q - S0 / d) with ((q - s / d) + (s / d - S0 / d)) by ring.
  eapply Rle_trans; [apply Rabs_triang|]. rewrite Hdd. rewrite Hsd in Hq.
  assert (H1 : Rabs s * / d <= (1 + g) * H * / d) by (apply Rmult_le_compat_r; lra).
  assert (H2 : Rabs (s - S0) * / d <= g * H * / d) by (apply Rmult_le_compat_r; lra).
  assert (H3 : u * (Rabs s * / d) <= u * ((1 + g) * H * / d)) by (apply Rmult_le_compat_l; lra).
  unfold Rdiv. nra.
Qed.

(* ===================================================================================================== *)
(* (1b) binary64: the error of ONE correctly rounded operation, underflow included; IEEE division        *)
(* ===================================================================================================== *)
Definition eta64 : R := bpow radix2 (-1075).            (* half the smallest positive subnormal 2^-1074 *)

Lemma eta64_pos : 0 < eta64.
Proof. apply bpow_gt_0. Qed.
Lemma eta64_value : eta64 = / IZR (2 ^ 1075).
Proof.
  unfold eta64. change (-1075)%Z with (- (1075))%Z. rewrite bpow_opp. reflexivity.
Qed.

(* |fl(x) - x| <= u |x| + eta for EVERY real x (gradual underflow) *)
Lemma rnd64_err x : Rabs (rnd64 x - x) <= u64 * Rabs x + eta64.
Proof.
  destruct (relative_error_N_FLT'_ex radix2 (-1074) 53 prec64_gt_0 (fun z => negb (Z.even z)) x)
    as (eps & eta & He & Ht & _ & Hr).
  unfold rnd64. change ZnearestE with (Znearest (fun z => negb (Z.even z))). rewrite Hr.
  replace (x * (1 + eps) + eta - x) with (x * eps + eta) by ring.
  eapply Rle_trans; [apply Rabs_triang|]. apply Rplus_le_compat.
  - rewrite Rabs_mult, Rmult_comm. apply Rmult_le_compat_r; [apply Rabs_pos|].
    exact (Rle_trans _ _ _ He u_ro_frac_le_u64).
  - eapply Rle_trans; [exact Ht|]. unfold eta64.
    change (-1075)%Z with (-1 + -1074)%Z. rewrite bpow_plus. change (bpow radix2 (-1)) with (/ 2). lra.
Qed.

(* ... and no absolute term when x is in the normal range *)
Lemma rnd64_err_normal x : bpow radix2 (-1022) <= Rabs x -> Rabs (rnd64 x - x) <= u64 * Rabs x.
Proof.
  intros Hx.
  pose proof (relative_error_N_FLT radix2 (-1074) 53 prec64_gt_0 (fun z => negb (Z.even z)) x Hx) as H.
  unfold rnd64. change ZnearestE with (Znearest (fun z => negb (Z.even z))).
  replace u64 with (/ 2 * bpow radix2 (- (53) + 1)); [exact H|].
  change (/ 2) with (bpow radix2 (-1)). rewrite <- bpow_plus. reflexivity.
Qed.

(* a finite quotient by a non-zero divisor has a finite dividend and is the correctly rounded exact quotient *)
Lemma div_finite_val x y :
  ffin (x / y)%float = true -> f2r y <> 0 ->
  ffin x = true /\ f2r (x / y)%float = rnd64 (f2r x / f2r y).
Proof.
  intros Hf Hy. rewrite !ffin_equiv in *. unfold f2r in *. rewrite FP.div_equiv in *.
  pose proof (Bdiv_correct FloatOps.prec FloatOps.emax FP.Hprec FP.Hmax mode_NE (FP.Prim2B x) (FP.Prim2B y) Hy) as HC.
  destruct (Rlt_bool _ _) in HC.
  - destruct HC as (HC & HF & _). split; [rewrite <- HF; exact Hf|exact HC].
  - rewrite (overflow_not_finite _ _ HC) in Hf. discriminate.
Qed.

Lemma div_zero_not_finite (s : float) : ffin (s / zero)%float = false.
Proof.
  rewrite ffin_equiv, FP.div_equiv. change (FP.Prim2B zero) with (FP.Prim2B (FP.B2Prim (B754_zero false))).
  rewrite FP.Prim2B_B2Prim. destruct (FP.Prim2B s) as [sx|sx| |sx mx ex Hx]; reflexivity.
Qed.

(* sum / (n as f64), 1 <= n < 2^53 *)
Lemma div_count_val (s : float) (n : nat) :
  (1 <= n)%nat -> (Z.of_nat n < 2 ^ 53)%Z -> ffin (s / nofnat (A := float) n)%float = true ->
  ffin s = true /\ f2r (s / nofnat (A := float) n)%float = rnd64 (f2r s / INR n).
Proof.
  intros H1 Hn Hf. destruct (nofnat_f64_exact n Hn) as [_ Hv].
  assert (Hnz : f2r (nofnat (A := float) n) <> 0).
  { rewrite Hv, <- INR_IZR_INZ. apply not_0_INR. lia. }
  destruct (div_finite_val _ _ Hf Hnz) as [Hs Hq]. split; [exact Hs|].
  rewrite Hq, Hv, <- INR_IZR_INZ. reflexivity.
Qed.

(* the quotient of a float sum, against the exact mean: m rounded additions, then one rounded division whose
   absolute error term is eta (eta64 in general, 0 for a quotient in the normal range) *)
Lemma mean_of_fold_error (eta : R) (s : float) (n m : nat) (S0 H : R) :
  (1 <= n)%nat -> (Z.of_nat n < 2 ^ 53)%Z -> ffin (s / nofnat (A := float) n)%float = true ->
  Rabs (rnd64 (f2r s / INR n) - f2r s / INR n) <= u64 * Rabs (f2r s / INR n) + eta ->
  Rabs (f2r s - S0) <= gam u64 m * H -> Rabs S0 <= H ->
  Rabs (f2r (s / nofnat (A := float) n)%float - S0 / INR n) <= gam u64 (S m) * (H / INR n) + eta.
Proof.
  intros H1 Hn Hf Hr Hs HS. destruct (div_count_val s n H1 Hn Hf) as [_ Hq]. rewrite Hq, <- gam_S_prod.
  apply (quotient_error u64 eta (gam u64 m) (f2r s) S0 H (INR n)); try assumption.
  - apply u64_nonneg.
  - apply gam_nonneg, u64_nonneg.
  - apply lt_0_INR. lia.
Qed.

(* ===================================================================================================== *)
(* (1c) the one-pass mean `vmean` of Model/Agg.v at NumF64 (the sum is accumulated in f64, cast = identity) *)
(* ===================================================================================================== *)
Definition idf64 (x : float) : float := x.
Notation vmean64 xs := (vmean (NA := NumF64) (DT := IsNoneF64) (NF := NumF64) idf64 xs).

Lemma vmean_f64_fold xs :
  vmean64 xs = if 1 <=? length (fvals xs)
               then (ffold zero (fvals xs) / nofnat (A := float) (length (fvals xs)))%float else nan.
Proof. unfold vmean. rewrite vfold_n_spec. reflexivity. Qed.

Lemma vmean_finite_count xs : ffin (vmean64 xs) = true -> (1 <= length (fvals xs))%nat.
Proof.
  rewrite vmean_f64_fold. destruct (1 <=? length (fvals xs)) eqn:E; [intros _; apply Nat.leb_le, E|].
  intros H. discriminate H.
Qed.

Lemma vmean_error_eta eta xs :
  ffin (vmean64 xs) = true -> (Z.of_nat (length (fvals xs)) < 2 ^ 53)%Z ->
  Rabs (rnd64 (f2r (ffold zero (fvals xs)) / INR (length (fvals xs))) - f2r (ffold zero (fvals xs)) / INR (length (fvals xs)))
  <= u64 * Rabs (f2r (ffold zero (fvals xs)) / INR (length (fvals xs))) + eta ->
  Rabs (f2r (vmean64 xs) - meanR (rvals64 xs))
  <= gam u64 (S (length (rvals64 xs))) * (sumabs (rvals64 xs) / INR (length (rvals64 xs))) + eta.
Proof.
  intros Hf Hn Hr. pose proof (vmean_finite_count xs Hf) as H1.
  rewrite vmean_f64_fold in *. replace (1 <=? length (fvals xs)) with true in * by (symmetry; apply Nat.leb_le, H1).
  unfold meanR, nR, rvals64. rewrite map_length. fold (rvals64 xs).
  apply mean_of_fold_error; try assumption.
  - destruct (div_count_val _ _ H1 Hn Hf) as [Hs _]. exact (round_sum_fold (fvals xs) Hs).
  - apply sumR_le_sumabs.
Qed.

(* C11: |vmean_float xs - mean of the valid elements| <= ((1+u)^(n+1) - 1) * (sum |valid|) / n + eta *)
Theorem vmean_binary64_error xs :
  ffin (vmean64 xs) = true -> (Z.of_nat (length (fvals xs)) < 2 ^ 53)%Z ->
  Rabs (f2r (vmean64 xs) - meanR (rvals64 xs))
  <= gam u64 (S (length (rvals64 xs))) * (sumabs (rvals64 xs) / INR (length (rvals64 xs))) + eta64.
Proof. intros Hf Hn. apply (vmean_error_eta eta64 xs Hf Hn), rnd64_err. Qed.

(* without the absolute term when the computed quotient is in the normal range *)
Theorem vmean_binary64_error_normal xs :
  ffin (vmean64 xs) = true -> (Z.of_nat (length (fvals xs)) < 2 ^ 53)%Z ->
  bpow radix2 (-1022) <= Rabs (f2r (ffold zero (fvals xs)) / INR (length (fvals xs))) ->
  Rabs (f2r (vmean64 xs) - meanR (rvals64 xs))
  <= gam u64 (S (length (rvals64 xs))) * (sumabs (rvals64 xs) / INR (length (rvals64 xs))).
Proof.
  intros Hf Hn Hnorm. pose proof (vmean_error_eta 0 xs Hf Hn) as H. rewrite !Rplus_0_r in H.
  apply H, rnd64_err_normal, Hnorm.
Qed.

(* explicit constant (n+1) u (1+u)^(n+1) *)
Corollary vmean_binary64_error_linear xs :
  ffin (vmean64 xs) = true -> (Z.of_nat (length (fvals xs)) < 2 ^ 53)%Z ->
  Rabs (f2r (vmean64 xs) - meanR (rvals64 xs))
  <= INR (S (length (rvals64 xs))) * u64 * (1 + u64) ^ S (length (rvals64 xs))
     * (sumabs (rvals64 xs) / INR (length (rvals64 xs))) + eta64.
Proof.
  intros Hf Hn. eapply Rle_trans; [apply (vmean_binary64_error xs Hf Hn)|].
  apply Rplus_le_compat_r. apply Rmult_le_compat_r; [|apply gam_le_linear, u64_nonneg].
  pose proof (vmean_finite_count xs Hf) as H1.
  apply Rmult_le_pos; [apply sumabs_nonneg|]. apply Rlt_le, Rinv_0_lt_compat, lt_0_INR.
  unfold rvals64. rewrite map_length. lia.
Qed.

(* a finite mean certifies that every valid element was finite *)
Lemma vmean_finite_inputs xs :
  ffin (vmean64 xs) = true -> (Z.of_nat (length (fvals xs)) < 2 ^ 53)%Z ->
  Forall (fun y => ffin y = true) (fvals xs).
Proof.
  intros Hf Hn. pose proof (vmean_finite_count xs Hf) as H1.
  rewrite vmean_f64_fold in Hf. replace (1 <=? length (fvals xs)) with true in * by (symmetry; apply Nat.leb_le, H1).
  destruct (div_count_val _ _ H1 Hn Hf) as [Hs _]. apply (ffold_finite_inv _ _ Hs).
Qed.

(* against the exact model on the same series *)
Lemma vmean_XR_of_float xs :
  vmean (NA := NumXR) (DT := IsNoneXR) (NF := NumXR) (fun x => x) (map fx xs)
  = if (length (rvals64 xs) =? 0)%nat then None else Some (meanR (rvals64 xs)).
Proof.
  unfold vmean. rewrite vfold_n_spec, vals_map_fx, map_length. cbn [fst snd].
  change (@nzero XR NumXR) with (Some 0). rewrite fold_xadd_some, Rplus_0_l.
  destruct (length (rvals64 xs)) as [|k] eqn:E; [reflexivity|].
  cbn [Nat.leb Nat.eqb]. rewrite xofnat, xdiv_some by (apply not_0_INR; lia). unfold meanR, nR. rewrite E. reflexivity.
Qed.

Theorem vmean_float_vs_exact_model xs :
  ffin (vmean64 xs) = true -> (Z.of_nat (length (fvals xs)) < 2 ^ 53)%Z ->
  exists e, vmean (NA := NumXR) (DT := IsNoneXR) (NF := NumXR) (fun x => x) (map fx xs) = Some e /\
            Rabs (f2r (vmean64 xs) - e)
            <= gam u64 (S (length (rvals64 xs))) * (sumabs (rvals64 xs) / INR (length (rvals64 xs))) + eta64.
Proof.
  intros Hf Hn. exists (meanR (rvals64 xs)). split; [|apply (vmean_binary64_error xs Hf Hn)].
  rewrite vmean_XR_of_float. pose proof (vmean_finite_count xs Hf) as H1.
  unfold rvals64. rewrite map_length. destruct (length (fvals xs)); [lia|reflexivity].
Qed.

(* ===================================================================================================== *)
(* (1d) the rolling mean `ts_vmean_f` at NumF64: add -> emit (sum / n) -> remove                          *)
(* ===================================================================================================== *)
Notation ts_vmean64 w mp := (ts_vmean_f (NA := NumF64) (DT := IsNoneF64) w mp).

(* a finite emitted mean is the quotient by a non-zero count (x / 0 is never finite) *)
Lemma emit_mean_finite mp (s : @mom float) :
  ffin (emit_mean mp s) = true -> (1 <= m_n s)%nat /\ emit_mean mp s = (m_s1 s / nofnat (A := float) (m_n s))%float.
Proof.
  unfold emit_mean. destruct (mp <=? m_n s); [|intros Hf; discriminate Hf].
  intros Hf. split; [|reflexivity]. destruct (m_n s); [|lia].
  change (ndiv (m_s1 s) (nofnat 0)) with (m_s1 s / zero)%float in Hf. rewrite div_zero_not_finite in Hf. discriminate.
Qed.

(* the quotient behind a finite output i *)
Lemma ts_vmean_output w mp body xs i o :
  (1 <= w)%nat -> nth_error (ts_out (ts_vmean64 w mp) body w xs) i = Some o -> ffin o = true ->
  (i < length xs)%nat /\ (1 <= length (fvals (win w i xs)))%nat /\
  o = (ffold zero (emit_ops w xs i) / nofnat (A := float) (length (fvals (win w i xs))))%float.
Proof.
  intros Hw Ho Hf.
  pose proof (ts_out_nth_lt _ _ _ _ _ _ Hw Ho) as Hi. split; [exact Hi|].
  destruct (nth_error xs i) as [v|] eqn:Hv; [|apply nth_error_None in Hv; lia].
  destruct (mom_emit_state (emit_mean (mp_eff mp w 0)) w body xs i v Hw Hv) as (s & Hs & Hs1 & Hn).
  change (mom_feat (emit_mean (mp_eff mp w 0))) with (ts_vmean64 w mp) in Hs.
  rewrite Hs in Ho. injection Ho as <-. destruct (emit_mean_finite _ s Hf) as [H1 ->].
  rewrite <- Hn, <- Hs1. split; [exact H1|reflexivity].
Qed.

Lemma sumabs_win_le_habs w xs i : sumabs (rvals64 (win w i xs)) <= habs w xs i.
Proof.
  unfold habs. rewrite win_seg. unfold wstart.
  destruct (Nat.le_gt_cases (S i - w) (S i)) as [H|H]; [|lia].
  rewrite (firstn_seg_split (S i - w) (S i) xs H), rvals64_app, sumabs_app.
  pose proof (sumabs_nonneg (rvals64 (firstn (S i - w) xs))). lra.
Qed.

Lemma ts_vmean_error_eta eta w mp body xs i o :
  (1 <= w)%nat -> (Z.of_nat w < 2 ^ 53)%Z ->
  nth_error (ts_out (ts_vmean64 w mp) body w xs) i = Some o -> ffin o = true ->
  Rabs (rnd64 (f2r (ffold zero (emit_ops w xs i)) / INR (length (fvals (win w i xs))))
        - f2r (ffold zero (emit_ops w xs i)) / INR (length (fvals (win w i xs))))
  <= u64 * Rabs (f2r (ffold zero (emit_ops w xs i)) / INR (length (fvals (win w i xs)))) + eta ->
  Rabs (f2r o - meanR (rvals64 (win w i xs)))
  <= gam u64 (S (nops w xs i)) * (habs w xs i / INR (length (rvals64 (win w i xs)))) + eta.
Proof.
  intros Hw Hw53 Ho Hf Hr. destruct (ts_vmean_output w mp body xs i o Hw Ho Hf) as (Hi & H1 & ->).
  assert (Hn : (Z.of_nat (length (fvals (win w i xs))) < 2 ^ 53)%Z).
  { pose proof (length_fvals_le (win w i xs)). pose proof (win_length_le w i xs Hw). lia. }
  assert (Hlen : length (rvals64 (win w i xs)) = length (fvals (win w i xs))) by (unfold rvals64; apply map_length).
  unfold meanR, nR. rewrite Hlen.
  apply mean_of_fold_error; try assumption.
  - destruct (div_count_val _ _ H1 Hn Hf) as [Hs _].
    rewrite <- (emit_ops_sum w xs i Hw Hi), <- (emit_ops_length w xs i Hw Hi), <- (emit_ops_sumabs w xs i Hw Hi).
    apply round_sum_fold, Hs.
  - eapply Rle_trans; [apply sumR_le_sumabs|apply sumabs_win_le_habs].
Qed.

(* C01 / C06: after ANY history the emitted mean differs from the exact window mean by at most
   ((1+u)^(m+1) - 1) * H / n + eta;  m = additions and subtractions performed so far, H = magnitude they moved *)
Theorem ts_vmean_binary64_error w mp body xs i o :
  (1 <= w)%nat -> (Z.of_nat w < 2 ^ 53)%Z ->
  nth_error (ts_out (ts_vmean64 w mp) body w xs) i = Some o -> ffin o = true ->
  Rabs (f2r o - meanR (rvals64 (win w i xs)))
  <= gam u64 (S (nops w xs i)) * (habs w xs i / INR (length (rvals64 (win w i xs)))) + eta64.
Proof. intros Hw Hw53 Ho Hf. apply (ts_vmean_error_eta eta64 w mp body xs i o Hw Hw53 Ho Hf), rnd64_err. Qed.

(* without the absolute term when the computed quotient is in the normal range *)
Theorem ts_vmean_binary64_error_normal w mp body xs i o :
  (1 <= w)%nat -> (Z.of_nat w < 2 ^ 53)%Z ->
  nth_error (ts_out (ts_vmean64 w mp) body w xs) i = Some o -> ffin o = true ->
  bpow radix2 (-1022) <= Rabs (f2r (ffold zero (emit_ops w xs i)) / INR (length (fvals (win w i xs)))) ->
  Rabs (f2r o - meanR (rvals64 (win w i xs)))
  <= gam u64 (S (nops w xs i)) * (habs w xs i / INR (length (rvals64 (win w i xs)))).
Proof.
  intros Hw Hw53 Ho Hf Hnorm. pose proof (ts_vmean_error_eta 0 w mp body xs i o Hw Hw53 Ho Hf) as H.
  rewrite !Rplus_0_r in H. apply H, rnd64_err_normal, Hnorm.
Qed.

(* the drift is bounded by the number of operations: at most 2i+1 of them (+ the division), moving at most twice
   the history *)
Corollary ts_vmean_binary64_drift w mp body xs i o :
  (1 <= w)%nat -> (Z.of_nat w < 2 ^ 53)%Z ->
  nth_error (ts_out (ts_vmean64 w mp) body w xs) i = Some o -> ffin o = true ->
  Rabs (f2r o - meanR (rvals64 (win w i xs)))
  <= INR (2 * i + 2) * u64 * (1 + u64) ^ (2 * i + 2)
     * (2 * sumabs (rvals64 (firstn (S i) xs)) / INR (length (rvals64 (win w i xs)))) + eta64.
Proof.
  intros Hw Hw53 Ho Hf. eapply Rle_trans; [apply (ts_vmean_binary64_error w mp body xs i o Hw Hw53 Ho Hf)|].
  apply Rplus_le_compat_r.
  destruct (ts_vmean_output w mp body xs i o Hw Ho Hf) as (Hi & H1 & _).
  assert (Hc : 0 < / INR (length (rvals64 (win w i xs)))).
  { apply Rinv_0_lt_compat, lt_0_INR. unfold rvals64. rewrite map_length. lia. }
  unfold Rdiv. rewrite <- !Rmult_assoc. apply Rmult_le_compat_r; [lra|].
  rewrite (Rmult_assoc _ 2). apply drift_bound. pose proof (nops_le w xs i Hw). lia.
Qed.

(* ===================================================================================================== *)
(* (2) exactness on a dyadic grid for the power sums of the moment accumulator                           *)
(* ===================================================================================================== *)
(* ---- (2a) reals: powers of grid points ------------------------------------------------------------- *)
Lemma grid_mult a b x y : grid a x -> grid b y -> grid (a + b) (x * y).
Proof. intros (m & ->) (n & ->). exists (m * n)%Z. rewrite mult_IZR, bpow_plus. ring. Qed.

Lemma grid_pow e x k : grid e x -> grid (Z.of_nat k * e) (x ^ k).
Proof.
  intros G. induction k as [|k IH].
  - exists 1%Z. cbn [pow Z.of_nat Z.mul bpow]. ring.
  - replace (Z.of_nat (S k) * e)%Z with (e + Z.of_nat k * e)%Z by lia. cbn [pow]. apply grid_mult; assumption.
Qed.

Lemma grid_sumR g l : Forall (grid g) l -> grid g (sumR l).
Proof.
  induction 1 as [|a l Ha _ IH]; [apply grid_0|]. rewrite sumR_cons. apply grid_plus; assumption.
Qed.
Lemma grid_psum e k l : Forall (grid e) l -> grid (Z.of_nat k * e) (psum k l).
Proof.
  intros H. unfold psum. apply grid_sumR. apply Forall_map. eapply Forall_impl; [|exact H].
  intros a Ha. apply grid_pow, Ha.
Qed.

Lemma bpow_nat_mul e n : bpow radix2 e ^ n = bpow radix2 (Z.of_nat n * e).
Proof.
  induction n as [|n IH]; [reflexivity|].
  replace (Z.of_nat (S n) * e)%Z with (e + Z.of_nat n * e)%Z by lia. rewrite bpow_plus, <- IH. reflexivity.
Qed.

(* sum of |x^k| *)
Definition spow (k : nat) (l : list R) : R := sumabs (map (fun x => x ^ k) l).

Lemma spow_nonneg k l : 0 <= spow k l.
Proof. apply sumabs_nonneg. Qed.
Lemma spow_cons k x l : spow k (x :: l) = Rabs (x ^ k) + spow k l.
Proof. reflexivity. Qed.
Lemma spow_app k l1 l2 : spow k (l1 ++ l2) = spow k l1 + spow k l2.
Proof. unfold spow. rewrite map_app. apply sumabs_app. Qed.
Lemma psum_le_spow k l : Rabs (psum k l) <= spow k l.
Proof. apply sumR_le_sumabs. Qed.

(* an integer is 0 or at least 1 in magnitude: lower powers are dominated by higher ones *)
Lemma int_pow_le (m : Z) (k K : nat) : (1 <= k <= K)%nat -> Rabs (IZR m) ^ k <= Rabs (IZR m) ^ K.
Proof.
  intros Hk. destruct (Z.eq_dec m 0) as [->|Hm].
  - rewrite Rabs_R0, !pow_ne_zero by lia. lra.
  - apply Rle_pow; [|lia]. rewrite <- abs_IZR. apply (IZR_le 1). lia.
Qed.

Lemma grid_pow_le e x k K :
  (1 <= k <= K)%nat -> grid e x -> Rabs (x ^ k) * bpow radix2 e ^ (K - k) <= Rabs (x ^ K).
Proof.
  intros Hk (m & ->). pose proof (bpow_gt_0 radix2 e) as Ht. set (t := bpow radix2 e) in *.
  rewrite !Rpow_mult_distr, !Rabs_mult, <- !RPow_abs, (Rabs_pos_eq t) by lra.
  assert (HtK : t ^ K = t ^ k * t ^ (K - k)) by (rewrite <- pow_add; f_equal; lia).
  rewrite HtK, Rmult_assoc.
  apply Rmult_le_compat_r; [|apply int_pow_le, Hk].
  apply Rmult_le_pos; apply pow_le; lra.
Qed.

Lemma spow_le e l k K :
  (1 <= k <= K)%nat -> Forall (grid e) l -> spow k l * bpow radix2 e ^ (K - k) <= spow K l.
Proof.
  intros Hk. induction 1 as [|a l Ha _ IH]; [unfold spow, sumabs; cbn; lra|].
  rewrite !spow_cons, Rmult_plus_distr_r. pose proof (grid_pow_le e a k K Hk Ha). lra.
Qed.

(* the K-th power bound implies every lower one (K e + 53 against k e + 53) *)
Lemma spow_bound e l k K :
  (1 <= k <= K)%nat -> Forall (grid e) l ->
  spow K l < bpow radix2 (Z.of_nat K * e + 53) -> spow k l < bpow radix2 (Z.of_nat k * e + 53).
Proof.
  intros Hk HG Hb. pose proof (spow_le e l k K Hk HG) as H.
  assert (Ht : 0 < bpow radix2 e ^ (K - k)) by (apply pow_lt, bpow_gt_0).
  apply (Rmult_lt_reg_r (bpow radix2 e ^ (K - k))); [exact Ht|].
  eapply Rle_lt_trans; [exact H|]. eapply Rlt_le_trans; [exact Hb|]. apply Req_le.
  rewrite bpow_nat_mul, <- bpow_plus. f_equal. rewrite Nat2Z.inj_sub by lia. ring.
Qed.

Definition erange (K : nat) (e : Z) : Prop := (-1074 <= Z.of_nat K * e)%Z /\ (Z.of_nat K * e + 53 <= 1024)%Z.
Lemma erange_le K k e : (1 <= k <= K)%nat -> erange K e -> erange k e.
Proof.
  unfold erange. intros Hk [H1 H2].
  assert (Hz : (1 <= Z.of_nat k <= Z.of_nat K)%Z) by lia.
  set (zk := Z.of_nat k) in *. set (zK := Z.of_nat K) in *. clearbody zk zK.
  destruct (Z_le_gt_dec 0 e) as [He|He].
  - assert (0 <= zk * e)%Z by (apply Z.mul_nonneg_nonneg; lia).
    assert (zk * e <= zK * e)%Z by (apply Z.mul_le_mono_nonneg_r; lia). lia.
  - assert (zK * e <= zk * e)%Z by (apply Z.mul_le_mono_nonpos_r; lia).
    assert (zk * e <= 0)%Z by (apply Z.mul_nonneg_nonpos; lia). lia.
Qed.

(* ---- (2b) binary64: exact products and exact accumulation of grid points --------------------------- *)
(* an exactly representable product below the overflow threshold is computed exactly and is finite *)
Lemma mul_exact x y :
  ffin x = true -> ffin y = true -> fmt64 (f2r x * f2r y) -> Rabs (f2r x * f2r y) < bpow radix2 1024 ->
  ffin (x * y)%float = true /\ f2r (x * y)%float = f2r x * f2r y.
Proof.
  intros Hx Hy HF HB. rewrite ffin_equiv in *. unfold f2r in *. rewrite FP.mul_equiv.
  pose proof (Bmult_correct FloatOps.prec FloatOps.emax FP.Hprec FP.Hmax mode_NE (FP.Prim2B x) (FP.Prim2B y)) as HC.
  match type of HC with context [round ?a ?b ?c ?d] =>
    assert (Hr : round a b c d = d) by exact (rnd64_id _ HF); rewrite Hr in HC end.
  rewrite Rlt_bool_true in HC by exact HB.
  destruct HC as (H1 & H2 & _). rewrite H2, Hx, Hy. split; [reflexivity|exact H1].
Qed.

(* the powers of one element that `mom_add` / `mom_sub` form: v, v*v, (v*v)*v, (v*v)*(v*v) *)
Definition powf (k : nat) (v : float) : float :=
  match k with 1%nat => v | 2%nat => v * v | 3%nat => v * v * v | _ => v * v * (v * v) end%float.

Section ElemPows.
  Variables (e : Z) (K : nat) (v : float).
  Hypothesis HR : erange K e.
  Hypothesis Gv : fgrid e v.
  Hypothesis Hb : Rabs (f2r v ^ K) < bpow radix2 (Z.of_nat K * e + 53).

  (* exact powers a and b of a grid element multiply exactly as long as a + b <= K *)
  Lemma pow_mul_exact a b (p q : float) :
    (1 <= a + b <= K)%nat ->
    ffin p = true /\ f2r p = f2r v ^ a -> ffin q = true /\ f2r q = f2r v ^ b ->
    ffin (p * q)%float = true /\ f2r (p * q)%float = f2r v ^ (a + b).
  Proof.
    intros Hk [Fp Vp] [Fq Vq]. destruct (erange_le K (a + b) e Hk HR) as [E1 E2].
    pose proof (spow_bound e [f2r v] (a + b) K Hk (Forall_cons _ (proj2 Gv) (Forall_nil _))) as HB.
    unfold spow, sumabs in HB. cbn [map sumR fold_right] in HB. rewrite !Rplus_0_r in HB. specialize (HB Hb).
    rewrite pow_add, <- Vp, <- Vq in *. apply mul_exact; try assumption.
    - apply (grid_fmt (Z.of_nat (a + b) * e)); [exact E1| |exact HB].
      rewrite Vp, Vq, <- pow_add. apply grid_pow, Gv.
    - eapply Rlt_le_trans; [exact HB|apply bpow_le; exact E2].
  Qed.

  Lemma elem_pows k : (1 <= k <= K)%nat -> (k <= 4)%nat -> ffin (powf k v) = true /\ f2r (powf k v) = f2r v ^ k.
  Proof.
    intros Hk H4.
    assert (P1 : ffin v = true /\ f2r v = f2r v ^ 1) by (split; [exact (proj1 Gv)|ring]).
    assert (P2 : (2 <= K)%nat -> ffin (v * v)%float = true /\ f2r (v * v)%float = f2r v ^ 2)
      by (intros H2; apply (pow_mul_exact 1 1); [lia|exact P1|exact P1]).
    destruct k as [|[|[|[|[|k]]]]]; try lia; cbn [powf].
    - exact P1.
    - apply P2. lia.
    - apply (pow_mul_exact 2 1); [lia|apply P2; lia|exact P1].
    - apply (pow_mul_exact 2 2); [lia|apply P2; lia|apply P2; lia].
  Qed.
End ElemPows.

(* ---- (2c) the sliding invariant of a `feat`, with preservation required only on the windows of the run ---- *)
Section SlidingOn.
  Context {T St O : Type}.
  Variable F : feat T St O.
  Variable Abs : St -> list T -> Prop.
  Variable Good : list T -> Prop.
  Hypothesis Abs_init : Abs (f_init F) [].
  Hypothesis Abs_pre : forall s l v, Good (l ++ [v]) -> Abs s l -> Abs (f_pre F s v) (l ++ [v]).
  Hypothesis Abs_post : forall s x l, Good (x :: l) -> Abs s (x :: l) -> Abs (f_post F s (Some x)) l.
  Hypothesis post_none : forall s, f_post F s None = s.
  Variable w : nat.
  Hypothesis Hw : (1 <= w)%nat.
  Variable xs : list T.
  Hypothesis Good_win : forall i, (i < length xs)%nat -> Good (win w i xs).

  Theorem sliding_emit_on body i v :
    nth_error xs i = Some v ->
    exists s, nth_error (ts_out F body w xs) i = Some (f_emit F s) /\ Abs s (win w i xs).
  Proof.
    intros Hv.
    assert (Hi : (i <= length xs)%nat) by (apply Nat.lt_le_incl, nth_error_Some; congruence).
    destruct (Sliding.sliding_any (feat_cb F) (f_pre F) (fun s x => f_post F s (Some x)) (f_init F) Abs Good
                Abs_init Abs_pre Abs_post w xs (mapi (fun i v => (removed w xs i, v)) xs) (length xs)
                (mapi_length _ _) (fun k _ => Good_win k) (Sliding.feat_cb_state F post_none w xs)
                i (removed w xs i, v) v Hw Hi) as (s & Habs & Hout); [|exact Hv|].
    - rewrite nth_error_mapi, Hv. reflexivity.
    - exists (f_pre F s v). split; [|exact Habs].
      unfold ts_out. rewrite ts_run_iter by exact Hw. exact Hout.
  Qed.
End SlidingOn.

(* ---- (2d) the moment accumulator at NumF64 on a grid ------------------------------------------------ *)
Definition msk {A} (k : nat) (s : @mom A) : A :=
  match k with 1%nat => m_s1 s | 2%nat => m_s2 s | 3%nat => m_s3 s | _ => m_s4 s end.

(* the accumulator a holds EXACTLY the k-th power sum of the valid elements of l *)
Definition facc (k : nat) (a : float) (l : list float) : Prop := ffin a = true /\ f2r a = psum k (rvals64 l).
(* the state holds the count and the first K power sums of the window, exactly *)
Definition mabs (K : nat) (s : @mom float) (l : list float) : Prop :=
  m_n s = length (fvals l) /\ forall k, (1 <= k <= K)%nat -> facc k (msk k s) l.
(* a window whose valid elements are on the grid 2^e and whose K-th absolute power sum is below 2^(K e + 53) *)
Definition good (K : nat) (e : Z) (l : list float) : Prop :=
  Forall (fgrid e) (fvals l) /\ spow K (rvals64 l) < bpow radix2 (Z.of_nat K * e + 53).

Lemma Forall_fgrid_grid e fl : Forall (fgrid e) fl -> Forall (grid e) (map f2r fl).
Proof. intros H. apply Forall_map. eapply Forall_impl; [|exact H]. intros a [_ Ha]. exact Ha. Qed.

Lemma rvals64_single_valid v : not_none (H := IsNoneF64) v = true -> rvals64 [v] = [f2r v].
Proof. intros E. unfold rvals64. rewrite fvals_single. unfold addop. rewrite E. reflexivity. Qed.
Lemma rvals64_single_null v : not_none (H := IsNoneF64) v = false -> rvals64 [v] = [].
Proof. intros E. unfold rvals64. rewrite fvals_single. unfold addop. rewrite E. reflexivity. Qed.

Lemma msk_add k (s : @mom float) v : msk k (mom_add s v) = (msk k s + powf k v)%float.
Proof. destruct k as [|[|[|[|k]]]]; reflexivity. Qed.
Lemma msk_sub k (s : @mom float) v : msk k (mom_sub s v) = (msk k s + - powf k v)%float.
Proof. destruct k as [|[|[|[|k]]]]; apply sub_is_add_opp. Qed.

Section MomentGrid.
  Variable K : nat.
  Variable e : Z.
  Hypothesis HK : (1 <= K <= 4)%nat.
  Hypothesis HR : erange K e.

  (* one exact accumulation step: the new value is the k-th power sum of a list dominated by a good one *)
  Lemma acc_core k (a q : float) (big res : list float) :
    good K e big -> (1 <= k <= K)%nat ->
    Forall (fgrid e) (fvals res) -> spow k (rvals64 res) <= spow k (rvals64 big) ->
    ffin a = true -> ffin q = true -> f2r a + f2r q = psum k (rvals64 res) -> facc k (a + q)%float res.
  Proof.
    intros [GB HB] Hk GR Hle Fa Fq Hv.
    destruct (erange_le K k e Hk HR) as [E1 E2].
    pose proof (spow_bound e (rvals64 big) k K Hk (Forall_fgrid_grid e _ GB) HB) as Hb. pose proof (psum_le_spow k (rvals64 res)) as Hp.
    assert (Hlt : Rabs (psum k (rvals64 res)) < bpow radix2 (Z.of_nat k * e + 53)) by lra.
    unfold facc. rewrite <- Hv in *.
    apply add_exact; try assumption.
    - apply (grid_fmt (Z.of_nat k * e)); [exact E1|rewrite Hv; apply grid_psum, Forall_fgrid_grid, GR|exact Hlt].
    - eapply Rlt_le_trans; [exact Hlt|apply bpow_le; exact E2].
  Qed.

  (* the powers of a valid element of a good window are exact *)
  Lemma good_elem_pows l1 v l2 k :
    good K e (l1 ++ [v] ++ l2) -> not_none (H := IsNoneF64) v = true -> (1 <= k <= K)%nat ->
    ffin (powf k v) = true /\ f2r (powf k v) = f2r v ^ k.
  Proof.
    intros [HG HB] E Hk. rewrite !fvals_app, fvals_single in HG. unfold addop in HG. rewrite E in HG.
    apply Forall_app in HG. destruct HG as [_ HG]. inversion HG as [|? ? Gv _]; subst.
    rewrite !rvals64_app, (rvals64_single_valid v E), !spow_app, spow_cons in HB.
    apply (elem_pows e K v HR Gv); [|exact Hk|lia].
    pose proof (spow_nonneg K (rvals64 l1)). pose proof (spow_nonneg K []). pose proof (spow_nonneg K (rvals64 l2)). lra.
  Qed.

  Lemma mabs_init : mabs K (mom0 (A := float)) [].
  Proof.
    split; [reflexivity|]. intros k _.
    replace (msk k (mom0 (A := float))) with zero by (destruct k as [|[|[|[|k]]]]; reflexivity).
    split; [reflexivity|]. rewrite f2r_zero. reflexivity.
  Qed.

  Lemma mabs_pre (s : @mom float) l v :
    good K e (l ++ [v]) -> mabs K s l -> mabs K (mom_pre (DT := IsNoneF64) s v) (l ++ [v]).
  Proof.
    intros HG [Hn HA]. unfold mom_pre. destruct (not_none v) eqn:E.
    - change (unwrap v) with v. split.
      + cbn [mom_add m_n]. rewrite fvals_app, fvals_single, app_length. unfold addop. rewrite E. cbn [length]. lia.
      + intros k Hk. destruct (HA k Hk) as [Fa Va]. destruct (good_elem_pows l v [] k HG E Hk) as [Fp Vp].
        rewrite msk_add. apply (acc_core k _ _ (l ++ [v])); try assumption; [exact (proj1 HG)|lra|].
        rewrite rvals64_app, (rvals64_single_valid v E), psum_app, psum_single, Va, Vp. reflexivity.
    - assert (E1 : fvals (l ++ [v]) = fvals l)
        by (rewrite fvals_app, fvals_single; unfold addop; rewrite E; apply app_nil_r).
      assert (E2 : rvals64 (l ++ [v]) = rvals64 l)
        by (rewrite rvals64_app, (rvals64_single_null v E); apply app_nil_r).
      unfold mabs, facc. rewrite E1, E2. split; [exact Hn|exact HA].
  Qed.

  Lemma mabs_post (s : @mom float) x l :
    good K e (x :: l) -> mabs K s (x :: l) -> mabs K (mom_post (DT := IsNoneF64) s (Some x)) l.
  Proof.
    change (x :: l) with ([x] ++ l). intros HG [Hn HA]. unfold mom_post.
    rewrite fvals_app, fvals_single in Hn. unfold addop in Hn.
    destruct (not_none x) eqn:E.
    - change (unwrap x) with x. split.
      + cbn [mom_sub m_n]. rewrite Hn, app_length. cbn [length]. lia.
      + intros k Hk. destruct (HA k Hk) as [Fa Va]. destruct (good_elem_pows [] x l k HG E Hk) as [Fp Vp].
        rewrite rvals64_app, (rvals64_single_valid x E), psum_app, psum_single in Va.
        rewrite msk_sub. apply (acc_core k _ _ ([x] ++ l)); try assumption.
        * destruct HG as [HG _]. rewrite fvals_app in HG. apply Forall_app in HG. exact (proj2 HG).
        * rewrite rvals64_app, spow_app. pose proof (spow_nonneg k (rvals64 [x])). lra.
        * rewrite ffin_opp. exact Fp.
        * rewrite f2r_opp, Va, Vp. ring.
    - cbn [app] in Hn.
      split; [exact Hn|]. intros k Hk. destruct (HA k Hk) as [Fa Va]. split; [exact Fa|].
      rewrite Va, rvals64_app, (rvals64_single_null x E). reflexivity.
  Qed.
End MomentGrid.

(* ---- (2e) the runs: model(float) state = model(option R) state -------------------------------------- *)
Lemma Forall_fvals_seg (P : float -> Prop) a b xs : Forall P (fvals xs) -> Forall P (fvals (seg a b xs)).
Proof.
  intros H. unfold seg. rewrite <- (firstn_skipn a xs), fvals_app in H. apply Forall_app in H. destruct H as [_ H].
  rewrite <- (firstn_skipn (b - a) (skipn a xs)), fvals_app in H. apply Forall_app in H. exact (proj1 H).
Qed.

(* every window of the run is on the grid and in range: the premise of everything below (window-local) *)
Definition windows_in_range (K : nat) (e : Z) (w : nat) (xs : list float) : Prop :=
  forall i, (i < length xs)%nat -> spow K (rvals64 (win w i xs)) < pow2 (Z.of_nat K * e + 53).

(* the float state behind every output holds the count and the first K power sums of the window EXACTLY *)
Theorem moment_state_float_exact K e (emit : @mom float -> float) w body xs :
  (1 <= K <= 4)%nat -> erange K e -> (1 <= w)%nat ->
  Forall (fgrid e) (fvals xs) -> windows_in_range K e w xs ->
  forall i v, nth_error xs i = Some v ->
    exists s, nth_error (ts_out (mom_feat (NA := NumF64) (DT := IsNoneF64) emit) body w xs) i = Some (emit s) /\
              mabs K s (win w i xs).
Proof.
  intros HK HR Hw HG HW i v Hv.
  apply (sliding_emit_on (mom_feat (NA := NumF64) (DT := IsNoneF64) emit) (mabs K) (good K e)) with (v := v);
    try assumption.
  - apply mabs_init.
  - intros s l x. apply mabs_pre; assumption.
  - intros s x l. apply mabs_post; assumption.
  - reflexivity.
  - intros j Hj. split; [rewrite win_seg; apply Forall_fvals_seg, HG|apply HW, Hj].
Qed.

Lemma fx_finite a : ffin a = true -> fx a = Some (f2r a).
Proof. intros H. unfold fx. rewrite (ffin_not_nan _ H). reflexivity. Qed.

(* what `mom_abs` says about the state of the exact run on the image of a float series *)
Lemma mom_abs_fx (sX : @mom XR) l :
  mom_abs sX (map fx l) ->
  m_n sX = length (rvals64 l) /\ forall k, (1 <= k <= 4)%nat -> msk k sX = Some (psum k (rvals64 l)).
Proof.
  intros (Xn & X1 & X2 & X3 & X4). unfold nv in Xn. rewrite valid_map_fx in Xn, X1, X2, X3, X4.
  split; [exact Xn|]. intros k Hk. destruct k as [|[|[|[|[|k]]]]]; try lia; assumption.
Qed.

(* ... and so it is the image of the state of the exact run on the same series *)
Theorem moment_state_exact_on_grid K e (emit64 : @mom float -> float) (emitX : @mom XR -> XR) w body xs :
  (1 <= K <= 4)%nat -> erange K e -> (1 <= w)%nat ->
  Forall (fgrid e) (fvals xs) -> windows_in_range K e w xs ->
  forall i v, nth_error xs i = Some v ->
    exists (s64 : @mom float) (sX : @mom XR),
      nth_error (ts_out (mom_feat (NA := NumF64) (DT := IsNoneF64) emit64) body w xs) i = Some (emit64 s64) /\
      nth_error (ts_out (mom_feat (NA := NumXR) (DT := IsNoneXR) emitX) body w (map fx xs)) i = Some (emitX sX) /\
      m_n s64 = m_n sX /\ (forall k, (1 <= k <= K)%nat -> fx (msk k s64) = msk k sX) /\
      m_n sX = length (rvals64 (win w i xs)) /\
      (forall k, (1 <= k <= 4)%nat -> msk k sX = Some (psum k (rvals64 (win w i xs)))).
Proof.
  intros HK HR Hw HG HW i v Hv.
  destruct (moment_state_float_exact K e emit64 w body xs HK HR Hw HG HW i v Hv) as (s64 & Ho & Hn & HA).
  destruct (mom_state_tracks_window emitX body w (map fx xs) Hw) as (outx & Hrun & _ & Hout).
  destruct (Hout i (fx v)) as (sX & HX & HoX); [rewrite nth_error_map, Hv; reflexivity|].
  rewrite win_map in HX. destruct (mom_abs_fx sX _ HX) as [Xn Xk].
  exists s64, sX. split; [exact Ho|]. split; [unfold ts_out; rewrite Hrun; exact HoX|].
  split; [|split; [|split; [exact Xn|exact Xk]]].
  - rewrite Hn, Xn. unfold rvals64. rewrite map_length. reflexivity.
  - intros k Hk. destruct (HA k Hk) as [Fa Va]. rewrite (fx_finite _ Fa), Va, Xk by lia. reflexivity.
Qed.

(* all four power sums: the exact run's state IS the image of the float run's state *)
Definition mom_fx (s : @mom float) : @mom XR :=
  {| m_n := m_n s; m_s1 := fx (m_s1 s); m_s2 := fx (m_s2 s); m_s3 := fx (m_s3 s); m_s4 := fx (m_s4 s) |}.

Corollary moment_state_exact_on_grid_all e (emit64 : @mom float -> float) (emitX : @mom XR -> XR) w body xs :
  erange 4 e -> (1 <= w)%nat -> Forall (fgrid e) (fvals xs) -> windows_in_range 4 e w xs ->
  forall i v, nth_error xs i = Some v ->
    exists s64 : @mom float,
      nth_error (ts_out (mom_feat (NA := NumF64) (DT := IsNoneF64) emit64) body w xs) i = Some (emit64 s64) /\
      nth_error (ts_out (mom_feat (NA := NumXR) (DT := IsNoneXR) emitX) body w (map fx xs)) i
      = Some (emitX (mom_fx s64)).
Proof.
  intros HR Hw HG HW i v Hv.
  destruct (moment_state_exact_on_grid 4 e emit64 emitX w body xs ltac:(lia) HR Hw HG HW i v Hv)
    as (s64 & sX & H1 & H2 & Hn & Hk & _).
  exists s64. split; [exact H1|]. rewrite H2. do 2 f_equal.
  destruct sX as [n a1 a2 a3 a4]. unfold mom_fx. symmetry.
  f_equal; [exact Hn|exact (Hk 1%nat ltac:(lia))|exact (Hk 2%nat ltac:(lia))|exact (Hk 3%nat ltac:(lia))|exact (Hk 4%nat ltac:(lia))].
Qed.

Lemma erange_1 e : (-1074 <= e)%Z -> (e + 53 <= 1024)%Z -> erange 1 e.
Proof. unfold erange. lia. Qed.
Lemma windows_in_range_1 e w xs :
  (forall i, (i < length xs)%nat -> spow 1 (rvals64 (win w i xs)) < pow2 (e + 53)) -> windows_in_range 1 e w xs.
Proof. intros H i Hi. replace (Z.of_nat 1 * e + 53)%Z with (e + 53)%Z by lia. exact (H i Hi). Qed.

(* the rolling SUM under the window-local first-power premise (Proofs/RoundSum.v needs the whole history in range) *)
Lemma fx_emit_sum mp (s64 : @mom float) (sX : @mom XR) :
  m_n s64 = m_n sX -> fx (m_s1 s64) = m_s1 sX -> fx (emit_sum mp s64) = emit_sum mp sX.
Proof. intros Hn H1. unfold emit_sum. rewrite Hn. destruct (mp <=? m_n sX); [exact H1|reflexivity]. Qed.

Theorem ts_vsum_f64_exact_on_grid_local e w mp body xs :
  erange 1 e -> (1 <= w)%nat -> Forall (fgrid e) (fvals xs) -> windows_in_range 1 e w xs ->
  map fx (ts_out (ts_vsum64 w mp) body w xs)
  = ts_out (ts_vsum_f (NA := NumXR) (DT := IsNoneXR) w mp) body w (map fx xs).
Proof.
  intros HR Hw HG HW. apply ts_out_map_pointwise; [exact Hw|]. intros i v Hv.
  destruct (moment_state_exact_on_grid 1 e (emit_sum (mp_eff mp w 0)) (emit_sum (mp_eff mp w 0)) w body xs
              ltac:(lia) HR Hw HG HW i v Hv) as (s64 & sX & H1 & H2 & Hn & Hk & _).
  change (mom_feat (emit_sum (mp_eff mp w 0))) with (ts_vsum64 w mp) in H1.
  change (mom_feat (emit_sum (mp_eff mp w 0))) with (ts_vsum_f (NA := NumXR) (DT := IsNoneXR) w mp) in H2.
  rewrite H1, H2. cbn [option_map]. f_equal. apply fx_emit_sum; [exact Hn|exact (Hk 1%nat ltac:(lia))].
Qed.

(* ---- the premise from a magnitude bound: |x| <= B and w * B^K < 2^(K e + 53) ---------------------------- *)
Lemma spow_le_len K L B : Forall (fun x => Rabs x <= B) L -> spow K L <= INR (length L) * B ^ K.
Proof.
  induction 1 as [|a L Ha _ IH]; [unfold spow, sumabs; cbn; lra|].
  rewrite spow_cons. change (length (a :: L)) with (S (length L)). rewrite S_INR, <- RPow_abs.
  pose proof (pow_incr (Rabs a) B K (conj (Rabs_pos a) Ha)). lra.
Qed.

Lemma windows_in_range_of_bound K e w xs B :
  (1 <= w)%nat -> Forall (fun y => Rabs (f2r y) <= B) (fvals xs) ->
  INR w * B ^ K < pow2 (Z.of_nat K * e + 53) -> windows_in_range K e w xs.
Proof.
  intros Hw HB Hlt i Hi.
  assert (HBw : Forall (fun x => Rabs x <= B) (rvals64 (win w i xs))).
  { unfold rvals64. apply Forall_map. rewrite win_seg. apply (Forall_fvals_seg (fun y => Rabs (f2r y) <= B)), HB. }
  pose proof (spow_le_len K _ B HBw) as H1.
  destruct (rvals64 (win w i xs)) as [|a L] eqn:EL.
  - unfold spow, sumabs. cbn [map sumR fold_right]. apply bpow_gt_0.
  - assert (HB0 : 0 <= B) by (inversion HBw as [|? ? Ha _]; subst; pose proof (Rabs_pos a); lra).
    assert (Hlen : (length (a :: L) <= w)%nat).
    { rewrite <- EL. unfold rvals64. rewrite map_length.
      pose proof (length_fvals_le (win w i xs)). pose proof (win_length_le w i xs Hw). lia. }
    apply le_INR in Hlen. pose proof (pow_le B K HB0) as HBK.
    eapply Rle_lt_trans; [exact H1|]. eapply Rle_lt_trans; [|exact Hlt]. apply Rmult_le_compat_r; assumption.
Qed.

(* ---- (2f) executable premises and the statements as Props/C01.v, Props/C06.v cite them ------------------- *)
(* an executable test for "finite and |x| <= b" (b an integer) *)
Definition abs_le_check (b : Z) (x : float) : bool :=
  match Prim2SF x with
  | S754_zero _ => (0 <=? b)%Z
  | S754_finite _ m ex => if (0 <=? ex)%Z then (Zpos m * 2 ^ ex <=? b)%Z else (Zpos m <=? b * 2 ^ (- ex))%Z
  | _ => false
  end.

Lemma abs_le_check_ok b x : abs_le_check b x = true -> Rabs (f2r x) <= IZR b.
Proof.
  unfold abs_le_check, f2r. rewrite <- FP.B2SF_Prim2B.
  destruct (FP.Prim2B x) as [s|s| |s m ex Hb]; cbn [B2SF B2R]; try discriminate.
  - intros H. apply Z.leb_le in H. rewrite Rabs_R0. apply (IZR_le 0), H.
  - unfold F2R. cbn [Fnum Fexp]. rewrite Rabs_mult, (Rabs_pos_eq (bpow radix2 ex)) by apply bpow_ge_0.
    rewrite <- abs_IZR, abs_cond_Zopp. cbn [Z.abs].
    destruct (0 <=? ex)%Z eqn:E; intros H; apply Z.leb_le in H.
    + apply Z.leb_le in E. rewrite <- (IZR_Zpower radix2) by exact E. rewrite <- mult_IZR. apply IZR_le, H.
    + apply Z.leb_gt in E. apply IZR_le in H. rewrite mult_IZR, (IZR_Zpower radix2) in H by lia.
      pose proof (bpow_gt_0 radix2 ex) as Hp.
      apply Rmult_le_compat_r with (r := bpow radix2 ex) in H; [|lra].
      rewrite Rmult_assoc, <- bpow_plus in H. replace (- ex + ex)%Z with 0%Z in H by lia.
      cbn [bpow] in H. lra.
Qed.
Lemma abs_le_check_all b l : forallb (abs_le_check b) l = true -> Forall (fun y => Rabs (f2r y) <= IZR b) l.
Proof. intros H. apply Forall_forall. intros x Hx. apply abs_le_check_ok. exact (proj1 (forallb_forall _ _) H x Hx). Qed.

(* the float accumulators alone *)
Theorem moment_accumulators_float_exact K e (emit : @mom float -> float) w body xs :
  (1 <= K <= 4)%nat -> (-1074 <= Z.of_nat K * e)%Z -> (Z.of_nat K * e + 53 <= 1024)%Z -> (1 <= w)%nat ->
  forallb (grid_check e) (fvals xs) = true ->
  (forall i, (i < length xs)%nat -> spow K (rvals64 (win w i xs)) < pow2 (Z.of_nat K * e + 53)) ->
  forall i v, nth_error xs i = Some v ->
    exists s : @mom float,
      nth_error (ts_out (mom_feat (NA := NumF64) (DT := IsNoneF64) emit) body w xs) i = Some (emit s) /\
      m_n s = length (fvals (win w i xs)) /\
      forall k, (1 <= k <= K)%nat -> ffin (msk k s) = true /\ f2r (msk k s) = psum k (rvals64 (win w i xs)).
Proof.
  intros HK E1 E2 Hw HG. exact (moment_state_float_exact K e emit w body xs HK (conj E1 E2) Hw (grid_check_all _ _ HG)).
Qed.

Theorem moment_state_exact_on_grid_props K e (emit64 : @mom float -> float) (emitX : @mom XR -> XR) w body xs :
  (1 <= K <= 4)%nat -> (-1074 <= Z.of_nat K * e)%Z -> (Z.of_nat K * e + 53 <= 1024)%Z -> (1 <= w)%nat ->
  forallb (grid_check e) (fvals xs) = true ->
  (forall i, (i < length xs)%nat -> spow K (rvals64 (win w i xs)) < pow2 (Z.of_nat K * e + 53)) ->
  forall i v, nth_error xs i = Some v ->
    exists (s64 : @mom float) (sX : @mom XR),
      nth_error (ts_out (mom_feat (NA := NumF64) (DT := IsNoneF64) emit64) body w xs) i = Some (emit64 s64) /\
      nth_error (ts_out (mom_feat (NA := NumXR) (DT := IsNoneXR) emitX) body w (map fx xs)) i = Some (emitX sX) /\
      m_n s64 = m_n sX /\ (forall k, (1 <= k <= K)%nat -> fx (msk k s64) = msk k sX) /\
      m_n sX = length (rvals64 (win w i xs)) /\
      (forall k, (1 <= k <= 4)%nat -> msk k sX = Some (psum k (rvals64 (win w i xs)))).
Proof.
  intros HK E1 E2 Hw HG.
  exact (moment_state_exact_on_grid K e emit64 emitX w body xs HK (conj E1 E2) Hw (grid_check_all _ _ HG)).
Qed.

Theorem moment_state_exact_on_grid_all_props e (emit64 : @mom float -> float) (emitX : @mom XR -> XR) w body xs :
  (-1074 <= 4 * e)%Z -> (4 * e + 53 <= 1024)%Z -> (1 <= w)%nat ->
  forallb (grid_check e) (fvals xs) = true ->
  (forall i, (i < length xs)%nat -> psum 4 (rvals64 (win w i xs)) < pow2 (4 * e + 53)) ->
  forall i v, nth_error xs i = Some v ->
    exists s64 : @mom float,
      nth_error (ts_out (mom_feat (NA := NumF64) (DT := IsNoneF64) emit64) body w xs) i = Some (emit64 s64) /\
      nth_error (ts_out (mom_feat (NA := NumXR) (DT := IsNoneXR) emitX) body w (map fx xs)) i
      = Some (emitX (mom_fx s64)).
Proof.
  intros E1 E2 Hw HG HW.
  apply (moment_state_exact_on_grid_all e emit64 emitX w body xs (conj E1 E2) Hw (grid_check_all _ _ HG)).
  intros i Hi. specialize (HW i Hi). unfold spow, sumabs. rewrite map_map.
  erewrite map_ext; [exact HW|]. intros a. cbn beta. apply Rabs_pos_eq.
  replace (a ^ 4) with ((a * a) * (a * a)) by ring. apply Rle_0_sqr.
Qed.

(* the premise from executable magnitude / grid tests: |x| <= b for every valid element, w * b^K < 2^(K e + 53) *)
Theorem windows_in_range_of_bound_props K e w xs (b : Z) :
  (1 <= w)%nat -> forallb (abs_le_check b) (fvals xs) = true ->
  INR w * IZR b ^ K < pow2 (Z.of_nat K * e + 53) ->
  forall i, (i < length xs)%nat -> spow K (rvals64 (win w i xs)) < pow2 (Z.of_nat K * e + 53).
Proof.
  intros Hw HB Hlt. apply (windows_in_range_of_bound K e w xs (IZR b) Hw (abs_le_check_all _ _ HB) Hlt).
Qed.

(* the sum of squares, as the task states it: grid 2^e, |x| <= b, w * b^2 < 2^(2e+53) *)
Theorem sum_of_squares_exact_on_grid e (b : Z) (emit : @mom float -> float) w body xs :
  (-1074 <= 2 * e)%Z -> (2 * e + 53 <= 1024)%Z -> (1 <= w)%nat ->
  forallb (grid_check e) (fvals xs) = true -> forallb (abs_le_check b) (fvals xs) = true ->
  INR w * IZR b ^ 2 < pow2 (2 * e + 53) ->
  forall i v, nth_error xs i = Some v ->
    exists s : @mom float,
      nth_error (ts_out (mom_feat (NA := NumF64) (DT := IsNoneF64) emit) body w xs) i = Some (emit s) /\
      m_n s = length (fvals (win w i xs)) /\
      ffin (m_s1 s) = true /\ f2r (m_s1 s) = psum 1 (rvals64 (win w i xs)) /\
      ffin (m_s2 s) = true /\ f2r (m_s2 s) = psum 2 (rvals64 (win w i xs)).
Proof.
  intros E1 E2 Hw HG HB Hlt i v Hv.
  destruct (moment_accumulators_float_exact 2 e emit w body xs ltac:(lia) E1 E2 Hw HG
              (windows_in_range_of_bound_props 2 e w xs b Hw HB Hlt) i v Hv) as (s & Ho & Hn & Hk).
  exists s. destruct (Hk 1%nat ltac:(lia)) as [F1 V1]. destruct (Hk 2%nat ltac:(lia)) as [F2 V2].
  repeat split; assumption.
Qed.

(* DESIGN 2.3: the generated inputs are k/4 with |k| <= 400 (grid 2^-2, |x| <= 100) and windows of at most 64 elements:
   every window's fourth-power sum is below 2^45, so all four power sums are exact in binary64 *)
Theorem generated_inputs_in_range w xs :
  (1 <= w <= 64)%nat -> forallb (abs_le_check 100) (fvals xs) = true ->
  forall i, (i < length xs)%nat -> psum 4 (rvals64 (win w i xs)) < pow2 (4 * (-2) + 53).
Proof.
  intros Hw HB i Hi.
  eapply Rle_lt_trans; [eapply Rle_trans; [apply Rle_abs|apply psum_le_spow]|].
  apply (windows_in_range_of_bound_props 4 (-2) w xs 100 ltac:(lia) HB); [|exact Hi].
  assert (H64 : INR w <= 64).
  { replace 64 with (INR 64) by (rewrite INR_IZR_INZ; reflexivity). apply le_INR. lia. }
  change (pow2 (Z.of_nat 4 * -2 + 53)) with (IZR (2 ^ 45)).
  apply Rle_lt_trans with (64 * 100 ^ 4); [apply Rmult_le_compat_r; [apply pow_le; lra|exact H64]|].
  replace (64 * 100 ^ 4) with (IZR (64 * 100 ^ 4)) by (rewrite mult_IZR, pow_IZR; reflexivity).
  apply IZR_lt. reflexivity.
Qed.

(* ---- (2g) on grid data the rolling mean is the CORRECTLY ROUNDED exact mean of the window ------------------- *)
Theorem ts_vmean_correctly_rounded_on_grid e w mp body xs i o :
  (-1074 <= e)%Z -> (e + 53 <= 1024)%Z -> (1 <= w)%nat -> (Z.of_nat w < 2 ^ 53)%Z ->
  forallb (grid_check e) (fvals xs) = true ->
  (forall j, (j < length xs)%nat -> spow 1 (rvals64 (win w j xs)) < pow2 (e + 53)) ->
  nth_error (ts_out (ts_vmean64 w mp) body w xs) i = Some o -> ffin o = true ->
  f2r o = rnd64 (meanR (rvals64 (win w i xs))) /\
  Rabs (f2r o - meanR (rvals64 (win w i xs))) <= u64 * Rabs (meanR (rvals64 (win w i xs))) + eta64.
Proof.
  intros E1 E2 Hw Hw53 HG HW Ho Hf.
  assert (Hv : f2r o = rnd64 (meanR (rvals64 (win w i xs)))); [|split; [exact Hv|rewrite Hv; apply rnd64_err]].
  pose proof (ts_out_nth_lt _ _ _ _ _ _ Hw Ho) as Hi.
  destruct (nth_error xs i) as [v|] eqn:Hxi; [|apply nth_error_None in Hxi; lia].
  destruct (moment_state_float_exact 1 e (emit_mean (mp_eff mp w 0)) w body xs ltac:(lia) (erange_1 e E1 E2) Hw
              (grid_check_all _ _ HG) (windows_in_range_1 e w xs HW) i v Hxi) as (s & Hs & Hn & Hk).
  change (mom_feat (emit_mean (mp_eff mp w 0))) with (ts_vmean64 w mp) in Hs.
  rewrite Hs in Ho. injection Ho as <-. destruct (emit_mean_finite _ s Hf) as [H1 Hq]. rewrite Hq in *.
  destruct (Hk 1%nat ltac:(lia)) as [_ V1]. cbn [msk] in V1.
  assert (Hn53 : (Z.of_nat (m_n s) < 2 ^ 53)%Z).
  { rewrite Hn. pose proof (length_fvals_le (win w i xs)). pose proof (win_length_le w i xs Hw). lia. }
  destruct (div_count_val (m_s1 s) (m_n s) H1 Hn53 Hf) as [_ ->].
  rewrite V1, psum_1. unfold meanR, nR, rvals64. rewrite map_length, <- Hn. reflexivity.
Qed.
