(* Proofs/RoundSum.v — rounding-error bounds for the running sums (C11 one-pass `vsum`, C01/C06 rolling
   `ts_vsum`), in three layers:
     (1) real level: a left fold  s := rnd (s + y)  over a list of reals, with the standard model of
         floating-point addition  |rnd (a+b) - (a+b)| <= u |a+b|  on a format closed under rnd;
     (2) binary64: Flocq's `Bplus_correct` / `FLT_plus_error_N_ex` discharge (1)'s hypotheses for
         round-to-nearest-even in FLT(-1074, 53), with u = 2^-53 (addition has no underflow error), and
         `Flocq.IEEE754.PrimFloat.add_equiv` carries it to Coq's primitive `float` — the carrier
         `NumF64` that the correspondence run evaluates and compares bit for bit with Rust;
     (3) the models: `vsum` (Model/Agg.v) and `ts_vsum_f` (Model/Features.v) at NumF64 / IsNoneF64.
   No overflow premise other than an executable one: the OUTPUT is finite (a non-finite partial sum or
   operand can never become finite again).                                                           *)
From Coq Require Import Reals ZArith List Floats Psatz.
From Flocq Require Import Core Relative Plus_error BinarySingleNaN.
From Flocq Require PrimFloat.
From Coq Require Import Permutation.
From Tevec Require Import Base.Prelude Base.Num Base.XR Base.F64 Spec.Stats Spec.Stats2 Model.Driver Proofs.Driver
     Model.Features Proofs.Generic Model.Agg Proofs.AggGeneric Proofs.Sliding Proofs.Features.
Import ListNotations.
Local Open Scope R_scope.

Definition sumabs (l : list R) : R := sumR (map Rabs l).

Lemma sumabs_nonneg l : 0 <= sumabs l.
Proof.
  unfold sumabs. induction l as [|a l IH]; cbn [map sumR fold_right]; [lra|].
  fold (sumR (map Rabs l)). pose proof (Rabs_pos a). lra.
Qed.
Lemma sumabs_app l1 l2 : sumabs (l1 ++ l2) = sumabs l1 + sumabs l2.
Proof. unfold sumabs. rewrite map_app. apply sumR_app. Qed.
Lemma sumR_cons a l : sumR (a :: l) = a + sumR l.
Proof. reflexivity. Qed.
Lemma sumabs_cons a l : sumabs (a :: l) = Rabs a + sumabs l.
Proof. reflexivity. Qed.
Lemma sumR_le_sumabs l : Rabs (sumR l) <= sumabs l.
Proof.
  induction l as [|a l IH]; [unfold sumabs; cbn [map sumR fold_right]; rewrite Rabs_R0; lra|].
  rewrite sumR_cons, sumabs_cons. pose proof (Rabs_triang a (sumR l)). lra.
Qed.

Lemma Rabs_sub_le_via a b m ea eb : Rabs (a - m) <= ea -> Rabs (b - m) <= eb -> Rabs (a - b) <= ea + eb.
Proof.
  intros Ha Hb. replace (a - b) with ((a - m) + - (b - m)) by ring.
  eapply Rle_trans; [apply Rabs_triang|]. rewrite Rabs_Ropp. lra.
Qed.

(* (1+u)^n - 1, the classical growth factor of recursive summation, and its linearisation *)
Definition gam (u : R) (n : nat) : R := (1 + u) ^ n - 1.

Lemma gam_nonneg u n : 0 <= u -> 0 <= gam u n.
Proof. intros Hu. unfold gam. pose proof (pow_R1_Rle (1 + u) n ltac:(lra)). lra. Qed.
Lemma gam_S u n : gam u (S n) = (1 + u) * gam u n + u.
Proof. unfold gam. cbn [pow]. ring. Qed.
Lemma gam_mono u n m : 0 <= u -> (n <= m)%nat -> gam u n <= gam u m.
Proof.
  intros Hu Hnm. unfold gam. pose proof (Rle_pow (1 + u) n m ltac:(lra) Hnm). lra.
Qed.
(* explicit constant: (1+u)^n - 1 <= n u (1+u)^n *)
Lemma gam_le_linear u n : 0 <= u -> gam u n <= INR n * u * (1 + u) ^ n.
Proof.
  intros Hu. induction n as [|n IH]; [unfold gam; cbn; lra|].
  rewrite gam_S, S_INR. cbn [pow].
  pose proof (pow_R1_Rle (1 + u) n ltac:(lra)) as Hp.
  pose proof (pos_INR n) as Hn.
  assert (H1 : (1 + u) * gam u n <= (1 + u) * (INR n * u * (1 + u) ^ n)) by (apply Rmult_le_compat_l; lra).
  assert (H2 : u <= u * ((1 + u) * (1 + u) ^ n)) by nra.
  nra.
Qed.

Section RealFold.
  Variable u : R.
  Hypothesis u_nonneg : 0 <= u.
  Variable Fmt : R -> Prop.                       (* the format *)
  Variable rnd : R -> R.                          (* rounding *)
  Hypothesis rnd_fmt : forall x, Fmt (rnd x).
  (* standard model of floating-point ADDITION (no underflow term: holds in FLT for sums of two floats) *)
  Hypothesis rnd_add_err : forall a b, Fmt a -> Fmt b -> Rabs (rnd (a + b) - (a + b)) <= u * Rabs (a + b).

  Definition rfold (s : R) (ys : list R) : R := fold_left (fun s y => rnd (s + y)) ys s.

  Lemma rfold_app s l1 l2 : rfold s (l1 ++ l2) = rfold (rfold s l1) l2.
  Proof. unfold rfold. apply fold_left_app. Qed.

  Lemma rfold_fmt s ys : Fmt s -> Fmt (rfold s ys).
  Proof.
    revert s; induction ys as [|y ys IH]; intros s Hs; [exact Hs|]. cbn [rfold fold_left]. apply IH, rnd_fmt.
  Qed.

  (* the a-priori bound (Higham, Accuracy and Stability, (4.4)): n additions, starting from s *)
  Theorem rfold_error s ys :
    Fmt s -> Forall Fmt ys ->
    Rabs (rfold s ys - (s + sumR ys)) <= gam u (length ys) * (Rabs s + sumabs ys).
  Proof.
    revert s; induction ys as [|y ys IH]; intros s Hs Hys.
    - cbn [rfold fold_left sumR fold_right length]. unfold gam. cbn [pow].
      replace (s - (s + 0)) with 0 by ring. rewrite Rabs_R0. lra.
    - inversion Hys as [|? ? Hy Hys']; subst.
      cbn [rfold fold_left length]. fold (rfold (rnd (s + y)) ys).
      specialize (IH (rnd (s + y)) (rnd_fmt _) Hys').
      pose proof (rnd_add_err s y Hs Hy) as Hd.
      set (s1 := rnd (s + y)) in *.
      rewrite sumR_cons, sumabs_cons, gam_S.
      pose proof (gam_nonneg u (length ys) u_nonneg) as Hg.
      pose proof (sumabs_nonneg ys) as Hsa.
      set (g := gam u (length ys)) in *. set (sa := sumabs ys) in *. set (P := Rabs s + Rabs y).
      (* the step loses at most u P and leaves |s1| <= (1+u) P *)
      assert (Hd' : Rabs (s1 - (s + y)) <= u * P).
      { eapply Rle_trans; [exact Hd|]. apply Rmult_le_compat_l; [exact u_nonneg|apply Rabs_triang]. }
      assert (Hs1 : Rabs s1 <= (1 + u) * P).
      { replace s1 with ((s1 - (s + y)) + (s + y)) by ring.
        eapply Rle_trans; [apply Rabs_triang|]. pose proof (Rabs_triang s y). unfold P in *. lra. }
      replace (rfold s1 ys - (s + (y + sumR ys)))
        with ((rfold s1 ys - (s1 + sumR ys)) + (s1 - (s + y))) by ring.
      eapply Rle_trans; [apply Rabs_triang|].
      assert (H3 : g * (Rabs s1 + sa) <= g * ((1 + u) * P + sa)) by (apply Rmult_le_compat_l; lra).
      assert (H4 : 0 <= u * (g * sa + sa)) by (apply Rmult_le_pos; [exact u_nonneg|]; pose proof (Rmult_le_pos g sa Hg Hsa); lra).
      replace (((1 + u) * g + u) * (Rabs s + (Rabs y + sa)))
        with (g * ((1 + u) * P + sa) + u * P + u * (g * sa + sa)) by (unfold P; ring).
      lra.
  Qed.

  (* the running (a-posteriori) bound: every step loses at most u' times the magnitude of the value it
     produces, so the drift is at most (number of operations) * u' * (largest accumulator value) *)
  Variable u' : R.
  Hypothesis u'_nonneg : 0 <= u'.
  Hypothesis rnd_add_err' : forall a b, Fmt a -> Fmt b -> Rabs (rnd (a + b) - (a + b)) <= u' * Rabs (rnd (a + b)).

  (* all accumulator values produced by the fold *)
  Fixpoint rpartials (s : R) (ys : list R) : list R :=
    match ys with [] => [] | y :: r => rnd (s + y) :: rpartials (rnd (s + y)) r end.

  Theorem rfold_error_running s ys M :
    Fmt s -> Forall Fmt ys -> Forall (fun p => Rabs p <= M) (rpartials s ys) ->
    Rabs (rfold s ys - (s + sumR ys)) <= INR (length ys) * u' * M.
  Proof.
    revert s; induction ys as [|y ys IH]; intros s Hs Hys HM.
    - cbn [rfold fold_left sumR fold_right length INR]. replace (s - (s + 0)) with 0 by ring.
      rewrite Rabs_R0. lra.
    - inversion Hys as [|? ? Hy Hys']; subst. cbn [rpartials] in HM.
      inversion HM as [|? ? HM1 HM']; subst.
      cbn [rfold fold_left]. fold (rfold (rnd (s + y)) ys).
      specialize (IH (rnd (s + y)) (rnd_fmt _) Hys' HM').
      pose proof (rnd_add_err' s y Hs Hy) as Hd.
      set (s1 := rnd (s + y)) in *.
      change (length (y :: ys)) with (S (length ys)). rewrite S_INR, sumR_cons.
      replace (rfold s1 ys - (s + (y + sumR ys)))
        with ((rfold s1 ys - (s1 + sumR ys)) + (s1 - (s + y))) by ring.
      eapply Rle_trans; [apply Rabs_triang|].
      assert (u' * Rabs s1 <= u' * M) by (apply Rmult_le_compat_l; lra).
      lra.
  Qed.

  (* exactness: when every exact partial sum is representable, nothing is ever rounded *)
  Hypothesis rnd_id : forall x, Fmt x -> rnd x = x.
  Fixpoint xpartials (s : R) (ys : list R) : list R :=
    match ys with [] => [] | y :: r => (s + y) :: xpartials (s + y) r end.
  Theorem rfold_exact s ys :
    Forall Fmt (xpartials s ys) -> rfold s ys = s + sumR ys.
  Proof.
    revert s; induction ys as [|y ys IH]; intros s H.
    - cbn. ring.
    - cbn [xpartials] in H. inversion H as [|? ? H1 H2]; subst.
      cbn [rfold fold_left]. rewrite (rnd_id _ H1). fold (rfold (s + y) ys).
      rewrite (IH _ H2), sumR_cons. ring.
  Qed.
End RealFold.

Module FP := Flocq.IEEE754.PrimFloat.
Module CF := Coq.Floats.PrimFloat.
Notation float := CF.float (only parsing).

Definition fmt64 : R -> Prop := generic_format radix2 (FLT_exp (-1074) 53).
Definition rnd64 (x : R) : R := round radix2 (FLT_exp (-1074) 53) ZnearestE x.
Definition u64 : R := bpow radix2 (-53).                     (* unit roundoff 2^-53 *)
Definition f2r (x : float) : R := B2R (FP.Prim2B x).          (* real value of a finite float (0 otherwise) *)
Definition ffin (x : float) : bool := CF.is_finite x.

Local Instance prec64_gt_0 : Prec_gt_0 53 := eq_refl _.

Lemma u64_is_u_ro : u64 = u_ro radix2 53.
Proof.
  change u64 with (/ 9007199254740992). change (u_ro radix2 53) with (/ 2 * / 4503599627370496). lra.
Qed.
Lemma u64_value : u64 = / 9007199254740992.
Proof. reflexivity. Qed.
Lemma u64_nonneg : 0 <= u64.
Proof. apply bpow_ge_0. Qed.
(* Flocq states its relative bounds with u/(1+u) *)
Lemma u_ro_frac_le_u64 : u_ro radix2 53 / (1 + u_ro radix2 53) <= u64.
Proof.
  rewrite u64_is_u_ro. pose proof (u_ro_pos radix2 53) as Hu.
  apply Rle_trans with (u_ro radix2 53 / 1); [|lra].
  unfold Rdiv. apply Rmult_le_compat_l; [exact Hu|]. apply Rinv_le_contravar; lra.
Qed.

Lemma fmt64_0 : fmt64 0. Proof. apply generic_format_0. Qed.
Lemma fmt64_f2r x : fmt64 (f2r x).
Proof. unfold fmt64, f2r. apply (generic_format_B2R 53 1024). Qed.
Lemma fmt64_rnd x : fmt64 (rnd64 x).
Proof. apply generic_format_round; [apply FLT_exp_valid; exact prec64_gt_0|apply valid_rnd_N]. Qed.
Lemma fmt64_opp x : fmt64 x -> fmt64 (- x).
Proof. apply generic_format_opp. Qed.
Lemma rnd64_id x : fmt64 x -> rnd64 x = x.
Proof. intros H. apply round_generic; [apply valid_rnd_N|exact H]. Qed.

(* the standard model for the SUM of two binary64 numbers: no underflow term *)
Lemma rnd64_add_err a b : fmt64 a -> fmt64 b -> Rabs (rnd64 (a + b) - (a + b)) <= u64 * Rabs (a + b).
Proof.
  intros Ha Hb.
  destruct (FLT_plus_error_N_ex radix2 (-1074) 53 (fun z => negb (Z.even z)) a b Ha Hb) as (eps & He & Hr).
  unfold rnd64. change ZnearestE with (Znearest (fun z => negb (Z.even z))). rewrite Hr.
  replace ((a + b) * (1 + eps) - (a + b)) with ((a + b) * eps) by ring.
  rewrite Rabs_mult, Rmult_comm. apply Rmult_le_compat_r; [apply Rabs_pos|].
  exact (Rle_trans _ _ _ He u_ro_frac_le_u64).
Qed.
(* the same error relative to the ROUNDED sum *)
Lemma rnd64_add_err' a b : fmt64 a -> fmt64 b -> Rabs (rnd64 (a + b) - (a + b)) <= u64 * Rabs (rnd64 (a + b)).
Proof.
  intros Ha Hb.
  destruct (FLT_plus_error_N_round_ex radix2 (-1074) 53 (fun z => negb (Z.even z)) a b Ha Hb) as (eps & He & Hr).
  fold (rnd64 (a + b)) in Hr. change (Znearest (fun z => negb (Z.even z))) with ZnearestE in Hr.
  fold (rnd64 (a + b)) in Hr.
  set (r := rnd64 (a + b)) in *. rewrite Hr.
  replace (r - r * (1 + eps)) with (- (r * eps)) by ring.
  rewrite Rabs_Ropp, Rabs_mult, Rmult_comm. apply Rmult_le_compat_r; [apply Rabs_pos|].
  rewrite u64_is_u_ro. exact He.
Qed.

Lemma ffin_equiv x : ffin x = is_finite (FP.Prim2B x).
Proof. apply FP.is_finite_equiv. Qed.

(* a non-finite operand never gives a finite sum *)
Lemma add_finite_inv x y : ffin (x + y)%float = true -> ffin x = true /\ ffin y = true.
Proof.
  rewrite !ffin_equiv, FP.add_equiv.
  destruct (FP.Prim2B x) as [sx|sx| |sx mx ex Hx], (FP.Prim2B y) as [sy|sy| |sy my ey Hy];
    cbn [Bplus is_finite]; try (intros; split; reflexivity); try discriminate.
  destruct (Bool.eqb sx sy); discriminate.
Qed.

(* the overflow branch of Flocq's `B*_correct` (round to nearest: an infinity) contradicts a finite result *)
Lemma overflow_not_finite (z : binary_float FloatOps.prec FloatOps.emax) s :
  B2SF z = binary_overflow FloatOps.prec FloatOps.emax mode_NE s -> is_finite z = false.
Proof. destruct z; try reflexivity; discriminate. Qed.

(* a finite sum is the correctly rounded exact sum *)
Lemma add_finite_val x y : ffin (x + y)%float = true -> f2r (x + y)%float = rnd64 (f2r x + f2r y).
Proof.
  intros Hf. destruct (add_finite_inv x y Hf) as [Hx Hy].
  rewrite ffin_equiv in Hf, Hx, Hy. unfold f2r. rewrite FP.add_equiv in *.
  pose proof (Bplus_correct FloatOps.prec FloatOps.emax FP.Hprec FP.Hmax mode_NE (FP.Prim2B x) (FP.Prim2B y) Hx Hy) as HC.
  destruct (Rlt_bool _ _) in HC; destruct HC as (HC & _); [exact HC|].
  rewrite (overflow_not_finite _ _ HC) in Hf. discriminate.
Qed.

(* an exactly representable sum below the overflow threshold is computed exactly and is finite *)
Lemma add_exact x y :
  ffin x = true -> ffin y = true -> fmt64 (f2r x + f2r y) -> Rabs (f2r x + f2r y) < bpow radix2 1024 ->
  ffin (x + y)%float = true /\ f2r (x + y)%float = f2r x + f2r y.
Proof.
  intros Hx Hy HF HB. rewrite ffin_equiv in *. unfold f2r in *. rewrite FP.add_equiv.
  pose proof (Bplus_correct FloatOps.prec FloatOps.emax FP.Hprec FP.Hmax mode_NE (FP.Prim2B x) (FP.Prim2B y) Hx Hy) as HC.
  match type of HC with context [round ?a ?b ?c ?d] =>
    assert (Hr : round a b c d = d) by exact (rnd64_id _ HF); rewrite Hr in HC end.
  rewrite Rlt_bool_true in HC by exact HB.
  destruct HC as (H1 & H2 & _). split; assumption.
Qed.

Lemma sub_is_add_opp x y : (x - y)%float = (x + - y)%float.
Proof.
  apply FP.Prim2B_inj. rewrite FP.sub_equiv, FP.add_equiv, FP.opp_equiv.
  destruct (FP.Prim2B x), (FP.Prim2B y); reflexivity.
Qed.
Lemma f2r_opp x : f2r (- x)%float = - f2r x.
Proof. unfold f2r. rewrite FP.opp_equiv. apply B2R_Bopp. Qed.
Lemma ffin_opp x : ffin (- x)%float = ffin x.
Proof. rewrite !ffin_equiv, FP.opp_equiv. apply is_finite_Bopp. Qed.
Lemma f2r_zero : f2r zero = 0.
Proof. unfold f2r. rewrite FP.zero_equiv, FP.Prim2B_B2Prim. reflexivity. Qed.
Lemma ffin_zero : ffin zero = true.
Proof. reflexivity. Qed.

(* ---- the float fold  s := s + y ------------------------------------------------------------------- *)
Definition ffold (s : float) (ys : list float) : float := fold_left CF.add ys s.
Notation rfold64 := (rfold rnd64).

Lemma ffold_app s l1 l2 : ffold s (l1 ++ l2) = ffold (ffold s l1) l2.
Proof. unfold ffold. apply fold_left_app. Qed.

Lemma ffold_finite_inv s ys :
  ffin (ffold s ys) = true -> ffin s = true /\ Forall (fun y => ffin y = true) ys.
Proof.
  revert s; induction ys as [|y ys IH]; intros s H; [split; [exact H|constructor]|].
  cbn [ffold fold_left] in H. destruct (IH _ H) as [H1 H2]. destruct (add_finite_inv _ _ H1) as [Hs Hy].
  split; [exact Hs|constructor; assumption].
Qed.

Lemma ffold_real s ys :
  ffin (ffold s ys) = true -> f2r (ffold s ys) = rfold64 (f2r s) (map f2r ys).
Proof.
  revert s; induction ys as [|y ys IH]; intros s H; [reflexivity|].
  cbn [ffold fold_left map rfold] in *. fold (ffold (s + y)%float ys) in *.
  rewrite (IH _ H). destruct (ffold_finite_inv _ _ H) as [H1 _]. rewrite (add_finite_val _ _ H1). reflexivity.
Qed.

Lemma Forall_fmt64_map ys : Forall fmt64 (map f2r ys).
Proof. induction ys; constructor; [apply fmt64_f2r|assumption]. Qed.

(* round_sum_fold: s_0 = 0, s_{k+1} = fl(s_k + x_k); premise: the computed result is finite *)
Theorem round_sum_fold ys :
  ffin (ffold zero ys) = true ->
  Rabs (f2r (ffold zero ys) - sumR (map f2r ys)) <= gam u64 (length ys) * sumabs (map f2r ys).
Proof.
  intros H. rewrite (ffold_real _ _ H), f2r_zero.
  pose proof (rfold_error u64 u64_nonneg fmt64 rnd64 fmt64_rnd rnd64_add_err 0 (map f2r ys) fmt64_0
                          (Forall_fmt64_map ys)) as HE.
  rewrite map_length, Rabs_R0, !Rplus_0_l in HE. exact HE.
Qed.

(* explicit constant n u (1+u)^n *)
Corollary round_sum_fold_linear ys :
  ffin (ffold zero ys) = true ->
  Rabs (f2r (ffold zero ys) - sumR (map f2r ys))
  <= INR (length ys) * u64 * (1 + u64) ^ length ys * sumabs (map f2r ys).
Proof.
  intros H. eapply Rle_trans; [apply round_sum_fold, H|].
  apply Rmult_le_compat_r; [apply sumabs_nonneg|apply gam_le_linear, u64_nonneg].
Qed.

(* (3) the one-pass sum `vsum` of Model/Agg.v at the execution instance (NumF64, NaN = null) *)
(* the valid (non-NaN) elements of a float series, and their real values *)
Definition fvals (xs : list float) : list float := vals (DT := IsNoneF64) xs.
Definition rvals64 (xs : list float) : list R := map f2r (fvals xs).

(* float -> option R: NaN is the null; (an infinity has no real value — it never occurs under a finite sum) *)
Definition fx (x : float) : XR := if CF.is_nan x then None else Some (f2r x).

Lemma vsum_f64_fold xs :
  vsum (NA := NumF64) (DT := IsNoneF64) xs
  = if 1 <=? length (fvals xs) then Some (ffold zero (fvals xs)) else None.
Proof. unfold vsum. rewrite vfold_n_spec. reflexivity. Qed.

(* C11: |vsum_float xs - sum of the valid elements| <= ((1+u)^n - 1) * sum |valid elements|,  n = number of valid
   elements, u = 2^-53; the only premise is that the computed sum is finite *)
Theorem vsum_binary64_error xs r :
  vsum (NA := NumF64) (DT := IsNoneF64) xs = Some r -> ffin r = true ->
  Rabs (f2r r - sumR (rvals64 xs)) <= gam u64 (length (rvals64 xs)) * sumabs (rvals64 xs).
Proof.
  rewrite vsum_f64_fold. destruct (1 <=? length (fvals xs)); [|discriminate].
  intros [= <-] Hf. unfold rvals64. rewrite map_length. apply round_sum_fold, Hf.
Qed.

Corollary vsum_binary64_error_linear xs r :
  vsum (NA := NumF64) (DT := IsNoneF64) xs = Some r -> ffin r = true ->
  Rabs (f2r r - sumR (rvals64 xs))
  <= INR (length (rvals64 xs)) * u64 * (1 + u64) ^ length (rvals64 xs) * sumabs (rvals64 xs).
Proof.
  intros H Hf. eapply Rle_trans; [apply (vsum_binary64_error xs r H Hf)|].
  apply Rmult_le_compat_r; [apply sumabs_nonneg|apply gam_le_linear, u64_nonneg].
Qed.

(* a finite result certifies that every valid element was finite (no infinity was absorbed) *)
Lemma vsum_finite_inputs xs r :
  vsum (NA := NumF64) (DT := IsNoneF64) xs = Some r -> ffin r = true ->
  Forall (fun y => ffin y = true) (fvals xs).
Proof.
  rewrite vsum_f64_fold. destruct (1 <=? length (fvals xs)); [|discriminate].
  intros [= <-] Hf. apply (ffold_finite_inv _ _ Hf).
Qed.

(* the exact model (option R) on the same series: its sum is the exact sum of the valid elements *)
Lemma fold_xadd_some (l : list R) (a : R) :
  fold_left (fun acc x => nadd acc x) (map Some l) (Some a) = Some (a + sumR l).
Proof.
  revert a; induction l as [|x l IH]; intros a; cbn [map fold_left]; [f_equal; cbn; ring|].
  rewrite xadd_some, IH, sumR_cons. f_equal. ring.
Qed.
Lemma not_none_f64 (x : float) : not_none (H := IsNoneF64) x = negb (CF.is_nan x).
Proof. reflexivity. Qed.
Lemma not_none_fx (x : float) : not_none (H := IsNoneXR) (fx x) = negb (CF.is_nan x).
Proof. unfold fx. destruct (CF.is_nan x); reflexivity. Qed.
Lemma vals_map_fx xs : vals (DT := IsNoneXR) (map fx xs) = map Some (rvals64 xs).
Proof.
  unfold rvals64, fvals. induction xs as [|x xs IH]; [reflexivity|]. cbn [map].
  rewrite !vals_cons, not_none_fx, not_none_f64. destruct (CF.is_nan x) eqn:E; cbn [negb]; [exact IH|].
  cbn [map]. rewrite IH. f_equal. unfold fx. rewrite E. reflexivity.
Qed.
Lemma vsum_XR_of_float xs :
  vsum (NA := NumXR) (DT := IsNoneXR) (map fx xs)
  = if 1 <=? length (rvals64 xs) then Some (Some (sumR (rvals64 xs))) else None.
Proof.
  unfold vsum. rewrite vfold_n_spec, vals_map_fx, map_length. cbn [fst snd].
  change (@nzero XR NumXR) with (Some 0). rewrite fold_xadd_some, Rplus_0_l. reflexivity.
Qed.

(* model(float) against model(option R): same nullness, values within the bound *)
Theorem vsum_float_vs_exact_model xs r :
  vsum (NA := NumF64) (DT := IsNoneF64) xs = Some r -> ffin r = true ->
  exists e, vsum (NA := NumXR) (DT := IsNoneXR) (map fx xs) = Some (Some e) /\
            Rabs (f2r r - e) <= gam u64 (length (rvals64 xs)) * sumabs (rvals64 xs).
Proof.
  intros H Hf. exists (sumR (rvals64 xs)). split; [|apply (vsum_binary64_error xs r H Hf)].
  rewrite vsum_XR_of_float. rewrite vsum_f64_fold in H. unfold rvals64. rewrite map_length.
  destruct (1 <=? length (fvals xs)); [reflexivity|discriminate].
Qed.

(* x is an integer multiple of 2^e *)
Definition grid (e : Z) (x : R) : Prop := exists m : Z, x = IZR m * bpow radix2 e.

Lemma grid_0 e : grid e 0. Proof. exists 0%Z. ring. Qed.
Lemma grid_plus e a b : grid e a -> grid e b -> grid e (a + b).
Proof. intros (m & ->) (n & ->). exists (m + n)%Z. rewrite plus_IZR. ring. Qed.
Lemma grid_opp e a : grid e a -> grid e (- a).
Proof. intros (m & ->). exists (- m)%Z. rewrite opp_IZR. ring. Qed.

(* a grid point of magnitude below 2^(e+53) is a binary64 number (e >= -1074) *)
Lemma grid_fmt e x : (-1074 <= e)%Z -> grid e x -> Rabs x < bpow radix2 (e + 53) -> fmt64 x.
Proof.
  intros He (m & ->) Hb. apply generic_format_FLT.
  apply (FLT_spec radix2 (-1074) 53 _ (Float radix2 m e)); [reflexivity| |exact He].
  cbn [Fnum]. apply lt_IZR. rewrite abs_IZR, IZR_Zpower by lia.
  rewrite Rabs_mult, (Rabs_pos_eq (bpow radix2 e)) in Hb by apply bpow_ge_0.
  rewrite bpow_plus, Rmult_comm in Hb. apply Rmult_lt_reg_l in Hb; [exact Hb|apply bpow_gt_0].
Qed.

Lemma ffin_not_nan x : ffin x = true -> CF.is_nan x = false.
Proof. unfold ffin, CF.is_finite. destruct (CF.is_nan x); [discriminate|reflexivity]. Qed.

Definition fgrid (e : Z) (y : float) : Prop := ffin y = true /\ grid e (f2r y).

Lemma ffold_exact_grid e s ys :
  (-1074 <= e <= 971)%Z -> fgrid e s -> Forall (fgrid e) ys ->
  Rabs (f2r s) + sumabs (map f2r ys) < bpow radix2 (e + 53) ->
  ffin (ffold s ys) = true /\ f2r (ffold s ys) = f2r s + sumR (map f2r ys).
Proof.
  intros He. revert s; induction ys as [|y ys IH]; intros s [Hs Gs] Hys Hb.
  - cbn [ffold fold_left map sumR fold_right]. split; [exact Hs|ring].
  - inversion Hys as [|? ? [Hy Gy] Hys']; subst.
    cbn [map] in Hb. rewrite sumabs_cons in Hb.
    pose proof (sumabs_nonneg (map f2r ys)) as Hsa. pose proof (Rabs_triang (f2r s) (f2r y)) as Ht.
    assert (Hlt : Rabs (f2r s + f2r y) < bpow radix2 (e + 53)) by lra.
    destruct (add_exact s y Hs Hy) as [Hf Hv].
    { apply (grid_fmt e); [lia|apply grid_plus; assumption|exact Hlt]. }
    { eapply Rlt_le_trans; [exact Hlt|]. apply bpow_le. lia. }
    cbn [ffold fold_left]. fold (ffold (s + y)%float ys).
    destruct (IH (s + y)%float) as [H1 H2].
    + split; [exact Hf|]. rewrite Hv. apply grid_plus; assumption.
    + exact Hys'.
    + rewrite Hv. lra.
    + split; [exact H1|]. rewrite H2, Hv. cbn [map]. rewrite sumR_cons. ring.
Qed.

(* on such inputs the float model and the exact model compute THE SAME sum *)
Theorem vsum_f64_exact_on_grid e xs :
  (-1074 <= e <= 971)%Z -> Forall (fgrid e) (fvals xs) -> sumabs (rvals64 xs) < bpow radix2 (e + 53) ->
  option_map fx (vsum (NA := NumF64) (DT := IsNoneF64) xs) = vsum (NA := NumXR) (DT := IsNoneXR) (map fx xs).
Proof.
  intros He HG Hb. rewrite vsum_f64_fold, vsum_XR_of_float. unfold rvals64 at 1. rewrite map_length.
  destruct (1 <=? length (fvals xs)); [|reflexivity]. cbn [option_map]. f_equal.
  destruct (ffold_exact_grid e zero (fvals xs) He) as [H1 H2].
  - split; [reflexivity|]. rewrite f2r_zero. apply grid_0.
  - exact HG.
  - rewrite f2r_zero, Rabs_R0, Rplus_0_l. exact Hb.
  - unfold fx. rewrite (ffin_not_nan _ H1), H2, f2r_zero, Rplus_0_l. reflexivity.
Qed.

(* (3) the rolling sum with removal: `ts_vsum_f` of Model/Features.v at NumF64 (add -> emit -> remove) *)
Lemma sumabs_perm l1 l2 : Permutation l1 l2 -> sumabs l1 = sumabs l2.
Proof. intros H. unfold sumabs. apply sumR_perm, Permutation_map, H. Qed.

Lemma firstn_seg_split {X} a b (xs : list X) : (a <= b)%nat -> firstn b xs = firstn a xs ++ seg a b xs.
Proof.
  revert b xs; induction a as [|a IH]; intros b xs Hab.
  - unfold seg. cbn [firstn skipn app]. rewrite Nat.sub_0_r. reflexivity.
  - destruct xs as [|x xs].
    + unfold seg. rewrite skipn_nil, !firstn_nil. reflexivity.
    + destruct b as [|b]; [lia|]. cbn [firstn app]. f_equal.
      change (seg (S a) (S b) (x :: xs)) with (seg a b xs). apply IH. lia.
Qed.

(* the signed operands of the accumulator: +v for a valid new element, then -r for a valid removed one *)
Definition addop (v : float) : list float := if not_none (H := IsNoneF64) v then [v] else [].
Definition ops_of (A : list (option float * float)) : list float :=
  flat_map (fun a => addop (snd a) ++
                     match fst a with Some r => map CF.opp (addop r) | None => [] end) A.

Lemma ops_of_app A B : ops_of (A ++ B) = ops_of A ++ ops_of B.
Proof. apply flat_map_app. Qed.
Lemma fvals_single v : fvals [v] = addop v.
Proof. unfold fvals, addop. rewrite vals_cons. destruct (not_none v); reflexivity. Qed.
Lemma fvals_app l1 l2 : fvals (l1 ++ l2) = fvals l1 ++ fvals l2.
Proof. apply vals_app. Qed.
Lemma rvals64_app l1 l2 : rvals64 (l1 ++ l2) = rvals64 l1 ++ rvals64 l2.
Proof. unfold rvals64. rewrite fvals_app, map_app. reflexivity. Qed.

Section RollingSum.
  Variable emit : @mom float -> float.
  Let F := mom_feat (NA := NumF64) (DT := IsNoneF64) emit.

  (* the first power sum of the state is the float fold over the operands, in program order *)
  Lemma s1_pre (s : @mom float) v : m_s1 (f_pre F s v) = ffold (m_s1 s) (addop v).
  Proof.
    cbn [F mom_feat f_pre]. unfold mom_pre, addop. destruct (not_none v); reflexivity.
  Qed.
  Lemma s1_post (s : @mom float) rm :
    m_s1 (f_post F s rm) = ffold (m_s1 s) (match rm with Some r => map CF.opp (addop r) | None => [] end).
  Proof.
    cbn [F mom_feat f_post]. unfold mom_post, addop. destruct rm as [r|]; [|reflexivity].
    destruct (not_none r); [|reflexivity]. cbn [map ffold fold_left mom_sub m_s1].
    apply sub_is_add_opp.
  Qed.
  Lemma s1_state_after (s : @mom float) A :
    m_s1 (state_after (feat_cb F) s A) = ffold (m_s1 s) (ops_of A).
  Proof.
    revert s; induction A as [|a A IH]; intros s; [reflexivity|].
    cbn [state_after]. rewrite IH. unfold feat_cb at 1. cbn [fst].
    change (ops_of (a :: A)) with ((addop (snd a) ++ match fst a with Some r => map CF.opp (addop r) | None => [] end)
                                   ++ ops_of A).
    rewrite !ffold_app, s1_post, s1_pre. reflexivity.
  Qed.
End RollingSum.

(* the callback arguments of a run, and the operands performed up to (and including) the add of step i *)
Definition rargs (w : nat) (xs : list float) : list (option float * float) :=
  mapi (fun i v => (removed w xs i, v)) xs.
Definition emit_ops (w : nat) (xs : list float) (i : nat) : list float :=
  ops_of (firstn i (rargs w xs)) ++ match nth_error xs i with Some v => addop v | None => [] end.

(* up to order, they are: every valid element of positions 0..i, and minus every valid element of the positions
   that have left the window, 0..i-w *)
Lemma ops_prefix_perm w xs k :
  (k <= length xs)%nat ->
  Permutation (ops_of (firstn k (rargs w xs)))
              (fvals (firstn k xs) ++ map CF.opp (fvals (firstn (k - (w - 1)) xs))).
Proof.
  induction k as [|k IH]; intros Hk; [reflexivity|].
  specialize (IH ltac:(lia)).
  destruct (nth_error xs k) as [v|] eqn:Hv; [|apply nth_error_None in Hv; lia].
  assert (Ha : nth_error (rargs w xs) k = Some (removed w xs k, v)).
  { unfold rargs. rewrite nth_error_mapi, Hv. reflexivity. }
  rewrite (firstn_S_nth _ _ _ Ha), ops_of_app, (firstn_S_nth _ _ _ Hv), fvals_app, fvals_single.
  unfold ops_of at 2. cbn [flat_map fst snd]. rewrite app_nil_r.
  set (X := match removed w xs k with Some r => map CF.opp (addop r) | None => [] end).
  assert (HX : map CF.opp (fvals (firstn (S k - (w - 1)) xs)) = map CF.opp (fvals (firstn (k - (w - 1)) xs)) ++ X).
  { unfold X, removed. destruct (k <? w - 1)%nat eqn:E.
    - apply Nat.ltb_lt in E. replace (S k - (w - 1))%nat with (k - (w - 1))%nat by lia. symmetry. apply app_nil_r.
    - apply Nat.ltb_ge in E.
      destruct (nth_error xs (k - (w - 1))) as [x|] eqn:Hx; [|apply nth_error_None in Hx; lia].
      replace (S k - (w - 1))%nat with (S (k - (w - 1))) by lia.
      rewrite (firstn_S_nth _ _ _ Hx), fvals_app, fvals_single, map_app. reflexivity. }
  rewrite HX. eapply Permutation_trans; [apply Permutation_app_tail, IH|].
  rewrite <- !app_assoc. apply Permutation_app_head.
  rewrite !app_assoc. apply Permutation_app_tail, Permutation_app_comm.
Qed.

Lemma emit_ops_perm w xs i :
  (1 <= w)%nat -> (i < length xs)%nat ->
  Permutation (emit_ops w xs i) (fvals (firstn (S i) xs) ++ map CF.opp (fvals (firstn (S i - w) xs))).
Proof.
  intros Hw Hi. unfold emit_ops.
  destruct (nth_error xs i) as [v|] eqn:Hv; [|apply nth_error_None in Hv; lia].
  rewrite (firstn_S_nth _ _ _ Hv), fvals_app, fvals_single.
  replace (S i - w)%nat with (i - (w - 1))%nat by lia.
  eapply Permutation_trans; [apply Permutation_app_tail, (ops_prefix_perm w xs i); lia|].
  rewrite <- !app_assoc. apply Permutation_app_head, Permutation_app_comm.
Qed.

Lemma map_f2r_opp l : map f2r (map CF.opp l) = map Ropp (map f2r l).
Proof. rewrite !map_map. apply map_ext. intros x. apply f2r_opp. Qed.
Lemma sumR_map_opp l : sumR (map Ropp l) = - sumR l.
Proof. induction l as [|a l IH]; [cbn; ring|]. cbn [map]. rewrite !sumR_cons, IH. ring. Qed.
Lemma sumabs_map_opp l : sumabs (map Ropp l) = sumabs l.
Proof. unfold sumabs. rewrite map_map. f_equal. apply map_ext. intros x. apply Rabs_Ropp. Qed.

(* number of additions / subtractions performed up to the emit of step i, and the magnitude they moved *)
Definition nops (w : nat) (xs : list float) (i : nat) : nat :=
  (length (fvals (firstn (S i) xs)) + length (fvals (firstn (S i - w) xs)))%nat.
Definition habs (w : nat) (xs : list float) (i : nat) : R :=
  sumabs (rvals64 (firstn (S i) xs)) + sumabs (rvals64 (firstn (S i - w) xs)).

Lemma emit_ops_length w xs i : (1 <= w)%nat -> (i < length xs)%nat -> length (emit_ops w xs i) = nops w xs i.
Proof.
  intros Hw Hi. rewrite (Permutation_length (emit_ops_perm w xs i Hw Hi)), app_length, map_length. reflexivity.
Qed.
Lemma emit_ops_sumabs w xs i :
  (1 <= w)%nat -> (i < length xs)%nat -> sumabs (map f2r (emit_ops w xs i)) = habs w xs i.
Proof.
  intros Hw Hi. rewrite (sumabs_perm _ _ (Permutation_map f2r (emit_ops_perm w xs i Hw Hi))).
  rewrite map_app, sumabs_app, map_f2r_opp, sumabs_map_opp. reflexivity.
Qed.
(* the exact value of the operand sum is the exact sum of the window: nothing of the history is left *)
Lemma emit_ops_sum w xs i :
  (1 <= w)%nat -> (i < length xs)%nat -> sumR (map f2r (emit_ops w xs i)) = sumR (rvals64 (win w i xs)).
Proof.
  intros Hw Hi. rewrite (sumR_perm (Permutation_map f2r (emit_ops_perm w xs i Hw Hi))).
  rewrite map_app, sumR_app, map_f2r_opp, sumR_map_opp.
  rewrite win_seg. unfold wstart.
  rewrite (firstn_seg_split (S i - w) (S i) xs) by lia.
  fold (rvals64 (firstn (S i - w) xs ++ seg (S i - w) (S i) xs)).
  rewrite rvals64_app, sumR_app. fold (rvals64 (firstn (S i - w) xs)). ring.
Qed.

Lemma ts_out_length {T St O} (F : feat T St O) body w xs : (1 <= w)%nat -> length (ts_out F body w xs) = length xs.
Proof. intros Hw. unfold ts_out. destruct (ts_run_total F w xs body Hw) as (out & -> & Hl). exact Hl. Qed.
Lemma ts_out_nth_lt {T St O} (F : feat T St O) body w xs i o :
  (1 <= w)%nat -> nth_error (ts_out F body w xs) i = Some o -> (i < length xs)%nat.
Proof. intros Hw Ho. rewrite <- (ts_out_length F body w xs Hw). apply nth_error_Some. rewrite Ho. discriminate. Qed.

Lemma ts_out_map_pointwise {T1 S1 O1 T2 S2 O2} (F1 : feat T1 S1 O1) (F2 : feat T2 S2 O2) (f : T1 -> T2) (g : O1 -> O2)
      body w xs :
  (1 <= w)%nat ->
  (forall i v, nth_error xs i = Some v ->
     option_map g (nth_error (ts_out F1 body w xs) i) = nth_error (ts_out F2 body w (map f xs)) i) ->
  map g (ts_out F1 body w xs) = ts_out F2 body w (map f xs).
Proof.
  intros Hw H. apply nth_error_ext. intros i. rewrite nth_error_map.
  destruct (nth_error xs i) as [v|] eqn:Hv; [exact (H i v Hv)|]. apply nth_error_None in Hv.
  rewrite (proj2 (nth_error_None (ts_out F1 body w xs) i)) by (rewrite ts_out_length; assumption).
  symmetry. apply nth_error_None. rewrite ts_out_length, map_length; assumption.
Qed.

(* the count field tracks the number of valid elements of the window (generic sliding invariant) *)
Definition cnt_abs (s : @mom float) (l : list float) : Prop := m_n s = length (fvals l).

Lemma cnt_abs_pre s l v : cnt_abs s l -> cnt_abs (mom_pre s v) (l ++ [v]).
Proof.
  unfold cnt_abs. intros H. rewrite fvals_app, fvals_single, app_length.
  unfold mom_pre, addop. destruct (not_none v); cbn [mom_add m_n length]; lia.
Qed.

Lemma cnt_state_after emit w xs k :
  (1 <= w)%nat -> (k <= length xs)%nat ->
  cnt_abs (state_after (feat_cb (mom_feat (NA := NumF64) (DT := IsNoneF64) emit)) mom0 (firstn k (rargs w xs)))
          (seg (k - (w - 1)) k xs).
Proof.
  intros Hw Hk.
  apply (state_after_abs (mom_feat (NA := NumF64) (DT := IsNoneF64) emit) cnt_abs); try assumption.
  - reflexivity.
  - exact cnt_abs_pre.
  - intros s x l H. unfold cnt_abs in *. change (x :: l) with ([x] ++ l) in H.
    rewrite fvals_app, fvals_single, app_length in H.
    cbn [mom_feat f_post]. unfold mom_post. unfold addop in H.
    destruct (not_none x); cbn [mom_sub m_n length] in *; lia.
  - reflexivity.
Qed.

(* the state behind output i of ANY moment feature: its first power sum is the float fold over the operands in
   program order, its count is the number of valid elements of the window *)
Lemma mom_emit_state (emit : @mom float -> float) w body xs i v :
  (1 <= w)%nat -> nth_error xs i = Some v ->
  exists s : @mom float,
    nth_error (ts_out (mom_feat (NA := NumF64) (DT := IsNoneF64) emit) body w xs) i = Some (emit s) /\
    m_s1 s = ffold zero (emit_ops w xs i) /\ m_n s = length (fvals (win w i xs)).
Proof.
  intros Hw Hv.
  assert (Hi : (i < length xs)%nat) by (apply nth_error_Some; rewrite Hv; discriminate).
  assert (Ha : nth_error (rargs w xs) i = Some (removed w xs i, v)).
  { unfold rargs. rewrite nth_error_mapi, Hv. reflexivity. }
  set (s0 := state_after (feat_cb (mom_feat (NA := NumF64) (DT := IsNoneF64) emit)) mom0 (firstn i (rargs w xs))).
  exists (mom_pre s0 v). split; [|split].
  - unfold ts_out. rewrite ts_run_iter by exact Hw. fold (rargs w xs).
    rewrite (@run_nth _ _ _ _ _ _ _ _ Ha). reflexivity.
  - unfold emit_ops. rewrite Hv, ffold_app.
    assert (Hs : m_s1 s0 = ffold zero (ops_of (firstn i (rargs w xs))))
      by exact (s1_state_after emit mom0 (firstn i (rargs w xs))).
    rewrite <- Hs. exact (s1_pre emit s0 v).
  - change (cnt_abs (mom_pre s0 v) (win w i xs)).
    rewrite win_seg. unfold wstart. replace (S i - w)%nat with (i - (w - 1))%nat by lia.
    rewrite (@seg_snoc _ (i - (w - 1)) i xs v) by (try lia; exact Hv).
    apply cnt_abs_pre, cnt_state_after; lia.
Qed.

Notation ts_vsum64 w mp := (ts_vsum_f (NA := NumF64) (DT := IsNoneF64) w mp).

(* the accumulator behind a finite output i *)
Lemma ts_vsum_output w mp body xs i o :
  (1 <= w)%nat -> nth_error (ts_out (ts_vsum64 w mp) body w xs) i = Some o ->
  ffin o = true -> (i < length xs)%nat /\ o = ffold zero (emit_ops w xs i).
Proof.
  intros Hw Ho Hf.
  pose proof (ts_out_nth_lt _ _ _ _ _ _ Hw Ho) as Hi. split; [exact Hi|].
  destruct (nth_error xs i) as [v|] eqn:Hv; [|apply nth_error_None in Hv; lia].
  destruct (mom_emit_state (emit_sum (mp_eff mp w 0)) w body xs i v Hw Hv) as (s & Hs & Hs1 & _).
  change (mom_feat (emit_sum (mp_eff mp w 0))) with (ts_vsum64 w mp) in Hs.
  rewrite Hs in Ho. injection Ho as <-. unfold emit_sum in *.
  destruct (mp_eff mp w 0 <=? m_n s); [exact Hs1|discriminate].
Qed.

(* after ANY history: the emitted accumulator differs from the exact window sum by at most
   ((1+u)^m - 1) * H,  m = number of additions and subtractions performed so far, H = the magnitude they moved *)
Theorem ts_vsum_binary64_error w mp body xs i o :
  (1 <= w)%nat -> nth_error (ts_out (ts_vsum64 w mp) body w xs) i = Some o -> ffin o = true ->
  Rabs (f2r o - sumR (rvals64 (win w i xs))) <= gam u64 (nops w xs i) * habs w xs i.
Proof.
  intros Hw Ho Hf. destruct (ts_vsum_output w mp body xs i o Hw Ho Hf) as [Hi ->].
  rewrite <- (emit_ops_sum w xs i Hw Hi), <- (emit_ops_length w xs i Hw Hi), <- (emit_ops_sumabs w xs i Hw Hi).
  apply round_sum_fold, Hf.
Qed.

(* the drift is bounded by the number of operations: at most 2i+1 of them, moving at most twice the history *)
Lemma length_fvals_le l : (length (fvals l) <= length l)%nat.
Proof.
  unfold fvals, vals, valid_elems. rewrite map_length.
  induction l as [|a l IH]; [apply le_n|]. cbn [filter length]. destruct (not_none a); cbn [length]; lia.
Qed.
Lemma nops_le w xs i : (1 <= w)%nat -> (nops w xs i <= 2 * i + 1)%nat.
Proof.
  intros Hw. unfold nops.
  pose proof (length_fvals_le (firstn (S i) xs)) as H1. pose proof (length_fvals_le (firstn (S i - w) xs)) as H2.
  rewrite firstn_length in H1, H2. lia.
Qed.
Lemma habs_le w xs i : habs w xs i <= 2 * sumabs (rvals64 (firstn (S i) xs)).
Proof.
  unfold habs. destruct (Nat.le_gt_cases (S i - w) (S i)) as [H|H]; [|lia].
  rewrite (firstn_seg_split (S i - w) (S i) xs H), rvals64_app, sumabs_app.
  pose proof (sumabs_nonneg (rvals64 (seg (S i - w) (S i) xs))). lra.
Qed.
Lemma habs_nonneg w xs i : 0 <= habs w xs i.
Proof.
  unfold habs. pose proof (sumabs_nonneg (rvals64 (firstn (S i) xs))).
  pose proof (sumabs_nonneg (rvals64 (firstn (S i - w) xs))). lra.
Qed.
Lemma drift_bound w xs i m n :
  (m <= n)%nat ->
  gam u64 m * habs w xs i <= INR n * u64 * (1 + u64) ^ n * (2 * sumabs (rvals64 (firstn (S i) xs))).
Proof.
  intros Hmn.
  pose proof (gam_nonneg u64 m u64_nonneg) as G0. pose proof (gam_mono u64 _ _ u64_nonneg Hmn) as G1.
  pose proof (gam_le_linear u64 n u64_nonneg) as G2.
  pose proof (habs_le w xs i) as H1. pose proof (habs_nonneg w xs i) as H0.
  apply Rmult_le_compat; lra.
Qed.

(* running form: (number of operations) * u * (largest accumulator value so far) *)
Fixpoint fpartials (s : float) (ys : list float) : list float :=
  match ys with [] => [] | y :: r => (s + y)%float :: fpartials (s + y)%float r end.
Lemma fpartials_real s ys :
  ffin (ffold s ys) = true -> map f2r (fpartials s ys) = rpartials rnd64 (f2r s) (map f2r ys).
Proof.
  revert s; induction ys as [|y ys IH]; intros s H; [reflexivity|].
  cbn [ffold fold_left] in H. fold (ffold (s + y)%float ys) in H.
  destruct (ffold_finite_inv _ _ H) as [H1 _].
  cbn [fpartials map rpartials]. rewrite <- (add_finite_val _ _ H1). f_equal. apply IH, H.
Qed.
(* every accumulator value the run has gone through up to the emit of step i *)
Definition accumulators (w : nat) (xs : list float) (i : nat) : list float := fpartials zero (emit_ops w xs i).

Theorem ts_vsum_binary64_error_running w mp body xs i o M :
  (1 <= w)%nat -> nth_error (ts_out (ts_vsum64 w mp) body w xs) i = Some o -> ffin o = true ->
  Forall (fun a => Rabs (f2r a) <= M) (accumulators w xs i) ->
  Rabs (f2r o - sumR (rvals64 (win w i xs))) <= INR (nops w xs i) * u64 * M.
Proof.
  intros Hw Ho Hf HM. destruct (ts_vsum_output w mp body xs i o Hw Ho Hf) as [Hi ->].
  rewrite <- (emit_ops_sum w xs i Hw Hi), <- (emit_ops_length w xs i Hw Hi).
  rewrite (ffold_real _ _ Hf), f2r_zero.
  pose proof (rfold_error_running fmt64 rnd64 fmt64_rnd u64 u64_nonneg rnd64_add_err' 0 (map f2r (emit_ops w xs i)) M
                fmt64_0 (Forall_fmt64_map _)) as HE.
  rewrite map_length, Rplus_0_l in HE. apply HE.
  rewrite <- f2r_zero, <- (fpartials_real _ _ Hf). unfold accumulators in HM.
  apply Forall_map. exact HM.
Qed.

(* ---- an executable test for "finite and an integer multiple of 2^e" -------------------------------- *)
Definition pow2 (e : Z) : R := bpow radix2 e.

Definition grid_check (e : Z) (x : float) : bool :=
  match Prim2SF x with
  | S754_zero _ => true
  | S754_finite _ m ex => if (e <=? ex)%Z then true else (Zpos m mod 2 ^ (e - ex) =? 0)%Z
  | _ => false
  end.

Lemma grid_check_ok e x : grid_check e x = true -> fgrid e x.
Proof.
  unfold grid_check, fgrid. rewrite ffin_equiv. unfold f2r. rewrite <- FP.B2SF_Prim2B.
  destruct (FP.Prim2B x) as [s|s| |s m ex Hb]; cbn [B2SF is_finite B2R]; try discriminate.
  - intros _. split; [reflexivity|apply grid_0].
  - intros H. split; [reflexivity|]. unfold F2R. cbn [Fnum Fexp].
    destruct (e <=? ex)%Z eqn:E.
    + apply Z.leb_le in E. exists (cond_Zopp s (Z.pos m) * 2 ^ (ex - e))%Z.
      rewrite mult_IZR, (IZR_Zpower radix2) by lia. rewrite Rmult_assoc, <- bpow_plus. do 2 f_equal. lia.
    + apply Z.leb_gt in E. apply Z.eqb_eq in H.
      assert (Hp : (0 < 2 ^ (e - ex))%Z) by (apply Z.pow_pos_nonneg; lia).
      pose proof (Z_div_mod_eq_full (Z.pos m) (2 ^ (e - ex))) as Hd. rewrite H, Z.add_0_r in Hd.
      exists (cond_Zopp s (Z.pos m / 2 ^ (e - ex)))%Z.
      replace (cond_Zopp s (Z.pos m)) with (cond_Zopp s (Z.pos m / 2 ^ (e - ex)) * 2 ^ (e - ex))%Z.
      * rewrite mult_IZR, (IZR_Zpower radix2) by lia. rewrite Rmult_assoc, <- bpow_plus. do 2 f_equal. lia.
      * rewrite Hd at 2. destruct s; cbn [cond_Zopp]; ring.
Qed.
Lemma grid_check_all e l : forallb (grid_check e) l = true -> Forall (fgrid e) l.
Proof. intros H. apply Forall_forall. intros x Hx. apply grid_check_ok. exact (proj1 (forallb_forall _ _) H x Hx). Qed.

(* ---- the rolling sum on a dyadic grid: model(float) = model(option R) ------------------------------ *)
Lemma valid_map_fx l : valid (map fx l) = rvals64 l.
Proof.
  unfold rvals64, fvals. induction l as [|x l IH]; [reflexivity|].
  cbn [map]. rewrite vals_cons, not_none_f64. change (valid (fx x :: map fx l)) with
    (match fx x with Some r => [r] | None => [] end ++ valid (map fx l)).
  rewrite IH. unfold fx. destruct (CF.is_nan x); reflexivity.
Qed.

Lemma Forall_fgrid_prefix e xs k : Forall (fgrid e) (fvals xs) -> Forall (fgrid e) (fvals (firstn k xs)).
Proof.
  intros H. rewrite <- (firstn_skipn k xs), fvals_app in H. apply Forall_app in H. exact (proj1 H).
Qed.
Lemma fgrid_opp e x : fgrid e x -> fgrid e (- x)%float.
Proof. intros [H1 H2]. split; [rewrite ffin_opp; exact H1|rewrite f2r_opp; apply grid_opp, H2]. Qed.
Lemma sumabs_prefix_le xs k : sumabs (rvals64 (firstn k xs)) <= sumabs (rvals64 xs).
Proof.
  rewrite <- (firstn_skipn k xs) at 2. rewrite rvals64_app, sumabs_app.
  pose proof (sumabs_nonneg (rvals64 (skipn k xs))). lra.
Qed.

Theorem ts_vsum_f64_exact_on_grid e w mp body xs :
  (1 <= w)%nat -> (-1074 <= e <= 971)%Z ->
  Forall (fgrid e) (fvals xs) -> 2 * sumabs (rvals64 xs) < pow2 (e + 53) ->
  map fx (ts_out (ts_vsum64 w mp) body w xs)
  = ts_out (ts_vsum_f (NA := NumXR) (DT := IsNoneXR) w mp) body w (map fx xs).
Proof.
  intros Hw He HG Hb. apply ts_out_map_pointwise; [exact Hw|]. intros i v Hv.
  assert (Hi : (i < length xs)%nat) by (apply nth_error_Some; rewrite Hv; discriminate).
  destruct (mom_emit_state (emit_sum (mp_eff mp w 0)) w body xs i v Hw Hv) as (s & Ho & Hs1 & Hn).
  change (mom_feat (emit_sum (mp_eff mp w 0))) with (ts_vsum64 w mp) in Ho. rewrite Ho. cbn [option_map].
  destruct (mom_entry (emit_sum (mp_eff mp w 0))
              (fun V => if mp_eff mp w 0 <=? length V then Some (sumR V) else None) body w (map fx xs) Hw)
    as (outx & Hrun & _ & Hout).
  { intros sX W HA. apply emit_sum_spec. exact HA. }
  unfold ts_out. change (ts_vsum_f (NA := NumXR) (DT := IsNoneXR) w mp) with (mom_feat (NA := NumXR) (DT := IsNoneXR) (emit_sum (mp_eff mp w 0))).
  rewrite Hrun, Hout by (rewrite map_length; exact Hi). f_equal.
  rewrite win_map, valid_map_fx. unfold rvals64 at 1. rewrite map_length.
  unfold emit_sum. rewrite Hn. destruct (mp_eff mp w 0 <=? length (fvals (win w i xs))); [|reflexivity].
  destruct (ffold_exact_grid e zero (emit_ops w xs i) He) as [H1 H2].
  - split; [reflexivity|]. rewrite f2r_zero. apply grid_0.
  - apply (Permutation_Forall (Permutation_sym (emit_ops_perm w xs i Hw Hi))).
    apply Forall_app. split; [apply Forall_fgrid_prefix, HG|].
    apply Forall_map. eapply Forall_impl; [intros a; apply fgrid_opp|]. apply Forall_fgrid_prefix, HG.
  - rewrite f2r_zero, Rabs_R0, Rplus_0_l, (emit_ops_sumabs w xs i Hw Hi).
    pose proof (habs_le w xs i). pose proof (sumabs_prefix_le xs (S i)). unfold pow2 in Hb. lra.
  - rewrite Hs1. unfold fx. rewrite (ffin_not_nan _ H1), H2, f2r_zero, Rplus_0_l.
    rewrite (emit_ops_sum w xs i Hw Hi). reflexivity.
Qed.
