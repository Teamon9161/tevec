(* Proofs/NoLookahead.v — C06: prefix laws and window-only dependence beyond the generic feature
   theorem of Proofs/Generic.v.                                                                  *)
From Coq Require Import Lia List.
From Tevec Require Import Base.Prelude Base.Num Model.Driver Proofs.Driver Model.Features Proofs.Generic.
Import ListNotations.

(* ---- slice forms (rolling_custom, e.g. fdiff): both bodies, any stateful callback -------------- *)

Lemma windows_firstn {T} w k (xs : list T) : windows w (firstn k xs) = firstn k (windows w xs).
Proof.
  unfold windows. apply nth_error_ext. intros i.
  rewrite nth_error_firstn, !nth_error_map, !nth_error_seq, firstn_length.
  destruct (i <? k) eqn:Ek.
  - apply Nat.ltb_lt in Ek. destruct (i <? length xs) eqn:El.
    + apply Nat.ltb_lt in El. replace (i <? Nat.min k (length xs)) with true by (symmetry; apply Nat.ltb_lt; lia).
      cbn. f_equal. apply win_firstn. exact Ek.
    + apply Nat.ltb_ge in El. replace (i <? Nat.min k (length xs)) with false by (symmetry; apply Nat.ltb_ge; lia).
      reflexivity.
  - apply Nat.ltb_ge in Ek. replace (i <? Nat.min k (length xs)) with false by (symmetry; apply Nat.ltb_ge; lia).
    reflexivity.
Qed.

Definition custom_out {T St O} (body : bool) (w : nat) (f : St -> list T -> St * O) (s0 : St) (xs : list T) : list O :=
  match (if body then rolling_custom_to w f s0 xs else rolling_custom_default w f s0 xs) with
  | Done l => l | _ => [] end.

Theorem custom_out_prefix {T St O} body (w : nat) (f : St -> list T -> St * O) s0 (xs : list T) k :
  1 <= w -> custom_out body w f s0 (firstn k xs) = firstn k (custom_out body w f s0 xs).
Proof.
  intros Hw. unfold custom_out. destruct body.
  - rewrite !rolling_custom_to_eq by exact Hw. rewrite windows_firstn. apply run_firstn.
  - rewrite !rolling_custom_default_eq by exact Hw. rewrite windows_firstn. apply run_firstn.
Qed.

(* output i of `out` is a function of window i alone: two series of any lengths and histories whose windows at
   positions i and j coincide give the same value there *)
Definition window_only_at {T O} (w : nat) (out : list T -> list O) : Prop :=
  forall (xs ys : list T) (i j : nat),
    1 <= w -> i < length xs -> j < length ys -> win w i xs = win w j ys ->
    nth_error (out xs) i = nth_error (out ys) j.

(* a stateless slice callback (fdiff) *)
Theorem custom_window_only {T O} body (w : nat) (g : list T -> O) :
  window_only_at w (custom_out body w (fun (u : unit) l => (u, g l)) tt).
Proof.
  intros xs ys i j Hw Hi Hj Hwin.
  assert (Hrun : forall zs, custom_out body w (fun (u : unit) l => (u, g l)) tt zs = map g (windows w zs)).
  { intros zs. unfold custom_out. destruct body.
    - rewrite rolling_custom_to_eq by exact Hw.
      induction (windows w zs) as [|a r IH]; [reflexivity|]. cbn. f_equal. exact IH.
    - rewrite rolling_custom_default_eq by exact Hw.
      induction (windows w zs) as [|a r IH]; [reflexivity|]. cbn. f_equal. exact IH. }
  rewrite !Hrun. unfold windows. rewrite !map_map, !nth_error_map, !nth_error_seq.
  replace (i <? length xs) with true by (symmetry; apply Nat.ltb_lt; exact Hi).
  replace (j <? length ys) with true by (symmetry; apply Nat.ltb_lt; exact Hj).
  cbn [option_map plus]. rewrite Hwin. reflexivity.
Qed.

(* ---- two-series features: the prefix of the zipped series is the zip of the prefixes ------------ *)
Theorem two_series_prefix {T1 T2 St O} (F : feat (T1 * T2) St O) body (w : nat) (xs : list T1) (ys : list T2) k :
  1 <= w ->
  ts_out F body w (combine (firstn k xs) (firstn k ys)) = firstn k (ts_out F body w (combine xs ys)).
Proof. intros Hw. rewrite <- combine_firstn. apply ts_out_prefix. exact Hw. Qed.
