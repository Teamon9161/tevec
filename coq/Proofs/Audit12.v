(* Proofs/Audit12.v — C12: the clauses of the property that need NO law of the carrier; the option R proofs
   (Quantile.v, Partition.v, Rank.v) and C08 (RankTransparent.v, TransPartition.v) build on them.
   Every numeric class instance `Num A` (binary64, integers, option R, ...), every null dictionary
   `IsNone T A` (NaN-as-null floats, Option<_>, never-null integers); no order law, no axiom.

   * vpartition: ALWAYS kth + 1 entries (every kth, also kth >= len; both sort flags; both directions);
     the entries are non-null elements of the series (a sub-multiset of size min (kth+1) n) followed by
     nulls only; what happens when `T::none()` panics (integer element types).
   * varg_partition: ALWAYS kth + 1 entries: distinct in-range positions of NON-NULL elements
     (min (kth+1) n of them) followed by -1 only — never the position of a null.
   * vquantile: the decomposition of the result into two non-null ELEMENTS OF THE SERIES vi, vj
     (lower / higher / the exact-index case return one of them), given the index facts of the carrier
     (proved at binary64 in Proofs/QIdxFloat.v and at option R).
   * vpercentile_of: the three counters are the numbers of non-null elements below / equal to / in
     total, and the result is the documented proportion of them, in the carrier's arithmetic.
   * vrank: the writes of the loop keep the length of the output buffer (the length of the result is
     Props.C12.C12_rank_length_any_carrier).                                                         *)
From Coq Require Import List Bool Arith Lia ZArith Permutation.
From Tevec Require Import Base.Prelude Base.Num Model.SortCmp Model.Quantile Model.Partition
     Model.Rank Proofs.SortCmp Proofs.TransQuantile.
Import ListNotations.

Lemma Forall_perm {X} (P : X -> Prop) (l1 l2 : list X) : Permutation l1 l2 -> Forall P l1 -> Forall P l2.
Proof. intros HP. apply Permutation_Forall. exact HP. Qed.

Lemma pad_take_short {X} k1 (pad : X) l :
  (length l <= k1)%nat -> pad_take k1 pad l = l ++ repeat pad (k1 - length l).
Proof.
  intros H. unfold pad_take. rewrite firstn_app, firstn_all2 by exact H. f_equal.
  rewrite firstn_repeat. f_equal. lia.
Qed.

(* comparator on optional values: the closure of the argsorts reads the series through nth_error *)
Definition ocmp {X} (cmp : X -> X -> comparison) (a b : option X) : comparison :=
  match a, b with Some va, Some vb => cmp va vb | _, _ => Eq end.

Lemma cmp_idx_ocmp {X} (cmp : X -> X -> comparison) (xs : list X) :
  cmp_idx cmp xs = fun a b => ocmp cmp (nth_error xs a) (nth_error xs b).
Proof. reflexivity. Qed.

Lemma map_nth_error_seq {X} (xs : list X) : map (nth_error xs) (seq 0 (length xs)) = map Some xs.
Proof.
  apply nth_error_ext. intros i. rewrite !nth_error_map, nth_error_seq.
  destruct (i <? length xs) eqn:E; cbn [option_map].
  - apply Nat.ltb_lt in E. cbn [Nat.add]. destruct (nth_error xs i) eqn:En; [reflexivity|].
    apply nth_error_None in En. lia.
  - apply Nat.ltb_ge in E. apply nth_error_None in E. rewrite E. reflexivity.
Qed.

(* argsort: along the sorted index vector one reads the sorted series; the same for the sort of any part of it *)
Lemma argsort_map {X} (cmp : X -> X -> comparison) (xs : list X) (t : list nat) (l : list X) :
  map (nth_error xs) t = map Some l ->
  map (nth_error xs) (isort (cmp_idx cmp xs) t) = map Some (isort cmp l).
Proof.
  intros H. rewrite cmp_idx_ocmp, (isort_map (nth_error xs) (ocmp cmp)), H.
  symmetry. exact (isort_map (@Some X) (ocmp cmp) l).
Qed.

Lemma argsort_values_gen {X} (cmp : X -> X -> comparison) (xs : list X) :
  map (nth_error xs) (isort (cmp_idx cmp xs) (seq 0 (length xs))) = map Some (isort cmp xs).
Proof. apply argsort_map, map_nth_error_seq. Qed.

Lemma argsort_facts {X} (cmp : X -> X -> comparison) (xs : list X) :
  let p := isort (cmp_idx cmp xs) (seq 0 (length xs)) in
  Permutation p (seq 0 (length xs)) /\ NoDup p /\ length p = length xs /\ (forall i, In i p -> i < length xs).
Proof.
  intros p. assert (Hpp : Permutation p (seq 0 (length xs))) by apply isort_perm.
  split; [exact Hpp|]. split; [|split].
  - apply Permutation_NoDup with (seq 0 (length xs)); [symmetry; exact Hpp|apply seq_NoDup].
  - rewrite (Permutation_length Hpp). apply seq_length.
  - intros i Hi. apply (Permutation_in _ Hpp), in_seq in Hi. lia.
Qed.

Section Generic.
  Context {A : Type} {NA : Num A} {T : Type} {DT : IsNone T A}.

  Lemma not_none_valid (v : T) : not_none v = true <-> is_none v = false.
  Proof. unfold not_none. destruct (is_none v); cbn; split; congruence. Qed.

  Lemma all_valid_in (l : list T) x : all_valid l -> In x l -> not_none x = true.
  Proof.
    unfold all_valid. rewrite Forall_forall. intros H Hx. apply not_none_valid. apply H. exact Hx.
  Qed.

  Lemma filter_valid_id (l : list T) : all_valid l -> filter not_none l = l.
  Proof.
    induction 1 as [|x l Hx _ IH]; [reflexivity|]. cbn [filter]. unfold not_none at 1. rewrite Hx. cbn [negb].
    f_equal. exact IH.
  Qed.

  Lemma count_valid_filter (xs : list T) : count_valid xs = length (filter not_none xs).
  Proof. reflexivity. Qed.

  Lemma valid_null_lengths (xs : list T) :
    (length (filter not_none xs) + length (filter is_none xs) = length xs)%nat.
  Proof.
    induction xs as [|x xs IH]; [reflexivity|]. cbn [filter]. unfold not_none at 1.
    destruct (is_none x); cbn [negb length]; lia.
  Qed.

  Context {DX : IsNoneX T A}.

  (* the shape every successful result has *)
  Definition part_shape (kth : nat) (xs r : list T) : Prop :=
    exists taken nulls rest : list T,
      r = taken ++ nulls /\ all_valid taken /\ all_null nulls /\
      length taken = Nat.min (kth + 1) (count_valid xs) /\ length r = (kth + 1)%nat /\
      Permutation (filter not_none xs) (taken ++ rest).

  (* does the call have to evaluate T::none()? *)
  Definition needs_pad (kth : nat) (sort : bool) (xs : list T) : bool :=
    if sort then (count_valid xs <=? kth + 1)%nat && (length xs <? kth + 1)%nat
    else (count_valid xs <? kth + 1)%nat.

  (* what the code computes: a rearrangement of the kth + 1 first sorted non-null elements (with sort = true
     that prefix itself, or its sort), then nulls *)
  Definition part_form (kth : nat) (sort rev : bool) (xs r : list T) : Prop :=
    let pre := firstn (kth + 1) (isort (cmp_dir rev) (filter not_none xs)) in
    exists taken nulls : list T,
      r = taken ++ nulls /\ Permutation taken pre /\
      (sort = true -> taken = pre \/ taken = isort (cmp_dir rev) pre) /\
      all_null nulls /\ length nulls = (kth + 1 - count_valid xs)%nat.

  Lemma vpartition_form kth sort rev xs :
    match tnone with
    | Ok pad => is_none pad = true ->
                exists r, vpartition kth sort rev xs = Ok r /\ part_form kth sort rev xs r
    | Panic e => if needs_pad kth sort xs then vpartition kth sort rev xs = Panic e
                 else exists r, vpartition kth sort rev xs = Ok r /\ part_form kth sort rev xs r
    end.
  Proof.
    unfold vpartition, needs_pad. rewrite (isort_split rev xs), count_valid_filter.
    set (V := filter not_none xs). set (n := length V). set (Zs := filter is_none xs).
    set (S0 := isort (cmp_dir rev) V). set (pre := firstn (kth + 1) S0).
    pose proof (filter_is_none_all_null xs) as HZ. fold Zs in HZ.
    assert (HS0 : length S0 = n) by apply isort_length.
    assert (HS0p : Permutation V S0) by (symmetry; apply isort_perm).
    pose proof (valid_null_lengths xs) as HL. fold V Zs n in HL.
    assert (Hlen : length (S0 ++ Zs) = length xs) by (rewrite app_length; lia).
    assert (Hpre : (n <= kth + 1)%nat -> pre = S0) by (intros H; apply firstn_all2; lia).
    assert (Mk : forall r taken nulls, r = taken ++ nulls -> Permutation taken pre ->
              (sort = true -> taken = pre \/ taken = isort (cmp_dir rev) pre) ->
              all_null nulls -> length nulls = (kth + 1 - n)%nat ->
              exists r', Ok r = Ok r' /\ part_form kth sort rev xs r').
    { intros r taken nulls H0 H1 H2 H3 H4. exists r. split; [reflexivity|]. exists taken, nulls.
      repeat split; assumption. }
    assert (Case1 : n = (kth + 1)%nat -> sort = false -> exists r, Ok V = Ok r /\ part_form kth sort rev xs r).
    { intros E Es. apply (Mk V V []); [symmetry; apply app_nil_r|rewrite Hpre by lia; exact HS0p| |constructor|cbn; lia].
      rewrite Es. discriminate. }
    assert (Case2 : forall pad, is_none pad = true -> (n <= kth + 1)%nat -> sort = false ->
              exists r, Ok (pad_take (kth + 1) pad V) = Ok r /\ part_form kth sort rev xs r).
    { intros pad Hp Hn Es. apply (Mk _ V (repeat pad (kth + 1 - n))).
      - apply pad_take_short. fold n. lia.
      - rewrite Hpre by lia. exact HS0p.
      - rewrite Es. discriminate.
      - apply Forall_repeat. exact Hp.
      - apply repeat_length. }
    assert (Case3a : forall pad, is_none pad = true -> (n <= kth + 1)%nat -> (length xs < kth + 1)%nat ->
              exists r, Ok (pad_take (kth + 1) pad (S0 ++ Zs)) = Ok r /\ part_form kth sort rev xs r).
    { intros pad Hp Hn Hl. apply (Mk _ S0 (Zs ++ repeat pad (kth + 1 - length (S0 ++ Zs)))).
      - rewrite pad_take_short by lia. symmetry. apply app_assoc.
      - rewrite Hpre by lia. reflexivity.
      - intros _. left. symmetry. apply Hpre. lia.
      - apply Forall_app. split; [exact HZ|apply Forall_repeat; exact Hp].
      - rewrite app_length, repeat_length. lia. }
    assert (Case3b : (n <= kth + 1)%nat -> (kth + 1 <= length xs)%nat ->
              exists r, Ok (firstn (kth + 1) (S0 ++ Zs)) = Ok r /\ part_form kth sort rev xs r).
    { intros Hn Hl. apply (Mk _ S0 (firstn (kth + 1 - length S0) Zs)).
      - rewrite firstn_app. f_equal. apply firstn_all2. lia.
      - rewrite Hpre by lia. reflexivity.
      - intros _. left. symmetry. apply Hpre. lia.
      - apply Forall_firstn. exact HZ.
      - rewrite firstn_length. lia. }
    assert (Case4 : (kth + 1 < n)%nat ->
              exists r, Ok (if sort then isort (cmp_dir rev) (firstn (kth + 1) (S0 ++ Zs)) else firstn (kth + 1) (S0 ++ Zs)) = Ok r /\
                        part_form kth sort rev xs r).
    { intros Hn.
      assert (E : firstn (kth + 1) (S0 ++ Zs) = pre).
      { rewrite firstn_app. replace (kth + 1 - length S0)%nat with 0%nat by lia. apply app_nil_r. }
      rewrite E. apply (Mk _ (if sort then isort (cmp_dir rev) pre else pre) []).
      - symmetry. apply app_nil_r.
      - destruct sort; [apply isort_perm|reflexivity].
      - intros ->. right. reflexivity.
      - constructor.
      - cbn [length]. lia. }
    (* dispatch: the padded results are the ones that evaluate T::none() *)
    destruct sort; cbn [negb andb]; rewrite ?andb_false_r, ?andb_true_r.
    - destruct (n <=? kth + 1)%nat eqn:E2; cbn [andb].
      + apply Nat.leb_le in E2. rewrite Hlen. destruct (length xs <? kth + 1)%nat eqn:E3.
        * apply Nat.ltb_lt in E3. destruct tnone as [pad|e]; cbn [bind]; [|reflexivity].
          intros Hp. exact (Case3a pad Hp E2 E3).
        * apply Nat.ltb_ge in E3. destruct tnone; [intros _|]; exact (Case3b E2 E3).
      + apply Nat.leb_gt in E2. destruct tnone; [intros _|]; exact (Case4 E2).
    - destruct (n =? kth + 1)%nat eqn:E1.
      + apply Nat.eqb_eq in E1. replace (n <? kth + 1)%nat with false by (symmetry; apply Nat.ltb_ge; lia).
        destruct tnone; [intros _|]; exact (Case1 E1 eq_refl).
      + apply Nat.eqb_neq in E1. destruct (n <=? kth + 1)%nat eqn:E2.
        * apply Nat.leb_le in E2. replace (n <? kth + 1)%nat with true by (symmetry; apply Nat.ltb_lt; lia).
          destruct tnone as [pad|e]; cbn [bind]; [|reflexivity]. intros Hp. exact (Case2 pad Hp E2 eq_refl).
        * apply Nat.leb_gt in E2. replace (n <? kth + 1)%nat with false by (symmetry; apply Nat.ltb_ge; lia).
          destruct tnone; [intros _|]; exact (Case4 E2).
  Qed.

  Lemma part_form_shape kth sort rev xs r : part_form kth sort rev xs r -> part_shape kth xs r.
  Proof.
    intros (taken & nulls & -> & Hp & _ & Hnl & Hln).
    set (S0 := isort (cmp_dir rev) (filter not_none xs)) in *.
    assert (HS0 : length S0 = count_valid xs) by apply isort_length.
    assert (Hlt : length taken = Nat.min (kth + 1) (count_valid xs)).
    { rewrite (Permutation_length Hp), firstn_length, HS0. reflexivity. }
    exists taken, nulls, (skipn (kth + 1) S0).
    split; [reflexivity|]. split.
    { apply Forall_perm with (firstn (kth + 1) S0); [symmetry; exact Hp|].
      apply Forall_firstn, isort_all_valid, filter_not_none_all_valid. }
    split; [exact Hnl|]. split; [exact Hlt|]. split; [rewrite app_length; lia|].
    rewrite Hp, firstn_skipn. symmetry. apply isort_perm.
  Qed.

  Lemma vpartition_shape kth sort rev xs :
    match tnone with
    | Ok pad => is_none pad = true ->
                exists r, vpartition kth sort rev xs = Ok r /\ part_shape kth xs r
    | Panic e => if needs_pad kth sort xs then vpartition kth sort rev xs = Panic e
                 else exists r, vpartition kth sort rev xs = Ok r /\ part_shape kth xs r
    end.
  Proof.
    pose proof (vpartition_form kth sort rev xs) as H.
    assert (W : (exists r, vpartition kth sort rev xs = Ok r /\ part_form kth sort rev xs r) ->
                exists r, vpartition kth sort rev xs = Ok r /\ part_shape kth xs r).
    { intros (r & E & F). exists r. split; [exact E|]. exact (part_form_shape _ _ _ _ _ F). }
    destruct tnone; [intros Hp; exact (W (H Hp))|]. destruct (needs_pad kth sort xs); [exact H|exact (W H)].
  Qed.

  Lemma valid_idx_gen (xs : list T) (a : nat) :
    exists idx : list nat,
      flat_map (fun p : nat * T => if not_none (snd p) then [Z.of_nat (fst p)] else [])
               (combine (seq a (length xs)) xs) = map Z.of_nat idx /\ NoDup idx /\
      (forall i, In i idx -> (a <= i)%nat) /\
      map (fun i => nth_error xs (i - a)) idx = map Some (filter not_none xs).
  Proof.
    revert a. induction xs as [|x xs IH]; intros a; cbn [length seq combine flat_map].
    - exists []. split; [reflexivity|]. split; [constructor|]. split; [intros i []|reflexivity].
    - destruct (IH (S a)) as (idx & E & Hnd & Hr & Hv). cbn [snd fst filter].
      assert (Hsh : map (fun i => nth_error (x :: xs) (i - a)) idx = map Some (filter not_none xs)).
      { rewrite <- Hv. apply map_ext_in. intros i Hi. apply Hr in Hi.
        replace (i - a)%nat with (S (i - S a)) by lia. reflexivity. }
      destruct (not_none x) eqn:Ex.
      + exists (a :: idx). rewrite E. split; [reflexivity|]. split.
        { constructor; [|exact Hnd]. intros Hin. apply Hr in Hin. lia. }
        split; [intros i [<-|Hi]; [lia|apply Hr in Hi; lia]|].
        cbn [map]. rewrite Nat.sub_diag, Hsh. reflexivity.
      + exists idx. cbn [app]. split; [exact E|]. split; [exact Hnd|].
        split; [intros i Hi; apply Hr in Hi; lia|exact Hsh].
  Qed.

  Definition argpart_shape (kth : nat) (xs : list T) (out : list Z) : Prop :=
    exists idx : list nat,
      out = map Z.of_nat idx ++ repeat (-1)%Z (kth + 1 - count_valid xs) /\
      NoDup idx /\ length idx = Nat.min (kth + 1) (count_valid xs) /\
      (forall i, In i idx -> exists v, nth_error xs i = Some v /\ not_none v = true).

  (* what the code computes: distinct positions at which one reads a rearrangement of the kth + 1 first sorted
     non-null elements (with sort = true that prefix itself, or its sort), then -1 *)
  Definition argpart_form (kth : nat) (sort rev : bool) (xs : list T) (out : list Z) : Prop :=
    let pre := firstn (kth + 1) (isort (cmp_dir rev) (filter not_none xs)) in
    exists idx : list nat,
      out = map Z.of_nat idx ++ repeat (-1)%Z (kth + 1 - count_valid xs) /\ NoDup idx /\
      Permutation (map (nth_error xs) idx) (map Some pre) /\
      (sort = true -> map (nth_error xs) idx = map Some pre \/
                      map (nth_error xs) idx = map Some (isort (cmp_dir rev) pre)).

  Lemma varg_partition_form kth sort rev xs : argpart_form kth sort rev xs (varg_partition kth sort rev xs).
  Proof.
    unfold argpart_form, varg_partition.
    set (cmp := cmp_dir (DT := DT) rev). set (cmpi := cmp_idx cmp xs).
    set (p := isort cmpi (seq 0 (length xs))). set (n := count_valid xs).
    set (S0 := isort cmp (filter not_none xs)). set (pre := firstn (kth + 1) S0).
    destruct (argsort_facts cmp xs) as (_ & Hpnd & Hplen & _). fold cmpi p in Hpnd, Hplen.
    assert (Hpv : map (nth_error xs) p = map Some S0 ++ map Some (filter is_none xs)).
    { unfold p, cmpi. rewrite argsort_values_gen. unfold cmp. rewrite (isort_split rev xs). apply map_app. }
    assert (HS0 : length S0 = n) by apply isort_length.
    assert (Hnl : (n <= length xs)%nat) by apply count_valid_le_length.
    (* along the first m <= n positions of p one reads the first m elements of S0 *)
    assert (Hfv : forall m, (m <= n)%nat -> map (nth_error xs) (firstn m p) = map Some (firstn m S0)).
    { intros m Hm. rewrite <- firstn_map, Hpv, firstn_app, map_length.
      replace (m - length S0)%nat with 0%nat by lia. cbn [firstn]. rewrite app_nil_r. apply firstn_map. }
    destruct (n <=? kth + 1)%nat eqn:E2.
    - apply Nat.leb_le in E2. assert (Hpre : pre = S0) by (apply firstn_all2; lia).
      destruct sort; cbn [negb].
      + exists (firstn n p).
        rewrite pad_take_short by (rewrite map_length, firstn_length; lia).
        rewrite map_length, firstn_length. replace (Nat.min n (length p)) with n by lia.
        split; [reflexivity|]. split; [apply NoDup_firstn; exact Hpnd|].
        rewrite (Hfv n) by lia. rewrite Hpre, <- HS0, firstn_all. split; [reflexivity|intros _; left; reflexivity].
      + destruct (valid_idx_gen xs 0) as (idx & E & Hnd & _ & Hv).
        rewrite (map_ext _ (nth_error xs)) in Hv by (intros i; rewrite Nat.sub_0_r; reflexivity).
        assert (Hl : length idx = n).
        { apply (f_equal (@length _)) in Hv. rewrite !map_length in Hv. exact Hv. }
        exists idx. unfold valid_idx. rewrite E.
        rewrite pad_take_short by (rewrite map_length; lia). rewrite map_length, Hl.
        split; [reflexivity|]. split; [exact Hnd|]. split; [|discriminate].
        rewrite Hv, Hpre. apply Permutation_map. symmetry. apply isort_perm.
    - apply Nat.leb_gt in E2. replace (kth + 1 - n)%nat with 0%nat by lia. cbn [repeat].
      set (t := firstn (kth + 1) p).
      assert (Htnd : NoDup t) by (apply NoDup_firstn; exact Hpnd).
      assert (Htv : map (nth_error xs) t = map Some pre) by (apply Hfv; lia).
      destruct sort.
      + exists (isort cmpi t). rewrite app_nil_r. split; [reflexivity|].
        assert (Hpt : Permutation (isort cmpi t) t) by apply isort_perm.
        split; [apply Permutation_NoDup with t; [symmetry; exact Hpt|exact Htnd]|].
        split; [rewrite <- Htv; apply Permutation_map; exact Hpt|].
        intros _. right. apply argsort_map. exact Htv.
      + exists t. rewrite app_nil_r. split; [reflexivity|]. split; [exact Htnd|].
        rewrite Htv. split; [reflexivity|discriminate].
  Qed.

  Lemma argpart_form_shape kth sort rev xs out : argpart_form kth sort rev xs out -> argpart_shape kth xs out.
  Proof.
    intros (idx & -> & Hnd & Hp & _). exists idx. split; [reflexivity|]. split; [exact Hnd|].
    set (S0 := isort (cmp_dir rev) (filter not_none xs)) in *. split.
    - apply Permutation_length in Hp. rewrite !map_length, firstn_length in Hp. rewrite Hp. unfold S0.
      rewrite isort_length. reflexivity.
    - intros i Hi.
      assert (Hin : In (nth_error xs i) (map Some (firstn (kth + 1) S0))).
      { apply (Permutation_in _ Hp), in_map, Hi. }
      apply in_map_iff in Hin. destruct Hin as (v & Hv & Hvin). exists v. split; [symmetry; exact Hv|].
      apply (all_valid_in S0); [apply isort_all_valid, filter_not_none_all_valid|eapply In_firstn; exact Hvin].
  Qed.

  Lemma varg_partition_shape kth sort rev xs : argpart_shape kth xs (varg_partition kth sort rev xs).
  Proof. apply argpart_form_shape with sort rev, varg_partition_form. Qed.

  Context {NF : NumFloor A}.
  Local Open Scope num_scope.

  (* a null-skipping extremum fold over non-null elements returns the value of one of them (or its seed):
     no order law is needed, max_with / min_with return one of their arguments *)
  Lemma fold_ext_val (sel : A -> A -> A) (Hsel : forall a b, sel a b = a \/ sel a b = b) (l : list T) :
    all_valid l -> forall acc : option A,
    match fold_left (fun acc x => if not_none x then
                            Some (match acc with None => unwrap x | Some v => sel v (unwrap x) end)
                          else acc) l acc with
    | Some v => acc = Some v \/ exists x, In x l /\ v = unwrap x
    | None => acc = None /\ l = []
    end.
  Proof.
    induction 1 as [|y l Hy _ IH]; intros acc.
    - cbn [fold_left]. destruct acc; [left; reflexivity|split; reflexivity].
    - cbn [fold_left]. assert (Hyv : not_none y = true) by (apply not_none_valid; exact Hy). rewrite Hyv.
      match goal with |- context [fold_left ?f l ?a] => specialize (IH a); destruct (fold_left f l a) as [v|] end.
      + destruct IH as [E|(x & Hx & Ev)]; [|right; exists x; split; [right; exact Hx|exact Ev]].
        injection E as E. destruct acc as [a|].
        * destruct (Hsel a (unwrap y)) as [E'|E']; rewrite E' in E.
          -- left. f_equal. exact E.
          -- right. exists y. split; [left; reflexivity|symmetry; exact E].
        * right. exists y. split; [left; reflexivity|symmetry; exact E].
      + destruct IH as [IH _]. discriminate.
  Qed.

  Lemma max_with_sel (a b : A) : max_with a b = a \/ max_with a b = b.
  Proof. unfold max_with. destruct (nltb a b); [right|left]; reflexivity. Qed.
  Lemma min_with_sel (a b : A) : min_with a b = a \/ min_with a b = b.
  Proof. unfold min_with. destruct (nltb b a); [right|left]; reflexivity. Qed.

  (* the extremum the two branches of vquantile take of the head: vmax ascending, vmin descending *)
  Definition vext (rev : bool) : list T -> option A := if rev then vmin else vmax.

  Lemma vext_in rev (l : list T) : all_valid l -> l <> [] -> exists x, In x l /\ vext rev l = Some (unwrap x).
  Proof.
    intros Hv Hne.
    assert (G : forall sel, (forall a b : A, sel a b = a \/ sel a b = b) ->
              exists x, In x l /\ fold_left (fun acc x => if not_none x then
                            Some (match acc with None => unwrap x | Some v => sel v (unwrap x) end)
                          else acc) l None = Some (unwrap x)).
    { intros sel Hsel. pose proof (fold_ext_val sel Hsel l Hv None) as H.
      destruct (fold_left _ l None) as [v|].
      - destruct H as [H|(x & Hx & ->)]; [discriminate|]. exists x. split; [exact Hx|reflexivity].
      - destruct H as [_ H]. contradiction. }
    destruct rev; [exact (G min_with min_with_sel)|exact (G max_with max_with_sel)].
  Qed.

  Lemma tcast_valid (v : T) : not_none v = true -> tcast v = unwrap v.
  Proof. intros H. apply not_none_valid in H. unfold tcast. rewrite H. reflexivity. Qed.

  (* the two elements the quantile is computed from: the pivot m = (sorted valid)[j] and the extremum vi of
     the head (sorted valid)[0..j), both NON-NULL ELEMENTS OF THE SERIES *)
  Definition qfac (q : A) : A := if nleb q nhalf then q else none - q.
  Definition qrev (q : A) : bool := negb (nleb q nhalf).
  Definition qi_of (q : A) (n : nat) : nat := Z.to_nat (nfloorZ (nofnat (n - 1)%nat * qfac q)).
  Definition qj_of (q : A) (n : nat) : nat := Z.to_nat (nceilZ (nofnat (n - 1)%nat * qfac q)).

  Lemma qsel_index_qj (q : A) (n : nat) : qsel_index q n = qj_of q n.
  Proof. unfold qsel_index, qj_of, qfac. destruct (nleb q nhalf); reflexivity. Qed.

  Definition qvalue (q : A) (n : nat) (mth : qmethod) (vi vj : A) : A :=
    let len_1 := nofnat (n - 1)%nat in
    let qq := qfac q in
    let i := qi_of q n in let j := qj_of q n in
    if (i =? j)%nat then vj else
    match mth with
    | Linear => vi + (vj - vi) * ((qq - nofnat i / len_1) / (nofnat j / len_1 - nofnat i / len_1))
    | Lower => if qrev q then vj else vi
    | Higher => if qrev q then vi else vj
    | MidPoint => (vi + vj) / ntwo
    end.

  Definition is_valid_elem (xs : list T) (v : A) : Prop := exists x, In x xs /\ not_none x = true /\ v = unwrap x.

  Lemma select_nth_valid rev j xs :
    (j < count_valid xs)%nat ->
    let S0 := isort (cmp_dir rev) (filter not_none xs) in
    exists m, nth_error S0 j = Some m /\ select_nth (cmp_dir rev) j xs = Ok (firstn j S0, m).
  Proof.
    intros Hj S0. unfold select_nth. rewrite (isort_split rev xs). fold S0.
    assert (HS0 : length S0 = count_valid xs) by (unfold S0; rewrite isort_length; reflexivity).
    destruct (nth_error S0 j) as [m|] eqn:E; [|apply nth_error_None in E; lia].
    exists m. split; [reflexivity|]. rewrite nth_error_app1 by lia. rewrite E.
    rewrite firstn_app. replace (j - length S0)%nat with 0%nat by lia. cbn [firstn]. rewrite app_nil_r. reflexivity.
  Qed.

  Lemma qvalue_exact (q : A) (n : nat) (mth : qmethod) (vi vj : A) :
    qi_of q n = qj_of q n -> qvalue q n mth vi vj = vj.
  Proof. intros E. unfold qvalue. rewrite E, Nat.eqb_refl. reflexivity. Qed.

  (* both branches of the code at once: select at the ceiling index in direction `qrev q`, take the extremum of
     the head, combine *)
  Lemma vquantile_folded (q : A) (mth : qmethod) (xs : list T) :
    nleb nzero q && nleb q none = true ->
    let n := count_valid xs in
    (2 <= n)%nat ->
    vquantile q mth xs =
    do hm <- select_nth (cmp_dir (qrev q)) (qj_of q n) xs;
    let '(head, m) := hm in
    Ok (Some (qvalue q n mth (opt_cast (vext (qrev q) head)) (tcast m))).
  Proof.
    intros Hg n Hn. unfold vquantile. rewrite Hg. cbn [negb]. fold n.
    replace (n =? 0)%nat with false by (symmetry; apply Nat.eqb_neq; lia).
    replace (n =? 1)%nat with false by (symmetry; apply Nat.eqb_neq; lia).
    unfold qvalue, qi_of, qj_of, qfac, qrev, vext.
    destruct (nleb q nhalf); cbn [negb cmp_dir].
    - destruct (select_nth sort_cmp _ xs) as [[head m]|e]; cbn [bind]; [|reflexivity].
      destruct (_ =? _)%nat; cbn [negb]; [reflexivity|destruct mth; reflexivity].
    - destruct (select_nth sort_cmp_rev _ xs) as [[head m]|e]; cbn [bind]; [|reflexivity].
      destruct (_ =? _)%nat; cbn [negb]; [reflexivity|destruct mth; reflexivity].
  Qed.

  Theorem vquantile_elements (q : A) (mth : qmethod) (xs : list T) :
    nleb nzero q && nleb q none = true ->
    let n := count_valid xs in
    (2 <= n)%nat -> (qi_of q n <= qj_of q n)%nat -> (qj_of q n < n)%nat ->
    exists vi vj, is_valid_elem xs vi /\ is_valid_elem xs vj /\
      vquantile q mth xs = Ok (Some (qvalue q n mth vi vj)) /\
      (* where they sit in the arrangement std's selection produces *)
      (let S0 := isort (cmp_dir (qrev q)) (filter not_none xs) in
       (exists m, nth_error S0 (qj_of q n) = Some m /\ vj = unwrap m) /\
       (qi_of q n <> qj_of q n -> exists x, In x (firstn (qj_of q n) S0) /\ vi = unwrap x)).
  Proof.
    intros Hg n Hn Hij Hjn. rewrite vquantile_folded by assumption. fold n.
    set (j := qj_of q n) in *.
    destruct (select_nth_valid (qrev q) j xs Hjn) as (m & Hm & Hsel). rewrite Hsel. cbn [bind].
    set (S0 := isort (cmp_dir (qrev q)) (filter not_none xs)) in *.
    assert (Hin_xs : forall x, In x S0 -> is_valid_elem xs (unwrap x)).
    { intros x Hx. apply (Permutation_in _ (isort_perm _ _)), filter_In in Hx. exists x. tauto. }
    assert (Hmv : not_none m = true).
    { apply nth_error_In, (Permutation_in _ (isort_perm _ _)), filter_In in Hm. tauto. }
    rewrite (tcast_valid m Hmv).
    assert (Hvj : is_valid_elem xs (unwrap m)) by (apply Hin_xs; eapply nth_error_In; exact Hm).
    destruct (Nat.eq_dec (qi_of q n) j) as [Eij|Eij].
    - exists (unwrap m), (unwrap m). rewrite !qvalue_exact by exact Eij.
      repeat split; try assumption; [exists m; auto|contradiction].
    - assert (Hhv : all_valid (firstn j S0)).
      { apply Forall_firstn, isort_all_valid, filter_not_none_all_valid. }
      assert (Hhne : firstn j S0 <> []).
      { intros E. apply (f_equal (@length T)) in E. rewrite firstn_length in E. cbn in E.
        assert (length S0 = n) by apply isort_length. lia. }
      destruct (vext_in (qrev q) _ Hhv Hhne) as (x & Hx & Eext). rewrite Eext. cbn [opt_cast].
      exists (unwrap x), (unwrap m).
      split; [apply Hin_xs; eapply In_firstn; exact Hx|]. split; [exact Hvj|]. split; [reflexivity|].
      split; [exists m; auto|]. intros _. exists x. auto.
  Qed.

  Definition cnt_lt (sc : A) (xs : list T) : nat :=
    length (filter (fun v => not_none v && nltb (unwrap v) sc) xs).
  Definition cnt_eq (sc : A) (xs : list T) : nat :=
    length (filter (fun v => not_none v && negb (nltb (unwrap v) sc) && neqb (unwrap v) sc) xs).

  Lemma pct_counts_gen (sc : A) (xs : list T) : forall l0 e0 t0,
    fold_left (fun (c : nat * nat * nat) v =>
                 let '(l, e, t) := c in
                 if is_none v then c else
                 let x := unwrap v in
                 if nltb x sc then (S l, e, S t)
                 else if neqb x sc then (l, S e, S t)
                 else (l, e, S t)) xs (l0, e0, t0)
    = ((l0 + cnt_lt sc xs)%nat, (e0 + cnt_eq sc xs)%nat, (t0 + count_valid xs)%nat).
  Proof.
    unfold cnt_lt, cnt_eq, count_valid.
    induction xs as [|v xs IH]; intros l0 e0 t0.
    - cbn [fold_left filter length]. rewrite !Nat.add_0_r. reflexivity.
    - cbn [fold_left filter].
      assert (Hn : not_none v = negb (is_none v)) by reflexivity. rewrite Hn.
      destruct (is_none v); cbn [negb andb].
      + apply IH.
      + destruct (nltb (unwrap v) sc); cbn [negb andb length].
        * rewrite IH. cbn [Nat.add]. rewrite <- !plus_n_Sm. reflexivity.
        * destruct (neqb (unwrap v) sc); cbn [length]; rewrite IH; cbn [Nat.add]; rewrite <- !plus_n_Sm; reflexivity.
  Qed.

  Theorem vpercentile_of_counts (score : T) (m : pmethod) (xs : list T) :
    vpercentile_of score m xs =
    if is_none score then nnan else
    let sc := unwrap score in
    let L := cnt_lt sc xs in let E := cnt_eq sc xs in let N := count_valid xs in
    if (N =? 0)%nat then nnan else
    match m with
    | PRank => if (1 <? E)%nat then (nofnat ((L + 1) + (L + 1 + (E - 1)))%nat * nhalf) / nofnat N
               else nofnat (L + E)%nat / nofnat N
    | PWeak => nofnat (L + E)%nat / nofnat N
    | PStrict => nofnat L / nofnat N
    end.
  Proof.
    unfold vpercentile_of, pct_counts. destruct (is_none score); [reflexivity|].
    rewrite pct_counts_gen. cbn [Nat.add]. reflexivity.
  Qed.
End Generic.

Section RankLen.
  Context {A : Type} {NA : Num A} {T : Type} {DT : IsNone T A} {DX : IsNoneX T A}.

  Lemma uset_length {X} i (v : X) out : length (uset i v out) = length out.
  Proof.
    unfold uset. rewrite app_length, firstn_length.
    destruct (skipn i out) as [|y r] eqn:E.
    - cbn [length]. assert (length (skipn i out) = 0%nat) by (rewrite E; reflexivity).
      rewrite skipn_length in H. lia.
    - cbn [length]. assert (length (skipn i out) = S (length r)) by (rewrite E; reflexivity).
      rewrite skipn_length in H. lia.
  Qed.

  Lemma fold_uset_length {X I} (f : I -> nat) (g : I -> X) (l : list I) (out : list (option X)) :
    length (fold_left (fun o i => uset (f i) (g i) o) l out) = length out.
  Proof. revert out. induction l as [|i l IH]; intros out; [reflexivity|]. cbn [fold_left]. rewrite IH. apply uset_length. Qed.

  Lemma write_run_length idx i rep (v : A) out : length (write_run idx i rep v out) = length out.
  Proof. unfold write_run. apply (fold_uset_length (fun j => nth (i - j) idx 0%nat) (fun _ => v)). Qed.

  Lemma rank_loop_length pct nn (xs : list T) idx is st :
    length (r_out (fst (rank_loop pct nn xs idx is st))) = length (r_out st).
  Proof.
    revert st. induction is as [|i is IH]; intros st; [reflexivity|]. cbn [rank_loop].
    destruct (get_is_none xs _); [cbn [fst r_out]; apply write_run_length|].
    destruct (get_eq xs _ _); [rewrite IH; reflexivity|].
    destruct (r_rep st =? 1)%nat; rewrite IH; cbn [r_out]; [apply uset_length|apply write_run_length].
  Qed.

End RankLen.
