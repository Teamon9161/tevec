(* Proofs/Audit01.v — clause-by-clause audit of C01 (notes/C01.md, "Audit matrix").
   Part 1 (any carrier, any feature, axiom-free): every window INCLUDING 0, the empty series, both bodies agree, windows
           beyond the length, min_periods above the window, the valid-count field and the min_periods mask for EVERY
           numeric carrier (binary64 included).
   Part 2 (option R): the PLAIN family on a series holding a NaN — the accumulator is poisoned for ever, which is what
           refutes the clause "never drifts" there (Props/C01.v (A12), (A13)).                                       *)
From Coq Require Import Reals Lia List Bool ZArith.
From Tevec Require Import Base.Prelude Base.Num Base.XR Spec.Stats Model.Driver Proofs.Driver Model.Features
     Proofs.Outcome Proofs.Generic Proofs.Sliding Proofs.Features Proofs.Features2.
Import ListNotations.

(* ================================================================================================= *)
(* Part 1 — any feature, any carrier                                                                  *)
(* ================================================================================================= *)
Section AnyFeature.
  Context {T St O : Type}.
  Variable F : feat T St O.

  Theorem ts_run_bodies_agree (w : nat) (xs : list T) : ts_run F true w xs = ts_run F false w xs.
  Proof. rewrite !ts_run_eq. reflexivity. Qed.

  (* whenever the call returns, it returns exactly len outputs; it returns unless window = 0 on a non-empty series *)
  Theorem ts_run_length body (w : nat) (xs : list T) out :
    ts_run F body w xs = Done out -> length out = length xs.
  Proof.
    rewrite ts_run_eq. destruct (bad_window w xs); [discriminate|]. intros H. injection H as <-.
    rewrite run_length. apply mapi_length.
  Qed.
  Theorem ts_run_returns_iff body (w : nat) (xs : list T) :
    (exists out, ts_run F body w xs = Done out) <-> (1 <= w \/ xs = []).
  Proof.
    rewrite ts_run_eq. destruct (bad_window_cases w xs) as [(Hb & Hw & Hx)|(Hb & Hc)]; rewrite Hb.
    - split; [intros (out & H); discriminate|intros [H|H]; [lia|contradiction]].
    - split; [intros _; exact Hc|intros _; eexists; reflexivity].
  Qed.
  (* never an uninitialised slot *)
  Theorem ts_run_never_uninit body (w : nat) (xs : list T) buf : ts_run F body w xs <> Uninit buf.
  Proof. rewrite ts_run_eq. destruct (bad_window w xs); discriminate. Qed.
End AnyFeature.

(* ---- min_periods: the clamp ---------------------------------------------------------------------- *)
Lemma mp_eff_clamp (m w k : nat) : mp_eff (Some m) w k = mp_eff (Some (Nat.min m w)) w k.
Proof. unfold mp_eff. f_equal. lia. Qed.
Lemma mp_eff_above (m w k : nat) : w <= m -> mp_eff (Some m) w k = Nat.max w k.
Proof. intros H. unfold mp_eff. f_equal. lia. Qed.
Lemma mp_eff_zero (w : nat) : mp_eff (Some 0) w 0 = 0.
Proof. reflexivity. Qed.
Lemma mp_eff_omitted (w k : nat) : mp_eff None w k = Nat.max (w / 2) k.
Proof.
  unfold mp_eff. f_equal. apply Nat.min_l. destruct w as [|w]; [reflexivity|].
  apply Nat.lt_le_incl, Nat.div_lt; lia.
Qed.

Section AnyCarrier.
  Context {A : Type} {NA : Num A} {T : Type} {DT : IsNone T A}.

  (* min_periods above the window behaves exactly like min_periods = window: the SAME feature record, hence the same
     outputs, states and panics, on every carrier *)
  Theorem min_periods_above_window (w m : nat) : w <= m ->
    ts_vsum_f w (Some m) = ts_vsum_f w (Some w) /\ ts_vmean_f w (Some m) = ts_vmean_f w (Some w) /\
    ts_vvar_f w (Some m) = ts_vvar_f w (Some w) /\ ts_vstd_f w (Some m) = ts_vstd_f w (Some w) /\
    ts_vskew_f w (Some m) = ts_vskew_f w (Some w) /\ ts_vkurt_f w (Some m) = ts_vkurt_f w (Some w) /\
    ts_vewm_f w (Some m) = ts_vewm_f w (Some w) /\ ts_vwma_f w (Some m) = ts_vwma_f w (Some w).
  Proof.
    intros H. unfold ts_vsum_f, ts_vmean_f, ts_vvar_f, ts_vstd_f, ts_vskew_f, ts_vkurt_f, ts_vewm_f, ts_vwma_f.
    rewrite !(mp_eff_above m w) by exact H. rewrite !(mp_eff_above w w) by lia. repeat split; reflexivity.
  Qed.

  (* ---- the count field, for every carrier ---------------------------------------------------------- *)
  Definition cnt_valid (l : list T) : nat := length (filter not_none l).

  Lemma cnt_valid_snoc l v : cnt_valid (l ++ [v]) = cnt_valid l + (if not_none v then 1 else 0).
  Proof. unfold cnt_valid. rewrite filter_app, app_length. cbn [filter]. destruct (not_none v); reflexivity. Qed.
  Lemma cnt_valid_cons x l : cnt_valid (x :: l) = (if not_none x then 1 else 0) + cnt_valid l.
  Proof. unfold cnt_valid. cbn [filter]. destruct (not_none x); reflexivity. Qed.
  Lemma cnt_valid_le l : cnt_valid l <= length l.
  Proof. apply filter_length_le. Qed.

  (* a feature whose state carries a count maintained as `if not_none v { n += 1 }` / `if not_none v_rm { n -= 1 }` *)
  Section Count.
    Context {St : Type}.
    Variable F : feat T St A.
    Variable cnt : St -> nat.
    Hypothesis cnt_init : cnt (f_init F) = 0.
    Hypothesis cnt_pre : forall s v, cnt (f_pre F s v) = cnt s + (if not_none v then 1 else 0).
    Hypothesis cnt_post : forall s x, cnt (f_post F s (Some x)) = cnt s - (if not_none x then 1 else 0).
    Hypothesis post_none : forall s, f_post F s None = s.

    Theorem count_tracks_window body (w : nat) (xs : list T) :
      1 <= w ->
      exists out, ts_run F body w xs = Done out /\ length out = length xs /\
        forall i v, nth_error xs i = Some v ->
          exists s, cnt s = cnt_valid (win w i xs) /\ nth_error out i = Some (f_emit F s).
    Proof.
      exact (count_tracks F not_none cnt cnt_init cnt_pre cnt_post post_none body w xs).
    Qed.
  End Count.

  Definition ewm0 : @ewm_st A := {| e_n := 0; e_q := nzero |}.

  (* the emitted value is computed from a state whose count is the number of non-null elements of the window *)
  Theorem mom_count_tracks (emit : @mom A -> A) body (w : nat) (xs : list T) :
    1 <= w ->
    exists out, ts_run (mom_feat emit) body w xs = Done out /\ length out = length xs /\
      forall i v, nth_error xs i = Some v ->
        exists s, m_n s = cnt_valid (win w i xs) /\ nth_error out i = Some (emit s).
  Proof.
    intros Hw. apply (count_tracks_window (mom_feat emit) (@m_n A)); try exact Hw; try reflexivity.
    - intros s v. cbn [f_pre mom_feat]. unfold mom_pre. destruct (not_none v); cbn [mom_add m_n]; lia.
    - intros s x. cbn [f_post mom_feat mom_post]. destruct (not_none x); cbn [mom_sub m_n]; lia.
  Qed.
  Theorem ewm_count_tracks (mp : option nat) body (w : nat) (xs : list T) :
    1 <= w ->
    exists out, ts_run (ts_vewm_f w mp) body w xs = Done out /\ length out = length xs /\
      forall i v, nth_error xs i = Some v ->
        exists s, e_n s = cnt_valid (win w i xs) /\ nth_error out i = Some (ewm_emit w (mp_eff mp w 0) s).
  Proof.
    intros Hw. apply (count_tracks_window (ts_vewm_f w mp) (@e_n A)); try exact Hw; try reflexivity.
    - intros s v. cbn [f_pre ts_vewm_f]. unfold ewm_pre. destruct (not_none v); cbn [e_n]; lia.
    - intros s x. cbn [f_post ts_vewm_f ewm_post]. destruct (not_none x); cbn [e_n]; lia.
  Qed.
  Theorem wma_count_tracks (mp : option nat) body (w : nat) (xs : list T) :
    1 <= w ->
    exists out, ts_run (ts_vwma_f w mp) body w xs = Done out /\ length out = length xs /\
      forall i v, nth_error xs i = Some v ->
        exists s, w_n s = cnt_valid (win w i xs) /\ nth_error out i = Some (wma_emit (mp_eff mp w 0) s).
  Proof.
    intros Hw. apply (count_tracks_window (ts_vwma_f w mp) (@w_n A)); try exact Hw; try reflexivity.
    - intros s v. cbn [f_pre ts_vwma_f]. unfold wma_pre. destruct (not_none v); cbn [w_n]; lia.
    - intros s x. cbn [f_post ts_vwma_f wma_post]. destruct (not_none x); cbn [w_n]; lia.
  Qed.

  Definition masked_below (k : nat) (out : list A) (w : nat) (xs : list T) : Prop :=
    forall i, i < length xs -> cnt_valid (win w i xs) < k -> nth_error out i = Some nnan.
  (* the run of F returns, and is masked below k *)
  Definition masked_run {St} (F : feat T St A) (k : nat) body (w : nat) (xs : list T) : Prop :=
    exists out, ts_run F body w xs = Done out /\ length out = length xs /\ masked_below k out w xs.

  Lemma mask_from_count {St} (F : feat T St A) (cnt : St -> nat) (k : nat) body (w : nat) (xs : list T) :
    (forall s, cnt s < k -> f_emit F s = nnan) ->
    (exists out, ts_run F body w xs = Done out /\ length out = length xs /\
       forall i v, nth_error xs i = Some v ->
         exists s, cnt s = cnt_valid (win w i xs) /\ nth_error out i = Some (f_emit F s)) ->
    masked_run F k body w xs.
  Proof.
    intros Hm (out & H1 & H2 & H3). exists out. split; [exact H1|]. split; [exact H2|].
    intros i Hi Hc. destruct (nth_error_Some_lt xs i Hi) as [v Hv].
    destruct (H3 i v Hv) as (s & Hs & Ho). rewrite Ho. f_equal. apply Hm. lia.
  Qed.

  Lemma mom_masked (emit : @mom A -> A) (k : nat) body (w : nat) (xs : list T) :
    1 <= w -> (forall s, m_n s < k -> emit s = nnan) -> masked_run (mom_feat emit) k body w xs.
  Proof.
    intros Hw Hm. apply (mask_from_count (mom_feat emit) (@m_n A)); [exact Hm|apply mom_count_tracks, Hw].
  Qed.

  (* below min_periods every entry point returns the carrier's NaN — at binary64 too *)
  Theorem below_min_periods_is_nan body (w : nat) (mp : option nat) (xs : list T) :
    1 <= w ->
    masked_run (ts_vsum_f w mp) (mp_eff mp w 0) body w xs /\ masked_run (ts_vmean_f w mp) (mp_eff mp w 0) body w xs /\
    masked_run (ts_vvar_f w mp) (mp_eff mp w 2) body w xs /\ masked_run (ts_vstd_f w mp) (mp_eff mp w 2) body w xs /\
    masked_run (ts_vskew_f w mp) (mp_eff mp w 3) body w xs /\ masked_run (ts_vkurt_f w mp) (mp_eff mp w 4) body w xs /\
    masked_run (ts_vewm_f w mp) (mp_eff mp w 0) body w xs /\ masked_run (ts_vwma_f w mp) (mp_eff mp w 0) body w xs.
  Proof.
    intros Hw. repeat apply conj.
    (* the six moment statistics open with the same test on the count *)
    1-6: apply mom_masked; [exact Hw|]; intros s H;
         unfold emit_sum, emit_mean, emit_var, emit_std, emit_skew, emit_kurt;
         rewrite (proj2 (Nat.leb_gt _ _) H); reflexivity.
    - apply (mask_from_count (ts_vewm_f w mp) (@e_n A)); [|apply ewm_count_tracks; exact Hw].
      intros s H. cbn [f_emit ts_vewm_f]. unfold ewm_emit. rewrite (proj2 (Nat.leb_gt _ _) H). reflexivity.
    - apply (mask_from_count (ts_vwma_f w mp) (@w_n A)); [|apply wma_count_tracks; exact Hw].
      intros s H. cbn [f_emit ts_vwma_f]. unfold wma_emit. rewrite (proj2 (Nat.leb_gt _ _) H). reflexivity.
  Qed.

  Lemma cnt_valid_win_le (w i : nat) (xs : list T) : 1 <= w -> i < length xs -> cnt_valid (win w i xs) <= w.
  Proof.
    intros Hw Hi. etransitivity; [apply cnt_valid_le|]. rewrite win_length_min by assumption. lia.
  Qed.
  Lemma mp_eff_floor (mp : option nat) (w k : nat) : w < k -> mp_eff mp w k = k.
  Proof. intros H. unfold mp_eff. lia. Qed.

End AnyCarrier.

(* ---- ts_vfdiff: the `else { acc }` arm of its fold closure (rolling.rs:116, never reached by the correspondence run) is
   dead code.  The closure is folded either over a window with n == window valid elements — a window never has more
   than `window` elements, so none is null — or over the window filtered by not_none.  Every carrier, every input. ---- *)
From Tevec Require Import Model.Fdiff.
Section VfdiffDead.
  Context {A : Type} {NA : Num A} {T : Type} {DT : IsNone T A}.
  Local Open Scope num_scope.

  (* the closure without its null test *)
  Definition vdot_nn (arr : list T) (coef : list A) : A :=
    fold_left (fun acc vc => acc + unwrap (fst vc) * snd vc) (combine arr coef) nzero.
  Definition ts_vfdiff_cb_nn (d : A) (w mp : nat) (u : unit) (arr : list T) : unit * A :=
    let n := length (filter not_none arr) in
    (u, if n =? w then vdot_nn arr (fdiff_coef d w)
        else if mp <=? n then vdot_nn (filter not_none arr) (fdiff_coef d n)
        else nnan).
  Definition ts_vfdiff_nn (body : bool) (d : A) (w : nat) (mp : option nat) (xs : list T) : outcome A :=
    let mp' := mp_eff mp w 0 in
    if body then rolling_custom_to w (ts_vfdiff_cb_nn d w mp') tt xs
    else rolling_custom_default w (ts_vfdiff_cb_nn d w mp') tt xs.

  Lemma vdot_all_valid (arr : list T) (coef : list A) :
    forallb not_none arr = true -> vdot arr coef = vdot_nn arr coef.
  Proof.
    unfold vdot, vdot_nn. generalize (nzero : A). revert coef.
    induction arr as [|a arr IH]; intros coef acc H; [reflexivity|].
    cbn [forallb] in H. apply andb_prop in H. destruct H as [Ha Hr].
    destruct coef as [|c coef]; [reflexivity|]. cbn [combine fold_left fst snd]. rewrite Ha. apply IH. exact Hr.
  Qed.
  Lemma filter_all_of_length {X} (p : X -> bool) (l : list X) :
    length (filter p l) = length l -> forallb p l = true.
  Proof.
    induction l as [|a l IH]; [reflexivity|]. cbn [filter forallb length].
    pose proof (filter_length_le p l) as Hle.
    destruct (p a); cbn [length]; intros H; [apply IH; lia|lia].
  Qed.
  Lemma forallb_filter_id {X} (p : X -> bool) (l : list X) : forallb p (filter p l) = true.
  Proof. induction l as [|a l IH]; [reflexivity|]. cbn [filter]. destruct (p a) eqn:E; [cbn [forallb]; rewrite E, IH; reflexivity|exact IH]. Qed.

  Lemma vfdiff_cb_nn_eq (d : A) (w mp : nat) (u : unit) (arr : list T) :
    (length arr <= w)%nat -> ts_vfdiff_cb d w mp u arr = ts_vfdiff_cb_nn d w mp u arr.
  Proof.
    intros Hl. unfold ts_vfdiff_cb, ts_vfdiff_cb_nn. cbv zeta. f_equal.
    destruct (length (filter not_none arr) =? w) eqn:E.
    - apply Nat.eqb_eq in E. apply vdot_all_valid, filter_all_of_length.
      pose proof (filter_length_le not_none arr). lia.
    - destruct (mp <=? length (filter not_none arr)); [|reflexivity].
      apply vdot_all_valid, forallb_filter_id.
  Qed.

End VfdiffDead.

(* ================================================================================================= *)
(* Part 2 — option R                                                                                  *)
(* ================================================================================================= *)
Local Open Scope R_scope.

(* ---- the PLAIN family (never-null dictionary) on a series that holds a NaN ----------------------------------------
   ts_sum .. ts_kurt treat NaN as a number.  Once a NaN has been added, every power sum is NaN and stays NaN after the
   element has left the window (NaN - NaN = NaN): the accumulator no longer describes the window.                      *)
Definition poisoned (s : @mom XR) : Prop := m_s1 s = None /\ m_s2 s = None /\ m_s3 s = None /\ m_s4 s = None.

Lemma poisoned_add s v : poisoned s -> poisoned (mom_add s v).
Proof. intros (H1 & H2 & H3 & H4). unfold poisoned, mom_add. cbn [m_s1 m_s2 m_s3 m_s4]. rewrite H1, H2, H3, H4. repeat split; reflexivity. Qed.
Lemma poisoned_sub s v : poisoned s -> poisoned (mom_sub s v).
Proof. intros (H1 & H2 & H3 & H4). unfold poisoned, mom_sub. cbn [m_s1 m_s2 m_s3 m_s4]. rewrite H1, H2, H3, H4. repeat split; reflexivity. Qed.
Lemma poisoned_add_nan s : poisoned (mom_add s None).
Proof.
  unfold poisoned, mom_add. cbn [m_s1 m_s2 m_s3 m_s4].
  destruct (m_s1 s), (m_s2 s), (m_s3 s), (m_s4 s); repeat split; reflexivity.
Qed.

Section PlainNaN.
  Let Dn : IsNone XR XR := IsNone_never.
  Variable emit : @mom XR -> XR.
  Variable w : nat.
  Hypothesis Hw : (1 <= w)%nat.
  Variable xs : list XR.
  Let F := mom_feat (DT := Dn) emit.
  Let args := mapi (fun i v => (removed w xs i, v)) xs.
  Let st (k : nat) := state_after (feat_cb F) (f_init F) (firstn k args).

  Lemma plain_pre s v : f_pre F s v = mom_add s v.
  Proof. reflexivity. Qed.
  Lemma plain_post s rm : f_post F s rm = match rm with Some v => mom_sub s v | None => s end.
  Proof. destruct rm; reflexivity. Qed.

  Lemma st_S k v : nth_error xs k = Some v ->
    st (S k) = f_post F (mom_add (st k) v) (removed w xs k).
  Proof.
    intros Hv. unfold st.
    assert (Ha : nth_error args k = Some (removed w xs k, v)) by (unfold args; rewrite nth_error_mapi, Hv; reflexivity).
    rewrite (firstn_S_nth _ _ _ Ha), state_after_app. reflexivity.
  Qed.

  Variable j : nat.
  Hypothesis Hj : nth_error xs j = Some None.

  Lemma st_poisoned k : (j < k <= length xs)%nat -> poisoned (st k).
  Proof.
    induction k as [|k IH]; intros Hk; [lia|].
    destruct (nth_error_Some_lt xs k ltac:(lia)) as [v Hv]. rewrite (st_S k v Hv), plain_post.
    assert (Hp : poisoned (mom_add (st k) v)).
    { destruct (Nat.eq_dec k j) as [->|Hne].
      - rewrite Hj in Hv. injection Hv as <-. apply poisoned_add_nan.
      - apply poisoned_add. apply IH. lia. }
    destruct (removed w xs k); [apply poisoned_sub|]; exact Hp.
  Qed.

  (* the state behind output i >= j: poisoned, and its count is the length of the window (no element is ever null) *)
  Lemma plain_emit_state i v : (j <= i)%nat -> nth_error xs i = Some v ->
    exists s, poisoned s /\ m_n s = Nat.min (S i) w /\
              nth_error (run (feat_cb F) (f_init F) args) i = Some (emit s).
  Proof.
    intros Hji Hv. assert (Hi : (i < length xs)%nat) by (apply nth_error_Some; congruence).
    exists (mom_add (st i) v). split; [|split].
    - destruct (Nat.eq_dec i j) as [->|Hne].
      + rewrite Hj in Hv. injection Hv as <-. apply poisoned_add_nan.
      + apply poisoned_add. apply st_poisoned. lia.
    - pose proof (state_after_abs F (fun s l => m_n s = length l)) as HS.
      specialize (HS eq_refl).
      assert (Hpre : forall s l v0, m_n s = length l -> m_n (f_pre F s v0) = length (l ++ [v0])).
      { intros s l v0 H. rewrite plain_pre, app_length. cbn [mom_add m_n length]. lia. }
      assert (Hpost : forall s x l, m_n s = length (x :: l) -> m_n (f_post F s (Some x)) = length l).
      { intros s x l H. rewrite plain_post. cbn [mom_sub m_n length] in *. lia. }
      specialize (HS Hpre Hpost (fun s => eq_refl) w Hw xs i ltac:(lia)).
      cbn [mom_add m_n]. fold args in HS. fold (st i) in HS. rewrite HS, seg_length by lia. lia.
    - rewrite (@run_nth _ _ _ (feat_cb F) (f_init F) args i (removed w xs i, v)); [reflexivity|].
      unfold args. rewrite nth_error_mapi, Hv. reflexivity.
  Qed.

  Lemma plain_run body : ts_run F body w xs = Done (run (feat_cb F) (f_init F) args).
  Proof. rewrite ts_run_eq, bad_window_false by exact Hw. reflexivity. Qed.
End PlainNaN.

(* what the closed forms return on a poisoned state *)
Lemma xl2_none_r f (a : XR) : xlift2 f a None = None.
Proof. destruct a; reflexivity. Qed.
Lemma xl2_none_l f (b : XR) : xlift2 f None b = None.
Proof. reflexivity. Qed.
Lemma xdiv_none_r (a : XR) : xdiv a None = None.
Proof. destruct a; reflexivity. Qed.
Lemma xdiv_none_l (b : XR) : xdiv None b = None.
Proof. reflexivity. Qed.

Lemma emit_poisoned (s : @mom XR) (mp : nat) : poisoned s ->
  emit_sum mp s = None /\ emit_mean mp s = None /\
  emit_var mp s = (if (mp <=? m_n s)%nat then Some 0 else None) /\
  emit_std mp s = (if (mp <=? m_n s)%nat then Some 0 else None) /\
  emit_skew mp s = None /\ emit_kurt mp s = None.
Proof.
  intros (H1 & H2 & H3 & H4).
  assert (Hpv : popvar_of s = None).
  { unfold popvar_of. rewrite H1, H2. reflexivity. }
  unfold emit_sum, emit_mean, emit_var, emit_std, emit_skew, emit_kurt. rewrite Hpv, H1, H3, H4.
  destruct (mp <=? m_n s)%nat; repeat split; try reflexivity.
  - cbn [nleb nsqrt ndiv nmul nsub nadd NumXR xleb xsqrt].
    rewrite ?xdiv_none_l, ?xdiv_none_r, ?xl2_none_l, ?xl2_none_r, ?xdiv_none_l. 
    cbn [powi powi_pos Pos.of_nat Pos.succ nmul NumXR].
    rewrite ?xdiv_none_l, ?xdiv_none_r, ?xl2_none_l, ?xl2_none_r. reflexivity.
  - cbn [nleb nsqrt ndiv nmul nsub nadd NumXR xleb xsqrt].
    rewrite ?xdiv_none_l, ?xdiv_none_r, ?xl2_none_l, ?xl2_none_r. reflexivity.
Qed.

