(* Proofs/IdxRun.v — the positional invariant rule for callbacks run by the window-index drivers
   (rolling_apply_idx, both bodies) in the Ok/Panic monad (Model/Cmp.v: lift_cb, seal, idx_run).
   If a predicate `Pre k s` ("state before step k") holds initially and every step from a state satisfying
   it succeeds, re-establishes it for k+1 and produces an output satisfying `Out k`, then the whole call
   returns (no panic, every slot written) and output k satisfies `Out k` — for every series.
   Stdlib only, axiom-free.                                                                        *)
From Tevec Require Import Base.Prelude Model.Driver Proofs.Driver Model.Cmp.

Lemma uget_nth {T} (xs : list T) i v : nth_error xs i = Some v -> uget xs i = Ok v.
Proof. intros H. unfold uget. rewrite H. reflexivity. Qed.

(* the start index the driver passes at position k against the window start: during warm-up there is none and
   the window starts at 0, afterwards it is the window start and the next window starts one later *)
Lemma start_of_cases wd k : 1 <= wd ->
  (k < wd - 1 /\ start_of wd k = None /\ wstart wd k = 0 /\ wstart wd (S k) = 0) \/
  (wd - 1 <= k /\ start_of wd k = Some (wstart wd k) /\ wstart wd (S k) = S (wstart wd k)).
Proof.
  intros Hwd. unfold start_of, wstart. destruct (Nat.ltb_spec k (wd - 1)); [left|right]; repeat split; try lia.
  f_equal. lia.
Qed.

Lemma start_of_wstart wd : 1 <= wd -> forall k,
  start_of wd k = if k <? wd - 1 then None else Some (wstart wd k).
Proof.
  intros Hwd k. destruct (start_of_cases wd k Hwd) as [(E & -> & _)|(E & -> & _)].
  - rewrite (proj2 (Nat.ltb_lt _ _) E). reflexivity.
  - rewrite (proj2 (Nat.ltb_ge _ _) E). reflexivity.
Qed.

Lemma start_of_or_0 wd k : 1 <= wd -> match start_of wd k with Some st => st | None => 0 end = wstart wd k.
Proof. intros Hwd. destruct (start_of_cases wd k Hwd) as [(_ & -> & -> & _)|(_ & -> & _)]; reflexivity. Qed.

Lemma wstart_clamp w len i : i < len -> wstart (Nat.min len w) i = wstart w i.
Proof. intros Hi. unfold wstart. lia. Qed.

(* a relation on the outputs that determines them gives the output list pointwise *)
Lemma nth_from_rel {O} (out : list O) n (P : nat -> O -> Prop) (f : nat -> O) :
  length out = n -> (forall i o, nth_error out i = Some o -> P i o) ->
  (forall i o, i < n -> P i o -> o = f i) ->
  forall i, i < n -> nth_error out i = Some (f i).
Proof.
  intros Hl HP Hf i Hi. destruct (nth_error out i) as [o|] eqn:E.
  - f_equal. apply Hf; [exact Hi|apply HP; exact E].
  - apply nth_error_None in E. lia.
Qed.

Lemma skipn_cons_nth {T} k (xs : list T) v l :
  skipn k xs = v :: l -> nth_error xs k = Some v /\ skipn (S k) xs = l.
Proof.
  revert xs; induction k as [|k IH]; intros xs H.
  - destruct xs as [|x xs]; [discriminate|]. cbn in H. injection H as -> ->. split; reflexivity.
  - destruct xs as [|x xs]; [discriminate|]. cbn [skipn] in H. apply IH in H. exact H.
Qed.

Lemma collect_map_Ok {O} (l : list O) : collect (map Ok l) = Ok l.
Proof. induction l as [|a l IH]; [reflexivity|]. cbn. rewrite IH. reflexivity. Qed.

Lemma idx_run_empty {T St O} body w (cb : St -> option nat * nat * T -> res (St * O)) s0 :
  idx_run body w cb s0 [] = Done [].
Proof. destruct body, w; reflexivity. Qed.

(* a window of 0 over a non-empty series is rejected by the driver's assert (the cmp family clamps the window
   to the length first, so this is the only way its driver sees 0) *)
Lemma idx_run_window0 {T St O} body (cb : St -> option nat * nat * T -> res (St * O)) s0 (xs : list T) :
  xs <> [] -> idx_run body 0 cb s0 xs = Panicked AssertFail.
Proof. intros H. destruct xs as [|x xs]; [contradiction|]. destruct body; reflexivity. Qed.

Section IdxRun.
  Context {T St O : Type}.
  Variable cb : St -> option nat * nat * T -> res (St * O).
  Variable xs : list T.
  Variable sf : nat -> option nat.          (* the start index the driver passes at step k *)
  Variable Pre : nat -> St -> Prop.
  Variable Out : nat -> O -> Prop.
  Hypothesis step : forall k v s, nth_error xs k = Some v -> Pre k s ->
    exists s' o, cb s (sf k, k, v) = Ok (s', o) /\ Pre (S k) s' /\ Out k o.

  Lemma run_lift_from : forall l k s, skipn k xs = l -> Pre k s ->
    exists outs,
      run (lift_cb cb) (Ok s)
          (map (fun p => (sf (fst p), fst p, snd p)) (combine (seq k (length l)) l)) = map Ok outs /\
      length outs = length l /\
      forall j o, nth_error outs j = Some o -> Out (k + j) o.
  Proof.
    induction l as [|v l IH]; intros k s Hl HP.
    - exists []. cbn. split; [reflexivity|]. split; [reflexivity|]. intros j o H. destruct j; discriminate.
    - destruct (@skipn_cons_nth T k xs v l Hl) as [Hv Hl'].
      destruct (step k v s Hv HP) as (s' & o & Hcb & HP' & HO).
      destruct (IH (S k) s' Hl' HP') as (outs & Hrun & Hlen & Hout).
      exists (o :: outs). cbn [length seq combine map run fst snd lift_cb]. rewrite Hcb.
      cbn [map]. rewrite Hrun. split; [reflexivity|]. split; [cbn; f_equal; exact Hlen|].
      intros j o' Hj. destruct j as [|j].
      + cbn in Hj. injection Hj as <-. rewrite Nat.add_0_r. exact HO.
      + cbn in Hj. replace (k + S j) with (S k + j) by lia. apply Hout. exact Hj.
  Qed.

  Lemma run_lift_all s0 : Pre 0 s0 ->
    exists outs,
      run (lift_cb cb) (Ok s0) (mapi (fun i v => (sf i, i, v)) xs) = map Ok outs /\
      length outs = length xs /\
      forall j o, nth_error outs j = Some o -> Out j o.
  Proof.
    intros HP. destruct (run_lift_from xs 0 s0 eq_refl HP) as (outs & H1 & H2 & H3).
    exists outs. split; [|split; [exact H2|exact H3]].
    unfold mapi. exact H1.
  Qed.

  (* the state between the steps: after k steps it satisfies Pre k *)
  Lemma state_lift s0 : Pre 0 s0 -> forall k, k <= length xs ->
    exists s, state_after (lift_cb cb) (Ok s0) (firstn k (mapi (fun i v => (sf i, i, v)) xs)) = Ok s /\
              Pre k s.
  Proof.
    intros HP0. induction k as [|k IH]; intros Hk.
    - exists s0. split; [reflexivity|exact HP0].
    - destruct IH as (s & Hs & HP); [lia|].
      destruct (nth_error_Some_lt xs k) as [v Hv]; [lia|].
      assert (Ha : nth_error (mapi (fun i v => (sf i, i, v)) xs) k = Some (sf k, k, v))
        by (rewrite nth_error_mapi, Hv; reflexivity).
      rewrite (firstn_S_nth _ _ _ Ha), state_after_app, Hs. cbn [state_after fst lift_cb].
      destruct (step k v s Hv HP) as (s' & o & Hcb & HP' & _). rewrite Hcb. cbn [fst].
      exists s'. split; [reflexivity|exact HP'].
  Qed.
End IdxRun.

(* both bodies: the start index passed at step k is start_of (driver window) k, where the two-phase body
   clamps the window to the length once more *)
Definition eff_window (body : bool) (w len : nat) : nat := if body then Nat.min w len else w.

Theorem idx_run_spec {T St O} (cb : St -> option nat * nat * T -> res (St * O)) (xs : list T)
        (body : bool) (w : nat) (Pre : nat -> St -> Prop) (Out : nat -> O -> Prop) (s0 : St) :
  1 <= w ->
  Pre 0 s0 ->
  (forall k v s, nth_error xs k = Some v -> Pre k s ->
     exists s' o, cb s (start_of (eff_window body w (length xs)) k, k, v) = Ok (s', o) /\
                  Pre (S k) s' /\ Out k o) ->
  exists outs, idx_run body w cb s0 xs = Done outs /\ length outs = length xs /\
               forall j o, nth_error outs j = Some o -> Out j o.
Proof.
  intros Hw H0 Hstep.
  destruct (run_lift_all cb xs (start_of (eff_window body w (length xs))) Pre Out Hstep s0 H0)
    as (outs & Hrun & Hlen & Hout).
  exists outs. split; [|split; [exact Hlen|exact Hout]].
  unfold idx_run. destruct body; cbn [eff_window] in Hrun.
  - rewrite rolling_apply_idx_to_eq by exact Hw. unfold args_to_idx. rewrite Hrun.
    cbn [seal]. rewrite collect_map_Ok. reflexivity.
  - rewrite rolling_apply_idx_default_eq by exact Hw. rewrite Hrun.
    cbn [seal]. rewrite collect_map_Ok. reflexivity.
Qed.

(* the cmp family clamps the window to the length itself, so both bodies pass start_of (cmp_window w xs) *)
Corollary cmp_run_spec {T St O} (cb : St -> option nat * nat * T -> res (St * O)) (xs : list T)
        (body : bool) (w : nat) (Pre : nat -> St -> Prop) (Out : nat -> O -> Prop) (s0 : St) :
  1 <= w -> 1 <= length xs ->
  Pre 0 s0 ->
  (forall k v s, nth_error xs k = Some v -> Pre k s ->
     exists s' o, cb s (start_of (cmp_window w xs) k, k, v) = Ok (s', o) /\ Pre (S k) s' /\ Out k o) ->
  exists outs, idx_run body (cmp_window w xs) cb s0 xs = Done outs /\ length outs = length xs /\
               forall j o, nth_error outs j = Some o -> Out j o.
Proof.
  intros Hw Hlen H0 Hstep. apply idx_run_spec with (Pre := Pre); [unfold cmp_window; lia|exact H0|].
  replace (eff_window body (cmp_window w xs) (length xs)) with (cmp_window w xs)
    by (unfold eff_window, cmp_window; destruct body; lia).
  exact Hstep.
Qed.
