(* Proofs/Mask4.v — C05: the plain rolling families (ts_sum .. ts_kurt, ts_ewm, ts_wma: the same closures with the
   never-null dictionary) on a null-free series have the mask of the null-aware families, with the valid count
   being the window length.  Corollaries of Proofs/Features.v plain_family_* and the masks of Mask.v / Mask2.v. *)
From Coq Require Import Reals Lra Lia List.
From Tevec Require Import Base.Prelude Base.Num Base.XR Spec.Stats Model.Driver Proofs.Driver
     Model.Features Proofs.Features Proofs.Fdiff Proofs.Fdiff2 Proofs.Mask Proofs.Mask2.
Import ListNotations.

Lemma plain_transfer {St} (Fp Fv : feat XR St XR) body (w : nat) (rs : list R) (M : list R -> bool) :
  ts_run Fp body w (map Some rs) = ts_run Fv body w (map Some rs) ->
  outputs (ts_run Fv body w (map Some rs)) (length (map (@Some R) rs))
    (fun i o => is_null o = M (valid (win w i (map Some rs)))) ->
  outputs (ts_run Fp body w (map Some rs)) (length rs) (fun i o => is_null o = M (win w i rs)).
Proof.
  intros E (out & H1 & H2 & H3). rewrite map_length in *. exists out. rewrite E.
  split; [exact H1|]. split; [exact H2|]. intros i Hi. destruct (H3 i Hi) as (o & Ho & Hn).
  exists o. split; [exact Ho|]. rewrite Hn, win_map, valid_map_some. reflexivity.
Qed.

Theorem mask_plain_sum body (w : nat) mp (rs : list R) :
  1 <= w ->
  outputs (ts_run (ts_vsum_f (DT := IsNone_never) w mp) body w (map Some rs)) (length rs)
      (fun i o => is_null o = below (mp_eff mp w 0) (win w i rs)).
Proof.
  intros Hw. apply (plain_transfer _ (ts_vsum_f (DT := IsNoneXR) w mp) body w rs (below (mp_eff mp w 0))).
  - apply plain_family_mom. exact Hw.
  - apply mask_vsum. exact Hw.
Qed.

Theorem mask_plain_mean body (w : nat) mp (rs : list R) :
  1 <= w ->
  outputs (ts_run (ts_vmean_f (DT := IsNone_never) w mp) body w (map Some rs)) (length rs)
      (fun i o => is_null o = orb (below (mp_eff mp w 0) (win w i rs)) (below 1 (win w i rs))).
Proof.
  intros Hw. apply (plain_transfer _ (ts_vmean_f (DT := IsNoneXR) w mp) body w rs
                      (fun V => orb (below (mp_eff mp w 0) V) (below 1 V))).
  - apply plain_family_mom. exact Hw.
  - apply mask_vmean. exact Hw.
Qed.

Theorem mask_plain_var body (w : nat) mp (rs : list R) :
  1 <= w ->
  outputs (ts_run (ts_vvar_f (DT := IsNone_never) w mp) body w (map Some rs)) (length rs)
      (fun i o => is_null o = below (mp_eff mp w 2) (win w i rs)).
Proof.
  intros Hw. apply (plain_transfer _ (ts_vvar_f (DT := IsNoneXR) w mp) body w rs (below (mp_eff mp w 2))).
  - apply plain_family_mom. exact Hw.
  - apply mask_vvar. exact Hw.
Qed.

Theorem mask_plain_std body (w : nat) mp (rs : list R) :
  1 <= w ->
  outputs (ts_run (ts_vstd_f (DT := IsNone_never) w mp) body w (map Some rs)) (length rs)
      (fun i o => is_null o = below (mp_eff mp w 2) (win w i rs)).
Proof.
  intros Hw. apply (plain_transfer _ (ts_vstd_f (DT := IsNoneXR) w mp) body w rs (below (mp_eff mp w 2))).
  - apply plain_family_mom. exact Hw.
  - apply mask_vstd. exact Hw.
Qed.

Theorem mask_plain_skew body (w : nat) mp (rs : list R) :
  1 <= w ->
  outputs (ts_run (ts_vskew_f (DT := IsNone_never) w mp) body w (map Some rs)) (length rs)
      (fun i o => is_null o = below (mp_eff mp w 3) (win w i rs)).
Proof.
  intros Hw. apply (plain_transfer _ (ts_vskew_f (DT := IsNoneXR) w mp) body w rs (below (mp_eff mp w 3))).
  - apply plain_family_mom. exact Hw.
  - apply mask_vskew. exact Hw.
Qed.

Theorem mask_plain_kurt body (w : nat) mp (rs : list R) :
  1 <= w ->
  outputs (ts_run (ts_vkurt_f (DT := IsNone_never) w mp) body w (map Some rs)) (length rs)
      (fun i o => is_null o = below (mp_eff mp w 4) (win w i rs)).
Proof.
  intros Hw. apply (plain_transfer _ (ts_vkurt_f (DT := IsNoneXR) w mp) body w rs (below (mp_eff mp w 4))).
  - apply plain_family_mom. exact Hw.
  - apply mask_vkurt. exact Hw.
Qed.

Theorem mask_plain_ewm body (w : nat) mp (rs : list R) :
  1 <= w ->
  outputs (ts_run (ts_vewm_f (DT := IsNone_never) w mp) body w (map Some rs)) (length rs)
      (fun i o => is_null o = orb (below (mp_eff mp w 0) (win w i rs)) (below 1 (win w i rs))).
Proof.
  intros Hw. apply (plain_transfer _ (ts_vewm_f (DT := IsNoneXR) w mp) body w rs
                      (fun V => orb (below (mp_eff mp w 0) V) (below 1 V))).
  - apply plain_family_ewm. exact Hw.
  - apply mask_vewm. exact Hw.
Qed.

Theorem mask_plain_wma body (w : nat) mp (rs : list R) :
  1 <= w ->
  outputs (ts_run (ts_vwma_f (DT := IsNone_never) w mp) body w (map Some rs)) (length rs)
      (fun i o => is_null o = orb (below (mp_eff mp w 0) (win w i rs)) (below 1 (win w i rs))).
Proof.
  intros Hw. apply (plain_transfer _ (ts_vwma_f (DT := IsNoneXR) w mp) body w rs
                      (fun V => orb (below (mp_eff mp w 0) V) (below 1 V))).
  - apply plain_family_wma. exact Hw.
  - apply mask_vwma. exact Hw.
Qed.
