(* Proofs/SortCmp.v — the insertion sort that models std's sorts: permutation, sortedness, how it commutes
   with a key projection; list facts about prefixes used with it.  Needs neither Reals nor XR; axiom-free. *)
From Coq Require Import List Arith Bool Sorting Permutation.
From Tevec Require Import Model.SortCmp.
Import ListNotations.

Section SortFacts.
  Context {X : Type} (cmp : X -> X -> comparison).
  Notation le := (fun a b => cle cmp a b = true).

  Lemma insert_perm x l : Permutation (insert cmp x l) (x :: l).
  Proof.
    induction l as [|y r IH]; cbn [insert]; [reflexivity|].
    destruct (cle cmp x y); [reflexivity|].
    rewrite IH. apply perm_swap.
  Qed.

  Lemma isort_perm l : Permutation (isort cmp l) l.
  Proof.
    induction l as [|x l IH]; cbn [isort fold_right]; [reflexivity|].
    fold (isort cmp l). rewrite insert_perm. constructor. exact IH.
  Qed.

  Lemma isort_length l : length (isort cmp l) = length l.
  Proof. apply Permutation_length, isort_perm. Qed.

  Hypothesis total : forall a b, cle cmp a b = true \/ cle cmp b a = true.

  Lemma insert_sorted x l : Sorted le l -> Sorted le (insert cmp x l).
  Proof.
    induction l as [|y r IH]; intros Hs; cbn [insert].
    - repeat constructor.
    - destruct (cle cmp x y) eqn:E.
      + constructor; [exact Hs|constructor; exact E].
      + inversion Hs as [|? ? Hr Hhd]; subst.
        constructor; [apply IH; exact Hr|].
        destruct r as [|z r']; cbn [insert].
        * constructor. destruct (total x y) as [H|H]; [congruence|exact H].
        * destruct (cle cmp x z); constructor.
          -- destruct (total x y) as [H|H]; [congruence|exact H].
          -- inversion Hhd; assumption.
  Qed.

  Lemma isort_sorted l : Sorted le (isort cmp l).
  Proof.
    induction l as [|x l IH]; cbn [isort fold_right]; [constructor|].
    apply insert_sorted. exact IH.
  Qed.
End SortFacts.

Lemma In_firstn {X} (l : list X) m x : In x (firstn m l) -> In x l.
Proof. rewrite <- (firstn_skipn m l) at 2. intros H. apply in_or_app. left. exact H. Qed.
Lemma In_skipn {X} (l : list X) m x : In x (skipn m l) -> In x l.
Proof. rewrite <- (firstn_skipn m l) at 2. intros H. apply in_or_app. right. exact H. Qed.
Lemma NoDup_firstn {X} (l : list X) m : NoDup l -> NoDup (firstn m l).
Proof.
  revert m. induction l as [|a l IH]; intros m Hnd; [rewrite firstn_nil; constructor|].
  destruct m; [constructor|]. cbn [firstn]. inversion Hnd; subst. constructor; [|apply IH; assumption].
  intros Hin. apply In_firstn in Hin. contradiction.
Qed.
Lemma Forall_firstn {X} (P : X -> Prop) k (l : list X) : Forall P l -> Forall P (firstn k l).
Proof. rewrite !Forall_forall. intros H x Hx. apply H. eapply In_firstn. exact Hx. Qed.
Lemma Forall_repeat {X} (P : X -> Prop) (x : X) n : P x -> Forall P (repeat x n).
Proof. intros H. induction n; cbn; constructor; assumption. Qed.
Lemma firstn_repeat {X} (x : X) k n : firstn k (repeat x n) = repeat x (Nat.min k n).
Proof.
  revert n. induction k as [|k IH]; intros n; [reflexivity|].
  destruct n as [|n]; [reflexivity|]. cbn. f_equal. apply IH.
Qed.
Lemma sorted_firstn {X} (le : X -> X -> Prop) k (l : list X) : Sorted le l -> Sorted le (firstn k l).
Proof.
  intros Hs. revert k. induction Hs as [|a l Hl IH Hhd]; intros k; [rewrite firstn_nil; constructor|].
  destruct k as [|k]; [constructor|]. cbn [firstn]. constructor; [apply IH|].
  destruct Hhd; destruct k; cbn; constructor. assumption.
Qed.

Section SortMap.
  Context {X Y : Type} (f : X -> Y) (cmp : Y -> Y -> comparison).
  Let cmpf := fun a b => cmp (f a) (f b).

  Lemma insert_map x l : map f (insert cmpf x l) = insert cmp (f x) (map f l).
  Proof.
    induction l as [|y r IH]; [reflexivity|]. cbn [insert map]. unfold cle, cmpf.
    destruct (cmp (f x) (f y)); cbn [map]; try reflexivity. f_equal. exact IH.
  Qed.
  Lemma isort_map l : map f (isort cmpf l) = isort cmp (map f l).
  Proof.
    induction l as [|x l IH]; [reflexivity|]. cbn [isort fold_right map].
    fold (isort cmpf l). fold (isort cmp (map f l)). rewrite insert_map, IH. reflexivity.
  Qed.
End SortMap.
