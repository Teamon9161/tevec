(* Proofs/HalfLifeExec.v — C20: the oracle of the executable half_life, vcorr_pearson(xs, vshift(xs, lag)) > 0.5,
   is false at every lag >= len: everything is shifted out, no complete pair is left, the correlation is the
   carrier's NaN.  Every element type, every carrier whose NaN tests as NaN (option R, binary64): no other law of
   the numeric class is used.                                                                          *)
From Coq Require Import Lia List ZArith Bool.
From Tevec Require Import Base.Prelude Model.MapOps Proofs.MapOps.
From Tevec Require Import Base.Num Model.Agg Model.Composite.
Import ListNotations.

Section Exec.
  Context {T : Type}.

  Lemma lagged_out (nv : T) (lag : nat) (xs : list T) :
    length xs <= lag -> lagged nv lag xs = repeat nv (length xs).
  Proof.
    intros H. unfold lagged, shift.
    replace (Z.of_nat (length xs) <=? Z.abs (Z.of_nat lag))%Z with true; [reflexivity|].
    symmetry. apply Z.leb_le. lia.
  Qed.

  (* vshift never panics and keeps the length (C13_shift_positional): the Panic arm of `lagged` is dead *)
  Lemma lagged_is_shift (nv : T) (lag : nat) (xs : list T) :
    shift (Z.of_nat lag) nv xs = Ok (lagged nv lag xs) /\ length (lagged nv lag xs) = length xs.
  Proof.
    destruct (shift_positional (Z.of_nat lag) nv xs) as (r & Hr & Hl & _).
    unfold lagged. rewrite Hr. split; [reflexivity|exact Hl].
  Qed.
End Exec.

Section OracleOut.
  Context {A : Type} {NA : Num A} {T : Type} {DT : IsNone T A}.
  Variable nv : T.
  Hypothesis Hnv : Num.is_none nv = true.

  (* no complete pair when the second series is all null *)
  Lemma corr_fold_all_null (xs : list T) :
    forall n st, fold_left (corr_step (DT := DT) (DT2 := DT) (@idA A)) (combine xs (repeat nv n)) st = st.
  Proof.
    induction xs as [|x xs IH]; intros n st; [reflexivity|].
    destruct n as [|n]; [reflexivity|]. cbn [repeat combine fold_left].
    assert (Hs : corr_step (DT := DT) (DT2 := DT) (@idA A) st (x, nv) = st).
    { destruct st as [[[[[c sa] s2a] sb] s2b] sab]. unfold corr_step. cbn [fst snd].
      unfold not_none. rewrite Hnv. rewrite andb_false_r. reflexivity. }
    rewrite Hs. apply IH.
  Qed.

  Lemma autocorr_out (mp : nat) (xs : list T) (lag : nat) :
    length xs <= lag -> autocorr (DT := DT) mp nv xs lag = nnan.
  Proof.
    intros H. unfold autocorr, vcorr_pearson. rewrite (lagged_out nv lag xs H), corr_fold_all_null.
    replace (Nat.max mp 2 <=? 0) with false by (symmetry; apply Nat.leb_gt; lia). reflexivity.
  Qed.

  Lemma above_half_out (mp : nat) (xs : list T) (lag : nat) :
    nisnan (nnan : A) = true -> length xs <= lag -> above_half (DT := DT) mp nv xs lag = false.
  Proof. intros Hnan H. unfold above_half. rewrite (autocorr_out mp xs lag H), Hnan, orb_true_r. reflexivity. Qed.
End OracleOut.
