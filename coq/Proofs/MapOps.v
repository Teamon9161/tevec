(* Proofs/MapOps.v — the models of Model/MapOps.v meet the positional definitions of Spec/MapOps.v
   (property C13).  Stdlib only, axiom-free.                                                       *)
From Coq Require Import ZifyBool.
From Tevec Require Import Base.Prelude Model.MapOps Spec.MapOps.
Set Implicit Arguments.
Local Open Scope Z_scope.

Lemma nth_error_tabulate {A} (f : nat -> A) n i :
  nth_error (tabulate f n) i = if (i <? n)%nat then Some (f i) else None.
Proof.
  unfold tabulate. rewrite nth_error_map, nth_error_seq.
  destruct (i <? n)%nat; reflexivity.
Qed.

Lemma tabulate_length {A} (f : nat -> A) n : length (tabulate f n) = n.
Proof. unfold tabulate. rewrite map_length, seq_length. reflexivity. Qed.

Lemma tabulate_positional {A} (f : nat -> A) n :
  length (tabulate f n) = n /\ forall i, (i < n)%nat -> nth_error (tabulate f n) i = Some (f i).
Proof.
  split; [apply tabulate_length|]. intros i Hi. rewrite nth_error_tabulate.
  rewrite (proj2 (Nat.ltb_lt _ _) Hi). reflexivity.
Qed.

Lemma tabulate_const {A} (f : nat -> A) v n : (forall i, (i < n)%nat -> f i = v) -> repeat v n = tabulate f n.
Proof.
  intros H. apply nth_error_ext. intros i. rewrite nth_error_repeat, nth_error_tabulate.
  destruct (Nat.ltb_spec i n) as [Hi|Hi]; [rewrite (H i Hi)|]; reflexivity.
Qed.

Lemma nth_error_Some_length {A} (l : list A) i x : nth_error l i = Some x -> (i < length l)%nat.
Proof. intros H. apply nth_error_Some. rewrite H. discriminate. Qed.

Lemma nth_error_rev_lt {A} (l : list A) i :
  (i < length l)%nat -> nth_error (rev l) i = nth_error l (length l - S i).
Proof. intros Hi. rewrite nth_error_rev, ltb_true by exact Hi. f_equal. lia. Qed.

Lemma sequence_map_Ok {A} (l : list A) : sequence (map (@Ok A) l) = Ok l.
Proof. induction l as [|a l IH]; [reflexivity|]. cbn. rewrite IH. reflexivity. Qed.

Lemma sequence_length {A} (l : list (res A)) r : sequence l = Ok r -> length r = length l.
Proof.
  revert r; induction l as [|a l IH]; intros r H; cbn in H.
  - injection H as <-. reflexivity.
  - destruct a as [a|k]; cbn in H; [|discriminate].
    destruct (sequence l) as [t|k]; cbn in H; [|discriminate].
    injection H as <-. cbn. f_equal. apply IH. reflexivity.
Qed.

Lemma mapM_pointwise {A B} (f : A -> res B) (g : A -> B) (l : list A) :
  (forall x, In x l -> f x = Ok (g x)) -> mapM f l = Ok (map g l).
Proof.
  intros H. unfold mapM. rewrite <- sequence_map_Ok. f_equal.
  rewrite map_map. apply map_ext_in. exact H.
Qed.

Lemma mapM_length {A B} (f : A -> res B) (l : list A) r : mapM f l = Ok r -> length r = length l.
Proof. unfold mapM. intros H. apply sequence_length in H. rewrite map_length in H. exact H. Qed.

(* the lagged source: the cell that output position i reads under a lag of n, None where there is none.
   shift_at, diff_at and pct_at are functions of it; the three lemmas lag_far / lag_pos / lag_npos say
   which cell it is in each branch of the code, in the code's own index arithmetic. *)

Definition lag {T} (n : Z) (xs : list T) (i : nat) : option T :=
  if in_range (length xs) (src n i) then nth_error xs (Z.to_nat (src n i)) else None.

Lemma in_range_lt len j : in_range len j = true -> (Z.to_nat j < len)%nat.
Proof. unfold in_range. lia. Qed.

Lemma lag_in_range {T} n (xs : list T) i v :
  in_range (length xs) (src n i) = true -> lag n xs i = Some (nth (Z.to_nat (src n i)) xs v).
Proof. intros H. unfold lag. rewrite H. apply nth_error_nth'. apply in_range_lt. exact H. Qed.

Lemma lag_far {T} n (xs : list T) i :
  Z.of_nat (length xs) <= Z.abs n -> (i < length xs)%nat -> lag n xs i = None.
Proof.
  intros H Hi. unfold lag, in_range, src.
  destruct ((0 <=? Z.of_nat i - n) && (Z.of_nat i - n <? Z.of_nat (length xs))) eqn:E; [lia|reflexivity].
Qed.

Lemma lag_pos {T} n (xs : list T) i :
  0 < n ->
  lag n xs i = if (i <? Z.to_nat (Z.abs n))%nat then None else nth_error xs (i - Z.to_nat (Z.abs n)).
Proof.
  intros Hn. unfold lag, in_range, src.
  destruct ((0 <=? Z.of_nat i - n) && (Z.of_nat i - n <? Z.of_nat (length xs))) eqn:E;
    destruct (i <? Z.to_nat (Z.abs n))%nat eqn:Hik; try lia.
  - f_equal. lia.
  - reflexivity.
  - symmetry. apply nth_error_None. lia.
Qed.

Lemma lag_npos {T} n (xs : list T) i :
  n <= 0 -> lag n xs i = nth_error xs (Z.to_nat (Z.abs n) + i).
Proof.
  intros Hn. unfold lag, in_range, src.
  destruct ((0 <=? Z.of_nat i - n) && (Z.of_nat i - n <? Z.of_nat (length xs))) eqn:E.
  - f_equal. lia.
  - symmetry. apply nth_error_None. lia.
Qed.

Section ShiftProofs.
  Context {T : Type}.

  Lemma shift_at_lag n (v : T) xs i :
    shift_at n v xs i = match lag n xs i with Some a => a | None => v end.
  Proof.
    unfold shift_at. destruct (in_range (length xs) (src n i)) eqn:E.
    - rewrite (lag_in_range _ _ _ v E). reflexivity.
    - unfold lag. rewrite E. reflexivity.
  Qed.

  Lemma shift_spec (n : Z) (v : T) (xs : list T) :
    shift n v xs = Ok (tabulate (shift_at n v xs) (length xs)).
  Proof.
    unfold shift.
    destruct (Z.of_nat (length xs) <=? Z.abs n) eqn:Hguard; [|destruct (0 <? n) eqn:Hpos; [|destruct (n <? 0) eqn:Hneg]].
    - f_equal. apply tabulate_const. intros i Hi. rewrite shift_at_lag, lag_far by lia. reflexivity.
    - unfold usub. rewrite (proj2 (Nat.leb_le _ _)) by lia. cbn [bind]. f_equal.
      apply nth_error_ext. intros i.
      rewrite nth_error_app, repeat_length, nth_error_repeat, nth_error_firstn, nth_error_tabulate,
        shift_at_lag, lag_pos by lia.
      destruct (i <? Z.to_nat (Z.abs n))%nat eqn:Hik; [rewrite ltb_true by lia; reflexivity|].
      replace (i - Z.to_nat (Z.abs n) <? length xs - Z.to_nat (Z.abs n))%nat with (i <? length xs)%nat by lia.
      destruct (i <? length xs)%nat eqn:Hi; [|reflexivity].
      destruct (nth_error xs (i - Z.to_nat (Z.abs n))) eqn:Ha; [reflexivity|apply nth_error_None in Ha; lia].
    - f_equal. apply nth_error_ext. intros i.
      rewrite nth_error_app, skipn_length, nth_error_skipn, nth_error_repeat, nth_error_tabulate,
        shift_at_lag, lag_npos by lia.
      destruct (i <? length xs - Z.to_nat (Z.abs n))%nat eqn:Hik.
      + rewrite ltb_true by lia.
        destruct (nth_error xs (Z.to_nat (Z.abs n) + i)) eqn:Ha; [reflexivity|apply nth_error_None in Ha; lia].
      + replace (i - (length xs - Z.to_nat (Z.abs n)) <? Z.to_nat (Z.abs n))%nat with (i <? length xs)%nat by lia.
        destruct (i <? length xs)%nat eqn:Hi; [|reflexivity].
        rewrite (proj2 (nth_error_None xs (Z.to_nat (Z.abs n) + i))) by lia. reflexivity.
    - assert (n = 0) by lia. subst n. f_equal. apply nth_error_ext. intros i.
      rewrite nth_error_tabulate, shift_at_lag, lag_npos by lia. cbn [Z.abs Z.to_nat Nat.add].
      destruct (nth_error xs i) eqn:Ha.
      + rewrite ltb_true by (apply nth_error_Some_length in Ha; exact Ha). reflexivity.
      + rewrite ltb_false by (apply nth_error_None; exact Ha). reflexivity.
  Qed.

  Theorem shift_positional (n : Z) (v : T) (xs : list T) :
    exists r, shift n v xs = Ok r /\ length r = length xs /\
      forall i, (i < length xs)%nat -> nth_error r i = Some (shift_at n v xs i).
  Proof.
    exists (tabulate (shift_at n v xs) (length xs)). split; [apply shift_spec|apply tabulate_positional].
  Qed.

  Theorem vshift_positional {I} (d : NullDict T I) (n : Z) (value : option T) (v : T) (xs : list T) :
    or_none d value = Ok v ->
    exists r, vshift d n value xs = Ok r /\ length r = length xs /\
      forall i, (i < length xs)%nat -> nth_error r i = Some (shift_at n v xs i).
  Proof. intros Hv. unfold vshift. rewrite Hv. cbn [bind]. apply shift_positional. Qed.

End ShiftProofs.

Section DiffProofs.
  Context {T I : Type} (d : NullDict T I) (sub : T -> T -> T).

  Lemma nth_error_map_combine {A B C} (f : A * B -> C) (l1 : list A) (l2 : list B) i :
    nth_error (map f (combine l1 l2)) i =
    match nth_error l1 i, nth_error l2 i with Some a, Some b => Some (f (a, b)) | _, _ => None end.
  Proof.
    rewrite nth_error_map, nth_error_combine.
    destruct (nth_error l1 i), (nth_error l2 i); reflexivity.
  Qed.

  Lemma diff_at_lag n (v : T) xs i :
    diff_at sub n v xs i = match lag n xs i with Some a => sub (nth i xs v) a | None => v end.
  Proof.
    unfold diff_at. destruct (in_range (length xs) (src n i)) eqn:E.
    - rewrite (lag_in_range _ _ _ v E). reflexivity.
    - unfold lag. rewrite E. reflexivity.
  Qed.

  Lemma vdiff_spec (n : Z) (value : option T) (v : T) (xs : list T) :
    or_none d value = Ok v ->
    vdiff d sub n value xs = Ok (tabulate (diff_at sub n v xs) (length xs)).
  Proof.
    intros Hv. unfold vdiff. rewrite Hv. cbn [bind].
    destruct (Z.of_nat (length xs) <=? Z.abs n) eqn:Hguard; [|destruct (0 <? n) eqn:Hpos].
    - f_equal. apply tabulate_const. intros i Hi. rewrite diff_at_lag, lag_far by lia. reflexivity.
    - unfold usub. rewrite (proj2 (Nat.leb_le _ _)) by lia. cbn [bind]. f_equal.
      apply nth_error_ext. intros i.
      rewrite nth_error_app, repeat_length, nth_error_repeat, nth_error_map_combine,
        nth_error_firstn, nth_error_skipn, nth_error_tabulate, diff_at_lag, lag_pos by lia.
      cbn [fst snd].
      destruct (i <? Z.to_nat (Z.abs n))%nat eqn:Hik; [rewrite ltb_true by lia; reflexivity|].
      replace (Z.to_nat (Z.abs n) + (i - Z.to_nat (Z.abs n)))%nat with i by lia.
      replace (i - Z.to_nat (Z.abs n) <? length xs - Z.to_nat (Z.abs n))%nat with (i <? length xs)%nat by lia.
      destruct (i <? length xs)%nat eqn:Hi; [|reflexivity].
      rewrite (nth_error_nth' xs v (n:=i)) by lia.
      destruct (nth_error xs (i - Z.to_nat (Z.abs n))) eqn:Ha; [reflexivity|apply nth_error_None in Ha; lia].
    - f_equal. apply nth_error_ext. intros i.
      rewrite nth_error_app, map_length, combine_length, skipn_length, nth_error_map_combine,
        nth_error_skipn, nth_error_repeat, nth_error_tabulate, diff_at_lag, lag_npos by lia.
      cbn [fst snd].
      replace (Nat.min (length xs - Z.to_nat (Z.abs n)) (length xs)) with (length xs - Z.to_nat (Z.abs n))%nat by lia.
      destruct (i <? length xs - Z.to_nat (Z.abs n))%nat eqn:Hik.
      + rewrite ltb_true by lia. rewrite (nth_error_nth' xs v (n:=i)) by lia.
        destruct (nth_error xs (Z.to_nat (Z.abs n) + i)) eqn:Ha; [reflexivity|apply nth_error_None in Ha; lia].
      + replace (i - (length xs - Z.to_nat (Z.abs n)) <? Z.to_nat (Z.abs n))%nat with (i <? length xs)%nat by lia.
        destruct (i <? length xs)%nat eqn:Hi; [|reflexivity].
        rewrite (proj2 (nth_error_None xs (Z.to_nat (Z.abs n) + i))) by lia. reflexivity.
  Qed.

  Theorem vdiff_positional (n : Z) (value : option T) (v : T) (xs : list T) :
    or_none d value = Ok v ->
    exists r, vdiff d sub n value xs = Ok r /\ length r = length xs /\
      forall i, (i < length xs)%nat -> nth_error r i = Some (diff_at sub n v xs i).
  Proof.
    intros Hv. exists (tabulate (diff_at sub n v xs) (length xs)).
    split; [apply vdiff_spec; exact Hv|apply tabulate_positional].
  Qed.

  Lemma vdiff_none_panics (n : Z) (xs : list T) k :
    none d = Panic k -> vdiff d sub n None xs = Panic k.
  Proof. intros H. unfold vdiff, or_none. rewrite H. reflexivity. Qed.

  (* a null operand gives a null result whenever subtraction propagates nulls (NaN arithmetic) *)
  Lemma diff_at_null (n : Z) (v : T) (xs : list T) (i : nat) :
    (forall a b, is_none d a = true \/ is_none d b = true -> is_none d (sub b a) = true) ->
    in_range (length xs) (src n i) = true ->
    is_none d (nth i xs v) = true \/ is_none d (nth (Z.to_nat (src n i)) xs v) = true ->
    is_none d (diff_at sub n v xs i) = true.
  Proof.
    intros Hsub Hr Hn. unfold diff_at. rewrite Hr. apply Hsub. tauto.
  Qed.
End DiffProofs.

Section PctProofs.
  Context {T I F : Type} (d : NullDict T I) (o : FOps F) (cast : T -> F).
  (* the two facts about f64 and Cast<f64> the n > 0 branch relies on *)
  Hypothesis cast_null : forall v, fisnan o (cast v) = is_none d v.
  Hypothesis nan_null : fisnan o (fnanv o) = true.

  Lemma pct_neg_formula a b : pct_neg d o cast a b = pct_formula d o cast a b.
  Proof.
    unfold pct_neg, pct_formula.
    destruct (is_none d a), (is_none d b), (fis0 o (cast a)); reflexivity.
  Qed.
  Lemma pct_pos_formula a b : pct_pos d o cast (cast a) b = pct_formula d o cast a b.
  Proof. unfold pct_pos, pct_formula. rewrite cast_null. reflexivity. Qed.
  Lemma pct_pos_nan b : pct_pos d o cast (fnanv o) b = fnanv o.
  Proof. unfold pct_pos. rewrite nan_null. reflexivity. Qed.

  Lemma pct_at_lag n xs i :
    pct_at d o cast n xs i =
    match lag n xs i, nth_error xs i with Some a, Some b => pct_formula d o cast a b | _, _ => fnanv o end.
  Proof. unfold pct_at, lag. destruct (in_range (length xs) (src n i)); reflexivity. Qed.

  Lemma vpct_change_spec (n : Z) (xs : list T) :
    vpct_change d o cast n xs = Ok (tabulate (pct_at d o cast n xs) (length xs)).
  Proof.
    unfold vpct_change.
    destruct (Z.of_nat (length xs) <=? Z.abs n) eqn:Hguard; [|destruct (0 <? n) eqn:Hpos].
    - f_equal. apply tabulate_const. intros i Hi. rewrite pct_at_lag, lag_far by lia. reflexivity.
    - unfold usub. rewrite (proj2 (Nat.leb_le _ _)) by lia. cbn [bind]. f_equal.
      apply nth_error_ext. intros i.
      rewrite nth_error_map_combine, nth_error_app, repeat_length, nth_error_repeat, nth_error_map,
        nth_error_firstn, nth_error_tabulate, pct_at_lag, lag_pos by lia.
      cbn [fst snd].
      destruct (i <? length xs)%nat eqn:Hi.
      + destruct (nth_error xs i) as [b|] eqn:Hb; [|apply nth_error_None in Hb; lia].
        destruct (i <? Z.to_nat (Z.abs n))%nat eqn:Hik; [rewrite pct_pos_nan; reflexivity|].
        rewrite ltb_true by lia.
        destruct (nth_error xs (i - Z.to_nat (Z.abs n))) as [a|] eqn:Ha; [|apply nth_error_None in Ha; lia].
        cbn [option_map]. rewrite pct_pos_formula. reflexivity.
      + rewrite (proj2 (nth_error_None xs i)) by lia.
        destruct (if (i <? Z.to_nat (Z.abs n))%nat then _ else _); reflexivity.
    - f_equal. apply nth_error_ext. intros i.
      rewrite nth_error_app, map_length, combine_length, skipn_length, nth_error_map_combine,
        nth_error_skipn, nth_error_repeat, nth_error_tabulate, pct_at_lag, lag_npos by lia.
      cbn [fst snd].
      replace (Nat.min (length xs - Z.to_nat (Z.abs n)) (length xs)) with (length xs - Z.to_nat (Z.abs n))%nat by lia.
      destruct (i <? length xs - Z.to_nat (Z.abs n))%nat eqn:Hik.
      + rewrite ltb_true by lia.
        destruct (nth_error xs (Z.to_nat (Z.abs n) + i)) as [a|] eqn:Ha; [|apply nth_error_None in Ha; lia].
        destruct (nth_error xs i) as [b|] eqn:Hb; [|apply nth_error_None in Hb; lia].
        rewrite pct_neg_formula. reflexivity.
      + replace (i - (length xs - Z.to_nat (Z.abs n)) <? Z.to_nat (Z.abs n))%nat with (i <? length xs)%nat by lia.
        destruct (i <? length xs)%nat eqn:Hi; [|reflexivity].
        rewrite (proj2 (nth_error_None xs (Z.to_nat (Z.abs n) + i))) by lia. reflexivity.
  Qed.

  Theorem vpct_change_positional (n : Z) (xs : list T) :
    exists r, vpct_change d o cast n xs = Ok r /\ length r = length xs /\
      forall i, (i < length xs)%nat -> nth_error r i = Some (pct_at d o cast n xs i).
  Proof.
    exists (tabulate (pct_at d o cast n xs) (length xs)).
    split; [apply vpct_change_spec|apply tabulate_positional].
  Qed.
End PctProofs.

Section FillProofs.
  Context {T I : Type} (d : NullDict T I).

  Lemma last_valid_snoc (mask : T -> bool) l v :
    last_valid mask (l ++ [v]) = if mask v then last_valid mask l else Some v.
  Proof.
    unfold last_valid. rewrite rev_app_distr. cbn [rev app find].
    destruct (mask v); reflexivity.
  Qed.

  (* the closure state is the nearest earlier unmasked element *)
  Lemma ffill_state (mask : T -> bool) value l :
    state_after (ffill_step d mask value) None l = last_valid mask l.
  Proof.
    induction l as [|v l IH] using rev_ind; [reflexivity|].
    rewrite state_after_app, IH, last_valid_snoc. cbn [state_after]. unfold ffill_step.
    destruct (mask v); reflexivity.
  Qed.

  (* wherever the run asks for the default (a masked element with no unmasked one before it), it is dv *)
  Lemma ffill_run_ok (mask : T -> bool) value dv xs :
    (forall i x, nth_error xs i = Some x -> mask x = true -> last_valid mask (firstn i xs) = None ->
                 or_none d value = Ok dv) ->
    run (ffill_step d mask value) None xs = map (@Ok T) (mapi (ffill_at mask dv xs) xs).
  Proof.
    intros Hd. apply nth_error_ext. intros i.
    rewrite nth_error_map, nth_error_mapi.
    destruct (nth_error xs i) as [x|] eqn:Hx.
    - rewrite (run_nth _ _ _ _ Hx), ffill_state. cbn [option_map]. f_equal.
      unfold ffill_step, ffill_at. destruct (mask x) eqn:Hm; [|reflexivity]. cbn [snd].
      destruct (last_valid mask (firstn i xs)) eqn:El; [reflexivity|]. exact (Hd i x Hx Hm El).
    - cbn [option_map]. apply nth_error_None. rewrite run_length. apply nth_error_None. exact Hx.
  Qed.

  Lemma ffill_run (mask : T -> bool) value dv xs :
    or_none d value = Ok dv ->
    run (ffill_step d mask value) None xs = map (@Ok T) (mapi (ffill_at mask dv xs) xs).
  Proof. intros Hv. apply ffill_run_ok. intros. exact Hv. Qed.

  Theorem ffill_mask_spec (mask : T -> bool) value dv xs :
    or_none d value = Ok dv ->
    ffill_mask d mask value xs = Ok (mapi (ffill_at mask dv xs) xs).
  Proof. intros Hv. unfold ffill_mask. rewrite (ffill_run _ _ _ Hv). apply sequence_map_Ok. Qed.

  (* when nothing is selected by the mask (e.g. is_none on an integer series) the default is never
     needed: identity, even where `none()` would panic *)
  Lemma ffill_run_unmasked (mask : T -> bool) value xs s :
    (forall x, In x xs -> mask x = false) ->
    run (ffill_step d mask value) s xs = map (@Ok T) xs.
  Proof.
    revert s; induction xs as [|x xs IH]; intros s H; [reflexivity|].
    cbn [run map]. unfold ffill_step at 1. rewrite (H x) by (left; reflexivity).
    f_equal. apply IH. intros y Hy. apply H. right. exact Hy.
  Qed.

  Theorem bfill_mask_spec (mask : T -> bool) value dv xs :
    or_none d value = Ok dv ->
    bfill_mask d mask value xs = Ok (mapi (bfill_at mask dv xs) xs).
  Proof.
    intros Hv. unfold bfill_mask.
    change (sequence (run (ffill_step d mask value) None (rev xs))) with (ffill_mask d mask value (rev xs)).
    rewrite (ffill_mask_spec _ _ _ Hv). cbn [bind]. f_equal.
    apply nth_error_ext. intros i.
    destruct (i <? length xs)%nat eqn:Hi.
    - apply Nat.ltb_lt in Hi.
      rewrite nth_error_rev_lt by (rewrite mapi_length, rev_length; exact Hi).
      rewrite mapi_length, rev_length, !nth_error_mapi.
      rewrite nth_error_rev_lt by lia.
      replace (length xs - S (length xs - S i))%nat with i by lia.
      destruct (nth_error xs i) as [x|] eqn:Hx; [|reflexivity]. cbn [option_map]. f_equal.
      unfold ffill_at, bfill_at. destruct (mask x); [|reflexivity].
      rewrite firstn_rev.
      replace (length xs - (length xs - S i))%nat with (S i) by lia.
      unfold last_valid, next_valid. rewrite rev_involutive. reflexivity.
    - apply Nat.ltb_ge in Hi.
      transitivity (@None T); [|symmetry]; apply nth_error_None.
      + rewrite rev_length, mapi_length, rev_length. exact Hi.
      + rewrite mapi_length. exact Hi.
  Qed.

  Theorem ffill_mask_positional (mask : T -> bool) value dv xs :
    or_none d value = Ok dv ->
    exists r, ffill_mask d mask value xs = Ok r /\ length r = length xs /\
      forall i x, nth_error xs i = Some x -> nth_error r i = Some (ffill_at mask dv xs i x).
  Proof.
    intros Hv. exists (mapi (ffill_at mask dv xs) xs). split; [apply ffill_mask_spec; exact Hv|].
    split; [apply mapi_length|]. intros i x Hx. rewrite nth_error_mapi, Hx. reflexivity.
  Qed.
  Theorem bfill_mask_positional (mask : T -> bool) value dv xs :
    or_none d value = Ok dv ->
    exists r, bfill_mask d mask value xs = Ok r /\ length r = length xs /\
      forall i x, nth_error xs i = Some x -> nth_error r i = Some (bfill_at mask dv xs i x).
  Proof.
    intros Hv. exists (mapi (bfill_at mask dv xs) xs). split; [apply bfill_mask_spec; exact Hv|].
    split; [apply mapi_length|]. intros i x Hx. rewrite nth_error_mapi, Hx. reflexivity.
  Qed.

  (* what last_valid / next_valid mean: the NEAREST earlier / later unmasked element *)
  Lemma next_valid_Some (mask : T -> bool) l y :
    next_valid mask l = Some y <->
    exists j, nth_error l j = Some y /\ mask y = false /\
              forall k x, (k < j)%nat -> nth_error l k = Some x -> mask x = true.
  Proof.
    unfold next_valid. induction l as [|a l IH]; cbn [find].
    - split; [discriminate|]. intros (j & Hj & _). destruct j; discriminate.
    - destruct (mask a) eqn:Ha; cbn [negb].
      + rewrite IH. split.
        * intros (j & Hj & Hy & Hall). exists (S j). split; [exact Hj|]. split; [exact Hy|].
          intros k x Hk Hx. destruct k as [|k]; [cbn in Hx; injection Hx as <-; exact Ha|].
          apply (Hall k x); [lia|exact Hx].
        * intros (j & Hj & Hy & Hall). destruct j as [|j].
          -- cbn in Hj. injection Hj as ->. congruence.
          -- exists j. split; [exact Hj|]. split; [exact Hy|].
             intros k x Hk Hx. apply (Hall (S k) x); [lia|exact Hx].
      + split.
        * intros H. injection H as ->. exists 0%nat. split; [reflexivity|]. split; [exact Ha|].
          intros k x Hk. lia.
        * intros (j & Hj & Hy & Hall). destruct j as [|j].
          -- cbn in Hj. exact Hj.
          -- specialize (Hall 0%nat a ltac:(lia) eq_refl). congruence.
  Qed.

  Lemma next_valid_None (mask : T -> bool) l :
    next_valid mask l = None <-> forall x, In x l -> mask x = true.
  Proof.
    unfold next_valid. split.
    - intros H x Hx. apply (find_none _ _ H) in Hx. destruct (mask x); [reflexivity|discriminate].
    - intros H. destruct (find _ l) as [y|] eqn:E; [|reflexivity].
      apply find_some in E. destruct E as [Hin Hy]. rewrite (H y Hin) in Hy. discriminate.
  Qed.

  Theorem last_valid_none_earlier (mask : T -> bool) xs i :
    last_valid mask (firstn i xs) = None <->
    forall k x, (k < i)%nat -> nth_error xs k = Some x -> mask x = true.
  Proof.
    unfold last_valid.
    change (find (fun v => negb (mask v)) (rev (firstn i xs))) with (next_valid mask (rev (firstn i xs))).
    rewrite next_valid_None. split.
    - intros H k x Hk Hx. apply H. apply -> in_rev. apply (nth_error_In _ k).
      rewrite nth_error_firstn, ltb_true by lia. exact Hx.
    - intros H x Hx. apply in_rev in Hx. apply In_nth_error in Hx. destruct Hx as [k Hk].
      rewrite nth_error_firstn in Hk. destruct (k <? i)%nat eqn:E; [|discriminate].
      apply Nat.ltb_lt in E. apply (H k x E Hk).
  Qed.

  Theorem fill_mask_positional (mask : T -> bool) v xs i :
    nth_error (fill_mask mask v xs) i = option_map (fun x => if mask x then v else x) (nth_error xs i).
  Proof. unfold fill_mask. apply nth_error_map. Qed.
End FillProofs.

Section ClipProofs.
  Context {T I : Type} (d : NullDict T I) (inner : T -> I) (ltb : I -> I -> bool).
  (* the one law of the dictionary vclip relies on: unwrap of a non-null element succeeds *)
  Hypothesis unwrap_ok : forall v, is_none d v = false -> unwrap d v = Ok (inner v).

  Theorem vclip_spec (lower upper : T) (xs : list T) :
    vclip d ltb lower upper xs = Ok (map (clip_elem d inner ltb lower upper) xs).
  Proof.
    unfold vclip.
    destruct (is_none d lower) eqn:Hl, (is_none d upper) eqn:Hu; cbn [negb].
    - (* no bound *)
      f_equal. symmetry. rewrite <- (map_id xs) at 2. apply map_ext. intros x.
      unfold clip_elem. rewrite Hl, Hu. cbn [negb andb]. destruct (is_none d x); reflexivity.
    - (* upper only *)
      rewrite (unwrap_ok _ Hu). cbn [bind]. apply mapM_pointwise. intros x _.
      unfold clip_hi, clip_elem. rewrite Hl, Hu. cbn [negb andb].
      destruct (is_none d x) eqn:Hx; cbn [negb]; [reflexivity|].
      rewrite (unwrap_ok _ Hx). reflexivity.
    - (* lower only *)
      rewrite (unwrap_ok _ Hl). cbn [bind]. apply mapM_pointwise. intros x _.
      unfold clip_lo, clip_elem. rewrite Hl, Hu. cbn [negb andb].
      destruct (is_none d x) eqn:Hx; cbn [negb]; [reflexivity|].
      rewrite (unwrap_ok _ Hx). cbn [bind]. destruct (ltb (inner x) (inner lower)); reflexivity.
    - (* both *)
      rewrite (unwrap_ok _ Hl), (unwrap_ok _ Hu). cbn [bind]. apply mapM_pointwise. intros x _.
      unfold clip2, clip_elem. rewrite Hl, Hu. cbn [negb andb].
      destruct (is_none d x) eqn:Hx; cbn [negb]; [reflexivity|].
      rewrite (unwrap_ok _ Hx). reflexivity.
  Qed.

  Lemma clip_elem_null lower upper x :
    is_none d x = true -> clip_elem d inner ltb lower upper x = x.
  Proof. intros H. unfold clip_elem. rewrite H. reflexivity. Qed.

  Lemma clip_elem_cases lower upper x :
    is_none d x = false ->
    let y := clip_elem d inner ltb lower upper x in
    (y = x /\ (is_none d lower = false -> ltb (inner x) (inner lower) = false)
           /\ (is_none d upper = false -> ltb (inner upper) (inner x) = false))
    \/ (y = lower /\ is_none d lower = false)
    \/ (y = upper /\ is_none d upper = false).
  Proof.
    intros Hx. cbv zeta. unfold clip_elem. rewrite Hx.
    destruct (is_none d lower) eqn:Hl; cbn [negb andb].
    - destruct (is_none d upper) eqn:Hu; cbn [negb andb].
      + left. split; [reflexivity|]. split; discriminate.
      + destruct (ltb (inner upper) (inner x)) eqn:E.
        * right. right. split; reflexivity.
        * left. split; [reflexivity|]. split; [discriminate|intros _; reflexivity].
    - destruct (ltb (inner x) (inner lower)) eqn:E1.
      + right. left. split; reflexivity.
      + destruct (is_none d upper) eqn:Hu; cbn [negb andb].
        * left. split; [reflexivity|]. split; [intros _; reflexivity|discriminate].
        * destruct (ltb (inner upper) (inner x)) eqn:E2.
          -- right. right. split; reflexivity.
          -- left. split; [reflexivity|]. split; intros _; reflexivity.
  Qed.

  Lemma clip_elem_nullness lower upper x :
    is_none d (clip_elem d inner ltb lower upper x) = is_none d x.
  Proof.
    destruct (is_none d x) eqn:Hx; [rewrite clip_elem_null by exact Hx; exact Hx|].
    destruct (clip_elem_cases lower upper x Hx) as [(E & _)|[(E & H)|(E & H)]]; cbv zeta in E; rewrite E; assumption.
  Qed.

  Lemma clip_elem_fixed lower upper y :
    (is_none d y = false ->
     (is_none d lower = false -> ltb (inner y) (inner lower) = false) /\
     (is_none d upper = false -> ltb (inner upper) (inner y) = false)) ->
    clip_elem d inner ltb lower upper y = y.
  Proof.
    intros H. unfold clip_elem. destruct (is_none d y) eqn:Hy; [reflexivity|].
    destruct (H eq_refl) as [H1 H2].
    destruct (is_none d lower) eqn:Hl; cbn [negb andb].
    - destruct (is_none d upper) eqn:Hu; cbn [negb andb]; [reflexivity|].
      rewrite (H2 eq_refl). reflexivity.
    - rewrite (H1 eq_refl).
      destruct (is_none d upper) eqn:Hu; cbn [negb andb]; [reflexivity|].
      rewrite (H2 eq_refl). reflexivity.
  Qed.

  (* with a strict order (only irreflexivity is needed) and lower <= upper:
     idempotent, and every non-null result lies inside the non-null bounds *)
  Hypothesis ltb_irrefl : forall a, ltb a a = false.

  Theorem clip_elem_idempotent lower upper x :
    (is_none d lower = false -> is_none d upper = false ->
     leb_of ltb (inner lower) (inner upper) = true) ->
    clip_elem d inner ltb lower upper (clip_elem d inner ltb lower upper x)
    = clip_elem d inner ltb lower upper x.
  Proof.
    intros Hle. unfold leb_of in Hle.
    destruct (is_none d x) eqn:Hx.
    { rewrite (clip_elem_null lower upper x Hx). apply clip_elem_null. exact Hx. }
    destruct (clip_elem_cases lower upper x Hx) as [(Hy & H1 & H2)|[(Hy & Hl)|(Hy & Hu)]]; rewrite Hy.
    - apply clip_elem_fixed. intros _. split; assumption.
    - apply clip_elem_fixed. intros _. split; [intros _; apply ltb_irrefl|].
      intros Hu. specialize (Hle Hl Hu). destruct (ltb (inner upper) (inner lower)); [discriminate|reflexivity].
    - apply clip_elem_fixed. intros _. split; [|intros _; apply ltb_irrefl].
      intros Hl. specialize (Hle Hl Hu). destruct (ltb (inner upper) (inner lower)); [discriminate|reflexivity].
  Qed.

  Theorem clip_elem_contained lower upper x :
    (is_none d lower = false -> is_none d upper = false ->
     leb_of ltb (inner lower) (inner upper) = true) ->
    is_none d x = false ->
    (is_none d lower = false ->
     leb_of ltb (inner lower) (inner (clip_elem d inner ltb lower upper x)) = true) /\
    (is_none d upper = false ->
     leb_of ltb (inner (clip_elem d inner ltb lower upper x)) (inner upper) = true).
  Proof.
    intros Hle Hx. unfold leb_of in *.
    destruct (clip_elem_cases lower upper x Hx) as [(Hy & H1 & H2)|[(Hy & Hl)|(Hy & Hu)]]; rewrite Hy.
    - split; intros Hb; [rewrite (H1 Hb)|rewrite (H2 Hb)]; reflexivity.
    - split; [intros _; rewrite ltb_irrefl; reflexivity|]. intros Hu. apply Hle; assumption.
    - split; [|intros _; rewrite ltb_irrefl; reflexivity]. intros Hl. apply Hle; assumption.
  Qed.
End ClipProofs.

Lemma unwrap_ok_float {A} (inan : A -> bool) nanv v :
  is_none (dict_float inan nanv) v = false -> unwrap (dict_float inan nanv) v = Ok ((fun x => x) v).
Proof. reflexivity. Qed.
Definition opt_inner {A} (dflt : A) (o : option A) : A := match o with Some v => v | None => dflt end.

Section AbsProofs.
  Context {A : Type} (aabs : A -> A).

  Theorem vabs_int xs : vabs dict_int aabs xs = Ok (map aabs xs).
  Proof. unfold vabs. apply mapM_pointwise. reflexivity. Qed.

  Variable inan : A -> bool.
  Theorem vabs_float nanv xs : vabs (dict_float inan nanv) aabs xs = Ok (map aabs xs).
  Proof. unfold vabs. apply mapM_pointwise. reflexivity. Qed.

  (* Option: None stays None; Some v becomes Some |v| (a null |v| would be canonicalised to None) *)
  Definition vabs_opt_elem (o : option A) : option A :=
    match o with Some v => if inan (aabs v) then None else Some (aabs v) | None => None end.
  Theorem vabs_opt xs : vabs (dict_opt inan) aabs xs = Ok (map vabs_opt_elem xs).
  Proof. unfold vabs. apply mapM_pointwise. intros [v|] _; reflexivity. Qed.

  Hypothesis abs_nan : forall v, inan (aabs v) = inan v.

  Lemma vabs_opt_elem_canonical o :
    (forall v, o = Some v -> inan v = false) -> vabs_opt_elem o = option_map aabs o.
  Proof.
    intros H. destruct o as [v|]; [|reflexivity]. cbn. rewrite abs_nan, (H v eq_refl). reflexivity.
  Qed.

  Lemma vabs_opt_nullness o :
    (forall v, o = Some v -> inan v = false) ->
    is_none (dict_opt inan) (vabs_opt_elem o) = is_none (dict_opt inan) o.
  Proof. intros H. rewrite vabs_opt_elem_canonical by exact H. destruct o; reflexivity. Qed.

  Lemma vabs_float_nullness nanv v :
    is_none (dict_float inan nanv) (aabs v) = is_none (dict_float inan nanv) v.
  Proof. cbn. apply abs_nan. Qed.
End AbsProofs.

