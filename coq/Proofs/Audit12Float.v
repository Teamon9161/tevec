(* Proofs/Audit12Float.v — C12: the VALUE of the quantile at binary64 (what can be said).

   Carrier: Coq's primitive `float` = IEEE binary64, the instance the correspondence run evaluates.
   Bridge: Proofs/RoundSum.v (f2r, ffin, rnd64, fmt64, add_exact), Proofs/QIdxFloat.v (index law, fmul_between,
   rnd64_mono), Flocq's Bplus_correct and sterbenz.

   `interp_f64_between`: the linear interpolation  r = fl(vi + fl(fl(vj - vi) * fraction))  with
       finite vi, vj, 0 <= fraction <= 1, no overflow in vj - vi: r is finite and lies between vi and
       E = fl(vi + fl(vj - vi)) (the value at fraction 1).  In particular r never leaves vi on the wrong
       side: vi <= vj -> vi <= r (mirrored branch: vj <= vi -> r <= vi).
   `sub_exact_of_fmt`, `sterbenz_f64`: when the difference vj - vi is exact (vi, vj within a factor 2;
       dyadic data on a common grid) E = vj, so r lies in [vi, vj] (Props/C12.v); without exactness that is
       false at fraction = 1 (vi = -1, vj = 2^-53 + 2^-105: fl(vj - vi) rounds up to 1 + 2^-52 and
       r = 2^-52 > vj; `overshoot_series` reaches it through vquantile).
   Still open (Definition interp_f64_strict_fraction_statement): for fraction < 1 strictly the upper
   bound r <= vj should hold unconditionally (midpoint argument on pred(fl(vj - vi))); and that the
   fraction the code computes, fl(fl(q - qi) / fl(qj - qi)), lies in [0, 1].                              *)
From Coq Require Import Reals Lra ZArith List Floats Bool Psatz.
From Flocq Require Import Core BinarySingleNaN Sterbenz.
From Flocq Require PrimFloat.
From Tevec Require Import Base.Num Proofs.RoundSum Proofs.QIdxFloat Proofs.Audit12.
Import ListNotations.
Local Open Scope R_scope.

Module FP := Flocq.IEEE754.PrimFloat.

Local Instance prec64_gt_0' : Prec_gt_0 53 := eq_refl _.

Lemma mul_frac_between (d fr : float) :
  ffin d = true -> ffin fr = true -> 0 <= f2r fr <= 1 ->
  ffin (d * fr)%float = true /\
  (Rmin 0 (f2r d) <= f2r (d * fr)%float <= Rmax 0 (f2r d)).
Proof.
  intros Fd Ff Hf. pose proof (fmt64_f2r d) as Hfd. pose proof (f2r_lt_emax d) as Bd.
  unfold Rmin, Rmax. destruct (Rle_dec 0 (f2r d)) as [Hd|Hd].
  - apply fmul_between; [exact Fd|exact Ff|apply fmt64_0|exact Hfd|split; nra|apply zero_lt_emax|exact Bd].
  - apply fmul_between; [exact Fd|exact Ff|exact Hfd|apply fmt64_0|split; nra|exact Bd|apply zero_lt_emax].
Qed.

(* fl(x + p) is finite as soon as the ROUNDED sum is bounded below the overflow threshold *)
Lemma add_rnd_finite (x p : float) (lo hi : R) :
  ffin x = true -> ffin p = true -> lo <= rnd64 (f2r x + f2r p) <= hi ->
  Rabs lo < bpow radix2 1024 -> Rabs hi < bpow radix2 1024 ->
  ffin (x + p)%float = true /\ f2r (x + p)%float = rnd64 (f2r x + f2r p).
Proof.
  intros Fx Fp HR Blo Bhi. rewrite ffin_equiv in *. unfold f2r in *. rewrite FP.add_equiv.
  pose proof (Bplus_correct FloatOps.prec FloatOps.emax FP.Hprec FP.Hmax mode_NE (FP.Prim2B x) (FP.Prim2B p) Fx Fp) as HC.
  match type of HC with context [round ?r ?f ?c ?y] => change (round r f c y) with (rnd64 y) in HC end.
  rewrite Rlt_bool_true in HC by exact (between_lt_emax _ _ _ HR Blo Bhi).
  destruct HC as (H1 & H2 & _). split; [exact H2|exact H1].
Qed.

(* the interpolation of Model/Quantile.v at binary64: vi + (vj - vi) * fraction *)
Definition interp64 (vi vj fr : float) : float := (vi + (vj - vi) * fr)%float.

Theorem interp_f64_between (vi vj fr : float) :
  ffin vi = true -> ffin fr = true -> 0 <= f2r fr <= 1 ->
  ffin (vj - vi)%float = true -> ffin (vi + (vj - vi))%float = true ->
  let E := f2r (vi + (vj - vi))%float in
  ffin (interp64 vi vj fr) = true /\
  (0 <= f2r (vj - vi)%float -> f2r vi <= f2r (interp64 vi vj fr) <= E) /\
  (f2r (vj - vi)%float <= 0 -> E <= f2r (interp64 vi vj fr) <= f2r vi).
Proof.
  intros Fvi Ffr Hfr Fd FE E. unfold interp64. set (d := (vj - vi)%float) in *.
  destruct (mul_frac_between d fr Fd Ffr Hfr) as [Fp Hp]. set (p := (d * fr)%float) in *.
  pose proof (add_finite_val vi d FE) as HE. fold E in HE.
  assert (FmtV : fmt64 (f2r vi)) by apply fmt64_f2r.
  assert (BE : Rabs E < bpow radix2 1024) by apply f2r_lt_emax.
  assert (BV : Rabs (f2r vi) < bpow radix2 1024) by apply f2r_lt_emax.
  set (r := rnd64 (f2r vi + f2r p)).
  assert (Hr : (0 <= f2r d -> f2r vi <= r <= E) /\ (f2r d <= 0 -> E <= r <= f2r vi)).
  { unfold Rmin, Rmax in Hp. split; intros Hd.
    - assert (Hp' : 0 <= f2r p <= f2r d) by (destruct (Rle_dec 0 (f2r d)); lra).
      split.
      + unfold r. rewrite <- (rnd64_id _ FmtV) at 1. apply rnd64_mono. lra.
      + unfold r. rewrite HE. apply rnd64_mono. lra.
    - assert (Hp' : f2r d <= f2r p <= 0) by (destruct (Rle_dec 0 (f2r d)); lra).
      split.
      + unfold r. rewrite HE. apply rnd64_mono. lra.
      + unfold r. apply Rle_trans with (rnd64 (f2r vi)); [apply rnd64_mono; lra|rewrite (rnd64_id _ FmtV); lra]. }
  destruct Hr as [Hr1 Hr2].
  assert (Hfin : ffin (vi + p)%float = true /\ f2r (vi + p)%float = r).
  { destruct (Rle_dec 0 (f2r d)) as [Hd|Hd].
    - apply (add_rnd_finite vi p (f2r vi) E Fvi Fp (Hr1 Hd) BV BE).
    - apply (add_rnd_finite vi p E (f2r vi) Fvi Fp (Hr2 ltac:(lra)) BE BV). }
  destruct Hfin as [F1 E1]. split; [exact F1|]. rewrite E1. split; assumption.
Qed.


(* the difference of two floats within a factor two of each other is exact (Sterbenz), so is every difference that
   stays on a common grid below 2^53 grid steps *)
Lemma sub_exact_of_fmt (vi vj : float) :
  ffin vi = true -> ffin vj = true -> fmt64 (f2r vj - f2r vi) -> Rabs (f2r vj - f2r vi) < bpow radix2 1024 ->
  ffin (vj - vi)%float = true /\ f2r (vj - vi)%float = f2r vj - f2r vi.
Proof.
  intros Fvi Fvj HF HB. rewrite sub_is_add_opp.
  destruct (add_exact vj (- vi)%float) as [F E].
  - exact Fvj.
  - rewrite ffin_opp. exact Fvi.
  - rewrite f2r_opp. exact HF.
  - rewrite f2r_opp. exact HB.
  - split; [exact F|]. rewrite E, f2r_opp. ring.
Qed.

Lemma sterbenz_f64 (vi vj : float) :
  ffin vi = true -> ffin vj = true -> f2r vi / 2 <= f2r vj <= 2 * f2r vi ->
  ffin (vj - vi)%float = true /\ f2r (vj - vi)%float = f2r vj - f2r vi.
Proof.
  intros Fvi Fvj H. apply sub_exact_of_fmt; try assumption.
  - unfold fmt64. apply (@sterbenz radix2 (FLT_exp (-1074) 53) (FLT_exp_valid (-1074) 53) (FLT_exp_monotone (-1074) 53));
      [apply fmt64_f2r|apply fmt64_f2r|exact H].
  - pose proof (f2r_lt_emax vi) as B1. pose proof (f2r_lt_emax vj) as B2.
    assert (0 <= f2r vi) by lra.
    rewrite Rabs_pos_eq in B1 by lra. assert (0 <= f2r vj) by lra. rewrite Rabs_pos_eq in B2 by lra.
    apply Rabs_lt. lra.
Qed.


(* what remains open, stated *)
Definition interp_f64_strict_fraction_statement : Prop :=
  forall vi vj fr : float,
    ffin vi = true -> ffin vj = true -> ffin fr = true -> 0 <= f2r fr < 1 -> f2r vi <= f2r vj ->
    ffin (vj - vi)%float = true -> f2r vi <= f2r (interp64 vi vj fr) <= f2r vj.

Definition fraction_f64_in_unit_statement : Prop :=
  forall (q : float) (n : nat),
    nleb (A := float) nzero q && nleb q none = true -> (2 <= n)%nat -> (Z.of_nat n <= 2 ^ 53)%Z ->
    let len_1 := nofnat (A := float) (n - 1) in
    let qq := qfac q in
    let i := qi_of (NF := NumFloorF64) q n in let j := qj_of (NF := NumFloorF64) q n in
    i <> j ->
    let fr := ((qq - nofnat i / len_1) / (nofnat j / len_1 - nofnat i / len_1))%float in
    ffin fr = true /\ 0 <= f2r fr <= 1.

(* the overshoot is reachable through vquantile itself: 50 valid elements, q = fl(1/49): fl(49 q) = 0.9999999999999999,
   floor 0, ceil 1, fraction = q / q = 1; the two smallest elements are -1 and 2^-53 + 2^-105, the other 48 are 1.
   The linear quantile returned, 2^-52, is ABOVE the upper neighbour s[1] (by 2^-53 - 2^-105: far inside the 1e-9
   tolerance of DESIGN 5.1, but outside the interval [s[0], s[1]] that the exact-real statement guarantees) *)
Definition overshoot_series : list float :=
  (-1)%float :: 0x1.0000000000001p-53%float :: repeat 1%float 48.
Definition overshoot_q : float := (1 / 49)%float.

