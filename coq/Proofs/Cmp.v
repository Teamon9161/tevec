(* Proofs/Cmp.v — the cached-extreme state machines of Model/Cmp.v at the integer carrier, as the instance of
   Proofs/CmpOrd.v at Z: for EVERY series (any null dictionary), window, min_periods and position, both driver bodies,
     - no panic, every slot written;
     - after every step the cached (value, index) pair is the LAST position of the null-last extreme of the
       window (invariant `lm`), the count is the number of valid elements of the window;
     - ts_vmin / ts_vmax = least / greatest valid element (None when there is none), subject to the mask;
     - ts_vargmin / ts_vargmax = 1-based offset of the last position holding it.
   Maxima are minima under the key x |-> -x (sort_cmp_rev a b = sort_cmp (-a) (-b)).
   Stdlib only, axiom-free.                                                                        *)
From Coq Require Import ZArith List Lia Bool.
From Tevec Require Import Base.Prelude Base.Num Model.Driver Proofs.Driver Model.Cmp Proofs.IdxRun
     Spec.Extrema Spec.ExtremaOrd Proofs.CmpOrd.
Import ListNotations.

Definition ocmp (a b : option Z) : comparison :=
  match a, b with
  | Some x, Some y => (x ?= y)%Z
  | None, None => Eq
  | None, Some _ => Gt
  | Some _, None => Lt
  end.
Definition ole (a b : option Z) : Prop := ocmp a b <> Gt.

Lemma sort_cmp_Z (a b : option Z) : sort_cmp a b = ocmp a b.
Proof.
  destruct a as [x|], b as [y|]; cbn; try reflexivity. unfold pcmp. cbn.
  destruct (Z.ltb_spec x y) as [H|H]; [symmetry; apply Z.compare_lt_iff; exact H|].
  destruct (Z.eqb_spec x y) as [->|Hne]; [symmetry; apply Z.compare_refl|].
  destruct (Z.ltb_spec y x) as [H2|H2]; [symmetry; apply Z.compare_gt_iff; exact H2|lia].
Qed.

Lemma sort_cmp_rev_Z (a b : option Z) :
  sort_cmp_rev a b = ocmp (option_map Z.opp a) (option_map Z.opp b).
Proof.
  destruct a as [x|], b as [y|]; cbn; try reflexivity. unfold pcmp. cbn.
  rewrite Z.compare_opp.
  destruct (Z.ltb_spec x y) as [H|H]; [cbn; symmetry; apply Z.compare_gt_iff; exact H|].
  destruct (Z.eqb_spec x y) as [->|Hne]; [cbn; symmetry; apply Z.compare_refl|].
  destruct (Z.ltb_spec y x) as [H2|H2]; [cbn; symmetry; apply Z.compare_lt_iff; exact H2|lia].
Qed.

Lemma ole_some x y : ole (Some x) (Some y) <-> (x <= y)%Z.
Proof. unfold ole. cbn. symmetry. apply Z.compare_le_iff. Qed.
Lemma ole_none_some y : ~ ole None (Some y).
Proof. unfold ole. cbn. intros H. apply H. reflexivity. Qed.
Lemma ole_any_none a : ole a None.
Proof. unfold ole. destruct a; cbn; discriminate. Qed.

Lemma ole_refl a : ole a a.
Proof. destruct a; [apply ole_some, Z.le_refl|apply ole_any_none]. Qed.
Lemma ole_trans a b c : ole a b -> ole b c -> ole a c.
Proof.
  intros H1 H2. destruct c as [z|]; [|apply ole_any_none].
  destruct b as [y|]; [|exfalso; exact (ole_none_some _ H2)].
  destruct a as [x|]; [|exfalso; exact (ole_none_some _ H1)].
  apply (proj1 (ole_some _ _)) in H1. apply (proj1 (ole_some _ _)) in H2. apply ole_some. lia.
Qed.
Lemma not_ole_ole a b : ~ ole a b -> ole b a.
Proof.
  intros H. destruct a as [x|]; [|apply ole_any_none]. destruct b as [y|]; [|exfalso; apply H, ole_any_none].
  apply ole_some. rewrite ole_some in H. lia.
Qed.

Section ExtZ.
  Context {T : Type} {DT : IsNone T Z}.
  Variable key : Z -> Z.
  Variable xs : list T.

  (* the element at position i as an optional integer (None: null, or out of range) *)
  Definition ov (i : nat) : option Z := match nth_error xs i with Some v => to_opt v | None => None end.
  Definition okey (i : nat) : option Z := option_map key (ov i).
  Definition ovs : list (option Z) := map to_opt xs.

  (* p is the LAST position of the null-last minimum (under key) of the positions [a, b) *)
  Definition lm (a b p : nat) : Prop :=
    a <= p < b /\ (forall j, a <= j < b -> ole (okey p) (okey j)) /\
    (forall j, p < j < b -> ~ ole (okey j) (okey p)).

  Definition count (a b : nat) : nat := length (validZ (seg a b ovs)).

  Variable wd : nat.

  Definition PreExt (k : nat) (s : ext) : Prop :=
    x_n s = count (wstart wd k) k /\
    ((k = 0 /\ x_val s = None /\ x_idx s = None) \/
     (0 < k /\ exists p, x_idx s = Some p /\ x_val s = ov p /\ lm (wstart wd (k - 1)) k p)).
End ExtZ.

(* ov, ovs, count are gov, govs, gcount at Z, and lm / PreExt are the predicates clm / CPre of the abstract machine of
   Proofs/CmpOrd.v at the comparison "ocmp under key" — all by unfolding, so its theorems apply as they stand: for
   xs, w, mp, k the state after k steps satisfies PreExt key xs (cmp_window w xs) k *)
Definition ext_cache_invariant_Z {T : Type} {DT : IsNone T Z} (scmp : option Z -> option Z -> comparison) (key : Z -> Z)
    (scmp_key : forall a b, scmp a b = ocmp (option_map key a) (option_map key b)) (xs : list T) :=
  ext_cache_invariant (fun a b => ocmp (option_map key a) (option_map key b)) (fun _ => True) I
    (fun a _ => ole_refl _) (fun a b c _ _ _ => @ole_trans _ _ _) (fun a b _ _ => @not_ole_ole _ _)
    scmp (fun a b _ _ => scmp_key a b) xs (fun _ _ => I).

Lemma ordlaws_Z : OrdLaws Z.
Proof. split; unfold num_ok; cbn; intros; lia. Qed.
Lemma ordstrict_Z : OrdStrict Z.
Proof. intros a b _ _ H. cbn in H. apply Z.eqb_eq. exact H. Qed.

Lemma okv_Z (o : option Z) : okv o.
Proof. destruct o; reflexivity || exact I. Qed.
Lemma valid_not_nan_Z {T} {DT : IsNone T Z} (xs : list T) : valid_not_nan xs.
Proof. intros v _ _. reflexivity. Qed.

Lemma gvalid_Z (l : list (option Z)) : gvalid l = validZ l.
Proof. reflexivity. Qed.
Lemma gmin_Z (l : list Z) : gmin l = list_min l.
Proof.
  unfold gmin. induction l as [|x r IH]; [reflexivity|]. cbn [ext_last list_min]. rewrite IH.
  destruct (list_min r) as [m|]; [|reflexivity]. cbn [nltb NumZ].
  destruct (Z.ltb_spec x m); f_equal; lia.
Qed.
Lemma gmax_Z (l : list Z) : gmax l = list_max l.
Proof.
  unfold gmax. induction l as [|x r IH]; [reflexivity|]. cbn [ext_last list_max]. rewrite IH.
  destruct (list_max r) as [m|]; [|reflexivity]. unfold ngtb. cbn [nltb NumZ].
  destruct (Z.ltb_spec m x); f_equal; lia.
Qed.
Lemma glast_pos_Z (m : Z) (W : list (option Z)) : glast_pos m W = last_pos m W.
Proof. induction W as [|a r IH]; [reflexivity|]. cbn [glast_pos last_pos]. rewrite IH. reflexivity. Qed.
Lemma gargmin_spec_Z (W : list (option Z)) : gargmin_spec W = argmin_spec W.
Proof. unfold gargmin_spec, argmin_spec. rewrite gvalid_Z, gmin_Z. destruct (list_min (validZ W)); [rewrite glast_pos_Z|]; reflexivity. Qed.
Lemma gargmax_spec_Z (W : list (option Z)) : gargmax_spec W = argmax_spec W.
Proof. unfold gargmax_spec, argmax_spec. rewrite gvalid_Z, gmax_Z. destruct (list_max (validZ W)); [rewrite glast_pos_Z|]; reflexivity. Qed.

Section Final.
  Context {T : Type} {DT : IsNone T Z}.

  Theorem ts_vmin_spec body w mp (xs : list T) :
    1 <= w -> 1 <= length xs ->
    exists out, ts_vmin body w mp xs = Done out /\ length out = length xs /\
      forall i, i < length xs ->
        nth_error out i =
        Some (let V := validZ (win w i (map to_opt xs)) in
              if cmp_mp mp (cmp_window w xs) <=? length V then list_min V else None).
  Proof.
    intros Hw Hlen.
    destruct (ts_vmin_ord ordlaws_Z body w mp xs (valid_not_nan_Z xs) Hw Hlen) as (out & H1 & H2 & H3).
    exists out. split; [exact H1|]. split; [exact H2|]. intros i Hi. rewrite (H3 i Hi). cbv zeta.
    rewrite gvalid_Z, gmin_Z. reflexivity.
  Qed.

  Theorem ts_vmax_spec body w mp (xs : list T) :
    1 <= w -> 1 <= length xs ->
    exists out, ts_vmax body w mp xs = Done out /\ length out = length xs /\
      forall i, i < length xs ->
        nth_error out i =
        Some (let V := validZ (win w i (map to_opt xs)) in
              if cmp_mp mp (cmp_window w xs) <=? length V then list_max V else None).
  Proof.
    intros Hw Hlen.
    destruct (ts_vmax_ord ordlaws_Z body w mp xs (valid_not_nan_Z xs) Hw Hlen) as (out & H1 & H2 & H3).
    exists out. split; [exact H1|]. split; [exact H2|]. intros i Hi. rewrite (H3 i Hi). cbv zeta.
    rewrite gvalid_Z, gmax_Z. reflexivity.
  Qed.

  Theorem ts_vargmin_spec body w mp (xs : list T) :
    1 <= w -> 1 <= length xs ->
    exists out, ts_vargmin body w mp xs = Done out /\ length out = length xs /\
      forall i, i < length xs ->
        nth_error out i =
        Some (let W := win w i (map to_opt xs) in
              if cmp_mp mp (cmp_window w xs) <=? length (validZ W) then argmin_spec W else None).
  Proof.
    intros Hw Hlen.
    destruct (ts_vargmin_ord ordlaws_Z body w mp xs (valid_not_nan_Z xs) Hw Hlen) as (out & H1 & H2 & H3).
    exists out. split; [exact H1|]. split; [exact H2|]. intros i Hi. rewrite (H3 i Hi). cbv zeta.
    rewrite gvalid_Z, gargmin_spec_Z. reflexivity.
  Qed.

  Theorem ts_vargmax_spec body w mp (xs : list T) :
    1 <= w -> 1 <= length xs ->
    exists out, ts_vargmax body w mp xs = Done out /\ length out = length xs /\
      forall i, i < length xs ->
        nth_error out i =
        Some (let W := win w i (map to_opt xs) in
              if cmp_mp mp (cmp_window w xs) <=? length (validZ W) then argmax_spec W else None).
  Proof.
    intros Hw Hlen.
    destruct (ts_vargmax_ord ordlaws_Z body w mp xs (valid_not_nan_Z xs) Hw Hlen) as (out & H1 & H2 & H3).
    exists out. split; [exact H1|]. split; [exact H2|]. intros i Hi. rewrite (H3 i Hi). cbv zeta.
    rewrite gvalid_Z, gargmax_spec_Z. reflexivity.
  Qed.
End Final.
