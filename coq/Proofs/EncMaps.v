(* Proofs/EncMaps.v — C08 for the maps of Model/MapOps.v: re-encoding the input re-encodes the output and
   changes nothing else.  The maps return ELEMENTS (not numbers), so the conclusion is a relation: the two
   results have the same length and are element-wise `mrel`-related (same nullness, same unwrapped value on
   non-null elements); a panic (integer `none()`) happens in both or in neither.  vpct_change returns f64 and
   is an equality.  vdiff needs `Sub` on the element type, which Option<_> does not have: it exists under one
   encoding only and is not part of this file.  Axiom-free.                                                   *)
From Coq Require Import List Bool ZArith.
From Tevec Require Import Base.Prelude Model.MapOps Proofs.ViewBase.
Import ListNotations.

Section Rel.
  Context {T1 T2 I : Type} (d1 : NullDict T1 I) (d2 : NullDict T2 I).

  Definition mrel (a : T1) (b : T2) : Prop :=
    is_none d1 a = is_none d2 b /\ (is_none d2 b = false -> unwrap d1 a = unwrap d2 b).
  Definition opt_mrel (v1 : option T1) (v2 : option T2) : Prop :=
    match v1, v2 with Some a, Some b => mrel a b | None, None => True | _, _ => False end.
  Definition res1_rel (r1 : res T1) (r2 : res T2) : Prop :=
    match r1, r2 with Ok a, Ok b => mrel a b | Panic k1, Panic k2 => k1 = k2 | _, _ => False end.
  Definition res_rel (r1 : res (list T1)) (r2 : res (list T2)) : Prop :=
    match r1, r2 with Ok l1, Ok l2 => Forall2 mrel l1 l2 | Panic k1, Panic k2 => k1 = k2 | _, _ => False end.
  (* T::none() of the two dictionaries: related nulls, or the same panic *)
  Definition none_rel : Prop := res1_rel (none d1) (none d2).
  (* Cast<f64> of the elements: equal on non-null elements, NaN on null ones *)
  Definition cast_rel {F} (o : FOps F) (cast1 : T1 -> F) (cast2 : T2 -> F) : Prop :=
    forall a b, mrel a b ->
      (is_none d2 b = false -> cast1 a = cast2 b) /\
      (is_none d2 b = true -> fisnan o (cast1 a) = true /\ fisnan o (cast2 b) = true).

  Lemma shift_rel {X Y} (R : X -> Y -> Prop) n (v1 : X) (v2 : Y) xs1 xs2 :
    R v1 v2 -> Forall2 R xs1 xs2 ->
    match shift n v1 xs1, shift n v2 xs2 with
    | Ok l1, Ok l2 => Forall2 R l1 l2 | Panic k1, Panic k2 => k1 = k2 | _, _ => False end.
  Proof.
    intros Hv HF. unfold shift. rewrite (Forall2_len HF).
    destruct (Z.of_nat (length xs2) <=? Z.abs n)%Z; [apply Forall2_repeat; exact Hv|].
    destruct (0 <? n)%Z.
    - destruct (usub (length xs2) (Z.to_nat (Z.abs n))) as [m|k]; cbn [bind]; [|reflexivity].
      apply Forall2_app; [apply Forall2_repeat; exact Hv|apply Forall2_firstn; exact HF].
    - destruct (n <? 0)%Z; [|exact HF].
      apply Forall2_app; [apply Forall2_skipn; exact HF|apply Forall2_repeat; exact Hv].
  Qed.

  Hypothesis Hnone : none_rel.

  Lemma or_none_rel v1 v2 : opt_mrel v1 v2 -> res1_rel (or_none d1 v1) (or_none d2 v2).
  Proof. destruct v1, v2; cbn [opt_mrel or_none]; intros H; try contradiction; [exact H|exact Hnone]. Qed.

  Theorem vshift_rel n v1 v2 xs1 xs2 :
    Forall2 mrel xs1 xs2 -> opt_mrel v1 v2 -> res_rel (vshift d1 n v1 xs1) (vshift d2 n v2 xs2).
  Proof.
    intros HF Hv. unfold vshift. pose proof (or_none_rel _ _ Hv) as Ho.
    destruct (or_none d1 v1) as [a|k1], (or_none d2 v2) as [b|k2]; cbn [res1_rel] in Ho; try contradiction;
      cbn [bind res_rel]; [|exact Ho].
    exact (shift_rel mrel n a b xs1 xs2 Ho HF).
  Qed.

  Lemma sequence_rel l1 l2 : Forall2 res1_rel l1 l2 -> res_rel (sequence l1) (sequence l2).
  Proof.
    induction 1 as [|r1 r2 t1 t2 Hr _ IH]; [constructor|]. cbn [sequence].
    destruct r1 as [a|k1], r2 as [b|k2]; cbn [res1_rel] in Hr; try contradiction; cbn [bind]; [|exact Hr].
    destruct (sequence t1) as [s1|k1], (sequence t2) as [s2|k2]; cbn [res_rel] in IH; try contradiction;
      cbn [bind res_rel]; [constructor; assumption|exact IH].
  Qed.

  Lemma ffill_run_rel v1 v2 xs1 xs2 :
    opt_mrel v1 v2 -> Forall2 mrel xs1 xs2 -> forall last1 last2, opt_mrel last1 last2 ->
    Forall2 res1_rel (run (ffill_step d1 (is_none d1) v1) last1 xs1) (run (ffill_step d2 (is_none d2) v2) last2 xs2).
  Proof.
    intros Hv HF. induction HF as [|a b r1 r2 Hab _ IH]; intros last1 last2 Hl; [constructor|].
    cbn [run]. unfold ffill_step at 1 3. pose proof Hab as [Hn _]. rewrite Hn.
    destruct (is_none d2 b) eqn:Eb.
    - constructor; [|apply IH; exact Hl].
      destruct last1 as [l1|], last2 as [l2|]; cbn [opt_mrel] in Hl; try contradiction; [exact Hl|].
      destruct v1 as [x1|], v2 as [x2|]; cbn [opt_mrel] in Hv; try contradiction; [exact Hv|exact Hnone].
    - constructor; [exact Hab|]. apply IH. exact Hab.
  Qed.

  Theorem ffill_rel v1 v2 xs1 xs2 :
    Forall2 mrel xs1 xs2 -> opt_mrel v1 v2 -> res_rel (ffill d1 v1 xs1) (ffill d2 v2 xs2).
  Proof. intros HF Hv. unfold ffill, ffill_mask. apply sequence_rel, ffill_run_rel; [exact Hv|exact HF|exact Logic.I]. Qed.

  Theorem bfill_rel v1 v2 xs1 xs2 :
    Forall2 mrel xs1 xs2 -> opt_mrel v1 v2 -> res_rel (bfill d1 v1 xs1) (bfill d2 v2 xs2).
  Proof.
    intros HF Hv. unfold bfill, bfill_mask.
    assert (H : res_rel (sequence (run (ffill_step d1 (is_none d1) v1) None (rev xs1)))
                        (sequence (run (ffill_step d2 (is_none d2) v2) None (rev xs2)))).
    { apply sequence_rel, ffill_run_rel; [exact Hv|apply Forall2_rev; exact HF|exact Logic.I]. }
    destruct (sequence (run (ffill_step d1 (is_none d1) v1) None (rev xs1))) as [l1|k1],
             (sequence (run (ffill_step d2 (is_none d2) v2) None (rev xs2))) as [l2|k2];
      cbn [res_rel] in H; try contradiction; cbn [bind res_rel]; [apply Forall2_rev; exact H|exact H].
  Qed.

  Theorem fill_rel v1 v2 xs1 xs2 :
    Forall2 mrel xs1 xs2 -> mrel v1 v2 -> Forall2 mrel (fill d1 v1 xs1) (fill d2 v2 xs2).
  Proof.
    intros HF Hv. unfold fill, fill_mask. induction HF as [|a b r1 r2 Hab _ IH]; cbn [map]; constructor; [|exact IH].
    pose proof Hab as [Hn _]. rewrite Hn. destruct (is_none d2 b) eqn:Eb; [exact Hv|exact Hab].
  Qed.

  Lemma mapM_rel (f1 : T1 -> res T1) (f2 : T2 -> res T2) xs1 xs2 :
    (forall a b, mrel a b -> res1_rel (f1 a) (f2 b)) -> Forall2 mrel xs1 xs2 -> res_rel (mapM f1 xs1) (mapM f2 xs2).
  Proof.
    intros Hf HF. unfold mapM. apply sequence_rel. induction HF as [|a b r1 r2 Hab _ IH]; cbn [map]; constructor; auto.
  Qed.

  (* one clipped element: a null stays, a non-null is replaced by a function of its unwrapped value *)
  Lemma clip_elem_rel (g1 : I -> T1 -> T1) (g2 : I -> T2 -> T2) :
    (forall vi a b, mrel a b -> mrel (g1 vi a) (g2 vi b)) ->
    forall a b, mrel a b ->
      res1_rel (if negb (is_none d1 a) then do vi <- unwrap d1 a; Ok (g1 vi a) else Ok a)
               (if negb (is_none d2 b) then do vi <- unwrap d2 b; Ok (g2 vi b) else Ok b).
  Proof.
    intros Hg a b Hab. pose proof Hab as [Hn Hu]. rewrite Hn. destruct (is_none d2 b) eqn:Eb; cbn [negb].
    - exact Hab.
    - rewrite (Hu eq_refl). destruct (unwrap d2 b) as [vi|k]; cbn [bind res1_rel]; [|reflexivity].
      apply Hg. exact Hab.
  Qed.

  Theorem vclip_rel (ltb : I -> I -> bool) lo1 lo2 hi1 hi2 xs1 xs2 :
    Forall2 mrel xs1 xs2 -> mrel lo1 lo2 -> mrel hi1 hi2 ->
    res_rel (vclip d1 ltb lo1 hi1 xs1) (vclip d2 ltb lo2 hi2 xs2).
  Proof.
    intros HF Hlo Hhi. pose proof Hlo as [Hln Hlu]. pose proof Hhi as [Hhn Hhu]. unfold vclip. rewrite Hln, Hhn.
    destruct (is_none d2 lo2) eqn:El, (is_none d2 hi2) eqn:Eh; cbn [negb].
    - exact HF.
    - rewrite (Hhu eq_refl). destruct (unwrap d2 hi2) as [hi|k]; cbn [bind res_rel]; [|reflexivity].
      apply mapM_rel; [|exact HF]. intros a b Hab. unfold clip_hi.
      apply (clip_elem_rel (fun vi v => if ltb hi vi then hi1 else v) (fun vi v => if ltb hi vi then hi2 else v)); [|exact Hab].
      intros vi x y Hxy. destruct (ltb hi vi); [exact Hhi|exact Hxy].
    - rewrite (Hlu eq_refl). destruct (unwrap d2 lo2) as [lo|k]; cbn [bind res_rel]; [|reflexivity].
      apply mapM_rel; [|exact HF]. intros a b Hab. unfold clip_lo.
      apply (clip_elem_rel (fun vi v => if ltb vi lo then lo1 else v) (fun vi v => if ltb vi lo then lo2 else v)); [|exact Hab].
      intros vi x y Hxy. destruct (ltb vi lo); [exact Hlo|exact Hxy].
    - rewrite (Hlu eq_refl). destruct (unwrap d2 lo2) as [lo|k]; cbn [bind res_rel]; [|reflexivity].
      rewrite (Hhu eq_refl). destruct (unwrap d2 hi2) as [hi|k]; cbn [bind res_rel]; [|reflexivity].
      apply mapM_rel; [|exact HF]. intros a b Hab. unfold clip2.
      apply (clip_elem_rel (fun vi v => if ltb vi lo then lo1 else if ltb hi vi then hi1 else v)
                 (fun vi v => if ltb vi lo then lo2 else if ltb hi vi then hi2 else v)); [|exact Hab].
      intros vi x y Hxy. destruct (ltb vi lo); [exact Hlo|].
      destruct (ltb hi vi); [exact Hhi|exact Hxy].
  Qed.

  (* vabs = map(IsNone::map(|v| v.abs())): the two dictionaries' `imap` must be related *)
  Definition imap_rel (f : I -> I) : Prop := forall a b, mrel a b -> res1_rel (imap d1 f a) (imap d2 f b).
  Theorem vabs_rel (iabs : I -> I) xs1 xs2 :
    imap_rel iabs -> Forall2 mrel xs1 xs2 -> res_rel (vabs d1 iabs xs1) (vabs d2 iabs xs2).
  Proof. intros Hi HF. unfold vabs. apply mapM_rel; assumption. Qed.

  Section Pct.
    Context {F : Type} (o : FOps F) (cast1 : T1 -> F) (cast2 : T2 -> F).
    Hypothesis Hcast : cast_rel o cast1 cast2.

    Definition frel (x y : F) : Prop := x = y \/ (fisnan o x = true /\ fisnan o y = true).

    Lemma pct_pos_rel x y a b : frel x y -> mrel a b -> pct_pos d1 o cast1 x a = pct_pos d2 o cast2 y b.
    Proof.
      intros Hxy Hab. unfold pct_pos. destruct (Hcast a b Hab) as [Hc1 Hc2]. destruct Hab as [Hn Hu]. rewrite Hn.
      destruct Hxy as [->|[Hx Hy]].
      - destruct (fisnan o y); [reflexivity|]. cbn [negb andb].
        destruct (is_none d2 b) eqn:Eb; [reflexivity|]. cbn [negb andb]. rewrite (Hc1 eq_refl). reflexivity.
      - rewrite Hx, Hy. reflexivity.
    Qed.
    Lemma pct_neg_rel a b a' b' : mrel a b -> mrel a' b' -> pct_neg d1 o cast1 a a' = pct_neg d2 o cast2 b b'.
    Proof.
      intros Hab Hab'. unfold pct_neg. destruct (Hcast a b Hab) as [Hc1 _]. destruct (Hcast a' b' Hab') as [Hc1' _].
      destruct Hab as [Hn _], Hab' as [Hn' _]. rewrite Hn, Hn'.
      destruct (is_none d2 b) eqn:Eb; [reflexivity|]. destruct (is_none d2 b') eqn:Eb'; [reflexivity|].
      cbn [negb andb]. rewrite (Hc1 eq_refl), (Hc1' eq_refl). reflexivity.
    Qed.

    Theorem vpct_rel n xs1 xs2 : Forall2 mrel xs1 xs2 -> vpct_change d1 o cast1 n xs1 = vpct_change d2 o cast2 n xs2.
    Proof.
      intros HF. unfold vpct_change. rewrite (Forall2_len HF).
      destruct (Z.of_nat (length xs2) <=? Z.abs n)%Z; [reflexivity|].
      destruct (0 <? n)%Z.
      - destruct (usub (length xs2) (Z.to_nat (Z.abs n))) as [m|k]; cbn [bind]; [|reflexivity]. f_equal.
        apply (map_rel (R := fun (p : F * T1) (q : F * T2) => frel (fst p) (fst q) /\ mrel (snd p) (snd q))).
        + intros [x a] [y b] [H1 H2]. cbn [fst snd] in *. apply pct_pos_rel; assumption.
        + apply Forall2_combine; [|exact HF]. apply Forall2_app; [apply Forall2_repeat; left; reflexivity|].
          pose proof (Forall2_firstn m HF) as HFm.
          induction HFm as [|a b r1 r2 Hab _ IH]; cbn [map]; constructor; [|exact IH].
          destruct (Hcast a b Hab) as [Hc1 Hc2]. unfold frel. destruct (is_none d2 b); [right; apply Hc2|left; apply Hc1]; reflexivity.
      - f_equal. f_equal.
        apply (map_rel (R := fun (p : T1 * T1) (q : T2 * T2) => mrel (fst p) (fst q) /\ mrel (snd p) (snd q))).
        + intros [a a'] [b b'] [H1 H2]. cbn [fst snd] in *. apply pct_neg_rel; assumption.
        + apply Forall2_combine; [apply Forall2_skipn; exact HF|exact HF].
    Qed.
  End Pct.
End Rel.

(* the two real dictionaries: f64 (NaN null) against Option<f64> *)
Section FloatOpt.
  Context {A : Type} (inan : A -> bool) (nanv : A).
  Hypothesis Hnan : inan nanv = true.

  Lemma none_rel_float_opt : none_rel (dict_float inan nanv) (dict_opt inan).
  Proof. unfold none_rel. cbn. split; [exact Hnan|intros C; discriminate]. Qed.

  (* IsNone::map for f64 and for Option<f64> (from_inner canonicalises) are related for every function that
     maps null to null (abs does: ExtLaws.abs_nan) *)
  Lemma imap_rel_float_opt (f : A -> A) :
    (forall x, inan x = true -> inan (f x) = true) -> imap_rel (dict_float inan nanv) (dict_opt inan) f.
  Proof.
    intros Hf a b [Hn Hu]. cbn in Hn, Hu |- *. destruct b as [y|].
    - specialize (Hu eq_refl). injection Hu as ->. unfold mrel. cbn. destruct (inan (f y)); split; try reflexivity;
        intros C; try discriminate; reflexivity.
    - unfold mrel. cbn. split; [apply Hf; exact Hn|intros C; discriminate].
  Qed.

  Lemma mrel_float_opt (xs : list A) :
    Forall2 (mrel (dict_float inan nanv) (dict_opt inan)) xs (map (fun x => if inan x then None else Some x) xs).
  Proof.
    induction xs as [|x xs IH]; [constructor|]. cbn [map]. constructor; [|exact IH].
    unfold mrel. cbn. destruct (inan x); split; try reflexivity; intros C; try discriminate; reflexivity.
  Qed.
End FloatOpt.
