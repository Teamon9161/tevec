(* Proofs/Parse.v — the duration scanner: totality (no panic, fuel suffices), one step of the scanner
   over a number followed by a run of letters, and the range checks of the accumulators and of `finish`. *)
From Coq Require Import List ZArith Lia Bool.
From Tevec Require Import Base.Prelude Model.Parse Spec.DurationC18.
Import ListNotations.
Local Open Scope Z_scope.

Definition safe (r : pres) : Prop :=
  match r with PPanic _ | PFuel => False | _ => True end.

Lemma finish_safe a : safe (finish a).
Proof.
  unfold finish. destruct (duration_new (a_secs a) 0) as [[s1 n1]|]; [|exact I].
  destruct (n1 + a_nsecs a mod giga >=? giga);
    match goal with |- context [duration_new ?x ?y] => destruct (duration_new x y) as [[? ?]|] end; exact I.
Qed.

Lemma unit_loop_inv : forall rest ch pos start unit u r2 p2 s2,
  unit_loop ch rest pos start unit = (u, r2, p2, s2) -> (start <= pos)%nat ->
  (s2 <= p2)%nat /\ (p2 + length r2 = pos + length rest)%nat /\ (length r2 <= length rest)%nat.
Proof.
  induction rest as [|c rest IH]; intros ch pos start unit u r2 p2 s2 H Hs; cbn [unit_loop] in H.
  - destruct (is_alpha ch); inversion H; subst; cbn [length]; lia.
  - destruct (is_alpha ch).
    + apply IH in H; [|lia]. cbn [length]. lia.
    + inversion H; subst. cbn [length]. lia.
Qed.

(* the scanner invariant: start <= pos <= len, rest is what is left after pos, fuel covers rest *)
Lemma scan_safe : forall fuel s rest pos start a,
  (start <= pos)%nat -> (pos + length rest = length s)%nat -> (length rest < fuel)%nat ->
  safe (scan fuel s rest pos start a).
Proof.
  induction fuel as [|fuel IH]; intros s rest pos start a Hs Hp Hf; [lia|].
  cbn [scan]. destruct rest as [|ch rest1]; [apply finish_safe|].
  cbn [length] in *.
  destruct (negb (is_digit ch) && negb (pos =? 0)%nat).
  - unfold slice.
    replace (start <=? pos)%nat with true by (symmetry; apply Nat.leb_le; lia).
    replace (pos <=? length s)%nat with true by (symmetry; apply Nat.leb_le; lia).
    cbn [andb].
    destruct (parse_i64 (seg start pos s)); [|exact I].
    destruct (unit_loop ch rest1 (S pos) start []) as [[[u r2] p2] s2] eqn:E.
    apply unit_loop_inv in E; [|lia].
    destruct u; [exact I|]. destruct (unit_of _); [|exact I].
    destruct (apply_unit _ _ _); [|exact I].
    apply IH; lia.
  - apply IH; lia.
Qed.

Lemma parse_safe s : safe (parse s).
Proof. unfold parse. apply scan_safe; cbn [length]; lia. Qed.

Lemma parse_total s : (forall k, parse s <> PPanic k) /\ parse s <> PFuel.
Proof.
  pose proof (parse_safe s) as H. destruct (parse s); cbn in H; try contradiction;
    split; try intros ?; discriminate.
Qed.

Definition digit (c : Z) : Prop := is_digit c = true.
Definition alpha (c : Z) : Prop := is_alpha c = true.

Lemma digit_range c : digit c -> 48 <= c <= 57.
Proof. unfold digit, is_digit. intros H. apply andb_true_iff in H. destruct H as [H1 H2].
       apply Z.leb_le in H1. apply Z.leb_le in H2. lia. Qed.

Lemma digit_not_alpha c : digit c -> is_alpha c = false.
Proof. intros H. apply digit_range in H. unfold is_alpha.
       destruct (Z.leb_spec 65 c); destruct (Z.leb_spec c 90); destruct (Z.leb_spec 97 c);
         destruct (Z.leb_spec c 122); cbn; try reflexivity; lia. Qed.

Lemma alpha_not_digit c : alpha c -> is_digit c = false.
Proof. intros H. destruct (is_digit c) eqn:E; [|reflexivity]. apply digit_not_alpha in E. congruence. Qed.

Lemma unit_of_str u : unit_of (unit_str u) = Some u.
Proof. destruct u; reflexivity. Qed.

Lemma unit_str_alpha u : Forall alpha (unit_str u).
Proof. destruct u; repeat constructor. Qed.

Lemma unit_str_nonempty u : unit_str u <> [].
Proof. destruct u; discriminate. Qed.

(* i64::from_str on a rendered number *)
Lemma digits_val_spec ds : forall acc, Forall digit ds ->
  digits_val acc ds = Some (fold_left (fun a c => a * 10 + (c - 48)) ds acc).
Proof.
  induction ds as [|c r IH]; intros acc H; [reflexivity|].
  inversion H as [|? ? Hc Hr]; subst. cbn [digits_val fold_left]. rewrite Hc. apply IH. exact Hr.
Qed.

Lemma parse_i64_term t : wf_term t ->
  parse_i64 (sign_str (t_sign t) ++ t_digits t) = if in_i64 (tval t) then Some (tval t) else None.
Proof.
  intros [Hne Hd]. unfold tval, dval. destruct (t_digits t) as [|d ds] eqn:Ed; [contradiction|].
  destruct (t_sign t) as [[|]|]; cbn [sign_str app]; unfold parse_i64.
  - rewrite Z.eqb_refl, digits_val_spec by exact Hd. reflexivity.
  - change (43 =? 45) with false. rewrite Z.eqb_refl, digits_val_spec by exact Hd. reflexivity.
  - pose proof (digit_range d (Forall_inv Hd)) as Hc.
    replace (d =? 45) with false by (symmetry; apply Z.eqb_neq; lia).
    replace (d =? 43) with false by (symmetry; apply Z.eqb_neq; lia).
    rewrite digits_val_spec by exact Hd. reflexivity.
Qed.

(* a rendered number is  c0 :: dr  with dr all digits, and c0 is not alphabetic *)
Lemma number_shape t : wf_term t ->
  exists c0 dr, sign_str (t_sign t) ++ t_digits t = c0 :: dr /\ Forall digit dr /\ is_alpha c0 = false.
Proof.
  intros [Hne Hd]. destruct (t_digits t) as [|d ds]; [contradiction|].
  inversion Hd as [|? ? Hc Hr]; subst.
  destruct (t_sign t) as [[|]|]; cbn [sign_str app]; do 2 eexists; (split; [reflexivity|]); split;
    try exact Hd; try exact Hr; try reflexivity. apply digit_not_alpha; exact Hc.
Qed.

(* what may follow a unit: the end of the text or a character that is not a letter; likewise for a number *)
Definition nonalpha_head (post : str) : Prop :=
  match post with [] => True | c :: _ => is_alpha c = false end.
Definition nondigit_head (rest : str) : Prop :=
  match rest with [] => True | c :: _ => is_digit c = false end.

(* the longest prefix of characters of one kind *)
Lemma prefix_split (p : Z -> bool) (l : str) :
  exists a b, l = a ++ b /\ Forall (fun c => p c = true) a /\ match b with [] => True | c :: _ => p c = false end.
Proof.
  induction l as [|c l IH]; [exists [], []; repeat split; constructor|].
  destruct IH as (a & b & -> & Ha & Hb). destruct (p c) eqn:E.
  - exists (c :: a), b. repeat split; [constructor; assumption|exact Hb].
  - exists [], (c :: a ++ b). repeat split; [constructor|exact E].
Qed.

Lemma render_terms_cons t ts :
  render_terms (t :: ts) = (sign_str (t_sign t) ++ t_digits t) ++ unit_str (t_unit t) ++ render_terms ts.
Proof. unfold render_terms. cbn [flat_map]. unfold render_term. rewrite <- !app_assoc. reflexivity. Qed.

Lemma render_terms_head t ts : wf_term t ->
  exists c1 more, render_terms (t :: ts) = c1 :: more /\ is_alpha c1 = false.
Proof.
  intros Hw. destruct (number_shape _ Hw) as [c0 [dr [E [_ Hc0]]]].
  rewrite render_terms_cons, E. cbn [app]. do 2 eexists. split; [reflexivity|exact Hc0].
Qed.

Lemma render_terms_nonalpha ts : Forall wf_term ts -> nonalpha_head (render_terms ts).
Proof.
  intros Hw. destruct Hw as [|t ts Hwt _]; [exact I|].
  destruct (render_terms_head t ts Hwt) as (c1 & more & -> & H). exact H.
Qed.

Lemma slice_mid (pre mid post : str) :
  slice (pre ++ mid ++ post) (length pre) (length pre + length mid) = Ok mid.
Proof.
  unfold slice.
  replace (length pre <=? length pre + length mid)%nat with true by (symmetry; apply Nat.leb_le; lia).
  replace (length pre + length mid <=? length (pre ++ mid ++ post))%nat with true
    by (symmetry; apply Nat.leb_le; rewrite !app_length; lia).
  cbn [andb]. f_equal. unfold seg.
  rewrite skipn_app, skipn_all, Nat.sub_diag. cbn [skipn app].
  replace (length pre + length mid - length pre)%nat with (length mid) by lia.
  rewrite firstn_app, firstn_all, Nat.sub_diag. cbn [firstn]. apply app_nil_r.
Qed.

Lemma scan_first f s c r a : scan (S f) s (c :: r) 0 0 a = scan f s r 1 0 a.
Proof. cbn [scan]. cbn [Nat.eqb negb]. rewrite andb_false_r. reflexivity. Qed.

(* the outer loop steps over the digits of the pending number *)
Lemma scan_digits : forall dr fuel s rest pos start a,
  Forall digit dr -> (length (dr ++ rest) < fuel)%nat ->
  exists fuel2, (length rest < fuel2)%nat /\
    scan fuel s (dr ++ rest) pos start a = scan fuel2 s rest (pos + length dr) start a.
Proof.
  induction dr as [|d dr IH]; intros fuel s rest pos start a Hd Hf.
  - exists fuel. cbn [app length] in *. rewrite Nat.add_0_r. split; [lia|reflexivity].
  - inversion Hd as [|? ? Hc Hr]; subst. destruct fuel as [|fuel]; [cbn in Hf; lia|].
    cbn [app scan]. rewrite Hc. cbn [negb andb].
    destruct (IH fuel s rest (S pos) start a Hr) as [f2 [Hf2 E]]; [cbn [app length] in Hf; lia|].
    exists f2. split; [exact Hf2|]. rewrite E. cbn [length]. f_equal. lia.
Qed.

Lemma unit_loop_stop c rest pos start un :
  is_alpha c = false -> unit_loop c rest pos start un = (un, rest, pos, start).
Proof. intros H. destruct rest; cbn [unit_loop]; rewrite H; reflexivity. Qed.

(* the inner loop over a run of letters  a0 :: al : it stops at the end of the input, or consumes the
   first other character and leaves `start` on it *)
Lemma unit_loop_alpha : forall al a0 post pos start un,
  Forall alpha (a0 :: al) -> nonalpha_head post ->
  exists p2 s2, unit_loop a0 (al ++ post) pos start un = (un ++ a0 :: al, tl post, p2, s2)
    /\ (post <> [] -> p2 = S (pos + length al) /\ s2 = (pos + length al)%nat).
Proof.
  induction al as [|a1 al IH]; intros a0 post pos start un Ha Hp;
    pose proof (Forall_inv Ha) as Ha0; apply Forall_inv_tail in Ha.
  - destruct post as [|c more]; cbn [app unit_loop tl]; rewrite Ha0.
    + do 2 eexists. split; [reflexivity|]. intros N. contradiction.
    + rewrite (unit_loop_stop c more _ _ _ Hp). do 2 eexists. split; [reflexivity|].
      intros _. cbn [length]. rewrite Nat.add_0_r. split; reflexivity.
  - cbn [app unit_loop]. rewrite Ha0.
    destruct (IH a1 post (S pos) pos (un ++ [a0]) Ha Hp) as (p2 & s2 & E & Hps).
    exists p2, s2. rewrite E, <- app_assoc. split; [reflexivity|].
    intros N. destruct (Hps N) as [-> ->]. cbn [length]. split; lia.
Qed.

(* One step of the scanner at a term boundary: the head c0 of the number has been consumed and `start`
   indexes it; the number c0 :: dr is followed by the letters us and then by post.  The number is parsed,
   the letters are looked up in the unit table (no letter at all is no unit), the accumulator is updated;
   the scanner then stops, or is at the same kind of boundary one character into post. *)
Lemma scan_one_term s pre c0 dr us post a fuel :
  s = pre ++ (c0 :: dr) ++ us ++ post ->
  Forall digit dr -> Forall alpha us -> nonalpha_head post ->
  us <> [] \/ (post <> [] /\ nondigit_head post) ->
  (length (dr ++ us ++ post) < fuel)%nat ->
  exists fuel2, (length (tl post) < fuel2)%nat /\
    scan fuel s (dr ++ us ++ post) (S (length pre)) (length pre) a =
    match parse_i64 (c0 :: dr) with
    | None => PErr
    | Some n =>
      match unit_of us with
      | None => PErr
      | Some u =>
        match apply_unit u n a with
        | None => PErr
        | Some a' =>
          match post with
          | [] => finish a'
          | _ :: more => let e := length (pre ++ (c0 :: dr) ++ us) in scan fuel2 s more (S e) e a'
          end
        end
      end
    end.
Proof.
  intros Hs Hd Hal Hp Hne Hf.
  assert (ESl : slice s (length pre) (length pre + length (c0 :: dr)) = Ok (c0 :: dr))
    by (rewrite Hs; apply slice_mid).
  destruct (scan_digits dr fuel s (us ++ post) (S (length pre)) (length pre) a Hd Hf) as [f2 [Hf2 E]].
  rewrite E. clear E Hf. rewrite app_length in Hf2.
  replace (S (length pre) + length dr)%nat with (length pre + length (c0 :: dr))%nat by (cbn [length]; lia).
  assert (Hpos : (length pre + length (c0 :: dr) =? 0)%nat = false) by (apply Nat.eqb_neq; cbn [length]; lia).
  destruct us as [|u1 ur].
  - (* no letter: the character after the number is taken for an empty unit *)
    destruct Hne as [Hne|[Hne Hnd]]; [contradiction|]. destruct post as [|c1 more]; [contradiction|].
    cbn [app length tl] in *. destruct f2 as [|f2]; [lia|]. exists f2. split; [lia|].
    cbn [scan]. rewrite Hnd, Hpos. cbn [negb andb]. rewrite ESl, (unit_loop_stop c1 more _ _ _ Hp).
    destruct (parse_i64 (c0 :: dr)); reflexivity.
  - cbn [length] in Hf2. destruct f2 as [|f2]; [lia|]. exists f2.
    split; [destruct post; cbn [tl length] in *; lia|].
    cbn [app scan]. rewrite (alpha_not_digit u1 (Forall_inv Hal)), Hpos.
    cbn [negb andb]. rewrite ESl.
    destruct (parse_i64 (c0 :: dr)) as [n|]; [|reflexivity].
    destruct (unit_loop_alpha ur u1 post (S (length pre + length (c0 :: dr))) (length pre) [] Hal Hp)
      as (p2 & s2 & EL & Hps).
    rewrite EL. cbn [app].
    destruct (unit_of (u1 :: ur)) as [u|]; [|reflexivity].
    destruct (apply_unit u n a) as [a'|]; [|reflexivity].
    destruct post as [|c1 more]; cbn [tl].
    + destruct f2; [cbn [length] in Hf2; lia|reflexivity].
    + destruct (Hps ltac:(discriminate)) as [-> ->]. cbv zeta. repeat (rewrite app_length; cbn [length]).
      f_equal; lia.
Qed.

Lemma in_i64_iff z : in_i64 z = true <-> i64_min <= z <= i64_max.
Proof. unfold in_i64. rewrite andb_true_iff, !Z.leb_le. tauto. Qed.
Lemma in_i32_iff z : in_i32 z = true <-> i32_min <= z <= i32_max.
Proof. unfold in_i32. rewrite andb_true_iff, !Z.leb_le. tauto. Qed.

Lemma add_i64_ok acc n k : in_i64 (n * k) = true -> in_i64 (n * k + acc) = true ->
  add_i64 acc n k = Some (acc + n * k).
Proof. intros H1 H2. unfold add_i64. rewrite H1, H2. f_equal. lia. Qed.

Lemma add_i32_ok acc n k : in_i32 n = true -> in_i32 (n * k) = true -> in_i32 (n * k + acc) = true ->
  add_i32 acc n k = Some (acc + n * k).
Proof. intros H0 H1 H2. unfold add_i32. rewrite H0, H1, H2. f_equal. lia. Qed.

Lemma add_i64_inv acc n k r : add_i64 acc n k = Some r ->
  r = acc + n * k /\ in_i64 (n * k) = true /\ in_i64 r = true.
Proof.
  cbv beta zeta delta [add_i64].
  destruct (in_i64 (n * k)); [|discriminate]. destruct (in_i64 (n * k + acc)) eqn:E; [|discriminate].
  intros [= <-]. split; [lia|]. split; [reflexivity|exact E].
Qed.

Lemma add_i32_inv acc n k r : add_i32 acc n k = Some r ->
  r = acc + n * k /\ in_i32 n = true /\ in_i32 (n * k) = true /\ in_i32 r = true.
Proof.
  cbv beta zeta delta [add_i32].
  destruct (in_i32 n); [|discriminate].
  destruct (in_i32 (n * k)); [|discriminate]. destruct (in_i32 (n * k + acc)) eqn:E; [|discriminate].
  intros [= <-]. split; [lia|]. repeat split. exact E.
Qed.

Definition acc_plus (a : accs) (t : term) : accs :=
  mk_accs (a_nsecs a + t_nsecs t) (a_secs a + t_secs t) (a_months a + t_months t).

Lemma apply_unit_term a t :
  term_in_range t ->
  in_i32 (a_months a + t_months t) = true -> in_i64 (a_secs a + t_secs t) = true ->
  in_i64 (a_nsecs a + t_nsecs t) = true ->
  apply_unit (t_unit t) (tval t) a = Some (acc_plus a t).
Proof.
  intros [Hv [Hs [Hn [Hm Hmo]]]] Am As An. unfold acc_plus.
  unfold t_months, t_secs, t_nsecs in *. destruct a as [an asx am]. cbn [a_nsecs a_secs a_months] in *.
  destruct (t_unit t); cbn [apply_unit unit_scale a_nsecs a_secs a_months];
    try (rewrite add_i64_ok; [cbn [option_map]; f_equal; f_equal; lia
                             | first [exact Hs | exact Hn | rewrite Z.mul_1_r; exact Hv]
                             | rewrite ?Z.mul_1_r, Z.add_comm; first [exact As | exact An]]);
    try (rewrite add_i32_ok; [cbn [option_map]; f_equal; f_equal; lia
                             | exact Hmo
                             | first [exact Hm | rewrite Z.mul_1_r; exact Hm]
                             | rewrite ?Z.mul_1_r, Z.add_comm; exact Am]).
Qed.

Lemma duration_new_spec s n : 0 <= n ->
  duration_new s n =
  if (n <? giga) && (cr_min_secs * giga + cr_min_nanos <=? s * giga + n)
     && (s * giga + n <=? cr_max_secs * giga + cr_max_nanos)
  then Some (s, n) else None.
Proof.
  unfold duration_new, giga, cr_min_secs, cr_max_secs, cr_min_nanos, cr_max_nanos. intros Hn.
  destruct (Z.ltb_spec s (-9223372036854776)); destruct (Z.gtb_spec s 9223372036854775);
    destruct (Z.geb_spec n 1000000000); destruct (Z.ltb_spec n 1000000000); try lia;
    destruct (Z.eqb_spec s 9223372036854775); destruct (Z.gtb_spec n 807000000);
    destruct (Z.eqb_spec s (-9223372036854776)); destruct (Z.ltb_spec n 193000000); try lia;
    destruct (Z.leb_spec (-9223372036854776 * 1000000000 + 193000000) (s * 1000000000 + n));
    destruct (Z.leb_spec (s * 1000000000 + n) (9223372036854775 * 1000000000 + 807000000));
    cbn; try reflexivity; lia.
Qed.

(* `finish` accepts exactly the accumulators inside chrono's range, with their value *)
Lemma finish_spec N S M m t :
  finish (mk_accs N S M) = POk m t <->
  (- cr_max_secs <= S <= cr_max_secs /\ - (i64_max * 1000000) <= S * giga + N <= i64_max * 1000000)
  /\ m = M /\ t = S * giga + N.
Proof.
  unfold finish. cbn [a_nsecs a_secs a_months].
  pose proof (Z.div_mod N giga ltac:(unfold giga; lia)) as HD.
  pose proof (Z.mod_pos_bound N giga ltac:(unfold giga; lia)) as HB.
  rewrite (duration_new_spec S 0) by lia.
  unfold giga, cr_min_secs, cr_max_secs, cr_min_nanos, cr_max_nanos, i64_max in *.
  destruct (Z.leb_spec (-9223372036854776 * 1000000000 + 193000000) (S * 1000000000 + 0));
    destruct (Z.leb_spec (S * 1000000000 + 0) (9223372036854775 * 1000000000 + 807000000));
    cbn [Z.ltb Z.compare andb]; try (split; [discriminate|lia]).
  change (0 + N mod 1000000000) with (N mod 1000000000).
  destruct (Z.geb_spec (N mod 1000000000) 1000000000); [lia|]. cbv beta iota.
  rewrite (duration_new_spec (S + N / 1000000000) (N mod 1000000000)) by lia.
  unfold giga, cr_min_secs, cr_max_secs, cr_min_nanos, cr_max_nanos.
  destruct (Z.ltb_spec (N mod 1000000000) 1000000000); [|lia].
  destruct (Z.leb_spec (-9223372036854776 * 1000000000 + 193000000)
                       ((S + N / 1000000000) * 1000000000 + N mod 1000000000));
    destruct (Z.leb_spec ((S + N / 1000000000) * 1000000000 + N mod 1000000000)
                         (9223372036854775 * 1000000000 + 807000000));
    cbn [andb]; try (split; [discriminate|lia]).
  split; [intros [= <- <-]; lia|]. intros (_ & -> & ->). f_equal. lia.
Qed.
