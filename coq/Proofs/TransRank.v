(* Proofs/TransRank.v — C08 (null transparency) at option R:
   * vrank: from the C12 characterisation (Proofs/Rank.v : vrank_spec) the rank map IS a `map` — every slot is
     a function of the element at that slot and of the valid elements of the series (`vrank_map`); inserting nulls
     leaves the valid elements unchanged, so an original element keeps its rank slot wherever it ends up;
   * the index law `QIdxLaw` of Proofs/TransQuantile.v holds at option R (ceil((n-1) q) <= n-1 for 0 <= q <= 1), so
     the carrier-generic quantile transparency instantiates to an unconditional equality there.
   Reals axioms of the standard library only.                                                                  *)
From Coq Require Import Reals Lra Lia List ZArith Bool.
From Tevec Require Import Base.Prelude Base.Num Base.XR Spec.Stats Model.NullView Model.SortCmp
     Model.Rank Proofs.OrderXR Proofs.Quantile Proofs.Partition Proofs.Rank Proofs.TransQuantile.
Import ListNotations.

Lemma valid_null_insert (xs ys : list XR) : NullInsert (D := IsNoneXR) xs ys -> valid ys = valid xs.
Proof.
  induction 1 as [|x xs ys _ IH|v xs ys Hv _ IH]; [reflexivity| |].
  - unfold valid in *. cbn [flat_map]. rewrite IH. reflexivity.
  - destruct v as [r|]; [discriminate Hv|]. exact IH.
Qed.

(* the rank slot of an element x in a series whose valid elements are l *)
Definition rank_slot (pct rev : bool) (l : list R) (x : XR) : option XR :=
  Some (match x with Some x => Some (rank_spec pct rev l x) | None => None end).

Lemma vrank_map (pct rev : bool) (xs : list XR) :
  vrank (DX := IsNoneXXR) pct rev xs = map (rank_slot pct rev (valid xs)) xs.
Proof.
  destruct (vrank_spec pct rev xs) as [Hlen Hnth].
  apply nth_error_ext. intros i. rewrite nth_error_map.
  destruct (Nat.lt_ge_cases i (length xs)) as [Hi|Hi].
  - rewrite (Hnth i Hi). unfold rank_expected, rank_slot.
    rewrite (nth_error_nth' xs None Hi). reflexivity.
  - assert (E1 : nth_error xs i = None) by (apply nth_error_None; exact Hi).
    rewrite E1. apply nth_error_None. rewrite Hlen. exact Hi.
Qed.

(* pointwise reading: an original element keeps its rank whatever is inserted *)
Corollary vrank_insert_same_slot (pct rev : bool) (xs ys : list XR) (i j : nat) (x : XR) :
  NullInsert (D := IsNoneXR) xs ys -> nth_error xs i = Some x -> nth_error ys j = Some x ->
  nth_error (vrank (DX := IsNoneXXR) pct rev ys) j = nth_error (vrank (DX := IsNoneXXR) pct rev xs) i.
Proof.
  intros H Hi Hj. rewrite !vrank_map, (valid_null_insert _ _ H), !nth_error_map, Hi, Hj. reflexivity.
Qed.

Local Open Scope R_scope.
Lemma qidx_law_xr : QIdxLaw (A := XR) (NF := NumFloorXR).
Proof.
  intros q n Hq Hn. destruct q as [q|]; [|discriminate Hq].
  change (@nzero XR NumXR) with (Some 0) in Hq. change (@none XR NumXR) with (Some 1) in Hq.
  apply andb_true_iff in Hq. destruct Hq as [H0 H1].
  assert (Hq0 : 0 <= q) by (destruct (Rle_dec 0 q); [assumption|rewrite xleb_false in H0 by assumption; discriminate]).
  assert (Hq1 : q <= 1) by (destruct (Rle_dec q 1); [assumption|rewrite xleb_false in H1 by assumption; discriminate]).
  unfold qsel_index. rewrite xofnat, nhalf_xr.
  set (L := INR (n - 1)).
  assert (HLZ : L = IZR (Z.of_nat (n - 1))) by (unfold L; apply INR_IZR_INZ).
  assert (HL0 : 0 <= L) by (unfold L; apply pos_INR).
  destruct (Rle_dec q (1 / 2)) as [Hlo|Hhi].
  - rewrite xleb_true by exact Hlo. rewrite xmul_some. cbn [nceilZ NumFloorXR].
    assert (Hh : 0 <= L * q <= IZR (Z.of_nat (n - 1))).
    { rewrite <- HLZ. split; [apply Rmult_le_pos; lra|]. rewrite <- (Rmult_1_r L) at 2. apply Rmult_le_compat_l; lra. }
    pose proof (Rceil_range _ _ Hh). lia.
  - rewrite xleb_false by exact Hhi. change (@none XR NumXR) with (Some 1). rewrite xsub_some, xmul_some.
    cbn [nceilZ NumFloorXR].
    assert (Hh : 0 <= L * (1 - q) <= IZR (Z.of_nat (n - 1))).
    { rewrite <- HLZ. split; [apply Rmult_le_pos; lra|]. rewrite <- (Rmult_1_r L) at 2. apply Rmult_le_compat_l; lra. }
    pose proof (Rceil_range _ _ Hh). lia.
Qed.
