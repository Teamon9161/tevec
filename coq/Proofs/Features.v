(* Proofs/Features.v — the rolling moment family at the proof instance XR = option R:
   state invariant (power sums of the valid window), closed forms = textbook statistics.      *)
From Coq Require Import Reals Lra Lia List.
From Tevec Require Import Base.Prelude Base.Num Base.XR Spec.Stats Model.Driver Proofs.Driver
     Model.Features Proofs.Outcome Proofs.Sliding Proofs.Generic Proofs.Ols.
Import ListNotations.
Local Open Scope R_scope.

(* ---- the invariant: the accumulator holds the power sums of the valid window ---- *)
Definition mom_abs (s : @mom XR) (l : list XR) : Prop :=
  m_n s = nv l /\
  m_s1 s = Some (psum 1 (valid l)) /\ m_s2 s = Some (psum 2 (valid l)) /\
  m_s3 s = Some (psum 3 (valid l)) /\ m_s4 s = Some (psum 4 (valid l)).

Lemma mom_abs_init : mom_abs mom0 [].
Proof. unfold mom_abs, mom0, nv, psum. cbn. repeat split; reflexivity. Qed.

Lemma mom_abs_pre s l v : mom_abs s l -> mom_abs (mom_pre s v) (l ++ [v]).
Proof.
  intros (Hn & H1 & H2 & H3 & H4). unfold mom_pre, not_none. destruct v as [r|]; cbn [is_none IsNoneXR IsNone_float nisnan NumXR xisnan negb unwrap].
  - unfold mom_abs, nv. rewrite valid_app. cbn [valid flat_map app].
    unfold mom_add. cbn [m_n m_s1 m_s2 m_s3 m_s4].
    rewrite H1, H2, H3, H4, !xmul_some, !xadd_some, !psum_app, !psum_single, app_length, Hn.
    unfold nv. cbn [length]. repeat split; try (f_equal; ring); try lia.
  - unfold mom_abs, nv. rewrite valid_app. cbn [valid flat_map app]. rewrite app_nil_r.
    repeat split; assumption.
Qed.

Lemma mom_abs_post s x l : mom_abs s (x :: l) -> mom_abs (mom_post s (Some x)) l.
Proof.
  intros (Hn & H1 & H2 & H3 & H4). unfold mom_post, not_none. destruct x as [r|]; cbn [is_none IsNoneXR IsNone_float nisnan NumXR xisnan negb unwrap].
  - unfold mom_abs, nv in *. cbn [valid flat_map app] in *. fold (valid l) in *.
    unfold mom_sub. cbn [m_n m_s1 m_s2 m_s3 m_s4].
    rewrite H1, H2, H3, H4, !xmul_some, !xsub_some, !psum_cons, Hn. cbn [length].
    repeat split; try (f_equal; ring); try lia.
  - unfold mom_abs, nv in *. cbn [valid flat_map app] in *. fold (valid l) in *.
    repeat split; assumption.
Qed.

(* every entry point of the family: at every position the emitted value is `emit` of a state that
   holds exactly the power sums of the valid elements of the window *)
Theorem mom_state_tracks_window (emit : @mom XR -> XR) body (w : nat) (xs : list XR) :
  (1 <= w)%nat ->
  exists out, ts_run (mom_feat emit) body w xs = Done out /\ length out = length xs /\
    forall i v, nth_error xs i = Some v ->
      exists s, mom_abs s (win w i xs) /\ nth_error out i = Some (emit s).
Proof.
  intros Hw. apply (sliding_ts_run (mom_feat emit) mom_abs); try assumption.
  - exact mom_abs_init.
  - exact mom_abs_pre.
  - exact mom_abs_post.
  - reflexivity.
Qed.

Lemma samplevarR_nonneg (V : list R) : (2 <= length V)%nat -> 0 <= samplevarR V.
Proof.
  intros Hn. unfold samplevarR. apply Rmult_le_pos; [apply devsum2_nonneg|].
  apply Rlt_le, Rinv_0_lt_compat. unfold nR.
  assert (2 <= INR (length V)) by (apply (le_INR 2); lia). lra.
Qed.

Section ClosedForms.
  Variable s : @mom XR.
  Variable W : list XR.
  Hypothesis HA : mom_abs s W.
  Let V := valid W.
  Let n := length V.

  Lemma mom_n : m_n s = n. Proof. destruct HA as (Hn & _). exact Hn. Qed.

  Lemma emit_sum_spec mp :
    emit_sum mp s = if (mp <=? n)%nat then Some (sumR V) else None.
  Proof.
    unfold emit_sum. rewrite mom_n. destruct HA as (_ & H1 & _). rewrite H1, psum_1. reflexivity.
  Qed.

  Lemma emit_mean_spec mp :
    emit_mean mp s =
    if (mp <=? n)%nat then (if (n =? 0)%nat then None else Some (meanR V)) else None.
  Proof.
    unfold emit_mean. rewrite mom_n. destruct HA as (_ & H1 & _). rewrite H1, psum_1, xofnat.
    destruct (mp <=? n)%nat; [|reflexivity].
    destruct (n =? 0)%nat eqn:E.
    - apply Nat.eqb_eq in E. rewrite E. cbn [INR]. apply xdiv_zero.
    - apply Nat.eqb_neq in E. rewrite xdiv_some by (apply not_0_INR; exact E). reflexivity.
  Qed.

  (* sum2/n - (sum/n)^2 is the population variance *)
  Lemma popvar_identity :
    n <> 0%nat -> psum 2 V / INR n - (psum 1 V / INR n) ^ 2 = popvarR V.
  Proof. intros Hn. apply popvar_from_sums, not_0_INR, Hn. Qed.

  Lemma popvar_of_spec : n <> 0%nat -> popvar_of s = Some (popvarR V).
  Proof.
    intros Hn. unfold popvar_of. rewrite mom_n. destruct HA as (_ & H1 & H2 & _).
    rewrite H1, H2, xofnat. assert (INR n <> 0) by (apply not_0_INR; exact Hn).
    rewrite !xdiv_some by assumption. rewrite powi_some, xsub_some. f_equal.
    apply popvar_identity. exact Hn.
  Qed.

  Lemma sample_from_pop : (2 <= n)%nat -> popvarR V * INR n / INR (n - 1) = samplevarR V.
  Proof.
    intros Hn. unfold popvarR, cmom, samplevarR, nR. fold n. rewrite minus_INR by lia. cbn [INR].
    assert (INR n <> 0) by (apply not_0_INR; lia).
    assert (INR n - 1 <> 0). { assert (2 <= INR n) by (apply (le_INR 2); lia). lra. }
    field. split; assumption.
  Qed.

  (* var and std share the guard: the sample variance where the population variance exceeds EPS, else 0 *)
  Lemma guarded_samplevar mp (f : XR -> XR) :
    (2 <= mp)%nat ->
    (if (mp <=? m_n s)%nat
     then (let var := popvar_of s in
           if nltb neps var then f (ndiv (nmul var (nofnat (m_n s))) (nofnat (m_n s - 1))) else nzero)
     else nnan)
    = if (mp <=? n)%nat then (if Rlt_dec EPS (popvarR V) then f (Some (samplevarR V)) else Some 0) else None.
  Proof.
    intros Hmp. rewrite mom_n.
    destruct (mp <=? n)%nat eqn:E; [|reflexivity]. apply Nat.leb_le in E.
    rewrite popvar_of_spec by lia. change neps with (Some EPS). change nzero with (Some 0).
    cbn [nltb NumXR xltb]. destruct (Rlt_dec EPS (popvarR V)); [|reflexivity].
    rewrite !xofnat, xmul_some.
    rewrite xdiv_some by (apply not_0_INR; lia). rewrite sample_from_pop by lia. reflexivity.
  Qed.

  Lemma emit_var_spec mp :
    (2 <= mp)%nat ->
    emit_var mp s =
    if (mp <=? n)%nat then (if Rlt_dec EPS (popvarR V) then Some (samplevarR V) else Some 0) else None.
  Proof. exact (guarded_samplevar mp (fun x => x)). Qed.

  Lemma samplevar_nonneg : (2 <= n)%nat -> 0 <= samplevarR V.
  Proof. apply samplevarR_nonneg. Qed.

  Lemma emit_std_spec mp :
    (2 <= mp)%nat ->
    emit_std mp s =
    if (mp <=? n)%nat then (if Rlt_dec EPS (popvarR V) then Some (samplestdR V) else Some 0) else None.
  Proof.
    intros Hmp. unfold emit_std. rewrite (guarded_samplevar mp nsqrt Hmp).
    destruct (mp <=? n)%nat eqn:E; [|reflexivity]. apply Nat.leb_le in E.
    destruct (Rlt_dec EPS (popvarR V)); [|reflexivity].
    cbn [nsqrt NumXR]. rewrite xsqrt_some by (apply samplevar_nonneg; lia). reflexivity.
  Qed.
  (* third and fourth central moments from the power sums *)
  Lemma cmom3_identity :
    n <> 0%nat ->
    let c := psum 1 V / INR n in
    psum 3 V / INR n - 3 * c * (psum 2 V / INR n - c ^ 2) - c ^ 3 = cmom 3 V.
  Proof.
    intros Hn c. unfold cmom, meanR, nR. fold n. rewrite devsum3_expand. unfold nR. fold n.
    rewrite <- psum_1. fold c. assert (HN : INR n <> 0) by (apply not_0_INR; exact Hn).
    replace (psum 1 V) with (c * INR n) by (unfold c; field; exact HN).
    set (S2 := psum 2 V). set (S3 := psum 3 V). clearbody S2 S3 c. field. exact HN.
  Qed.

  Lemma cmom4_identity :
    n <> 0%nat ->
    let c := psum 1 V / INR n in
    psum 4 V / INR n - 4 * c * (psum 3 V / INR n) + 6 * c ^ 2 * (psum 2 V / INR n - c ^ 2) + 3 * c ^ 4
    = cmom 4 V.
  Proof.
    intros Hn c. unfold cmom, meanR, nR. fold n. rewrite devsum4_expand. unfold nR. fold n.
    rewrite <- psum_1. fold c. assert (HN : INR n <> 0) by (apply not_0_INR; exact Hn).
    replace (psum 1 V) with (c * INR n) by (unfold c; field; exact HN).
    set (S2 := psum 2 V). set (S3 := psum 3 V). set (S4 := psum 4 V). clearbody S2 S3 S4 c.
    field. exact HN.
  Qed.

  Lemma emit_skew_spec mp :
    (3 <= mp)%nat ->
    emit_skew mp s =
    if (mp <=? n)%nat then (if Rle_dec (popvarR V) EPS then Some 0 else Some (skewR V)) else None.
  Proof.
    intros Hmp. unfold emit_skew. rewrite mom_n.
    destruct (mp <=? n)%nat eqn:E; [|reflexivity]. apply Nat.leb_le in E.
    assert (Hn0 : n <> 0%nat) by lia.
    rewrite popvar_of_spec by exact Hn0. change neps with (Some EPS). change nzero with (Some 0).
    cbn [nleb NumXR xleb]. destruct (Rle_dec (popvarR V) EPS) as [Hle|Hgt]; [reflexivity|].
    assert (Hvar : 0 < popvarR V) by (pose proof EPS_pos; lra).
    destruct HA as (_ & H1 & _ & H3 & _).
    assert (HN : INR n <> 0) by (apply not_0_INR; exact Hn0).
    rewrite H1, H3, !xofnat, !xdiv_some by exact HN.
    rewrite (xsqrt_some (popvarR V)) by lra.
    assert (Hs : sqrt (popvarR V) <> 0).
    { intros Hz. apply sqrt_eq_0 in Hz; lra. }
    rewrite xdiv_some by exact Hs.
    rewrite (xsqrt_some (INR (n * (n - 1)))) by apply pos_INR.
    assert (Hn2 : INR (n - 2) <> 0) by (apply not_0_INR; lia).
    rewrite xdiv_some by exact Hn2.
    rewrite !powi_some.
    assert (Hs3 : sqrt (popvarR V) ^ 3 <> 0) by (apply pow_nonzero; exact Hs).
    rewrite xdiv_some by exact Hs3.
    unfold three. cbn [nofZ NumXR]. rewrite !xmul_some, !xsub_some, xmul_some. f_equal.
    unfold skewR, nR. fold n.
    rewrite mult_INR, !minus_INR by lia. cbn [INR]. replace (1 + 1) with 2 by ring.
    f_equal.
    set (sg := sqrt (popvarR V)) in *.
    assert (Hsq : sg * sg = popvarR V) by (unfold sg; apply sqrt_sqrt; lra).
    pose proof (cmom3_identity Hn0) as K. cbv zeta in K.
    rewrite (popvar_identity Hn0) in K. fold (popvarR V). unfold popvarR in Hsq |- *.
    fold (popvarR V) in Hsq. change (cmom 2 V) with (popvarR V). fold sg.
    rewrite <- K. rewrite <- Hsq. fold V.
    set (c := psum 1 V / INR n). set (e3 := psum 3 V / INR n). clearbody c e3 sg.
    field. exact Hs.
  Qed.

  Lemma emit_kurt_spec mp :
    (4 <= mp)%nat ->
    emit_kurt mp s =
    if (mp <=? n)%nat then (if Rle_dec (popvarR V) EPS then Some 0 else Some (kurtR V)) else None.
  Proof.
    intros Hmp. unfold emit_kurt. rewrite mom_n.
    destruct (mp <=? n)%nat eqn:E; [|reflexivity]. apply Nat.leb_le in E.
    assert (Hn0 : n <> 0%nat) by lia.
    rewrite popvar_of_spec by exact Hn0. change neps with (Some EPS). change nzero with (Some 0).
    cbn [nleb NumXR xleb]. destruct (Rle_dec (popvarR V) EPS) as [Hle|Hgt]; [reflexivity|].
    assert (Hvar : 0 < popvarR V) by (pose proof EPS_pos; lra).
    destruct HA as (_ & H1 & _ & H3 & H4).
    assert (HN : INR n <> 0) by (apply not_0_INR; exact Hn0).
    rewrite H1, H3, H4, !xofnat, !xdiv_some by exact HN.
    unfold four, six, three. cbn [nofZ NumXR]. change none with (Some 1).
    rewrite !xmul_some, xsub_some.
    assert (Hv2 : popvarR V * popvarR V <> 0) by nra.
    assert (Hd : INR ((n - 2) * (n - 3)) <> 0) by (apply not_0_INR; nia).
    rewrite (xdiv_some _ (INR ((n - 2) * (n - 3)))) by exact Hd.
    rewrite (xdiv_some _ (popvarR V * popvarR V)) by exact Hv2.
    rewrite (xdiv_some _ (popvarR V)) by lra.
    rewrite powi_some, !xmul_some, !xadd_some.
    rewrite !xmul_some, xsub_some, xmul_some. f_equal.
    unfold kurtR, nR. fold n. change (cmom 2 V) with (popvarR V).
    pose proof (cmom4_identity Hn0) as K. cbv zeta in K.
    rewrite (popvar_identity Hn0) in K. rewrite <- K.
    rewrite !mult_INR, !minus_INR by nia. rewrite !mult_INR. cbn [INR]. 
    replace (1 + 1 + 1) with 3 by ring. replace (1 + 1) with 2 by ring.
    assert (HN4 : 4 <= INR n). { pose proof (le_INR 4 n ltac:(lia)) as Hq. simpl in Hq. lra. }
    assert (HN2 : INR n - 2 <> 0) by lra.
    assert (HN3 : INR n - 3 <> 0) by lra.
    fold V.
    set (c := psum 1 V / INR n). set (e3 := psum 3 V / INR n). set (e4 := psum 4 V / INR n).
    set (v := popvarR V) in *. set (N := INR n) in *. clearbody c e3 e4 v N.
    field. repeat split; lra.
  Qed.
End ClosedForms.

(* the EPS floor is a rounding device: below it the textbook value is itself tiny *)
Lemma eps_floor_bounded (V : list R) :
  (2 <= length V)%nat -> ~ EPS < popvarR V -> samplevarR V <= 2 * EPS.
Proof.
  intros Hn Hle. unfold popvarR, cmom, samplevarR, nR in *.
  set (D := devsum 2 (meanR V) V) in *. set (m := INR (length V)) in *.
  assert (Hm : 2 <= m) by (apply (le_INR 2); exact Hn).
  assert (HD : 0 <= D) by apply devsum2_nonneg.
  assert (Hle' : D / m <= EPS) by lra.
  assert (D <= EPS * m).
  { apply (Rmult_le_compat_r m) in Hle'; [|lra]. unfold Rdiv in Hle'.
    rewrite Rmult_assoc, Rinv_l, Rmult_1_r in Hle' by lra. exact Hle'. }
  apply (Rmult_le_reg_r (m - 1)); [lra|]. unfold Rdiv. rewrite Rmult_assoc, Rinv_l, Rmult_1_r by lra.
  pose proof EPS_pos. nra.
Qed.

(* ---- exponentially weighted mean ---------------------------------------- *)
Section Ewm.
  Variable w : nat.
  Hypothesis Hw : (1 <= w)%nat.
  Let alpha : R := 2 / INR w.
  Let oma : R := 1 - alpha.

  Lemma INRw_neq0 : INR w <> 0. Proof. apply not_0_INR. lia. Qed.
  Lemma ewm_alpha_some : ewm_alpha w = Some alpha.
  Proof. unfold ewm_alpha. rewrite xofnat. change ntwo with (Some 2).
         rewrite xdiv_some by exact INRw_neq0. reflexivity. Qed.
  Lemma ewm_oma_some : ewm_oma w = Some oma.
  Proof. unfold ewm_oma. rewrite ewm_alpha_some. reflexivity. Qed.

  Definition ewm_abs (s : @ewm_st XR) (l : list XR) : Prop :=
    e_n s = nv l /\ e_q s = Some (ewsum oma (valid l)).

  Lemma ewm_abs_pre s l v : ewm_abs s l -> ewm_abs (ewm_pre w s v) (l ++ [v]).
  Proof.
    intros (Hn & Hq). unfold ewm_pre, not_none.
    destruct v as [r|]; cbn [is_none IsNoneXR IsNone_float nisnan NumXR xisnan negb unwrap].
    - unfold ewm_abs, nv. rewrite valid_app. cbn [valid flat_map app e_n e_q].
      rewrite ewm_alpha_some, Hq, xmul_some, xsub_some, xadd_some, ewsum_snoc, app_length, Hn.
      unfold nv. cbn [length]. split; [lia|]. f_equal. unfold oma. ring.
    - unfold ewm_abs, nv. rewrite valid_app. cbn [valid flat_map app]. rewrite app_nil_r.
      split; assumption.
  Qed.

  Lemma ewm_abs_post s x l : ewm_abs s (x :: l) -> ewm_abs (ewm_post w s (Some x)) l.
  Proof.
    intros (Hn & Hq). unfold ewm_post, not_none.
    destruct x as [r|]; cbn [is_none IsNoneXR IsNone_float nisnan NumXR xisnan negb unwrap].
    - unfold ewm_abs, nv in *. cbn [valid flat_map app] in *. fold (valid l) in *.
      cbn [e_n e_q]. rewrite ewm_oma_some, powi_some, Hq, xmul_some, xsub_some, Hn.
      cbn [length ewsum]. rewrite Nat.sub_succ, Nat.sub_0_r. split; [reflexivity|]. f_equal. ring.
    - unfold ewm_abs, nv in *. cbn [valid flat_map app] in *. fold (valid l) in *.
      split; assumption.
  Qed.

  Lemma ewm_emit_spec mp s W :
    ewm_abs s W ->
    let V := valid W in let n := length V in
    ewm_emit w mp s =
    if (mp <=? n)%nat then
      (if Req_EM_T (1 - oma ^ n) 0 then None else Some (ewsum oma V * alpha / (1 - oma ^ n)))
    else None.
  Proof.
    intros (Hn & Hq) V n. unfold ewm_emit. rewrite Hn. unfold nv. fold V. fold n.
    destruct (mp <=? n)%nat; [|reflexivity].
    rewrite Hq, ewm_alpha_some, ewm_oma_some, powi_some, xmul_some. change none with (Some 1).
    rewrite xsub_some. fold V. cbn [ndiv NumXR xdiv]. reflexivity.
  Qed.

  (* ... which is the normalised exponentially weighted average whenever alpha <> 0 *)
  Lemma ewm_normalised V :
    1 - oma ^ (length V) <> 0 ->
    ewsum oma V * alpha / (1 - oma ^ (length V)) = ewmR oma V.
  Proof.
    intros Hd. unfold ewmR.
    pose proof (geomsum_closed oma (length V)) as Hg. replace (1 - oma) with alpha in Hg by (unfold oma; ring).
    assert (Ha : alpha <> 0). { intros E. rewrite E in Hg. rewrite Rmult_0_l in Hg. lra. }
    assert (Hgs : geomsum oma (length V) <> 0). { intros E. rewrite E, Rmult_0_r in Hg. lra. }
    rewrite <- Hg. field. split; assumption.
  Qed.

  Theorem ewm_state_tracks_window mp body (xs : list XR) :
    exists out, ts_run (ts_vewm_f w mp) body w xs = Done out /\ length out = length xs /\
      forall i v, nth_error xs i = Some v ->
        exists s, ewm_abs s (win w i xs) /\ nth_error out i = Some (ewm_emit w (mp_eff mp w 0) s).
  Proof.
    apply (sliding_ts_run (ts_vewm_f w mp) ewm_abs); try assumption.
    - split; reflexivity.
    - exact ewm_abs_pre.
    - exact ewm_abs_post.
    - reflexivity.
  Qed.
End Ewm.

(* ---- linearly weighted mean --------------------------------------------- *)
Definition wma_abs (s : @wma_st XR) (l : list XR) : Prop :=
  w_n s = nv l /\ w_sum s = Some (sumR (valid l)) /\ w_xt s = Some (lwsum (valid l)).

Lemma wma_abs_pre s l v : wma_abs s l -> wma_abs (wma_pre s v) (l ++ [v]).
Proof.
  intros (Hn & Hs & Hx). unfold wma_pre, not_none.
  destruct v as [r|]; cbn [is_none IsNoneXR IsNone_float nisnan NumXR xisnan negb unwrap].
  - unfold wma_abs, nv. rewrite valid_app. cbn [valid flat_map app w_n w_sum w_xt].
    rewrite Hs, Hx, xofnat, xmul_some, !xadd_some, sumR_app, app_length, Hn. unfold nv.
    cbn [length sumR fold_right]. split; [lia|]. split; [f_equal; ring|]. f_equal.
    unfold lwsum. rewrite lwsum_from_snoc. cbn [plus]. ring.
  - unfold wma_abs, nv. rewrite valid_app. cbn [valid flat_map app]. rewrite app_nil_r.
    repeat split; assumption.
Qed.

Lemma wma_abs_post s x l : wma_abs s (x :: l) -> wma_abs (wma_post s (Some x)) l.
Proof.
  intros (Hn & Hs & Hx). unfold wma_post, not_none.
  destruct x as [r|]; cbn [is_none IsNoneXR IsNone_float nisnan NumXR xisnan negb unwrap].
  - unfold wma_abs, nv in *. cbn [valid flat_map app] in *. fold (valid l) in *.
    cbn [w_n w_sum w_xt]. rewrite Hs, Hx, !xsub_some, Hn. cbn [length sumR fold_right].
    fold (sumR (valid l)). rewrite Nat.sub_succ, Nat.sub_0_r. split; [reflexivity|]. split; [f_equal; ring|].
    f_equal. unfold lwsum. cbn [lwsum_from]. rewrite lwsum_from_shift. cbn [INR]. ring.
  - unfold wma_abs, nv in *. cbn [valid flat_map app] in *. fold (valid l) in *.
    repeat split; assumption.
Qed.

Lemma half_nn1 n : INR ((n * (n + 1)) / 2) = INR n * (INR n + 1) / 2.
Proof.
  assert (H : (n * (n + 1) = 2 * ((n * (n + 1)) / 2))%nat).
  { assert (Hm : ((n * (n + 1)) mod 2 = 0)%nat).
    { induction n as [|k IH]; [reflexivity|].
      replace (S k * (S k + 1))%nat with (k * (k + 1) + 2 * (k + 1))%nat by lia.
      rewrite Nat.add_mod, IH by lia. rewrite Nat.mul_comm, Nat.mod_mul by lia. reflexivity. }
    pose proof (Nat.div_mod (n * (n + 1)) 2 ltac:(lia)). lia. }
  apply (f_equal INR) in H. rewrite !mult_INR, plus_INR in H. cbn [INR] in H. lra.
Qed.

Lemma wma_emit_spec mp s W :
  wma_abs s W ->
  let V := valid W in let n := length V in
  wma_emit mp s = if (mp <=? n)%nat then (if (n =? 0)%nat then None else Some (wmaR V)) else None.
Proof.
  intros (Hn & Hs & Hx) V n. unfold wma_emit. rewrite Hn. unfold nv. fold V. fold n.
  destruct (mp <=? n)%nat; [|reflexivity].
  rewrite Hx, xofnat, half_nn1. fold V.
  destruct (n =? 0)%nat eqn:E.
  - apply Nat.eqb_eq in E. rewrite E. cbn [INR]. replace (0 * (0 + 1) / 2) with 0 by field. apply xdiv_zero.
  - apply Nat.eqb_neq in E. assert (0 < INR n) by (apply lt_0_INR; lia).
    rewrite xdiv_some by nra. reflexivity.
Qed.

Theorem wma_state_tracks_window mp body (w : nat) (xs : list XR) :
  (1 <= w)%nat ->
  exists out, ts_run (ts_vwma_f w mp) body w xs = Done out /\ length out = length xs /\
    forall i v, nth_error xs i = Some v ->
      exists s, wma_abs s (win w i xs) /\ nth_error out i = Some (wma_emit (mp_eff mp w 0) s).
Proof.
  intros Hw. apply (sliding_ts_run (ts_vwma_f w mp) wma_abs); try assumption.
  - repeat split; reflexivity.
  - exact wma_abs_pre.
  - exact wma_abs_post.
  - reflexivity.
Qed.

(* `out`, applied to the valid elements of the window, gives every position of every run of F *)
Definition runs_as {St} (F : feat XR St XR) (out : list R -> XR) : Prop :=
  forall body (w : nat) (xs : list XR), (1 <= w)%nat ->
    ts_run F body w xs = Done (map (fun i => out (valid (win w i xs))) (seq 0 (length xs))).

Theorem mom_run (emit : @mom XR -> XR) (G : list R -> XR) :
  (forall s W, mom_abs s W -> emit s = G (valid W)) -> runs_as (mom_feat emit) G.
Proof.
  intros HG body w xs Hw.
  apply (sliding_run (mom_feat emit) mom_abs (fun W => G (valid W))
           mom_abs_init mom_abs_pre mom_abs_post (fun _ => eq_refl) HG body w xs Hw).
Qed.

Lemma mom_entry (emit : @mom XR -> XR) (G : list R -> XR) body (w : nat) (xs : list XR) :
  (1 <= w)%nat ->
  (forall s W, mom_abs s W -> emit s = G (valid W)) ->
  exists out, ts_run (mom_feat emit) body w xs = Done out /\ length out = length xs /\
    forall i, (i < length xs)%nat -> nth_error out i = Some (G (valid (win w i xs))).
Proof. intros Hw HG. apply done_map_iff, (mom_run emit G HG), Hw. Qed.

Lemma valid_length_le (l : list XR) : (length (valid l) <= length l)%nat.
Proof. unfold valid. induction l as [|[r|] l IH]; cbn [flat_map app length]; lia. Qed.

Lemma mp_eff_ge mp w k : (k <= mp_eff mp w k)%nat.
Proof. unfold mp_eff. lia. Qed.
Lemma mp_eff_le_window mp w k : (k <= w -> mp_eff mp w k <= w)%nat.
Proof. intros H. unfold mp_eff. lia. Qed.

(* ---- the eight entry points: what each returns at a position, as a function of the valid
   elements V of the window there ----------------------------------------------------------- *)
Definition sum_out (mp : nat) (V : list R) : XR := if (mp <=? length V)%nat then Some (sumR V) else None.
Definition mean_out (mp : nat) (V : list R) : XR :=
  if (mp <=? length V)%nat then (if (length V =? 0)%nat then None else Some (meanR V)) else None.
Definition var_out (mp : nat) (V : list R) : XR :=
  if (mp <=? length V)%nat then (if Rlt_dec EPS (popvarR V) then Some (samplevarR V) else Some 0) else None.
Definition std_out (mp : nat) (V : list R) : XR :=
  if (mp <=? length V)%nat then (if Rlt_dec EPS (popvarR V) then Some (samplestdR V) else Some 0) else None.
Definition skew_out (mp : nat) (V : list R) : XR :=
  if (mp <=? length V)%nat then (if Rle_dec (popvarR V) EPS then Some 0 else Some (skewR V)) else None.
Definition kurt_out (mp : nat) (V : list R) : XR :=
  if (mp <=? length V)%nat then (if Rle_dec (popvarR V) EPS then Some 0 else Some (kurtR V)) else None.
Definition ewm_out (w mp : nat) (V : list R) : XR :=
  let oma := 1 - 2 / INR w in
  if (mp <=? length V)%nat then
    (if Req_EM_T (1 - oma ^ length V) 0 then None else Some (ewsum oma V * (2 / INR w) / (1 - oma ^ length V)))
  else None.
Definition wma_out (mp : nat) (V : list R) : XR :=
  if (mp <=? length V)%nat then (if (length V =? 0)%nat then None else Some (wmaR V)) else None.

Section Entries.
  Variables (w : nat) (mp : option nat).

  Theorem ts_vsum_run : runs_as (ts_vsum_f w mp) (sum_out (mp_eff mp w 0)).
  Proof. apply mom_run. intros s W HA. apply emit_sum_spec, HA. Qed.
  Theorem ts_vmean_run : runs_as (ts_vmean_f w mp) (mean_out (mp_eff mp w 0)).
  Proof. apply mom_run. intros s W HA. apply emit_mean_spec, HA. Qed.
  Theorem ts_vvar_run : runs_as (ts_vvar_f w mp) (var_out (mp_eff mp w 2)).
  Proof. apply mom_run. intros s W HA. apply emit_var_spec; [exact HA|apply mp_eff_ge]. Qed.
  Theorem ts_vstd_run : runs_as (ts_vstd_f w mp) (std_out (mp_eff mp w 2)).
  Proof. apply mom_run. intros s W HA. apply emit_std_spec; [exact HA|apply mp_eff_ge]. Qed.
  Theorem ts_vskew_run : runs_as (ts_vskew_f w mp) (skew_out (mp_eff mp w 3)).
  Proof. apply mom_run. intros s W HA. apply emit_skew_spec; [exact HA|apply mp_eff_ge]. Qed.
  Theorem ts_vkurt_run : runs_as (ts_vkurt_f w mp) (kurt_out (mp_eff mp w 4)).
  Proof. apply mom_run. intros s W HA. apply emit_kurt_spec; [exact HA|apply mp_eff_ge]. Qed.

  Theorem ts_vewm_run : (1 <= w)%nat -> runs_as (ts_vewm_f w mp) (ewm_out w (mp_eff mp w 0)).
  Proof.
    intros Hw0 body w' xs Hw.
    apply (sliding_run (ts_vewm_f w mp) (ewm_abs w) (fun W => ewm_out w (mp_eff mp w 0) (valid W)));
      try exact Hw.
    - split; reflexivity.
    - apply ewm_abs_pre, Hw0.
    - apply ewm_abs_post, Hw0.
    - reflexivity.
    - intros s W HA. apply (ewm_emit_spec w Hw0 _ s W HA).
  Qed.
  Theorem ts_vwma_run : runs_as (ts_vwma_f w mp) (wma_out (mp_eff mp w 0)).
  Proof.
    intros body w' xs Hw.
    apply (sliding_run (ts_vwma_f w mp) wma_abs (fun W => wma_out (mp_eff mp w 0) (valid W)));
      try exact Hw.
    - repeat split; reflexivity.
    - exact wma_abs_pre.
    - exact wma_abs_post.
    - reflexivity.
    - intros s W HA. apply (wma_emit_spec _ s W HA).
  Qed.
End Entries.

Lemma run_ext_in {St X O} (g1 g2 : St -> X -> St * O) (args : list X) :
  (forall s a, In a args -> g1 s a = g2 s a) -> forall s, run g1 s args = run g2 s args.
Proof.
  induction args as [|a r IH]; intros H s; [reflexivity|]. cbn [run].
  rewrite (H s a (or_introl eq_refl)). destruct (g2 s a) as [s' o]. f_equal.
  apply IH. intros s0 a0 Ha0. apply H. right. exact Ha0.
Qed.

(* ---- the plain family (never-null dictionary) coincides with the null-aware one on null-free input *)
(* a non-null value looks the same through both dictionaries *)
Lemma some_same_view (rs : list R) :
  Forall2 (fun a b : XR => @to_opt XR XR IsNone_never a = @to_opt XR XR IsNoneXR b) (map Some rs) (map Some rs).
Proof. induction rs as [|r rs IH]; constructor; [reflexivity|exact IH]. Qed.

Theorem plain_family_mom (emit : @mom XR -> XR) body (w : nat) (rs : list R) :
  (1 <= w)%nat ->
  ts_run (mom_feat (DT := IsNone_never) emit) body w (map Some rs)
  = ts_run (mom_feat (DT := IsNoneXR) emit) body w (map Some rs).
Proof. intros Hw. apply mom_encoding_independent; [exact Hw|apply some_same_view]. Qed.

Theorem plain_family_ewm (w : nat) mp body (rs : list R) :
  (1 <= w)%nat ->
  ts_run (ts_vewm_f (DT := IsNone_never) w mp) body w (map Some rs)
  = ts_run (ts_vewm_f (DT := IsNoneXR) w mp) body w (map Some rs).
Proof. intros Hw. apply ewm_encoding_independent; [exact Hw|apply some_same_view]. Qed.

Theorem plain_family_wma (w : nat) mp body (rs : list R) :
  (1 <= w)%nat ->
  ts_run (ts_vwma_f (DT := IsNone_never) w mp) body w (map Some rs)
  = ts_run (ts_vwma_f (DT := IsNoneXR) w mp) body w (map Some rs).
Proof. intros Hw. apply wma_encoding_independent; [exact Hw|apply some_same_view]. Qed.
