(* Proofs/Time3.v — what the laws of Props/C17.v, section (8), are derived from: a time of day as
   its components (h, m, s, ns), on which Time::with_hour / with_minute / with_second / with_nanosecond act
   componentwise; TimeDelta / TimeDelta where every check passes; TimeDelta * i32 as a product; PartialOrd for
   TimeDelta as the lexicographic order.  Axiom-free (Z, bool only). *)
From Coq Require Import ZArith List Bool Lia ZifyBool.
From Tevec Require Import Base.Prelude Model.Time Proofs.Time Proofs.Audit17.
Local Open Scope Z_scope.

Definition time_of_comp (h m s n : Z) : Z := (h * 3600 + m * 60 + s) * 1000000000 + n.
Definition comp_ok (h m s n : Z) : Prop := hms_ok h m s /\ 0 <= n < 1000000000.
Definition time_in_day (t : Z) : Prop := 0 <= t < 86400000000000.

Lemma comp_in_day h m s n : comp_ok h m s n -> time_in_day (time_of_comp h m s n).
Proof. intros ((Hh & Hm & Hs) & Hn). unfold time_in_day, time_of_comp. lia. Qed.

Lemma comp_split h m s n :
  comp_ok h m s n ->
  time_of_comp h m s n / 1000000000 = h * 3600 + m * 60 + s /\ time_of_comp h m s n mod 1000000000 = n.
Proof.
  intros ((Hh & Hm & Hs) & Hn). unfold time_of_comp.
  set (S0 := h * 3600 + m * 60 + s).
  split.
  - symmetry. apply (Z.div_unique _ _ S0 n); lia.
  - symmetry. apply (Z.mod_unique _ _ S0 n); lia.
Qed.

Lemma secs_split h m s :
  hms_ok h m s ->
  let S0 := h * 3600 + m * 60 + s in
  S0 mod 3600 = m * 60 + s /\ S0 / 3600 = h /\ S0 mod 60 = s /\ S0 / 60 = h * 60 + m.
Proof.
  intros (Hh & Hm & Hs). cbv zeta. repeat split; symmetry.
  - apply (Z.mod_unique _ _ h); lia.
  - apply (Z.div_unique _ _ h (m * 60 + s)); lia.
  - apply (Z.mod_unique _ _ (h * 60 + m)); lia.
  - apply (Z.div_unique _ _ (h * 60 + m) s); lia.
Qed.

Lemma time_as_cr_comp h m s n :
  comp_ok h m s n -> time_as_cr (time_of_comp h m s n) = Some (h * 3600 + m * 60 + s, n).
Proof.
  intros H. rewrite time_as_cr_in_range by (apply comp_in_day; exact H).
  destruct (comp_split _ _ _ _ H) as [-> ->]. reflexivity.
Qed.

(* every time of day is the time of valid components, which are its mixed-radix digits *)
Lemma time_decompose t :
  time_in_day t ->
  exists h m s n, comp_ok h m s n /\ t = time_of_comp h m s n
    /\ h = t / 3600000000000 /\ m = t / 60000000000 mod 60 /\ s = t / 1000000000 mod 60 /\ n = t mod 1000000000.
Proof.
  intros Ht. unfold time_in_day in Ht.
  exists (t / 3600000000000), (t / 60000000000 mod 60), (t / 1000000000 mod 60), (t mod 1000000000).
  split; [|split; [|auto]].
  - split; [split; [|split]|]; try (apply Z.mod_pos_bound; reflexivity).
    split; [apply Z.div_pos|apply Z.div_lt_upper_bound]; lia.
  - unfold time_of_comp.
    replace (t / 3600000000000) with (t / 1000000000 / 60 / 60) by (rewrite !Z.div_div by lia; reflexivity).
    replace (t / 60000000000) with (t / 1000000000 / 60) by (rewrite Z.div_div by lia; reflexivity).
    rewrite (Z.div_mod t 1000000000) at 1 by lia.
    rewrite (Z.div_mod (t / 1000000000) 60) at 1 by lia.
    rewrite (Z.div_mod (t / 1000000000 / 60) 60) at 1 by lia. ring.
Qed.

Lemma time_getters_comp h m s n :
  comp_ok h m s n ->
  time_hour (time_of_comp h m s n) = Ok h /\ time_minute (time_of_comp h m s n) = Ok m
  /\ time_second (time_of_comp h m s n) = Ok s /\ time_nanosecond (time_of_comp h m s n) = Ok n.
Proof. intros [H Hn]. exact (time_getters h m s n _ H Hn eq_refl). Qed.

Lemma time_of_comp_injective h m s n h' m' s' n' :
  comp_ok h m s n -> comp_ok h' m' s' n' -> time_of_comp h m s n = time_of_comp h' m' s' n' ->
  h = h' /\ m = m' /\ s = s' /\ n = n'.
Proof.
  intros H H' E.
  destruct (time_getters_comp _ _ _ _ H) as (G1 & G2 & G3 & G4). rewrite E in G1, G2, G3, G4.
  destruct (time_getters_comp _ _ _ _ H') as (F1 & F2 & F3 & F4).
  repeat split; congruence.
Qed.

Lemma time_from_hms_nano_comp h m s n :
  comp_ok h m s n -> time_from_hms_nano h m s n = Ok (time_of_comp h m s n).
Proof. intros [H Hn]. exact (time_from_hms_nano_value h m s n H Hn). Qed.

Lemma time_with_hour_comp h0 m s n h :
  comp_ok h0 m s n -> 0 <= h < 24 ->
  time_with_hour (time_of_comp h0 m s n) h = Some (time_of_comp h m s n).
Proof.
  intros H Hh. unfold time_with_hour. rewrite (time_as_cr_comp _ _ _ _ H).
  replace (24 <=? h) with false by lia.
  destruct H as [H Hn]. destruct (secs_split _ _ _ H) as (E1 & _). rewrite E1.
  unfold time_from_cr, time_of_comp, NANOS_PER_SEC. cbn [fst snd]. f_equal. ring.
Qed.

Lemma time_with_minute_comp h m0 s n m :
  comp_ok h m0 s n -> 0 <= m < 60 ->
  time_with_minute (time_of_comp h m0 s n) m = Some (time_of_comp h m s n).
Proof.
  intros H Hm. unfold time_with_minute. rewrite (time_as_cr_comp _ _ _ _ H).
  replace (60 <=? m) with false by lia.
  destruct H as [H Hn]. destruct (secs_split _ _ _ H) as (_ & E2 & E3 & _). rewrite E2, E3.
  reflexivity.
Qed.

Lemma time_with_second_comp h m s0 n s :
  comp_ok h m s0 n -> 0 <= s < 60 ->
  time_with_second (time_of_comp h m s0 n) s = Some (time_of_comp h m s n).
Proof.
  intros H Hs. unfold time_with_second. rewrite (time_as_cr_comp _ _ _ _ H).
  replace (60 <=? s) with false by lia.
  destruct H as [H Hn]. destruct (secs_split _ _ _ H) as (_ & _ & _ & E4). rewrite E4.
  unfold time_from_cr, time_of_comp, NANOS_PER_SEC. cbn [fst snd]. f_equal. ring.
Qed.

(* also on the leap-second range of chrono (10^9 <= n < 2*10^9), which NaiveTime::with_nanosecond accepts on
   EVERY second: the result is then the raw sum, i.e. it spills into the next second *)
Lemma time_with_nanosecond_comp h m s n0 n :
  comp_ok h m s n0 -> 0 <= n < 2000000000 ->
  time_with_nanosecond (time_of_comp h m s n0) n = Some (time_of_comp h m s n).
Proof.
  intros H Hn'. unfold time_with_nanosecond. rewrite (time_as_cr_comp _ _ _ _ H).
  replace (2000000000 <=? n) with false by lia. reflexivity.
Qed.

(* a Time that is not a time of day for chrono (as_cr = None; in particular NaT): None, whatever the component *)
Lemma time_with_invalid t v :
  time_as_cr t = None ->
  time_with_hour t v = None /\ time_with_minute t v = None /\ time_with_second t v = None
  /\ time_with_nanosecond t v = None.
Proof.
  intros H. unfold time_with_hour, time_with_minute, time_with_second, time_with_nanosecond.
  rewrite H. auto.
Qed.

Lemma time_as_cr_nat : time_as_cr NaT = None.
Proof. vm_compute. reflexivity. Qed.

Lemma time_as_cr_none t :
  in_i64 t = true ->
  ~ ((0 <= t \/ Z.rem t 1000000000 = 0) /\ wrap_u32 (Z.quot t 1000000000) < 86400) -> time_as_cr t = None.
Proof.
  intros H64 H. destruct (time_as_cr t) eqn:E; [|reflexivity].
  contradict H. apply (time_as_cr_some_iff t H64). rewrite E. discriminate.
Qed.

Lemma time_as_cr_negative t : - 4294880896000000000 <= t < 0 -> time_as_cr t = None.
Proof.
  intros Ht. apply time_as_cr_none; [apply in_i64_iff; unfold i64_min, i64_max; lia|].
  intros [[Hp|R] W]; [lia|].
  (* a whole number q of seconds, -(2^32 - 86400) <= q < 0, wraps around to q + 2^32 >= 86400 *)
  pose proof (Z.quot_rem' t 1000000000) as Q. rewrite R in Q.
  unfold wrap_u32 in W.
  rewrite <- (Z.mod_unique _ 4294967296 (-1) (Z.quot t 1000000000 + 4294967296)) in W by lia. lia.
Qed.

(* the four with_* applied to midnight in the order h, m, s, n build exactly from_hms_nano *)
Definition obind {A B} (o : option A) (f : A -> option B) : option B :=
  match o with Some a => f a | None => None end.

Lemma time_with_compose h m s n :
  comp_ok h m s n ->
  obind (time_with_hour 0 h) (fun t1 => obind (time_with_minute t1 m) (fun t2 =>
    obind (time_with_second t2 s) (fun t3 => time_with_nanosecond t3 n))) = Some (time_of_comp h m s n)
  /\ time_from_hms_nano h m s n = Ok (time_of_comp h m s n).
Proof.
  intros H. split; [|exact (time_from_hms_nano_comp _ _ _ _ H)].
  destruct H as [(Hh & Hm & Hs) Hn].
  assert (C0 : comp_ok 0 0 0 0) by (repeat split; lia).
  change 0 with (time_of_comp 0 0 0 0) at 1.
  rewrite (time_with_hour_comp 0 0 0 0 h C0 Hh). cbn [obind].
  assert (C1 : comp_ok h 0 0 0) by (repeat split; lia).
  rewrite (time_with_minute_comp h 0 0 0 m C1 Hm). cbn [obind].
  assert (C2 : comp_ok h m 0 0) by (repeat split; lia).
  rewrite (time_with_second_comp h m 0 0 s C2 Hs). cbn [obind].
  assert (C3 : comp_ok h m s 0) by (repeat split; lia).
  apply (time_with_nanosecond_comp h m s 0 n C3). lia.
Qed.

Lemma wrap_i32_id z : in_i32 z = true -> wrap_i32 z = z.
Proof.
  intros H. apply in_i32_iff in H. unfold i32_min, i32_max in H. unfold wrap_i32.
  rewrite Z.mod_small by lia. lia.
Qed.

Lemma wrap_i32_range z : in_i32 (wrap_i32 z) = true.
Proof.
  apply in_i32_iff. unfold wrap_i32, i32_min, i32_max.
  pose proof (Z.mod_pos_bound (z + 2147483648) 4294967296 ltac:(lia)). lia.
Qed.

Lemma td_div_nat a b : td_is_nat a = true \/ td_is_nat b = true -> td_div a b = Panic OtherPanic.
Proof. intros [H|H]; unfold td_div; rewrite H; [|rewrite andb_false_r]; reflexivity. Qed.

(* where every check passes: the truncating quotient of the nanoseconds cast `as i32`, which the month quotient must
   match when both operands have months *)
Lemma td_div_checked a b :
  td_is_nat a = false -> td_is_nat b = false -> in_i64 (td_ns a) = true -> in_i64 (td_ns b) = true ->
  td_ns b <> 0 -> ~ (td_ns a = i64_min /\ td_ns b = -1) ->
  td_div a b = if (td_months a =? 0) || (td_months b =? 0) then Ok (wrap_i32 (Z.quot (td_ns a) (td_ns b)))
               else if Z.quot (td_months a) (td_months b) =? wrap_i32 (Z.quot (td_ns a) (td_ns b))
                    then Ok (Z.quot (td_months a) (td_months b)) else Panic OtherPanic.
Proof.
  intros Ha Hb Hna Hnb Hz Hmin. unfold td_div, num_ns, i64_quot. rewrite Ha, Hb, Hna, Hnb.
  cbn [negb andb unwrap bind].
  replace (td_ns b =? 0) with false by lia.
  replace ((td_ns a =? i64_min) && (td_ns b =? -1)) with false by lia.
  reflexivity.
Qed.

(* the value: at least one operand month-free -> the truncating quotient of the nanoseconds, cast `as i32` *)
Lemma td_div_value a b :
  td_is_nat a = false -> td_is_nat b = false -> in_i64 (td_ns a) = true -> in_i64 (td_ns b) = true ->
  td_ns b <> 0 -> ~ (td_ns a = i64_min /\ td_ns b = -1) -> td_months a = 0 \/ td_months b = 0 ->
  td_div a b = Ok (wrap_i32 (Z.quot (td_ns a) (td_ns b))).
Proof.
  intros Ha Hb Hna Hnb Hz Hmin Hm. rewrite td_div_checked by assumption.
  replace ((td_months a =? 0) || (td_months b =? 0)) with true by lia. reflexivity.
Qed.

(* a month-free operand and |a| < |b|: the quotient truncates to 0 *)
Lemma td_div_small a b :
  td_is_nat a = false -> td_is_nat b = false -> in_i64 (td_ns a) = true -> in_i64 (td_ns b) = true ->
  td_months a = 0 \/ td_months b = 0 -> Z.abs (td_ns a) < Z.abs (td_ns b) -> td_div a b = Ok 0.
Proof.
  intros Ha Hb Hna Hnb Hm Hlt.
  assert (Hz : td_ns b <> 0) by lia.
  assert (Hmin : ~ (td_ns a = i64_min /\ td_ns b = -1)) by (unfold i64_min; lia).
  rewrite td_div_value; try assumption.
  rewrite (proj2 (Z.quot_small_iff _ _ Hz) Hlt). reflexivity.
Qed.

(* a fixed part inside chrono's Duration range has its whole seconds strictly inside i64 *)
Lemma dur_secs_in_i64 X : dur_in_range X = true -> i64_min < X / 1000000000 < i64_max.
Proof.
  unfold dur_in_range, DUR_MAX_NS, i64_min, i64_max. intros H. split.
  - apply (Z.lt_le_trans _ (- 9223372036854775807)); [reflexivity|]. apply Z.div_le_lower_bound; lia.
  - apply Z.div_lt_upper_bound; lia.
Qed.

(* the product k * d is the duration with months M and fixed part N, once these pass the two checks *)
Lemma td_mul_is d k M N :
  td_is_nat d = false -> td_months d * k = M -> td_ns d * k = N ->
  in_i32 M = true -> i64_min < N / 1000000000 < i64_max -> td_mul d k = Ok (mktd M N).
Proof. intros Hd <- <-. apply td_mul_intro. exact Hd. Qed.

Lemma td_mul_1 a : td_valid a -> td_mul a 1 = Ok a.
Proof.
  intros Hv. pose proof (td_valid_not_nat _ Hv) as Hn. destruct Hv as [Hm Hd]. destruct a as [m n].
  apply td_mul_is; [exact Hn|apply Z.mul_1_r|apply Z.mul_1_r| |]; cbn [td_months td_ns] in *.
  - apply in_i32_iff. lia.
  - apply dur_secs_in_i64. unfold dur_in_range. lia.
Qed.

(* a sufficient, purely arithmetic condition under which EVERY operation of the scaling laws succeeds:
   months and nanoseconds bounded so that the products stay inside i32 / chrono's Duration range *)
Definition td_bounded (B : Z) (d : tdelta) : Prop := Z.abs (td_months d) <= B /\ Z.abs (td_ns d) <= B * 1000000000.

Lemma td_cmp_lex a b :
  td_is_nat a = false ->
  td_partial_cmp a b = Some (match td_months a ?= td_months b with Eq => td_ns a ?= td_ns b | c => c end).
Proof.
  intros Ha. unfold td_partial_cmp. rewrite Ha. cbn [negb].
  destruct (Z.eqb_spec (td_months a) (td_months b)) as [E|E]; cbn [negb].
  - rewrite E, Z.compare_refl. reflexivity.
  - destruct (td_months a ?= td_months b) eqn:C; try reflexivity. apply Z.compare_eq in C. contradiction.
Qed.

Lemma td_cmp_monthfree a b :
  td_months a = 0 -> td_months b = 0 -> td_partial_cmp a b = Some (td_ns a ?= td_ns b).
Proof.
  intros Ha Hb. rewrite td_cmp_lex by (apply td_months0_not_nat; exact Ha). rewrite Ha, Hb. reflexivity.
Qed.

Lemma td_cmp_refl a : td_is_nat a = false -> td_partial_cmp a a = Some Eq.
Proof. intros Ha. rewrite td_cmp_lex by exact Ha. rewrite !Z.compare_refl. reflexivity. Qed.
