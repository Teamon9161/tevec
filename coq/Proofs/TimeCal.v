(* Proofs/TimeCal.v — the calendar-dependent lemmas for C17: adding months is Spec add_months on the date, truncation
   to m months (m | 12) lands on the first of the year-aligned period.  The Section assumes CalendarLaws for
   civil_of_days and days_of_civil of Spec/Calendar.v; Proofs/Calendar.calendar_lawful discharges it where the lemmas
   are used.  Axiom-free. *)
From Coq Require Import ZArith List Bool Lia ZifyBool.
From Tevec Require Import Base.Prelude Spec.Calendar Model.Time Proofs.Time Proofs.Audit17.
Local Open Scope Z_scope.
(* keep the Hinnant arithmetic folded: the proofs only use the laws *)
#[local] Opaque days_of_civil civil_of_days.

Lemma dim_bounds y m : 28 <= days_in_month y m <= 31.
Proof. unfold days_in_month. destruct (m =? 2); [destruct (is_leap y)|destruct (_ || _)]; lia. Qed.

Lemma valid_civil_iff y m d :
  valid_civil (y, m, d) <-> 1 <= m <= 12 /\ 1 <= d <= days_in_month y m.
Proof. unfold valid_civil, valid_civilb. lia. Qed.

Lemma month_index_split y r : 0 <= r < 12 -> (y * 12 + r) / 12 = y /\ (y * 12 + r) mod 12 = r.
Proof.
  intros Hr. rewrite Z.add_comm, Z.div_add, Z.mod_add, Z.div_small, Z.mod_small by lia. auto.
Qed.

Lemma sod_bounds c : 0 <= cr_sod c < 86400.
Proof. unfold cr_sod, SECS_PER_DAY. apply Z.mod_pos_bound. lia. Qed.

Lemma cr_secs_split c : cr_secs c = cr_day c * 86400 + cr_sod c.
Proof. unfold cr_day, cr_sod, SECS_PER_DAY. rewrite Z.mul_comm. apply Z.div_mod. lia. Qed.

Lemma as_cr_unit_whole u x c : as_cr u x = Some c -> cr_nanos c mod unit_ns u = 0.
Proof.
  intros H. destruct (as_cr_total _ _ _ H) as [-> _]. rewrite cr_of_instant. cbn [cr_nanos].
  apply Z.mod_mul. pose proof (unit_ns_pos u). lia.
Qed.

Lemma cr_add_ns_0 c r : cr_wf c -> cr_add_ns c 0 = Some r -> r = c /\ date_in_range (cr_day c) = true.
Proof.
  intros Hw H. apply cr_add_ns_inv in H. rewrite Z.add_0_r, (cr_of_total_total _ Hw) in H.
  destruct H as [-> Hr]. auto.
Qed.

Lemma from_cr_as_cr_unique u c x c2 :
  cr_wf c -> cr_nanos c mod unit_ns u = 0 -> from_cr u c = Ok x -> as_cr u x = Some c2 -> c2 = c.
Proof.
  intros Hw Hm Hf H2. destruct (as_cr_total _ _ _ H2) as [-> Hx]. fold (instant_ns u x).
  rewrite (from_cr_whole u c x Hw Hm Hf Hx). apply cr_of_total_total, Hw.
Qed.

Section WithCalendar.
  Hypothesis Hcal : CalendarLaws civil_of_days days_of_civil.

  Lemma cr_civil_valid c : valid_civil (cr_civil c).
  Proof. apply (cl_valid _ _ Hcal). Qed.

  (* a chrono value assembled from a valid civil date and a time of day reads back those fields *)
  Lemma cr_fields_of_parts cv sod n :
    valid_civil cv -> 0 <= sod < 86400 ->
    let c := mkcr (days_of_civil cv * SECS_PER_DAY + sod) n in
    cr_civil c = cv /\ cr_sod c = sod /\ cr_nanos c = n.
  Proof.
    intros Hv Hs c. subst c. unfold cr_civil, cr_day, cr_sod, SECS_PER_DAY. cbn [cr_secs cr_nanos].
    rewrite Z.div_add_l, Z.div_small, Z.add_0_r, Z.add_comm, Z.mod_add, Z.mod_small by lia.
    rewrite (cl_civil_days_civil _ _ Hcal _ Hv). auto.
  Qed.

  (* chrono's month arithmetic is Spec add_months on the date, the time of day untouched *)
  Lemma cr_add_months_spec c k c' :
    cr_add_months c k = Some c' ->
    cr_civil c' = add_months (cr_civil c) k /\ cr_sod c' = cr_sod c /\ cr_nanos c' = cr_nanos c.
  Proof.
    unfold cr_add_months, add_months. pose proof (cr_civil_valid c) as Hv.
    destruct (cr_civil c) as [[y m] d]. apply valid_civil_iff in Hv. cbv zeta.
    set (t := y * 12 + (m - 1) + k). set (dmax := days_in_month (t / 12) (t mod 12 + 1)).
    replace (if dmax <? d then dmax else d) with (Z.min d dmax) by (destruct (Z.ltb_spec dmax d); lia).
    destruct (_ && _); [|discriminate]. intros [= <-].
    apply cr_fields_of_parts; [|apply sod_bounds]. apply valid_civil_iff.
    pose proof (dim_bounds (t / 12) (t mod 12 + 1)). pose proof (Z.mod_pos_bound t 12). lia.
  Qed.

  Lemma cr_add_months_wf c k c' : cr_wf c -> cr_add_months c k = Some c' -> cr_wf c'.
  Proof.
    intros Hw H. destruct (cr_add_months_spec _ _ _ H) as (_ & _ & E). unfold cr_wf. rewrite E. exact Hw.
  Qed.

  (* a months-only shift that returns a value: chrono's month step succeeded and its result is what as_cr reads back *)
  Lemma dt_shift_months_ok u x k y :
    k <> 0 -> dt_shift_spec u x k 0 = Ok y -> y <> NaT ->
    exists c c', as_cr u x = Some c /\ cr_add_months c k = Some c' /\ as_cr u y = Some c'.
  Proof.
    intros Hk H Hy. unfold dt_shift_spec in H. apply Z.eqb_neq in Hk. rewrite Hk in H.
    destruct (as_cr u x) as [c|] eqn:Ec; [|discriminate].
    destruct (cr_add_months c k) as [c'|] eqn:Hc'; [|discriminate].
    destruct (cr_add_ns c' 0) as [r|] eqn:Er; [|discriminate].
    pose proof (cr_add_months_wf _ _ _ (as_cr_wf _ _ _ Ec) Hc') as Hw'.
    destruct (cr_add_ns_0 _ _ Hw' Er) as [-> Hrange].
    destruct (cr_add_months_spec _ _ _ Hc') as (_ & _ & E3).
    exists c, c'. repeat split; try assumption.
    apply from_cr_as_cr; try assumption. rewrite E3. apply (as_cr_unit_whole _ _ _ Ec).
  Qed.

  Lemma dt_shift_months_fields u x k y :
    k <> 0 -> dt_shift_spec u x k 0 = Ok y -> y <> NaT ->
    exists c c', as_cr u x = Some c /\ as_cr u y = Some c'
                 /\ cr_civil c' = add_months (cr_civil c) k /\ cr_sod c' = cr_sod c /\ cr_nanos c' = cr_nanos c.
  Proof.
    intros Hk H Hy. destruct (dt_shift_months_ok u x k y Hk H Hy) as (c & c' & Ec & Hc' & Ey).
    exists c, c'. split; [exact Ec|]. split; [exact Ey|]. exact (cr_add_months_spec _ _ _ Hc').
  Qed.

  Lemma dt_add_months_fields u x k y :
    x <> NaT -> k <> 0 -> k <> i32_min -> dt_add u x (mktd k 0) = Ok y -> y <> NaT ->
    exists c c', as_cr u x = Some c /\ as_cr u y = Some c'
                 /\ cr_civil c' = add_months (cr_civil c) k /\ cr_sod c' = cr_sod c /\ cr_nanos c' = cr_nanos c.
  Proof.
    intros Hx Hk Hk' H. rewrite dt_add_shift in H by (exact Hx || apply Z.eqb_neq, Hk').
    exact (dt_shift_months_fields u x k y Hk H).
  Qed.

  Lemma dt_sub_months_fields u x k y :
    x <> NaT -> k <> 0 -> k <> i32_min -> dt_sub u x (mktd k 0) = Ok y -> y <> NaT ->
    exists c c', as_cr u x = Some c /\ as_cr u y = Some c'
                 /\ cr_civil c' = add_months (cr_civil c) (- k) /\ cr_sod c' = cr_sod c /\ cr_nanos c' = cr_nanos c.
  Proof.
    intros Hx Hk Hk' H. rewrite dt_sub_shift in H by (exact Hx || apply Z.eqb_neq, Hk').
    exact (dt_shift_months_fields u x (- k) y ltac:(lia) H).
  Qed.

  Definition divides12 (m : Z) : Prop := m = 1 \/ m = 2 \/ m = 3 \/ m = 4 \/ m = 6 \/ m = 12.

  (* first month (1-based) of the period of m months that contains month mo *)
  Definition period_start (mo m : Z) : Z := (mo - 1) - (mo - 1) mod m + 1.

  Lemma divides12_spec m : divides12 m -> 0 < m /\ exists q, 12 = q * m.
  Proof.
    intros [->|[->|[->|[->|[->| ->]]]]]; (split; [reflexivity|]);
      [exists 12|exists 6|exists 4|exists 3|exists 2|exists 1]; reflexivity.
  Qed.

  (* whole years do not move a month index modulo m *)
  Lemma month_index_mod y r m : divides12 m -> (y * 12 + r) mod m = r mod m.
  Proof.
    intros Hm. destruct (divides12_spec m Hm) as (Hm0 & q & ->).
    rewrite Z.mul_assoc, Z.add_comm. apply Z.mod_add. lia.
  Qed.

  Lemma period_start_range mo m :
    0 < m -> 1 <= mo <= 12 ->
    1 <= period_start mo m <= mo /\ (period_start mo m - 1) mod m = 0 /\ mo - period_start mo m < m.
  Proof.
    intros Hm Hmo. unfold period_start.
    pose proof (Z.mod_pos_bound (mo - 1) m Hm). pose proof (Z.mod_le (mo - 1) m ltac:(lia) Hm).
    repeat split; try lia.
    rewrite Z.add_simpl_r, (Z.mod_eq (mo - 1) m), Z.sub_sub_distr, Z.sub_diag, Z.add_0_l, Z.mul_comm by lia.
    apply Z.mod_mul. lia.
  Qed.

  (* (mo - 1) mod m months before the first of month mo: the first of the period's first month, same year *)
  Lemma add_months_period_start y mo m :
    0 < m -> 1 <= mo <= 12 -> add_months (y, mo, 1) (- ((mo - 1) mod m)) = (y, period_start mo m, 1).
  Proof.
    intros Hm Hmo. destruct (period_start_range mo m Hm Hmo) as (Hps & _ & _). unfold add_months.
    replace (y * 12 + (mo - 1) + - ((mo - 1) mod m)) with (y * 12 + (period_start mo m - 1))
      by (unfold period_start; ring).
    destruct (month_index_split y (period_start mo m - 1)) as [-> ->]; [lia|].
    pose proof (dim_bounds y (period_start mo m - 1 + 1)). rewrite Z.min_l, Z.sub_add by lia. reflexivity.
  Qed.

  Lemma trunc_months_spec c m c' :
    divides12 m -> trunc_months c m = Ok c' ->
    let '(y, mo, _) := cr_civil c in
    cr_civil c' = (y, period_start mo m, 1) /\ cr_sod c' = 0 /\ cr_nanos c' = 0.
  Proof.
    intros Hm. destruct (divides12_spec m Hm) as [Hm0 _].
    unfold trunc_months. pose proof (cr_civil_valid c) as Hv.
    destruct (cr_civil c) as [[y mo] d]. apply valid_civil_iff in Hv. destruct Hv as [Hmo _].
    set (T := if 1 <=? y then _ else _). set (c0 := mkcr _ 0).
    assert (Hv0 : valid_civil (y, mo, 1)) by (apply valid_civil_iff; pose proof (dim_bounds y mo); lia).
    destruct (cr_fields_of_parts (y, mo, 1) 0 0 Hv0 ltac:(lia)) as (F1 & F2 & F3).
    rewrite Z.add_0_r in F1, F2, F3. fold c0 in F1, F2, F3.
    (* both arms of the year_ce test are a whole number of years plus mo - 1 *)
    assert (HT : T mod m = (mo - 1) mod m).
    { subst T. destruct (1 <=? y); [|replace ((1 - y) * -12) with ((y - 1) * 12) by ring];
        apply month_index_mod, Hm. }
    (* chrono's three-way case steps back by T mod m in every arm (trunc_floor) *)
    pose proof (trunc_floor T m Hm0) as HF. cbv zeta in HF. pose proof (Z.div_mod T m ltac:(lia)) as DM.
    assert (Hstep : forall k c1, k = T mod m -> cr_sub_months c0 k = Some c1 ->
                                 cr_civil c1 = (y, period_start mo m, 1) /\ cr_sod c1 = 0 /\ cr_nanos c1 = 0).
    { intros k c1 -> H1. destruct (cr_add_months_spec _ _ _ H1) as (-> & -> & ->).
      rewrite F1, F2, F3, HT, add_months_period_start by assumption. auto. }
    revert HF. destruct (Z.rem T m =? 0); [|destruct (0 <? Z.rem T m)]; intros HF.
    2, 3: destruct (cr_sub_months c0 _) as [c1|] eqn:E; [|discriminate]; intros [= <-];
      refine (Hstep _ _ _ E); lia.
    intros [= <-]. rewrite F1, F2, F3. unfold period_start.
    replace ((mo - 1) mod m) with 0 by lia. rewrite Z.sub_0_r, Z.sub_add. auto.
  Qed.

  Lemma dt_trunc_months_unfold u x m n c :
    x <> NaT -> 0 < m -> as_cr u x = Some c ->
    dt_trunc u x (mktd m n) =
      do c1 <- trunc_months c m;
      match num_ns n with
      | Some 0 => from_cr u c1
      | _ => do r <- cr_duration_trunc c1 n; from_cr u r
      end.
  Proof.
    intros Hx Hm Ec. unfold dt_trunc. rewrite (proj2 (is_nat_false x) Hx), Ec. cbn [unwrap bind td_months td_ns].
    replace (m =? 0) with false by lia. replace (m <? 0) with false by lia. reflexivity.
  Qed.

  Lemma dt_trunc_months_ok u x m y :
    x <> NaT -> divides12 m -> dt_trunc u x (mktd m 0) = Ok y ->
    exists c c1, as_cr u x = Some c /\ trunc_months c m = Ok c1 /\ from_cr u c1 = Ok y.
  Proof.
    intros Hx Hm H. destruct (as_cr u x) as [c|] eqn:Ec.
    - rewrite (dt_trunc_months_unfold u x m 0 c Hx (proj1 (divides12_spec m Hm)) Ec) in H.
      destruct (trunc_months c m) as [c1|] eqn:Et; [|discriminate]. exists c, c1. auto.
    - unfold dt_trunc in H. rewrite (proj2 (is_nat_false x) Hx), Ec in H. discriminate.
  Qed.

  (* the month-truncated value has no sub-second part, so it is whole in every unit and converts back to itself *)
  Lemma trunc_months_whole u c m c1 :
    divides12 m -> trunc_months c m = Ok c1 -> cr_wf c1 /\ cr_nanos c1 mod unit_ns u = 0.
  Proof.
    intros Hm Et. pose proof (trunc_months_spec _ _ _ Hm Et) as HS.
    destruct (cr_civil c) as [[yr mo] dd]. destruct HS as (_ & _ & S3).
    unfold cr_wf. rewrite S3. split; [lia|]. apply Z.mod_0_l. pose proof (unit_ns_pos u). lia.
  Qed.

  Lemma trunc_months_as_cr u c m c1 y cy :
    divides12 m -> trunc_months c m = Ok c1 -> from_cr u c1 = Ok y -> as_cr u y = Some cy -> cy = c1.
  Proof.
    intros Hm Et Hf Hcy. destruct (trunc_months_whole u c m c1 Hm Et) as [Hw Hu].
    exact (from_cr_as_cr_unique u c1 y cy Hw Hu Hf Hcy).
  Qed.

  Lemma dt_trunc_months_fields u x m y :
    x <> NaT -> divides12 m -> dt_trunc u x (mktd m 0) = Ok y ->
    exists c, as_cr u x = Some c /\
      forall cy, as_cr u y = Some cy ->
                 (let '(yr, mo, _) := cr_civil c in cr_civil cy = (yr, period_start mo m, 1))
                 /\ cr_sod cy = 0 /\ cr_nanos cy = 0.
  Proof.
    intros Hx Hm H. destruct (dt_trunc_months_ok u x m y Hx Hm H) as (c & c1 & Ec & Et & Hf).
    exists c. split; [exact Ec|]. intros cy Hcy. rewrite (trunc_months_as_cr u c m c1 y cy Hm Et Hf Hcy).
    pose proof (trunc_months_spec _ _ _ Hm Et) as HS. destruct (cr_civil c) as [[yr mo] dd]. exact HS.
  Qed.
End WithCalendar.
