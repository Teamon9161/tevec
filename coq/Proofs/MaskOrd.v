(* Proofs/MaskOrd.v — ts_vrank at every carrier, and the C06 prefix / window-only laws of the extrema / arg-extrema /
   rank family at every OrdLaws carrier (incl. binary64).  Stdlib only.  (The C05 masks of the family: Proofs/Mask3.v.)
     - (1) ts_vrank at EVERY input carrier A and EVERY output carrier B, no law at all: the callback's counter is the
           valid count of the window, the output is a function `g_rank_any` of the window (the carrier's own
           comparisons and arithmetic applied in program order) => never a panic, one output per input;
     - (2) C06: prefix law in the UNCONDITIONAL form "the whole call returns out, and the call on the prefix returns
           firstn k out" (totality from Mask3 / (1) + Proofs/IdxPrefix.v), window-only law in the strong form "both
           calls return and the two outputs are the same value" (from the closed forms);
     - (3) the laws (2) at Coq's primitive binary64 `float`: f64 series with NaN as the null (IsNoneF64; the premise on
           the series is automatic) and Option<f64> series (IsNoneOptF64; premise valid_not_nan = no Some(NaN),
           DESIGN 5.4).  Assumptions of (3): the stdlib specs eqb_spec / ltb_spec / leb_spec of Proofs/CmpOrdFloat.v;
           (1)-(2) at a generic carrier are axiom-free.                                                             *)
From Coq Require Import ZArith List Lia Bool Reals Floats.
From Tevec Require Import Base.Prelude Base.Num Base.XR Base.F64 Model.Driver Proofs.Driver Model.Cmp Proofs.IdxRun
     Spec.ExtremaOrd Proofs.CmpOrd Proofs.CmpOrdFloat Proofs.RollRankOrd
     Proofs.Fdiff Proofs.Mask3 Proofs.NoLookahead Proofs.NoLookahead2 Proofs.NoLookahead3
     Proofs.IdxPrefix.
Import ListNotations.

Lemma valid_not_nan_nil {A} {NA : Num A} {T} {DT : IsNone T A} : valid_not_nan (@nil T).
Proof. intros v []. Qed.

Section RankAny.
  Context {A : Type} {NA : Num A} {T : Type} {DT : IsNone T A} {B : Type} {NB : Num B}.

  (* the recount loop as a fold over the optional elements it passes, in program order *)
  Fixpoint rank_list (x : A) (W : list (option A)) (rank : B) (nrep : nat) : B * nat :=
    match W with
    | [] => (rank, nrep)
    | None :: r => rank_list x r rank nrep
    | Some a :: r => if nltb a x then rank_list x r (nadd rank none) nrep
                     else if neqb a x then rank_list x r rank (S nrep)
                     else rank_list x r rank nrep
    end.

  (* what ts_vrank emits at a position, from the window (as optional elements) alone *)
  Definition g_rank_any (m : nat) (pct rev : bool) (W : list (option A)) : B :=
    match last_opt W with
    | Some (Some x) =>
        let r := rank_list x (removelast W) none 1 in
        rank_out m pct rev (length (gvalid W)) (fst r) (snd r)
    | _ => rank_out m pct rev (length (gvalid W)) nnan 1
    end.

  Lemma rank_loop_list (xs : list T) (x : A) : forall cnt i (rank : B) nrep, i + cnt <= length xs ->
    rank_loop xs x i cnt rank nrep = Ok (rank_list x (seg i (i + cnt) (govs xs)) rank nrep).
  Proof.
    induction cnt as [|cnt IH]; intros i rank nrep Hlen.
    - rewrite Nat.add_0_r, seg_nil. reflexivity.
    - destruct (nth_error_Some_lt xs i) as [v Hv]; [lia|].
      rewrite (@seg_cons _ i (i + S cnt) (govs xs) (to_opt v)); [|lia|rewrite govs_nth, Hv; reflexivity].
      replace (i + S cnt) with (S i + cnt) by lia.
      cbn [rank_loop]. rewrite (uget_nth xs i v Hv). cbn [bind]. cbv zeta.
      unfold not_none, to_opt. destruct (is_none v); cbn [negb rank_list].
      + apply IH. lia.
      + destruct (nltb (unwrap v) x); [apply IH; lia|]. destruct (neqb (unwrap v) x); apply IH; lia.
  Qed.

  (* closed form, bit for bit at every carrier: output i = g_rank_any of the window *)
  Theorem ts_vrank_any body w mp pct rev (xs : list T) :
    1 <= w -> 1 <= length xs ->
    exists out, ts_vrank (B := B) body w mp pct rev xs = Done out /\ length out = length xs /\
      forall i, i < length xs ->
        nth_error out i = Some (g_rank_any (cmp_mp mp (cmp_window w xs)) pct rev (win w i (map to_opt xs))).
  Proof.
    intros Hw Hlen.
    destruct (ts_vrank_at xs (fun x a k => rank_list x (seg a k (govs xs)) none 1)) with (body := body) (w := w)
      (mp := mp) (pct := pct) (rev := rev) as (out & H1 & H2 & H3); [|exact Hw|exact Hlen|].
    { intros k v a Hv _ Ha. pose proof (rank_loop_list xs (unwrap v) (k - a) a none 1) as HL.
      replace (a + (k - a)) with k in HL by lia. apply HL. apply Nat.lt_le_incl, nth_error_Some. congruence. }
    exists out. split; [exact H1|]. split; [exact H2|]. intros i Hi. rewrite (H3 i Hi). f_equal.
    unfold rank_at, g_rank_any. fold (govs xs).
    rewrite (win_snoc w i (govs xs) (gov xs i) Hw (govs_nth_lt xs i Hi)), last_opt_snoc, removelast_last.
    unfold gcount. rewrite (@seg_snoc _ (wstart w i) i (govs xs) (gov xs i));
      [|unfold wstart; lia|apply govs_nth_lt; exact Hi].
    destruct (gov xs i); reflexivity.
  Qed.

  Theorem rank_total_any body w mp pct rev (xs : list T) :
    1 <= w -> exists out, ts_vrank (B := B) body w mp pct rev xs = Done out /\ length out = length xs.
  Proof.
    intros Hw. destruct xs as [|x xs'] eqn:Exs.
    - rewrite ts_vrank_empty. exists []. split; reflexivity.
    - rewrite <- Exs. assert (Hl : 1 <= length xs) by (rewrite Exs; cbn; lia).
      destruct (ts_vrank_any body w mp pct rev xs Hw Hl) as (o & A1 & B1 & _).
      exists o. split; assumption.
  Qed.

  (* window-determined form under the min_periods condition of DESIGN 5.3 *)
  Lemma vrank_wd_any body w mp pct rev : 1 <= w ->
    forall xs : list T, 1 <= length xs -> cmp_dom w mp (length xs) ->
    exists out, ts_vrank (B := B) body w mp pct rev xs = Done out /\ length out = length xs /\
      forall i, i < length xs ->
        nth_error out i = Some (g_rank_any (cmp_mp mp w) pct rev (map to_opt (win w i xs))).
  Proof.
    intros Hw xs Hl Hd. destruct (ts_vrank_any body w mp pct rev xs Hw Hl) as (out & E & L & N).
    exists out. split; [exact E|]. split; [exact L|]. intros i Hi. rewrite (N i Hi).
    rewrite win_map, cmp_mp_const by exact Hd. reflexivity.
  Qed.
End RankAny.

(* window-only, strong form: both calls return, and the outputs at the two positions are the same value *)
Lemma wd_window_strong {T O} (f1 f2 : list T -> outcome O) (w : nat) (D : list T -> Prop) (g : list T -> O) :
  (forall xs, 1 <= length xs -> D xs ->
     exists out, f1 xs = Done out /\ length out = length xs /\
       forall i, i < length xs -> nth_error out i = Some (g (win w i xs))) ->
  (forall xs, 1 <= length xs -> D xs ->
     exists out, f2 xs = Done out /\ length out = length xs /\
       forall i, i < length xs -> nth_error out i = Some (g (win w i xs))) ->
  forall xs ys i j, D xs -> D ys -> i < length xs -> j < length ys -> win w i xs = win w j ys ->
    exists ox oy o, f1 xs = Done ox /\ f2 ys = Done oy /\ nth_error ox i = Some o /\ nth_error oy j = Some o.
Proof.
  intros H1 H2 xs ys i j Dx Dy Hi Hj HW.
  destruct (H1 xs) as (o1 & E1 & L1 & N1); [lia|exact Dx|].
  destruct (H2 ys) as (o2 & E2 & L2 & N2); [lia|exact Dy|].
  exists o1, o2, (g (win w i xs)). split; [exact E1|]. split; [exact E2|].
  split; [apply N1; exact Hi|]. rewrite HW. apply N2. exact Hj.
Qed.

(* prefix, unconditional form: totality + the bit-for-bit rule of Proofs/IdxPrefix.v *)
Lemma prefix_strong {T O} (f : list T -> outcome O) (xs : list T) (k : nat) :
  (exists out, f xs = Done out /\ length out = length xs) ->
  (forall out, f xs = Done out -> f (firstn k xs) = Done (firstn k out)) ->
  exists out, f xs = Done out /\ length out = length xs /\ f (firstn k xs) = Done (firstn k out).
Proof.
  intros (out & E & L) HP. exists out. split; [exact E|]. split; [exact L|]. apply HP. exact E.
Qed.

Section NoLookaheadOrdG.
  Context {A : Type} {NA : Num A} {T : Type} {DT : IsNone T A}.
  Hypothesis OL : OrdLaws A.

  (* the domain of the window-determined forms: valid elements are not NaN, and DESIGN 5.3 *)
  Definition ord_dom (w : nat) (mp : option nat) (xs : list T) : Prop :=
    valid_not_nan xs /\ cmp_dom w mp (length xs).

  Definition g_min_ord (w : nat) (mp : option nat) (W : list T) : option A :=
    let V := gvalid (map to_opt W) in if cmp_mp mp w <=? length V then gmin V else None.
  Definition g_max_ord (w : nat) (mp : option nat) (W : list T) : option A :=
    let V := gvalid (map to_opt W) in if cmp_mp mp w <=? length V then gmax V else None.
  Definition g_argmin_ord (w : nat) (mp : option nat) (W : list T) : option nat :=
    let W' := map to_opt W in if cmp_mp mp w <=? length (gvalid W') then gargmin_spec W' else None.
  Definition g_argmax_ord (w : nat) (mp : option nat) (W : list T) : option nat :=
    let W' := map to_opt W in if cmp_mp mp w <=? length (gvalid W') then gargmax_spec W' else None.
  Definition g_rank_ord (w : nat) (mp : option nat) (pct rev : bool) (W : list T) : XR :=
    match last_opt (map to_opt W) with
    | Some (Some x) =>
        let V' := gvalid (removelast (map to_opt W)) in
        if cmp_mp mp w <=? S (length V') then Some (g_avg_rank pct rev x V') else None
    | _ => None
    end.

  Lemma vmin_wd_ord body w mp : 1 <= w ->
    forall xs : list T, 1 <= length xs -> ord_dom w mp xs ->
    exists out, ts_vmin body w mp xs = Done out /\ length out = length xs /\
      forall i, i < length xs -> nth_error out i = Some (g_min_ord w mp (win w i xs)).
  Proof.
    intros Hw xs Hl [Hn Hd]. destruct (ts_vmin_ord OL body w mp xs Hn Hw Hl) as (out & E & L & N).
    exists out. split; [exact E|]. split; [exact L|]. intros i Hi. rewrite (N i Hi).
    unfold g_min_ord. rewrite win_map, cmp_mp_const by exact Hd. reflexivity.
  Qed.
  Lemma vmax_wd_ord body w mp : 1 <= w ->
    forall xs : list T, 1 <= length xs -> ord_dom w mp xs ->
    exists out, ts_vmax body w mp xs = Done out /\ length out = length xs /\
      forall i, i < length xs -> nth_error out i = Some (g_max_ord w mp (win w i xs)).
  Proof.
    intros Hw xs Hl [Hn Hd]. destruct (ts_vmax_ord OL body w mp xs Hn Hw Hl) as (out & E & L & N).
    exists out. split; [exact E|]. split; [exact L|]. intros i Hi. rewrite (N i Hi).
    unfold g_max_ord. rewrite win_map, cmp_mp_const by exact Hd. reflexivity.
  Qed.
  Lemma vargmin_wd_ord body w mp : 1 <= w ->
    forall xs : list T, 1 <= length xs -> ord_dom w mp xs ->
    exists out, ts_vargmin body w mp xs = Done out /\ length out = length xs /\
      forall i, i < length xs -> nth_error out i = Some (g_argmin_ord w mp (win w i xs)).
  Proof.
    intros Hw xs Hl [Hn Hd]. destruct (ts_vargmin_ord OL body w mp xs Hn Hw Hl) as (out & E & L & N).
    exists out. split; [exact E|]. split; [exact L|]. intros i Hi. rewrite (N i Hi).
    unfold g_argmin_ord. rewrite win_map, cmp_mp_const by exact Hd. reflexivity.
  Qed.
  Lemma vargmax_wd_ord body w mp : 1 <= w ->
    forall xs : list T, 1 <= length xs -> ord_dom w mp xs ->
    exists out, ts_vargmax body w mp xs = Done out /\ length out = length xs /\
      forall i, i < length xs -> nth_error out i = Some (g_argmax_ord w mp (win w i xs)).
  Proof.
    intros Hw xs Hl [Hn Hd]. destruct (ts_vargmax_ord OL body w mp xs Hn Hw Hl) as (out & E & L & N).
    exists out. split; [exact E|]. split; [exact L|]. intros i Hi. rewrite (N i Hi).
    unfold g_argmax_ord. rewrite win_map, cmp_mp_const by exact Hd. reflexivity.
  Qed.
  Lemma vrank_wd_ord body w mp pct rev : 1 <= w ->
    forall xs : list T, 1 <= length xs -> ord_dom w mp xs ->
    exists out, ts_vrank (B := XR) body w mp pct rev xs = Done out /\ length out = length xs /\
      forall i, i < length xs -> nth_error out i = Some (g_rank_ord w mp pct rev (win w i xs)).
  Proof.
    intros Hw xs Hl [Hn Hd]. destruct (ts_vrank_ord OL body w mp pct rev xs Hn Hw Hl) as (out & E & L & N).
    exists out. split; [exact E|]. split; [exact L|]. intros i Hi. rewrite (N i Hi).
    unfold g_rank_ord. rewrite <- win_map.
    destruct (nth_error (map to_opt xs) i) as [a|] eqn:Ea;
      [|apply nth_error_None in Ea; rewrite map_length in Ea; lia].
    rewrite (win_snoc w i _ a Hw Ea), last_opt_snoc, removelast_last, cmp_mp_const by exact Hd.
    reflexivity.
  Qed.

  (* window-only: two series (any lengths, any histories, either driver body each) whose windows at positions
     i and j coincide: both calls return and give the same output there *)
  Theorem window_only_vmin_ord bx by_ w mp (xs ys : list T) i j :
    1 <= w -> valid_not_nan xs -> valid_not_nan ys -> cmp_dom w mp (length xs) -> cmp_dom w mp (length ys) ->
    i < length xs -> j < length ys -> win w i xs = win w j ys ->
    exists ox oy o, ts_vmin bx w mp xs = Done ox /\ ts_vmin by_ w mp ys = Done oy /\
                    nth_error ox i = Some o /\ nth_error oy j = Some o.
  Proof.
    intros Hw Nx Ny Dx Dy.
    apply (wd_window_strong (ts_vmin bx w mp) (ts_vmin by_ w mp) w (ord_dom w mp) (g_min_ord w mp)
             (vmin_wd_ord bx w mp Hw) (vmin_wd_ord by_ w mp Hw)); split; assumption.
  Qed.
  Theorem window_only_vmax_ord bx by_ w mp (xs ys : list T) i j :
    1 <= w -> valid_not_nan xs -> valid_not_nan ys -> cmp_dom w mp (length xs) -> cmp_dom w mp (length ys) ->
    i < length xs -> j < length ys -> win w i xs = win w j ys ->
    exists ox oy o, ts_vmax bx w mp xs = Done ox /\ ts_vmax by_ w mp ys = Done oy /\
                    nth_error ox i = Some o /\ nth_error oy j = Some o.
  Proof.
    intros Hw Nx Ny Dx Dy.
    apply (wd_window_strong (ts_vmax bx w mp) (ts_vmax by_ w mp) w (ord_dom w mp) (g_max_ord w mp)
             (vmax_wd_ord bx w mp Hw) (vmax_wd_ord by_ w mp Hw)); split; assumption.
  Qed.
  Theorem window_only_vargmin_ord bx by_ w mp (xs ys : list T) i j :
    1 <= w -> valid_not_nan xs -> valid_not_nan ys -> cmp_dom w mp (length xs) -> cmp_dom w mp (length ys) ->
    i < length xs -> j < length ys -> win w i xs = win w j ys ->
    exists ox oy o, ts_vargmin bx w mp xs = Done ox /\ ts_vargmin by_ w mp ys = Done oy /\
                    nth_error ox i = Some o /\ nth_error oy j = Some o.
  Proof.
    intros Hw Nx Ny Dx Dy.
    apply (wd_window_strong (ts_vargmin bx w mp) (ts_vargmin by_ w mp) w (ord_dom w mp) (g_argmin_ord w mp)
             (vargmin_wd_ord bx w mp Hw) (vargmin_wd_ord by_ w mp Hw)); split; assumption.
  Qed.
  Theorem window_only_vargmax_ord bx by_ w mp (xs ys : list T) i j :
    1 <= w -> valid_not_nan xs -> valid_not_nan ys -> cmp_dom w mp (length xs) -> cmp_dom w mp (length ys) ->
    i < length xs -> j < length ys -> win w i xs = win w j ys ->
    exists ox oy o, ts_vargmax bx w mp xs = Done ox /\ ts_vargmax by_ w mp ys = Done oy /\
                    nth_error ox i = Some o /\ nth_error oy j = Some o.
  Proof.
    intros Hw Nx Ny Dx Dy.
    apply (wd_window_strong (ts_vargmax bx w mp) (ts_vargmax by_ w mp) w (ord_dom w mp) (g_argmax_ord w mp)
             (vargmax_wd_ord bx w mp Hw) (vargmax_wd_ord by_ w mp Hw)); split; assumption.
  Qed.

  (* prefix, unconditional: the whole call returns, the prefix call returns the prefix of its result *)
  Theorem prefix_vmin_ord body w mp (xs : list T) k :
    valid_not_nan xs -> 1 <= w -> cmp_dom w mp (Nat.min k (length xs)) -> cmp_dom w mp (length xs) ->
    exists out, ts_vmin body w mp xs = Done out /\ length out = length xs /\
                ts_vmin body w mp (firstn k xs) = Done (firstn k out).
  Proof.
    intros Hn Hw D1 D2. apply prefix_strong.
    - exact (proj1 (extrema_total_ord OL body w mp xs Hn Hw)).
    - intros out. apply ts_vmin_prefix_any; assumption.
  Qed.
  Theorem prefix_vmax_ord body w mp (xs : list T) k :
    valid_not_nan xs -> 1 <= w -> cmp_dom w mp (Nat.min k (length xs)) -> cmp_dom w mp (length xs) ->
    exists out, ts_vmax body w mp xs = Done out /\ length out = length xs /\
                ts_vmax body w mp (firstn k xs) = Done (firstn k out).
  Proof.
    intros Hn Hw D1 D2. apply prefix_strong.
    - exact (proj1 (proj2 (extrema_total_ord OL body w mp xs Hn Hw))).
    - intros out. apply ts_vmax_prefix_any; assumption.
  Qed.
  Theorem prefix_vargmin_ord body w mp (xs : list T) k :
    valid_not_nan xs -> 1 <= w -> cmp_dom w mp (Nat.min k (length xs)) -> cmp_dom w mp (length xs) ->
    exists out, ts_vargmin body w mp xs = Done out /\ length out = length xs /\
                ts_vargmin body w mp (firstn k xs) = Done (firstn k out).
  Proof.
    intros Hn Hw D1 D2. apply prefix_strong.
    - exact (proj1 (proj2 (proj2 (extrema_total_ord OL body w mp xs Hn Hw)))).
    - intros out. apply ts_vargmin_prefix_any; assumption.
  Qed.
  Theorem prefix_vargmax_ord body w mp (xs : list T) k :
    valid_not_nan xs -> 1 <= w -> cmp_dom w mp (Nat.min k (length xs)) -> cmp_dom w mp (length xs) ->
    exists out, ts_vargmax body w mp xs = Done out /\ length out = length xs /\
                ts_vargmax body w mp (firstn k xs) = Done (firstn k out).
  Proof.
    intros Hn Hw D1 D2. apply prefix_strong.
    - exact (proj2 (proj2 (proj2 (extrema_total_ord OL body w mp xs Hn Hw)))).
    - intros out. apply ts_vargmax_prefix_any; assumption.
  Qed.
End NoLookaheadOrdG.

(* ts_vrank: no law, no premise on the series, every input and output carrier — bit for bit also in the output
   arithmetic *)
Section NoLookaheadRankAny.
  Context {A : Type} {NA : Num A} {T : Type} {DT : IsNone T A} {B : Type} {NB : Num B}.

  Theorem prefix_vrank_any body w mp pct rev (xs : list T) k :
    1 <= w -> cmp_dom w mp (Nat.min k (length xs)) -> cmp_dom w mp (length xs) ->
    exists out, ts_vrank (B := B) body w mp pct rev xs = Done out /\ length out = length xs /\
                ts_vrank (B := B) body w mp pct rev (firstn k xs) = Done (firstn k out).
  Proof.
    intros Hw D1 D2. apply prefix_strong.
    - exact (rank_total_any body w mp pct rev xs Hw).
    - intros out. apply ts_vrank_prefix_any; assumption.
  Qed.

  Theorem window_only_vrank_any bx by_ w mp pct rev (xs ys : list T) i j :
    1 <= w -> cmp_dom w mp (length xs) -> cmp_dom w mp (length ys) ->
    i < length xs -> j < length ys -> win w i xs = win w j ys ->
    exists ox oy o, ts_vrank (B := B) bx w mp pct rev xs = Done ox /\ ts_vrank (B := B) by_ w mp pct rev ys = Done oy /\
                    nth_error ox i = Some o /\ nth_error oy j = Some o.
  Proof.
    intros Hw.
    apply (wd_window_strong (ts_vrank (B := B) bx w mp pct rev) (ts_vrank (B := B) by_ w mp pct rev) w
             (fun l => cmp_dom w mp (length l)) (fun W => g_rank_any (cmp_mp mp w) pct rev (map to_opt W))
             (vrank_wd_any bx w mp pct rev Hw) (vrank_wd_any by_ w mp pct rev Hw)).
  Qed.
End NoLookaheadRankAny.

(* f64 series, NaN is the null: the premise on the series is automatic *)
Lemma valid_not_nan_f64 (xs : list float) : valid_not_nan (DT := IsNoneF64) xs.
Proof. intros v _ H. exact H. Qed.

(* C06 at binary64: the four extrema functions; ts_vrank is covered, output arithmetic included, by
   prefix_vrank_any / window_only_vrank_any at A = B = float *)
Theorem prefix_extrema_f64 body w mp (xs : list float) k :
  1 <= w -> cmp_dom w mp (Nat.min k (length xs)) -> cmp_dom w mp (length xs) ->
  (exists out, ts_vmin (DT := IsNoneF64) body w mp xs = Done out /\ length out = length xs /\
               ts_vmin (DT := IsNoneF64) body w mp (firstn k xs) = Done (firstn k out)) /\
  (exists out, ts_vmax (DT := IsNoneF64) body w mp xs = Done out /\ length out = length xs /\
               ts_vmax (DT := IsNoneF64) body w mp (firstn k xs) = Done (firstn k out)) /\
  (exists out, ts_vargmin (DT := IsNoneF64) body w mp xs = Done out /\ length out = length xs /\
               ts_vargmin (DT := IsNoneF64) body w mp (firstn k xs) = Done (firstn k out)) /\
  (exists out, ts_vargmax (DT := IsNoneF64) body w mp xs = Done out /\ length out = length xs /\
               ts_vargmax (DT := IsNoneF64) body w mp (firstn k xs) = Done (firstn k out)).
Proof.
  intros Hw D1 D2. pose proof (valid_not_nan_f64 xs) as Hn. split; [|split; [|split]].
  - exact (prefix_vmin_ord ordlaws_F64 body w mp xs k Hn Hw D1 D2).
  - exact (prefix_vmax_ord ordlaws_F64 body w mp xs k Hn Hw D1 D2).
  - exact (prefix_vargmin_ord ordlaws_F64 body w mp xs k Hn Hw D1 D2).
  - exact (prefix_vargmax_ord ordlaws_F64 body w mp xs k Hn Hw D1 D2).
Qed.

Theorem prefix_extrema_optf64 body w mp (xs : list (option float)) k :
  valid_not_nan (DT := IsNoneOptF64) xs ->
  1 <= w -> cmp_dom w mp (Nat.min k (length xs)) -> cmp_dom w mp (length xs) ->
  (exists out, ts_vmin (DT := IsNoneOptF64) body w mp xs = Done out /\ length out = length xs /\
               ts_vmin (DT := IsNoneOptF64) body w mp (firstn k xs) = Done (firstn k out)) /\
  (exists out, ts_vmax (DT := IsNoneOptF64) body w mp xs = Done out /\ length out = length xs /\
               ts_vmax (DT := IsNoneOptF64) body w mp (firstn k xs) = Done (firstn k out)) /\
  (exists out, ts_vargmin (DT := IsNoneOptF64) body w mp xs = Done out /\ length out = length xs /\
               ts_vargmin (DT := IsNoneOptF64) body w mp (firstn k xs) = Done (firstn k out)) /\
  (exists out, ts_vargmax (DT := IsNoneOptF64) body w mp xs = Done out /\ length out = length xs /\
               ts_vargmax (DT := IsNoneOptF64) body w mp (firstn k xs) = Done (firstn k out)).
Proof.
  intros Hn Hw D1 D2. split; [|split; [|split]].
  - exact (prefix_vmin_ord ordlaws_F64 body w mp xs k Hn Hw D1 D2).
  - exact (prefix_vmax_ord ordlaws_F64 body w mp xs k Hn Hw D1 D2).
  - exact (prefix_vargmin_ord ordlaws_F64 body w mp xs k Hn Hw D1 D2).
  - exact (prefix_vargmax_ord ordlaws_F64 body w mp xs k Hn Hw D1 D2).
Qed.

Theorem window_only_extrema_f64 bx by_ w mp (xs ys : list float) i j :
  1 <= w -> cmp_dom w mp (length xs) -> cmp_dom w mp (length ys) ->
  i < length xs -> j < length ys -> win w i xs = win w j ys ->
  (exists ox oy o, ts_vmin (DT := IsNoneF64) bx w mp xs = Done ox /\ ts_vmin (DT := IsNoneF64) by_ w mp ys = Done oy /\
                   nth_error ox i = Some o /\ nth_error oy j = Some o) /\
  (exists ox oy o, ts_vmax (DT := IsNoneF64) bx w mp xs = Done ox /\ ts_vmax (DT := IsNoneF64) by_ w mp ys = Done oy /\
                   nth_error ox i = Some o /\ nth_error oy j = Some o) /\
  (exists ox oy o, ts_vargmin (DT := IsNoneF64) bx w mp xs = Done ox /\ ts_vargmin (DT := IsNoneF64) by_ w mp ys = Done oy /\
                   nth_error ox i = Some o /\ nth_error oy j = Some o) /\
  (exists ox oy o, ts_vargmax (DT := IsNoneF64) bx w mp xs = Done ox /\ ts_vargmax (DT := IsNoneF64) by_ w mp ys = Done oy /\
                   nth_error ox i = Some o /\ nth_error oy j = Some o).
Proof.
  intros Hw Dx Dy Hi Hj HW.
  pose proof (valid_not_nan_f64 xs) as Nx. pose proof (valid_not_nan_f64 ys) as Ny. split; [|split; [|split]].
  - exact (window_only_vmin_ord ordlaws_F64 bx by_ w mp xs ys i j Hw Nx Ny Dx Dy Hi Hj HW).
  - exact (window_only_vmax_ord ordlaws_F64 bx by_ w mp xs ys i j Hw Nx Ny Dx Dy Hi Hj HW).
  - exact (window_only_vargmin_ord ordlaws_F64 bx by_ w mp xs ys i j Hw Nx Ny Dx Dy Hi Hj HW).
  - exact (window_only_vargmax_ord ordlaws_F64 bx by_ w mp xs ys i j Hw Nx Ny Dx Dy Hi Hj HW).
Qed.

Theorem window_only_extrema_optf64 bx by_ w mp (xs ys : list (option float)) i j :
  valid_not_nan (DT := IsNoneOptF64) xs -> valid_not_nan (DT := IsNoneOptF64) ys ->
  1 <= w -> cmp_dom w mp (length xs) -> cmp_dom w mp (length ys) ->
  i < length xs -> j < length ys -> win w i xs = win w j ys ->
  (exists ox oy o, ts_vmin (DT := IsNoneOptF64) bx w mp xs = Done ox /\ ts_vmin (DT := IsNoneOptF64) by_ w mp ys = Done oy /\
                   nth_error ox i = Some o /\ nth_error oy j = Some o) /\
  (exists ox oy o, ts_vmax (DT := IsNoneOptF64) bx w mp xs = Done ox /\ ts_vmax (DT := IsNoneOptF64) by_ w mp ys = Done oy /\
                   nth_error ox i = Some o /\ nth_error oy j = Some o) /\
  (exists ox oy o, ts_vargmin (DT := IsNoneOptF64) bx w mp xs = Done ox /\
                   ts_vargmin (DT := IsNoneOptF64) by_ w mp ys = Done oy /\
                   nth_error ox i = Some o /\ nth_error oy j = Some o) /\
  (exists ox oy o, ts_vargmax (DT := IsNoneOptF64) bx w mp xs = Done ox /\
                   ts_vargmax (DT := IsNoneOptF64) by_ w mp ys = Done oy /\
                   nth_error ox i = Some o /\ nth_error oy j = Some o).
Proof.
  intros Nx Ny Hw Dx Dy Hi Hj HW. split; [|split; [|split]].
  - exact (window_only_vmin_ord ordlaws_F64 bx by_ w mp xs ys i j Hw Nx Ny Dx Dy Hi Hj HW).
  - exact (window_only_vmax_ord ordlaws_F64 bx by_ w mp xs ys i j Hw Nx Ny Dx Dy Hi Hj HW).
  - exact (window_only_vargmin_ord ordlaws_F64 bx by_ w mp xs ys i j Hw Nx Ny Dx Dy Hi Hj HW).
  - exact (window_only_vargmax_ord ordlaws_F64 bx by_ w mp xs ys i j Hw Nx Ny Dx Dy Hi Hj HW).
Qed.

(* the premise valid_not_nan cannot be dropped for Option<f64>: with Some(NaN) elements the call does not even
   return (Proofs/CmpOrdFloat.v), so no mask / prefix / window-only statement about its output can hold *)
Lemma optf64_some_nan_no_output :
  ~ (exists out, ts_vargmin (DT := IsNoneOptF64) true 2 (Some 0) [Some nan; Some nan; Some nan] = Done out) /\
  ~ valid_not_nan (DT := IsNoneOptF64) [Some nan; Some nan; Some nan].
Proof.
  destruct f64_some_nan_is_outside as [H1 H2]. split; [|exact H2].
  intros (out & E). rewrite H1 in E. discriminate.
Qed.

Print Assumptions prefix_extrema_f64.
Print Assumptions window_only_extrema_optf64.

(* ts_vrank with binary64 input and output: the any-carrier theorems at A = B = float *)
Theorem vrank_f64_no_lookahead bx by_ w mp pct rev (xs ys : list float) i j k :
  1 <= w ->
  (cmp_dom w mp (Nat.min k (length xs)) -> cmp_dom w mp (length xs) ->
   exists out, ts_vrank (DT := IsNoneF64) (B := float) bx w mp pct rev xs = Done out /\ length out = length xs /\
               ts_vrank (DT := IsNoneF64) (B := float) bx w mp pct rev (firstn k xs) = Done (firstn k out)) /\
  (cmp_dom w mp (length xs) -> cmp_dom w mp (length ys) ->
   i < length xs -> j < length ys -> win w i xs = win w j ys ->
   exists ox oy o, ts_vrank (DT := IsNoneF64) (B := float) bx w mp pct rev xs = Done ox /\
                   ts_vrank (DT := IsNoneF64) (B := float) by_ w mp pct rev ys = Done oy /\
                   nth_error ox i = Some o /\ nth_error oy j = Some o).
Proof.
  intros Hw. split.
  - intros D1 D2. exact (prefix_vrank_any bx w mp pct rev xs k Hw D1 D2).
  - intros Dx Dy Hi Hj HW. exact (window_only_vrank_any bx by_ w mp pct rev xs ys i j Hw Dx Dy Hi Hj HW).
Qed.
Print Assumptions vrank_f64_no_lookahead.
