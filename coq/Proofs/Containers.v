(* Proofs/Containers.v — every accessor of every container model describes the same logical sequence. *)
From Tevec Require Import Base.Prelude Model.Driver Proofs.Driver Model.Containers.

(* ---- update ------------------------------------------------------------------------------------ *)
Lemma update_length {A} (l : list A) i v : length (update l i v) = length l.
Proof. revert i; induction l as [|h t IH]; intros [|i]; cbn; auto. Qed.

Lemma nth_error_update {A} (l : list A) i v j :
  nth_error (update l i v) j = if andb (j =? i) (i <? length l) then Some v else nth_error l j.
Proof.
  revert i j; induction l as [|h t IH]; intros i j.
  - cbn. rewrite Bool.andb_false_r. destruct i; reflexivity.
  - destruct i as [|i], j as [|j]; cbn [update nth_error length]; try reflexivity.
    rewrite IH. reflexivity.
Qed.

Lemma update_oob {A} (l : list A) i v : length l <= i -> update l i v = l.
Proof.
  intros H. apply nth_error_ext. intros j. rewrite nth_error_update, ltb_false, Bool.andb_false_r by exact H.
  reflexivity.
Qed.

Lemma update_same {A} (l : list A) i x : nth_error l i = Some x -> update l i x = l.
Proof.
  intros H. apply nth_error_ext. intros j. rewrite nth_error_update.
  destruct (j =? i) eqn:E; [|reflexivity]. apply Nat.eqb_eq in E. subst j.
  destruct (i <? length l); cbn; congruence.
Qed.

Lemma update_update {A} (l : list A) i v w : update (update l i v) i w = update l i w.
Proof.
  apply nth_error_ext. intros j. rewrite !nth_error_update, update_length.
  destruct (andb (j =? i) (i <? length l)); reflexivity.
Qed.

Lemma update_comm {A} (l : list A) i j v w : i <> j ->
  update (update l i v) j w = update (update l j w) i v.
Proof.
  intros Hn. apply nth_error_ext. intros k. rewrite !nth_error_update, !update_length.
  destruct (k =? j) eqn:E1, (k =? i) eqn:E2; cbn [andb]; try reflexivity.
  apply Nat.eqb_eq in E1, E2. congruence.
Qed.

(* writing through a list position that a map projects *)
Lemma map_update {A B} (f : A -> B) (l : list A) i v : map f (update l i v) = update (map f l) i (f v).
Proof. revert i; induction l as [|h t IH]; intros [|i]; cbn; try rewrite IH; reflexivity. Qed.

Lemma get_update_same {A} (l : list A) i v : i < length l -> nth_error (update l i v) i = Some v.
Proof. intros H. rewrite nth_error_update, Nat.eqb_refl, ltb_true by exact H. reflexivity. Qed.

Lemma get_update_other {A} (l : list A) i j v : j <> i -> nth_error (update l i v) j = nth_error l j.
Proof. intros H. rewrite nth_error_update, (proj2 (Nat.eqb_neq j i) H). reflexivity. Qed.

(* the output buffer of Model/Driver.v is written by `update` *)
Lemma set_nth_update {O} i (v : O) buf : set_nth i v buf = update buf i (Some v).
Proof. revert i; induction buf as [|c buf IH]; intros [|i]; cbn; try rewrite IH; reflexivity. Qed.

(* a container stores logical position j in slot `slot j`; a write at the slot of i is seen at i only *)
Lemma slot_write {A} (buf : list A) (slot : nat -> nat) i v j :
  slot i < length buf -> (slot j = slot i -> j = i) ->
  nth_error (update buf (slot i) v) (slot j) = if j =? i then Some v else nth_error buf (slot j).
Proof.
  intros Hb Hinj. rewrite nth_error_update, (ltb_true _ _ Hb), Bool.andb_true_r.
  destruct (Nat.eqb_spec j i) as [->|Hne]; [rewrite Nat.eqb_refl; reflexivity|].
  destruct (Nat.eqb_spec (slot j) (slot i)) as [E|E]; [contradiction (Hne (Hinj E))|reflexivity].
Qed.

(* ---- a view given by (len, uget) ------------------------------------------------------------------ *)
Lemma view_seq_ext {A} len (g1 g2 : nat -> option A) :
  (forall i, i < len -> g1 i = g2 i) -> view_seq len g1 = view_seq len g2.
Proof.
  intros H. unfold view_seq. apply flat_map_ext_in. intros i Hi. apply in_seq in Hi. rewrite H by lia. reflexivity.
Qed.

Lemma view_seq_length {A} (g : nat -> option A) n :
  (forall i, i < n -> g i <> None) -> length (view_seq n g) = n.
Proof.
  unfold view_seq. induction n as [|n IH]; intros H; [reflexivity|].
  rewrite seq_S, flat_map_app, app_length, IH by (intros i Hi; apply H; lia).
  cbn. destruct (g n) eqn:E; [cbn; lia|]. exfalso. apply (H n); [lia|exact E].
Qed.

Lemma view_seq_nth {A} (g : nat -> option A) n i :
  (forall j, j < n -> g j <> None) -> nth_error (view_seq n g) i = if i <? n then g i else None.
Proof.
  induction n as [|n IH]; intros H; [destruct i; reflexivity|].
  unfold view_seq. rewrite seq_S, flat_map_app. fold (view_seq n g). cbn [plus flat_map].
  rewrite nth_error_app, view_seq_length, IH by (intros j Hj; apply H; lia).
  destruct (Nat.ltb_spec i n) as [E|E]; [rewrite ltb_true by lia; reflexivity|].
  destruct (g n) eqn:Eg; [|exfalso; apply (H n); [lia|exact Eg]].
  destruct (i - n) as [|d] eqn:Ed.
  - assert (i = n) by lia. subst i. rewrite ltb_true by lia. symmetry. exact Eg.
  - rewrite ltb_false by lia. destruct d; reflexivity.
Qed.

Lemma view_seq_list {A} (l : list A) : view_seq (length l) (nth_error l) = l.
Proof.
  apply nth_error_ext. intros i. rewrite view_seq_nth.
  - destruct (Nat.ltb_spec i (length l)); [reflexivity|]. symmetry. apply nth_error_None. assumption.
  - intros j Hj E. apply nth_error_None in E. lia.
Qed.

(* `l` is the logical sequence of the container whose length is `len` and whose unchecked accessor is `get`.
   Every accessor of view.rs is written against (len, get) only, so what it returns can be read off `l`. *)
Definition represents {A} (len : nat) (get : nat -> option A) (l : list A) : Prop :=
  length l = len /\ forall i, nth_error l i = get i.

Lemma list_represents {A} (l : list A) : represents (length l) (nth_error l) l.
Proof. split; reflexivity. Qed.

Section Represents.
  Context {A : Type} (len : nat) (get : nat -> option A) (l : list A).
  Hypothesis H : represents len get l.

  Lemma rep_checked_get i :
    checked_get len get i = match nth_error l i with Some x => Ok x | None => Panic OtherPanic end.
  Proof.
    destruct H as [<- Hg]. unfold checked_get. rewrite <- Hg.
    destruct (Nat.ltb_spec i (length l)) as [E|E]; [reflexivity|].
    apply nth_error_None in E. rewrite E. reflexivity.
  Qed.

  Lemma rep_valid_get {I} (to_opt : A -> option I) i :
    valid_get to_opt len get i = match nth_error l i with Some x => to_opt x | None => None end.
  Proof.
    destruct H as [<- Hg]. unfold valid_get, uvalid_get. rewrite <- Hg.
    destruct (Nat.ltb_spec i (length l)) as [E|E]; [reflexivity|].
    apply nth_error_None in E. rewrite E. reflexivity.
  Qed.

  Lemma rep_view_seq : view_seq len get = l.
  Proof.
    destruct H as [<- Hg]. rewrite <- (view_seq_list l) at 2. apply view_seq_ext. intros i _. symmetry. apply Hg.
  Qed.

  (* reverse iteration: position i from the back is logical position len - 1 - i *)
  Lemma rep_rev_nth i : nth_error (rev l) i = if i <? len then get (len - 1 - i) else None.
  Proof. destruct H as [<- Hg]. rewrite nth_error_rev, Hg. reflexivity. Qed.

  Lemma rep_slice_nth a b i : nth_error (seg a b l) i = if i <? b - a then get (a + i) else None.
  Proof. destruct H as [_ Hg]. rewrite nth_error_seg, Hg. reflexivity. Qed.

  (* the option view: uget(i) = view.uget(i).to_opt() *)
  Lemma rep_optview_nth {I} (to_opt : A -> option I) i :
    nth_error (optview_to_list to_opt l) i = option_map to_opt (get i).
  Proof. destruct H as [_ Hg]. unfold optview_to_list. rewrite nth_error_map, Hg. reflexivity. Qed.
End Represents.

(* two containers of ANY kinds with the same length and pointwise equal get have the same logical sequence *)
Lemma view_determined {A} (len : nat) (g1 g2 : nat -> option A) (l1 l2 : list A) :
  view_seq len g1 = l1 -> view_seq len g2 = l2 -> (forall i, i < len -> g1 i = g2 i) -> l1 = l2.
Proof. intros <- <- H. apply view_seq_ext. exact H. Qed.

(* a write through (len, uset) that is a write of the logical sequence, seen by the checked accessors *)
Lemma checked_set_to_list {C A} len (uset : nat -> A -> option C) (to_list : C -> list A) l i v :
  option_map to_list (uset i v) = (if i <? len then Some (update l i v) else None) ->
  option_map to_list (checked_set len uset i v) = if i <? len then Some (update l i v) else None.
Proof. intros H. unfold checked_set. destruct (i <? len); [exact H|reflexivity]. Qed.

Lemma rep_get_update {A} len (get get' : nat -> option A) l i v j :
  represents len get l -> represents len get' (update l i v) -> i < len ->
  get' j = if j =? i then Some v else get j.
Proof.
  intros [Hl Hg] [_ Hg'] Hi. rewrite <- Hg', <- Hg, nth_error_update, Hl, (ltb_true _ _ Hi), Bool.andb_true_r.
  reflexivity.
Qed.

(* ---- ring buffer ------------------------------------------------------------------------------ *)
Lemma ring_wf_wf0 {A} (r : ring A) : ring_wf r -> ring_wf0 r.
Proof. unfold ring_wf, ring_wf0. lia. Qed.

Section Ring.
  Context {A : Type}.
  Variable r : ring A.
  Hypothesis Hwf : ring_wf0 r.

  (* the physical slot of a logical position *)
  Lemma ring_slot i : i < rlen r ->
    (rhead r + i) mod rcap r = if rhead r + i <? rcap r then rhead r + i else rhead r + i - rcap r.
  Proof.
    destruct Hwf as [Hl Hh]. intros Hi. destruct (Nat.ltb_spec (rhead r + i) (rcap r)) as [E|E].
    - apply Nat.mod_small. exact E.
    - replace (rhead r + i) with ((rhead r + i - rcap r) + 1 * rcap r) at 1 by lia.
      rewrite Nat.mod_add by lia. apply Nat.mod_small. lia.
  Qed.

  Lemma ring_slot_inj i j : i < rlen r -> j < rlen r ->
    (rhead r + i) mod rcap r = (rhead r + j) mod rcap r -> i = j.
  Proof.
    destruct Hwf as [Hl Hh]. intros Hi Hj. rewrite !ring_slot by assumption.
    destruct (Nat.ltb_spec (rhead r + i) (rcap r)), (Nat.ltb_spec (rhead r + j) (rcap r)); lia.
  Qed.

  Lemma ring_slot_lt i : i < rlen r -> (rhead r + i) mod rcap r < rcap r.
  Proof. destruct Hwf. intros Hi. apply Nat.mod_upper_bound. lia. Qed.

  Lemma ring_to_list_length : length (ring_to_list r) = rlen r.
  Proof.
    destruct Hwf as [Hl Hh]. unfold ring_to_list, rcap in *.
    rewrite firstn_length, app_length, skipn_length, firstn_length. lia.
  Qed.

  Lemma ring_get_to_list i : nth_error (ring_to_list r) i = ring_get r i.
  Proof.
    unfold ring_to_list, ring_get. rewrite nth_error_firstn.
    destruct (Nat.ltb_spec i (rlen r)) as [Hi|Hi]; [|reflexivity].
    rewrite ring_slot by exact Hi. destruct Hwf as [Hl Hh]. unfold rcap in *.
    rewrite nth_error_app, skipn_length.
    destruct (Nat.ltb_spec (rhead r + i) (length (rbuf r))) as [E|E].
    - rewrite ltb_true, nth_error_skipn by lia. reflexivity.
    - rewrite ltb_false, nth_error_firstn, ltb_true by lia. f_equal. lia.
  Qed.

  Lemma ring_represents : represents (rlen r) (ring_get r) (ring_to_list r).
  Proof. split; [exact ring_to_list_length|exact ring_get_to_list]. Qed.

  (* the two halves of as_slices() concatenate to the logical sequence *)
  Lemma ring_iter_spec : ring_iter r = ring_to_list r.
  Proof.
    apply nth_error_ext. intros i. rewrite ring_get_to_list. unfold ring_iter, ring_slices, ring_get.
    destruct (Nat.ltb_spec i (rlen r)) as [Hi|Hi]; [rewrite ring_slot by exact Hi|];
      destruct Hwf as [Hl Hh]; unfold rcap in *;
      destruct (Nat.leb_spec (rhead r + rlen r) (length (rbuf r))) as [E|E]; cbn [fst snd];
      rewrite ?app_nil_r, ?nth_error_app, ?seg_length, ?nth_error_seg by lia.
    - rewrite !ltb_true by lia. reflexivity.
    - destruct (Nat.ltb_spec (rhead r + i) (length (rbuf r))).
      + rewrite !ltb_true by lia. reflexivity.
      + rewrite ltb_false, ltb_true by lia. f_equal. lia.
    - rewrite ltb_false by lia. reflexivity.
    - rewrite !ltb_false by lia. reflexivity.
  Qed.

  (* try_as_slice is offered EXACTLY when the deque has not wrapped *)
  Lemma ring_try_as_slice_offered_iff : ring_try_as_slice r = None <-> rcap r < rhead r + rlen r.
  Proof.
    destruct Hwf as [Hl Hh]. unfold ring_try_as_slice, ring_slices, rcap in *.
    destruct (Nat.leb_spec (rhead r + rlen r) (length (rbuf r))) as [E|E].
    - split; [discriminate|lia].
    - split; [intros _; exact E|intros _].
      destruct (seg 0 (rhead r + rlen r - length (rbuf r)) (rbuf r)) eqn:Es; [|reflexivity].
      apply (f_equal (@length A)) in Es. rewrite seg_length in Es by lia. cbn in Es. lia.
  Qed.

  Lemma ring_try_as_slice_sound l : ring_try_as_slice r = Some l -> l = ring_to_list r.
  Proof.
    rewrite <- ring_iter_spec. unfold ring_try_as_slice, ring_iter.
    destruct (ring_slices r) as [a [|x b]]; [|discriminate]. intros [= <-]. symmetry. apply app_nil_r.
  Qed.

  Lemma ring_range_spec a b : ring_range r a b = seg a b (ring_to_list r).
  Proof. reflexivity. Qed.
End Ring.

(* ---- strided view ---------------------------------------------------------------------------------- *)
Section Strided.
  Context {A : Type}.
  Variable s : strided A.
  Hypothesis Hwf : strided_wf s.

  Lemma strided_pos_some i : i < slen s -> nth_error (sbase s) (Z.to_nat (spos s i)) <> None.
  Proof.
    intros Hi E. specialize (Hwf i Hi). apply nth_error_None in E. lia.
  Qed.

  Lemma strided_to_list_length : length (strided_to_list s) = slen s.
  Proof. apply (view_seq_length (fun i => nth_error (sbase s) (Z.to_nat (spos s i)))). exact strided_pos_some. Qed.

  Lemma strided_to_list_nth i : nth_error (strided_to_list s) i = strided_get s i.
  Proof.
    unfold strided_get.
    apply (view_seq_nth (fun i => nth_error (sbase s) (Z.to_nat (spos s i)))). exact strided_pos_some.
  Qed.

  Lemma strided_represents : represents (slen s) (strided_get s) (strided_to_list s).
  Proof. split; [exact strided_to_list_length|exact strided_to_list_nth]. Qed.

  Lemma strided_try_as_slice_sound l : strided_try_as_slice s = Some l -> l = strided_to_list s.
  Proof.
    unfold strided_try_as_slice. destruct (orb _ _) eqn:E; [|discriminate]. intros H. injection H as <-.
    apply nth_error_ext. intros i. rewrite strided_to_list_nth, nth_error_seg. unfold strided_get.
    replace (soff s + slen s - soff s) with (slen s) by lia.
    destruct (Nat.ltb_spec i (slen s)) as [Ei|Ei]; [|reflexivity]. f_equal.
    apply Bool.orb_true_iff in E. destruct E as [E|E].
    - apply Z.eqb_eq in E. unfold spos. rewrite E. lia.
    - apply Nat.leb_le in E. assert (i = 0) by lia. subst i. unfold spos. lia.
  Qed.
End Strided.

Lemma strided_view_seq {A} (s : strided A) : view_seq (slen s) (strided_get s) = strided_to_list s.
Proof.
  unfold strided_to_list. apply view_seq_ext. intros i Hi. unfold strided_get. rewrite (ltb_true _ _ Hi). reflexivity.
Qed.

(* as_slice_memory_order() (ndarray.rs before its `fix:` commit, Model/Containers.v) reverses a stride -1 view *)
Lemma strided_memory_order_refuted :
  exists s : strided nat, strided_wf s /\
    strided_memory_order s = Some [1; 2; 3; 4] /\ strided_to_list s = [4; 3; 2; 1].
Proof.
  exists {| sbase := [1; 2; 3; 4]; soff := 3; sstep := (-1)%Z; slen := 4 |}. split; [|split; reflexivity].
  intros i Hi. unfold spos. cbn [soff sstep sbase slen length] in *. lia.
Qed.

(* ---- chunked array ------------------------------------------------------------------------------------ *)
Lemma chunked_get_spec {A} (c : chunked A) i : chunked_get c i = nth_error (chunked_to_list c) i.
Proof.
  revert i; induction c as [|ch rest IH]; intros i; [destruct i; reflexivity|].
  cbn [chunked_get chunked_to_list concat]. rewrite nth_error_app.
  destruct (i <? length ch); [reflexivity|]. apply IH.
Qed.

Lemma chunked_len_spec {A} (c : chunked A) : chunked_len c = length (chunked_to_list c).
Proof.
  induction c as [|ch rest IH]; [reflexivity|]. cbn [chunked_len chunked_to_list concat fold_right].
  rewrite app_length. f_equal. exact IH.
Qed.

Lemma chunked_represents {A} (c : chunked A) : represents (chunked_len c) (chunked_get c) (chunked_to_list c).
Proof. split; [symmetry; apply chunked_len_spec|intros i; symmetry; apply chunked_get_spec]. Qed.

(* ==== mutable accessors ============================================================================== *)

Lemma list_uset_spec {A} (l : list A) i v :
  list_uset l i v = if i <? length l then Some (update l i v) else None.
Proof. reflexivity. Qed.

Section RingMut.
  Context {A : Type}.
  Variable r : ring A.
  Hypothesis Hwf : ring_wf r.

  Lemma ring_uset_wf i v r' : ring_uset r i v = Some r' -> ring_wf r'.
  Proof.
    unfold ring_uset. destruct (i <? rlen r); [|discriminate]. intros H. injection H as <-.
    unfold ring_wf, rcap in *. cbn [rbuf rhead rlen]. rewrite update_length. exact Hwf.
  Qed.

  Lemma ring_uset_layout i v r' : ring_uset r i v = Some r' ->
    rhead r' = rhead r /\ rlen r' = rlen r /\ rcap r' = rcap r.
  Proof.
    unfold ring_uset. destruct (i <? rlen r); [|discriminate]. intros H. injection H as <-.
    unfold rcap. cbn [rbuf rhead rlen]. rewrite update_length. auto.
  Qed.

  (* a write at logical index i is a write at index i of the logical sequence; out of range is rejected *)
  Lemma ring_uset_to_list i v :
    option_map (@ring_to_list A) (ring_uset r i v)
    = if i <? rlen r then Some (update (ring_to_list r) i v) else None.
  Proof.
    pose proof (ring_wf_wf0 r Hwf) as H0.
    destruct (ring_uset r i v) as [r'|] eqn:E; [|unfold ring_uset in E; destruct (i <? rlen r); [discriminate|reflexivity]].
    pose proof (ring_wf_wf0 r' (ring_uset_wf _ _ _ E)) as H0'. unfold ring_uset in E.
    destruct (Nat.ltb_spec i (rlen r)) as [Hi|Hi]; [|discriminate]. cbn [option_map]. f_equal.
    apply nth_error_ext. intros j.
    rewrite (ring_get_to_list r' H0'), nth_error_update, (ring_to_list_length r H0), (ring_get_to_list r H0),
      (ltb_true _ _ Hi), Bool.andb_true_r.
    injection E as <-. unfold ring_get, rcap. cbn [rbuf rhead rlen]. rewrite update_length. fold (rcap r).
    destruct (Nat.ltb_spec j (rlen r)) as [Hj|Hj]; [|rewrite (proj2 (Nat.eqb_neq j i)) by lia; reflexivity].
    apply (slot_write (rbuf r) (fun k => (rhead r + k) mod rcap r)); [apply ring_slot_lt; assumption|].
    intros Es. apply (ring_slot_inj r H0); assumption.
  Qed.

  (* a write through the mutable slice at index k IS the write at logical index k *)
  Lemma ring_slice_mut_is_uset k v w : ring_slice_mut_set r k v = Some w -> w = ring_uset r k v.
  Proof.
    destruct Hwf as [Hl Hh]. unfold ring_slice_mut_set, ring_uset.
    destruct (rhead r + rlen r <=? rcap r) eqn:E; [|discriminate]. apply Nat.leb_le in E.
    intros H. injection H as <-. destruct (k <? rlen r) eqn:Ek; [|reflexivity]. apply Nat.ltb_lt in Ek.
    rewrite (Nat.mod_small (rhead r + k)) by lia. reflexivity.
  Qed.

  (* the slice has the whole length: every logical index can be written through it *)
  Lemma ring_slice_mut_total k v w : ring_slice_mut_set r k v = Some w -> k < rlen r -> w <> None.
  Proof.
    unfold ring_slice_mut_set. destruct (_ <=? _); [|discriminate]. intros H Hk. injection H as <-.
    rewrite ltb_true by exact Hk. discriminate.
  Qed.
End RingMut.

(* what a successful write leaves behind, read through the list characterisation *)
Lemma ring_uset_Some {A} (r r' : ring A) i v : ring_wf r -> ring_uset r i v = Some r' ->
  i < rlen r /\ ring_to_list r' = update (ring_to_list r) i v.
Proof.
  intros Hwf E. pose proof (ring_uset_to_list r Hwf i v) as H. rewrite E in H. cbn [option_map] in H.
  destruct (Nat.ltb_spec i (rlen r)); [|discriminate]. injection H as H. auto.
Qed.

Section StridedMut.
  Context {A : Type}.
  Variable s : strided A.
  Hypothesis Hwf : strided_wf s.
  (* a mutable view never aliases two logical positions (ndarray offers stride 0 only for immutable broadcasts) *)
  Hypothesis Hstep : (sstep s <> 0)%Z.

  Lemma strided_uset_wf i v s' : strided_uset s i v = Some s' -> strided_wf s'.
  Proof.
    unfold strided_uset. destruct (i <? slen s); [|discriminate]. intros H. injection H as <-.
    unfold strided_wf, spos in *. cbn [sbase soff sstep slen]. rewrite update_length. exact Hwf.
  Qed.

  Lemma strided_slot_inj i j : i < slen s -> j < slen s ->
    Z.to_nat (spos s i) = Z.to_nat (spos s j) -> i = j.
  Proof.
    intros Hi Hj H. pose proof (Hwf i Hi) as Bi. pose proof (Hwf j Hj) as Bj.
    assert (E : spos s i = spos s j) by lia. unfold spos in E.
    assert (E2 : ((Z.of_nat i - Z.of_nat j) * sstep s = 0)%Z) by lia.
    apply Z.mul_eq_0 in E2. destruct E2 as [E2|E2]; [lia|contradiction].
  Qed.

  Lemma strided_uset_to_list i v :
    option_map (@strided_to_list A) (strided_uset s i v)
    = if i <? slen s then Some (update (strided_to_list s) i v) else None.
  Proof.
    destruct (strided_uset s i v) as [s'|] eqn:E;
      [|unfold strided_uset in E; destruct (i <? slen s); [discriminate|reflexivity]].
    pose proof (strided_uset_wf _ _ _ E) as Hwf'. unfold strided_uset in E.
    destruct (Nat.ltb_spec i (slen s)) as [Hi|Hi]; [|discriminate]. cbn [option_map]. f_equal.
    apply nth_error_ext. intros j.
    rewrite (strided_to_list_nth _ Hwf'), nth_error_update, (strided_to_list_length _ Hwf), (strided_to_list_nth _ Hwf),
      (ltb_true _ _ Hi), Bool.andb_true_r.
    injection E as <-. unfold strided_get, spos. cbn [sbase soff sstep slen]. fold (spos s j). fold (spos s i).
    destruct (Nat.ltb_spec j (slen s)) as [Hj|Hj]; [|rewrite (proj2 (Nat.eqb_neq j i)) by lia; reflexivity].
    apply (slot_write (sbase s) (fun k => Z.to_nat (spos s k))); [pose proof (Hwf i Hi); lia|].
    intros Es. apply strided_slot_inj; assumption.
  Qed.
End StridedMut.

(* a write through the mutable slice at index k IS the write at logical index k — for every stride for which
   the slice is offered; in particular a reversed view offers none *)
Lemma strided_slice_mut_is_uset {A} (s : strided A) k v w :
  strided_slice_mut_set s k v = Some w -> w = strided_uset s k v.
Proof.
  unfold strided_slice_mut_set, strided_uset. destruct (orb _ _) eqn:E; [|discriminate].
  intros H. injection H as <-. destruct (k <? slen s) eqn:Ek; [|reflexivity]. apply Nat.ltb_lt in Ek.
  f_equal. f_equal. f_equal.
  apply Bool.orb_true_iff in E. destruct E as [E|E].
  - apply Z.eqb_eq in E. unfold spos. rewrite E. lia.
  - apply Nat.leb_le in E. assert (k = 0) by lia. subst k. unfold spos. lia.
Qed.

(* position i of to_opt_iter is vget(i) *)
Lemma to_opt_iter_nth {T I} (to_opt : T -> option I) (l : list T) i :
  nth_error (to_opt_iter_m to_opt l) i
  = if i <? length l then Some (valid_get to_opt (length l) (nth_error l) i) else None.
Proof.
  unfold to_opt_iter_m. rewrite nth_error_map, (rep_valid_get _ _ _ (list_represents l)).
  destruct (Nat.ltb_spec i (length l)) as [E|E].
  - destruct (nth_error l i) eqn:En; [reflexivity|]. apply nth_error_None in En. lia.
  - apply nth_error_None in E. rewrite E. reflexivity.
Qed.

