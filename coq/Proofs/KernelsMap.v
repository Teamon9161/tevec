(* Proofs/KernelsMap.v — C10: index safety of `vrank` (checked, traced text of Model/KernelsMap.v), of
   `vpartition` / `varg_partition` and of `vquantile` / `vmedian`, at EVERY carrier (no law of the numeric class
   and no order law is used: `sort_unstable_by` enters only through "the result is a permutation of its input",
   which holds for the insertion-sort model whatever the comparator does).                                  *)
From Coq Require Import Lia List Permutation.
From Tevec Require Import Base.Prelude Base.Num Model.Driver Proofs.Driver Model.Cmp Model.Kernels Proofs.Kernels Proofs.IdxRun
     Model.SortCmp Proofs.SortCmp Model.Rank Model.Partition Model.Quantile Model.KernelsMap Proofs.TransQuantile.
Import ListNotations.

(* a traced computation whose accesses all satisfy P, that does not panic, and whose result satisfies Q *)
Definition tr_ok {X} (P : acc -> Prop) (m : tr X) (Q : X -> Prop) : Prop :=
  Forall P (fst m) /\ exists x, snd m = Ok x /\ Q x.

Lemma tr_ok_bind {X Y} (P : acc -> Prop) (m : tr X) (f : X -> tr Y) (Q : X -> Prop) (R : Y -> Prop) :
  tr_ok P m Q -> (forall x, Q x -> tr_ok P (f x) R) -> tr_ok P (tbind m f) R.
Proof.
  intros [H1 (x & Hx & HQ)] Hf. destruct (Hf x HQ) as [H2 (y & Hy & HR)]. unfold tr_ok, tbind.
  rewrite Hx. cbn [fst snd]. split; [apply Forall_app; split; assumption|]. exists y. split; assumption.
Qed.
Lemma tr_ok_ret {X} (P : acc -> Prop) (x : X) (Q : X -> Prop) : Q x -> tr_ok P (tret x) Q.
Proof. intros H. split; [constructor|]. exists x. split; [reflexivity|exact H]. Qed.
Lemma tr_ok_pure {X} (P : acc -> Prop) (r : res X) x (Q : X -> Prop) : r = Ok x -> Q x -> tr_ok P (tpure r) Q.
Proof. intros -> H. split; [constructor|]. exists x. split; [reflexivity|exact H]. Qed.
Lemma tr_ok_get {T} (P : acc -> Prop) view (xs : list T) i v (Q : T -> Prop) :
  P (AUget view i) -> nth_error xs i = Some v -> Q v -> tr_ok P (tget view xs i) Q.
Proof.
  intros HP Hv HQ. split; [repeat constructor; exact HP|]. exists v. split; [|exact HQ].
  cbn. unfold uget. rewrite Hv. reflexivity.
Qed.
Lemma tr_ok_set {X} (P : acc -> Prop) slot (v : X) out (Q : list (option X) -> Prop) :
  P (AUset slot) -> Q (uset slot v out) -> tr_ok P (tset slot v out) Q.
Proof. intros HP HQ. split; [repeat constructor; exact HP|]. eexists. split; [reflexivity|exact HQ]. Qed.

Section RankChk.
  Context {A : Type} {NA : Num A} {T : Type} {DT : IsNone T A} {DX : IsNoneX T A}.
  Variables (pct : bool) (nn : nat) (xs : list T) (p : list nat).
  Let len := length xs.
  Hypothesis Hplen : length p = len.
  Hypothesis Hpr : forall i, In i p -> i < len.
  (* view 0 = the series, every other view = idx_sorted: both have length len *)
  Let P := acc_ok len len.

  Lemma p_nth t : t < len -> nth_error p t = Some (nth t p 0) /\ nth t p 0 < len.
  Proof. intros H. split; [apply nth_error_nth'; lia|apply Hpr, nth_In; lia]. Qed.
  Lemma xs_at t : t < len -> exists v, nth_error xs (nth t p 0) = Some v.
  Proof. intros H. apply Proofs.Driver.nth_error_Some_lt. apply (p_nth t H). Qed.

  Lemma get_p t : t < len -> tr_ok P (tget 2 p t) (fun s => s = nth t p 0).
  Proof. intros H. destruct (p_nth t H) as [H1 H2]. eapply tr_ok_get; [cbn; exact H|exact H1|reflexivity]. Qed.

  Lemma write_run_tr_spec i (v : A) : i < len -> forall js out, (forall j, In j js -> j <= i) ->
    tr_ok P (write_run_tr p i v js out)
          (fun o => o = fold_left (fun o j => uset (nth (i - j) p 0) v o) js out).
  Proof.
    intros Hi. induction js as [|j r IH]; intros out Hjs; cbn [write_run_tr fold_left].
    - apply tr_ok_ret. reflexivity.
    - apply tr_ok_bind with (Q := fun d => d = i - j).
      { apply tr_ok_pure with (x := i - j); [apply usub_ok, Hjs; left; reflexivity|reflexivity]. }
      intros d ->. apply tr_ok_bind with (Q := fun s => s = nth (i - j) p 0); [apply get_p; lia|].
      intros s ->. apply tr_ok_bind with (Q := fun o => o = uset (nth (i - j) p 0) v out).
      { apply tr_ok_set; [cbn; apply (p_nth (i - j)); lia|reflexivity]. }
      intros o ->. apply IH. intros j' Hj'. apply Hjs. right. exact Hj'.
  Qed.

  Lemma fill_tr_spec (v : A) : forall is out, (forall i, In i is -> i < len) ->
    tr_ok P (fill_tr p v is out) (fun o => o = fold_left (fun o i => uset (nth i p 0) v o) is out).
  Proof.
    induction is as [|i r IH]; intros out His; cbn [fill_tr fold_left].
    - apply tr_ok_ret. reflexivity.
    - apply tr_ok_bind with (Q := fun s => s = nth i p 0); [apply get_p, His; left; reflexivity|].
      intros s ->. apply tr_ok_bind with (Q := fun o => o = uset (nth i p 0) v out).
      { apply tr_ok_set; [cbn; apply (p_nth i), His; left; reflexivity|reflexivity]. }
      intros o ->. apply IH. intros i' Hi'. apply His. right. exact Hi'.
  Qed.

  (* the invariant behind `i - j`: repeat_num <= i + 1 *)
  Lemma rank_loop_tr_spec : forall m i0 st, i0 + m < len -> r_rep st <= S i0 ->
    tr_ok P (rank_loop_tr pct nn xs p (seq i0 m) st)
          (fun r => r = Rank.rank_loop pct nn xs p (seq i0 m) st).
  Proof.
    induction m as [|m IH]; intros i0 st Hm Hrep; cbn [seq rank_loop_tr Rank.rank_loop].
    - apply tr_ok_ret. reflexivity.
    - destruct (xs_at i0 ltac:(lia)) as [v Hv]. destruct (xs_at (S i0) ltac:(lia)) as [v1 Hv1].
      apply tr_ok_bind with (Q := fun s => s = nth i0 p 0); [apply get_p; lia|]. intros idx ->.
      apply tr_ok_bind with (Q := fun s => s = nth (S i0) p 0); [apply get_p; lia|]. intros idx1 ->.
      apply tr_ok_bind with (Q := fun x => x = v).
      { eapply tr_ok_get; [cbn; apply (p_nth i0); lia|exact Hv|reflexivity]. }
      intros ? ->. apply tr_ok_bind with (Q := fun x => x = v1).
      { eapply tr_ok_get; [cbn; apply (p_nth (S i0)); lia|exact Hv1|reflexivity]. }
      intros ? ->. cbv zeta. unfold get_is_none, get_eq. rewrite Hv, Hv1.
      destruct (is_none v1).
      + eapply tr_ok_bind; [apply write_run_tr_spec; [lia|]|].
        * intros j Hj. apply in_seq in Hj. lia.
        * intros o ->. apply tr_ok_ret. reflexivity.
      + destruct (teqb v v1); [apply IH; cbn [r_rep]; lia|].
        destruct (r_rep st =? 1) eqn:E1.
        * eapply tr_ok_bind; [apply tr_ok_set with (Q := fun o => o = uset (nth i0 p 0) (rk_one pct nn (r_cur st)) (r_out st));
                               [cbn; apply (p_nth i0); lia|reflexivity]|].
          intros o ->. apply IH; cbn [r_rep]; lia.
        * eapply tr_ok_bind; [apply write_run_tr_spec; [lia|]|].
          -- intros j Hj. apply in_seq in Hj. lia.
          -- intros o ->. apply IH; cbn [r_rep]; lia.
  Qed.

  Lemma rank_loop_rep_bound : forall is st i0, r_rep st <= S i0 ->
    snd (Rank.rank_loop pct nn xs p is st) = None ->
    r_rep (fst (Rank.rank_loop pct nn xs p is st)) <= S i0 + length is.
  Proof.
    induction is as [|i rest IH]; intros st i0 Hrep Hn; cbn [Rank.rank_loop length] in *; [cbn [fst]; lia|].
    cbv zeta in *. destruct (get_is_none xs (nth (S i) p 0)); [discriminate|].
    destruct (get_eq xs (nth i p 0) (nth (S i) p 0)).
    - eapply Nat.le_trans; [apply (IH _ (S i0)); [cbn [r_rep]; lia|exact Hn]|lia].
    - destruct (r_rep st =? 1).
      + eapply Nat.le_trans; [apply (IH _ (S i0)); [cbn [r_rep]; lia|exact Hn]|lia].
      + eapply Nat.le_trans; [apply (IH _ (S i0)); [cbn [r_rep]; lia|exact Hn]|lia].
  Qed.

  Lemma rank_finish_tr_spec r : (snd r = None -> r_rep (fst r) <= len) ->
    tr_ok P (rank_finish_tr pct nn p len r) (fun o => o = rank_finish pct nn p len r).
  Proof.
    destruct r as [st [idx|]]; cbn [fst snd rank_finish_tr rank_finish]; intros Hr.
    - apply fill_tr_spec. intros i Hi. apply in_seq in Hi. lia.
    - specialize (Hr eq_refl). cbv zeta.
      apply tr_ok_bind with (Q := fun a => a = len - r_rep st).
      { eapply tr_ok_pure; [apply usub_ok; exact Hr|reflexivity]. }
      intros a ->. apply fill_tr_spec. intros i Hi. apply in_seq in Hi. lia.
  Qed.
End RankChk.

Section RankEntry.
  Context {A : Type} {NA : Num A} {T : Type} {DT : IsNone T A} {DX : IsNoneX T A}.

  (* idx_sorted: the positions 0..len-1 in sorted order *)
  Lemma idx_sorted_perm rev (xs : list T) :
    let p := isort (cmp_idx (cmp_dir rev) xs) (seq 0 (length xs)) in
    Permutation p (seq 0 (length xs)) /\ length p = length xs /\ forall i, In i p -> i < length xs.
  Proof.
    intros p. assert (Hperm : Permutation p (seq 0 (length xs))) by apply isort_perm.
    split; [exact Hperm|]. split; [rewrite (Permutation_length Hperm); apply seq_length|].
    intros i Hi. apply (Permutation_in _ Hperm) in Hi. apply in_seq in Hi. lia.
  Qed.

  (* every series (empty, single element, all null included), both flags: the checked text performs only
     in-bounds accesses of the series, of idx_sorted and of the output, never panics (no out-of-range read, no
     usize underflow in `i - j` / `len - repeat_num`), and returns the value of the model *)
  Theorem vrank_tr_spec pct rev (xs : list T) :
    tr_ok (acc_ok (length xs) (length xs)) (vrank_tr pct rev xs) (fun o => o = vrank pct rev xs).
  Proof.
    unfold vrank_tr, vrank. cbv zeta.
    destruct (length xs =? 0) eqn:E0; [apply tr_ok_ret; reflexivity|].
    destruct (length xs =? 1) eqn:E1.
    - apply Nat.eqb_eq in E1. destruct xs as [|x [|? ?]]; try discriminate.
      eapply tr_ok_bind; [eapply tr_ok_get with (v := x) (Q := fun y => y = x); [cbn; lia|reflexivity|reflexivity]|].
      intros ? ->. apply tr_ok_ret. reflexivity.
    - apply Nat.eqb_neq in E0. apply Nat.eqb_neq in E1.
      destruct (idx_sorted_perm rev xs) as (_ & Hplen & Hpr).
      set (p := isort (cmp_idx (cmp_dir rev) xs) (seq 0 (length xs))) in *.
      destruct (xs_at xs p Hplen Hpr 0 ltac:(lia)) as [v0 Hv0].
      eapply tr_ok_bind; [apply (get_p xs p Hplen Hpr 0); lia|]. intros ? ->.
      eapply tr_ok_bind; [eapply tr_ok_get with (Q := fun y => y = v0);
                          [cbn; apply (p_nth xs p Hplen Hpr 0); lia|exact Hv0|reflexivity]|].
      intros ? ->. unfold get_is_none. rewrite Hv0. destruct (is_none v0); [apply tr_ok_ret; reflexivity|].
      eapply tr_ok_bind; [apply (rank_loop_tr_spec pct (count_valid xs) xs p Hplen Hpr); cbn [r_rep]; lia|].
      intros r ->. apply (rank_finish_tr_spec pct (count_valid xs) xs p Hplen Hpr). intros Hn.
      eapply Nat.le_trans; [apply rank_loop_rep_bound with (i0 := 0); first [exact Hn|cbn [r_rep]; lia]|].
      rewrite seq_length. lia.
  Qed.

  Corollary vrank_tr_in_bounds pct rev (xs : list T) :
    Forall (acc_ok (length xs) (length xs)) (fst (vrank_tr pct rev xs)).
  Proof. exact (proj1 (vrank_tr_spec pct rev xs)). Qed.
End RankEntry.

Lemma pad_take_length {X} k1 (pad : X) l : length (pad_take k1 pad l) = k1.
Proof. unfold pad_take. rewrite firstn_length, app_length, repeat_length. lia. Qed.
Lemma In_pad_take {X} k1 (pad : X) l x : In x (pad_take k1 pad l) -> x = pad \/ In x l.
Proof.
  unfold pad_take. intros H. apply In_firstn in H. apply in_app_or in H.
  destruct H as [H|H]; [right; exact H|left; apply repeat_spec in H; exact H].
Qed.

Section PartChk.
  Context {A : Type} {NA : Num A} {T : Type} {DT : IsNone T A} {DX : IsNoneX T A}.

  (* the index handed to `select_nth_unstable_by(kth)` is below the length of the vector it selects in *)
  Theorem partition_select_in_range kth (xs : list T) :
    (count_valid xs <=? kth + 1) = false ->
    kth < length (seq 0 (length xs)) /\ kth < length xs /\ kth + 1 <= length xs.
  Proof. intros H. apply Nat.leb_gt in H. pose proof (count_valid_le_length xs). rewrite seq_length. lia. Qed.

  (* `to_trust(kth + 1)`: the iterator yields exactly kth + 1 items, whatever the parameters *)
  Theorem varg_partition_length kth sort rev (xs : list T) : length (varg_partition kth sort rev xs) = kth + 1.
  Proof.
    unfold varg_partition. destruct (count_valid xs <=? kth + 1) eqn:E.
    - destruct (negb sort); apply pad_take_length.
    - destruct (partition_select_in_range kth xs E) as (_ & _ & H).
      rewrite map_length. destruct sort; rewrite ?isort_length, firstn_length, isort_length, seq_length; lia.
  Qed.

  Theorem vpartition_length kth sort rev (xs : list T) l :
    vpartition kth sort rev xs = Ok l -> length l = kth + 1.
  Proof.
    unfold vpartition. pose proof (count_valid_le_length xs) as Hc.
    destruct ((count_valid xs =? kth + 1) && negb sort) eqn:E1.
    { apply andb_prop in E1. destruct E1 as [E1 _]. apply Nat.eqb_eq in E1. intros H. injection H as <-. exact E1. }
    destruct (count_valid xs <=? kth + 1) eqn:E2.
    - destruct (negb sort).
      + destruct tnone as [pad|pk]; cbn [bind]; [|discriminate]. intros H. injection H as <-. apply pad_take_length.
      + destruct (length (isort (cmp_dir rev) xs) <? kth + 1) eqn:E3.
        * destruct tnone as [pad|pk]; cbn [bind]; [|discriminate]. intros H. injection H as <-. apply pad_take_length.
        * apply Nat.ltb_ge in E3. intros H. injection H as <-. rewrite firstn_length. lia.
    - apply Nat.leb_gt in E2. intros H. injection H as <-.
      destruct sort; rewrite ?isort_length, firstn_length, isort_length; lia.
  Qed.

  (* the only panic is `T::none()` of a non-nullable element type, and only when padding is needed *)
  Theorem vpartition_ok kth sort rev (xs : list T) pad :
    tnone = Ok pad -> exists l, vpartition kth sort rev xs = Ok l /\ length l = kth + 1.
  Proof.
    intros Hp. assert (H : exists l, vpartition kth sort rev xs = Ok l).
    { unfold vpartition. rewrite Hp. cbn [bind].
      destruct ((count_valid xs =? kth + 1) && negb sort); [eauto|].
      destruct (count_valid xs <=? kth + 1); [|eauto]. destruct (negb sort); [eauto|].
      destruct (length (isort (cmp_dir rev) xs) <? kth + 1); eauto. }
    destruct H as [l Hl]. exists l. split; [exact Hl|apply (vpartition_length _ _ _ _ _ Hl)].
  Qed.
  Theorem vpartition_no_padding_ok kth sort rev (xs : list T) :
    kth + 1 <= count_valid xs -> exists l, vpartition kth sort rev xs = Ok l /\ length l = kth + 1.
  Proof.
    intros Hk. pose proof (count_valid_le_length xs) as Hc.
    assert (H : exists l, vpartition kth sort rev xs = Ok l).
    { unfold vpartition. destruct ((count_valid xs =? kth + 1) && negb sort) eqn:E1; [eauto|].
      destruct (count_valid xs <=? kth + 1) eqn:E2; [|eauto]. apply Nat.leb_le in E2.
      assert (En : count_valid xs = kth + 1) by lia.
      destruct sort; cbn [negb] in *.
      - replace (length (isort (cmp_dir rev) xs) <? kth + 1) with false; [eauto|].
        symmetry. apply Nat.ltb_ge. rewrite isort_length. lia.
      - rewrite En, Nat.eqb_refl in E1. discriminate. }
    destruct H as [l Hl]. exists l. split; [exact Hl|apply (vpartition_length _ _ _ _ _ Hl)].
  Qed.
End PartChk.

Section QuantChk.
  Context {A : Type} {NA : Num A} {NF : NumFloor A} {T : Type} {DT : IsNone T A}.

  (* under the carrier's index law ceil((n-1) q) <= n-1 the selected index is below the number of valid
     elements, hence below the length: no call panics, for every series (empty, all null, one element) *)
  Theorem vquantile_index_in_range : QIdxLaw (A := A) -> forall (q : A) (xs : list T),
    nleb nzero q && nleb q none = true -> 2 <= count_valid xs -> qsel_index q (count_valid xs) < length xs.
  Proof.
    intros HL q xs Hq Hn. pose proof (count_valid_le_length xs). specialize (HL q (count_valid xs) Hq Hn). lia.
  Qed.

  Theorem vquantile_never_panics : QIdxLaw (A := A) -> forall (q : A) m (xs : list T),
    exists r, vquantile q m xs = Ok r /\ (r = None <-> nleb nzero q && nleb q none = false).
  Proof.
    intros HL q m xs. destruct (vquantile_ok_in_range q m xs) as [r Hr].
    { intros H1 H2. apply HL; assumption. }
    exists r. split; [exact Hr|]. unfold vquantile in Hr.
    destruct (nleb nzero q && nleb q none); cbn [negb] in Hr.
    - split; [|discriminate]. intros ->. exfalso.
      destruct (count_valid xs =? 0); [discriminate|]. destruct (count_valid xs =? 1).
      { destruct (vfirst xs); discriminate. }
      destruct (nleb q nhalf).
      + destruct (select_nth sort_cmp _ xs) as [[hd mm]|pk]; cbn [bind] in Hr; [|discriminate].
        destruct (negb _) in Hr; discriminate.
      + destruct (select_nth sort_cmp_rev _ xs) as [[hd mm]|pk]; cbn [bind] in Hr; [|discriminate].
        destruct (negb _) in Hr; discriminate.
    - injection Hr as <-. split; reflexivity.
  Qed.

  Theorem vmedian_never_panics : QIdxLaw (A := A) ->
    nleb nzero (nhalf (A := A)) && nleb (nhalf (A := A)) none = true ->
    forall xs : list T, exists v, vmedian xs = Ok v.
  Proof.
    intros HL Hh xs. destruct (vquantile_never_panics HL nhalf Linear xs) as (r & Hr & Hn).
    unfold vmedian. rewrite Hr. cbn [bind]. destruct r as [v|]; [eauto|].
    destruct Hn as [Hn _]. specialize (Hn eq_refl). rewrite Hh in Hn. discriminate.
  Qed.
End QuantChk.
