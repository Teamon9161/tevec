(* Proofs/MapOpsExamples.v — a computable, axiom-free instance of the f64 operations used by
   vpct_change (exact rationals with a null), so that the hypotheses of the C13 theorems are
   shown to be satisfiable and the Examples in Props/C13.v run.                                  *)
From Coq Require Import QArith.
From Tevec Require Import Model.MapOps.
Set Implicit Arguments.

(* option Q: None plays NaN; division by zero is guarded by the caller, as in the Rust closure *)
Definition qlift2 (f : Q -> Q -> Q) (a b : option Q) : option Q :=
  match a, b with Some x, Some y => Some (Qred (f x y)) | _, _ => None end.

Definition qops : FOps (option Q) :=
  {| fnanv := None;
     fisnan := fun a => match a with Some _ => false | None => true end;
     fis0 := fun a => match a with Some x => Qeq_bool x 0 | None => false end;
     fdiv := qlift2 Qdiv;
     fsub := qlift2 Qminus;
     fone := Some 1%Q |}.

(* Option<i32> -> f64 *)
Definition cast_oz (o : option Z) : option Q := match o with Some z => Some (inject_Z z) | None => None end.
Definition d_oz : NullDict (option Z) Z := dict_opt (fun _ : Z => false).

Lemma cast_oz_null v : fisnan qops (cast_oz v) = is_none d_oz v.
Proof. destruct v; reflexivity. Qed.
Lemma qops_nan_null : fisnan qops (fnanv qops) = true.
Proof. reflexivity. Qed.

(* a float-like type with exact arithmetic: option Z, None plays NaN; subtraction propagates it *)
Definition d_fz : NullDict (option Z) (option Z) :=
  dict_float (fun o : option Z => match o with Some _ => false | None => true end) None.
Definition sub_fz (a b : option Z) : option Z :=
  match a, b with Some x, Some y => Some (x - y)%Z | _, _ => None end.
Lemma sub_fz_null a b :
  is_none d_fz a = true \/ is_none d_fz b = true -> is_none d_fz (sub_fz b a) = true.
Proof. destruct a, b; cbn; intros [H|H]; try discriminate; reflexivity. Qed.
