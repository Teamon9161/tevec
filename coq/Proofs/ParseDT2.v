(* Proofs/ParseDT2.v — C18, the date-time text round trip, built from the item lemmas of Proofs/ParseDT.v:
     signed years: chrono renders a year outside 0000..9999 as "{:+05}" (`+12345`, `-0001`); the %Y
         parser reads a signed year with unbounded width, so the round trip holds for the whole year range
         chrono represents whenever %Y is not directly followed by digits (formats 0 1 2 5 6 9 10);
     rule-list unambiguity: for a text rendered with listed format k, every EARLIER rule j < k of
         TIME_RULE_VEC either rejects the text (53 of the 55 pairs) or reads the same instant (the pairs (4,7) and
         (6,8), where the earlier rule's space matches no character).  Rejection is proved through a
         sound abstraction of the parser to character classes (digit / white space / - + : / . / other):
         the class string of a rendered text depends only on the format and on the shape of the year
         (7 shapes), so the 53 x shapes syntactic checks are a finite computation whose bound is in the
         statement (`all_pairs_checked`), lifted to all instants by `parse_items_csyn`.
     Together: the full statement of Props/C18.v (`dt_full_roundtrip`).
   Axiom-free. *)
From Coq Require Import List ZArith Lia Bool.
From Tevec Require Import Base.Prelude Model.Parse Spec.CalendarC18 Model.ParseDT Proofs.CalendarC18 Proofs.Parse Proofs.ParseDT.
Import ListNotations.
Local Open Scope Z_scope.

(* minimal decimal rendering = fixed-width rendering at the number's own width (5 and 6 digits: the years
   chrono represents have at most 6) *)
Lemma dec_step_big f v : 10 <= v -> dec_digits (S f) v = dec_digits f (v / 10) ++ [48 + v mod 10].
Proof. intros H. cbn [dec_digits]. replace (v <? 10) with false by (symmetry; apply Z.ltb_ge; lia). reflexivity. Qed.

Lemma dec_step_small f v : 0 <= v < 10 -> dec_digits (S f) v = [48 + v mod 10].
Proof.
  intros H. cbn [dec_digits]. replace (v <? 10) with true by (symmetry; apply Z.ltb_lt; lia).
  rewrite Z.mod_small by lia. reflexivity.
Qed.

Lemma dec_digits_5 a : 10000 <= a < 100000 -> dec_digits 20 a = fixed_digits 5 a.
Proof.
  intros H. do 4 (rewrite dec_step_big by (Z.div_mod_to_equations; lia)).
  rewrite dec_step_small by (Z.div_mod_to_equations; lia). reflexivity.
Qed.

Lemma dec_digits_6 a : 100000 <= a < 1000000 -> dec_digits 20 a = fixed_digits 6 a.
Proof.
  intros H. do 5 (rewrite dec_step_big by (Z.div_mod_to_equations; lia)).
  rewrite dec_step_small by (Z.div_mod_to_equations; lia). reflexivity.
Qed.

Definition year_in_range (y : Z) : Prop := cr_min_year <= y <= cr_max_year.

(* the sign character of a year chrono writes with a sign *)
Definition sign_char (y : Z) : Z := if y <? 0 then 45 else 43.

Lemma render_year_shape y :
  year_in_range y ->
  (0 <= y <= 9999 /\ render_year y = fixed_digits 4 y)
  \/ (~ (0 <= y <= 9999) /\ exists w, (4 <= w <= 6)%nat /\ Z.abs y < 10 ^ Z.of_nat w
                                      /\ render_year y = sign_char y :: fixed_digits w (Z.abs y)).
Proof.
  unfold year_in_range, cr_min_year, cr_max_year. intros Hy. unfold render_year.
  destruct ((0 <=? y) && (y <=? 9999)) eqn:E.
  - left. apply andb_true_iff in E. destruct E as [E1 E2]. apply Z.leb_le in E1, E2. auto.
  - right. split.
    { intros [H1 H2]. apply Z.leb_le in H1, H2. rewrite H1, H2 in E. discriminate. }
    fold (sign_char y). destruct (Z.abs y <=? 9999) eqn:Ea.
    + apply Z.leb_le in Ea. exists 4%nat. change (10 ^ Z.of_nat 4) with 10000. repeat split; lia.
    + apply Z.leb_gt in Ea. destruct (Z_lt_le_dec (Z.abs y) 100000) as [H5|H5].
      * exists 5%nat. change (10 ^ Z.of_nat 5) with 100000. repeat split; try lia.
        f_equal. apply dec_digits_5. lia.
      * exists 6%nat. change (10 ^ Z.of_nat 6) with 1000000. repeat split; try lia.
        f_equal. apply dec_digits_6. lia.
Qed.

(* %Y on a rendered year, any year chrono represents: four digits are read with width 4; a signed year is
   read up to the first non-digit, so one has to follow *)
Lemma pi_Y y rest mo d h mi s ns :
  year_in_range y /\ (0 <= y <= 9999 \/ nondigit_head rest) ->
  parse_item IY (render_year y ++ rest) (mk_parsed None mo d h mi s ns)
  = Some (rest, mk_parsed (Some y) mo d h mi s ns).
Proof.
  intros [Hr Hc].
  destruct (render_year_shape y Hr) as [[H4 E]|[Hn4 (w & Hw & Ha & E)]]; rewrite E.
  - cbn [parse_item]. rewrite trim_fixed by lia.
    destruct (fixed_head 4 y rest ltac:(lia)) as [c [r [Ec Hcd]]].
    pose proof (digit_range c Hcd) as Hrg. rewrite Ec.
    replace (c =? 45) with false by (symmetry; apply Z.eqb_neq; lia).
    replace (c =? 43) with false by (symmetry; apply Z.eqb_neq; lia).
    rewrite <- Ec.
    rewrite scan_fixed; [|lia|change (10 ^ Z.of_nat 4) with 10000; lia|unfold i64_max; lia|left; reflexivity].
    cbn [p_y p_mo p_d p_h p_mi p_s p_ns].
    rewrite set_field_none by (unfold i32_min, i32_max; lia). reflexivity.
  - destruct Hc as [Hc|Hc]; [contradiction|].
    unfold year_in_range, cr_min_year, cr_max_year in Hr.
    cbn [app parse_item trim_start].
    assert (Hscan : scan_number (fixed_digits w (Z.abs y) ++ rest) (length (fixed_digits w (Z.abs y) ++ rest))
                    = Some (Z.abs y, rest)).
    { apply scan_fixed; [rewrite app_length, fixed_digits_length; lia|lia|unfold i64_max; lia|right; exact Hc]. }
    unfold sign_char. destruct (y <? 0) eqn:Es.
    + apply Z.ltb_lt in Es. change (is_ws 45) with false. cbv iota. change (45 =? 45) with true. cbv iota.
      rewrite Hscan. cbn [option_map fst snd p_y p_mo p_d p_h p_mi p_s p_ns].
      rewrite set_field_none by (unfold i32_min, i32_max; lia).
      replace (0 - Z.abs y) with y by lia. reflexivity.
    + apply Z.ltb_ge in Es. change (is_ws 43) with false. cbv iota.
      change (43 =? 45) with false. change (43 =? 43) with true. cbv iota.
      rewrite Hscan. cbn [p_y p_mo p_d p_h p_mi p_s p_ns].
      rewrite set_field_none by (unfold i32_min, i32_max; lia).
      replace (Z.abs y) with y by lia. reflexivity.
Qed.

(* formats whose %Y is directly followed by digits: only a 4-digit year can be read back *)
Definition y4 (k : nat) : bool := match k with 3%nat | 4%nat | 7%nat | 8%nat => true | _ => false end.

Definition fields_ok (f : dtf) : Prop :=
  year_in_range (f_y f) /\ 1 <= f_mo f <= 12 /\ 1 <= f_d f <= 31 /\ 0 <= f_h f <= 23 /\
  0 <= f_mi f <= 59 /\ 0 <= f_s f <= 59 /\ 0 <= f_ns f <= 999999999.

Local Ltac year_side Hy4 :=
  split; [assumption | first [ left; exact Hy4 | right; exact I | right; reflexivity ]].

Local Ltac run_items Hy4 :=
  repeat (cbn [parse_items];
          first [ rewrite pi_lit | rewrite pi_sp by lia | rewrite pi_sp0 by lia
                | rewrite pi_Y by (year_side Hy4) | rewrite pi_mon by lia
                | rewrite pi_day by lia | rewrite pi_H by lia | rewrite pi_M by lia
                | rewrite pi_S by lia | rewrite pi_f by lia ]).

Lemma parse_items_listed k f : (k < 11)%nat -> fields_ok f -> (y4 k = true -> 0 <= f_y f <= 9999) ->
  parse_items (fmt_k k) (render (fmt_k k) f) parsed0
  = Some (mk_parsed (Some (f_y f)) (Some (f_mo f)) (Some (f_d f))
                    (if date_only k then None else Some (f_h f))
                    (if date_only k then None else Some (f_mi f))
                    (if date_only k then None else Some (f_s f))
                    (if has_frac k then Some (f_ns f) else None)).
Proof.
  intros Hk (Hy & Hmo & Hd & Hh & Hmi & Hs & Hns) Hy4.
  do 11 (destruct k as [|k]; [
    cbn [y4] in Hy4;
    try (pose proof (Hy4 eq_refl) as Hy4');
    unfold fmt_k, rules, fmt_default, render, parsed0, dash, colon, slash, dot;
    cbn [nth flat_map render_item app date_only has_frac];
    repeat (rewrite <- app_assoc; cbn [app]);
    first [ run_items Hy4' | run_items I ];
    reflexivity |]).
  lia.
Qed.

(* the same-meaning pairs: rule 4 on a text of format 7 and rule 6 on a text of format 8 — the rule's
   space matches the empty string in front of the hour digits *)
Definition same_pair (j k : nat) : bool :=
  ((j =? 4)%nat && (k =? 7)%nat) || ((j =? 6)%nat && (k =? 8)%nat).

Lemma same_pair_inv j k : same_pair j k = true -> (j = 4 /\ k = 7)%nat \/ (j = 6 /\ k = 8)%nat.
Proof.
  unfold same_pair. intros Es. apply orb_true_iff in Es.
  destruct Es as [Es|Es]; apply andb_true_iff in Es; destruct Es as [E1 E2]; apply Nat.eqb_eq in E1, E2; auto.
Qed.

Lemma parse_items_same j k f : same_pair j k = true -> fields_ok f -> 0 <= f_y f <= 9999 ->
  parse_items (fmt_k j) (render (fmt_k k) f) parsed0 = parse_items (fmt_k k) (render (fmt_k k) f) parsed0.
Proof.
  intros Es Hok Hy4. pose proof (same_pair_inv j k Es) as Ejk.
  rewrite (parse_items_listed k f); [|lia|exact Hok|intros _; exact Hy4].
  destruct Hok as (Hy & Hmo & Hd & Hh & Hmi & Hs & Hns).
  destruct Ejk as [[-> ->]|[-> ->]];
    unfold fmt_k, rules, fmt_default, render, parsed0, dash, colon, slash, dot;
    cbn [nth flat_map render_item app date_only has_frac];
    repeat (rewrite <- app_assoc; cbn [app]);
    run_items Hy4; reflexivity.
Qed.

(* fields of a representable instant *)
Lemma fields_of_instant_ok u x f : unit_code u -> fields_of_instant u x = Some f ->
  fields_ok f
  /\ valid_date (f_y f) (f_mo f) (f_d f) = true
  /\ days_from_civil (f_y f) (f_mo f) (f_d f) = x / per_sec u / 86400
  /\ f_h f * 3600 + f_mi f * 60 + f_s f = (x / per_sec u) mod 86400
  /\ f_ns f = (x mod per_sec u) * (giga / per_sec u).
Proof.
  intros Hu Hf. unfold fields_of_instant in Hf. cbv zeta in *.
  set (secs := x / per_sec u) in *. set (days := secs / 86400) in *. set (sod := secs mod 86400) in *.
  pose proof (civil_roundtrip days) as HC.
  destruct (civil_from_days days) as [[y m] d]. destruct HC as [Hv Hd].
  destruct ((cr_min_year <=? y) && (y <=? cr_max_year)) eqn:Hyr; [|discriminate].
  injection Hf as <-. cbn [f_y f_mo f_d f_h f_mi f_s f_ns].
  assert (Hsod : 0 <= sod < 86400) by (subst sod; apply Z.mod_pos_bound; lia).
  destruct (sod_fields sod Hsod) as (Hh & Hmi & Hs & Hsum).
  pose proof (valid_date_bounds y m d Hv) as [Hm Hdd].
  pose proof (nanos_bound u x Hu) as Hns.
  apply andb_true_iff in Hyr. destruct Hyr as [Hy1 Hy2]. apply Z.leb_le in Hy1, Hy2.
  split; [|auto].
  unfold fields_ok, year_in_range. cbn [f_y f_mo f_d f_h f_mi f_s f_ns]. tauto.
Qed.

(* (b) the explicit-format round trip for every listed format and every year chrono represents *)
Theorem dt_listed_roundtrip_signed u k x f :
  unit_code u -> (k < 11)%nat -> in_i64 x = true -> x <> i64_min ->
  fields_of_instant u x = Some f ->
  (y4 k = true -> 0 <= f_y f <= 9999) ->
  (has_frac k = false -> x mod per_sec u = 0) ->
  (date_only k = true -> x mod (86400 * per_sec u) = 0) ->
  dt_format u (fmt_k k) x = Ok (render (fmt_k k) f) /\
  parse_with u (fmt_k k) (render (fmt_k k) f) = Some x.
Proof.
  intros Hu Hk Hx Hnat Hf Hy Hsec Hday.
  split; [exact (dt_format_some u _ x f Hnat Hf)|].
  destruct (fields_of_instant_ok u x f Hu Hf) as (Hok & Hv & Hd & Hsum & Hns).
  unfold parse_with. rewrite parse_items_listed by assumption.
  unfold to_naive_date, to_naive_time. cbn [p_y p_mo p_d p_h p_mi p_s p_ns].
  destruct Hok as ([Hy1 Hy2] & _ & _ & _ & _ & Hs & _).
  rewrite (proj2 (Z.leb_le _ _) Hy1), (proj2 (Z.leb_le _ _) Hy2), Hv, Hd. cbn [andb].
  destruct (date_only k) eqn:Edo.
  - f_equal. apply instant_back_day; auto.
  - replace (f_s f =? 60) with false by (symmetry; apply Z.eqb_neq; lia).
    rewrite Hsum. destruct (has_frac k) eqn:Ehf.
    + rewrite Hns. f_equal. apply instant_back; assumption.
    + f_equal. apply instant_back_sec; auto.
Qed.

Inductive cls := CD | CW | CMinus | CPlus | CColon | CSlash | CDot | CO.

Definition cls_eqb (a b : cls) : bool :=
  match a, b with
  | CD, CD | CW, CW | CMinus, CMinus | CPlus, CPlus | CColon, CColon | CSlash, CSlash | CDot, CDot | CO, CO => true
  | _, _ => false
  end.

Definition cls_of (c : Z) : cls :=
  if is_digit c then CD else if is_ws c then CW else if c =? 45 then CMinus else if c =? 43 then CPlus
  else if c =? 58 then CColon else if c =? 47 then CSlash else if c =? 46 then CDot else CO.

Fixpoint ctrim (l : list cls) : list cls :=
  match l with CW :: r => ctrim r | _ => l end.

Fixpoint ctake (maxw : nat) (l : list cls) (n : nat) : nat * list cls :=
  match maxw, l with
  | S w, CD :: r => ctake w r (S n)
  | _, _ => (n, l)
  end.

(* scan::number on classes (the i64 range check is dropped: it can only reject more) *)
Definition cscan (l : list cls) (maxw : nat) : option (list cls) :=
  let '(n, r) := ctake maxw l 0%nat in if (n =? 0)%nat then None else Some r.

(* one item on classes: the remainder if the item can match at all (Parsed::set_* checks are dropped) *)
Definition citem (it : item) (l : list cls) : option (list cls) :=
  match it with
  | ILit c => match l with
              | x :: r => if cls_eqb (cls_of c) x then Some r else None
              | [] => None
              end
  | ISp => Some (ctrim l)
  | IY => match ctrim l with
          | CMinus :: r => cscan r (length r)
          | CPlus :: r => cscan r (length r)
          | x :: r => cscan (x :: r) 4
          | [] => None
          end
  | Imon | Iday | IH | IM | IS => cscan (ctrim l) 2
  | If => cscan (ctrim l) 9
  end.

Fixpoint csyn (items : list item) (l : list cls) : bool :=
  match items with
  | [] => match l with [] => true | _ :: _ => false end
  | it :: rest => match citem it l with Some l' => csyn rest l' | None => false end
  end.

Lemma cls_of_spec c :
  match cls_of c with
  | CD => is_digit c = true
  | CW => is_digit c = false /\ is_ws c = true
  | CMinus => c = 45
  | CPlus => c = 43
  | _ => True
  end.
Proof.
  unfold cls_of. destruct (is_digit c); [reflexivity|]. destruct (is_ws c); [auto|].
  destruct (Z.eqb_spec c 45); [assumption|]. destruct (Z.eqb_spec c 43); [assumption|].
  destruct (c =? 58); [exact I|]. destruct (c =? 47); [exact I|]. destruct (c =? 46); exact I.
Qed.

Lemma cls_of_digit c : cls_of c = CD <-> is_digit c = true.
Proof.
  split; [intros E; pose proof (cls_of_spec c) as H; rewrite E in H; exact H|].
  intros H. unfold cls_of. rewrite H. reflexivity.
Qed.

Lemma cls_of_ws c : cls_of c = CW <-> is_ws c = true.
Proof.
  split; [intros E; pose proof (cls_of_spec c) as H; rewrite E in H; exact (proj2 H)|].
  intros H. unfold cls_of. destruct (is_digit c) eqn:Ed; [|rewrite H; reflexivity].
  rewrite (digit_not_ws c Ed) in H. discriminate H.
Qed.

Lemma cls_of_minus c : cls_of c = CMinus -> c = 45.
Proof. intros E. pose proof (cls_of_spec c) as H. rewrite E in H. exact H. Qed.

Lemma cls_of_plus c : cls_of c = CPlus -> c = 43.
Proof. intros E. pose proof (cls_of_spec c) as H. rewrite E in H. exact H. Qed.

Lemma cls_eqb_refl a : cls_eqb a a = true.
Proof. destruct a; reflexivity. Qed.

Lemma map_trim s : map cls_of (trim_start s) = ctrim (map cls_of s).
Proof.
  induction s as [|c r IH]; [reflexivity|]. cbn [trim_start map ctrim].
  destruct (is_ws c) eqn:E.
  - rewrite (proj2 (cls_of_ws c) E). exact IH.
  - cbn [map]. destruct (cls_of c) eqn:Ec; try reflexivity.
    apply cls_of_ws in Ec. congruence.
Qed.

Lemma take_digits_cls : forall maxw s acc n v n' r,
  take_digits maxw s acc n = (v, n', r) -> ctake maxw (map cls_of s) n = (n', map cls_of r).
Proof.
  induction maxw as [|w IH]; intros s acc n v n' r H.
  - cbn [take_digits] in H. injection H as _ <- <-. reflexivity.
  - destruct s as [|c s']; cbn [take_digits] in H.
    + injection H as _ <- <-. reflexivity.
    + cbn [map ctake]. destruct (is_digit c) eqn:E.
      * rewrite (proj2 (cls_of_digit c) E). exact (IH _ _ _ _ _ _ H).
      * injection H as _ <- <-. cbn [map]. destruct (cls_of c) eqn:Ec; try reflexivity.
        apply cls_of_digit in Ec. congruence.
Qed.

Lemma scan_number_cls s w v r :
  scan_number s w = Some (v, r) -> cscan (map cls_of s) w = Some (map cls_of r).
Proof.
  unfold scan_number, cscan. destruct (take_digits w s 0 0) as [[v0 n0] r0] eqn:E.
  rewrite (take_digits_cls _ _ _ _ _ _ _ E).
  destruct (n0 =? 0)%nat; [discriminate|]. destruct (in_i64 v0); [|discriminate].
  intros [= _ <-]. reflexivity.
Qed.

Local Ltac num_cls H :=
  cbn [parse_item citem] in *;
  match type of H with
  | match scan_number ?s ?w with _ => _ end = _ =>
    destruct (scan_number s w) as [[v r]|] eqn:Esc; [|discriminate H];
    match type of H with
    | match ?sf with _ => _ end = _ => destruct sf; [|discriminate H]
    end;
    injection H as <- _;
    rewrite <- map_trim; exact (scan_number_cls _ _ _ _ Esc)
  end.

(* soundness of the abstraction, one item *)
Lemma parse_item_cls it s p s' p' :
  parse_item it s p = Some (s', p') -> citem it (map cls_of s) = Some (map cls_of s').
Proof.
  intros H. destruct it.
  - (* %Y *)
    cbn [parse_item citem] in *. rewrite <- map_trim.
    destruct (trim_start s) as [|c r] eqn:Et; [discriminate|]. cbn [map].
    destruct (Z.eqb_spec c 45) as [->|N45].
    + change (cls_of 45) with CMinus. cbv iota.
      destruct (scan_number r (length r)) as [[v r1]|] eqn:Esc; [|discriminate].
      cbn [option_map fst snd] in H.
      destruct (set_field _ _ _ _); [|discriminate]. injection H as <- _.
      rewrite map_length. exact (scan_number_cls _ _ _ _ Esc).
    + destruct (Z.eqb_spec c 43) as [->|N43].
      * change (cls_of 43) with CPlus. cbv iota.
        destruct (scan_number r (length r)) as [[v r1]|] eqn:Esc; [|discriminate].
        destruct (set_field _ _ _ _); [|discriminate]. injection H as <- _.
        rewrite map_length. exact (scan_number_cls _ _ _ _ Esc).
      * destruct (scan_number (c :: r) 4) as [[v r1]|] eqn:Esc; [|discriminate].
        destruct (set_field _ _ _ _); [|discriminate]. injection H as <- _.
        apply scan_number_cls in Esc. cbn [map] in Esc.
        destruct (cls_of c) eqn:Ec; try exact Esc.
        -- apply cls_of_minus in Ec. contradiction.
        -- apply cls_of_plus in Ec. contradiction.
  - num_cls H.
  - num_cls H.
  - num_cls H.
  - num_cls H.
  - num_cls H.
  - num_cls H.
  - (* literal *)
    cbn [parse_item citem] in *. destruct s as [|x r]; [discriminate|]. cbn [map].
    destruct (Z.eqb_spec x c) as [->|]; [|discriminate]. injection H as <- _.
    rewrite cls_eqb_refl. reflexivity.
  - (* space *)
    cbn [parse_item citem] in *. injection H as <- _. rewrite map_trim. reflexivity.
Qed.

(* soundness: a text some rule accepts is accepted syntactically on classes *)
Lemma parse_items_csyn : forall items s p p',
  parse_items items s p = Some p' -> csyn items (map cls_of s) = true.
Proof.
  induction items as [|it rest IH]; intros s p p' H.
  - destruct s; [reflexivity|discriminate].
  - cbn [parse_items] in H. destruct (parse_item it s p) as [[s1 p1]|] eqn:E; [|discriminate].
    cbn [csyn]. rewrite (parse_item_cls _ _ _ _ _ E). exact (IH _ _ _ H).
Qed.

Corollary csyn_false_rejects items s p :
  csyn items (map cls_of s) = false -> parse_items items s p = None.
Proof.
  intros H. destruct (parse_items items s p) eqn:E; [|reflexivity].
  rewrite (parse_items_csyn _ _ _ _ E) in H. discriminate.
Qed.

Definition item_shape (ys : list cls) (it : item) : list cls :=
  match it with
  | IY => ys
  | Imon | Iday | IH | IM | IS => [CD; CD]
  | If => repeat CD 9
  | ILit c => [cls_of c]
  | ISp => [CW]
  end.
Definition shape (ys : list cls) (items : list item) : list cls := flat_map (item_shape ys) items.

Lemma map_digits l : Forall digit l -> map cls_of l = repeat CD (length l).
Proof.
  induction 1 as [|c l Hc _ IH]; [reflexivity|].
  cbn [map repeat length]. rewrite (proj2 (cls_of_digit c) Hc), IH. reflexivity.
Qed.

Lemma map_fixed_digits w v : map cls_of (fixed_digits w v) = repeat CD w.
Proof. rewrite (map_digits _ (fixed_digits_digit w v)), fixed_digits_length. reflexivity. Qed.

Lemma map_render items f :
  map cls_of (render items f) = shape (map cls_of (render_year (f_y f))) items.
Proof.
  unfold render, shape. induction items as [|it rest IH]; [reflexivity|].
  cbn [flat_map]. rewrite map_app, IH. f_equal.
  destruct it; cbn [render_item item_shape map]; try apply map_fixed_digits; reflexivity.
Qed.

Definition year_shapes : list (list cls) :=
  [ repeat CD 4;
    CMinus :: repeat CD 4; CMinus :: repeat CD 5; CMinus :: repeat CD 6;
    CPlus :: repeat CD 4; CPlus :: repeat CD 5; CPlus :: repeat CD 6 ].

Lemma year_shape_in y : year_in_range y ->
  In (map cls_of (render_year y)) year_shapes /\
  (0 <= y <= 9999 -> map cls_of (render_year y) = repeat CD 4).
Proof.
  intros Hy. destruct (render_year_shape y Hy) as [[H4 E]|[Hn4 (w & Hw & _ & E)]].
  - rewrite E, map_fixed_digits. split; [left; reflexivity|reflexivity].
  - split; [|intros H; contradiction].
    rewrite E. cbn [map]. rewrite map_fixed_digits. unfold sign_char, year_shapes.
    assert (Hc : w = 4%nat \/ w = 5%nat \/ w = 6%nat) by lia.
    destruct (y <? 0); [change (cls_of 45) with CMinus | change (cls_of 43) with CPlus];
      destruct Hc as [->|[-> | ->]]; cbn [In]; tauto.
Qed.

Definition shapes_for (k : nat) : list (list cls) := if y4 k then [repeat CD 4] else year_shapes.

Definition check_pair (j k : nat) : bool :=
  same_pair j k || forallb (fun ys => negb (csyn (fmt_k j) (shape ys (fmt_k k)))) (shapes_for k).

(* 55 rule pairs j < k < 11, each against every year shape format k can produce *)
Lemma all_pairs_checked :
  forallb (fun k => forallb (fun j => check_pair j k) (seq 0 k)) (seq 0 11) = true.
Proof. vm_compute. reflexivity. Qed.

(* sanity of the abstraction: every format accepts the shape of its own text, and the two excluded pairs
   are exactly the pairs the syntactic check cannot reject *)
Lemma own_shape_accepted :
  forallb (fun k => forallb (fun ys => csyn (fmt_k k) (shape ys (fmt_k k))) (shapes_for k)) (seq 0 11) = true.
Proof. vm_compute. reflexivity. Qed.

Lemma same_pairs_accepted :
  csyn (fmt_k 4) (shape (repeat CD 4) (fmt_k 7)) = true /\ csyn (fmt_k 6) (shape (repeat CD 4) (fmt_k 8)) = true.
Proof. vm_compute. auto. Qed.

Lemma earlier_rule_rejects j k f p :
  (j < k)%nat -> (k < 11)%nat -> same_pair j k = false ->
  year_in_range (f_y f) -> (y4 k = true -> 0 <= f_y f <= 9999) ->
  parse_items (fmt_k j) (render (fmt_k k) f) p = None.
Proof.
  intros Hj Hk Hs Hy Hy4. apply csyn_false_rejects. rewrite map_render.
  pose proof all_pairs_checked as H. rewrite forallb_forall in H.
  specialize (H k ltac:(apply in_seq; lia)). rewrite forallb_forall in H.
  specialize (H j ltac:(apply in_seq; lia)). unfold check_pair in H. rewrite Hs in H. cbn [orb] in H.
  rewrite forallb_forall in H.
  destruct (year_shape_in (f_y f) Hy) as [Hin H4].
  assert (Hin' : In (map cls_of (render_year (f_y f))) (shapes_for k)).
  { unfold shapes_for. destruct (y4 k); [|exact Hin]. left. symmetry. apply H4. apply Hy4. reflexivity. }
  specialize (H _ Hin'). apply negb_true_iff in H. exact H.
Qed.

Lemma parse_rules_first u s x : forall rs k,
  (k < length rs)%nat ->
  (forall j, (j < k)%nat -> parse_with u (nth j rs fmt_default) s = None
                            \/ parse_with u (nth j rs fmt_default) s = Some x) ->
  parse_with u (nth k rs fmt_default) s = Some x ->
  parse_rules u rs s = Some x.
Proof.
  induction rs as [|r rs IH]; intros k Hk Hj Hx; [cbn in Hk; lia|].
  cbn [parse_rules]. destruct k as [|k].
  - cbn [nth] in Hx. rewrite Hx. reflexivity.
  - destruct (Hj 0%nat ltac:(lia)) as [H0|H0]; cbn [nth] in H0; rewrite H0; [|reflexivity].
    apply (IH k); [cbn [length] in Hk; lia| |exact Hx].
    intros j Hjk. exact (Hj (S j) ltac:(lia)).
Qed.

(* every earlier rule rejects the text or reads the same instant *)
Theorem earlier_rule_unambiguous u j k x f :
  unit_code u -> (j < k)%nat -> (k < 11)%nat ->
  fields_of_instant u x = Some f -> (y4 k = true -> 0 <= f_y f <= 9999) ->
  parse_with u (fmt_k k) (render (fmt_k k) f) = Some x ->
  parse_with u (fmt_k j) (render (fmt_k k) f) = None
  \/ parse_with u (fmt_k j) (render (fmt_k k) f) = Some x.
Proof.
  intros Hu Hj Hk Hf Hy4 Hx.
  destruct (fields_of_instant_ok u x f Hu Hf) as (Hok & _).
  destruct (same_pair j k) eqn:Es.
  - right. rewrite <- Hx. unfold parse_with. rewrite (parse_items_same j k f Es Hok); [reflexivity|].
    apply Hy4. destruct (same_pair_inv j k Es) as [[_ ->]|[_ ->]]; reflexivity.
  - left. unfold parse_with.
    rewrite (earlier_rule_rejects j k f parsed0 Hj Hk Es (proj1 Hok) Hy4). reflexivity.
Qed.

(* the full statement of Props/C18.v *)
Theorem dt_full_roundtrip u k x f :
  unit_code u -> (k < 11)%nat -> in_i64 x = true -> x <> i64_min ->
  fields_of_instant u x = Some f ->
  (has_frac k = false -> x mod per_sec u = 0) ->
  (date_only k = true -> x mod (86400 * per_sec u) = 0) ->
  (In k [3; 4; 7; 8]%nat -> 0 <= f_y f <= 9999) ->
  dt_format u (fmt_k k) x = Ok (render (fmt_k k) f) /\
  parse_with u (fmt_k k) (render (fmt_k k) f) = Some x /\
  dt_parse u (render (fmt_k k) f) = Some x.
Proof.
  intros Hu Hk Hx Hnat Hf Hsec Hday Hy.
  assert (Hy4 : y4 k = true -> 0 <= f_y f <= 9999).
  { intros E. apply Hy. do 11 (destruct k as [|k]; [cbn in E |- *; try discriminate; tauto|]). lia. }
  destruct (dt_listed_roundtrip_signed u k x f Hu Hk Hx Hnat Hf Hy4 Hsec Hday) as [Hfmt Hpw].
  split; [exact Hfmt|]. split; [exact Hpw|].
  unfold dt_parse. apply (parse_rules_first u _ x rules k).
  - exact Hk.
  - intros j Hj. apply (earlier_rule_unambiguous u j k x f); assumption.
  - exact Hpw.
Qed.

Print Assumptions dt_full_roundtrip.
