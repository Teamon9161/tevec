(* Proofs/CmpOrd.v — the cached-extreme state machines of Model/Cmp.v for EVERY ordered carrier: any `Num A`
   satisfying Spec/ExtremaOrd.OrdLaws on its non-NaN elements (Section hypotheses, instantiated for Z in
   Proofs/Cmp.v, for option R and binary64 in Proofs/CmpOrdInst.v / CmpOrdFloat.v), any null dictionary
   `IsNone T A` and any series whose valid elements are not NaN.  Maxima are minima of the converse order
   (DirLaws ltb, ltb = nltb or ngtb) — no negation on the carrier is needed.  The state machine itself is
   analysed once, over an abstract null-last comparison (Section Cache).
     - sort_cmp / sort_cmp_rev are the null-last orders gocmp nltb / gocmp ngtb on non-NaN values;
     - no panic, every slot written; after every step the cached (value, index) pair is the LAST position of
       the null-last extreme of the window (glm), the count is the number of valid elements of the window;
     - ts_vmin / ts_vmax = gmin / gmax of the valid window, ts_vargmin / ts_vargmax = 1-based offset of the
       last position holding it; both driver bodies, every window, min_periods, position.
   Stdlib only, axiom-free.                                                                              *)
From Coq Require Import ZArith List Lia Bool.
From Tevec Require Import Base.Prelude Base.Num Model.Driver Proofs.Driver Model.Cmp Proofs.IdxRun
     Spec.ExtremaOrd.
Import ListNotations.

Section Order.
  Context {A : Type} {NA : Num A}.
  Variable ltb : A -> A -> bool.

  Definition gocmp (a b : option A) : comparison :=
    match a, b with
    | Some x, Some y => if ltb x y then Lt else if ltb y x then Gt else Eq
    | None, None => Eq
    | None, Some _ => Gt
    | Some _, None => Lt
    end.
  Definition gole (a b : option A) : Prop := gocmp a b <> Gt.

  Lemma gole_none_some y : ~ gole None (Some y).
  Proof. unfold gole. cbn. intros H. apply H. reflexivity. Qed.
  Lemma gole_any_none a : gole a None.
  Proof. unfold gole. destruct a; cbn; discriminate. Qed.

  Hypothesis DL : DirLaws ltb.

  Lemma gole_some x y : num_ok x -> num_ok y -> (gole (Some x) (Some y) <-> ltb y x = false).
  Proof.
    intros Hx Hy. unfold gole. cbn. destruct (ltb x y) eqn:E1.
    - rewrite (dl_asym DL x y Hx Hy E1). split; intros _; [reflexivity|discriminate].
    - destruct (ltb y x); split; intros H; try reflexivity; try discriminate.
      exfalso. apply H. reflexivity.
  Qed.

  Lemma gole_refl a : okv a -> gole a a.
  Proof.
    destruct a as [x|]; intros Ha; [|apply gole_any_none].
    apply gole_some; [exact Ha|exact Ha|]. apply (dl_irrefl DL). exact Ha.
  Qed.
  Lemma gole_trans a b c : okv a -> okv b -> okv c -> gole a b -> gole b c -> gole a c.
  Proof.
    intros Ha Hb Hc H1 H2. destruct c as [z|]; [|apply gole_any_none].
    destruct b as [y|]; [|exfalso; exact (gole_none_some _ H2)].
    destruct a as [x|]; [|exfalso; exact (gole_none_some _ H1)].
    cbn in Ha, Hb, Hc. apply gole_some in H1; [|assumption|assumption]. apply gole_some in H2; [|assumption|assumption].
    apply gole_some; [assumption|assumption|].
    destruct (ltb z x) eqn:E; [|reflexivity].
    destruct (dl_cotrans DL z x y Hc Ha Hb E) as [H|H]; congruence.
  Qed.
  Lemma not_gole_gole a b : okv a -> okv b -> ~ gole a b -> gole b a.
  Proof.
    intros Ha Hb H. destruct a as [x|]; [|apply gole_any_none].
    destruct b as [y|]; [|exfalso; apply H; apply gole_any_none].
    cbn in Ha, Hb. apply gole_some; [assumption|assumption|].
    destruct (ltb x y) eqn:E; [|reflexivity].
    exfalso. apply H. apply gole_some; [assumption|assumption|]. apply (dl_asym DL); assumption.
  Qed.
  Lemma not_gole_some y x : num_ok y -> num_ok x -> ~ gole (Some y) (Some x) -> ltb x y = true.
  Proof.
    intros Hy Hx H. destruct (ltb x y) eqn:E; [reflexivity|]. exfalso. apply H. apply gole_some; assumption.
  Qed.
End Order.
Arguments gole_some {A NA ltb} DL {x y}.
Arguments gole_refl {A NA ltb} DL a.
Arguments gole_trans {A NA ltb} DL a b c.
Arguments not_gole_gole {A NA ltb} DL a b.
Arguments not_gole_some {A NA ltb} DL {y x}.

(* isnone.rs: sort_cmp / sort_cmp_rev are these orders on non-NaN values *)
Section SortCmp.
  Context {A : Type} {NA : Num A}.
  Hypothesis OL : OrdLaws A.

  Lemma sort_cmp_ord (a b : option A) : okv a -> okv b -> sort_cmp a b = gocmp nltb a b.
  Proof.
    destruct a as [x|], b as [y|]; cbn; try reflexivity. intros Hx Hy. unfold pcmp.
    rewrite (ol_eqb OL x y Hx Hy).
    destruct (nltb x y) eqn:E1; [reflexivity|]. destruct (nltb y x) eqn:E2; reflexivity.
  Qed.

  Lemma sort_cmp_rev_ord (a b : option A) : okv a -> okv b -> sort_cmp_rev a b = gocmp ngtb a b.
  Proof.
    destruct a as [x|], b as [y|]; cbn; try reflexivity. intros Hx Hy. unfold pcmp, ngtb.
    rewrite (ol_eqb OL x y Hx Hy).
    destruct (nltb x y) eqn:E1.
    - rewrite (ol_asym OL x y Hx Hy E1). reflexivity.
    - destruct (nltb y x) eqn:E2; reflexivity.
  Qed.
End SortCmp.

Section ListChar.
  Context {A : Type} {NA : Num A}.
  Variable ltb : A -> A -> bool.
  Hypothesis DL : DirLaws ltb.

  (* position q of W holds a null-last minimum, nothing after it is as small: it is ext_last of the valid part *)
  Lemma ext_last_char : forall (W : list (option A)) q o,
    Forall okv W ->
    nth_error W q = Some o ->
    (forall j oj, nth_error W j = Some oj -> gole ltb o oj) ->
    (forall j oj, q < j -> nth_error W j = Some oj -> ~ gole ltb oj o) ->
    o = ext_last ltb (gvalid W).
  Proof.
    induction W as [|c r IH]; intros q o Hok Hq Hmin Hlast; [destruct q; discriminate|].
    inversion Hok as [|c' r' Hc Hr]; subst c' r'.
    destruct q as [|q].
    - cbn in Hq. injection Hq as <-.
      destruct c as [x|].
      + change (gvalid (Some x :: r)) with (x :: gvalid r). cbn [ext_last].
        destruct (ext_last ltb (gvalid r)) as [m|] eqn:Er; [|reflexivity].
        assert (Hm : In (Some m) r) by (apply In_gvalid; apply ext_last_In with ltb; exact Er).
        destruct (In_nth_error _ _ Hm) as [j Hj].
        assert (Hmok : num_ok m) by (rewrite Forall_forall in Hr; exact (Hr _ Hm)).
        rewrite (not_gole_some DL Hmok Hc (Hlast (S j) (Some m) (Nat.lt_0_succ j) Hj)). reflexivity.
      + destruct r as [|d r]; [reflexivity|]. exfalso.
        apply (Hlast 1 d); [lia|reflexivity|apply gole_any_none].
    - cbn in Hq.
      assert (IHo : o = ext_last ltb (gvalid r)).
      { apply IH with q; [exact Hr|exact Hq| |].
        - intros j oj Hj. apply (Hmin (S j)). exact Hj.
        - intros j oj Hlt Hj. apply (Hlast (S j)); [lia|exact Hj]. }
      destruct c as [x|]; [|exact IHo].
      change (gvalid (Some x :: r)) with (x :: gvalid r). cbn [ext_last]. rewrite <- IHo.
      pose proof (Hmin 0 (Some x) eq_refl) as H0.
      destruct o as [m|]; [|exfalso; exact (gole_none_some _ _ H0)].
      assert (Hmok : num_ok m).
      { assert (Hin : In (Some m) r) by (apply nth_error_In with q; exact Hq).
        rewrite Forall_forall in Hr. exact (Hr _ Hin). }
      apply (gole_some DL Hmok Hc) in H0. rewrite H0. reflexivity.
  Qed.

  Lemma glast_pos_absent m : forall r : list (option A),
    (forall j y, nth_error r j = Some (Some y) -> neqb y m = false) -> glast_pos m r = None.
  Proof.
    induction r as [|b r IH]; intros H; [reflexivity|]. cbn [glast_pos].
    rewrite IH by (intros j y Hj; apply (H (S j)); exact Hj).
    destruct b as [x|]; [|reflexivity]. rewrite (H 0 x eq_refl). reflexivity.
  Qed.

  Lemma glast_pos_char : forall (W : list (option A)) q m,
    Forall okv W ->
    nth_error W q = Some (Some m) ->
    (forall j oj, q < j -> nth_error W j = Some oj -> ~ gole ltb oj (Some m)) ->
    glast_pos m W = Some q.
  Proof.
    induction W as [|c r IH]; intros q m Hok Hq Hlast; [destruct q; discriminate|].
    inversion Hok as [|c' r' Hc Hr]; subst c' r'.
    cbn [glast_pos]. destruct q as [|q].
    - cbn in Hq. injection Hq as ->. cbn in Hc.
      rewrite glast_pos_absent.
      + rewrite (dl_eqb_refl DL m Hc). reflexivity.
      + intros j y Hj.
        assert (Hy : num_ok y).
        { rewrite Forall_forall in Hr. apply (Hr (Some y)). apply nth_error_In with j. exact Hj. }
        apply (dl_lt_neq DL m y Hc Hy).
        apply (not_gole_some DL Hy Hc). apply (Hlast (S j)); [lia|exact Hj].
    - cbn in Hq. rewrite (IH q m Hr Hq); [reflexivity|].
      intros j oj Hlt Hj. apply (Hlast (S j)); [lia|exact Hj].
  Qed.
End ListChar.
Arguments ext_last_char {A NA ltb} DL W q o.
Arguments glast_pos_char {A NA ltb} DL W q m.

Section Positions.
  Context {A : Type} {T : Type} {DT : IsNone T A}.
  Variable xs : list T.

  (* the element at position i as an optional carrier value (None: null, or out of range) *)
  Definition gov (i : nat) : option A := match nth_error xs i with Some v => to_opt v | None => None end.
  Definition govs : list (option A) := map to_opt xs.

  Lemma govs_nth i : nth_error govs i = option_map to_opt (nth_error xs i).
  Proof. unfold govs. apply nth_error_map. Qed.
  Lemma gov_nth i v : nth_error xs i = Some v -> gov i = to_opt v.
  Proof. intros H. unfold gov. rewrite H. reflexivity. Qed.
  Lemma govs_nth_lt i : i < length xs -> nth_error govs i = Some (gov i).
  Proof.
    intros Hi. rewrite govs_nth. unfold gov. destruct (nth_error xs i) eqn:E; [reflexivity|].
    apply nth_error_None in E. lia.
  Qed.

  Definition gisv (v : T) : nat := if not_none v then 1 else 0.
  Lemma g_to_opt_not_none (v : T) : not_none v = match to_opt v with Some _ => true | None => false end.
  Proof. unfold not_none, to_opt. destruct (is_none v); reflexivity. Qed.
  Lemma g_to_opt_valid (v : T) : not_none v = true -> to_opt v = Some (unwrap v).
  Proof. unfold not_none, to_opt. destruct (is_none v); [discriminate|reflexivity]. Qed.
  Lemma g_to_opt_null (v : T) : not_none v = false -> to_opt v = None.
  Proof. unfold not_none, to_opt. destruct (is_none v); [reflexivity|discriminate]. Qed.

  Definition gcount (a b : nat) : nat := length (gvalid (seg a b govs)).

  Lemma gcount_snoc a k v : a <= k -> nth_error xs k = Some v -> gcount a (S k) = gcount a k + gisv v.
  Proof.
    intros Hak Hv. unfold gcount.
    rewrite (@seg_snoc _ a k govs (to_opt v)); [|exact Hak|rewrite govs_nth, Hv; reflexivity].
    rewrite gvalid_app, app_length. f_equal. unfold gisv. rewrite g_to_opt_not_none.
    destruct (to_opt v); reflexivity.
  Qed.
  Lemma gcount_cons a b v0 : a < b -> nth_error xs a = Some v0 -> gcount a b = gisv v0 + gcount (S a) b.
  Proof.
    intros Hab Hv. unfold gcount.
    rewrite (@seg_cons _ a b govs (to_opt v0)); [|exact Hab|rewrite govs_nth, Hv; reflexivity].
    change (to_opt v0 :: seg (S a) b govs) with ([to_opt v0] ++ seg (S a) b govs).
    rewrite gvalid_app, app_length. f_equal. unfold gisv. rewrite g_to_opt_not_none.
    destruct (to_opt v0); reflexivity.
  Qed.
  Lemma gcount_nil a : gcount a a = 0.
  Proof. unfold gcount. rewrite seg_nil. reflexivity. Qed.

  (* the window of position k against the next one: the element at the start index, if the driver passes one,
     is the only one that leaves — what `if start.is_some() && uget(start).not_none() { n -= 1 }` undoes *)
  Lemma leave_count wd k : 1 <= wd -> k < length xs ->
    match start_of wd k with
    | None => gcount (wstart wd k) (S k) = gcount (wstart wd (S k)) (S k)
    | Some st => exists v0, nth_error xs st = Some v0 /\
                   gcount (wstart wd k) (S k) = gisv v0 + gcount (wstart wd (S k)) (S k)
    end.
  Proof.
    intros Hwd Hk. destruct (start_of_cases wd k Hwd) as [(_ & -> & -> & ->)|(Hge & -> & ->)]; [reflexivity|].
    destruct (nth_error_Some_lt xs (wstart wd k)) as [v0 Hv0]; [unfold wstart; lia|].
    exists v0. split; [exact Hv0|]. apply gcount_cons; [unfold wstart; lia|exact Hv0].
  Qed.
End Positions.

(* the premise on the series: its valid elements are not NaN (automatic for the float-like dictionary, where
   NaN IS the null, and for carriers without NaN) *)
Definition valid_not_nan {A} {NA : Num A} {T} {DT : IsNone T A} (xs : list T) : Prop :=
  forall v, In v xs -> is_none v = false -> nisnan (unwrap v) = false.

Lemma valid_not_nan_okv {A} {NA : Num A} {T} {DT : IsNone T A} (xs : list T) :
  valid_not_nan xs -> forall v, In v xs -> okv (to_opt v).
Proof.
  intros H v Hv. unfold to_opt. destruct (is_none v) eqn:E; [exact I|]. cbn. apply H; assumption.
Qed.

Lemma takes_le c : takes c = true <-> c <> Gt.
Proof. destruct c; cbn; split; intros H; try reflexivity; try discriminate; congruence. Qed.
Lemma takes_not_le c : takes c = false <-> ~ c <> Gt.
Proof. rewrite <- takes_le. destruct (takes c); split; intros H; congruence. Qed.

(* The state machine, over an abstract null-last comparison: cmpX is the comparison in which the cache is kept
   (gocmp ltb below; the integer order under a key in Proofs/Cmp.v), `cmpX a b <> Gt` its "a is not after b".  All that is used: on the admissible values (ok) this
   is a total preorder, and the code's comparison scmp agrees with cmpX there. *)
Section Cache.
  Context {A T : Type} {DT : IsNone T A}.
  Variable cmpX : option A -> option A -> comparison.
  Variable ok : option A -> Prop.
  Hypothesis ok_none : ok None.
  Hypothesis le_refl : forall a, ok a -> cmpX a a <> Gt.
  Hypothesis le_trans : forall a b c, ok a -> ok b -> ok c -> cmpX a b <> Gt -> cmpX b c <> Gt -> cmpX a c <> Gt.
  Hypothesis le_total : forall a b, ok a -> ok b -> ~ cmpX a b <> Gt -> cmpX b a <> Gt.
  Variable scmp : option A -> option A -> comparison.
  Hypothesis scmp_ok : forall a b, ok a -> ok b -> scmp a b = cmpX a b.
  Variable xs : list T.
  Hypothesis Hxs : forall v, In v xs -> ok (to_opt v).

  Notation gov := (gov xs).
  Notation gcount := (gcount xs).

  Lemma nth_ok i v : nth_error xs i = Some v -> ok (to_opt v).
  Proof. intros H. apply Hxs. apply nth_error_In with i. exact H. Qed.
  Lemma gov_ok i : ok (gov i).
  Proof. unfold CmpOrd.gov. destruct (nth_error xs i) eqn:E; [apply (nth_ok i); exact E|exact ok_none]. Qed.

  (* p is the LAST position of the null-last minimum of the positions [a, b) *)
  Definition clm (a b p : nat) : Prop :=
    a <= p < b /\ (forall j, a <= j < b -> cmpX (gov p) (gov j) <> Gt) /\
    (forall j, p < j < b -> ~ cmpX (gov j) (gov p) <> Gt).

  Lemma clm_single i : clm i (S i) i.
  Proof. split; [lia|]. split; intros j Hj; [replace j with i by lia; apply le_refl, gov_ok|lia]. Qed.
  Lemma clm_drop a a' b p : clm a b p -> a <= a' <= p -> clm a' b p.
  Proof. intros (H1 & H2 & H3) Ha. split; [lia|]. split; intros j Hj; [apply H2|apply H3]; lia. Qed.
  Lemma clm_snoc_take a i p : clm a i p -> cmpX (gov i) (gov p) <> Gt -> clm a (S i) i.
  Proof.
    intros (H1 & H2 & H3) Hle. split; [lia|]. split; intros j Hj; [|lia].
    destruct (Nat.eq_dec j i) as [->|Hne]; [apply le_refl, gov_ok|].
    apply le_trans with (gov p); try apply gov_ok; [exact Hle|apply H2; lia].
  Qed.
  Lemma clm_snoc_keep a i p : clm a i p -> ~ cmpX (gov i) (gov p) <> Gt -> clm a (S i) p.
  Proof.
    intros (H1 & H2 & H3) Hn. split; [lia|]. split; intros j Hj.
    - destruct (Nat.eq_dec j i) as [->|Hne]; [apply le_total; try apply gov_ok; exact Hn|apply H2; lia].
    - destruct (Nat.eq_dec j i) as [->|Hne]; [exact Hn|apply H3; lia].
  Qed.

  (* `Less | Equal => take the newcomer`: either way the last minimum of [a, i) becomes one of [a, S i) *)
  Lemma take_or_keep a i p v : nth_error xs i = Some v -> clm a i p ->
    (takes (scmp (to_opt v) (gov p)) = true /\ clm a (S i) i) \/
    (takes (scmp (to_opt v) (gov p)) = false /\ clm a (S i) p).
  Proof.
    intros Hv Hlm. rewrite scmp_ok by (apply (nth_ok i v Hv) || apply gov_ok).
    rewrite <- (gov_nth xs i v Hv). destruct (takes (cmpX (gov i) (gov p))) eqn:E; [left|right]; (split; [reflexivity|]).
    - apply takes_le in E. apply clm_snoc_take with p; assumption.
    - apply takes_not_le in E. apply clm_snoc_keep; assumption.
  Qed.

  (* the rescan loop continues a last-minimum of [a, i) to one of [a, i + cnt) *)
  Lemma rescan_from : forall cnt i p a,
    clm a i p -> i + cnt <= length xs ->
    exists p', rescan scmp xs i cnt (gov p) (Some p) = Ok (gov p', Some p') /\ clm a (i + cnt) p'.
  Proof.
    induction cnt as [|cnt IH]; intros i p a Hlm Hlen.
    - exists p. rewrite Nat.add_0_r. split; [reflexivity|exact Hlm].
    - destruct (nth_error_Some_lt xs i) as [v Hv]; [lia|].
      cbn [rescan]. rewrite (uget_nth xs i v Hv). cbn [bind]. replace (i + S cnt) with (S i + cnt) by lia.
      destruct (take_or_keep a i p v Hv Hlm) as [[-> Hl]|[-> Hl]].
      + rewrite <- (gov_nth xs i v Hv). apply IH; [exact Hl|lia].
      + apply IH; [exact Hl|lia].
  Qed.

  (* the whole re-search: min = uget(start); for i in start..=end *)
  Lemma rescan_spec st e v0 mi :
    st <= e -> e < length xs -> nth_error xs st = Some v0 ->
    exists p', rescan scmp xs st (S e - st) (to_opt v0) mi = Ok (gov p', Some p') /\ clm st (S e) p'.
  Proof.
    intros Hse He Hv0. replace (S e - st) with (S (e - st)) by lia.
    cbn [rescan]. rewrite (uget_nth xs st v0 Hv0). cbn [bind].
    rewrite scmp_ok, (proj2 (takes_le _) (le_refl _ (nth_ok st v0 Hv0))) by (apply (nth_ok st); exact Hv0).
    rewrite <- (gov_nth xs st v0 Hv0).
    destruct (rescan_from (e - st) (S st) st st (clm_single st)) as (p' & H1 & H2); [lia|].
    exists p'. split; [exact H1|]. replace (S e) with (S st + (e - st)) by lia. exact H2.
  Qed.

  Definition cached (a b : nat) (s : ext) : Prop :=
    exists p, x_idx s = Some p /\ x_val s = gov p /\ clm a b p.

  Lemma cached_intro a b val p n : val = gov p -> clm a b p -> cached a b {| x_val := val; x_idx := Some p; x_n := n |}.
  Proof. intros H1 H2. exists p. auto. Qed.

  (* the comparison of the newcomer v at k with a cache that describes [a, k) *)
  Lemma compare_newcomer a k v s1 : nth_error xs k = Some v -> cached a k s1 ->
    exists s2, (if takes (scmp (to_opt v) (x_val s1))
                then Ok {| x_val := to_opt v; x_idx := Some k; x_n := x_n s1 |} else Ok s1) = Ok s2 /\
               x_n s2 = x_n s1 /\ cached a (S k) s2.
  Proof.
    intros Hv (p & Hi & Hval & Hlm). rewrite Hval.
    destruct (take_or_keep a k p v Hv Hlm) as [[-> Hl]|[-> Hl]]; eexists; (split; [reflexivity|]); (split; [reflexivity|]).
    - apply cached_intro; [symmetry; apply gov_nth; exact Hv|exact Hl].
    - exists p. auto.
  Qed.

  Section Window.
  Variable wd : nat.
  Hypothesis Hwd : 1 <= wd.

  (* state before step k: the count is that of the positions the window of k keeps, the cache is the last
     extreme of the window of k - 1 *)
  Definition CPre (k : nat) (s : ext) : Prop :=
    x_n s = gcount (wstart wd k) k /\
    ((k = 0 /\ x_val s = None /\ x_idx s = None) \/
     (0 < k /\ exists p, x_idx s = Some p /\ x_val s = gov p /\ clm (wstart wd (k - 1)) k p)).

  (* state at emit time of step k *)
  Definition CMid (k : nat) (s : ext) : Prop :=
    x_n s = gcount (wstart wd k) (S k) /\ cached (wstart wd k) (S k) s.

  Lemma ext_step_spec k v s :
    nth_error xs k = Some v -> CPre k s ->
    exists s1, ext_step scmp xs s (start_of wd k) k v = Ok s1 /\ CMid k s1.
  Proof.
    intros Hv [Hn Hst].
    assert (Hk : k < length xs) by (apply nth_error_Some; congruence).
    pose proof (nth_ok k v Hv) as Hvok.
    unfold ext_step.
    (* the state after counting the newcomer *)
    set (s1 := match to_opt v with
               | Some _ => match x_idx s with
                           | None => {| x_val := to_opt v; x_idx := Some k; x_n := S (x_n s) |}
                           | Some _ => {| x_val := x_val s; x_idx := x_idx s; x_n := S (x_n s) |}
                           end
               | None => s end).
    assert (Hn1 : x_n s1 = gcount (wstart wd k) (S k)).
    { rewrite (gcount_snoc xs (wstart wd k) k v), <- Hn by (exact Hv || (unfold wstart; lia)).
      unfold s1, gisv. rewrite g_to_opt_not_none.
      destruct (to_opt v); [destruct (x_idx s); cbn; lia|lia]. }
    destruct Hst as [(-> & Hval & Hidx)|(Hk0 & Hc)].
    - (* first step: start is None or Some 0, the window is [0, 1) *)
      assert (Hw0 : wstart wd 0 = 0) by (unfold wstart; lia).
      assert (Hlm0 : forall val, val = to_opt v -> CMid 0 {| x_val := val; x_idx := Some 0; x_n := x_n s1 |}).
      { intros val ->. split; [exact Hn1|]. rewrite Hw0.
        apply cached_intro; [symmetry; apply gov_nth; exact Hv|apply clm_single]. }
      destruct (start_of_cases wd 0 Hwd) as [(_ & -> & _)|(_ & -> & _)]; rewrite ?Hw0.
      + (* no start index: the newcomer is compared with the cache, which is the newcomer itself or null *)
        replace (opt_lt (x_idx s1) None) with false by (destruct (x_idx s1); reflexivity).
        assert (Ht : takes (scmp (to_opt v) (x_val s1)) = true).
        { replace (x_val s1) with (to_opt v) by (unfold s1; destruct (to_opt v); [rewrite Hidx|rewrite Hval]; reflexivity).
          rewrite scmp_ok by exact Hvok. apply takes_le, le_refl, Hvok. }
        rewrite Ht. eexists. split; [reflexivity|]. apply Hlm0. reflexivity.
      + destruct (to_opt v) as [x|] eqn:Ev.
        * assert (Hs1 : s1 = {| x_val := Some x; x_idx := Some 0; x_n := S (x_n s) |})
            by (unfold s1; rewrite Hidx; reflexivity).
          rewrite Hs1 in Hlm0 |- *. cbn [x_idx x_val x_n opt_lt Nat.ltb Nat.leb] in Hlm0 |- *.
          destruct (takes (scmp (Some x) (Some x))); eexists; (split; [reflexivity|]); apply Hlm0; reflexivity.
        * assert (Hs1 : s1 = s) by reflexivity. rewrite Hs1 in Hn1, Hlm0 |- *. rewrite Hidx. cbn [opt_lt].
          rewrite (uget_nth xs 0 v Hv). cbn [bind].
          destruct (rescan_spec 0 0 v None (le_n 0) Hk Hv) as (p' & Hr & Hlm).
          cbn [Nat.sub] in Hr |- *. rewrite Hr. cbn [bind fst snd].
          eexists. split; [reflexivity|]. split; [exact Hn1|]. rewrite Hw0. apply cached_intro; [reflexivity|exact Hlm].
    - (* later steps: the cache describes the previous window; counting the newcomer does not touch it *)
      destruct Hc as (p & Hidx & Hval & Hlm).
      assert (Hs1 : x_idx s1 = Some p /\ x_val s1 = gov p)
        by (unfold s1; destruct (to_opt v); [rewrite Hidx|]; cbn [x_val x_idx]; auto).
      destruct Hs1 as [Hi1 Hv1]. rewrite Hi1.
      assert (Hcmp : forall a, wstart wd (k - 1) <= a <= p -> wstart wd k = a ->
                exists s2, (if takes (scmp (to_opt v) (x_val s1))
                            then Ok {| x_val := to_opt v; x_idx := Some k; x_n := x_n s1 |} else Ok s1) = Ok s2 /\
                           CMid k s2).
      { intros a Ha Hwa.
        destruct (compare_newcomer a k v s1 Hv) as (s2 & Hs2 & Hn2 & Hc2).
        - exists p. split; [exact Hi1|]. split; [exact Hv1|]. apply clm_drop with (wstart wd (k - 1)); assumption.
        - exists s2. split; [exact Hs2|]. split; [rewrite Hn2; exact Hn1|rewrite Hwa; exact Hc2]. }
      destruct (start_of_cases wd k Hwd) as [(Ew & -> & H0 & _)|(Ew & -> & _)]; cbn [opt_lt].
      + (* warm-up: no start index, the window still starts at 0 *)
        apply (Hcmp 0); [|exact H0]. destruct Hlm as (Hp & _). unfold wstart in *. lia.
      + destruct (Nat.ltb_spec p (wstart wd k)) as [Ep|Ep].
        * (* the cached extreme has expired: full re-search *)
          destruct (nth_error_Some_lt xs (wstart wd k)) as [v0 Hv0]; [unfold wstart; lia|].
          rewrite (uget_nth _ _ _ Hv0). cbn [bind].
          destruct (rescan_spec (wstart wd k) k v0 (Some p)) as (p' & Hr & Hl);
            [unfold wstart; lia|exact Hk|exact Hv0|].
          rewrite Hr. cbn [bind fst snd].
          eexists. split; [reflexivity|]. split; [exact Hn1|]. apply cached_intro; [reflexivity|exact Hl].
        * apply (Hcmp (wstart wd k)); [|reflexivity]. split; [unfold wstart; lia|exact Ep].
  Qed.

  Lemma ext_post_spec k s1 :
    k < length xs -> CMid k s1 ->
    exists s2, ext_post xs s1 (start_of wd k) = Ok s2 /\ CPre (S k) s2.
  Proof.
    intros Hk (Hn & Hc).
    assert (Hpre : forall s2, x_idx s2 = x_idx s1 -> x_val s2 = x_val s1 ->
                     x_n s2 = gcount (wstart wd (S k)) (S k) -> CPre (S k) s2).
    { intros s2 E1 E2 E3. split; [exact E3|]. right. split; [lia|].
      rewrite E1, E2. cbn [Nat.sub]. rewrite Nat.sub_0_r. exact Hc. }
    unfold ext_post. pose proof (leave_count xs wd k Hwd Hk) as HL. destruct (start_of wd k) as [st|].
    - destruct HL as (v0 & Hv0 & Hc0). rewrite (uget_nth _ _ _ Hv0). cbn [bind]. unfold gisv in Hc0.
      destruct (not_none v0).
      + rewrite usub_ok by lia. cbn [bind]. eexists. split; [reflexivity|].
        apply Hpre; cbn [x_n x_idx x_val]; try reflexivity. lia.
      + exists s1. split; [reflexivity|]. apply Hpre; try reflexivity. lia.
    - exists s1. split; [reflexivity|]. apply Hpre; try reflexivity. lia.
  Qed.

  Lemma CPre_init : CPre 0 ext0.
  Proof.
    assert (H0 : wstart wd 0 = 0) by (unfold wstart; lia).
    split; [rewrite H0, gcount_nil; reflexivity|]. left. auto.
  Qed.

  Variable mp : nat.

  Definition COutVal (k : nat) (o : option A) : Prop :=
    exists p, clm (wstart wd k) (S k) p /\
              o = if mp <=? gcount (wstart wd k) (S k) then gov p else None.
  Definition COutArg (k : nat) (o : option nat) : Prop :=
    exists p, clm (wstart wd k) (S k) p /\
              o = if (mp <=? gcount (wstart wd k) (S k)) && (match gov p with Some _ => true | None => false end)
                  then Some (p - wstart wd k + 1) else None.

  Lemma vext_cb_step k v s :
    nth_error xs k = Some v -> CPre k s ->
    exists s' o, vext_cb scmp mp xs s (start_of wd k, k, v) = Ok (s', o) /\ CPre (S k) s' /\ COutVal k o.
  Proof.
    intros Hv HP.
    assert (Hk : k < length xs) by (apply nth_error_Some; congruence).
    destruct (ext_step_spec k v s Hv HP) as (s1 & Hs1 & HM).
    destruct (ext_post_spec k s1 Hk HM) as (s2 & Hs2 & HP2).
    unfold vext_cb. rewrite Hs1. cbn [bind]. rewrite Hs2. cbn [bind].
    eexists. eexists. split; [reflexivity|]. split; [exact HP2|].
    destruct HM as (Hn & p & Hi & Hval & Hlm). exists p. split; [exact Hlm|]. rewrite Hn, Hval. reflexivity.
  Qed.

  Lemma varg_cb_step k v s :
    nth_error xs k = Some v -> CPre k s ->
    exists s' o, varg_cb scmp mp xs s (start_of wd k, k, v) = Ok (s', o) /\ CPre (S k) s' /\ COutArg k o.
  Proof.
    intros Hv HP.
    assert (Hk : k < length xs) by (apply nth_error_Some; congruence).
    destruct (ext_step_spec k v s Hv HP) as (s1 & Hs1 & HM).
    destruct (ext_post_spec k s1 Hk HM) as (s2 & Hs2 & HP2).
    unfold varg_cb. rewrite Hs1. cbn [bind].
    destruct HM as (Hn & p & Hi & Hval & Hlm). rewrite Hn, Hval, Hi, (start_of_or_0 wd k Hwd).
    assert (Ho : exists o, (if (mp <=? gcount (wstart wd k) (S k)) && match gov p with Some _ => true | None => false end
                            then do d <- usub p (wstart wd k); Ok (Some (d + 1)) else Ok None) = Ok o /\ COutArg k o).
    { eexists. split; [|exists p; split; [exact Hlm|reflexivity]].
      destruct (_ && _); [|reflexivity]. rewrite usub_ok by (destruct Hlm; lia). reflexivity. }
    destruct Ho as (o & -> & Ho). cbn [bind]. rewrite Hs2. cbn [bind].
    eexists. eexists. split; [reflexivity|]. split; [exact HP2|exact Ho].
  Qed.
  End Window.

  Lemma ts_vext_inv body w mp :
    1 <= w -> 1 <= length xs ->
    exists out, ts_vext scmp body w mp xs = Done out /\ length out = length xs /\
      forall i o, nth_error out i = Some o -> COutVal (cmp_window w xs) (cmp_mp mp (cmp_window w xs)) i o.
  Proof.
    intros Hw Hlen. assert (Hwd : 1 <= cmp_window w xs) by (unfold cmp_window; lia).
    apply cmp_run_spec with (Pre := CPre (cmp_window w xs)); [exact Hw|exact Hlen|apply CPre_init; exact Hwd|].
    intros k v s. apply vext_cb_step. exact Hwd.
  Qed.

  Lemma ts_varg_inv body w mp :
    1 <= w -> 1 <= length xs ->
    exists out, ts_varg scmp body w mp xs = Done out /\ length out = length xs /\
      forall i o, nth_error out i = Some o -> COutArg (cmp_window w xs) (cmp_mp mp (cmp_window w xs)) i o.
  Proof.
    intros Hw Hlen. assert (Hwd : 1 <= cmp_window w xs) by (unfold cmp_window; lia).
    apply cmp_run_spec with (Pre := CPre (cmp_window w xs)); [exact Hw|exact Hlen|apply CPre_init; exact Hwd|].
    intros k v s. apply varg_cb_step. exact Hwd.
  Qed.

  (* the invariant as a statement about the state BETWEEN the steps: after k steps (k <= len) of either extreme
     function the count is that of the positions the next window keeps, and the cache is the last extreme
     position of the window just left *)
  Theorem ext_cache_invariant w mp k :
    1 <= w -> 1 <= length xs -> k <= length xs ->
    let wd := cmp_window w xs in
    exists s,
      state_after (lift_cb (vext_cb scmp (cmp_mp mp wd) xs)) (Ok ext0)
                  (firstn k (mapi (fun i v => (start_of wd i, i, v)) xs)) = Ok s /\
      CPre wd k s.
  Proof.
    intros Hw Hlen Hk wd.
    assert (Hwd : 1 <= wd) by (unfold wd, cmp_window; lia).
    apply (state_lift (vext_cb scmp (cmp_mp mp wd) xs) xs (start_of wd) (CPre wd) (COutVal wd (cmp_mp mp wd))).
    - intros j v s. apply vext_cb_step. exact Hwd.
    - apply CPre_init. exact Hwd.
    - exact Hk.
  Qed.
End Cache.

(* "fresh or stale": before step k the cached index is either inside the new window — then it is still the last
   extreme of what remains of it — or strictly before its start, which is exactly the expiry test.  No law is
   needed: it is arithmetic on the cached index. *)
Lemma cache_fresh_or_stale {A T} {DT : IsNone T A} (cmpX : option A -> option A -> comparison) (xs : list T) wd k s :
  1 <= wd -> 0 < k -> CPre cmpX xs wd k s ->
  exists p, x_idx s = Some p /\ x_val s = gov xs p /\
            ((wstart wd k <= p /\ clm cmpX xs (wstart wd k) k p) \/
             (p < wstart wd k /\ opt_lt (x_idx s) (start_of wd k) = true)).
Proof.
  intros Hwd Hk [_ [(H0 & _)|(_ & p & Hi & Hv & Hlm)]]; [lia|].
  exists p. split; [exact Hi|]. split; [exact Hv|].
  destruct (Nat.le_gt_cases (wstart wd k) p) as [Hle|Hgt].
  - left. split; [exact Hle|]. apply clm_drop with (wstart wd (k - 1)); [exact Hlm|].
    split; [unfold wstart; lia|exact Hle].
  - right. split; [exact Hgt|]. rewrite Hi.
    destruct (start_of_cases wd k Hwd) as [(_ & _ & H0 & _)|(_ & -> & _)]; [lia|].
    apply Nat.ltb_lt. exact Hgt.
Qed.

Section ExtG.
  Context {A : Type} {NA : Num A} {T : Type} {DT : IsNone T A}.
  Variable ltb : A -> A -> bool.
  Variable xs : list T.
  Notation gov := (gov xs).
  Notation govs := (govs xs).
  Notation gcount := (gcount xs).

  (* p is the LAST position of the null-last minimum (in direction ltb) of the positions [a, b) *)
  Definition glm (a b p : nat) : Prop :=
    a <= p < b /\ (forall j, a <= j < b -> gole ltb (gov p) (gov j)) /\
    (forall j, p < j < b -> ~ gole ltb (gov j) (gov p)).

  Variable wd : nat.

  Definition GPre (k : nat) (s : ext) : Prop :=
    x_n s = gcount (wstart wd k) k /\
    ((k = 0 /\ x_val s = None /\ x_idx s = None) \/
     (0 < k /\ exists p, x_idx s = Some p /\ x_val s = gov p /\ glm (wstart wd (k - 1)) k p)).

  Hypothesis DL : DirLaws ltb.
  Hypothesis Hxs : forall v, In v xs -> okv (to_opt v).

  Lemma seg_ok a b : Forall okv (seg a b govs).
  Proof.
    apply Forall_forall. intros o Ho. apply In_nth_error in Ho. destruct Ho as [n Hn].
    rewrite nth_error_seg in Hn. destruct (n <? b - a); [|discriminate].
    rewrite govs_nth in Hn. destruct (nth_error xs (a + n)) as [v|] eqn:E; [|discriminate].
    injection Hn as <-. apply Hxs. apply nth_error_In with (a + n). exact E.
  Qed.

  Lemma glm_window_facts a b p : b <= length xs -> glm a b p ->
    let W := seg a b govs in
    nth_error W (p - a) = Some (gov p) /\
    (forall j oj, nth_error W j = Some oj -> gole ltb (gov p) oj) /\
    (forall j oj, p - a < j -> nth_error W j = Some oj -> ~ gole ltb oj (gov p)).
  Proof.
    intros Hb (Hp & Hmin & Hlast) W. unfold W. split; [|split].
    - rewrite nth_error_seg.
      rewrite (ltb_true (p - a) (b - a)) by lia.
      replace (a + (p - a)) with p by lia. apply govs_nth_lt. lia.
    - intros j oj Hj. rewrite nth_error_seg in Hj. destruct (j <? b - a) eqn:E; [|discriminate].
      apply Nat.ltb_lt in E. rewrite govs_nth_lt in Hj by lia. injection Hj as <-. apply Hmin. lia.
    - intros j oj Hlt Hj. rewrite nth_error_seg in Hj. destruct (j <? b - a) eqn:E; [|discriminate].
      apply Nat.ltb_lt in E. rewrite govs_nth_lt in Hj by lia. injection Hj as <-. apply Hlast. lia.
  Qed.

  Lemma glm_ext_last a b p : b <= length xs -> glm a b p ->
    gov p = ext_last ltb (gvalid (seg a b govs)).
  Proof.
    intros Hb Hlm. destruct (glm_window_facts a b p Hb Hlm) as (H1 & H2 & H3).
    apply (ext_last_char DL) with (q := p - a); [apply seg_ok|exact H1|exact H2|exact H3].
  Qed.

  Lemma glm_last_pos a b p m : b <= length xs -> glm a b p -> gov p = Some m ->
    glast_pos m (seg a b govs) = Some (p - a).
  Proof.
    intros Hb Hlm Em. destruct (glm_window_facts a b p Hb Hlm) as (H1 & _ & H3). rewrite Em in H1, H3.
    apply (glast_pos_char DL); [apply seg_ok|exact H1|exact H3].
  Qed.
End ExtG.
Arguments glm_ext_last {A NA T DT ltb} xs DL Hxs a b p.
Arguments glm_last_pos {A NA T DT ltb} xs DL Hxs a b p m.

Section Entry.
  Context {A : Type} {NA : Num A} {T : Type} {DT : IsNone T A}.
  Variable ltb : A -> A -> bool.
  Hypothesis DL : DirLaws ltb.
  Variable scmp : option A -> option A -> comparison.
  Hypothesis scmp_ok : forall a b, okv a -> okv b -> scmp a b = gocmp ltb a b.

  (* the abstract machine at cmpX := gocmp ltb; its predicates are then glm / GPre up to unfolding gole *)
  Definition g_ts_vext_inv := ts_vext_inv (gocmp ltb) okv I (gole_refl DL) (gole_trans DL) (not_gole_gole DL) scmp scmp_ok.
  Definition g_ts_varg_inv := ts_varg_inv (gocmp ltb) okv I (gole_refl DL) (gole_trans DL) (not_gole_gole DL) scmp scmp_ok.

  Theorem g_ext_cache_invariant w mp (xs : list T) k :
    (forall v, In v xs -> okv (to_opt v)) ->
    1 <= w -> 1 <= length xs -> k <= length xs ->
    let wd := cmp_window w xs in
    exists s,
      state_after (lift_cb (vext_cb scmp (cmp_mp mp wd) xs)) (Ok ext0)
                  (firstn k (mapi (fun i v => (start_of wd i, i, v)) xs)) = Ok s /\
      GPre ltb xs wd k s.
  Proof.
    intros Hxs.
    exact (ext_cache_invariant (gocmp ltb) okv I (gole_refl DL) (gole_trans DL) (not_gole_gole DL) scmp scmp_ok xs Hxs w mp k).
  Qed.

  (* value form: output i = the extreme (direction ltb) of the valid window, masked *)
  Lemma g_ts_vext_spec body w mp (xs : list T) :
    (forall v, In v xs -> okv (to_opt v)) ->
    1 <= w -> 1 <= length xs ->
    exists out, ts_vext scmp body w mp xs = Done out /\ length out = length xs /\
      forall i, i < length xs ->
        nth_error out i =
        Some (let V := gvalid (win w i (map to_opt xs)) in
              if cmp_mp mp (cmp_window w xs) <=? length V then ext_last ltb V else None).
  Proof.
    intros Hxs Hw Hlen.
    destruct (g_ts_vext_inv xs Hxs body w mp Hw Hlen) as (out & H1 & H2 & H3).
    exists out. split; [exact H1|]. split; [exact H2|].
    apply nth_from_rel with (1 := H2) (2 := H3).
    intros i o Hi (p & Hlm & ->). cbv zeta. rewrite win_seg. unfold cmp_window in *.
    rewrite wstart_clamp in * by exact Hi. unfold gcount. fold (govs xs).
    rewrite (glm_ext_last xs DL Hxs _ _ _ (proj1 (Nat.le_succ_l i (length xs)) Hi) Hlm). reflexivity.
  Qed.

  Lemma g_ts_varg_spec body w mp (xs : list T) :
    (forall v, In v xs -> okv (to_opt v)) ->
    1 <= w -> 1 <= length xs ->
    exists out, ts_varg scmp body w mp xs = Done out /\ length out = length xs /\
      forall i, i < length xs ->
        nth_error out i =
        Some (let W := win w i (map to_opt xs) in
              if cmp_mp mp (cmp_window w xs) <=? length (gvalid W) then
                match ext_last ltb (gvalid W) with
                | Some m => option_map S (glast_pos m W)
                | None => None
                end
              else None).
  Proof.
    intros Hxs Hw Hlen.
    destruct (g_ts_varg_inv xs Hxs body w mp Hw Hlen) as (out & H1 & H2 & H3).
    exists out. split; [exact H1|]. split; [exact H2|].
    apply nth_from_rel with (1 := H2) (2 := H3).
    intros i o Hi (p & Hlm & ->). cbv zeta. rewrite win_seg. unfold cmp_window in *.
    rewrite wstart_clamp in * by exact Hi. unfold gcount. fold (govs xs).
    assert (Hb : S i <= length xs) by lia.
    rewrite <- (glm_ext_last xs DL Hxs _ _ _ Hb Hlm).
    destruct (cmp_mp mp (Nat.min (length xs) w) <=? length (gvalid (seg (wstart w i) (S i) (govs xs))));
      [|reflexivity]. cbn [andb].
    destruct (gov xs p) as [m|] eqn:Em; [|reflexivity].
    rewrite (glm_last_pos xs DL Hxs _ _ _ _ Hb Hlm Em). cbn [option_map]. f_equal. lia.
  Qed.
End Entry.

Section Final.
  Context {A : Type} {NA : Num A} {T : Type} {DT : IsNone T A}.
  Hypothesis OL : OrdLaws A.

  Theorem ts_vmin_ord body w mp (xs : list T) :
    valid_not_nan xs -> 1 <= w -> 1 <= length xs ->
    exists out, ts_vmin body w mp xs = Done out /\ length out = length xs /\
      forall i, i < length xs ->
        nth_error out i =
        Some (let V := gvalid (win w i (map to_opt xs)) in
              if cmp_mp mp (cmp_window w xs) <=? length V then gmin V else None).
  Proof.
    intros Hxs. apply (g_ts_vext_spec _ (dir_lt OL) _ (sort_cmp_ord OL)). apply valid_not_nan_okv. exact Hxs.
  Qed.

  Theorem ts_vmax_ord body w mp (xs : list T) :
    valid_not_nan xs -> 1 <= w -> 1 <= length xs ->
    exists out, ts_vmax body w mp xs = Done out /\ length out = length xs /\
      forall i, i < length xs ->
        nth_error out i =
        Some (let V := gvalid (win w i (map to_opt xs)) in
              if cmp_mp mp (cmp_window w xs) <=? length V then gmax V else None).
  Proof.
    intros Hxs. apply (g_ts_vext_spec _ (dir_gt OL) _ (sort_cmp_rev_ord OL)). apply valid_not_nan_okv. exact Hxs.
  Qed.

  Theorem ts_vargmin_ord body w mp (xs : list T) :
    valid_not_nan xs -> 1 <= w -> 1 <= length xs ->
    exists out, ts_vargmin body w mp xs = Done out /\ length out = length xs /\
      forall i, i < length xs ->
        nth_error out i =
        Some (let W := win w i (map to_opt xs) in
              if cmp_mp mp (cmp_window w xs) <=? length (gvalid W) then gargmin_spec W else None).
  Proof.
    intros Hxs. apply (g_ts_varg_spec _ (dir_lt OL) _ (sort_cmp_ord OL)). apply valid_not_nan_okv. exact Hxs.
  Qed.

  Theorem ts_vargmax_ord body w mp (xs : list T) :
    valid_not_nan xs -> 1 <= w -> 1 <= length xs ->
    exists out, ts_vargmax body w mp xs = Done out /\ length out = length xs /\
      forall i, i < length xs ->
        nth_error out i =
        Some (let W := win w i (map to_opt xs) in
              if cmp_mp mp (cmp_window w xs) <=? length (gvalid W) then gargmax_spec W else None).
  Proof.
    intros Hxs. apply (g_ts_varg_spec _ (dir_gt OL) _ (sort_cmp_rev_ord OL)). apply valid_not_nan_okv. exact Hxs.
  Qed.
End Final.
