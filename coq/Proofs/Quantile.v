(* Proofs/Quantile.v — vquantile / vmedian / vpercentile_of at XR equal the textbook definitions. *)
From Coq Require Import Reals Lra Lia List Sorting Permutation ZArith Bool.
From Tevec Require Import Base.Prelude Base.Num Base.XR Spec.Stats Model.SortCmp Model.Quantile
     Proofs.SortCmp Proofs.OrderXR Proofs.Audit12.
Import ListNotations.
Local Open Scope R_scope.

(* value at fractional index h = (n-1) q of the ascending arrangement s of the valid elements *)
Definition quantile_spec (s : list R) (q : R) (m : qmethod) : R :=
  let h := INR (length s - 1) * q in
  let lo := nth (Z.to_nat (Rfloor h)) s 0 in
  let hi := nth (Z.to_nat (Rceil h)) s 0 in
  match m with
  | Linear => lo + (hi - lo) * (h - IZR (Rfloor h))
  | Lower => lo
  | Higher => hi
  | MidPoint => (lo + hi) / 2
  end.

Lemma count_valid_nv (xs : list XR) : count_valid (DT := IsNoneXR) xs = nv xs.
Proof.
  unfold count_valid, nv. induction xs as [|[x|] xs IH]; cbn; try fold (valid xs); [reflexivity| |exact IH].
  f_equal. exact IH.
Qed.

Lemma count_valid_perm (xs : list XR) (s : list R) :
  Permutation s (valid xs) -> count_valid (DT := IsNoneXR) xs = length s.
Proof. intros HP. rewrite count_valid_nv. symmetry. apply Permutation_length. exact HP. Qed.

Lemma vfirst_valid (xs : list XR) :
  vfirst (DT := IsNoneXR) xs = match valid xs with x :: _ => Some (Some x) | [] => None end.
Proof. unfold vfirst. induction xs as [|[x|] xs IH]; cbn; try fold (valid xs); [reflexivity|reflexivity|exact IH]. Qed.

Lemma tcast_some (x : R) : tcast (DT := IsNoneXR) (Some x) = Some x.
Proof. reflexivity. Qed.

Lemma q_in_range q : 0 <= q <= 1 -> negb (nleb nzero (Some q) && nleb (Some q) none) = false.
Proof.
  intros Hq. change (@nzero XR NumXR) with (Some 0). change (@none XR NumXR) with (Some 1).
  rewrite !xleb_true by lra. reflexivity.
Qed.
Lemma nhalf_xr : nhalf (A := XR) = Some (1 / 2).
Proof.
  unfold nhalf. change (@none XR NumXR) with (Some 1). change (@ntwo XR NumXR) with (Some 2).
  rewrite xdiv_some by lra. reflexivity.
Qed.

Lemma last_cons_default {X} (l : list X) a v : last (a :: l) v = last l a.
Proof.
  revert a v. induction l as [|b l IH]; intros a v; [reflexivity|].
  change (last (a :: b :: l) v) with (last (b :: l) v). rewrite (IH b v), (IH b a). reflexivity.
Qed.

(* the extremum of a sorted run of valid elements in its own direction (vmax ascending, vmin descending) is its
   last element *)
Lemma ext_with_sorted rev (v a : R) :
  rle rev v a -> (if rev then min_with (Some v) (Some a) else max_with (Some v) (Some a)) = Some a.
Proof.
  unfold rle, min_with, max_with. change (@nltb XR NumXR) with xltb. cbn [xltb].
  destruct rev; intros H; (destruct (Rlt_dec _ _); [reflexivity|f_equal; lra]).
Qed.

Lemma vext_sorted rev (l : list R) :
  Sorted (rle rev) l -> l <> [] -> vext (DT := IsNoneXR) rev (map Some l) = Some (Some (last l 0)).
Proof.
  intros Hs Hne. destruct l as [|v l]; [contradiction|]. rewrite last_cons_default.
  assert (G : forall (v : R), Sorted (rle rev) (v :: l) ->
            fold_left (fun acc x => if not_none (H := IsNoneXR) x then
                            Some (match acc with
                                  | None => unwrap x
                                  | Some w => if rev then min_with w (unwrap x) else max_with w (unwrap x)
                                  end)
                          else acc) (map Some l) (Some (Some v)) = Some (Some (last l v))).
  { clear. induction l as [|a l IH]; intros v Hs; [reflexivity|].
    inversion Hs as [|? ? Hs' Hhd]; subst. inversion Hhd as [|? ? Hva]; subst.
    cbn [map fold_left]. change (not_none (H := IsNoneXR) (Some a)) with true. cbn iota.
    change (unwrap (IsNone := IsNoneXR) (Some a)) with (Some a).
    rewrite (ext_with_sorted rev v a Hva), IH by exact Hs'. rewrite last_cons_default. reflexivity. }
  rewrite <- (G v Hs). destruct rev; reflexivity.
Qed.

Lemma sorted_nth_mono rev (s : list R) u w :
  Sorted (rle rev) s -> (u <= w < length s)%nat -> rle rev (nth u s 0) (nth w s 0).
Proof.
  intros Hs. apply Sorted_StronglySorted in Hs; [|intros x y z; unfold rle; destruct rev; lra].
  revert u w. induction Hs as [|c l Hl IH Hall]; intros u w Huw; [cbn in Huw; lia|].
  destruct u as [|u], w as [|w]; cbn [nth]; try lia.
  - unfold rle. destruct rev; lra.
  - rewrite Forall_forall in Hall. apply Hall. apply nth_In. cbn in Huw. lia.
  - apply IH. cbn in Huw. lia.
Qed.

Lemma last_firstn (l : list R) k : (1 <= k <= length l)%nat -> last (firstn k l) 0 = nth (k - 1) l 0.
Proof.
  revert k. induction l as [|a l IH]; intros k Hk; [cbn in Hk; lia|].
  destruct k as [|k]; [lia|]. cbn [firstn length] in *.
  destruct k as [|k]; [reflexivity|].
  cbn [last]. destruct l as [|b l]; [cbn in Hk; lia|].
  change (firstn (S k) (b :: l)) with (b :: firstn k l).
  change (last (b :: firstn k l) 0) with (last (firstn (S k) (b :: l)) 0) at 1.
  replace (match firstn k l with [] => _ | _ :: _ => _ end) with (last (firstn (S k) (b :: l)) 0) by reflexivity.
  rewrite IH by (cbn [length] in *; lia).
  replace (S (S k) - 1)%nat with (S (S k - 1)) by lia. reflexivity.
Qed.

Lemma select_nth_canon rev xs s j :
  Sorted (rle rev) s -> Permutation s (valid xs) -> (j < length s)%nat ->
  select_nth (cmp_dir (DT := IsNoneXR) rev) j xs = Ok (map Some (firstn j s), Some (nth j s 0)).
Proof.
  intros Hs HP Hj. unfold select_nth. rewrite (isort_canon rev xs s Hs HP).
  rewrite nth_error_app1 by (rewrite map_length; exact Hj).
  rewrite nth_error_map, (nth_error_nth' s 0 Hj). cbn [option_map].
  rewrite firstn_app, map_length. replace (j - length s)%nat with 0%nat by lia.
  cbn [firstn]. rewrite app_nil_r, firstn_map. reflexivity.
Qed.

Lemma INR_Ztonat z : (0 <= z)%Z -> INR (Z.to_nat z) = IZR z.
Proof. intros Hz. rewrite INR_IZR_INZ, Z2Nat.id by exact Hz. reflexivity. Qed.

(* both branches: with s sorted in the direction the code selects in, the result is `qvalue` of the two
   neighbours s[i], s[j] of the fractional index *)
Lemma vquantile_sorted (xs : list XR) (q : XR) (m : qmethod) (s : list R) :
  nleb nzero q && nleb q none = true ->
  Sorted (rle (qrev q)) s -> Permutation s (valid xs) -> (2 <= length s)%nat ->
  let i := qi_of q (length s) in let j := qj_of q (length s) in
  (j < length s)%nat -> i = j \/ j = S i ->
  vquantile q m xs = Ok (Some (qvalue q (length s) m (Some (nth i s 0)) (Some (nth j s 0)))).
Proof.
  intros Hg Hs HP Hn i j Hj Hij. pose proof (count_valid_perm xs s HP) as Hc.
  rewrite vquantile_folded by (rewrite ?Hc; assumption). rewrite Hc. fold j.
  rewrite (select_nth_canon (qrev q) xs s j Hs HP Hj). cbn [bind]. rewrite tcast_some.
  destruct Hij as [E|E].
  - rewrite !qvalue_exact by exact E. reflexivity.
  - rewrite vext_sorted; [|apply sorted_firstn; exact Hs|].
    2:{ intros E0. apply (f_equal (@length R)) in E0. rewrite firstn_length in E0. cbn [length] in E0. lia. }
    cbn [opt_cast]. rewrite last_firstn by lia. replace (j - 1)%nat with i by lia. reflexivity.
Qed.

(* the factor, the direction and the two indices at XR: f = q ascending, 1 - q descending *)
Lemma qidx_xr (q : R) (n : nat) :
  let up := if Rle_dec q (1 / 2) then true else false in
  let f := if up then q else 1 - q in
  qrev (Some q) = negb up /\ qfac (Some q) = Some f /\
  qi_of (Some q) n = Z.to_nat (Rfloor (INR (n - 1) * f)) /\ qj_of (Some q) n = Z.to_nat (Rceil (INR (n - 1) * f)).
Proof.
  unfold qi_of, qj_of, qrev, qfac. rewrite nhalf_xr, xofnat. change (@none XR NumXR) with (Some 1).
  destruct (Rle_dec q (1 / 2)) as [H|H].
  - rewrite xleb_true by exact H. rewrite xmul_some. repeat split; reflexivity.
  - rewrite xleb_false by exact H. rewrite xsub_some, xmul_some. repeat split; reflexivity.
Qed.

(* the interpolation formula of the code, in the reals, between neighbouring indices i, i + 1 of g = L f *)
Lemma qvalue_xr (q : R) (n : nat) (m : qmethod) (vi vj : R) :
  (2 <= n)%nat ->
  let up := if Rle_dec q (1 / 2) then true else false in
  let g := INR (n - 1) * (if up then q else 1 - q) in
  (0 <= Rfloor g)%Z -> Rceil g = (Rfloor g + 1)%Z ->
  qvalue (Some q) n m (Some vi) (Some vj)
  = Some (match m with
          | Linear => vi + (vj - vi) * (g - IZR (Rfloor g))
          | Lower => if up then vi else vj
          | Higher => if up then vj else vi
          | MidPoint => (vi + vj) / 2
          end).
Proof.
  intros Hn up g H0 Hc. destruct (qidx_xr q n) as (Er & Ef & Ei & Ej). fold up g in Er, Ef, Ei, Ej.
  unfold qvalue. rewrite Ei, Ej, Er, Ef, Hc.
  replace (Z.to_nat (Rfloor g) =? Z.to_nat (Rfloor g + 1))%nat with false by (symmetry; apply Nat.eqb_neq; lia).
  destruct m; [|destruct up; reflexivity|destruct up; reflexivity|].
  - rewrite !xofnat, Z2Nat.inj_add, plus_INR, !INR_Ztonat by lia.
    set (L := INR (n - 1)) in *. set (fl := IZR (Rfloor g)).
    assert (HL : 1 <= L) by (change 1 with (INR 1); apply le_INR; lia).
    rewrite !xdiv_some by lra. rewrite !xsub_some.
    rewrite xdiv_some by (intros E; apply (f_equal (fun t => t * L)) in E; field_simplify in E; lra).
    rewrite xmul_some, xadd_some. do 2 f_equal. unfold g. fold L. field. lra.
  - change (@ntwo XR NumXR) with (Some 2). rewrite xadd_some, xdiv_some by lra. reflexivity.
Qed.

Lemma vquantile_spec (xs : list XR) (q : R) (m : qmethod) (s : list R) :
  0 <= q <= 1 -> Sorted (rle false) s -> Permutation s (valid xs) -> s <> [] ->
  vquantile (Some q) m xs = Ok (Some (Some (quantile_spec s q m))).
Proof.
  intros Hq Hs HP Hne.
  assert (Hg : nleb nzero (Some q) && nleb (Some q) none = true) by (apply negb_false_iff, q_in_range, Hq).
  destruct (length s) as [|[|n2]] eqn:Hlen; [destruct s; [contradiction|discriminate]| |].
  { (* exactly one valid element *)
    unfold vquantile. rewrite Hg, (count_valid_perm xs s HP), Hlen. cbn [negb Nat.eqb]. rewrite vfirst_valid.
    destruct s as [|x [|? ?]]; try discriminate.
    apply Permutation_length_1_inv in HP. rewrite HP. rewrite tcast_some.
    unfold quantile_spec. cbn [length Nat.sub INR]. rewrite Rmult_0_l.
    change 0 with (IZR 0). rewrite Rfloor_IZR, Rceil_IZR. cbn [Z.to_nat nth].
    do 3 f_equal. destruct m; lra. }
  destruct (qidx_xr q (length s)) as (Er & _ & Ei & Ej).
  pose proof (qvalue_xr q (length s) m) as Hv. unfold quantile_spec.
  rewrite Hlen in *. replace (S (S n2) - 1)%nat with (S n2) in * by lia.
  set (L := INR (S n2)) in *. set (h := L * q).
  assert (HLZ : L = IZR (Z.of_nat (S n2))) by apply INR_IZR_INZ.
  assert (Hh : 0 <= h <= IZR (Z.of_nat (S n2))).
  { rewrite <- HLZ. pose proof (pos_INR (S n2)). unfold h. fold L in H. nra. }
  pose proof (Rfloor_range h _ Hh) as Hfr. pose proof (Rceil_range h _ Hh) as Hcr.
  set (lo := nth (Z.to_nat (Rfloor h)) s 0). set (hi := nth (Z.to_nat (Rceil h)) s 0).
  destruct (Rle_dec q (1 / 2)) as [Hlo|Hhi]; cbn [negb] in *.
  - (* ascending branch *)
    fold h in Ei, Ej, Hv.
    rewrite (vquantile_sorted xs (Some q) m s Hg), Hlen, Ei, Ej;
      [|rewrite Er; exact Hs|exact HP|lia|rewrite Hlen, Ej; lia|
       rewrite Hlen, Ei, Ej; destruct (floor_ceil_cases h) as [[_ E]|[_ E]]; rewrite E; lia].
    fold lo hi. do 2 f_equal.
    destruct (floor_ceil_cases h) as [[Hint Hcf]|[Hlt Hcf]].
    + rewrite qvalue_exact by (rewrite Ei, Ej, Hcf; reflexivity). unfold hi, lo. rewrite Hcf, Hint.
      f_equal. destruct m; lra.
    + rewrite Hv by lia. reflexivity.
  - (* mirrored branch: descending order, 1 - q *)
    replace (L * (1 - q)) with (IZR (Z.of_nat (S n2)) - h) in * by (rewrite <- HLZ; unfold h; ring).
    rewrite Rfloor_mirror in *. rewrite Rceil_mirror in *.
    assert (Hs' : Sorted (rle true) (rev s)) by (apply sorted_rev; exact Hs).
    assert (HP' : Permutation (rev s) (valid xs)) by (rewrite <- HP; symmetry; apply Permutation_rev).
    assert (Hl' : length (rev s) = S (S n2)) by (rewrite rev_length; exact Hlen).
    rewrite (vquantile_sorted xs (Some q) m (rev s) Hg), Hl', Ei, Ej;
      [|rewrite Er; exact Hs'|exact HP'|lia|rewrite Hl', Ej; lia|
       rewrite Hl', Ei, Ej; destruct (floor_ceil_cases h) as [[_ E]|[_ E]]; rewrite E; lia].
    rewrite !rev_nth, Hlen by (rewrite Hlen; lia).
    replace (S (S n2) - S (Z.to_nat (Z.of_nat (S n2) - Rfloor h)))%nat with (Z.to_nat (Rfloor h)) by lia.
    replace (S (S n2) - S (Z.to_nat (Z.of_nat (S n2) - Rceil h)))%nat with (Z.to_nat (Rceil h)) by lia.
    fold lo hi. do 2 f_equal.
    destruct (floor_ceil_cases h) as [[Hint Hcf]|[Hlt Hcf]].
    + rewrite qvalue_exact by (rewrite Ei, Ej, Hcf; reflexivity). unfold hi, lo. rewrite Hcf, Hint.
      f_equal. destruct m; lra.
    + rewrite Hv by lia. f_equal. rewrite Hcf, !minus_IZR, plus_IZR. destruct m; try reflexivity; lra.
Qed.

(* only the `if` half: no valid element -> null result; the iff is Props.C12.C12_quantile_null_iff_no_valid *)
Lemma vquantile_all_null (xs : list XR) (q : R) (m : qmethod) :
  0 <= q <= 1 -> valid xs = [] -> vquantile (Some q) m xs = Ok (Some None).
Proof.
  intros Hq Hv. unfold vquantile. rewrite q_in_range by exact Hq.
  rewrite count_valid_nv. unfold nv. rewrite Hv. reflexivity.
Qed.

Lemma vquantile_bad_q (xs : list XR) (q : R) (m : qmethod) :
  ~ (0 <= q <= 1) -> vquantile (Some q) m xs = Ok None.
Proof.
  intros Hq. unfold vquantile.
  change (@nzero XR NumXR) with (Some 0). change (@none XR NumXR) with (Some 1).
  destruct (Rle_dec 0 q); [rewrite (xleb_true _ _ r)|rewrite (xleb_false _ _ n); reflexivity].
  destruct (Rle_dec q 1); [lra|]. rewrite (xleb_false _ _ n). reflexivity.
Qed.

Lemma vmedian_spec (xs : list XR) (s : list R) :
  Sorted (rle false) s -> Permutation s (valid xs) -> s <> [] ->
  vmedian xs = Ok (Some (quantile_spec s (1 / 2) Linear)).
Proof.
  intros Hs HP Hne. unfold vmedian. rewrite nhalf_xr.
  rewrite (vquantile_spec xs (1 / 2) Linear s); try assumption; [reflexivity|lra].
Qed.

Definition count_lt (sc : R) (l : list R) : nat := length (filter (fun x => if Rlt_dec x sc then true else false) l).
Definition count_eq (sc : R) (l : list R) : nat := length (filter (fun x => if Req_EM_T x sc then true else false) l).

(* rank: mean of the percentage ranks of the matching scores, L/N when nothing matches;
   weak: proportion of values <= score; strict: proportion of values < score *)
Definition percentile_spec (l : list R) (sc : R) (m : pmethod) : R :=
  let L := INR (count_lt sc l) in
  let E := INR (count_eq sc l) in
  let N := INR (length l) in
  match m with
  | PRank => if (count_eq sc l =? 0)%nat then L / N else (L + (E + 1) / 2) / N
  | PWeak => (L + E) / N
  | PStrict => L / N
  end.

(* the counters of the code, in the carrier's comparisons, are the counts over the valid elements *)
Lemma cnt_xr (sc : R) (xs : list XR) :
  cnt_lt (DT := IsNoneXR) (Some sc) xs = count_lt sc (valid xs) /\
  cnt_eq (DT := IsNoneXR) (Some sc) xs = count_eq sc (valid xs).
Proof.
  unfold cnt_lt, cnt_eq, count_lt, count_eq.
  induction xs as [|[x|] xs [IH1 IH2]]; [split; reflexivity| |exact (conj IH1 IH2)].
  cbn [valid flat_map app filter]. fold (valid xs).
  change (not_none (H := IsNoneXR) (Some x)) with true. change (unwrap (IsNone := IsNoneXR) (Some x)) with (Some x).
  change (nltb (Some x) (Some sc)) with (xltb (Some x) (Some sc)).
  change (neqb (Some x) (Some sc)) with (xeqb (Some x) (Some sc)). cbn [xltb xeqb andb].
  destruct (Rlt_dec x sc), (Req_EM_T x sc); try lra; cbn [negb andb length]; rewrite IH1, IH2; split; reflexivity.
Qed.

Lemma vpercentile_of_spec (xs : list XR) (sc : R) (m : pmethod) :
  valid xs <> [] ->
  vpercentile_of (Some sc) m xs = Some (percentile_spec (valid xs) sc m).
Proof.
  intros Hne. rewrite vpercentile_of_counts.
  change (is_none (IsNone := IsNoneXR) (Some sc)) with false. cbn iota zeta.
  change (unwrap (IsNone := IsNoneXR) (Some sc)) with (Some sc).
  destruct (cnt_xr sc xs) as [-> ->]. rewrite count_valid_nv. unfold nv.
  set (Lc := count_lt sc (valid xs)). set (Ec := count_eq sc (valid xs)).
  destruct (length (valid xs)) as [|n1] eqn:Hlen; [destruct (valid xs); [contradiction|discriminate]|].
  cbn [Nat.eqb].
  assert (HN : INR (S n1) <> 0) by (rewrite S_INR; pose proof (pos_INR n1); lra).
  unfold percentile_spec. fold Lc Ec. rewrite Hlen.
  destruct m.
  - destruct (1 <? Ec)%nat eqn:E1.
    + apply Nat.ltb_lt in E1. replace (Ec =? 0)%nat with false by (symmetry; apply Nat.eqb_neq; lia).
      rewrite !xofnat, nhalf_xr, xmul_some, xdiv_some by exact HN. do 2 f_equal.
      replace (Lc + 1 + (Lc + 1 + (Ec - 1)))%nat with (Lc + Lc + Ec + 1)%nat by lia.
      rewrite !plus_INR. cbn [INR]. field; exact HN.
    + apply Nat.ltb_ge in E1. rewrite !xofnat, xdiv_some by exact HN.
      destruct Ec as [|[|?]]; [| |lia].
      * cbn [Nat.eqb]. rewrite Nat.add_0_r. reflexivity.
      * cbn [Nat.eqb]. do 2 f_equal. rewrite plus_INR. cbn [INR]. field; exact HN.
  - rewrite !xofnat, xdiv_some by exact HN. rewrite plus_INR. reflexivity.
  - rewrite !xofnat, xdiv_some by exact HN. reflexivity.
Qed.

Lemma vpercentile_of_null_score (xs : list XR) (m : pmethod) : vpercentile_of None m xs = None.
Proof. reflexivity. Qed.

Lemma vpercentile_of_all_null (xs : list XR) (sc : XR) (m : pmethod) :
  valid xs = [] -> vpercentile_of sc m xs = None.
Proof.
  intros Hv. rewrite vpercentile_of_counts, count_valid_nv. unfold nv. rewrite Hv.
  destruct sc; reflexivity.
Qed.
