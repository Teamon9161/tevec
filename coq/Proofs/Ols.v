(* Proofs/Ols.v — real algebra of covariance / correlation / least squares over a list of observations:
   expansions in cross power sums, normal equations, uniqueness, minimality, perfect fit, and the
   power sums of the time-trend design t = 1..n.  No model code here.                               *)
From Coq Require Import Reals Lra Lia List.
From Tevec Require Import Base.Prelude Base.Num Base.XR Spec.Stats Spec.Ols.
Import ListNotations.
Local Open Scope R_scope.

Lemma sumP_cons f a b P : sumP f ((a, b) :: P) = f a b + sumP f P.
Proof. reflexivity. Qed.
Lemma sumP_app f P Q : sumP f (P ++ Q) = sumP f P + sumP f Q.
Proof. unfold sumP. rewrite map_app. apply sumR_app. Qed.
Lemma nP_cons p P : nP (p :: P) = nP P + 1.
Proof. unfold nP. cbn [length]. apply S_INR. Qed.
Lemma nP_nil : nP [] = 0.
Proof. reflexivity. Qed.
Lemma nP_nonneg P : 0 <= nP P.
Proof. apply pos_INR. Qed.

Lemma sumP_nonneg f P : (forall a b, 0 <= f a b) -> 0 <= sumP f P.
Proof.
  intros Hf. induction P as [|[a b] P IH]; [unfold sumP; cbn; lra|].
  rewrite sumP_cons. specialize (Hf a b). lra.
Qed.
Lemma sumP_zero f P : Forall (fun p => f (fst p) (snd p) = 0) P -> sumP f P = 0.
Proof.
  induction 1 as [|[a b] P Hp _ IH]; [reflexivity|].
  rewrite sumP_cons, IH. cbn [fst snd] in Hp. lra.
Qed.

(* ---- expansions in the cross power sums -------------------------------------------- *)
Lemma codev_expand ca cb P :
  sumP (fun a b => (a - ca) * (b - cb)) P = SAB P - cb * SA P - ca * SB P + nP P * ca * cb.
Proof.
  unfold SAB, SA, SB. induction P as [|[a b] P IH]; [unfold sumP, nP; cbn; ring|].
  rewrite !sumP_cons, nP_cons, IH. ring.
Qed.
Lemma sse_expand al be P :
  sse al be P = SAA P - 2 * al * SA P - 2 * be * SAB P + nP P * al ^ 2 + 2 * al * be * SB P + be ^ 2 * SBB P.
Proof.
  unfold sse, SAA, SAB, SA, SB, SBB. induction P as [|[a b] P IH]; [unfold sumP, nP; cbn; ring|].
  rewrite !sumP_cons, nP_cons, IH. ring.
Qed.
Lemma normal1_expand al be P :
  sumP (fun a b => a - al - be * b) P = SA P - nP P * al - be * SB P.
Proof.
  unfold SA, SB. induction P as [|[a b] P IH]; [unfold sumP, nP; cbn; ring|].
  rewrite !sumP_cons, nP_cons, IH. ring.
Qed.
Lemma normal2_expand al be P :
  sumP (fun a b => b * (a - al - be * b)) P = SAB P - al * SB P - be * SBB P.
Proof.
  unfold SAB, SB, SBB. induction P as [|[a b] P IH]; [unfold sumP, nP; cbn; ring|].
  rewrite !sumP_cons, IH. ring.
Qed.
(* the SSE at any other line, seen from (al, be) *)
Lemma sse_shift al be al' be' P :
  sse al' be' P = sse al be P
                  + 2 * (al - al') * sumP (fun a b => a - al - be * b) P
                  + 2 * (be - be') * sumP (fun a b => b * (a - al - be * b)) P
                  + sumP (fun _ b => ((al - al') + (be - be') * b) ^ 2) P.
Proof.
  unfold sse. induction P as [|[a b] P IH]; [unfold sumP; cbn; ring|].
  rewrite !sumP_cons, IH. ring.
Qed.

(* power sums of the two coordinates *)
Lemma psum1_fst P : psum 1 (map fst P) = SA P.
Proof.
  unfold SA. induction P as [|[a b] P IH]; [reflexivity|].
  cbn [map fst]. rewrite psum_cons, sumP_cons, IH. ring.
Qed.
Lemma psum2_fst P : psum 2 (map fst P) = SAA P.
Proof.
  unfold SAA. induction P as [|[a b] P IH]; [reflexivity|].
  cbn [map fst]. rewrite psum_cons, sumP_cons, IH. ring.
Qed.
Lemma psum1_snd P : psum 1 (map snd P) = SB P.
Proof.
  unfold SB. induction P as [|[a b] P IH]; [reflexivity|].
  cbn [map snd]. rewrite psum_cons, sumP_cons, IH. ring.
Qed.
Lemma psum2_snd P : psum 2 (map snd P) = SBB P.
Proof.
  unfold SBB. induction P as [|[a b] P IH]; [reflexivity|].
  cbn [map snd]. rewrite psum_cons, sumP_cons, IH. ring.
Qed.

(* E[x^2] - E[x]^2 is the population variance *)
Lemma popvar_from_sums (V : list R) :
  nR V <> 0 -> psum 2 V / nR V - (psum 1 V / nR V) ^ 2 = popvarR V.
Proof.
  intros Hn. unfold popvarR, cmom, meanR. rewrite devsum2_expand, <- psum_1. field. exact Hn.
Qed.
Lemma popvar_nonneg (V : list R) : 0 <= popvarR V.
Proof.
  unfold popvarR, cmom. pose proof (devsum2_nonneg (meanR V) V) as H.
  unfold nR. destruct V as [|x V]; [cbn [length INR]; unfold Rdiv; rewrite Rinv_0; lra|].
  apply Rmult_le_pos; [exact H|]. apply Rlt_le, Rinv_0_lt_compat, lt_0_INR. cbn. lia.
Qed.

Lemma codev_from_sums P : nP P <> 0 -> SAB P - SA P * SB P / nP P = codev P.
Proof.
  intros Hn. unfold codev. rewrite codev_expand. unfold meanA, meanB. field. exact Hn.
Qed.

Lemma detB_nil : detB [] = 0.
Proof. unfold detB, SBB, SB, sumP, nP. cbn. ring. Qed.
Lemma detB_single p : detB [p] = 0.
Proof. destruct p as [a b]. unfold detB, SBB, SB, sumP, nP. cbn. ring. Qed.
Lemma det_nonzero_two P : detB P <> 0 -> (2 <= length P)%nat.
Proof.
  intros H. destruct P as [|p [|q P]]; [exfalso; apply H, detB_nil|exfalso; apply H, detB_single|].
  cbn [length]. lia.
Qed.
Lemma det_nonzero_n P : detB P <> 0 -> nP P <> 0.
Proof.
  intros H. apply det_nonzero_two in H. unfold nP. apply not_0_INR. lia.
Qed.

(* the determinant is n times the sum of squared deviations of the regressor: it vanishes exactly
   when the regressor has no spread *)
Lemma devB_expand c P :
  sumP (fun _ b => (b - c) ^ 2) P = SBB P - 2 * c * SB P + nP P * c ^ 2.
Proof.
  unfold SBB, SB. induction P as [|[a b] P IH]; [unfold sumP, nP; cbn; ring|].
  rewrite !sumP_cons, nP_cons, IH. ring.
Qed.
Lemma detB_devsum P : detB P = nP P * sumP (fun _ b => (b - meanB P) ^ 2) P.
Proof.
  destruct (Req_dec (nP P) 0) as [Hn|Hn].
  - assert (P = []) as E.
    { destruct P; [reflexivity|]. rewrite nP_cons in Hn. pose proof (nP_nonneg P). lra. }
    subst P. rewrite detB_nil, nP_nil. ring.
  - rewrite devB_expand. unfold detB, meanB. field. exact Hn.
Qed.
Lemma detB_nonneg P : 0 <= detB P.
Proof.
  rewrite detB_devsum. apply Rmult_le_pos; [apply nP_nonneg|].
  apply sumP_nonneg. intros _ b. apply pow2_ge_0.
Qed.
Lemma detB_constant_regressor c P : Forall (fun p => snd p = c) P -> detB P = 0.
Proof.
  intros H.
  assert (HB : SB P = nP P * c /\ SBB P = nP P * (c * c)).
  { unfold SB, SBB. induction H as [|[a b] P Hp _ [IH1 IH2]]; [unfold sumP, nP; cbn; split; ring|].
    cbn [snd] in Hp. subst b. rewrite !sumP_cons, nP_cons, IH1, IH2. split; ring. }
  destruct HB as [HB1 HB2]. unfold detB. rewrite HB1, HB2. ring.
Qed.

Lemma ols_normal_eqs P : detB P <> 0 -> normal_eqs (ols_alpha P) (ols_beta P) P.
Proof.
  intros HD. pose proof (det_nonzero_n P HD) as Hn. unfold normal_eqs.
  rewrite normal1_expand, normal2_expand. unfold ols_alpha, ols_beta. unfold detB in *.
  set (n := nP P) in *. set (sa := SA P). set (sb := SB P) in *. set (sab := SAB P). set (sbb := SBB P) in *.
  clearbody n sa sb sab sbb. split; field; split; assumption.
Qed.

Lemma ols_unique al be P :
  detB P <> 0 -> normal_eqs al be P -> al = ols_alpha P /\ be = ols_beta P.
Proof.
  intros HD [H1 H2]. pose proof (det_nonzero_n P HD) as Hn.
  rewrite normal1_expand in H1. rewrite normal2_expand in H2.
  unfold ols_alpha, ols_beta. unfold detB in *.
  set (n := nP P) in *. set (sa := SA P) in *. set (sb := SB P) in *. set (sab := SAB P) in *.
  set (sbb := SBB P) in *. clearbody n sa sb sab sbb.
  assert (Hsa : sa = n * al + be * sb) by lra.
  assert (Hsab : sab = al * sb + be * sbb) by lra.
  assert (Hbe : be = (n * sab - sa * sb) / (n * sbb - sb ^ 2)).
  { rewrite Hsa, Hsab. field. exact HD. }
  split; [|exact Hbe]. rewrite <- Hbe. rewrite Hsa. field. exact Hn.
Qed.

(* "least squares" without calculus: the solution of the normal equations minimises the SSE *)
Lemma ols_minimises P al' be' :
  detB P <> 0 -> sse (ols_alpha P) (ols_beta P) P <= sse al' be' P.
Proof.
  intros HD. destruct (ols_normal_eqs P HD) as [H1 H2].
  rewrite (sse_shift (ols_alpha P) (ols_beta P) al' be' P), H1, H2.
  pose proof (sumP_nonneg (fun _ b => ((ols_alpha P - al') + (ols_beta P - be') * b) ^ 2) P
                          ltac:(intros; apply pow2_ge_0)).
  lra.
Qed.

(* SSE at the optimum in the form the code uses: Saa - alpha Sa - beta Sab *)
Lemma sse_at_ols P :
  detB P <> 0 ->
  SAA P - ols_alpha P * SA P - ols_beta P * SAB P = sse (ols_alpha P) (ols_beta P) P.
Proof.
  intros HD. destruct (ols_normal_eqs P HD) as [H1 H2].
  rewrite normal1_expand in H1. rewrite normal2_expand in H2. rewrite sse_expand.
  set (al := ols_alpha P) in *. set (be := ols_beta P) in *. clearbody al be.
  replace (SAA P - 2 * al * SA P - 2 * be * SAB P + nP P * al ^ 2 + 2 * al * be * SB P + be ^ 2 * SBB P)
    with (SAA P - al * SA P - be * SAB P
          - al * (SA P - nP P * al - be * SB P) - be * (SAB P - al * SB P - be * SBB P)) by ring.
  rewrite H1, H2. ring.
Qed.

Lemma sse_nonneg al be P : 0 <= sse al be P.
Proof. apply sumP_nonneg. intros a b. apply pow2_ge_0. Qed.

Lemma resids_sum al be P : sumR (resids al be P) = sumP (fun a b => a - al - be * b) P.
Proof. unfold resids, sumP, resid. reflexivity. Qed.
Lemma resids_length al be P : length (resids al be P) = length P.
Proof. apply map_length. Qed.
(* a perfect linear window: the fit recovers the line and every residual vanishes *)
Lemma perfect_fit c d P :
  detB P <> 0 -> Forall (fun p => fst p = c + d * snd p) P ->
  ols_alpha P = c /\ ols_beta P = d /\ sse (ols_alpha P) (ols_beta P) P = 0 /\
  Forall (fun r => r = 0) (resids (ols_alpha P) (ols_beta P) P).
Proof.
  intros HD HL.
  assert (HN : normal_eqs c d P).
  { split; apply sumP_zero; eapply Forall_impl; [|exact HL| |exact HL]; cbn beta;
      intros [a b]; cbn [fst snd]; intros ->; ring. }
  destruct (ols_unique c d P HD HN) as [<- <-].
  split; [reflexivity|]. split; [reflexivity|]. split.
  - apply sumP_zero. eapply Forall_impl; [|exact HL]. intros [a b]. cbn [fst snd]. intros ->. ring.
  - unfold resids. apply Forall_map. eapply Forall_impl; [|exact HL].
    intros [a b]. unfold resid. cbn [fst snd]. intros ->. ring.
Qed.

(* ---- the time-trend design ------------------------------------------------------------- *)
Lemma trend_from_cons t x V : trend_from t (x :: V) = (x, INR t) :: trend_from (S t) V.
Proof. reflexivity. Qed.
Lemma trend_from_length t V : length (trend_from t V) = length V.
Proof. unfold trend_from. rewrite combine_length, map_length, seq_length. lia. Qed.
Lemma trend_nP t V : nP (trend_from t V) = nR V.
Proof. unfold nP, nR. rewrite trend_from_length. reflexivity. Qed.
Lemma nR_cons x V : nR (x :: V) = nR V + 1.
Proof. unfold nR. cbn [length]. apply S_INR. Qed.

Lemma trend_SA t V : SA (trend_from t V) = sumR V.
Proof.
  unfold SA. revert t; induction V as [|x V IH]; intros t; [reflexivity|].
  rewrite trend_from_cons, sumP_cons, IH. reflexivity.
Qed.
Lemma trend_SAA t V : SAA (trend_from t V) = psum 2 V.
Proof.
  unfold SAA. revert t; induction V as [|x V IH]; intros t; [reflexivity|].
  rewrite trend_from_cons, sumP_cons, IH, psum_cons. ring.
Qed.
Lemma trend_SAB t V : SAB (trend_from t V) = lwsum_from t V.
Proof.
  unfold SAB. revert t; induction V as [|x V IH]; intros t; [reflexivity|].
  rewrite trend_from_cons, sumP_cons, IH. cbn [lwsum_from]. ring.
Qed.
Lemma trend_SB t V : SB (trend_from t V) = nR V * INR t + nR V * (nR V - 1) / 2.
Proof.
  unfold SB. revert t; induction V as [|x V IH]; intros t; [unfold sumP, nR; cbn; field|].
  rewrite trend_from_cons, sumP_cons, IH, nR_cons, S_INR. field.
Qed.
Lemma trend_SBB t V :
  SBB (trend_from t V) =
  nR V * INR t ^ 2 + INR t * nR V * (nR V - 1) + (nR V - 1) * nR V * (2 * nR V - 1) / 6.
Proof.
  unfold SBB. revert t; induction V as [|x V IH]; intros t; [unfold sumP, nR; cbn; field|].
  rewrite trend_from_cons, sumP_cons, IH, nR_cons, S_INR. field.
Qed.
(* t = 1..n: sum t = n(n+1)/2, sum t^2 = n(n+1)(2n+1)/6 *)
Lemma trend_SB1 V : SB (trend_pairs V) = nR V * (nR V + 1) / 2.
Proof. unfold trend_pairs. rewrite trend_SB. cbn [INR]. field. Qed.
Lemma trend_SBB1 V : SBB (trend_pairs V) = nR V * (nR V + 1) * (2 * nR V + 1) / 6.
Proof. unfold trend_pairs. rewrite trend_SBB. cbn [INR]. field. Qed.
Lemma trend_det V : detB (trend_pairs V) = nR V ^ 2 * (nR V ^ 2 - 1) / 12.
Proof. unfold detB. rewrite trend_SB1, trend_SBB1. unfold trend_pairs. rewrite trend_nP. field. Qed.
Lemma trend_det_zero_iff V : detB (trend_pairs V) = 0 <-> (length V <= 1)%nat.
Proof.
  rewrite trend_det. unfold nR. split.
  - intros H. destruct (le_lt_dec (length V) 1) as [Hle|Hgt]; [exact Hle|exfalso].
    assert (Hx : 2 <= INR (length V)) by (apply (le_INR 2); lia).
    set (x := INR (length V)) in *. clearbody x.
    assert (H4 : 4 <= x ^ 2) by nra.
    assert (Hp : 0 < x ^ 2 * (x ^ 2 - 1)) by nra. lra.
  - intros H. destruct (length V) as [|[|k]]; [cbn; field|cbn; field|lia].
Qed.

(* a line over the ranks 1..n is a perfect linear window of the trend design *)
Lemma trend_line_from c d t n :
  Forall (fun p => fst p = c + d * snd p) (trend_from t (map (fun j => c + d * INR j) (seq t n))).
Proof.
  revert t; induction n as [|n IH]; intros t; [constructor|].
  cbn [seq map]. rewrite trend_from_cons. constructor; [reflexivity|apply IH].
Qed.

(* ---- singular exactly when the regressor is constant over the observations ----------------- *)
Lemma sumP_sq_zero (g : R -> R) P :
  sumP (fun _ b => g b ^ 2) P = 0 -> Forall (fun p => g (snd p) = 0) P.
Proof.
  induction P as [|[a b] P IH]; intros H; [constructor|].
  rewrite sumP_cons in H.
  pose proof (pow2_ge_0 (g b)) as H1.
  pose proof (sumP_nonneg (fun _ b => g b ^ 2) P ltac:(intros; apply pow2_ge_0)) as H2.
  constructor.
  - cbn [snd]. assert (E : g b ^ 2 = 0) by lra. apply Rsqr_0_uniq. unfold Rsqr. lra.
  - apply IH. lra.
Qed.
Lemma detB_zero_iff_constant P :
  detB P = 0 <-> Forall (fun p => snd p = meanB P) P.
Proof.
  split.
  - intros H. rewrite detB_devsum in H.
    destruct (Req_dec (nP P) 0) as [Hn|Hn].
    + destruct P; [constructor|]. rewrite nP_cons in Hn. pose proof (nP_nonneg P). lra.
    + assert (Hs : sumP (fun _ b => (b - meanB P) ^ 2) P = 0).
      { apply Rmult_integral in H. destruct H; [contradiction|assumption]. }
      apply (sumP_sq_zero (fun b => b - meanB P)) in Hs.
      eapply Forall_impl; [|exact Hs]. intros [a b]. cbn [snd]. lra.
  - apply detB_constant_regressor.
Qed.

(* ---- statistics of an all-zero residual list ---------------------------------------------- *)
Lemma zeros_sum (Z0 : list R) : Forall (fun r => r = 0) Z0 -> sumR Z0 = 0.
Proof. induction 1 as [|r Z0 Hr _ IH]; [reflexivity|]. cbn [sumR fold_right]. fold (sumR Z0). lra. Qed.
Lemma zeros_devsum2 (Z0 : list R) : Forall (fun r => r = 0) Z0 -> devsum 2 0 Z0 = 0.
Proof.
  unfold devsum. induction 1 as [|r Z0 Hr _ IH]; [reflexivity|].
  cbn [map sumR fold_right]. fold (sumR (map (fun x => (x - 0) ^ 2) Z0)). rewrite IH, Hr. ring.
Qed.
Lemma zeros_mean_popvar (Z0 : list R) :
  Forall (fun r => r = 0) Z0 -> meanR Z0 = 0 /\ popvarR Z0 = 0.
Proof.
  intros H. assert (Hm : meanR Z0 = 0) by (unfold meanR; rewrite zeros_sum by exact H; unfold Rdiv; ring).
  split; [exact Hm|]. unfold popvarR, cmom. rewrite Hm, zeros_devsum2 by exact H. unfold Rdiv. ring.
Qed.
Lemma zeros_stats (Z0 : list R) :
  Forall (fun r => r = 0) Z0 -> (2 <= length Z0)%nat ->
  agg_mean_spec Z0 = Some 0 /\ agg_std_spec Z0 = Some 0 /\
  ((3 <= length Z0)%nat -> agg_skew_spec Z0 = Some 0).
Proof.
  intros H Hn. destruct (zeros_mean_popvar Z0 H) as [Hm Hv]. pose proof EPS_pos as He.
  unfold agg_mean_spec, agg_std_spec, agg_skew_spec. rewrite Hm, Hv.
  replace (length Z0 =? 0)%nat with false by (symmetry; apply Nat.eqb_neq; lia).
  rewrite (ltb_false (length Z0) 2) by lia.
  split; [reflexivity|]. split.
  - destruct (Rle_dec 0 EPS); [reflexivity|lra].
  - intros H3. rewrite (ltb_false (length Z0) 3) by lia.
    destruct (Rle_dec 0 EPS); [reflexivity|lra].
Qed.
