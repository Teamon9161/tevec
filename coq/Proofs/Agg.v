(* Proofs/Agg.v — C11 assembled: every aggregation of Model/Agg.v equals its textbook definition over
   the non-null elements, is null exactly below the required number of observations, and the symmetric
   ones are permutation invariant.  Generic in the element type (inner type A, null dictionary DT, cast
   tof : A -> XR); instantiated for float-like (f64/f32, Option<f64>) and integer (i32/i64, Option<i32>)
   series, with the order instances (reals inside XR, integers) that the extrema theorems of Props/C11.v use.  *)
From Coq Require Import Reals Lra Lia List Permutation Bool ZArith.
From Tevec Require Import Base.Num Base.XR Spec.Stats Spec.Stats2 Model.Agg
     Proofs.AggGeneric Proofs.AggOrder Proofs.AggXR.
Import ListNotations.
Local Open Scope R_scope.
Set Implicit Arguments.

Section Single.
  Context {A : Type} {NA : Num A} {T : Type} {DT : IsNone T A}.
  Variable tof : A -> XR.
  Local Notation V xs := (rvals tof xs).
  Local Notation n xs := (nvalid tof xs).

  Theorem vmean_var_textbook mp xs :
    canonical tof xs ->
    vmean_var tof mp xs =
    if (n xs <? mp)%nat then (None, None)
    else if (n xs =? 0)%nat then (None, None)
    else if (n xs <? 2)%nat then (Some (meanR (V xs)), None)
    else if Rle_dec (popvarR (V xs)) EPS then (Some (meanR (V xs)), Some 0)
    else (Some (meanR (V xs)), Some (samplevarR (V xs))).
  Proof. intros H. apply vmean_var_closed, vals_rvals, H. Qed.

  Theorem vvar_textbook mp xs : canonical tof xs -> vvar tof mp xs = mform 2 samplevarR mp (V xs).
  Proof. intros H. apply vvar_closed, vals_rvals, H. Qed.
  Theorem vstd_textbook mp xs : canonical tof xs -> vstd tof mp xs = mform 2 samplestdR mp (V xs).
  Proof. intros H. apply vstd_closed, vals_rvals, H. Qed.
  Theorem vskew_textbook mp xs : canonical tof xs -> vskew tof mp xs = mform 3 skewR mp (V xs).
  Proof. intros H. apply vskew_closed, vals_rvals, H. Qed.
  Theorem vkurt_textbook mp xs : canonical tof xs -> vkurt tof mp xs = mform 4 kurtR mp (V xs).
  Proof. intros H. apply vkurt_closed, vals_rvals, H. Qed.

  (* vmean and the masked mean: the sum is accumulated in the inner type; `sum_hom` says the cast of
     that sum is the real sum (trivial for floats, the IZR morphism for integers) *)
  Hypothesis sum_hom : forall xs : list T, canonical tof xs ->
    tof (fold_left (fun acc x : A => nadd acc x) (vals xs) nzero) = Some (sumR (V xs)).

  Theorem vmean_textbook xs :
    canonical tof xs -> vmean tof xs = if (n xs =? 0)%nat then None else Some (meanR (V xs)).
  Proof. intros H. apply vmean_closed; [apply vals_rvals, H|apply sum_hom, H]. Qed.

  Theorem vmean_perm xs ys : Permutation xs ys -> canonical tof xs -> vmean tof xs = vmean tof ys.
  Proof.
    intros HP H. rewrite (vmean_textbook H), (vmean_textbook (canonical_perm HP H)). unfold nvalid.
    pose proof (rvals_perm tof HP) as HR. rewrite (Permutation_length HR), (meanR_perm HR). reflexivity.
  Qed.

  Context {U : Type} {DU : IsNone U bool}.
  Lemma mask_filter_In (xs : list T) (mask : list U) v : In v (mask_filter xs mask) -> In v xs.
  Proof.
    rewrite mask_filter_spec. intros Hv. apply in_map_iff in Hv. destruct Hv as ([a f] & <- & Hin).
    apply filter_In in Hin. destruct Hin as [Hin _]. eapply in_combine_l; exact Hin.
  Qed.
  Lemma canonical_mask_filter (xs : list T) (mask : list U) : canonical tof xs -> canonical tof (mask_filter xs mask).
  Proof. intros H v Hv. apply H. eapply mask_filter_In; exact Hv. Qed.

  (* masked mean = mean of the selected valid elements; null below min_periods or when nothing is selected *)
  Theorem vmean_filter_textbook mp (xs : list T) (mask : list U) :
    canonical tof xs ->
    let W := V (mask_filter xs mask) in
    vmean_filter tof mp xs mask =
    if (mp <=? length W)%nat then (if (length W =? 0)%nat then None else Some (meanR W)) else None.
  Proof.
    intros H W. pose proof (canonical_mask_filter mask H) as Hm.
    unfold vmean_filter, n_vsum_filter. rewrite vfold_n_spec. cbn [fst snd].
    rewrite (sum_hom Hm). fold W.
    assert (L : length (vals (mask_filter xs mask)) = length W).
    { rewrite <- (map_length tof), (vals_rvals Hm), map_length. reflexivity. }
    rewrite L. destruct (mp <=? length W)%nat; [|reflexivity].
    rewrite xofnat. destruct (length W =? 0)%nat eqn:E.
    - apply Nat.eqb_eq in E. rewrite E. cbn [INR]. cbn. destruct (Req_EM_T 0 0); [reflexivity|contradiction].
    - apply Nat.eqb_neq in E. rewrite xdiv_some by (apply not_0_INR; exact E). reflexivity.
  Qed.
End Single.

Lemma sum_hom_float {T} {DT : IsNone T XR} (xs : list T) :
  canonical idX xs ->
  idX (fold_left (fun acc x : XR => nadd acc x) (vals xs) nzero) = Some (sumR (rvals idX xs)).
Proof.
  intros H. pose proof (vals_rvals H) as HV. rewrite map_id in HV. rewrite HV.
  change (@nzero XR NumXR) with (Some 0). rewrite fold_add_some, Rplus_0_l. reflexivity.
Qed.

Definition sumZ (l : list Z) : Z := fold_right Z.add 0%Z l.
Lemma fold_left_Zadd l a : fold_left (fun acc x : Z => @nadd Z AggNumZ acc x) l a = (a + sumZ l)%Z.
Proof.
  revert a. induction l as [|x l IH]; intros a; cbn [fold_left sumZ fold_right]; [lia|].
  rewrite IH. cbn [nadd AggNumZ]. fold (sumZ l). lia.
Qed.
Lemma rvals_int {T} {DT : IsNone T Z} (xs : list T) : rvals zR xs = map IZR (vals xs).
Proof.
  induction xs as [|v xs IH]; [reflexivity|]. rewrite vals_cons. cbn [rvals flat_map]. fold (rvals zR xs).
  rewrite IH. destruct (not_none v); reflexivity.
Qed.
Lemma sumR_IZR l : sumR (map IZR l) = IZR (sumZ l).
Proof.
  induction l as [|x l IH]; [reflexivity|]. cbn [map sumZ fold_right]. fold (sumZ l).
  rewrite sumR_cons, IH, plus_IZR. reflexivity.
Qed.
(* `canonical` is not needed at Z; it is there so that the lemma has the shape of sum_hom_float *)
Lemma sum_hom_int {T} {DT : IsNone T Z} (xs : list T) :
  canonical zR xs ->
  zR (fold_left (fun acc x : Z => @nadd Z AggNumZ acc x) (vals xs) (@nzero Z AggNumZ)) = Some (sumR (rvals zR xs)).
Proof.
  intros _. rewrite fold_left_Zadd, rvals_int, sumR_IZR. unfold zR. cbn [nzero AggNumZ]. reflexivity.
Qed.

(* vsum: float-like and integer carriers *)
Theorem vsum_textbook_float {T} {DT : IsNone T XR} (xs : list T) :
  canonical idX xs ->
  vsum xs = if (nvalid idX xs =? 0)%nat then None else Some (Some (sumR (rvals idX xs))).
Proof.
  intros H. pose proof (vals_rvals H) as HV. rewrite map_id in HV.
  unfold vsum, nvalid. rewrite vfold_n_spec, HV, map_length. cbn [fst snd].
  change (@nzero XR NumXR) with (Some 0). rewrite fold_add_some, Rplus_0_l.
  destruct (length (rvals idX xs)); reflexivity.
Qed.
Theorem vsum_textbook_int {T} {DT : IsNone T Z} (xs : list T) :
  vsum (NA := AggNumZ) xs = if (length (vals xs) =? 0)%nat then None else Some (sumZ (vals xs)).
Proof.
  unfold vsum. rewrite vfold_n_spec. cbn [fst snd]. rewrite fold_left_Zadd. cbn [nzero AggNumZ].
  destruct (length (vals xs)); reflexivity.
Qed.
Theorem vsum_perm_float {T} {DT : IsNone T XR} (xs ys : list T) :
  Permutation xs ys -> canonical idX xs -> vsum xs = vsum ys.
Proof.
  intros HP H. rewrite (vsum_textbook_float H), (vsum_textbook_float (canonical_perm HP H)). unfold nvalid.
  pose proof (rvals_perm idX HP) as HR. rewrite (Permutation_length HR), (sumR_perm HR). reflexivity.
Qed.
Lemma sumZ_perm l1 l2 : Permutation l1 l2 -> sumZ l1 = sumZ l2.
Proof.
  induction 1 as [|x l l' _ IH|x y l|l l' l'' _ IH1 _ IH2]; unfold sumZ in *; cbn [fold_right]; lia.
Qed.
Theorem vsum_perm_int {T} {DT : IsNone T Z} (xs ys : list T) :
  Permutation xs ys -> vsum (NA := AggNumZ) xs = vsum (NA := AggNumZ) ys.
Proof.
  intros HP. rewrite !vsum_textbook_int. pose proof (vals_perm HP) as HV.
  rewrite (Permutation_length HV), (sumZ_perm HV). reflexivity.
Qed.

Section Two.
  Context {A : Type} {T T2 : Type} {DT : IsNone T A} {DT2 : IsNone T2 A}.
  Variable tof : A -> XR.
  Local Notation P xs ys := (rpairs tof xs ys).

  Theorem vcov_textbook mp (xs : list T) (ys : list T2) :
    canonical tof xs -> canonical tof ys ->
    vcov tof mp xs ys = if (length (P xs ys) <? Nat.max mp 2)%nat then None else Some (samplecovR (P xs ys)).
  Proof. intros Hx Hy. apply vcov_closed; assumption. Qed.

  Theorem vcorr_textbook mp (xs : list T) (ys : list T2) :
    canonical tof xs -> canonical tof ys ->
    vcorr_pearson tof mp xs ys =
    if (length (P xs ys) <? Nat.max mp 2)%nat then None
    else if Rlt_dec EPS (popvarR (xs_of (P xs ys))) then
           (if Rlt_dec EPS (popvarR (ys_of (P xs ys))) then Some (corrR (P xs ys)) else None)
         else None.
  Proof. intros Hx Hy. apply vcorr_closed; assumption. Qed.

  (* null exactly when too few complete pairs or (DESIGN 5.6) one side has no spread above the EPS floor *)
  Theorem vcorr_null mp (xs : list T) (ys : list T2) :
    canonical tof xs -> canonical tof ys ->
    (vcorr_pearson tof mp xs ys = None <->
     (length (P xs ys) < Nat.max mp 2)%nat \/ ~ EPS < popvarR (xs_of (P xs ys)) \/ ~ EPS < popvarR (ys_of (P xs ys))).
  Proof.
    intros Hx Hy. rewrite (vcorr_textbook mp Hx Hy).
    destruct (length (P xs ys) <? Nat.max mp 2)%nat eqn:E.
    - apply Nat.ltb_lt in E. tauto.
    - apply Nat.ltb_ge in E. destruct (Rlt_dec _ _) as [Ga|Ga]; [destruct (Rlt_dec _ _) as [Gb|Gb]|].
      + split; [discriminate|]. intros [L|[L|L]]; [lia|contradiction|contradiction].
      + tauto.
      + tauto.
  Qed.

End Two.

Definition okX (a : XR) : Prop := a <> None.
Lemma le_real (r x : R) : nltb (Some x) (Some r) = false -> r <= x.
Proof. cbn [nltb NumXR xltb]. destruct (Rlt_dec x r); [discriminate|lra]. Qed.
Lemma lt_real (r x : R) : nltb (Some r) (Some x) = true -> r < x.
Proof. cbn [nltb NumXR xltb]. destruct (Rlt_dec r x); [trivial|discriminate]. Qed.

Lemma xr_weak : WeakOrder (@nltb XR NumXR) okX.
Proof.
  split.
  - intros [x|] [y|] _ _ H; try discriminate. apply lt_real in H. apply xltb_false. lra.
  - intros [x|] [y|] [z|] _ _ Hc H; try discriminate; [|exfalso; apply Hc; reflexivity]. apply lt_real in H.
    destruct (Rlt_dec x z); [left; apply xltb_true; assumption|right; apply xltb_true; lra].
Qed.
Lemma xr_total a b : okX a -> okX b -> nltb a b = false -> nltb b a = false -> a = b.
Proof.
  destruct a as [x|], b as [y|]; intros Ha Hb; try (exfalso; apply Ha; reflexivity); try (exfalso; apply Hb; reflexivity).
  intros H1 H2. apply le_real in H1. apply le_real in H2. f_equal. lra.
Qed.

(* the integer comparison is a strict total order on all of Z, so on any subset: `ok` and the premises `ok a`, `ok b`
   are unused and only give the lemmas the shape the extrema theorems of AggOrder.v ask for *)
Section IntOrder.
  Variable ok : Z -> Prop.
  Lemma z_weak : WeakOrder (@nltb Z AggNumZ) ok.
  Proof.
    split; cbn [nltb AggNumZ]; intros.
    - apply Z.ltb_ge. apply Z.ltb_lt in H1. lia.
    - apply Z.ltb_lt in H2. destruct (Z.ltb_spec a c); [left; reflexivity|right; apply Z.ltb_lt; lia].
  Qed.
  Lemma z_total a b : ok a -> ok b -> @nltb Z AggNumZ a b = false -> @nltb Z AggNumZ b a = false -> a = b.
  Proof. intros _ _. cbn [nltb AggNumZ]. rewrite !Z.ltb_ge. lia. Qed.
  Lemma le_int a b : ok a -> ok b -> @nltb Z AggNumZ b a = false -> (a <= b)%Z.
  Proof. intros _ _. apply Z.ltb_ge. Qed.
  Lemma lt_int a b : ok a -> ok b -> @nltb Z AggNumZ a b = true -> (a < b)%Z.
  Proof. intros _ _. apply Z.ltb_lt. Qed.
  Lemma ge_int a b : ok a -> ok b -> @nltb Z AggNumZ a b = false -> (b <= a)%Z.
  Proof. intros _ _. apply Z.ltb_ge. Qed.
  Lemma gt_int a b : ok a -> ok b -> @nltb Z AggNumZ b a = true -> (b < a)%Z.
  Proof. intros _ _. apply Z.ltb_lt. Qed.
End IntOrder.
Arguments z_total {ok a b} _ _ _ _.

(* canonical nulls give all_ok for the real order *)
Lemma all_ok_canonical {T} {DT : IsNone T XR} (xs : list T) : canonical idX xs -> all_ok okX xs.
Proof. intros H v Hv Hn. exact (H v Hv Hn). Qed.
Lemma all_ok_int {T} {DT : IsNone T Z} (xs : list T) : all_ok (fun _ => True) xs.
Proof. intros v _ _. exact I. Qed.
Lemma Forall_int (l : list Z) : Forall (fun _ => True) l.
Proof. apply Forall_forall. intros a _. exact I. Qed.

Lemma vals_float (xs : list XR) : vals (DT := IsNoneXR) xs = map Some (valid xs).
Proof.
  pose proof (vals_rvals (canonical_float xs)) as H. rewrite map_id, rvals_float in H. exact H.
Qed.
Lemma okX_map_some (V : list R) : Forall okX (map Some V).
Proof. apply Forall_forall. intros a Ha. apply in_map_iff in Ha. destruct Ha as (r & <- & _). discriminate. Qed.

(* one direction of the real order: minima with lt := nltb and <=, <; maxima with the converses *)
Section RealExtrema.
  Variable lt : XR -> XR -> bool.
  Variables leR ltR : R -> R -> Prop.
  Hypothesis W : WeakOrder lt okX.
  Hypothesis le_ok : forall r x, lt (Some x) (Some r) = false -> leR r x.
  Hypothesis lt_ok : forall r x, lt (Some r) (Some x) = true -> ltR r x.
  Local Notation leP := (fun a b : XR => forall r x, a = Some r -> b = Some x -> leR r x).
  Local Notation ltP := (fun a b : XR => forall r x, a = Some r -> b = Some x -> ltR r x).

  Lemma leP_ok (a b : XR) : okX a -> okX b -> lt b a = false -> leP a b.
  Proof. intros _ _ H r x -> ->. exact (le_ok H). Qed.
  Lemma ltP_ok (a b : XR) : okX a -> okX b -> lt a b = true -> ltP a b.
  Proof. intros _ _ H r x -> ->. exact (lt_ok H). Qed.

  Lemma least_real (V : list R) (m : XR) :
    In m (map Some V) /\ (forall a, In a (map Some V) -> leP m a) ->
    exists r, m = Some r /\ In r V /\ forall x, In x V -> leR r x.
  Proof.
    intros [Hin Hall]. apply in_map_iff in Hin. destruct Hin as (r & <- & Hr). exists r.
    split; [reflexivity|]. split; [exact Hr|]. intros x Hx. exact (Hall (Some x) (in_map Some V x Hx) r x eq_refl eq_refl).
  Qed.

  Lemma vext_real (xs : list XR) :
    match vext (DT := IsNoneXR) (fun e v => lt v e) xs with
    | None => valid xs = []
    | Some m => exists r, m = Some r /\ In r (valid xs) /\ forall x, In x (valid xs) -> leR r x
    end.
  Proof.
    pose proof (vext_least W leP ltP leP_ok ltP_ok (all_ok_canonical (canonical_float xs))) as H.
    rewrite vals_float in H. destruct (vext _ xs); [exact (least_real _ H)|].
    destruct (valid xs); [reflexivity|discriminate].
  Qed.

  Lemma varg_real (xs : list XR) :
    match varg (DT := IsNoneXR) (fun e v => lt v e) xs with
    | None => valid xs = []
    | Some i => exists r, nth_error xs i = Some (Some r) /\
        (forall j x, nth_error xs j = Some (Some x) -> leR r x) /\
        (forall j x, (j < i)%nat -> nth_error xs j = Some (Some x) -> ltR r x)
    end.
  Proof.
    pose proof (varg_first W leP ltP leP_ok ltP_ok (all_ok_canonical (canonical_float xs))) as H.
    destruct (varg _ xs) as [i|]; [|rewrite vals_float in H; destruct (valid xs); [reflexivity|discriminate]].
    destruct H as ([r|] & Hv & Hn & Hall & Hbef); [|discriminate Hn]. exists r. split; [exact Hv|]. split.
    - intros j x Hj. exact (Hall j (Some x) Hj eq_refl r x eq_refl eq_refl).
    - intros j x Hlt Hj. exact (Hbef j (Some x) Hlt Hj eq_refl r x eq_refl eq_refl).
  Qed.

  Lemma pext_real (V : list R) :
    match vext (DT := IsNone_plain) (fun e v => lt v e) (map Some V) with
    | None => V = []
    | Some m => exists r, m = Some r /\ In r V /\ forall x, In x V -> leR r x
    end.
  Proof.
    pose proof (pext_least W leP ltP leP_ok ltP_ok (okX_map_some V)) as H.
    destruct (vext _ (map Some V)); [exact (least_real _ H)|]. destruct V; [reflexivity|discriminate].
  Qed.

  Lemma parg_real (V : list R) :
    match parg (fun e v => lt v e) (map Some V) with
    | None => V = []
    | Some i => exists r, nth_error V i = Some r /\
        (forall j x, nth_error V j = Some x -> leR r x) /\
        (forall j x, (j < i)%nat -> nth_error V j = Some x -> ltR r x)
    end.
  Proof.
    pose proof (parg_first W leP ltP leP_ok ltP_ok (okX_map_some V)) as H.
    destruct (parg _ (map Some V)) as [i|]; [|destruct V; [reflexivity|discriminate]].
    destruct H as (m & Hm & Hall & Hbef). rewrite nth_error_map in Hm.
    destruct (nth_error V i) as [r|]; [|discriminate]. injection Hm as <-. exists r. split; [reflexivity|].
    assert (HS : forall j x, nth_error V j = Some x -> nth_error (map Some V) j = Some (Some x))
      by (intros j x Hj; rewrite nth_error_map, Hj; reflexivity).
    split.
    - intros j x Hj. exact (Hall j (Some x) (HS j x Hj) r x eq_refl eq_refl).
    - intros j x Hlt Hj. exact (Hbef j (Some x) Hlt (HS j x Hj) r x eq_refl eq_refl).
  Qed.
End RealExtrema.
Arguments vext_real {lt leR ltR} W le_ok lt_ok xs.
Arguments varg_real {lt leR ltR} W le_ok lt_ok xs.
Arguments pext_real {lt leR ltR} W le_ok lt_ok V.
Arguments parg_real {lt leR ltR} W le_ok lt_ok V.
