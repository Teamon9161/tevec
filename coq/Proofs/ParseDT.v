(* Proofs/ParseDT.v — the date-time text model of Model/ParseDT.v, item by item: a rendered numeric
   field is read back by its item, and the day / second-of-day / sub-second parts of an instant
   recombine to it.  The round trips built from these are in Proofs/ParseDT2.v. *)
From Coq Require Import List ZArith Lia Bool.
From Tevec Require Import Base.Prelude Model.Parse Model.ParseDT Proofs.Parse.
Import ListNotations.
Local Open Scope Z_scope.

Local Ltac zdm := Z.div_mod_to_equations; lia.

Definition dstep (a c : Z) : Z := a * 10 + (c - 48).

Lemma is_digit_48 x : 0 <= x <= 9 -> is_digit (48 + x) = true.
Proof. intros H. unfold is_digit. apply andb_true_iff. split; apply Z.leb_le; lia. Qed.

Lemma digit_not_ws c : digit c -> is_ws c = false.
Proof.
  intros H. apply digit_range in H. unfold is_ws.
  repeat match goal with
         | |- context [?a <=? ?b] => destruct (Z.leb_spec a b); try lia
         | |- context [?a =? ?b] => destruct (Z.eqb_spec a b); try lia
         end; reflexivity.
Qed.

Lemma take_digits_app : forall ds k rest acc n, Forall digit ds ->
  take_digits (length ds + k) (ds ++ rest) acc n
  = take_digits k rest (fold_left dstep ds acc) (n + length ds)%nat.
Proof.
  induction ds as [|c ds IH]; intros k rest acc n H.
  - cbn [length app fold_left plus]. rewrite Nat.add_0_r. reflexivity.
  - inversion H as [|? ? Hc Hr]; subst. cbn [length app fold_left plus take_digits].
    rewrite Hc. rewrite IH by exact Hr. f_equal. lia.
Qed.

Lemma fixed_digits_length w : forall v, length (fixed_digits w v) = w.
Proof. induction w as [|w IH]; intros v; [reflexivity|].
       cbn [fixed_digits]. rewrite app_length, IH. cbn [length]. lia. Qed.

Lemma fixed_digits_digit w : forall v, Forall digit (fixed_digits w v).
Proof.
  induction w as [|w IH]; intros v; [constructor|].
  cbn [fixed_digits]. apply Forall_app. split; [apply IH|].
  constructor; [|constructor]. apply is_digit_48.
  pose proof (Z.mod_pos_bound v 10 ltac:(lia)). lia.
Qed.

Lemma fixed_digits_val w : forall v acc, 0 <= v ->
  fold_left dstep (fixed_digits w v) acc = acc * 10 ^ Z.of_nat w + v mod 10 ^ Z.of_nat w.
Proof.
  induction w as [|w IH]; intros v acc Hv.
  - cbn [fixed_digits fold_left]. change (10 ^ Z.of_nat 0) with 1. rewrite Z.mod_1_r. lia.
  - cbn [fixed_digits]. rewrite fold_left_app. cbn [fold_left]. unfold dstep at 1.
    rewrite IH by (apply Z.div_pos; lia).
    rewrite Nat2Z.inj_succ, Z.pow_succ_r by lia.
    assert (HP : 0 < 10 ^ Z.of_nat w) by (apply Z.pow_pos_nonneg; lia).
    rewrite (Z.rem_mul_r v 10 (10 ^ Z.of_nat w)) by lia.
    set (P := 10 ^ Z.of_nat w) in *. set (q := (v / 10) mod P). set (r := v mod 10). ring.
Qed.

Lemma take_digits_stop k rest acc n :
  k = 0%nat \/ nondigit_head rest -> take_digits k rest acc n = (acc, n, rest).
Proof.
  destruct k as [|k], rest as [|c r]; cbn [take_digits nondigit_head]; try reflexivity.
  intros [H|H]; [discriminate H|]. rewrite H. reflexivity.
Qed.

(* scan::number reads a run of w digits whole when w is the maximal width, or when a non-digit (or nothing) follows *)
Lemma scan_fixed w maxw v rest : (0 < w <= maxw)%nat -> 0 <= v < 10 ^ Z.of_nat w -> v <= i64_max ->
  maxw = w \/ nondigit_head rest ->
  scan_number (fixed_digits w v ++ rest) maxw = Some (v, rest).
Proof.
  intros Hw Hv Hm Hr. unfold scan_number.
  replace maxw with (length (fixed_digits w v) + (maxw - w))%nat by (rewrite fixed_digits_length; lia).
  rewrite take_digits_app by apply fixed_digits_digit.
  rewrite take_digits_stop by (destruct Hr; [left; lia|right; assumption]).
  rewrite fixed_digits_length, fixed_digits_val by lia. rewrite Z.mod_small by lia. cbn [Z.mul Z.add plus].
  replace (w =? 0)%nat with false by (symmetry; apply Nat.eqb_neq; lia).
  replace (in_i64 v) with true; [reflexivity|].
  symmetry. unfold in_i64, i64_min. apply andb_true_iff. split; apply Z.leb_le; lia.
Qed.

Lemma fixed_head w v rest : (0 < w)%nat ->
  exists c r, fixed_digits w v ++ rest = c :: r /\ digit c.
Proof.
  intros Hw. pose proof (fixed_digits_length w v) as HL. pose proof (fixed_digits_digit w v) as HD.
  destruct (fixed_digits w v) as [|c r]; [cbn in HL; lia|].
  inversion HD; subst. do 2 eexists. split; [reflexivity|assumption].
Qed.

Lemma trim_fixed w v rest : (0 < w)%nat -> trim_start (fixed_digits w v ++ rest) = fixed_digits w v ++ rest.
Proof.
  intros Hw. destruct (fixed_head w v rest Hw) as [c [r [E Hc]]]. rewrite E.
  cbn [trim_start]. rewrite (digit_not_ws c Hc). reflexivity.
Qed.

Lemma num_item w v rest : (0 < w)%nat -> 0 <= v < 10 ^ Z.of_nat w -> v <= i64_max ->
  scan_number (trim_start (fixed_digits w v ++ rest)) w = Some (v, rest).
Proof. intros. rewrite trim_fixed by assumption. apply scan_fixed; auto; lia. Qed.

Lemma set_field_none lo hi v : lo <= v <= hi -> set_field None lo hi v = Some (Some v).
Proof.
  intros H. unfold set_field.
  replace ((lo <=? v) && (v <=? hi)) with true; [reflexivity|].
  symmetry. apply andb_true_iff. split; apply Z.leb_le; lia.
Qed.

Lemma pi_lit c rest p : parse_item (ILit c) (c :: rest) p = Some (rest, p).
Proof. cbn [parse_item]. rewrite Z.eqb_refl. reflexivity. Qed.

Lemma pi_sp w v rest p : (0 < w)%nat ->
  parse_item ISp (32 :: fixed_digits w v ++ rest) p = Some (fixed_digits w v ++ rest, p).
Proof.
  intros Hw. cbn [parse_item trim_start]. change (is_ws 32) with true. cbv iota.
  rewrite trim_fixed by exact Hw. reflexivity.
Qed.

Lemma pi_sp0 w v rest p : (0 < w)%nat ->
  parse_item ISp (fixed_digits w v ++ rest) p = Some (fixed_digits w v ++ rest, p).
Proof. intros Hw. cbn [parse_item]. rewrite trim_fixed by exact Hw. reflexivity. Qed.

Local Ltac num_item_tac :=
  intros; cbn [parse_item];
  rewrite num_item;
  [ cbn [p_y p_mo p_d p_h p_mi p_s p_ns]; rewrite set_field_none by lia; reflexivity
  | lia
  | first [change (10 ^ Z.of_nat 2) with 100 | change (10 ^ Z.of_nat 9) with 1000000000]; lia
  | unfold i64_max; lia ].

Lemma pi_mon v rest y d h mi s ns : 1 <= v <= 12 ->
  parse_item Imon (fixed_digits 2 v ++ rest) (mk_parsed y None d h mi s ns)
  = Some (rest, mk_parsed y (Some v) d h mi s ns).
Proof. num_item_tac. Qed.

Lemma pi_day v rest y mo h mi s ns : 1 <= v <= 31 ->
  parse_item Iday (fixed_digits 2 v ++ rest) (mk_parsed y mo None h mi s ns)
  = Some (rest, mk_parsed y mo (Some v) h mi s ns).
Proof. num_item_tac. Qed.

Lemma pi_H v rest y mo d mi s ns : 0 <= v <= 23 ->
  parse_item IH (fixed_digits 2 v ++ rest) (mk_parsed y mo d None mi s ns)
  = Some (rest, mk_parsed y mo d (Some v) mi s ns).
Proof. num_item_tac. Qed.

Lemma pi_M v rest y mo d h s ns : 0 <= v <= 59 ->
  parse_item IM (fixed_digits 2 v ++ rest) (mk_parsed y mo d h None s ns)
  = Some (rest, mk_parsed y mo d h (Some v) s ns).
Proof. num_item_tac. Qed.

Lemma pi_S v rest y mo d h mi ns : 0 <= v <= 59 ->
  parse_item IS (fixed_digits 2 v ++ rest) (mk_parsed y mo d h mi None ns)
  = Some (rest, mk_parsed y mo d h mi (Some v) ns).
Proof. num_item_tac. Qed.

Lemma pi_f v rest y mo d h mi s : 0 <= v <= 999999999 ->
  parse_item If (fixed_digits 9 v ++ rest) (mk_parsed y mo d h mi s None)
  = Some (rest, mk_parsed y mo d h mi s (Some v)).
Proof. num_item_tac. Qed.

Definition unit_code (u : Z) : Prop := u = 0 \/ u = 1 \/ u = 2 \/ u = 3.

Lemma sod_fields sod : 0 <= sod < 86400 ->
  0 <= sod / 3600 <= 23 /\ 0 <= sod / 60 mod 60 <= 59 /\ 0 <= sod mod 60 <= 59 /\
  sod / 3600 * 3600 + sod / 60 mod 60 * 60 + sod mod 60 = sod.
Proof. intros H. repeat split; zdm. Qed.

Lemma nanos_bound u x : unit_code u ->
  0 <= (x mod per_sec u) * (giga / per_sec u) <= 999999999.
Proof.
  intros [ -> | [ -> | [ -> | -> ] ] ].
  - change (giga / per_sec 0) with 1000000000. change (per_sec 0) with 1. zdm.
  - change (giga / per_sec 1) with 1000000. change (per_sec 1) with 1000. zdm.
  - change (giga / per_sec 2) with 1000. change (per_sec 2) with 1000000. zdm.
  - change (giga / per_sec 3) with 1. change (per_sec 3) with 1000000000. zdm.
Qed.

Lemma instant_back u x : unit_code u -> in_i64 x = true ->
  let secs := x / per_sec u in
  instant_of u (secs / 86400) (secs mod 86400) (0 + (x mod per_sec u) * (giga / per_sec u)) = x.
Proof.
  intros Hu Hx. unfold instant_of.
  destruct Hu as [ -> | [ -> | [ -> | -> ] ] ].
  - change (per_sec 0) with 1. cbn [Z.eqb Pos.eqb]. rewrite Z.div_1_r. zdm.
  - change (giga / per_sec 1) with 1000000. change (per_sec 1) with 1000. cbn [Z.eqb Pos.eqb]. zdm.
  - change (giga / per_sec 2) with 1000. change (per_sec 2) with 1000000. cbn [Z.eqb Pos.eqb]. zdm.
  - change (giga / per_sec 3) with 1. change (per_sec 3) with 1000000000. cbn [Z.eqb Pos.eqb].
    unfold giga.
    replace ((x / 1000000000 / 86400 * 86400 + x / 1000000000 mod 86400) * 1000000000 +
             (0 + x mod 1000000000 * 1)) with x by zdm.
    rewrite Hx. reflexivity.
Qed.

Lemma per_sec_code_pos u : unit_code u -> 0 < per_sec u.
Proof. intros [ -> | [ -> | [ -> | -> ] ] ]; reflexivity. Qed.

(* whole seconds: the sub-second part is 0 *)
Lemma instant_back_sec u x : unit_code u -> in_i64 x = true -> x mod per_sec u = 0 ->
  let secs := x / per_sec u in
  instant_of u (secs / 86400) (secs mod 86400) 0 = x.
Proof. intros Hu Hx H. pose proof (instant_back u x Hu Hx) as B. rewrite H in B. exact B. Qed.

(* whole days: the second of the day is 0 as well *)
Lemma instant_back_day u x : unit_code u -> in_i64 x = true -> x mod (86400 * per_sec u) = 0 ->
  instant_of u (x / per_sec u / 86400) 0 0 = x.
Proof.
  intros Hu Hx H. pose proof (per_sec_code_pos u Hu) as Hp.
  rewrite Z.mul_comm, Z.rem_mul_r in H by lia.
  pose proof (Z.mod_pos_bound x (per_sec u) Hp) as B1.
  pose proof (Z.mod_pos_bound (x / per_sec u) 86400 ltac:(lia)) as B2.
  assert (H1 : x mod per_sec u = 0) by nia. assert (H2 : (x / per_sec u) mod 86400 = 0) by nia.
  pose proof (instant_back_sec u x Hu Hx H1) as B. cbv zeta in B. rewrite H2 in B. exact B.
Qed.

(* DateTime::strftime on an instant chrono represents *)
Lemma dt_format_some u items x f :
  x <> i64_min -> fields_of_instant u x = Some f -> dt_format u items x = Ok (render items f).
Proof.
  intros Hn Hf. unfold dt_format. rewrite (proj2 (Z.eqb_neq _ _) Hn), Hf. reflexivity.
Qed.

Lemma dt_format_ok_inv u items x text :
  x <> i64_min -> dt_format u items x = Ok text ->
  exists f, fields_of_instant u x = Some f /\ text = render items f.
Proof.
  intros Hn. unfold dt_format. rewrite (proj2 (Z.eqb_neq _ _) Hn).
  destruct (fields_of_instant u x) as [f|]; [|discriminate]. intros [= <-]. eauto.
Qed.

Definition fmt_k (k : nat) : list item := nth k rules fmt_default.

(* formats without a time of day / with a sub-second field *)
Definition date_only (k : nat) : bool :=
  match k with 2%nat | 3%nat | 5%nat | 9%nat => true | _ => false end.
Definition has_frac (k : nat) : bool := match k with 1%nat => true | _ => false end.
