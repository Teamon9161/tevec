(* Proofs/Kernels.v — the drivers' access traces (Model/Kernels.v) are in bounds and write every slot exactly once:
   what the proofs of Props/C10.v share.  A two-phase trace is `flat_map h calls`, one call per output slot: it is in
   bounds when the accesses of every call are (calls_to_Forall, calls_to_idx_Forall), and when every call ends in the
   one write of its slot the slots written are those of the calls, in order (flat_map_writes, calls_to_slots). *)
From Tevec Require Import Base.Prelude Model.Driver Proofs.Driver Model.Kernels.

Lemma In_mapi {X Y} (h : nat -> X -> Y) xs y :
  In y (mapi h xs) -> exists i v, nth_error xs i = Some v /\ y = h i v.
Proof.
  intros H. apply In_nth_error in H. destruct H as [i Hi]. rewrite nth_error_mapi in Hi.
  destruct (nth_error xs i) as [v|] eqn:E; [|discriminate]. cbn in Hi. injection Hi as <-.
  exists i, v. split; [exact E|reflexivity].
Qed.

Lemma nth_error_seq_Some a n i v : nth_error (seq a n) i = Some v -> v = a + i /\ i < n.
Proof.
  rewrite nth_error_seq. destruct (i <? n) eqn:E; [|discriminate]. intros H. injection H as <-.
  apply Nat.ltb_lt in E. split; [reflexivity|exact E].
Qed.

Lemma writes_of_app t1 t2 : writes_of (t1 ++ t2) = writes_of t1 ++ writes_of t2.
Proof. unfold writes_of. apply flat_map_app. Qed.

Lemma flat_map_writes {X} (h : nat * X -> list acc) (l : list (nat * X)) :
  (forall c, writes_of (h c) = [fst c]) -> writes_of (flat_map h l) = map fst l.
Proof.
  intros H. induction l as [|c l IH]; [reflexivity|]. cbn [flat_map map].
  rewrite writes_of_app, H, IH. reflexivity.
Qed.

(* window 0 is accepted on the empty series only, where there is no call *)
Lemma window0_accepted len : bad_window 0 (seq 0 len) = false -> len = 0.
Proof. destruct len; [reflexivity|discriminate]. Qed.

Lemma calls_to_Forall (P : acc -> Prop) (h : nat * (option nat * nat) -> list acc) w len :
  (forall slot rm, slot < len -> (forall r, rm = Some r -> r <= slot) -> Forall P (h (slot, (rm, slot)))) ->
  Forall P (flat_map h (calls_to w (seq 0 len))).
Proof.
  intros H. apply Forall_flat_map, Forall_forall. intros [slot [rm v]] Hin.
  destruct w as [|w]; [destruct Hin|].
  rewrite calls_to_spec in Hin by lia. apply In_mapi in Hin. destruct Hin as (i & v0 & Hv0 & E).
  injection E as -> -> ->. apply nth_error_seq_Some in Hv0. destruct Hv0 as [-> Hi]. cbn [plus].
  apply H; [exact Hi|]. intros r Hr.
  unfold removed_to, removed in Hr. destruct (_ <? _); [discriminate|].
  apply nth_error_seq_Some in Hr. lia.
Qed.

Lemma calls_to_slots w len : bad_window w (seq 0 len) = false -> map fst (calls_to w (seq 0 len)) = seq 0 len.
Proof.
  destruct w as [|w]; [intros ->%window0_accepted; reflexivity|intros _].
  rewrite calls_to_spec, map_mapi by lia. cbn [fst]. rewrite mapi_fst_seq, seq_length. reflexivity.
Qed.

(* ---- window-index form: the driver's own read plus whatever the callback reads in its window *)
Lemma calls_to_idx_Forall (P : acc -> Prop) (h : nat * (option nat * nat * nat) -> list acc) w len :
  (forall slot st, slot < len -> Forall P (h (slot, (st, slot, slot)))) ->
  Forall P (flat_map h (calls_to_idx w (seq 0 len))).
Proof.
  intros H. apply Forall_flat_map, Forall_forall. intros [slot [[st e] v]] Hin.
  destruct w as [|w]; [destruct Hin|].
  rewrite calls_to_idx_spec in Hin by lia. apply In_mapi in Hin. destruct Hin as (i & v0 & Hv0 & E).
  injection E as -> -> -> ->. apply nth_error_seq_Some in Hv0. destruct Hv0 as [-> Hi]. apply H, Hi.
Qed.

Lemma calls_to_idx_slots w len :
  bad_window w (seq 0 len) = false -> map fst (calls_to_idx w (seq 0 len)) = seq 0 len.
Proof.
  destruct w as [|w]; [intros ->%window0_accepted; reflexivity|intros _].
  rewrite calls_to_idx_spec, map_mapi by lia. cbn [fst]. rewrite mapi_fst_seq, seq_length. reflexivity.
Qed.

(* a read between start.unwrap_or(0) and end = slot < len is a read below both lengths *)
Lemma cb_reads_ok cb len len2 st e :
  cb_reads_in_window cb -> e < len -> len <= len2 -> Forall (acc_ok len len2) (cb st e).
Proof.
  intros Hcb He Hl. apply Forall_forall. intros a Ha. specialize (Hcb st e a Ha).
  destruct a as [[|view] i| | |]; try contradiction; cbn; lia.
Qed.

(* one series: the callback's accesses need only be in bounds at every position *)
Lemma trace_idx_to_Forall cb w len len2 :
  (forall st e, e < len -> Forall (acc_ok len len2) (cb st e)) -> Forall (acc_ok len len2) (trace_idx_to cb w len).
Proof.
  intros Hcb. apply calls_to_idx_Forall. intros slot st Hs.
  apply Forall_cons; [exact Hs|]. apply Forall_app. split; [apply Hcb, Hs|].
  apply Forall_cons; [exact Hs|apply Forall_nil].
Qed.

Theorem trace_idx2_to_writes cb w len :
  (forall st e, writes_of (cb st e) = []) ->
  bad_window w (seq 0 len) = false -> writes_of (trace_idx2_to cb w len) = seq 0 len.
Proof.
  intros Hcb Hb. unfold trace_idx2_to. rewrite flat_map_writes; [apply calls_to_idx_slots, Hb|].
  intros [slot [[st e] v]]. cbn [writes_of flat_map app]. fold (writes_of (cb st e ++ [AUset slot])).
  rewrite writes_of_app, Hcb. reflexivity.
Qed.

Theorem trace_custom_iter_ok w len len2 :
  1 <= w -> Forall (acc_ok len len2) (trace_custom_iter w len).
Proof.
  intros Hw. unfold trace_custom_iter. rewrite slices_iter_spec, map_map by exact Hw.
  apply Forall_map, Forall_forall. intros i Hi. apply in_seq in Hi. unfold wstart. cbn [acc_ok]. lia.
Qed.

Theorem trace_write_ok len len2 :
  Forall (acc_ok len len2) (trace_write len) /\ writes_of (trace_write len) = seq 0 len.
Proof.
  unfold trace_write. split.
  - apply Forall_map, Forall_forall. intros i Hi. apply in_seq in Hi. cbn. lia.
  - unfold writes_of. rewrite flat_map_map, (flat_map_single _ (fun i => i)) by reflexivity. apply map_id.
Qed.

(* ---- degenerate parameters: a clean panic before anything is exposed, or a complete result --- *)
Section Degenerate.
  Context {T St O : Type}.
  Lemma window0_rejected_idx_to (f : St -> option nat * nat * T -> St * O) s0 (xs : list T) :
    xs <> [] -> rolling_apply_idx_to 0 f s0 xs = Panicked AssertFail.
  Proof. intros H. unfold rolling_apply_idx_to, bad_window. destruct xs; [contradiction|reflexivity]. Qed.
  Lemma window0_rejected_custom_to (f : St -> list T -> St * O) s0 (xs : list T) :
    xs <> [] -> rolling_custom_to 0 f s0 xs = Panicked AssertFail.
  Proof. intros H. unfold rolling_custom_to, bad_window. destruct xs; [contradiction|reflexivity]. Qed.
End Degenerate.

Lemma short_second_rejected_idx {T1 T2 St O} w (f : St -> option nat * nat * (T1 * T2) -> St * O) s0
      (xs : list T1) (ys : list T2) :
  length ys < length xs -> rolling2_apply_idx_to w f s0 xs ys = Panicked AssertFail.
Proof.
  intros H. unfold rolling2_apply_idx_to.
  replace (length ys <? length xs) with true by (symmetry; apply Nat.ltb_lt; exact H). reflexivity.
Qed.
Lemma short_second_rejected_custom {T1 T2 St O} w (f : St -> list T1 * list T2 -> St * O) s0
      (xs : list T1) (ys : list T2) :
  length ys < length xs -> rolling2_custom_default w f s0 xs ys = Panicked AssertFail.
Proof.
  intros H. unfold rolling2_custom_default.
  replace (length ys <? length xs) with true by (symmetry; apply Nat.ltb_lt; exact H). reflexivity.
Qed.
