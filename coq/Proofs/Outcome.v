(* Proofs/Outcome.v — "the call returns n outputs and output i is g i" as one equation,
   r = Done (map g (seq 0 n)), and its reading position by position.                       *)
From Coq Require Import List Lia.
From Tevec Require Import Base.Prelude Model.Driver.
Import ListNotations.

Lemma nth_error_map_seq {O} (g : nat -> O) n i :
  nth_error (map g (seq 0 n)) i = if i <? n then Some (g i) else None.
Proof. rewrite nth_error_map, nth_error_seq. destruct (i <? n); reflexivity. Qed.

Lemma map_seq_pointwise {O} (out : list O) n (g : nat -> O) :
  out = map g (seq 0 n) <-> length out = n /\ forall i, i < n -> nth_error out i = Some (g i).
Proof.
  split.
  - intros ->. split; [rewrite map_length; apply seq_length|].
    intros i Hi. rewrite nth_error_map_seq. apply Nat.ltb_lt in Hi. rewrite Hi. reflexivity.
  - intros [Hl Hn]. apply nth_error_ext. intros i. rewrite nth_error_map_seq.
    destruct (i <? n) eqn:E.
    + apply Hn, Nat.ltb_lt, E.
    + apply nth_error_None. apply Nat.ltb_ge in E. lia.
Qed.

(* the same, position by position *)
Definition returns_pointwise {O} (r : outcome O) (n : nat) (g : nat -> O) : Prop :=
  exists out, r = Done out /\ length out = n /\ forall i, i < n -> nth_error out i = Some (g i).

Lemma done_map_iff {O} (r : outcome O) n (g : nat -> O) :
  r = Done (map g (seq 0 n)) <-> returns_pointwise r n g.
Proof.
  split.
  - intros ->. eexists. split; [reflexivity|]. apply map_seq_pointwise. reflexivity.
  - intros (out & -> & H). f_equal. apply map_seq_pointwise. exact H.
Qed.

Lemma done_map_ext {O} (r : outcome O) n (g h : nat -> O) :
  r = Done (map g (seq 0 n)) -> (forall i, i < n -> g i = h i) -> r = Done (map h (seq 0 n)).
Proof.
  intros -> E. f_equal. apply map_ext_in. intros i Hi. apply E. apply in_seq in Hi. lia.
Qed.
