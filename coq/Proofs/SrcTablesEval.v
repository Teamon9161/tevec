(* Proofs/SrcTablesEval.v — the opening steps of the conformance proofs of the translator tie (DESIGN 10.2): a closed access
   to a generated table is replaced by its value, after which the proof is about the model alone.  No statement about any
   table lives here, so that a changed table breaks the files that read it and nothing else.                              *)

(* the closed term t, where it occurs *)
Ltac table t := match goal with |- context [t] => let v := eval vm_compute in t in change t with v | _ => idtac end.

(* every application of the table accessor h to one / two closed arguments *)
Ltac tables1 h := repeat match goal with |- context [h ?a] => table (h a) end.
Ltac tables2 h := repeat match goal with |- context [h ?a ?b] => table (h a b) end.

(* one goal per name of H : In name [n1; ..; nk] *)
Ltac names H := repeat (destruct H as [<- | H]); [.. | destruct H].
