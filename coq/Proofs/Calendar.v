(* Proofs/Calendar.v — the executable calendar of Spec/Calendar.v satisfies CalendarLaws.
   The era (400 years, 146097 days) of a date or day number is split off by a division.  Inside an era
   parts_of_doe and doe_of_parts divide by constants only, so that they invert each other on valid dates
   is linear integer arithmetic: one step for the year within the era, one for the month within the year. *)
From Coq Require Import ZArith Bool List Lia.
From Tevec Require Import Spec.Calendar.
From Coq Require Import ZifyBool.
Local Open Scope Z_scope.

Lemma mod4_era : forall a e, (a + e * 400) mod 4 = a mod 4.
Proof. intros a e. Z.div_mod_to_equations. lia. Qed.

Lemma mod100_era : forall a e, (a + e * 400) mod 100 = a mod 100.
Proof. intros a e. Z.div_mod_to_equations. lia. Qed.

Lemma mod400_era : forall a e, (a + e * 400) mod 400 = a mod 400.
Proof. intros a e. Z.div_mod_to_equations. lia. Qed.

Lemma is_leap_era : forall a e, is_leap (a + e * 400) = is_leap a.
Proof.
  intros a e. unfold is_leap. rewrite mod4_era, mod100_era, mod400_era. reflexivity.
Qed.

Lemma is_leap_mod400 : forall y, is_leap (y mod 400) = is_leap y.
Proof.
  intros y. rewrite <- (is_leap_era (y mod 400) (y / 400)).
  f_equal. pose proof (Z.div_mod y 400). lia.
Qed.

Lemma days_in_month_era : forall a e m, days_in_month (a + e * 400) m = days_in_month a m.
Proof. intros a e m. unfold days_in_month. rewrite is_leap_era. reflexivity. Qed.

Lemma days_in_month_mod400 : forall y m, days_in_month (y mod 400) m = days_in_month y m.
Proof. intros y m. unfold days_in_month. rewrite is_leap_mod400. reflexivity. Qed.

Lemma days_in_month_bounds : forall y m, 28 <= days_in_month y m <= 31.
Proof.
  intros y m. unfold days_in_month.
  destruct (m =? 2); [destruct (is_leap y); lia|].
  destruct ((m =? 4) || (m =? 6) || (m =? 9) || (m =? 11)); lia.
Qed.

Lemma div_era_400 : forall a e, 0 <= a < 400 -> (a + e * 400) / 400 = e.
Proof. intros a e H. Z.div_mod_to_equations. lia. Qed.

Lemma div_era_days : forall a e, 0 <= a < 146097 -> (e * 146097 + a) / 146097 = e.
Proof. intros a e H. Z.div_mod_to_equations. lia. Qed.

Lemma doe_range : forall z, 0 <= z - z / 146097 * 146097 < 146097.
Proof. intros z. Z.div_mod_to_equations. lia. Qed.

Lemma yoe_range : forall y, 0 <= y - y / 400 * 400 < 400.
Proof. intros y. Z.div_mod_to_equations. lia. Qed.

(* Era-year yoe runs from 1 March and starts on day 365 * yoe + yoe / 4 - yoe / 100 of the era; it ends with
   the February of civil year yoe + 1, whose leap day is its day 365.  Every division is by a constant, so
   both directions are linear integer arithmetic. *)

Lemma year_of_doe : forall doe, 0 <= doe < 146097 ->
  let yoe := (doe - doe / 1460 + doe / 36524 - doe / 146096) / 365 in
  let doy := doe - (365 * yoe + yoe / 4 - yoe / 100) in
  0 <= yoe < 400 /\ 0 <= doy < 365 + Z.b2z (is_leap (yoe + 1)).
Proof. intros doe H. unfold is_leap. Z.div_mod_to_equations. lia. Qed.

Lemma doe_of_year : forall yoe doy,
  0 <= yoe < 400 -> 0 <= doy < 365 + Z.b2z (is_leap (yoe + 1)) ->
  let doe := yoe * 365 + yoe / 4 - yoe / 100 + doy in
  0 <= doe < 146097 /\ (doe - doe / 1460 + doe / 36524 - doe / 146096) / 365 = yoe.
Proof. intros yoe doy Hy Hd. unfold is_leap in Hd. cbv zeta. Z.div_mod_to_equations. lia. Qed.

(* Month index mp counts from March (0) to February (11); month mp starts on day (153 * mp + 2) / 5 of
   the era-year. *)

Lemma month_index : forall doy mp,
  (5 * doy + 2) / 153 = mp <-> (153 * mp + 2) / 5 <= doy < (153 * (mp + 1) + 2) / 5.
Proof. intros doy mp. Z.div_mod_to_equations. lia. Qed.

Lemma month_shift : forall m mp, 1 <= m <= 12 /\ (if 2 <? m then m - 3 else m + 9) = mp <->
  0 <= mp <= 11 /\ (if mp <? 10 then mp + 3 else mp - 9) = m.
Proof. intros m mp. destruct (2 <? m) eqn:Em; destruct (mp <? 10) eqn:Emp; lia. Qed.

Definition year_adj (m : Z) : Z := if m <=? 2 then 1 else 0.

(* a month ends where the next one starts; February, the last, is cut off by the end of the era-year *)
Lemma month_length : forall y m, 1 <= m <= 12 ->
  let mp := if 2 <? m then m - 3 else m + 9 in
  days_in_month (y + year_adj m) m
  = Z.min ((153 * (mp + 1) + 2) / 5) (365 + Z.b2z (is_leap (y + 1))) - (153 * mp + 2) / 5.
Proof.
  intros y m Hm.
  assert (C : m = 1 \/ m = 2 \/ m = 3 \/ m = 4 \/ m = 5 \/ m = 6 \/ m = 7 \/ m = 8 \/ m = 9 \/ m = 10
              \/ m = 11 \/ m = 12) by lia.
  destruct C as [->|[->|[->|[->|[->|[->|[->|[->|[->|[->|[->| ->]]]]]]]]]]];
    cbn; destruct (is_leap (y + 1)); reflexivity.
Qed.

Lemma month_of_doy : forall y doy, 0 <= doy < 365 + Z.b2z (is_leap (y + 1)) ->
  let mp := (5 * doy + 2) / 153 in
  let d := doy - (153 * mp + 2) / 5 + 1 in
  let m := if mp <? 10 then mp + 3 else mp - 9 in
  (1 <= m <= 12 /\ (if 2 <? m then m - 3 else m + 9) = mp) /\ 1 <= d <= days_in_month (y + year_adj m) m.
Proof.
  intros y doy H mp d m.
  assert (Hmp : 0 <= mp <= 11) by (subst mp; Z.div_mod_to_equations; lia).
  assert (Hm : 1 <= m <= 12 /\ (if 2 <? m then m - 3 else m + 9) = mp) by (apply month_shift; auto).
  split; [exact Hm|]. destruct Hm as [Hm Emp].
  rewrite (month_length y m Hm). cbv zeta. rewrite Emp.
  pose proof (proj1 (month_index doy mp) eq_refl). lia.
Qed.

Lemma doy_of_month : forall y m d, 1 <= m <= 12 -> 1 <= d <= days_in_month (y + year_adj m) m ->
  let mp := if 2 <? m then m - 3 else m + 9 in
  let doy := (153 * mp + 2) / 5 + d - 1 in
  0 <= doy < 365 + Z.b2z (is_leap (y + 1)) /\ (5 * doy + 2) / 153 = mp.
Proof.
  intros y m d Hm Hd mp doy.
  assert (Hmp : 0 <= mp <= 11) by (apply (month_shift m mp); auto).
  rewrite (month_length y m Hm) in Hd. cbv zeta in Hd. fold mp in Hd.
  rewrite month_index. subst doy. Z.div_mod_to_equations. lia.
Qed.

(* parts_of_doe and doe_of_parts are inverse on the valid dates of an era *)

Lemma partsA : forall doe, 0 <= doe < 146097 ->
  forall yoe m d, parts_of_doe doe = (yoe, m, d) ->
  0 <= yoe < 400 /\ 1 <= m <= 12 /\ 1 <= d /\
  d <= days_in_month (yoe + year_adj m) m /\
  doe_of_parts yoe m d = doe.
Proof.
  intros doe Hdoe yoe m d E.
  destruct (year_of_doe doe Hdoe) as (Hy & Hdoy).
  unfold parts_of_doe in E. cbv zeta in *.
  set (y := (doe - doe / 1460 + doe / 36524 - doe / 146096) / 365) in *.
  set (doy := doe - (365 * y + y / 4 - y / 100)) in *.
  destruct (month_of_doy y doy Hdoy) as ((Hm & Emp) & Hd). cbv zeta in *.
  set (mp := (5 * doy + 2) / 153) in *.
  apply pair_equal_spec in E as [E Ed]. apply pair_equal_spec in E as [<- Em].
  rewrite Em in *. rewrite Ed in *.
  unfold doe_of_parts. cbv zeta. rewrite Emp. lia.
Qed.

Lemma partsB : forall yoe m d, 0 <= yoe < 400 -> 1 <= m <= 12 -> 1 <= d ->
  d <= days_in_month (yoe + year_adj m) m ->
  0 <= doe_of_parts yoe m d < 146097 /\ parts_of_doe (doe_of_parts yoe m d) = (yoe, m, d).
Proof.
  intros yoe m d Hy Hm Hd1 Hd.
  destruct (doy_of_month yoe m d Hm (conj Hd1 Hd)) as (Hdoy & Emp).
  unfold doe_of_parts. cbv zeta in *.
  set (mp := if 2 <? m then m - 3 else m + 9) in *.
  set (doy := (153 * mp + 2) / 5 + d - 1) in *.
  destruct (doe_of_year yoe doy Hy Hdoy) as (Hdoe & Ey). cbv zeta in *.
  split; [exact Hdoe|].
  unfold parts_of_doe. cbv zeta. rewrite Ey.
  replace (yoe * 365 + yoe / 4 - yoe / 100 + doy - (365 * yoe + yoe / 4 - yoe / 100)) with doy by lia.
  rewrite Emp.
  f_equal; [f_equal|]; [|lia].
  apply (month_shift m mp). auto.
Qed.

(* a day number in era-local terms *)
Lemma civil_of_days_era : forall z, let era := (z + 719468) / 146097 in
  exists yoe m d, civil_of_days z = (yoe + year_adj m + era * 400, m, d) /\
    0 <= yoe < 400 /\ 1 <= m <= 12 /\ 1 <= d <= days_in_month (yoe + year_adj m) m /\
    era * 146097 + doe_of_parts yoe m d = z + 719468.
Proof.
  intros z era. unfold civil_of_days. cbv zeta. fold era.
  pose proof (doe_range (z + 719468)) as Hdoe. fold era in Hdoe.
  set (doe := z + 719468 - era * 146097) in *.
  destruct (parts_of_doe doe) as [[yoe m] d] eqn:E.
  destruct (partsA doe Hdoe yoe m d E) as (Hy & Hm & Hd1 & Hd & Hinv).
  exists yoe, m, d. repeat split; try lia.
  f_equal. f_equal. unfold year_adj. destruct (m <=? 2); lia.
Qed.

Lemma days_civil_days : forall z, days_of_civil (civil_of_days z) = z.
Proof.
  intros z. destruct (civil_of_days_era z) as (yoe & m & d & -> & Hy & _ & _ & Hinv).
  set (era := (z + 719468) / 146097) in *.
  unfold days_of_civil. cbv zeta.
  replace (if m <=? 2 then yoe + year_adj m + era * 400 - 1 else yoe + year_adj m + era * 400)
    with (yoe + era * 400) by (unfold year_adj; destruct (m <=? 2); lia).
  rewrite (div_era_400 yoe era Hy).
  replace (yoe + era * 400 - era * 400) with yoe by lia.
  lia.
Qed.

Lemma civil_days_civil : forall c, valid_civil c -> civil_of_days (days_of_civil c) = c.
Proof.
  intros [[y0 m] d] Hv. unfold valid_civil, valid_civilb in Hv.
  repeat (apply andb_prop in Hv; destruct Hv as [Hv ?]).
  unfold days_of_civil. cbv zeta.
  set (y := if m <=? 2 then y0 - 1 else y0).
  pose proof (yoe_range y) as Hy.
  set (era := y / 400) in *.
  set (yoe := y - era * 400) in *.
  assert (Hy0 : y0 = yoe + year_adj m + era * 400).
  { unfold yoe, y, year_adj. destruct (m <=? 2); lia. }
  assert (Hd : d <= days_in_month (yoe + year_adj m) m).
  { rewrite <- (days_in_month_era (yoe + year_adj m) era m), <- Hy0. lia. }
  destruct (partsB yoe m d Hy ltac:(lia) ltac:(lia) Hd) as [Hr Hp].
  set (dp := doe_of_parts yoe m d) in *.
  unfold civil_of_days. cbv zeta.
  replace (era * 146097 + dp - 719468 + 719468) with (era * 146097 + dp) by lia.
  rewrite (div_era_days dp era Hr).
  replace (era * 146097 + dp - era * 146097) with dp by lia.
  rewrite Hp.
  f_equal. f_equal. rewrite Hy0. unfold year_adj. destruct (m <=? 2); lia.
Qed.

Lemma civil_of_days_valid : forall z, valid_civil (civil_of_days z).
Proof.
  intros z. destruct (civil_of_days_era z) as (yoe & m & d & -> & _ & Hm & Hd & _).
  unfold valid_civil, valid_civilb. rewrite days_in_month_era.
  repeat (apply andb_true_intro; split); lia.
Qed.

(* the year of a day number lies in the day number's era (or is the era's last February's) *)
Lemma civil_of_days_year : forall z y m d, civil_of_days z = (y, m, d) ->
  (z + 719468) / 146097 * 400 <= y <= (z + 719468) / 146097 * 400 + 400.
Proof.
  intros z y m d E. destruct (civil_of_days_era z) as (yoe & m' & d' & E' & Hy & _).
  rewrite E' in E. apply pair_equal_spec in E as [E _]. apply pair_equal_spec in E as [<- _].
  unfold year_adj. destruct (m' <=? 2); lia.
Qed.

Theorem calendar_lawful : CalendarLaws civil_of_days days_of_civil.
Proof.
  constructor.
  - exact days_civil_days.
  - exact civil_days_civil.
  - exact civil_of_days_valid.
Qed.

Lemma add_months_valid : forall c k, valid_civil c -> valid_civil (add_months c k).
Proof.
  intros [[y m] d] k Hv. unfold valid_civil, valid_civilb in Hv.
  repeat (apply andb_prop in Hv; destruct Hv as [Hv ?]).
  unfold add_months. cbv zeta.
  set (t := y * 12 + (m - 1) + k).
  unfold valid_civil, valid_civilb.
  pose proof (Z.mod_pos_bound t 12 ltac:(lia)) as Hm.
  pose proof (days_in_month_bounds (t / 12) (t mod 12 + 1)) as Hb.
  repeat (apply andb_true_intro; split); lia.
Qed.

Lemma add_months_0 : forall c, valid_civil c -> add_months c 0 = c.
Proof.
  intros [[y m] d] Hv. unfold valid_civil, valid_civilb in Hv.
  repeat (apply andb_prop in Hv; destruct Hv as [Hv ?]).
  unfold add_months. cbv zeta.
  assert (Hq : (y * 12 + (m - 1) + 0) / 12 = y) by (Z.div_mod_to_equations; lia).
  assert (Hr : (y * 12 + (m - 1) + 0) mod 12 + 1 = m) by (Z.div_mod_to_equations; lia).
  rewrite Hq, Hr.
  f_equal. lia.
Qed.

Print Assumptions calendar_lawful.
