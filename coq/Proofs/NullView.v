(* Proofs/NullView.v — C08 for the aggregations of Model/Agg.v, for EVERY carrier and EVERY pair of null
   dictionaries (no law of the numeric class is used: the statements hold bit for bit at binary64):
     * every valid aggregation is a function of `vals xs` (the unwrapped non-null elements, in order);
     * `vals` is invariant under re-encoding (SameView) and under null insertion (NullInsert);
     * the two-series aggregations are functions of the pairwise-complete observations `vpairs`, which are
       invariant under re-encoding of either series and under pairwise insertion (PairInsert);
     * the positional aggregations (arg-extrema, count_none, counting the null value) are invariant under
       re-encoding (they are not, and are not claimed to be, invariant under insertion).
   Axiom-free.                                                                                          *)
From Coq Require Import List Bool.
From Tevec Require Import Base.Num Model.Agg Model.NullView Proofs.AggGeneric Proofs.ViewBase.
Import ListNotations.
Set Implicit Arguments.

Section View.
  Context {A T1 T2 : Type} (D1 : IsNone T1 A) (D2 : IsNone T2 A).

  Lemma vals_same_view xs1 xs2 : SameView D1 D2 xs1 xs2 -> vals xs1 = vals xs2.
  Proof.
    induction 1 as [|a b r1 r2 Hab _ IH]; [reflexivity|]. rewrite !vals_cons, (sv_not_none Hab).
    destruct (not_none b) eqn:E; [|exact IH]. rewrite (sv_unwrap Hab E), IH. reflexivity.
  Qed.
End View.

(* the option view of a series, read with the view's own dictionary, encodes the same series *)
Lemma view_same_view {A T} (D : IsNone T A) (dflt : A) (xs : list T) :
  SameView D (IsNone_view dflt) xs (opt_view xs).
Proof.
  unfold SameView, opt_view. induction xs as [|v xs IH]; [constructor|]. cbn [map]. constructor; [|exact IH].
  unfold same_view, to_opt at 2. cbn [is_none unwrap IsNone_view]. destruct (to_opt v); reflexivity.
Qed.

Section Insert.
  Context {A T : Type} {D : IsNone T A}.

  Lemma vals_null_insert xs ys : NullInsert xs ys -> vals ys = vals xs.
  Proof. intros H. unfold vals. f_equal. exact (filter_valid_insert H). Qed.

  (* deleting all nulls is the extreme case: the valid elements themselves *)
  Lemma null_insert_valid_elems xs : NullInsert (valid_elems xs) xs.
  Proof.
    induction xs as [|v xs IH]; [constructor|]. unfold valid_elems in *. cbn [filter].
    unfold not_none at 1. destruct (is_none v) eqn:E; cbn [negb]; [apply ni_null; assumption|apply ni_keep, IH].
  Qed.
End Insert.

Section AggVals.
  Context {A : Type} {NA : Num A} {T1 T2 : Type} {D1 : IsNone T1 A} {D2 : IsNone T2 A}
          {F : Type} {NF : Num F}.
  Variable tof : A -> F.
  Variables (xs1 : list T1) (xs2 : list T2).
  Hypothesis HV : vals xs1 = vals xs2.

  Lemma vfirst_unwrap (T : Type) (D : IsNone T A) (xs : list T) : option_map unwrap (vfirst xs) = hd_error (vals xs).
  Proof. rewrite vfirst_spec. unfold vals. rewrite hd_error_map. reflexivity. Qed.
  Lemma vlast_unwrap (T : Type) (D : IsNone T A) (xs : list T) : option_map unwrap (vlast xs) = hd_error (rev (vals xs)).
  Proof. rewrite vlast_spec. unfold vals. rewrite <- map_rev, hd_error_map. reflexivity. Qed.

  Lemma vapply_n_vals U (f : U -> A -> U) init : vapply_n f init xs1 = vapply_n f init xs2.
  Proof. rewrite !vapply_n_spec, HV. reflexivity. Qed.

  Lemma vmean_var_vals mp : vmean_var tof mp xs1 = vmean_var tof mp xs2.
  Proof. unfold vmean_var. rewrite vapply_n_vals. reflexivity. Qed.

  Lemma vcount_value_vals (v1 : T1) (v2 : T2) :
    same_view D1 D2 v1 v2 -> not_none v2 = true -> vcount_value v1 xs1 = vcount_value v2 xs2.
  Proof. intros E Hn. rewrite !vcount_value_spec, (sv_not_none E), Hn, (sv_unwrap E Hn), HV. reflexivity. Qed.

  (* each aggregation is, by its characterisation in AggGeneric, some function applied to `vals` *)
  Theorem agg_of_vals :
    count_valid xs1 = count_valid xs2 /\ vsum xs1 = vsum xs2 /\ vmean tof xs1 = vmean tof xs2 /\
    vmin xs1 = vmin xs2 /\ vmax xs1 = vmax xs2 /\
    option_map unwrap (vfirst xs1) = option_map unwrap (vfirst xs2) /\
    option_map unwrap (vlast xs1) = option_map unwrap (vlast xs2) /\
    (forall mp, vmean_var tof mp xs1 = vmean_var tof mp xs2 /\ vvar tof mp xs1 = vvar tof mp xs2 /\
                vstd tof mp xs1 = vstd tof mp xs2 /\ vskew tof mp xs1 = vskew tof mp xs2 /\
                vkurt tof mp xs1 = vkurt tof mp xs2) /\
    (forall (v1 : T1) (v2 : T2), same_view D1 D2 v1 v2 -> not_none v2 = true ->
                                 vcount_value v1 xs1 = vcount_value v2 xs2) /\
    (forall {U} (f : U -> A -> U) init, vfold_n f init xs1 = vfold_n f init xs2).
  Proof.
    split; [rewrite !count_valid_spec, HV; reflexivity|].
    split; [rewrite !vsum_is_plain_sum, HV; reflexivity|].
    split; [rewrite !(vmean_is_plain_mean tof), HV; reflexivity|].
    split; [rewrite !vmin_is_plain_min, HV; reflexivity|].
    split; [rewrite !vmax_is_plain_max, HV; reflexivity|].
    split; [rewrite !vfirst_unwrap, HV; reflexivity|].
    split; [rewrite !vlast_unwrap, HV; reflexivity|].
    split; [|split].
    - (* each moment statistic is a fixed expression in one `vapply_n` run *)
      intros mp. unfold vstd, vvar. rewrite (vmean_var_vals mp). repeat split; [unfold vskew|unfold vkurt]; rewrite vapply_n_vals; reflexivity.
    - exact vcount_value_vals.
    - exact vapply_n_vals.
  Qed.
End AggVals.

Section Positional.
  Context {A : Type} {NA : Num A} {T1 T2 : Type} {D1 : IsNone T1 A} {D2 : IsNone T2 A}.
  Variables (xs1 : list T1) (xs2 : list T2).
  Hypothesis HS : SameView D1 D2 xs1 xs2.

  Lemma varg_same_view better : varg better xs1 = varg better xs2.
  Proof.
    unfold varg. f_equal. f_equal. apply (fold_left_rel (R := same_view D1 D2)); [|exact HS].
    intros [[ext idx] cur] a b E. unfold arg_step. destruct (sv_cases E) as [[-> ->]|(-> & -> & ->)]; reflexivity.
  Qed.
  Lemma vargmax_same_view : vargmax xs1 = vargmax xs2.
  Proof. apply varg_same_view. Qed.
  Lemma vargmin_same_view : vargmin xs1 = vargmin xs2.
  Proof. apply varg_same_view. Qed.

  Lemma count_none_same_view : count_none xs1 = count_none xs2.
  Proof.
    unfold count_none. apply (fold_left_rel (R := same_view D1 D2)); [|exact HS].
    intros n a b E. rewrite (sv_is_none E). reflexivity.
  Qed.

  (* any value, null or not *)
  Lemma vcount_value_same_view (v1 : T1) (v2 : T2) :
    same_view D1 D2 v1 v2 -> vcount_value v1 xs1 = vcount_value v2 xs2.
  Proof.
    intros E. destruct (not_none v2) eqn:Hn.
    - apply vcount_value_vals; [apply vals_same_view; exact HS|exact E|exact Hn].
    - rewrite !vcount_value_spec, (sv_not_none E), Hn. exact count_none_same_view.
  Qed.

  (* first / last valid element, as elements: related, hence equal option views *)
  Lemma vfirst_same_view : option_map (to_opt (H := D1)) (vfirst xs1) = option_map (to_opt (H := D2)) (vfirst xs2).
  Proof. apply (find_same_view HS). Qed.
  Lemma vlast_same_view : option_map (to_opt (H := D1)) (vlast xs1) = option_map (to_opt (H := D2)) (vlast xs2).
  Proof. apply find_same_view, Forall2_rev, HS. Qed.
End Positional.

Section Pairs.
  Context {A T1 T2 : Type} {D1 : IsNone T1 A} {D2 : IsNone T2 A}.

  Definition vpairs (zs : list (T1 * T2)) : list (A * A) :=
    flat_map (fun p => if complete p then [(unwrap (fst p), unwrap (snd p))] else []) zs.

  Lemma vpairs_cons p zs :
    vpairs (p :: zs) = if complete p then (unwrap (fst p), unwrap (snd p)) :: vpairs zs else vpairs zs.
  Proof. unfold vpairs. cbn [flat_map]. destruct (complete p); reflexivity. Qed.

  Lemma vpairs_pair_insert zs zs' : PairInsert zs zs' -> vpairs zs' = vpairs zs.
  Proof.
    induction 1 as [|p zs zs' _ IH|p zs zs' Hp _ IH]; [reflexivity| |].
    - rewrite !vpairs_cons, IH. reflexivity.
    - rewrite vpairs_cons, Hp. exact IH.
  Qed.
End Pairs.

Section PairsView.
  Context {A T1 T2 U1 U2 : Type} (D1 : IsNone T1 A) (D2 : IsNone T2 A) (E1 : IsNone U1 A) (E2 : IsNone U2 A).

  (* re-encoding either series (independently) keeps the pairwise-complete observations *)
  Lemma vpairs_same_view xs ys xs' ys' :
    SameView D1 E1 xs xs' -> SameView D2 E2 ys ys' ->
    vpairs (D1 := D1) (D2 := D2) (combine xs ys) = vpairs (D1 := E1) (D2 := E2) (combine xs' ys').
  Proof.
    intros HX HY. pose proof (Forall2_combine HX HY) as HZ.
    induction HZ as [|p q r1 r2 [Hp Hq] _ IH]; [reflexivity|].
    rewrite !vpairs_cons. unfold complete. rewrite (sv_not_none Hp), (sv_not_none Hq).
    destruct (not_none (fst q)) eqn:Ea, (not_none (snd q)) eqn:Eb; cbn [andb]; try exact IH.
    rewrite (sv_unwrap Hp Ea), (sv_unwrap Hq Eb), IH. reflexivity.
  Qed.
End PairsView.

Section TwoSeries.
  Context {A : Type} {NA : Num A} {F : Type} {NF : Num F}.
  Variable tof : A -> F.
  Local Open Scope num_scope.

  Definition cov_add (s : nat * F * F * F) (p : A * A) : nat * F * F * F :=
    let '(n, sa, sb, sab) := s in
    let va := tof (fst p) in let vb := tof (snd p) in (S n, sa + va, sb + vb, sab + va * vb).
  Definition corr_add (s : nat * F * F * F * F * F) (p : A * A) : nat * F * F * F * F * F :=
    let '(n, sa, s2a, sb, s2b, sab) := s in
    let va := tof (fst p) in let vb := tof (snd p) in
    (S n, sa + va, s2a + va * va, sb + vb, s2b + vb * vb, sab + va * vb).

  Context {T1 T2 : Type} {D1 : IsNone T1 A} {D2 : IsNone T2 A}.

  (* a step that skips incomplete pairs and otherwise sees only the unwrapped pair folds over `vpairs` *)
  Lemma fold_vpairs {S} (step : S -> T1 * T2 -> S) (add : S -> A * A -> S) (zs : list (T1 * T2)) s :
    (forall s p, step s p = if complete p then add s (unwrap (fst p), unwrap (snd p)) else s) ->
    fold_left step zs s = fold_left add (vpairs zs) s.
  Proof.
    intros Hstep. revert s. induction zs as [|p zs IH]; intros s; [reflexivity|]. cbn [fold_left].
    rewrite vpairs_cons, Hstep. destruct (complete p); apply IH.
  Qed.
  Lemma cov_fold (zs : list (T1 * T2)) s :
    fold_left (cov_step tof) zs s = fold_left cov_add (vpairs zs) s.
  Proof. apply fold_vpairs. intros [[[n sa] sb] sab] p. unfold cov_step, complete. destruct (_ && _); reflexivity. Qed.
  Lemma corr_fold (zs : list (T1 * T2)) s :
    fold_left (corr_step tof) zs s = fold_left corr_add (vpairs zs) s.
  Proof. apply fold_vpairs. intros [[[[[n sa] s2a] sb] s2b] sab] p. unfold corr_step, complete. destruct (_ && _); reflexivity. Qed.
End TwoSeries.

Section TwoSeriesVals.
  Context {A : Type} {NA : Num A} {F : Type} {NF : Num F}.
  Variable tof : A -> F.
  Context {T1 T2 U1 U2 : Type} {D1 : IsNone T1 A} {D2 : IsNone T2 A} {E1 : IsNone U1 A} {E2 : IsNone U2 A}.
  Variables (xs : list T1) (ys : list T2) (xs' : list U1) (ys' : list U2).
  Hypothesis HP : vpairs (D1 := D1) (D2 := D2) (combine xs ys) = vpairs (D1 := E1) (D2 := E2) (combine xs' ys').

  Lemma vcov_pairs mp : vcov tof mp xs ys = vcov tof mp xs' ys'.
  Proof. unfold vcov. rewrite !cov_fold, HP. reflexivity. Qed.
  Lemma vcorr_pairs mp : vcorr_pearson tof mp xs ys = vcorr_pearson tof mp xs' ys'.
  Proof. unfold vcorr_pearson. rewrite !corr_fold, HP. reflexivity. Qed.
End TwoSeriesVals.
