(* Proofs/Audit19.v — C19: collectors against an iterator whose announced length (upper size hint) is wrong
   in either direction (default backend, raw trusted, fallible); the number of items a fallible collector
   pulls; linspace / range for every Number dictionary: exactly `len` elements, element k =
   start + step * k in the dictionary's own arithmetic, the empty-span rule, and when the generator panics;
   the step and element of the binary64 dictionary that the correspondence run executes. *)
From Tevec Require Import Base.Prelude Model.Driver Proofs.Driver Model.Create Model.Collect
     Proofs.Create Proofs.Collect.
Set Implicit Arguments.

(* ---------------------------------------------------------------------------------------------- *)
Lemma collect_from_trusted_default_any_hint {A} (hint : nat) (items : list A) :
  collect_from_trusted BDefault (TI hint items) = Done items.
Proof. reflexivity. Qed.

(* raw trusted collector: the three cases of the announcement *)
Lemma collect_trusted_trichotomy {A} (hint : nat) (items : list A) :
  (hint = length items -> collect_from_trusted BRaw (TI hint items) = Done items) /\
  (length items < hint ->
     collect_from_trusted BRaw (TI hint items)
     = Uninit (map Some items ++ repeat None (hint - length items))) /\
  (hint < length items -> collect_from_trusted BRaw (TI hint items) = Panicked OtherPanic).
Proof.
  cbn [collect_from_trusted ti_hint ti_items]. rewrite collect_trusted_spec. split; [|split].
  - intros ->. rewrite Nat.ltb_irrefl. reflexivity.
  - intros H. replace (hint <? length items) with false by (symmetry; apply Nat.ltb_ge; lia).
    apply Nat.ltb_lt in H. rewrite H. reflexivity.
  - intros H. apply Nat.ltb_lt in H. rewrite H. reflexivity.
Qed.

(* ---------------------------------------------------------------------------------------------- *)
(* fallible collectors against any announcement                                                     *)
Section TryAny.
  Context {A E : Type}.

  (* default bodies: the announcement is never read *)
  Lemma try_collect_trusted_default_any (hint : nat) (items : list (A + E)) :
    try_collect_from_trusted BDefault (TI hint items) = try_collect_from_iter (TI hint items).
  Proof. reflexivity. Qed.

  (* raw body, no error among the items *)
  Lemma try_collect_trusted_raw_all_ok (hint : nat) (xs : list A) :
    try_collect_from_trusted BRaw (TI hint (map (@inl A E) xs))
    = if hint <? length xs then TOk (Panicked OtherPanic)
      else if length xs <? hint then TOk (Uninit (map Some xs ++ repeat None (hint - length xs)))
           else TOk (Done xs).
  Proof.
    cbn [try_collect_from_trusted ti_hint ti_items]. rewrite ok_prefix_all, first_err_all.
    pose proof (collect_trusted_spec hint xs) as H. unfold collect_trusted in H.
    destruct (hint <? length xs); [reflexivity|]. rewrite H. destruct (length xs <? hint); reflexivity.
  Qed.

  (* raw body, first error after the Ok items xs: the FIRST error, unless the announcement was so
     short that the writes overran the allocation before the error was reached *)
  Lemma try_collect_trusted_raw_err (hint : nat) (xs : list A) (e : E) (rest : list (A + E)) :
    try_collect_from_trusted BRaw (TI hint (map (@inl A E) xs ++ inr e :: rest))
    = if hint <? length xs then TOk (Panicked OtherPanic) else TErr e.
  Proof.
    cbn [try_collect_from_trusted ti_hint ti_items]. rewrite ok_prefix_err, first_err_err. reflexivity.
  Qed.

  Lemma pulled_shape (xs : list A) (e : E) (rest : list (A + E)) :
    pulled (map (@inl A E) xs) = length xs /\
    pulled (map (@inl A E) xs ++ inr e :: rest) = S (length xs).
  Proof. split; [apply pulled_all|apply pulled_err]. Qed.
End TryAny.

(* ---------------------------------------------------------------------------------------------- *)
(* (c) generators for every Number dictionary                                                       *)
Section GenAny.
  Context {A : Type} (N : num_ops A).

  Definition dflt_zero (o : option A) : A := match o with Some v => v | None => n_zero N end.
  Definition dflt_one (o : option A) : A := match o with Some v => v | None => n_one N end.

  Lemma linspace_new_shape (a b : A) (n : nat) :
    match linspace_new N a b n with
    | Ok s => ls_start s = a /\ ls_index s = 0 /\ ls_len s = n
              /\ (n <= 1 -> ls_step s = n_zero N)
    | Panic _ => 1 < n
    end.
  Proof.
    unfold linspace_new. destruct (1 <? n) eqn:E.
    - apply Nat.ltb_lt in E. destruct (n_sub N b a) as [d|k]; cbn [bind]; [|exact E].
      destruct (n_div N d (n_of_usize N (n - 1))) as [q|k]; cbn [bind]; [|exact E].
      cbn. repeat split; try reflexivity. lia.
    - cbn [bind]. cbn. repeat split; reflexivity.
  Qed.

  (* linspace with n points: exactly n elements, element k = start + step * k — or the panic of the
     step computation, before anything is produced *)
  Lemma create_linspace_any (trusted : bool) (start : option A) (e : A) (n : nat) :
    match linspace_new N (dflt_zero start) e n with
    | Ok s => create_linspace N trusted start e n
              = Done (map (elem_at N (dflt_zero start) (ls_step s)) (seq 0 n))
    | Panic k => create_linspace N trusted start e n = Panicked k
    end.
  Proof.
    unfold create_linspace. fold (dflt_zero start).
    pose proof (linspace_new_shape (dflt_zero start) e n) as H.
    destruct (linspace_new N (dflt_zero start) e n) as [s|k]; [|reflexivity].
    destruct H as (H1 & H2 & H3 & _). destruct s as [a st i m]. cbn in H1, H2, H3. subst a i m.
    apply collect_ls_fresh.
  Qed.

  Lemma range_new_shape (a b step : A) :
    match range_new N a b step with
    | Ok s => ls_start s = a /\ ls_step s = step /\ ls_index s = 0
    | Panic _ => True
    end.
  Proof.
    unfold range_new.
    destruct (if gtb N step (n_zero N) then n_leb N b a else geb N b a); [cbn; auto|].
    destruct (n_sub N b a) as [span|k]; cbn [bind]; [|exact I].
    destruct (n_div N span step) as [q|k]; cbn [bind]; [|exact I].
    destruct (n_sub N span (n_mul N (n_ceil N q) step)) as [rest|k]; cbn [bind]; [|exact I].
    destruct (n_to_usize N _) as [len|k]; cbn [bind]; [|exact I].
    cbn. auto.
  Qed.

  (* range: exactly `count` elements, element k = start + step * k *)
  Lemma create_range_any (trusted : bool) (start : option A) (e : A) (step : option A) :
    match range_new N (dflt_zero start) e (dflt_one step) with
    | Ok s => create_range N trusted start e step
              = Done (map (elem_at N (dflt_zero start) (dflt_one step)) (seq 0 (ls_len s)))
    | Panic k => create_range N trusted start e step = Panicked k
    end.
  Proof.
    unfold create_range. fold (dflt_zero start) (dflt_one step).
    pose proof (range_new_shape (dflt_zero start) e (dflt_one step)) as H.
    destruct (range_new N (dflt_zero start) e (dflt_one step)) as [s|k]; [|reflexivity].
    destruct H as (H1 & H2 & H3). destruct s as [a st i m]. cbn in H1, H2, H3. subst a st i.
    apply collect_ls_fresh.
  Qed.

  (* the empty-span rule, in the dictionary's own comparisons: nothing is computed, [] is returned *)
  Lemma create_range_empty_any (trusted : bool) (start : option A) (e : A) (step : option A) :
    (if gtb N (dflt_one step) (n_zero N) then n_leb N e (dflt_zero start) else geb N e (dflt_zero start)) = true ->
    create_range N trusted start e step = Done [].
  Proof.
    intros H. unfold create_range. fold (dflt_zero start) (dflt_one step). unfold range_new. rewrite H.
    exact (collect_ls_fresh N trusted (dflt_zero start) (dflt_one step) 0).
  Qed.

  Lemma map_elem_length (a st : A) (n : nat) : length (map (elem_at N a st) (seq 0 n)) = n.
  Proof. rewrite map_length, seq_length. reflexivity. Qed.

  Lemma map_elem_nth (a st : A) (n k : nat) :
    k < n -> nth_error (map (elem_at N a st) (seq 0 n)) k = Some (elem_at N a st k).
  Proof.
    intros H. apply map_nth_error.
    rewrite (nth_error_nth' (seq 0 n) 0) by (rewrite seq_length; exact H).
    rewrite seq_nth by exact H. reflexivity.
  Qed.
End GenAny.

(* ---------------------------------------------------------------------------------------------- *)
(* the binary64 dictionary of Run/RunC19.v (the one the correspondence run executes) *)
From Coq Require Import Floats.
From Tevec Require Run.RunC19.

Definition f_lin_step (a e : float) (n : nat) : float :=
  if 1 <? n then PrimFloat.div (PrimFloat.sub e a) (Run.RunC19.f_of_usize (n - 1)) else PrimFloat.zero.

Definition f_elem (a st : float) (k : nat) : float :=
  PrimFloat.add a (PrimFloat.mul st (Run.RunC19.f_of_usize k)).

Lemma f_elem_is_elem_at a st k : elem_at Run.RunC19.f_ops a st k = f_elem a st k.
Proof. reflexivity. Qed.
