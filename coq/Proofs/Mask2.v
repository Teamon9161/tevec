(* Proofs/Mask2.v — C05: the null mask of the remaining add-emit-remove families at XR, as corollaries of
   their closed forms: ts_vewm, ts_vwma (Proofs/Features.v), the time-trend regressions (Proofs/Trend.v),
   ts_vzscore (Proofs/Norm.v), ts_vcov / ts_vcorr / ts_vregx_* (Proofs/Binary.v).
   Every mask is "null iff the count of valid (pairwise-complete) observations of the window is below the
   effective min_periods, or the statistic is undefined on the window" with the undefinedness condition
   of DESIGN 5.6 written out per function.  Count-only masks are boolean equations, masks that involve a
   condition on reals are stated `is_null o = true <-> ...`.                                            *)
From Coq Require Import Reals Lra Lia List.
From Tevec Require Import Base.Prelude Base.Num Base.XR Spec.Stats Spec.Ols Model.Driver Proofs.Driver
     Model.Features Proofs.Sliding Proofs.Features Proofs.Features2 Model.Binary Model.Reg Model.Norm Proofs.Ols
     Proofs.Binary Proofs.Trend Proofs.Norm Proofs.Mask.
Import ListNotations.

(* nullness of any option; is_null is its instance at R *)
Definition onull {X} (o : option X) : bool := match o with None => true | Some _ => false end.
Lemma is_null_onull (o : XR) : is_null o = onull o. Proof. reflexivity. Qed.

(* the min_periods gate in front of a value g: boolean form ... *)
Lemma gate_bool {X} (m n : nat) (g : option X) (u : bool) :
  (m <= n -> onull g = u) ->
  onull (if m <=? n then g else None) = orb (n <? m) u.
Proof.
  intros H. destruct (m <=? n) eqn:E.
  - apply Nat.leb_le in E. rewrite (ltb_false n m) by exact E.
    apply H. exact E.
  - apply Nat.leb_gt in E. rewrite (ltb_true n m) by exact E.
    reflexivity.
Qed.
(* ... and propositional form, for undefinedness conditions on reals *)
Lemma gate_prop {X} (m n : nat) (g : option X) (U : Prop) :
  (m <= n -> (onull g = true <-> U)) ->
  (onull (if m <=? n then g else None) = true <-> n < m \/ U).
Proof.
  intros H. destruct (m <=? n) eqn:E.
  - apply Nat.leb_le in E. rewrite (H E). split; [intros HU; right; exact HU|intros [Hlt|HU]; [exfalso; lia|exact HU]].
  - apply Nat.leb_gt in E. split; [intros _; left; exact E|reflexivity].
Qed.

Lemma valid_win_le w i (xs : list XR) : 1 <= w -> length (valid (win w i xs)) <= w.
Proof. intros Hw. pose proof (valid_length_le (win w i xs)). pose proof (win_length_le w i xs Hw). lia. Qed.

Theorem mask_vewm body (w : nat) mp (xs : list XR) :
  1 <= w ->
  outputs (ts_run (ts_vewm_f w mp) body w xs) (length xs)
      (fun i o => is_null o = orb (below (mp_eff mp w 0) (valid (win w i xs))) (below 1 (valid (win w i xs)))).
Proof.
  intros Hw. apply (runs_outputs _ _ _ body w xs Hw (ts_vewm_run w mp Hw)).
  intros i Hi. unfold ewm_out. cbv zeta. unfold below. rewrite is_null_onull. apply gate_bool. intros _.
  pose proof (ewm_denominator_zero_iff w (length (valid (win w i xs))) Hw (valid_win_le w i xs Hw)) as HU.
  destruct (Req_EM_T _ 0) as [E|E]; cbn [onull].
  - apply HU in E. rewrite E. reflexivity.
  - destruct (length (valid (win w i xs))) as [|k]; [exfalso; apply E, HU; reflexivity|reflexivity].
Qed.

Theorem mask_vwma body (w : nat) mp (xs : list XR) :
  1 <= w ->
  outputs (ts_run (ts_vwma_f w mp) body w xs) (length xs)
      (fun i o => is_null o = orb (below (mp_eff mp w 0) (valid (win w i xs))) (below 1 (valid (win w i xs)))).
Proof.
  intros Hw. apply (runs_outputs _ _ _ body w xs Hw (ts_vwma_run w mp)).
  intros i Hi. unfold wma_out. unfold below. rewrite is_null_onull. apply gate_bool. intros _.
  destruct (length (valid (win w i xs))) as [|k]; reflexivity.
Qed.

(* the time-trend regressions: undefined exactly below two valid values *)
Lemma trend_null (V : list R) (f : R -> R -> R) : onull (ols_x (trend_pairs V) f) = (length V <? 2).
Proof.
  unfold ols_x. destruct (Req_EM_T (detB (trend_pairs V)) 0) as [E|E]; cbn [onull].
  - apply trend_det_zero_iff in E. symmetry. apply Nat.ltb_lt. lia.
  - symmetry. apply Nat.ltb_ge. destruct (le_lt_dec 2 (length V)) as [H|H]; [exact H|].
    exfalso. apply E. apply trend_det_zero_iff. lia.
Qed.

Lemma mask_trend (emit : nat -> @tr_st XR -> XR) (f : list R -> R -> R -> R) body (w : nat) mp (xs : list XR) :
  1 <= w ->
  (forall m s W, tr_abs s W ->
     emit m s = if m <=? length (valid W) then ols_x (trend_pairs (valid W)) (f (valid W)) else None) ->
  outputs (ts_run (tr_feat (emit (mp_eff mp w 0))) body w xs) (length xs)
      (fun i o => is_null o = orb (below (mp_eff mp w 0) (valid (win w i xs))) (below 2 (valid (win w i xs)))).
Proof.
  intros Hw Hemit.
  apply mask_transfer with
    (F := fun i => (fun V => if mp_eff mp w 0 <=? length V then ols_x (trend_pairs V) (f V) else None)
                     (valid (win w i xs))).
  - apply (tr_entry (emit (mp_eff mp w 0))
             (fun V => if mp_eff mp w 0 <=? length V then ols_x (trend_pairs V) (f V) else None)); [exact Hw|].
    intros s W HA. apply Hemit. exact HA.
  - intros i Hi. unfold below. rewrite is_null_onull. apply gate_bool. intros _. apply trend_null.
Qed.

Theorem mask_vreg_slope body (w : nat) mp (xs : list XR) :
  1 <= w ->
  outputs (ts_run (ts_vreg_slope_f w mp) body w xs) (length xs)
      (fun i o => is_null o = orb (below (mp_eff mp w 0) (valid (win w i xs))) (below 2 (valid (win w i xs)))).
Proof.
  intros Hw. apply (mask_trend emit_slope (fun _ _ be => be)); [exact Hw|].
  intros m s W HA. apply emit_slope_spec. exact HA.
Qed.

Theorem mask_vreg_intercept body (w : nat) mp (xs : list XR) :
  1 <= w ->
  outputs (ts_run (ts_vreg_intercept_f w mp) body w xs) (length xs)
      (fun i o => is_null o = orb (below (mp_eff mp w 0) (valid (win w i xs))) (below 2 (valid (win w i xs)))).
Proof.
  intros Hw. apply (mask_trend emit_intercept (fun _ al _ => al)); [exact Hw|].
  intros m s W HA. apply emit_intercept_spec. exact HA.
Qed.

Theorem mask_vreg body (w : nat) mp (xs : list XR) :
  1 <= w ->
  outputs (ts_run (ts_vreg_f w mp) body w xs) (length xs)
      (fun i o => is_null o = orb (below (mp_eff mp w 0) (valid (win w i xs))) (below 2 (valid (win w i xs)))).
Proof.
  intros Hw. apply (mask_trend emit_reg (fun V al be => al + be * nP (trend_pairs V))%R); [exact Hw|].
  intros m s W HA. apply emit_reg_spec. exact HA.
Qed.

Theorem mask_vtsf body (w : nat) mp (xs : list XR) :
  1 <= w ->
  outputs (ts_run (ts_vtsf_f w mp) body w xs) (length xs)
      (fun i o => is_null o = orb (below (mp_eff mp w 0) (valid (win w i xs))) (below 2 (valid (win w i xs)))).
Proof.
  intros Hw. apply (mask_trend emit_tsf (fun V al be => al + be * (nP (trend_pairs V) + 1))%R); [exact Hw|].
  intros m s W HA. apply emit_tsf_spec. exact HA.
Qed.

Theorem mask_vreg_resid_mean body (w : nat) mp (xs : list XR) :
  1 <= w ->
  outputs (ts_run (ts_vreg_resid_mean_f w mp) body w xs) (length xs)
      (fun i o => is_null o = orb (below (mp_eff mp w 0) (valid (win w i xs))) (below 2 (valid (win w i xs)))).
Proof.
  intros Hw.
  apply (mask_trend emit_resid_mean (fun V al be => sse al be (trend_pairs V) / nP (trend_pairs V))%R);
    [exact Hw|].
  intros m s W HA. apply emit_resid_mean_spec. exact HA.
Qed.

(* z-score: null iff the current element is null, or below min_periods, or zero spread in the code's
   sense (population variance of the valid window <= EPS; this includes every window with one valid value) -- *)
Theorem mask_vzscore body (w : nat) mp (xs : list XR) :
  1 <= w ->
  outputs (ts_vzscore body w mp xs) (length xs)
      (fun i o => (is_null o = true <->
        nth_error xs i = Some None \/ length (valid (win w i xs)) < mp_eff mp w 0 \/
        (popvarR (valid (win w i xs)) <= EPS)%R)).
Proof.
  intros Hw. apply mask_transfer with (1 := ts_vzscore_spec body w mp xs Hw).
  intros i Hi. destruct (nth_error xs i) as [[x|]|] eqn:Ev.
  - cbv zeta. rewrite is_null_onull.
    rewrite (gate_prop (mp_eff mp w 0) (length (valid (win w i xs))) _
               (popvarR (valid (win w i xs)) <= EPS)%R).
    + split; [intros H; right; exact H|intros [H|H]; [discriminate|exact H]].
    + intros _. destruct (Rlt_dec EPS (popvarR (valid (win w i xs)))) as [H|H]; cbn [onull].
      * split; [discriminate|intros H'; lra].
      * split; [intros _; lra|reflexivity].
  - cbn [is_null]. split; [intros _; left; reflexivity|reflexivity].
  - apply nth_error_None in Ev. lia.
Qed.

(* a window with a single valid value has zero spread: the z-score needs two *)
Lemma popvar_le_eps_single (V : list R) : length V <= 1 -> (popvarR V <= EPS)%R.
Proof.
  intros H. pose proof EPS_pos. destruct V as [|a [|b V]]; [| |cbn in H; lia].
  - unfold popvarR, cmom, devsum. cbn. lra.
  - rewrite popvar_single. lra.
Qed.

(* if the emitted value is G(pairs of the window) and G P satisfies Q P, output i satisfies Q on the pairs of window i *)
Lemma csum_mask {O} (emit : @csum XR -> O) (G : list (R * R) -> O) (Q : list (R * R) -> O -> Prop)
      body (w : nat) (xs ys : list XR) :
  1 <= w -> length xs = length ys ->
  (forall s W, csum_abs s W -> emit s = G (vpairs W)) ->
  (forall P, Q P (G P)) ->
  outputs (ts_run2 (csum_feat emit) body w xs ys) (length xs) (fun i o => Q (pairs (win w i xs) (win w i ys)) o).
Proof.
  intros Hw Hlen HG HQ. apply mask_transfer with (1 := csum_entry emit G body w xs ys Hw Hlen HG).
  intros i _. apply HQ.
Qed.

Theorem mask_vcov body (w : nat) mp (xs ys : list XR) :
  1 <= w -> length xs = length ys ->
  outputs (ts_run2 (ts_vcov_f w mp) body w xs ys) (length xs)
      (fun i o => is_null o = (length (pairs (win w i xs) (win w i ys)) <? mp_eff mp w 2)).
Proof.
  intros Hw Hlen.
  apply (csum_mask (emit_cov (mp_eff mp w 2)) (fun P => if mp_eff mp w 2 <=? length P then Some (cov_sample P) else None)
           (fun P o => is_null o = (length P <? mp_eff mp w 2))); [exact Hw|exact Hlen| |].
  - intros s W HA. apply emit_cov_spec; [exact HA|apply mp_eff_ge].
  - intros P. rewrite is_null_onull, (gate_bool _ _ _ false); [apply orb_false_r|reflexivity].
Qed.

Theorem mask_vcorr body (w : nat) mp (xs ys : list XR) :
  1 <= w -> length xs = length ys ->
  outputs (ts_run2 (ts_vcorr_f w mp) body w xs ys) (length xs)
      (fun i o => let P := pairs (win w i xs) (win w i ys) in
        (is_null o = true <->
         length P < mp_eff mp w 0 \/ (popvarR (map fst P) <= EPS)%R \/ (popvarR (map snd P) <= EPS)%R)).
Proof.
  intros Hw Hlen.
  apply (csum_mask (emit_corr (mp_eff mp w 0))
           (fun P => if mp_eff mp w 0 <=? length P then
                       (if Rlt_dec EPS (popvarR (map fst P)) then
                          (if Rlt_dec EPS (popvarR (map snd P)) then Some (corrP P) else None)
                        else None)
                     else None)
           (fun P o => is_null o = true <->
              length P < mp_eff mp w 0 \/ (popvarR (map fst P) <= EPS)%R \/ (popvarR (map snd P) <= EPS)%R));
    [exact Hw|exact Hlen| |].
  - intros s W HA. apply emit_corr_spec. exact HA.
  - intros P. rewrite is_null_onull. apply gate_prop. intros _.
    destruct (Rlt_dec EPS (popvarR (map fst P))) as [Ha|Ha];
      [destruct (Rlt_dec EPS (popvarR (map snd P))) as [Hb|Hb]|]; cbn [onull].
    + split; [discriminate|intros [H|H]; lra].
    + split; [intros _; right; lra|reflexivity].
    + split; [intros _; left; lra|reflexivity].
Qed.

(* the regressions on a second series: undefined exactly when the normal equations are singular,
   detB P = n Sbb - Sb^2 = 0, i.e. the regressor is constant over the observations (Proofs/Ols.v
   detB_zero_iff_constant; includes n <= 1) *)
Lemma olsx_null (P : list (R * R)) (f : R -> R -> R) : onull (ols_x P f) = true <-> detB P = 0%R.
Proof.
  unfold ols_x. destruct (Req_EM_T (detB P) 0) as [E|E]; cbn [onull].
  - split; [intros _; exact E|reflexivity].
  - split; [discriminate|intros H; contradiction].
Qed.

Theorem mask_vregx_alpha body (w : nat) mp (xs ys : list XR) :
  1 <= w -> length xs = length ys ->
  outputs (ts_run2 (ts_vregx_alpha_f w mp) body w xs ys) (length xs)
      (fun i o => let P := pairs (win w i xs) (win w i ys) in
        (is_null o = true <-> length P < mp_eff mp w 0 \/ detB P = 0%R)).
Proof.
  intros Hw Hlen.
  apply (csum_mask (emit_regx_alpha (mp_eff mp w 0))
           (fun P => if mp_eff mp w 0 <=? length P then ols_x P (fun al _ => al) else None)
           (fun P o => is_null o = true <-> length P < mp_eff mp w 0 \/ detB P = 0%R)); [exact Hw|exact Hlen| |].
  - intros s W HA. apply emit_regx_alpha_spec. exact HA.
  - intros P. rewrite is_null_onull. apply gate_prop. intros _. apply olsx_null.
Qed.

Theorem mask_vregx_beta body (w : nat) mp (xs ys : list XR) :
  1 <= w -> length xs = length ys ->
  outputs (ts_run2 (ts_vregx_beta_f w mp) body w xs ys) (length xs)
      (fun i o => let P := pairs (win w i xs) (win w i ys) in
        (is_null o = true <-> length P < mp_eff mp w 0 \/ detB P = 0%R)).
Proof.
  intros Hw Hlen.
  apply (csum_mask (emit_regx_beta (mp_eff mp w 0))
           (fun P => if mp_eff mp w 0 <=? length P then ols_x P (fun _ be => be) else None)
           (fun P o => is_null o = true <-> length P < mp_eff mp w 0 \/ detB P = 0%R)); [exact Hw|exact Hlen| |].
  - intros s W HA. apply emit_regx_beta_spec. exact HA.
  - intros P. rewrite is_null_onull. apply gate_prop. intros _. apply olsx_null.
Qed.

(* ts_vregx_all emits (alpha, beta, SSE): the three components are null together *)
Theorem mask_vregx_all body (w : nat) mp (xs ys : list XR) :
  1 <= w -> length xs = length ys ->
  outputs (ts_run2 (ts_vregx_all_f w mp) body w xs ys) (length xs)
      (fun i o => let P := pairs (win w i xs) (win w i ys) in
        (is_null (fst (fst o)) = true <-> length P < mp_eff mp w 0 \/ detB P = 0%R) /\
        (is_null (snd (fst o)) = true <-> length P < mp_eff mp w 0 \/ detB P = 0%R) /\
        (is_null (snd o) = true <-> length P < mp_eff mp w 0 \/ detB P = 0%R)).
Proof.
  intros Hw Hlen.
  apply (csum_mask (emit_regx_all (mp_eff mp w 0))
           (fun P => if mp_eff mp w 0 <=? length P then
                       (if Req_EM_T (detB P) 0 then (None, None, None)
                        else (Some (ols_alpha P), Some (ols_beta P), Some (sse (ols_alpha P) (ols_beta P) P)))
                     else (None, None, None))
           (fun P (o : XR * XR * XR) =>
              (is_null (fst (fst o)) = true <-> length P < mp_eff mp w 0 \/ detB P = 0%R) /\
              (is_null (snd (fst o)) = true <-> length P < mp_eff mp w 0 \/ detB P = 0%R) /\
              (is_null (snd o) = true <-> length P < mp_eff mp w 0 \/ detB P = 0%R))); [exact Hw|exact Hlen| |].
  - intros s W HA. apply emit_regx_all_spec. exact HA.
  - intros P. destruct (mp_eff mp w 0 <=? length P) eqn:E.
    + apply Nat.leb_le in E. destruct (Req_EM_T (detB P) 0) as [D|D]; cbn [fst snd is_null].
      * repeat split; try (intros _; right; exact D); reflexivity.
      * repeat split; try discriminate; intros [H|H]; try (exfalso; lia); contradiction.
    + apply Nat.leb_gt in E. cbn [fst snd is_null].
      repeat split; try (intros _; left; exact E); reflexivity.
Qed.
