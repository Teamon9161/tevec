(* Proofs/QIdxFloat.v — the quantile index law at binary64.
   `vquantile` (tea-agg/src/vec_valid.rs; Model/Quantile.v) computes  h = (n-1) as f64 * q  in binary64 and
   selects at floor(h) / ceil(h) (q > 0.5: the same with fl(1 - q)).  Here, for Coq's primitive `float`
   (carrier NumF64 of Base/F64.v, floor/ceil of Run/RunC12.v), through Flocq's specification of IEEE 754:
     (A) the model's `f64_floorZ` / `f64_ceilZ` ARE the mathematical floor / ceiling of the real value;
     (B) `(n-1) as f64` is exact for n-1 < 2^53; fl((n-1) q) lies in [0, n-1] for 0 <= q <= 1 (rounding to
         nearest is monotone and fixes representable numbers); fl(1 - q) lies in [0, 1];
     (C) hence 0 <= floor <= ceil <= n-1 for both products and every q in [0, 1] when n-1 < 2^53
         (`qidx_f64_in_range`); beyond 2^53 the cast may round UP (2^53+3 becomes 2^53+4) and fl((n-1) q) <= n-1
         fails for q = 1 (C12_quantile_naive_product_out_of_range) — but the code multiplies by q only when q <= 0.5 and by
         fl(1 - q) <= 0.5 otherwise, and half of the rounded length is at most n-1: the index law
         `TransQuantile.QIdxLaw` holds at binary64 for EVERY n (`qidx_f64_in_range_all`, `qidx_law_f64`);
     (D) the consequences for the model: vquantile / vmedian never panic, null transparency is an outright
         equality; (E) every non-NaN float equals itself (premise of ts_vargmin / ts_vargmax safety).
   Assumptions: the Reals axioms and the standard library's specification of the primitive float operations
   (Floats.FloatAxioms), listed per theorem in notes/C12.md.  Flocq declares none.                          *)
From Coq Require Import Reals Lra Lia ZArith List Floats Bool Psatz.
From Flocq Require Import Core BinarySingleNaN.
From Flocq Require PrimFloat.
From Tevec Require Import Base.Prelude Base.Num Base.F64 Model.Cmp Model.NullView
     Model.SortCmp Model.Quantile Spec.ExtremaOrd Proofs.TransQuantile Proofs.Audit12 Proofs.Kernels3 Proofs.KernelsMap
     Proofs.CmpOrd Proofs.CmpOrdFloat Proofs.RoundSum.
Import ListNotations.
Local Open Scope R_scope.

Module FP := Flocq.IEEE754.PrimFloat.
Module CF := Coq.Floats.PrimFloat.

(* the NumFloor instance of the execution runs (Run/RunC12.v), restated *)
Definition f64_floorZ (f : float) : Z :=
  match Prim2SF f with
  | S754_finite s m e =>
      let mz := Zpos m in
      if (0 <=? e)%Z then (if s then - (mz * 2 ^ e) else mz * 2 ^ e)%Z
      else let d := (2 ^ (- e))%Z in
           if s then (- ((mz + d - 1) / d))%Z else (mz / d)%Z
  | _ => 0%Z
  end.
Definition f64_ceilZ (f : float) : Z := (- f64_floorZ (- f)%float)%Z.
Definition NumFloorF64 : NumFloor float := {| nfloorZ := f64_floorZ; nceilZ := f64_ceilZ |}.

Lemma Zdiv_neg_ceil (m d : Z) : (0 < d)%Z -> (- m / d = - ((m + d - 1) / d))%Z.
Proof.
  intros Hd. symmetry. apply (Z.div_unique_pos _ _ _ (d - 1 - (m + d - 1) mod d)).
  - pose proof (Z.mod_pos_bound (m + d - 1) d Hd). lia.
  - pose proof (Z_div_mod_eq_full (m + d - 1) d). lia.
Qed.

Lemma f64_floorZ_spec (x : float) : ffin x = true -> f64_floorZ x = Zfloor (f2r x).
Proof.
  rewrite ffin_equiv. unfold f64_floorZ, f2r. rewrite <- FP.B2SF_Prim2B.
  destruct (FP.Prim2B x) as [s|s| |s m e Hb]; cbn [B2SF B2R is_finite]; try discriminate; intros _.
  - symmetry. apply (Zfloor_IZR 0).
  - unfold F2R. cbn [Fnum Fexp]. destruct (0 <=? e)%Z eqn:E.
    + apply Z.leb_le in E. rewrite <- (IZR_Zpower radix2) by exact E. rewrite <- mult_IZR, Zfloor_IZR.
      change (radix2 : Z) with 2%Z. destruct s; cbn [cond_Zopp]; lia.
    + apply Z.leb_gt in E.
      assert (Hp : bpow radix2 e = / IZR (2 ^ (- e))).
      { rewrite <- (Z.opp_involutive e) at 1. rewrite bpow_opp, <- (IZR_Zpower radix2) by lia. reflexivity. }
      rewrite Hp.
      assert (Hd : (0 < 2 ^ (- e))%Z) by (apply Z.pow_pos_nonneg; lia).
      fold (Rdiv (IZR (cond_Zopp s (Z.pos m))) (IZR (2 ^ (- e)))). rewrite Zfloor_div by lia.
      destruct s; cbn [cond_Zopp]; [|reflexivity].
      change (Z.neg m) with (- Z.pos m)%Z. symmetry. apply Zdiv_neg_ceil, Hd.
Qed.

Lemma f64_ceilZ_spec (x : float) : ffin x = true -> f64_ceilZ x = Zceil (f2r x).
Proof.
  intros H. unfold f64_ceilZ, Zceil. rewrite f64_floorZ_spec by (rewrite ffin_opp; exact H).
  rewrite f2r_opp. reflexivity.
Qed.

Lemma rnd64_mono x y : x <= y -> rnd64 x <= rnd64 y.
Proof. intros H. apply round_le; [apply FLT_exp_valid; exact prec64_gt_0|apply valid_rnd_N|exact H]. Qed.
Lemma rnd64_0 : rnd64 0 = 0.
Proof. apply rnd64_id, fmt64_0. Qed.

Lemma f2r_lt_emax x : Rabs (f2r x) < bpow radix2 1024.
Proof. unfold f2r. apply (abs_B2R_lt_emax 53 1024). Qed.

Lemma rnd64_between lo hi x : fmt64 lo -> fmt64 hi -> lo <= x <= hi -> lo <= rnd64 x <= hi.
Proof.
  intros Flo Fhi [H1 H2]. split.
  - rewrite <- (rnd64_id lo Flo). apply rnd64_mono, H1.
  - rewrite <- (rnd64_id hi Fhi). apply rnd64_mono, H2.
Qed.

Lemma Rabs_between lo hi x : lo <= x <= hi -> Rabs x <= Rmax (Rabs lo) (Rabs hi).
Proof.
  intros [H1 H2]. apply Rabs_le. split.
  - apply Rle_trans with (- Rabs lo); [apply Ropp_le_contravar, Rmax_l|].
    pose proof (Rle_abs (- lo)) as H. rewrite Rabs_Ropp in H. lra.
  - apply Rle_trans with (Rabs hi); [|apply Rmax_r]. pose proof (Rle_abs hi). lra.
Qed.

Lemma between_lt_emax lo hi x :
  lo <= x <= hi -> Rabs lo < bpow radix2 1024 -> Rabs hi < bpow radix2 1024 -> Rabs x < bpow radix2 1024.
Proof.
  intros H Blo Bhi. apply Rle_lt_trans with (Rmax (Rabs lo) (Rabs hi)); [apply Rabs_between, H|].
  apply Rmax_lub_lt; assumption.
Qed.

Lemma zero_lt_emax : Rabs 0 < bpow radix2 1024.
Proof. rewrite Rabs_R0. apply bpow_gt_0. Qed.

(* a product / a difference whose exact value lies between two binary64 numbers below the overflow threshold:
   the computed one is finite and lies between them (rounding to nearest is monotone and fixes the bounds) *)
Lemma fmul_between (a b : float) (lo hi : R) :
  ffin a = true -> ffin b = true -> fmt64 lo -> fmt64 hi -> lo <= f2r a * f2r b <= hi ->
  Rabs lo < bpow radix2 1024 -> Rabs hi < bpow radix2 1024 ->
  ffin (a * b)%float = true /\ lo <= f2r (a * b)%float <= hi.
Proof.
  intros Fa Fb Flo Fhi H Blo Bhi. pose proof (rnd64_between _ _ _ Flo Fhi H) as HR.
  rewrite ffin_equiv in *. unfold f2r in *. rewrite FP.mul_equiv.
  pose proof (Bmult_correct FloatOps.prec FloatOps.emax FP.Hprec FP.Hmax mode_NE (FP.Prim2B a) (FP.Prim2B b)) as HC.
  match type of HC with context [round ?r ?f ?c ?x] => change (round r f c x) with (rnd64 x) in HC end.
  rewrite Rlt_bool_true in HC by exact (between_lt_emax _ _ _ HR Blo Bhi).
  destruct HC as (H1 & H2 & _). rewrite H1, H2, Fa, Fb. split; [reflexivity|exact HR].
Qed.

Lemma fsub_between (a b : float) (lo hi : R) :
  ffin a = true -> ffin b = true -> fmt64 lo -> fmt64 hi -> lo <= f2r a - f2r b <= hi ->
  Rabs lo < bpow radix2 1024 -> Rabs hi < bpow radix2 1024 ->
  ffin (a - b)%float = true /\ lo <= f2r (a - b)%float <= hi.
Proof.
  intros Fa Fb Flo Fhi H Blo Bhi. pose proof (rnd64_between _ _ _ Flo Fhi H) as HR.
  rewrite ffin_equiv in *. unfold f2r in *. rewrite FP.sub_equiv.
  pose proof (Bminus_correct FloatOps.prec FloatOps.emax FP.Hprec FP.Hmax mode_NE (FP.Prim2B a) (FP.Prim2B b) Fa Fb) as HC.
  match type of HC with context [round ?r ?f ?c ?x] => change (round r f c x) with (rnd64 x) in HC end.
  rewrite Rlt_bool_true in HC by exact (between_lt_emax _ _ _ HR Blo Bhi).
  destruct HC as (H1 & H2 & _). rewrite H1, H2. split; [reflexivity|exact HR].
Qed.

Lemma fmt64_IZR (z : Z) : (Z.abs z < 2 ^ 53)%Z -> fmt64 (IZR z).
Proof.
  intros H. apply (grid_fmt 0); [lia|exists z; cbn [bpow]; ring|].
  rewrite <- abs_IZR. change (bpow radix2 (0 + 53)) with (IZR (2 ^ 53)). apply IZR_lt, H.
Qed.

Lemma mul_bounded_by (a q : float) (K : R) :
  ffin a = true -> ffin q = true -> 0 <= f2r a -> 0 <= f2r q -> f2r a * f2r q <= K -> fmt64 K ->
  K < bpow radix2 1024 ->
  ffin (a * q)%float = true /\ 0 <= f2r (a * q)%float <= K.
Proof.
  intros Fa Fq Ha Hq HK FK BK.
  assert (H0 : 0 <= f2r a * f2r q) by (apply Rmult_le_pos; assumption).
  apply fmul_between; [exact Fa|exact Fq|apply fmt64_0|exact FK|split; assumption|apply zero_lt_emax|].
  rewrite Rabs_pos_eq by lra. exact BK.
Qed.

Lemma mul_unit_bounded (a q : float) :
  ffin a = true -> ffin q = true -> 0 <= f2r a -> 0 <= f2r q <= 1 ->
  ffin (a * q)%float = true /\ 0 <= f2r (a * q)%float <= f2r a.
Proof.
  intros Fa Fq Ha Hq. apply mul_bounded_by; [exact Fa|exact Fq|exact Ha|apply Hq|nra|apply fmt64_f2r|].
  eapply Rle_lt_trans; [apply Rle_abs|apply f2r_lt_emax].
Qed.

Lemma fmt64_pow2 (k : Z) : (0 <= k)%Z -> fmt64 (IZR (2 ^ k)).
Proof.
  intros Hk. rewrite (IZR_Zpower radix2) by exact Hk. apply generic_format_FLT_bpow; [exact prec64_gt_0|lia].
Qed.

(* an integer 0 <= z < 2^63 rounds to at most twice a power of two K <= z *)
Lemma rnd64_int_le_twice (z : Z) :
  (0 <= z < 2 ^ 63)%Z ->
  exists K : Z, (0 <= K <= z)%Z /\ fmt64 (IZR K) /\ 0 <= rnd64 (IZR z) <= 2 * IZR K.
Proof.
  intros [H0 H1]. destruct (Z.eq_dec z 0) as [->|Hz].
  - exists 0%Z. split; [lia|]. split; [apply fmt64_0|]. rewrite rnd64_0. lra.
  - assert (Hp : (0 < z)%Z) by lia. pose proof (Z.log2_spec z Hp) as [L1 L2].
    pose proof (Z.log2_nonneg z) as Lk. set (k := Z.log2 z) in *.
    exists (2 ^ k)%Z. split; [split; [apply Z.pow_nonneg; lia|exact L1]|]. split; [apply fmt64_pow2, Lk|].
    split; [rewrite <- rnd64_0; apply rnd64_mono, IZR_le; lia|].
    replace (2 * IZR (2 ^ k)) with (IZR (2 ^ Z.succ k)) by (rewrite Z.pow_succ_r by exact Lk; rewrite mult_IZR; reflexivity).
    rewrite <- (rnd64_id (IZR (2 ^ Z.succ k))) by (apply fmt64_pow2; lia).
    apply rnd64_mono, IZR_le. lia.
Qed.

(* `m as f64` for every m: the correctly rounded value of m mod 2^63 *)
Lemma nofnat_f64_general (m : nat) :
  ffin (nofnat (A := float) m) = true /\
  f2r (nofnat (A := float) m) = rnd64 (IZR (Z.of_nat m mod 2 ^ 63)).
Proof.
  unfold nofnat. cbn [nofZ NumF64]. unfold f64_ofZ.
  set (z0 := Z.of_nat m). assert (H0 : (0 <= z0)%Z) by (unfold z0; lia).
  rewrite Z.abs_eq by exact H0. destruct (Z.ltb_spec z0 0) as [Hneg|_]; [lia|].
  rewrite ffin_equiv. unfold f2r. rewrite FP.of_int63_equiv.
  rewrite Uint63.of_Z_spec. change Uint63.wB with (2 ^ 63)%Z.
  pose proof (Z.mod_pos_bound z0 (2 ^ 63) eq_refl) as Hz. set (z := (z0 mod 2 ^ 63)%Z) in *.
  pose proof (binary_normalize_correct FloatOps.prec FloatOps.emax FP.Hprec FP.Hmax mode_NE z 0 false) as HC.
  cbv zeta in HC.
  assert (Hx : F2R (Float radix2 z 0) = IZR z) by (unfold F2R; cbn [Fnum Fexp bpow]; ring).
  rewrite Hx in HC.
  match type of HC with context [round ?r ?f ?c ?d] =>
    change (round r f c d) with (rnd64 d) in HC end.
  rewrite Rlt_bool_true in HC.
  - destruct HC as (H1 & H2 & _). split; assumption.
  - assert (R0 : 0 <= rnd64 (IZR z)) by (rewrite <- rnd64_0; apply rnd64_mono, IZR_le; lia).
    rewrite Rabs_pos_eq by exact R0.
    apply Rle_lt_trans with (IZR (2 ^ 63)).
    + rewrite <- (rnd64_id (IZR (2 ^ 63))) by (apply fmt64_pow2; lia). apply rnd64_mono, IZR_le. lia.
    + change (IZR (2 ^ 63)) with (bpow radix2 63). apply bpow_lt. reflexivity.
Qed.

Lemma nofnat_f64_exact (m : nat) :
  (Z.of_nat m < 2 ^ 53)%Z ->
  ffin (nofnat (A := float) m) = true /\ f2r (nofnat (A := float) m) = IZR (Z.of_nat m).
Proof.
  intros Hm. destruct (nofnat_f64_general m) as [F E]. split; [exact F|].
  rewrite E, Z.mod_small by lia. apply rnd64_id, fmt64_IZR. lia.
Qed.

Lemma f2r_one : f2r one = 1.
Proof. unfold f2r. rewrite FP.one_equiv, FP.Prim2B_B2Prim. apply Bone_correct. Qed.
Lemma ffin_one : ffin one = true.
Proof. reflexivity. Qed.

Lemma fmt64_1 : fmt64 1.
Proof. apply (fmt64_IZR 1). reflexivity. Qed.
Lemma one_lt_emax : Rabs 1 < bpow radix2 1024.
Proof. rewrite Rabs_R1. change 1 with (bpow radix2 0). apply bpow_lt. reflexivity. Qed.

Lemma one_minus_bounded (q : float) :
  ffin q = true -> 0 <= f2r q <= 1 ->
  ffin (one - q)%float = true /\ 0 <= f2r (one - q)%float <= 1.
Proof.
  intros Fq Hq. apply fsub_between; [apply ffin_one|exact Fq|apply fmt64_0|apply fmt64_1| |apply zero_lt_emax|apply one_lt_emax].
  rewrite f2r_one. lra.
Qed.

Lemma Prim2SF_one : Prim2SF one = S754_finite false 4503599627370496 (-52).
Proof. vm_compute. reflexivity. Qed.
Lemma Prim2SF_zero : Prim2SF zero = S754_zero false.
Proof. vm_compute. reflexivity. Qed.

(* the guard of vquantile, `0 <= q && q <= 1` in binary64 comparisons, says: q is finite and its value is in [0, 1] *)
Lemma unit_guard_f64 (q : float) :
  nleb (A := float) nzero q && nleb q none = true -> ffin q = true /\ 0 <= f2r q <= 1.
Proof.
  cbn [nleb nzero none NumF64]. intros H. apply andb_prop in H. destruct H as [H0 H1].
  assert (Fq : ffin q = true).
  { rewrite ffin_equiv. rewrite FloatAxioms.leb_spec in H0, H1.
    rewrite Prim2SF_zero in H0. rewrite Prim2SF_one in H1. rewrite <- FP.B2SF_Prim2B in H0, H1.
    destruct (FP.Prim2B q) as [s|s| |s m e Hb]; cbn [B2SF is_finite] in *; try reflexivity.
    - destruct s; [discriminate H0|discriminate H1].
    - discriminate H0. }
  split; [exact Fq|].
  rewrite FP.leb_equiv in H0, H1. rewrite ffin_equiv in Fq.
  rewrite Bleb_correct in H0, H1; try assumption; try (rewrite <- ffin_equiv; reflexivity).
  fold (f2r zero) in H0. fold (f2r q) in H0, H1. fold (f2r one) in H1. rewrite f2r_zero in H0. rewrite f2r_one in H1.
  split; [revert H0|revert H1]; case Rle_bool_spec; intros; try discriminate; assumption.
Qed.

Lemma floor_ceil_between (x : R) (L : Z) :
  0 <= x <= IZR L -> (0 <= Zfloor x <= Zceil x)%Z /\ (Zceil x <= L)%Z /\ (Zceil x - Zfloor x <= 1)%Z.
Proof.
  intros [H0 H1]. pose proof (Zfloor_lb x) as Fl. pose proof (Zfloor_ub x) as Fu. pose proof (Zceil_ub x) as Cu.
  repeat split.
  - apply Zfloor_lub. exact H0.
  - apply le_IZR. lra.
  - apply Zceil_glb. exact H1.
  - assert (Zceil x <= Zfloor x + 1)%Z; [|lia]. apply Zceil_glb. rewrite plus_IZR. lra.
Qed.

(* what the selection needs from a computed fractional index h when there are n valid elements *)
Definition idx_in_range (h : float) (n : nat) : Prop :=
  ffin h = true /\ (0 <= f64_floorZ h <= f64_ceilZ h)%Z /\ (f64_ceilZ h <= Z.of_nat n - 1)%Z /\
  (f64_ceilZ h - f64_floorZ h <= 1)%Z.

Lemma idx_in_range_of_real (h : float) (n : nat) :
  ffin h = true -> 0 <= f2r h <= IZR (Z.of_nat n - 1) -> idx_in_range h n.
Proof.
  intros Fh Hh. unfold idx_in_range. rewrite (f64_floorZ_spec h Fh), (f64_ceilZ_spec h Fh).
  destruct (floor_ceil_between _ _ Hh) as (H1 & H2 & H3). repeat split; try assumption; lia.
Qed.

(* both branches, every q in [0, 1], every n with n - 1 < 2^53 (where `(n-1) as f64` is exact) *)
Theorem qidx_f64_in_range (n : nat) (q : float) :
  (1 <= n)%nat -> (Z.of_nat n <= 2 ^ 53)%Z -> nleb (A := float) nzero q && nleb q none = true ->
  idx_in_range (nmul (nofnat (n - 1)) q) n /\ idx_in_range (nmul (nofnat (n - 1)) (nsub none q)) n.
Proof.
  intros Hn HN Hg. destruct (unit_guard_f64 q Hg) as [Fq Hq].
  destruct (nofnat_f64_exact (n - 1)) as [Fa Ea]; [lia|].
  assert (Ez : Z.of_nat (n - 1) = (Z.of_nat n - 1)%Z) by lia. rewrite Ez in Ea.
  assert (Ha : 0 <= f2r (nofnat (A := float) (n - 1))) by (rewrite Ea; apply IZR_le; lia).
  cbn [nmul nsub none NumF64]. split.
  - destruct (mul_unit_bounded _ q Fa Fq Ha Hq) as [Fh Hh]. rewrite Ea in Hh.
    apply idx_in_range_of_real; assumption.
  - destruct (one_minus_bounded q Fq Hq) as [Fq' Hq'].
    destruct (mul_unit_bounded _ _ Fa Fq' Ha Hq') as [Fh Hh]. rewrite Ea in Hh.
    apply idx_in_range_of_real; assumption.
Qed.

Theorem q_idx_ok_f64_bounded (q : float) (n : nat) :
  (Z.of_nat n <= 2 ^ 53)%Z -> q_idx_ok (NF := NumFloorF64) q n.
Proof.
  intros HN Hg Hn. destruct (qidx_f64_in_range n q ltac:(lia) HN Hg) as [(_ & A1 & A2 & _) (_ & B1 & B2 & _)].
  unfold qsel_index. cbn [nceilZ NumFloorF64]. destruct (nleb q nhalf); lia.
Qed.

Lemma f2r_of_SF (x : float) s m e : Prim2SF x = S754_finite s m e -> f2r x = F2R (Float radix2 (cond_Zopp s (Zpos m)) e).
Proof.
  unfold f2r. rewrite <- FP.B2SF_Prim2B. destruct (FP.Prim2B x); cbn [B2SF]; try discriminate.
  intros [= -> -> ->]. reflexivity.
Qed.
Lemma f2r_half : f2r (nhalf (A := float)) = / 2.
Proof.
  rewrite (f2r_of_SF _ false 4503599627370496 (-53)) by (vm_compute; reflexivity).
  unfold F2R. cbn [Fnum Fexp cond_Zopp].
  change (bpow radix2 (-53)) with (/ IZR (2 ^ 53)). change (2 ^ 53)%Z with (2 * 4503599627370496)%Z.
  rewrite mult_IZR. field; apply IZR_neq; discriminate.
Qed.
Lemma ffin_half : ffin (nhalf (A := float)) = true.
Proof. vm_compute. reflexivity. Qed.

(* the factor the code multiplies the length by is in [0, 0.5] on both branches *)
Lemma qfac_half (q : float) :
  nleb (A := float) nzero q && nleb q none = true ->
  ffin (qfac q) = true /\ 0 <= f2r (qfac q) <= / 2.
Proof.
  intros Hg. destruct (unit_guard_f64 q Hg) as [Fq Hq]. unfold qfac.
  assert (Hb : nleb q (nhalf (A := float)) = Rle_bool (f2r q) (/ 2)).
  { cbn [nleb NumF64]. rewrite FP.leb_equiv, Bleb_correct; try (rewrite <- ffin_equiv; assumption || apply ffin_half).
    fold (f2r q). fold (f2r (nhalf (A := float))). rewrite f2r_half. reflexivity. }
  rewrite Hb. destruct (Rle_bool_spec (f2r q) (/ 2)) as [Hle|Hgt].
  - split; [exact Fq|lra].
  - cbn [nsub none NumF64].
    apply fsub_between; [apply ffin_one|exact Fq|apply fmt64_0|rewrite <- f2r_half; apply fmt64_f2r| |apply zero_lt_emax|].
    + rewrite f2r_one. lra.
    + rewrite Rabs_pos_eq by lra. apply Rlt_trans with 1; [lra|]. change 1 with (bpow radix2 0). apply bpow_lt. reflexivity.
Qed.

(* Every n.  Beyond 2^53, `(n-1) as f64` may round UP (2^53+3 becomes 2^53+4), so fl((n-1) q) <= n-1 can fail
   for q close to 1.  The code never multiplies by such a q: the branch q <= 0.5 uses q, the branch q > 0.5 uses
   fl(1 - q) <= 0.5 — and half of the rounded length is at most n-1.  (The model's `nofZ` goes through a
   63-bit integer, as `usize as f64` does for every length a Rust slice can have; the statement holds
   even where it wraps.) *)
Theorem qidx_f64_in_range_all (q : float) (n : nat) :
  nleb (A := float) nzero q && nleb q none = true -> (1 <= n)%nat ->
  idx_in_range (nmul (nofnat (n - 1)) (qfac q)) n.
Proof.
  intros Hg Hn.
  destruct (qfac_half q Hg) as [Ff Hf]. set (f := qfac q) in *.
  destruct (nofnat_f64_general (n - 1)) as [Fa Ea].
  pose proof (Z.mod_pos_bound (Z.of_nat (n - 1)) (2 ^ 63) eq_refl) as Hz.
  assert (Hzle : (Z.of_nat (n - 1) mod 2 ^ 63 <= Z.of_nat (n - 1))%Z) by (apply Z.mod_le; lia).
  set (z := (Z.of_nat (n - 1) mod 2 ^ 63)%Z) in *.
  destruct (rnd64_int_le_twice z Hz) as (K & HK & FK & R0 & R1). rewrite <- Ea in R0, R1.
  set (a := nofnat (A := float) (n - 1)) in *.
  destruct (mul_bounded_by a f (IZR K) Fa Ff R0 (proj1 Hf)) as [Fh Hh].
  - nra.
  - exact FK.
  - apply Rlt_trans with (IZR (2 ^ 63)); [apply IZR_lt; lia|].
    change (IZR (2 ^ 63)) with (bpow radix2 63). apply bpow_lt. reflexivity.
  - cbn [nmul NumF64]. apply idx_in_range_of_real; [exact Fh|].
    split; [exact (proj1 Hh)|]. eapply Rle_trans; [exact (proj2 Hh)|]. apply IZR_le. lia.
Qed.

Theorem qidx_law_f64 : QIdxLaw (A := float) (NF := NumFloorF64).
Proof.
  intros q n Hg Hn. rewrite qsel_index_qj.
  destruct (qidx_f64_in_range_all q n Hg ltac:(lia)) as (_ & H1 & H2 & _).
  unfold qj_of. cbn [nceilZ NumFloorF64]. lia.
Qed.

(* consequences for the model at binary64, for every null dictionary over float: f64 with NaN as the null,
   Option<f64>, the never-null dictionary of integer series cast to f64 *)
Lemma half_in_range_f64 : nleb (A := float) nzero nhalf && nleb (nhalf (A := float)) none = true.
Proof. vm_compute. reflexivity. Qed.

Section Consequences.
  Context {T : Type} {DT : IsNone T float}.

  Theorem vquantile_index_in_range_f64 (q : float) (xs : list T) :
    nleb (A := float) nzero q && nleb q none = true -> (2 <= count_valid xs)%nat ->
    (qsel_index (NF := NumFloorF64) q (count_valid xs) < length xs)%nat.
  Proof. apply (vquantile_index_in_range qidx_law_f64). Qed.

  Theorem vquantile_never_panics_f64 (q : float) (m : qmethod) (xs : list T) :
    exists r, vquantile (NF := NumFloorF64) q m xs = Ok r /\
              (r = None <-> nleb (A := float) nzero q && nleb q none = false).
  Proof. apply (vquantile_never_panics qidx_law_f64). Qed.

  Theorem vmedian_never_panics_f64 (xs : list T) : exists v, vmedian (NF := NumFloorF64) xs = Ok v.
  Proof. apply (vmedian_never_panics qidx_law_f64 half_in_range_f64). Qed.

  Theorem vquantile_null_transparent_f64 (q : float) (m : qmethod) (xs ys : list T) :
    NullInsert xs ys ->
    vquantile (NF := NumFloorF64) q m ys = vquantile (NF := NumFloorF64) q m xs /\
    vmedian (NF := NumFloorF64) ys = vmedian (NF := NumFloorF64) xs.
  Proof. apply (vquantile_insert_law qidx_law_f64). Qed.
End Consequences.

(* every non-NaN float equals itself: the premise of the ts_vargmin / ts_vargmax safety theorems *)
Lemma self_eq_on_ord {A T} {NA : Num A} {DT : IsNone T A} (OL : OrdLaws A) (xs : list T) :
  valid_not_nan xs -> self_eq_on xs.
Proof.
  destruct OL as [Hasym _ Heqb _].
  intros H i v Hv Hn. assert (Hok : num_ok (unwrap v)) by (apply H; [eapply nth_error_In; exact Hv|exact Hn]).
  assert (Hlt : nltb (unwrap v) (unwrap v) = false).
  { destruct (nltb (unwrap v) (unwrap v)) eqn:E; [|reflexivity].
    pose proof (Hasym _ _ Hok Hok E) as H'. congruence. }
  split; [exact Hlt|]. rewrite (Heqb _ _ Hok Hok), Hlt. reflexivity.
Qed.

Lemma f64_self_eq (x : float) : CF.is_nan x = false -> CF.ltb x x = false /\ CF.eqb x x = true.
Proof.
  intros H. destruct (self_eq_on_ord (DT := IsNoneF64) ordlaws_F64 [x]) with (i := 0%nat) (v := x) as [H1 H2].
  - intros v [<-|[]] Hv. exact Hv.
  - reflexivity.
  - exact H.
  - split; assumption.
Qed.

Lemma self_eq_on_f64 (xs : list float) : self_eq_on (DT := IsNoneF64) xs.
Proof. apply (self_eq_on_ord ordlaws_F64). intros v _ H. exact H. Qed.

Lemma self_eq_on_optf64 (xs : list (option float)) :
  valid_not_nan (DT := IsNoneOptF64) xs -> self_eq_on (DT := IsNoneOptF64) xs.
Proof. apply (self_eq_on_ord ordlaws_F64). Qed.

Theorem ts_varg_safe_f64 body w mp (xs : list float) :
  kernel_safe w xs (ts_vargmin (DT := IsNoneF64) body w mp xs) /\
  kernel_safe w xs (ts_vargmax (DT := IsNoneF64) body w mp xs).
Proof. split; [apply ts_vargmin_safe|apply ts_vargmax_safe]; apply self_eq_on_f64. Qed.

Theorem ts_varg_safe_optf64 body w mp (xs : list (option float)) :
  valid_not_nan (DT := IsNoneOptF64) xs ->
  kernel_safe w xs (ts_vargmin (DT := IsNoneOptF64) body w mp xs) /\
  kernel_safe w xs (ts_vargmax (DT := IsNoneOptF64) body w mp xs).
Proof. intros H. split; [apply ts_vargmin_safe|apply ts_vargmax_safe]; apply self_eq_on_optf64, H. Qed.

Print Assumptions f64_floorZ_spec.
Print Assumptions qidx_f64_in_range.
Print Assumptions qidx_law_f64.
Print Assumptions vquantile_null_transparent_f64.
Print Assumptions ts_varg_safe_optf64.
