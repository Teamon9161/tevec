(* Proofs/CreateQ.v — the generators read in exact rational arithmetic: the same polymorphic model
   (Model/Create.v) instantiated at Q.  This is the exact ("real-valued") reading of the float
   statements of C19: what the float code computes when no operation rounds.  Axiom-free. *)
From Coq Require Import QArith Qround Lqa.
From Tevec Require Import Base.Prelude Model.Driver Proofs.Driver Model.Create Proofs.Create.
Set Implicit Arguments.
Local Open Scope Q_scope.

Definition q_ltb (x y : Q) : bool := negb (Qle_bool y x).

(* f64 read exactly: ceil = inject (Qceiling), `as usize` = saturating floor *)
Definition q_ops : num_ops Q :=
  {| n_zero := 0; n_one := 1;
     n_add := Qplus;
     n_sub := fun x y => Ok (x - y);
     n_mul := Qmult;
     n_div := fun x y => Ok (x / y);
     n_ceil := fun x => inject_Z (Qceiling x);
     n_of_usize := fun n => inject_Z (Z.of_nat n);
     n_to_usize := fun x => Ok (Z.to_nat (Qfloor x));
     n_ltb := q_ltb; n_leb := Qle_bool; n_eqb := Qeq_bool |}.

Lemma Qle_bool_false x y : Qle_bool x y = false <-> y < x.
Proof.
  split.
  - intros H. apply Qnot_le_lt. intros Hle. apply Qle_bool_iff in Hle. congruence.
  - intros H. destruct (Qle_bool x y) eqn:E; [|reflexivity].
    apply Qle_bool_iff in E. exfalso. apply (Qlt_not_le _ _ H E).
Qed.
Lemma q_ltb_true x y : q_ltb x y = true <-> x < y.
Proof. unfold q_ltb. rewrite negb_true_iff. apply Qle_bool_false. Qed.
Lemma q_ltb_false x y : q_ltb x y = false <-> y <= x.
Proof. unfold q_ltb. rewrite negb_false_iff. apply Qle_bool_iff. Qed.

(* x lies strictly before b in the direction of step *)
Definition beforeQ (step x b : Q) : Prop := if q_ltb 0 step then x < b else b < x.

Definition elemQ (a st : Q) (k : nat) : Q := a + st * inject_Z (Z.of_nat k).

Lemma elem_at_Q a st k : elem_at q_ops a st k = elemQ a st k.
Proof. reflexivity. Qed.

(* k < ceil q  <->  k < q, for an integer k *)
Lemma lt_ceiling (q : Q) (k : Z) : (k < Qceiling q)%Z <-> inject_Z k < q.
Proof.
  split; intros H.
  - pose proof (Qceiling_lt q) as Hc.
    assert (inject_Z k <= inject_Z (Qceiling q - 1)) by (rewrite <- Zle_Qle; lia).
    eapply Qle_lt_trans; [exact H0|exact Hc].
  - pose proof (Qle_ceiling q) as Hc. rewrite Zlt_Qlt. eapply Qlt_le_trans; [exact H|exact Hc].
Qed.

Lemma mul_div_pos (span step x : Q) : 0 < step -> (step * x < span <-> x < span / step).
Proof.
  intros Hs. split; intros H.
  - apply Qlt_shift_div_l; [exact Hs|]. rewrite Qmult_comm. exact H.
  - assert (x * step < span / step * step) by (apply Qmult_lt_compat_r; assumption).
    rewrite Qmult_comm. eapply Qlt_le_trans; [exact H0|].
    unfold Qdiv. rewrite <- Qmult_assoc, (Qmult_comm (/ step)), Qmult_inv_r, Qmult_1_r; [apply Qle_refl|].
    intros E. rewrite E in Hs. apply (Qlt_irrefl 0 Hs).
Qed.

Lemma div_opp_opp (x y : Q) : ~ y == 0 -> (- x) / (- y) == x / y.
Proof. intros H. field. exact H. Qed.

Lemma mul_div_neg (span step x : Q) : step < 0 -> (span < step * x <-> x < span / step).
Proof.
  intros Hs.
  assert (Hne : ~ step == 0) by (intros E; rewrite E in Hs; apply (Qlt_irrefl 0 Hs)).
  rewrite <- (div_opp_opp span Hne).
  rewrite <- (@mul_div_pos (- span) (- step) x) by lra.
  split; intros H; nra.
Qed.

Lemma range_new_Q (a b step : Q) :
  ~ step == 0 ->
  exists n : nat,
    range_new q_ops a b step = Ok (LS a step 0%nat n) /\
    forall k : nat, (k < n)%nat <-> beforeQ step (elemQ a step k) b.
Proof.
  intros Hne. unfold range_new, gtb, geb, beforeQ, elemQ.
  cbn [q_ops n_zero n_one n_ltb n_leb n_eqb n_sub n_div n_mul n_add n_ceil n_to_usize bind].
  destruct (q_ltb 0 step) eqn:Epos.
  - apply q_ltb_true in Epos. destruct (Qle_bool b a) eqn:Eba.
    + apply Qle_bool_iff in Eba. exists 0%nat. split; [reflexivity|]. intros k. split; [lia|].
      intros H. exfalso.
      assert (0 <= inject_Z (Z.of_nat k)) by (change 0 with (inject_Z 0); rewrite <- Zle_Qle; lia).
      nra.
    + apply Qle_bool_false in Eba.
      set (span := b - a). set (q := span / step). set (c := Qceiling q).
      assert (Hspan : 0 < span) by (unfold span; lra).
      assert (Hq : q <= inject_Z c) by apply Qle_ceiling.
      assert (Hrest : span - inject_Z c * step <= 0).
      { assert (span == q * step) by (unfold q; field; exact Hne). nra. }
      replace (q_ltb 0 (span - inject_Z c * step)) with false
        by (symmetry; apply q_ltb_false; exact Hrest).
      cbn [Bool.eqb]. rewrite andb_false_r. rewrite Qfloor_Z.
      exists (Z.to_nat c). split; [reflexivity|]. intros k.
      assert (Hk : (k < Z.to_nat c)%nat <-> (Z.of_nat k < c)%Z).
      { split; intros H; [|lia]. destruct (Z_lt_le_dec c 0); lia. }
      rewrite Hk. unfold c. rewrite lt_ceiling. unfold q. rewrite <- mul_div_pos by exact Epos.
      unfold span. split; intros H; lra.
  - apply q_ltb_false in Epos.
    assert (Hneg : step < 0).
    { apply Qle_lteq in Epos. destruct Epos as [H|H]; [exact H|contradiction]. }
    destruct (Qle_bool a b) eqn:Eab.
    + apply Qle_bool_iff in Eab. exists 0%nat. split; [reflexivity|]. intros k. split; [lia|].
      intros H. exfalso.
      assert (0 <= inject_Z (Z.of_nat k)) by (change 0 with (inject_Z 0); rewrite <- Zle_Qle; lia).
      nra.
    + apply Qle_bool_false in Eab.
      set (span := b - a). set (q := span / step). set (c := Qceiling q).
      assert (Hspan : span < 0) by (unfold span; lra).
      assert (Hq : q <= inject_Z c) by apply Qle_ceiling.
      assert (Hrest : 0 <= span - inject_Z c * step).
      { assert (span == q * step) by (unfold q; field; exact Hne). nra. }
      assert (Hcond : (negb (Qeq_bool (span - inject_Z c * step) 0)
                       && Bool.eqb (q_ltb 0 (span - inject_Z c * step)) false)%bool = false).
      { destruct (Qeq_bool (span - inject_Z c * step) 0) eqn:E0; [reflexivity|]. cbn [negb andb].
        replace (q_ltb 0 (span - inject_Z c * step)) with true; [reflexivity|].
        symmetry. apply q_ltb_true. apply Qle_lteq in Hrest. destruct Hrest as [H|H]; [exact H|].
        exfalso. symmetry in H. apply Qeq_bool_iff in H. congruence. }
      rewrite Hcond. rewrite Qfloor_Z.
      exists (Z.to_nat c). split; [reflexivity|]. intros k.
      assert (Hk : (k < Z.to_nat c)%nat <-> (Z.of_nat k < c)%Z).
      { split; intros H; [|lia]. destruct (Z_lt_le_dec c 0); lia. }
      rewrite Hk. unfold c. rewrite lt_ceiling. unfold q. rewrite <- mul_div_neg by exact Hneg.
      unfold span. split; intros H; lra.
Qed.

Definition dfltQ (d : Q) (o : option Q) : Q := match o with Some v => v | None => d end.

Lemma create_range_Q (trusted : bool) (start : option Q) (e : Q) (step : option Q) :
  let a := dfltQ 0 start in
  let st := dfltQ 1 step in
  ~ st == 0 ->
  exists n : nat,
    create_range q_ops trusted start e step = Done (map (elemQ a st) (seq 0 n)) /\
    forall k : nat, (k < n)%nat <-> beforeQ st (elemQ a st k) e.
Proof.
  cbv zeta. intros Hst.
  destruct (@range_new_Q (dfltQ 0 start) e (dfltQ 1 step) Hst) as (n & Hr & Hk).
  exists n. split; [|exact Hk]. exact (create_range_of q_ops trusted start e step Hr).
Qed.

(* linspace over Q: n terms a + k*(b-a)/(n-1); first == a; last == b for n >= 2 *)
Definition lin_stepQ (a b : Q) (n : nat) : Q :=
  if (1 <? n)%nat then (b - a) / inject_Z (Z.of_nat (n - 1)) else 0.

Lemma create_linspace_Q (trusted : bool) (start : option Q) (e : Q) (n : nat) :
  create_linspace q_ops trusted start e n
  = Done (map (elemQ (dfltQ 0 start) (lin_stepQ (dfltQ 0 start) e n)) (seq 0 n)).
Proof.
  apply (create_linspace_of q_ops). unfold linspace_new, lin_stepQ.
  cbn [q_ops n_sub n_div n_of_usize bind]. destruct (1 <? n)%nat; reflexivity.
Qed.

Lemma linspace_Q_shape (a b : Q) (n : nat) :
  elemQ a (lin_stepQ a b n) 0 == a /\
  (forall k, elemQ a (lin_stepQ a b n) (S k) - elemQ a (lin_stepQ a b n) k == lin_stepQ a b n) /\
  ((2 <= n)%nat -> elemQ a (lin_stepQ a b n) (n - 1) == b).
Proof.
  unfold elemQ. split; [|split].
  - cbn. ring.
  - intros k. rewrite Nat2Z.inj_succ. unfold Z.succ. rewrite inject_Z_plus. ring.
  - intros Hn. unfold lin_stepQ. replace (1 <? n)%nat with true by (symmetry; apply Nat.ltb_lt; lia).
    field. change 0 with (inject_Z 0). rewrite inject_Z_injective. lia.
Qed.
