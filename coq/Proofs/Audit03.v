(* Proofs/Audit03.v — clause-by-clause audit of C03 (notes/C03.md, "Audit matrix").
   Part 1 (any carrier, axiom-free): the seven entry points TOTALLY (window 0, the empty series — the hypotheses `1 <= w`,
           `1 <= length xs` of Props/C03.v are exactly what is not rejected / not trivial), windows beyond the length,
           omitted min_periods = (min len w)/2, min_periods above the clamped window, what glast_pos / last_pos mean
           (ties: the MOST RECENT position).
   Part 2 (option R): ts_vminmaxnorm — the cached indices are the LAST positions of the extremes, hence the
           both-expired arm of the lazy re-search (norm.rs:140-155) only ever scans windows without a valid element: its
           loop body (norm.rs:146-151) is dead code.
   Part 3 (every carrier, binary64 included): ts_vzscore — where the output is the carrier's NaN.                  *)
From Coq Require Import ZArith List Lia Bool Reals Lra.
From Tevec Require Import Base.Prelude Base.Num Base.XR Spec.Stats Model.Driver Proofs.Driver Model.Features Model.Cmp
     Model.Norm Spec.Extrema Spec.ExtremaOrd Proofs.IdxRun Proofs.Cmp Proofs.CmpOrd
     Proofs.Norm Proofs.MinMax.
Import ListNotations.

Lemma seal_done_nil {O} : seal (Done (@nil (res O))) = Done [].
Proof. reflexivity. Qed.

Section AnyCarrier.
  Context {A : Type} {NA : Num A} {T : Type} {DT : IsNone T A}.

  Lemma cmp_window_nil w : cmp_window w (@nil T) = 0.
  Proof. reflexivity. Qed.
  Lemma cmp_window_0 (xs : list T) : cmp_window 0 xs = 0.
  Proof. unfold cmp_window. apply Nat.min_0_r. Qed.

  (* (1) the five cmp.rs entry points: empty series -> empty result (both bodies, every window, 0 included: the clamped
     window is 0 and `assert!(window > 0 || len == 0)` passes); window 0 on a non-empty series -> the assertion fails *)
  Theorem cmp_family_empty (scmp : option A -> option A -> comparison) body w mp :
    ts_vext scmp body w mp (@nil T) = Done [] /\ ts_varg scmp body w mp (@nil T) = Done [].
  Proof. split; apply idx_run_empty. Qed.
  Theorem cmp_family_window0 (scmp : option A -> option A -> comparison) body mp (xs : list T) :
    xs <> [] ->
    ts_vext scmp body 0 mp xs = Panicked AssertFail /\ ts_varg scmp body 0 mp xs = Panicked AssertFail.
  Proof.
    intros Hx. unfold ts_vext, ts_varg. cbv zeta. rewrite cmp_window_0. split; apply idx_run_window0; exact Hx.
  Qed.

  Theorem vrank_empty {B} {NB : Num B} body w mp pct rev : ts_vrank (B := B) body w mp pct rev (@nil T) = Done [].
  Proof. apply idx_run_empty. Qed.
  Theorem vrank_window0 {B} {NB : Num B} body mp pct rev (xs : list T) :
    xs <> [] -> ts_vrank (B := B) body 0 mp pct rev xs = Panicked AssertFail.
  Proof. intros Hx. unfold ts_vrank. cbv zeta. rewrite cmp_window_0. apply idx_run_window0; exact Hx. Qed.

  (* ts_vminmaxnorm (window NOT clamped) *)
  Theorem minmaxnorm_empty (tmin tmax : A) body w mp : ts_vminmaxnorm tmin tmax body w mp (@nil T) = Done [].
  Proof. unfold ts_vminmaxnorm. apply idx_run_empty. Qed.
  Theorem minmaxnorm_window0 (tmin tmax : A) body mp (xs : list T) :
    xs <> [] -> ts_vminmaxnorm tmin tmax body 0 mp xs = Panicked AssertFail.
  Proof. intros Hx. unfold ts_vminmaxnorm. apply idx_run_window0; exact Hx. Qed.

  (* (2) a window at least as long as the series IS the series length for the cmp family (the clamp): the outcome does
     not depend on how much longer it is — for EVERY min_periods, omitted included *)
  Theorem cmp_family_window_clamped (scmp : option A -> option A -> comparison) body w mp (xs : list T) :
    length xs <= w ->
    ts_vext scmp body w mp xs = ts_vext scmp body (length xs) mp xs /\
    ts_varg scmp body w mp xs = ts_varg scmp body (length xs) mp xs.
  Proof.
    intros H. unfold ts_vext, ts_varg, cmp_window. cbv zeta.
    rewrite (Nat.min_l (length xs) w) by exact H. rewrite Nat.min_id. split; reflexivity.
  Qed.
  Theorem vrank_window_clamped {B} {NB : Num B} body w mp pct rev (xs : list T) :
    length xs <= w -> ts_vrank (B := B) body w mp pct rev xs = ts_vrank (B := B) body (length xs) mp pct rev xs.
  Proof.
    intros H. unfold ts_vrank, cmp_window. cbv zeta.
    rewrite (Nat.min_l (length xs) w) by exact H. rewrite Nat.min_id. reflexivity.
  Qed.

  (* (3) omitted min_periods IS Some ((min len w) / 2) (DESIGN 5.3): for len >= w that is w / 2, for len < w it is len / 2 *)
  Theorem cmp_family_default_min_periods (scmp : option A -> option A -> comparison) body w (xs : list T) :
    ts_vext scmp body w None xs = ts_vext scmp body w (Some (Nat.min (length xs) w / 2)) xs /\
    ts_varg scmp body w None xs = ts_varg scmp body w (Some (Nat.min (length xs) w / 2)) xs.
  Proof. split; reflexivity. Qed.
  Theorem vrank_default_min_periods {B} {NB : Num B} body w pct rev (xs : list T) :
    ts_vrank (B := B) body w None pct rev xs = ts_vrank (B := B) body w (Some (Nat.min (length xs) w / 2)) pct rev xs.
  Proof. reflexivity. Qed.
  Lemma cmp_mp_cases (mp : option nat) (w : nat) (xs : list T) :
    cmp_mp (Some 0) (cmp_window w xs) = 0 /\
    (w <= length xs -> cmp_mp None (cmp_window w xs) = w / 2) /\
    (length xs <= w -> cmp_mp None (cmp_window w xs) = length xs / 2) /\
    (forall m, cmp_mp (Some m) (cmp_window w xs) = m).
  Proof.
    unfold cmp_mp, cmp_window. split; [reflexivity|]. split; [intros H; rewrite Nat.min_r by exact H; reflexivity|].
    split; [intros H; rewrite Nat.min_l by exact H; reflexivity|reflexivity].
  Qed.
End AnyCarrier.

(* (4) min_periods above the clamped window (NOT clamped in this family, unlike features.rs / norm.rs): every output is
   null.  Any ordered carrier, any dictionary. *)
Lemma gvalid_length_le {A} (l : list (option A)) : length (gvalid l) <= length l.
Proof.
  induction l as [|a l IH]; [apply le_n|]. change (a :: l) with ([a] ++ l).
  rewrite gvalid_app, app_length. destruct a; cbn [gvalid flat_map app length]; lia.
Qed.
Lemma win_length_le_min {T} (w i : nat) (xs : list T) : 1 <= w -> i < length xs -> length (win w i xs) <= Nat.min (length xs) w.
Proof. intros Hw Hi. rewrite win_seg, seg_length by lia. unfold wstart. lia. Qed.

Section AboveWindow.
  Context {A : Type} {NA : Num A} (OL : OrdLaws A) {T : Type} {DT : IsNone T A}.

  Lemma all_none_of {O} (out : list (option O)) (n : nat) :
    length out = n -> (forall i, i < n -> nth_error out i = Some None) -> out = repeat None n.
  Proof.
    intros Hl H. apply nth_error_ext. intros i. rewrite nth_error_repeat. destruct (i <? n) eqn:E.
    - apply Nat.ltb_lt in E. apply H. exact E.
    - apply Nat.ltb_ge in E. apply nth_error_None. lia.
  Qed.

  Theorem min_periods_above_window_all_null body w m (xs : list T) :
    valid_not_nan xs -> 1 <= w -> 1 <= length xs -> cmp_window w xs < m ->
    ts_vmin body w (Some m) xs = Done (repeat None (length xs)) /\
    ts_vmax body w (Some m) xs = Done (repeat None (length xs)) /\
    ts_vargmin body w (Some m) xs = Done (repeat None (length xs)) /\
    ts_vargmax body w (Some m) xs = Done (repeat None (length xs)).
  Proof.
    intros Hv Hw Hl Hm.
    assert (Hc : forall i, i < length xs -> (m <=? length (gvalid (win w i (map to_opt xs)))) = false).
    { intros i Hi. apply Nat.leb_gt. pose proof (gvalid_length_le (win w i (map to_opt xs))).
      pose proof (win_length_le_min w i (map to_opt xs) Hw ltac:(rewrite map_length; exact Hi)) as H1.
      rewrite map_length in H1. unfold cmp_window in Hm. lia. }
    repeat split.
    - destruct (ts_vmin_ord OL body w (Some m) xs Hv Hw Hl) as (out & E & L & H). rewrite E. f_equal.
      apply all_none_of; [exact L|]. intros i Hi. rewrite (H i Hi). cbv zeta. cbn [cmp_mp]. rewrite Hc by exact Hi. reflexivity.
    - destruct (ts_vmax_ord OL body w (Some m) xs Hv Hw Hl) as (out & E & L & H). rewrite E. f_equal.
      apply all_none_of; [exact L|]. intros i Hi. rewrite (H i Hi). cbv zeta. cbn [cmp_mp]. rewrite Hc by exact Hi. reflexivity.
    - destruct (ts_vargmin_ord OL body w (Some m) xs Hv Hw Hl) as (out & E & L & H). rewrite E. f_equal.
      apply all_none_of; [exact L|]. intros i Hi. rewrite (H i Hi). cbv zeta. cbn [cmp_mp]. rewrite Hc by exact Hi. reflexivity.
    - destruct (ts_vargmax_ord OL body w (Some m) xs Hv Hw Hl) as (out & E & L & H). rewrite E. f_equal.
      apply all_none_of; [exact L|]. intros i Hi. rewrite (H i Hi). cbv zeta. cbn [cmp_mp]. rewrite Hc by exact Hi. reflexivity.
  Qed.
End AboveWindow.

(* (5) ties: what `glast_pos m W = Some o` says — position o holds a valid element equivalent to m and NO LATER position
   does (so the arg-extrema name the MOST RECENT position of the extreme).  Any carrier; at Z and option R equivalence is
   equality. *)
Section LastPos.
  Context {A : Type} {NA : Num A}.

  Lemma glast_pos_sound : forall (W : list (option A)) (m : A) (o : nat),
    glast_pos m W = Some o ->
    (exists x, nth_error W o = Some (Some x) /\ neqb x m = true) /\
    (forall j x, o < j -> nth_error W j = Some (Some x) -> neqb x m = false).
  Proof.
    induction W as [|a r IH]; intros m o H; [discriminate|]. cbn [glast_pos] in H.
    destruct (glast_pos m r) as [j0|] eqn:Er.
    - injection H as <-. destruct (IH m j0 Er) as ((x & Hx & Hxm) & Hlast). split.
      + exists x. split; assumption.
      + intros j x' Hj Hx'. destruct j as [|j]; [lia|]. cbn in Hx'. apply (Hlast j x'); [lia|exact Hx'].
    - assert (Habs : forall j x, nth_error r j = Some (Some x) -> neqb x m = false).
      { clear -Er. revert Er. induction r as [|b r IHr]; intros Er j x Hj; [destruct j; discriminate|].
        cbn [glast_pos] in Er. destruct (glast_pos m r) as [k|] eqn:Ek; [discriminate|].
        destruct j as [|j].
        - cbn in Hj. injection Hj as ->. destruct (neqb x m); [discriminate|reflexivity].
        - cbn in Hj. apply (IHr eq_refl j x Hj). }
      destruct a as [x|]; [|discriminate]. destruct (neqb x m) eqn:Exm; [|discriminate]. injection H as <-. split.
      + exists x. split; [reflexivity|exact Exm].
      + intros j x' Hj Hx'. destruct j as [|j]; [lia|]. cbn in Hx'. apply (Habs j x' Hx').
  Qed.
End LastPos.

Lemma last_pos_sound (W : list (option Z)) (m : Z) (o : nat) :
  last_pos m W = Some o ->
  nth_error W o = Some (Some m) /\ forall j, o < j -> nth_error W j <> Some (Some m).
Proof.
  intros H. rewrite <- glast_pos_Z in H. destruct (glast_pos_sound W m o H) as ((x & Hx & Hxm) & Hlast).
  cbn in Hxm. apply Z.eqb_eq in Hxm. subst x. split; [exact Hx|].
  intros j Hj Hc. specialize (Hlast j m Hj Hc). cbn in Hlast. rewrite Z.eqb_refl in Hlast. discriminate.
Qed.

Lemma argmax_spec_meaning (W : list (option Z)) (o : nat) :
  argmax_spec W = Some o ->
  exists m, list_max (validZ W) = Some m /\ 1 <= o /\ last_pos m W = Some (o - 1).
Proof.
  apply (offset_meaning (list_max (validZ W)) (fun m => last_pos m W)).
Qed.
Lemma gargmax_spec_meaning {A} {NA : Num A} (W : list (option A)) (o : nat) :
  gargmax_spec W = Some o ->
  exists m, ExtremaOrd.gmax (gvalid W) = Some m /\ 1 <= o /\ glast_pos m W = Some (o - 1).
Proof.
  apply (offset_meaning (ExtremaOrd.gmax (gvalid W)) (fun m => glast_pos m W)).
Qed.

(* the offset is inside the window: 1 <= o <= |W| *)
Lemma glast_pos_lt {A} {NA : Num A} (W : list (option A)) (m : A) (o : nat) : glast_pos m W = Some o -> o < length W.
Proof.
  intros H. destruct (glast_pos_sound W m o H) as ((x & Hx & _) & _). apply nth_error_Some. congruence.
Qed.
Lemma garg_offsets_in_window {A} {NA : Num A} (W : list (option A)) (o : nat) :
  (gargmin_spec W = Some o \/ gargmax_spec W = Some o) -> 1 <= o <= length W.
Proof.
  intros [H|H].
  - unfold gargmin_spec in H. destruct (ExtremaOrd.gmin (gvalid W)) as [m|]; [|discriminate].
    destruct (glast_pos m W) as [j|] eqn:E; [|discriminate]. cbn in H. injection H as <-.
    apply glast_pos_lt in E. lia.
  - unfold gargmax_spec in H. destruct (ExtremaOrd.gmax (gvalid W)) as [m|]; [|discriminate].
    destruct (glast_pos m W) as [j|] eqn:E; [|discriminate]. cbn in H. injection H as <-.
    apply glast_pos_lt in E. lia.
Qed.

(* two callbacks that agree on every state the run can reach give the same call *)
Section RunAgree.
  Context {T St O : Type}.
  Variables cb cb' : St -> option nat * nat * T -> res (St * O).
  Variable xs : list T.
  Variable Pre : nat -> St -> Prop.

  Lemma run_lift_agree (sf : nat -> option nat) :
    (forall k v s, nth_error xs k = Some v -> Pre k s ->
       exists s' o, cb s (sf k, k, v) = Ok (s', o) /\ Pre (S k) s' /\ cb' s (sf k, k, v) = Ok (s', o)) ->
    forall l k s, skipn k xs = l -> Pre k s ->
      run (lift_cb cb) (Ok s) (map (fun p => (sf (fst p), fst p, snd p)) (combine (seq k (length l)) l))
      = run (lift_cb cb') (Ok s) (map (fun p => (sf (fst p), fst p, snd p)) (combine (seq k (length l)) l)).
  Proof.
    intros step. induction l as [|v l IH]; intros k s Hl HP; [reflexivity|].
    destruct (@skipn_cons_nth T k xs v l Hl) as [Hv Hl'].
    destruct (step k v s Hv HP) as (s' & o & Hcb & HP' & Hcb').
    cbn [length seq combine map run fst snd lift_cb]. rewrite Hcb, Hcb'. f_equal. apply IH; assumption.
  Qed.

  Lemma idx_run_agree body w s0 :
    Pre 0 s0 ->
    (forall k v s, nth_error xs k = Some v -> Pre k s ->
       exists s' o, cb s (start_of (eff_window body w (length xs)) k, k, v) = Ok (s', o) /\ Pre (S k) s' /\
                    cb' s (start_of (eff_window body w (length xs)) k, k, v) = Ok (s', o)) ->
    idx_run body w cb s0 xs = idx_run body w cb' s0 xs.
  Proof.
    intros H0 step. unfold idx_run.
    destruct (bad_window_cases w xs) as [(Hb & _)|(Hb & [Hw| ->])].
    - destruct body; rewrite ?rolling_apply_idx_to_total, ?rolling_apply_idx_default_total, Hb; reflexivity.
    - pose proof (run_lift_agree (start_of (eff_window body w (length xs))) step xs 0 s0 eq_refl H0) as Hrun.
      destruct body; cbn [eff_window] in Hrun.
      + rewrite !rolling_apply_idx_to_eq by exact Hw. unfold args_to_idx, mapi. rewrite Hrun. reflexivity.
      + rewrite !rolling_apply_idx_default_eq by exact Hw. unfold mapi. rewrite Hrun. reflexivity.
    - destruct body; rewrite ?empty_idx_to, ?empty_idx_default; reflexivity.
  Qed.
End RunAgree.

(* "the cached index is the LAST position of the cached extreme", one direction *)
Section DirLast.
  Variable xs : list XR.
  Variable geb : XR -> XR -> bool.

  (* no valid element after mi inside [a, b) would replace the cached value *)
  Definition LastB (a b : nat) (m : XR) (mi : nat) : Prop :=
    forall j x, a <= j < b -> mi < j -> xv xs j = Some x -> geb m (Some x) = false.

  Lemma LastB_shrink a0 a b m mi : LastB a0 b m mi -> a0 <= a -> LastB a b m mi.
  Proof. intros H Ha j x Hj Hm Hx. apply (H j x); [lia|exact Hm|exact Hx]. Qed.
  Lemma LastB_empty a m mi : LastB a a m mi.
  Proof. intros j x Hj. lia. Qed.

  Lemma upd_last a i m mi v :
    LastB a i m mi -> nth_error xs i = Some v ->
    LastB a (S i) (fst (upd geb m mi i v)) (snd (upd geb m mi i v)).
  Proof.
    intros HL Hv. pose proof (xv_nth xs i v Hv) as Hxi. unfold upd.
    destruct v as [x|]; cbn [not_none is_none IsNoneXR IsNone_float nisnan NumXR xisnan negb unwrap].
    - destruct (geb m (Some x)) eqn:E; cbn [fst snd].
      + intros j y Hj Hm. lia.
      + intros j y Hj Hm Hy. destruct (Nat.eq_dec j i) as [->|Hne].
        * rewrite Hxi in Hy. injection Hy as <-. exact E.
        * apply (HL j y); [lia|exact Hm|exact Hy].
    - cbn [fst snd]. intros j y Hj Hm Hy. destruct (Nat.eq_dec j i) as [->|Hne].
      + rewrite Hxi in Hy. discriminate.
      + apply (HL j y); [lia|exact Hm|exact Hy].
  Qed.

  Lemma scan_gen_last : forall cnt i m mi a m' mi',
    LastB a i m mi -> i + cnt <= length xs ->
    scan_gen xs geb i cnt m mi = Ok (m', mi') -> LastB a (i + cnt) m' mi'.
  Proof.
    induction cnt as [|cnt IH]; intros i m mi a m' mi' HL Hlen H.
    - cbn in H. injection H as <- <-. rewrite Nat.add_0_r. exact HL.
    - destruct (nth_error_Some_lt xs i) as [v Hv]; [lia|].
      rewrite (scan_gen_step xs geb i cnt m mi v Hv) in H.
      replace (i + S cnt) with (S i + cnt) by lia.
      eapply IH; [apply upd_last; eassumption|lia|exact H].
  Qed.

  (* a scan over positions that hold no valid element changes nothing *)
  Lemma scan_gen_all_null : forall cnt i m mi,
    i + cnt <= length xs -> (forall j, i <= j < i + cnt -> xv xs j = None) ->
    scan_gen xs geb i cnt m mi = Ok (m, mi).
  Proof.
    induction cnt as [|cnt IH]; intros i m mi Hlen Hn; [reflexivity|].
    destruct (nth_error_Some_lt xs i) as [v Hv]; [lia|].
    rewrite (scan_gen_step xs geb i cnt m mi v Hv).
    assert (v = None) by (rewrite <- (xv_nth xs i v Hv); apply Hn; lia). subst v.
    cbn [upd not_none is_none IsNoneXR IsNone_float nisnan NumXR xisnan negb fst snd].
    apply IH; [lia|]. intros j Hj. apply Hn. lia.
  Qed.
End DirLast.

Section MMDead.
  Variables lo hi : R.
  Variable xs : list XR.
  Hypothesis Hb : forall r, In (Some r) xs -> (lo <= r <= hi)%R.
  Variable wd : nat.
  Hypothesis Hwd : 1 <= wd.
  Variable mp : nat.

  Let tmin : XR := Some lo.
  Let tmax : XR := Some hi.

  (* the model with the loop body of the both-expired arm removed: `(max, min) = (min_(), max_())`, indices untouched *)
  Definition mm_research_nd (s : @mm XR) (start : option nat) (e : nat) : res (@mm XR) :=
    match start with
    | None => Ok s
    | Some st =>
        match mm_maxi s <? st, mm_mini s <? st with
        | true, true =>
            Ok {| mm_max := tmin; mm_maxi := mm_maxi s; mm_min := tmax; mm_mini := mm_mini s; mm_n := mm_n s |}
        | _, _ => mm_research tmin tmax xs s start e
        end
    end.

  Definition LastMM (k : nat) (s : @mm XR) : Prop :=
    LastB xs gmax (wstart wd (k - 1)) k (mm_max s) (mm_maxi s) /\
    LastB xs gmin (wstart wd (k - 1)) k (mm_min s) (mm_mini s).

  (* the re-search, one direction at a time *)
  Definition research_dir (geb : XR -> XR -> bool) (sent : XR) (st e : nat) (m : XR) (mi : nat) : res (XR * nat) :=
    if mi <? st then scan_gen xs geb st (e - st) sent mi else Ok (m, mi).

  Lemma mm_research_dirs (s : @mm XR) st e :
    mm_research tmin tmax xs s (Some st) e =
    do r1 <- research_dir gmax tmin st e (mm_max s) (mm_maxi s);
    do r2 <- research_dir gmin tmax st e (mm_min s) (mm_mini s);
    Ok {| mm_max := fst r1; mm_maxi := snd r1; mm_min := fst r2; mm_mini := snd r2; mm_n := mm_n s |}.
  Proof.
    unfold mm_research, research_dir. destruct (mm_maxi s <? st), (mm_mini s <? st).
    - rewrite scan_both_split. destruct (scan_gen xs gmax st (e - st) tmin (mm_maxi s)) as [r1|]; [|reflexivity].
      cbn [bind]. destruct (scan_gen xs gmin st (e - st) tmax (mm_mini s)) as [r2|]; reflexivity.
    - rewrite scan_max_gen. destruct (scan_gen xs gmax st (e - st) tmin (mm_maxi s)) as [r1|]; reflexivity.
    - rewrite scan_min_gen. cbn [bind fst snd].
      destruct (scan_gen xs gmin st (e - st) tmax (mm_mini s)) as [r2|]; reflexivity.
    - cbn [bind fst snd]. destruct s; reflexivity.
  Qed.

  Lemma research_dir_last geb sent a0 a e m mi m' mi' :
    LastB xs geb a0 e m mi -> a0 <= a <= e -> e <= length xs ->
    research_dir geb sent a e m mi = Ok (m', mi') -> LastB xs geb a e m' mi'.
  Proof.
    intros HL Ha He. unfold research_dir. destruct (mi <? a).
    - intros H. replace e with (a + (e - a)) by lia.
      apply (scan_gen_last xs geb (e - a) a sent mi a m' mi'); [apply LastB_empty|lia|exact H].
    - intros H. injection H as <- <-. apply (LastB_shrink xs geb a0); [exact HL|lia].
  Qed.

  (* the fields of the state after one call of the closure *)
  Lemma mmnorm_cb_fields (s : @mm XR) start k v s' o :
    mmnorm_cb tmin tmax mp xs s (start, k, v) = Ok (s', o) ->
    exists s1, mm_research tmin tmax xs s start k = Ok s1 /\
      (mm_max s', mm_maxi s') = upd gmax (mm_max s1) (mm_maxi s1) k v /\
      (mm_min s', mm_mini s') = upd gmin (mm_min s1) (mm_mini s1) k v.
  Proof.
    unfold mmnorm_cb. destruct (mm_research tmin tmax xs s start k) as [s1|]; [|discriminate].
    cbn [bind]. intros H. exists s1. split; [reflexivity|]. unfold upd, gmax, gmin.
    destruct (not_none v).
    - destruct (nleb (mm_max s1) (unwrap v)), (nleb (unwrap v) (mm_min s1));
        (destruct start as [st|]; [destruct (uget xs st) as [v0|]; [|discriminate]; cbn [bind] in H;
           destruct (not_none v0); [cbn [mm_n] in H; match type of H with context [usub ?a ?b] => destruct (usub a b) end;
                                    [|discriminate]|]|];
         cbn [bind] in H; injection H as <- _; split; reflexivity).
    - destruct start as [st|]; [destruct (uget xs st) as [v0|]; [|discriminate]; cbn [bind] in H;
           destruct (not_none v0); [match type of H with context [usub ?a ?b] => destruct (usub a b) end;
                                    [|discriminate]|]|];
         cbn [bind] in H; injection H as <- _; split; reflexivity.
  Qed.

  Lemma mmnorm_cb_last k v s s' o :
    nth_error xs k = Some v -> LastMM k s ->
    mmnorm_cb tmin tmax mp xs s (start_of wd k, k, v) = Ok (s', o) -> LastMM (S k) s'.
  Proof.
    intros Hv (HLM & HLm) H.
    assert (Hk : k < length xs) by (apply nth_error_Some; congruence).
    destruct (mmnorm_cb_fields s _ k v s' o H) as (s1 & Hs1 & HM & Hm).
    assert (Hmono : wstart wd (k - 1) <= wstart wd k <= k) by (unfold wstart; lia).
    (* after the re-search both pairs are "last" on [wstart wd k, k) *)
    assert (H1 : LastB xs gmax (wstart wd k) k (mm_max s1) (mm_maxi s1) /\
                 LastB xs gmin (wstart wd k) k (mm_min s1) (mm_mini s1)).
    { rewrite (start_of_wstart wd Hwd) in Hs1. destruct (k <? wd - 1) eqn:Ew.
      - cbn [mm_research] in Hs1. injection Hs1 as <-.
        apply Nat.ltb_lt in Ew. replace (wstart wd k) with (wstart wd (k - 1)) by (unfold wstart; lia).
        split; assumption.
      - rewrite mm_research_dirs in Hs1.
        destruct (research_dir gmax tmin (wstart wd k) k (mm_max s) (mm_maxi s)) as [[m1 i1]|] eqn:E1; [|discriminate].
        cbn [bind] in Hs1.
        destruct (research_dir gmin tmax (wstart wd k) k (mm_min s) (mm_mini s)) as [[m2 i2]|] eqn:E2; [|discriminate].
        cbn [bind fst snd] in Hs1. injection Hs1 as <-. cbn [mm_max mm_maxi mm_min mm_mini]. split.
        + apply (research_dir_last gmax tmin (wstart wd (k - 1)) (wstart wd k) k _ _ _ _ HLM); [lia|lia|exact E1].
        + apply (research_dir_last gmin tmax (wstart wd (k - 1)) (wstart wd k) k _ _ _ _ HLm); [lia|lia|exact E2]. }
    destruct H1 as (H1M & H1m). unfold LastMM. cbn [Nat.sub]. rewrite Nat.sub_0_r.
    pose proof (upd_last xs gmax (wstart wd k) k _ _ v H1M Hv) as HM'. rewrite <- HM in HM'.
    pose proof (upd_last xs gmin (wstart wd k) k _ _ v H1m Hv) as Hm'. rewrite <- Hm in Hm'.
    split; assumption.
  Qed.

  (* DEAD ARM: when both cached indices have expired, the positions the arm would scan hold no valid element *)
  Lemma both_expired_window_is_null k (s : @mm XR) a :
    k <= length xs -> PreMM lo hi xs wd k s -> LastMM k s ->
    start_of wd k = Some a -> mm_maxi s < a -> mm_mini s < a ->
    forall j, a <= j < k -> xv xs j = None.
  Proof.
    intros Hk (_ & HOM & HOm) (HLM & HLm) Hst HeM Hem j Hj.
    rewrite (start_of_wstart wd Hwd) in Hst. destruct (k <? wd - 1) eqn:Ew; [discriminate|].
    injection Hst as <-. apply Nat.ltb_ge in Ew.
    set (a0 := wstart wd (k - 1)) in *.
    assert (Ha : a0 <= wstart wd k <= a0 + 1) by (unfold a0, wstart; lia).
    destruct (xv xs j) as [r'|] eqn:Exj; [exfalso|reflexivity].
    destruct HOM as [(r & EM & HiM & HxM & HubM)|(_ & HnM)]; [|rewrite HnM in Exj by lia; discriminate].
    destruct HOm as [(q & Em & Him & Hxm & Hlbm)|(_ & Hnm)]; [|rewrite Hnm in Exj by lia; discriminate].
    assert (mm_maxi s = a0) by lia. assert (mm_mini s = a0) by lia.
    assert (r = q) by congruence. subst q.
    pose proof (HLM j r' ltac:(lia) ltac:(lia) Exj) as F1. rewrite EM in F1.
    pose proof (HLm j r' ltac:(lia) ltac:(lia) Exj) as F2. rewrite Em in F2.
    assert (G1 : ~ (r <= r')%R) by (intros C; apply gmax_le in C; congruence).
    assert (G2 : ~ (r' <= r)%R) by (intros C; apply gmin_le in C; congruence).
    lra.
  Qed.

  (* the closure with the reduced re-search (verbatim copy of Model/Norm.v: mmnorm_cb otherwise) *)
  Definition mmnorm_cb_nd (s : @mm XR) (a : option nat * nat * XR) : res (@mm XR * XR) :=
    let '(start, e, v) := a in
    do s1 <- mm_research_nd s start e;
    let '(s2, out) :=
      if not_none v then
        let x := unwrap v in
        let n := S (mm_n s1) in
        let '(mx, mxi) := if nleb (mm_max s1) x then (x, e) else (mm_max s1, mm_maxi s1) in
        let '(mn, mni) := if nleb x (mm_min s1) then (x, e) else (mm_min s1, mm_mini s1) in
        ({| mm_max := mx; mm_maxi := mxi; mm_min := mn; mm_mini := mni; mm_n := n |},
         if (mp <=? n) && negb (neqb mx mn) then ndiv (nsub x mn) (nsub mx mn) else nnan)
      else (s1, nnan) in
    do s3 <- (match start with
              | None => Ok s2
              | Some st =>
                  do v0 <- uget xs st;
                  if not_none v0 then
                    do n' <- usub (mm_n s2) 1;
                    Ok {| mm_max := mm_max s2; mm_maxi := mm_maxi s2; mm_min := mm_min s2;
                          mm_mini := mm_mini s2; mm_n := n' |}
                  else Ok s2
              end);
    Ok (s3, out).

  Lemma mmnorm_cb_nd_eq s start e v :
    mm_research tmin tmax xs s start e = mm_research_nd s start e ->
    mmnorm_cb tmin tmax mp xs s (start, e, v) = mmnorm_cb_nd s (start, e, v).
  Proof. intros H. unfold mmnorm_cb, mmnorm_cb_nd. rewrite H. reflexivity. Qed.

  (* on every reachable state the two re-searches coincide *)
  Lemma research_nd_agrees k (s : @mm XR) :
    k <= length xs -> PreMM lo hi xs wd k s -> LastMM k s ->
    mm_research tmin tmax xs s (start_of wd k) k = mm_research_nd s (start_of wd k) k.
  Proof.
    intros Hk HP HL. unfold mm_research_nd. destruct (start_of wd k) as [a|] eqn:Est; [|reflexivity].
    destruct (mm_maxi s <? a) eqn:EM; [|reflexivity]. destruct (mm_mini s <? a) eqn:Em; [|reflexivity].
    apply Nat.ltb_lt in EM, Em.
    pose proof (both_expired_window_is_null k s a Hk HP HL Est EM Em) as Hnull.
    assert (Hak : a <= k).
    { rewrite (start_of_wstart wd Hwd) in Est. destruct (k <? wd - 1); [discriminate|]. injection Est as <-. unfold wstart. lia. }
    unfold mm_research. apply Nat.ltb_lt in EM, Em. rewrite EM, Em. rewrite scan_both_split.
    rewrite (scan_gen_all_null xs gmax (k - a) a tmin (mm_maxi s)) by (try lia; intros j Hj; apply Hnull; lia).
    cbn [bind].
    rewrite (scan_gen_all_null xs gmin (k - a) a tmax (mm_mini s)) by (try lia; intros j Hj; apply Hnull; lia).
    reflexivity.
  Qed.

  Lemma LastMM_init : LastMM 0 (mm0 tmin tmax).
  Proof. split; intros j x Hj; lia. Qed.
End MMDead.

Definition ts_vminmaxnorm_nd (lo hi : R) (body : bool) (w : nat) (mp : option nat) (xs : list XR) : outcome XR :=
  idx_run body w (mmnorm_cb_nd lo hi xs (mp_eff mp w 0)) (mm0 (Some lo) (Some hi)) xs.

(* THE THEOREM: for every series within the sentinels, every window (0 included), min_periods and both bodies, the model
   with the loop body of the both-expired arm deleted returns exactly what the model of the code returns *)
Theorem minmaxnorm_both_expired_arm_is_dead (lo hi : R) body (w : nat) (mp : option nat) (xs : list XR) :
  (forall r, In (Some r) xs -> (lo <= r <= hi)%R) ->
  ts_vminmaxnorm (Some lo) (Some hi) body w mp xs = ts_vminmaxnorm_nd lo hi body w mp xs.
Proof.
  intros Hb. unfold ts_vminmaxnorm, ts_vminmaxnorm_nd.
  destruct (Nat.eq_dec w 0) as [->|Hw0].
  { destruct xs as [|x xs]; [rewrite !idx_run_empty; reflexivity|].
    rewrite !idx_run_window0 by discriminate. reflexivity. }
  destruct xs as [|x0 xs0] eqn:Exs; [rewrite !idx_run_empty; reflexivity|]. rewrite <- Exs in *.
  assert (Hlen : 1 <= length xs) by (rewrite Exs; cbn; lia).
  set (wd := eff_window body w (length xs)).
  assert (Hwd : 1 <= wd) by (unfold wd, eff_window; destruct body; lia).
  apply (idx_run_agree _ _ xs (fun k s => k <= length xs /\ PreMM lo hi xs wd k s /\ LastMM xs wd k s)).
  - split; [lia|]. split; [apply PreMM_init; exact Hwd|apply LastMM_init; exact Hwd].
  - intros k v s Hv (Hk & HP & HL). fold wd.
    assert (Hk' : k < length xs) by (apply nth_error_Some; congruence).
    destruct (mmnorm_cb_step lo hi xs Hb wd Hwd (mp_eff mp w 0) k v s Hv HP) as (s' & o & Hcb & HP' & _).
    exists s', o. split; [exact Hcb|]. split.
    + split; [lia|]. split; [exact HP'|]. apply (mmnorm_cb_last lo hi xs wd Hwd (mp_eff mp w 0) k v s s' o Hv HL Hcb).
    + rewrite <- Hcb. symmetry. apply mmnorm_cb_nd_eq. apply research_nd_agrees; try assumption; lia.
Qed.

From Tevec Require Import Proofs.Sliding Proofs.Audit01.
Section ZscoreAnyCarrier.
  Context {A : Type} {NA : Num A} {T : Type} {DT : IsNone T A}.

  (* count of the valid elements of the window, and the current (= last) element as the closure saw it *)
  Definition zs_abs_any (s : @zs A) (l : list T) : Prop :=
    z_n s = cnt_valid l /\
    forall l0 v, l = l0 ++ [v] -> z_cur s = (if not_none v then Some (unwrap v) else None).

  Lemma zs_abs_any_pre s l v : zs_abs_any s l -> zs_abs_any (zs_pre s v) (l ++ [v]).
  Proof.
    intros (Hn & _). unfold zs_pre. split.
    - rewrite cnt_valid_snoc. destruct (not_none v); cbn [z_n]; lia.
    - intros l0 v0 E. apply app_inj_tail in E. destruct E as [_ <-]. destruct (not_none v); reflexivity.
  Qed.
  Lemma zs_abs_any_post s x l : zs_abs_any s (x :: l) -> zs_abs_any (zs_post s (Some x)) l.
  Proof.
    intros (Hn & Hc). rewrite cnt_valid_cons in Hn. split.
    - cbn [zs_post]. destruct (not_none x); cbn [z_n]; lia.
    - intros l0 v E. subst l. specialize (Hc (x :: l0) v eq_refl).
      cbn [zs_post]. destruct (not_none x); cbn [z_cur]; exact Hc.
  Qed.

  (* every carrier, both bodies: a null current element or fewer than min(min_periods or w/2, w) valid elements in the
     window give the carrier's NaN *)
  Theorem zscore_nan_every_carrier body (w : nat) (mp : option nat) (xs : list T) :
    1 <= w ->
    exists out, ts_vzscore body w mp xs = Done out /\ length out = length xs /\
      forall i v, nth_error xs i = Some v ->
        (not_none v = false \/ cnt_valid (win w i xs) < mp_eff mp w 0) -> nth_error out i = Some nnan.
  Proof.
    intros Hw. unfold ts_vzscore.
    destruct (sliding_ts_run (ts_vzscore_f w mp) zs_abs_any) with (w := w) (xs := xs) (body := body)
      as (out & H1 & H2 & H3); try exact Hw.
    - split; [reflexivity|]. intros l0 v E. destruct l0; discriminate.
    - exact zs_abs_any_pre.
    - exact zs_abs_any_post.
    - reflexivity.
    - exists out. split; [exact H1|]. split; [exact H2|]. intros i v Hv Hc.
      destruct (H3 i v Hv) as (s & (Hn & Hcur) & Ho). rewrite Ho. f_equal.
      assert (Hi : i < length xs) by (apply nth_error_Some; congruence).
      assert (Hwin : win w i xs = seg (wstart w i) i xs ++ [v]).
      { rewrite win_seg. apply seg_snoc; [unfold wstart; lia|exact Hv]. }
      specialize (Hcur _ _ Hwin). cbn [f_emit ts_vzscore_f]. unfold zs_emit. rewrite Hcur.
      destruct Hc as [Hc|Hc].
      + rewrite Hc. reflexivity.
      + destruct (not_none v); [|reflexivity].
        replace (mp_eff mp w 0 <=? z_n s) with false by (symmetry; apply Nat.leb_gt; lia). reflexivity.
  Qed.
End ZscoreAnyCarrier.
