(* Proofs/Audit08.v — C08 clause by clause (notes/C08.md, "Audit matrix"):
     * the MECHANISM (iter_traits.rs vfold / vfold_n / vapply_n): for an ARBITRARY callback the null-skipping folds
       are functions of the unwrapped valid elements, hence invariant under re-encoding and under null insertion —
       every aggregation written with them inherits both laws (the per-function theorems are instances);
     * the null-aware boolean aggregations vany / vall (agg.rs:168, 200);
     * the masked family n_vsum_filter / n_sum_filter / vmean_filter (tea-agg/src/lib.rs:26-99): data AND mask
       re-encoded independently; transparent to inserted observations whose flag is null / false or whose value is null;
     * what insertion DOES change, exactly: length, count_none and the count of the null value grow by the number of
       inserted nulls, count_valid + count_none = length stays true;
     * the canonical-null assumption (DESIGN 5.4) is necessary: Some(NaN) is not the same null.
   Axiom-free, every carrier (no law of the numeric class).                                                        *)
From Coq Require Import Lia List Bool Arith.
From Tevec Require Import Base.Num Model.Agg Model.NullView Proofs.AggGeneric Proofs.ViewBase Proofs.NullView.
Import ListNotations.
Set Implicit Arguments.

Section Mechanism.
  Context {A T1 T2 : Type} (D1 : IsNone T1 A) (D2 : IsNone T2 A).

  (* vfold_n / vapply_n: the callback receives the unwrapped value; ANY callback, any accumulator type *)
  Theorem vfold_n_same_view {U} (f : U -> A -> U) init xs1 xs2 :
    SameView D1 D2 xs1 xs2 -> vfold_n (DT := D1) f init xs1 = vfold_n (DT := D2) f init xs2.
  Proof. intros H. rewrite !vfold_n_spec, (vals_same_view H). reflexivity. Qed.
  Theorem vapply_n_same_view {U} (f : U -> A -> U) init xs1 xs2 :
    SameView D1 D2 xs1 xs2 -> vapply_n (DT := D1) f init xs1 = vapply_n (DT := D2) f init xs2.
  Proof. apply vfold_n_same_view. Qed.

  (* vfold: the callback receives the ELEMENT (it may call unwrap / to_opt itself); two callbacks that agree on
     elements with equal option views give equal folds *)
  Theorem vfold_same_view {U} (f1 : U -> T1 -> U) (f2 : U -> T2 -> U) init xs1 xs2 :
    (forall acc a b, same_view D1 D2 a b -> not_none b = true -> f1 acc a = f2 acc b) ->
    SameView D1 D2 xs1 xs2 -> vfold (DT := D1) f1 init xs1 = vfold (DT := D2) f2 init xs2.
  Proof.
    intros Hf H. unfold vfold. revert init. induction H as [|a b r1 r2 Hab _ IH]; intros init; [reflexivity|].
    cbn [fold_left]. rewrite (sv_not_none Hab). destruct (not_none b) eqn:E; [rewrite (Hf init a b Hab E)|]; apply IH.
  Qed.
End Mechanism.

Section MechanismInsert.
  Context {A T : Type} {D : IsNone T A}.
  Theorem vfold_n_insert {U} (f : U -> A -> U) init (xs ys : list T) :
    NullInsert xs ys -> vfold_n f init ys = vfold_n f init xs.
  Proof. intros H. rewrite !vfold_n_spec, (vals_null_insert H). reflexivity. Qed.
  Theorem vapply_n_insert {U} (f : U -> A -> U) init (xs ys : list T) :
    NullInsert xs ys -> vapply_n f init ys = vapply_n f init xs.
  Proof. apply vfold_n_insert. Qed.
  Theorem vfold_insert {U} (f : U -> T -> U) init (xs ys : list T) :
    NullInsert xs ys -> vfold f init ys = vfold f init xs.
  Proof. intros H. rewrite !vfold_spec. f_equal. exact (filter_valid_insert H). Qed.
  Lemma insert_length (xs ys : list T) : NullInsert xs ys -> length xs <= length ys.
  Proof. induction 1; cbn [length]; lia. Qed.
  (* insertion never shortens, and the inserted elements are all nulls: what it changes, exactly *)
  Theorem insert_counts (xs ys : list T) :
    NullInsert xs ys ->
    length xs <= length ys
    /\ count_valid ys = count_valid xs
    /\ count_none ys = count_none xs + (length ys - length xs)
    /\ count_valid ys + count_none ys = length ys.
  Proof.
    intros H. pose proof (count_valid_plus_none xs) as P1. pose proof (count_valid_plus_none ys) as P2.
    assert (HV : count_valid ys = count_valid xs) by (rewrite !count_valid_spec, (vals_null_insert H); reflexivity).
    pose proof (insert_length H) as HL.
    repeat split; lia.
  Qed.
End MechanismInsert.

(* counting the NULL value counts the nulls: it grows with the insertion (whereas counting a non-null value is
   transparent, C08_transparent_aggregations) *)
Section CountNull.
  Context {A : Type} {NA : Num A} {T : Type} {D : IsNone T A}.
  Theorem vcount_null_is_count_none (nl : T) xs : is_none nl = true -> vcount_value nl xs = count_none xs.
  Proof. intros H. unfold vcount_value, count_none, not_none. rewrite H. reflexivity. Qed.
  Theorem vcount_null_insert (nl : T) (xs ys : list T) :
    is_none nl = true -> NullInsert xs ys -> vcount_value nl ys = vcount_value nl xs + (length ys - length xs).
  Proof.
    intros Hn H. rewrite !(vcount_null_is_count_none _ _ Hn). destruct (insert_counts H) as (_ & _ & E & _). exact E.
  Qed.
End CountNull.

Section BoolAggs.
  Context {T1 T2 : Type} (D1 : IsNone T1 bool) (D2 : IsNone T2 bool).
  Theorem vany_same_view xs1 xs2 : SameView D1 D2 xs1 xs2 -> vany (DB := D1) xs1 = vany (DB := D2) xs2.
  Proof. intros H. rewrite !vany_spec, (vals_same_view H). reflexivity. Qed.
  Theorem vall_same_view xs1 xs2 : SameView D1 D2 xs1 xs2 -> vall (DB := D1) xs1 = vall (DB := D2) xs2.
  Proof. intros H. rewrite !vall_spec, (vals_same_view H). reflexivity. Qed.
  Theorem vany_insert (xs ys : list T1) : NullInsert xs ys -> vany (DB := D1) ys = vany (DB := D1) xs.
  Proof. intros H. rewrite !vany_spec, (vals_null_insert H). reflexivity. Qed.
  Theorem vall_insert (xs ys : list T1) : NullInsert xs ys -> vall (DB := D1) ys = vall (DB := D1) xs.
  Proof. intros H. rewrite !vall_spec, (vals_null_insert H). reflexivity. Qed.
  (* a series of nulls only: vany = false, vall = true (the fold's initial values) — nulls are neither true nor false *)
  Theorem bool_aggs_all_null (xs : list T1) : (forall v, In v xs -> is_none v = true) -> vany (DB := D1) xs = false /\ vall (DB := D1) xs = true.
  Proof.
    intros H. rewrite vany_spec, vall_spec. assert (E : vals xs = []).
    { induction xs as [|v xs IH]; [reflexivity|]. rewrite vals_cons, (not_none_null _ (H v (or_introl eq_refl))).
      apply IH. intros w Hw. apply H. right. exact Hw. }
    rewrite E. split; reflexivity.
  Qed.
End BoolAggs.

(* the masked family.  An observation (value, flag) is SELECTED when the flag is present, valid and true *)
Definition mask_keep {U} {DU : IsNone U bool} (f : U) : bool := not_none f && unwrap f.
Definition mask_zs {T U} {DU : IsNone U bool} (zs : list (T * U)) : list T :=
  flat_map (fun p : T * U => if not_none (snd p) then (if (unwrap (snd p) : bool) then [fst p] else []) else []) zs.
(* inserting observations that do not count: flag null, flag false, or value null (with any flag) *)
Inductive MaskInsert {T U A} {D : IsNone T A} {DU : IsNone U bool} : list (T * U) -> list (T * U) -> Prop :=
| mi_nil : MaskInsert [] []
| mi_keep p zs zs' : MaskInsert zs zs' -> MaskInsert (p :: zs) (p :: zs')
| mi_skip p zs zs' : mask_keep (snd p) && not_none (fst p) = false -> MaskInsert zs zs' -> MaskInsert zs (p :: zs').

Section Masked.
  Context {A : Type} {NA : Num A} {F : Type} {NF : Num F}.
  Variable tof : A -> F.

  Lemma mask_filter_zs {T U} {DU : IsNone U bool} (xs : list T) (mask : list U) :
    mask_filter xs mask = mask_zs (combine xs mask).
  Proof. reflexivity. Qed.
  Lemma mask_zs_cons {T U} {DU : IsNone U bool} (p : T * U) zs :
    mask_zs (p :: zs) = if mask_keep (snd p) then fst p :: mask_zs zs else mask_zs zs.
  Proof. unfold mask_zs, mask_keep. cbn [flat_map]. destruct (not_none (snd p)); [destruct (unwrap (snd p))|]; reflexivity. Qed.

  (* the masked family reads the selected sub-series through `vals` only *)
  Lemma masked_of_vals {T1 T2 U1 U2} (D1 : IsNone T1 A) (D2 : IsNone T2 A) (E1 : IsNone U1 bool) (E2 : IsNone U2 bool)
        xs1 xs2 m1 m2 mp :
    vals (DT := D1) (mask_zs (DU := E1) (combine xs1 m1)) = vals (DT := D2) (mask_zs (DU := E2) (combine xs2 m2)) ->
    n_vsum_filter (DT := D1) (DU := E1) xs1 m1 = n_vsum_filter (DT := D2) (DU := E2) xs2 m2
    /\ n_sum_filter (DT := D1) (DU := E1) xs1 m1 = n_sum_filter (DT := D2) (DU := E2) xs2 m2
    /\ vmean_filter (DT := D1) (DU := E1) tof mp xs1 m1 = vmean_filter (DT := D2) (DU := E2) tof mp xs2 m2.
  Proof.
    intros HV.
    assert (E : n_vsum_filter (DT := D1) (DU := E1) xs1 m1 = n_vsum_filter (DT := D2) (DU := E2) xs2 m2).
    { unfold n_vsum_filter. rewrite !vfold_n_spec, !mask_filter_zs, HV. reflexivity. }
    split; [exact E|]. unfold n_sum_filter, vmean_filter. rewrite E. split; reflexivity.
  Qed.

  (* re-encoding: data and mask independently (f64 data with an Option<bool> mask, Option data with a bool mask ...) *)
  Lemma mask_zs_same_view {T1 T2 U1 U2} (D1 : IsNone T1 A) (D2 : IsNone T2 A) (E1 : IsNone U1 bool) (E2 : IsNone U2 bool)
        xs1 xs2 m1 m2 :
    SameView D1 D2 xs1 xs2 -> SameView E1 E2 m1 m2 ->
    vals (DT := D1) (mask_zs (DU := E1) (combine xs1 m1)) = vals (DT := D2) (mask_zs (DU := E2) (combine xs2 m2)).
  Proof.
    intros HX HM. pose proof (Forall2_combine HX HM) as HZ.
    induction HZ as [|p q r1 r2 [Hp Hq] _ IH]; [reflexivity|].
    rewrite !mask_zs_cons. unfold mask_keep. rewrite (sv_not_none Hq).
    destruct (not_none (snd q)) eqn:Eq; cbn [andb]; [|exact IH].
    rewrite (sv_unwrap Hq Eq). destruct (unwrap (snd q)); [|exact IH].
    rewrite !vals_cons, (sv_not_none Hp). destruct (not_none (fst q)) eqn:Ep; [|exact IH].
    rewrite (sv_unwrap Hp Ep), IH. reflexivity.
  Qed.

  (* transparency: observations that are not selected, or whose value is null, may be inserted anywhere *)
  Lemma mask_zs_insert {T U} {DT : IsNone T A} {DU : IsNone U bool} (zs zs' : list (T * U)) :
    MaskInsert zs zs' -> vals (mask_zs zs') = vals (mask_zs zs).
  Proof.
    induction 1 as [|p zs zs' _ IH|p zs zs' Hp _ IH]; [reflexivity| |].
    - rewrite !mask_zs_cons. destruct (mask_keep (snd p)); [rewrite !vals_cons, IH; reflexivity|exact IH].
    - rewrite mask_zs_cons. destruct (mask_keep (snd p)); cbn [andb] in Hp; [|exact IH].
      rewrite vals_cons, Hp. exact IH.
  Qed.
  (* an all-true mask selects everything: the masked family is then the plain valid family *)
  Theorem masked_all_true {T} (xs : list T) :
    mask_filter (DU := IsNone_plain) xs (map (fun _ => true) xs) = xs.
  Proof.
    rewrite mask_filter_zs. induction xs as [|x xs IH]; [reflexivity|]. cbn [map combine]. rewrite mask_zs_cons.
    cbn. rewrite IH. reflexivity.
  Qed.
End Masked.

(* canonical nulls only (DESIGN 5.4): on a carrier with a NaN, Some(NaN) in an optional series is NOT the same null as
   NaN in a float series — the views differ and so do the aggregations *)
Section NonCanonical.
  Context {A : Type} {NA : Num A}.
  Hypothesis Hnan : nisnan (nnan : A) = true.
  Theorem some_nan_not_same_view : ~ same_view (IsNone_float (A := A)) IsNone_option nnan (Some nnan).
  Proof. unfold same_view, to_opt. cbn [is_none unwrap IsNone_float IsNone_option]. rewrite Hnan. discriminate. Qed.
  Theorem some_nan_counts_as_valid :
    count_valid (DT := IsNone_float (A := A)) [nnan] = 0 /\ count_valid (DT := IsNone_option (A := A)) [Some nnan] = 1
    /\ vsum (DT := IsNone_float (A := A)) [nnan] = None /\ vsum (DT := IsNone_option (A := A)) [Some nnan] = Some (nadd nzero nnan).
  Proof.
    unfold count_valid, vsum, vfold_n, not_none. cbn [fold_left is_none unwrap IsNone_float IsNone_option].
    rewrite Hnan. cbn. auto.
  Qed.
End NonCanonical.
