(* Proofs/Collect.v — the collectors of Model/Collect.v (own.rs, trusted.rs, uninit.rs) on a source that announces its
   true length: the infallible ones return the items, the fallible ones stop at the first error; write_trust_iter
   into a buffer of any length; Vec1::sort_unstable_by returns a sorted permutation. *)
From Coq Require Import Sorting.Sorted Sorting.Permutation.
From Tevec Require Import Base.Prelude Model.Driver Model.Create Proofs.Create Model.Collect.
Set Implicit Arguments.

(* ---- infallible collectors: identity on the item sequence ---------------------------------- *)
Lemma collect_from_trusted_exact {A} (b : backend) (items : list A) :
  collect_from_trusted b (exact_iter items) = Done items.
Proof. destruct b; [apply collect_trusted_exact|reflexivity]. Qed.

(* optional -> null-encoded *)
Definition unwrap_or {A} (none : A) (o : option A) : A := match o with Some v => v | None => none end.

Lemma collect_opt_spec {A} (none : A) (items : list (option A)) :
  collect_from_opt_iter none items = Done (map (unwrap_or none) items).
Proof. reflexivity. Qed.

(* ---- fallible collectors --------------------------------------------------------------------- *)
Section Try.
  Context {A E : Type}.

  Lemma ok_prefix_all (xs : list A) : ok_prefix (map (@inl A E) xs) = xs.
  Proof. induction xs as [|x r IH]; [reflexivity|]. cbn. rewrite IH. reflexivity. Qed.
  Lemma first_err_all (xs : list A) : first_err (map (@inl A E) xs) = None.
  Proof. induction xs as [|x r IH]; [reflexivity|]. exact IH. Qed.
  Lemma ok_prefix_err (xs : list A) (e : E) rest : ok_prefix (map (@inl A E) xs ++ inr e :: rest) = xs.
  Proof. induction xs as [|x r IH]; [reflexivity|]. cbn. rewrite IH. reflexivity. Qed.
  Lemma first_err_err (xs : list A) (e : E) rest : first_err (map (@inl A E) xs ++ inr e :: rest) = Some e.
  Proof. induction xs as [|x r IH]; [reflexivity|]. exact IH. Qed.
  Lemma pulled_all (xs : list A) : pulled (map (@inl A E) xs) = length xs.
  Proof. induction xs as [|x r IH]; [reflexivity|]. cbn. rewrite IH. reflexivity. Qed.
  Lemma pulled_err (xs : list A) (e : E) rest : pulled (map (@inl A E) xs ++ inr e :: rest) = S (length xs).
  Proof. induction xs as [|x r IH]; [reflexivity|]. cbn. rewrite IH. reflexivity. Qed.

  (* every item sequence is either all-Ok or has a first error *)
  Lemma items_shape (items : list (A + E)) :
    (exists xs, items = map (@inl A E) xs)
    \/ (exists xs e rest, items = map (@inl A E) xs ++ inr e :: rest).
  Proof.
    induction items as [|[a|e] r IH].
    - left. exists []. reflexivity.
    - destruct IH as [[xs ->]|(xs & e & rest & ->)].
      + left. exists (a :: xs). reflexivity.
      + right. exists (a :: xs), e, rest. reflexivity.
    - right. exists [], e, r. reflexivity.
  Qed.

  Lemma try_collect_ok (hint : nat) (xs : list A) :
    try_collect_from_iter (TI hint (map (@inl A E) xs)) = TOk (Done xs).
  Proof. unfold try_collect_from_iter. cbn [ti_items]. rewrite first_err_all, ok_prefix_all. reflexivity. Qed.

  Lemma try_collect_err (hint : nat) (xs : list A) (e : E) rest :
    try_collect_from_iter (TI hint (map (@inl A E) xs ++ inr e :: rest)) = TErr e.
  Proof. unfold try_collect_from_iter. cbn [ti_items]. rewrite first_err_err. reflexivity. Qed.

  Lemma try_collect_trusted_ok (b : backend) (xs : list A) :
    try_collect_from_trusted b (exact_iter (map (@inl A E) xs)) = TOk (Done xs).
  Proof.
    destruct b; cbn [try_collect_from_trusted]; [|apply try_collect_ok].
    unfold exact_iter. cbn [ti_hint ti_items]. rewrite ok_prefix_all, first_err_all, map_length.
    rewrite Nat.ltb_irrefl, <- (Nat.add_0_r (length xs)), fill_finish. reflexivity.
  Qed.

  Lemma try_collect_trusted_err (b : backend) (xs : list A) (e : E) rest :
    try_collect_from_trusted b (exact_iter (map (@inl A E) xs ++ inr e :: rest)) = TErr e.
  Proof.
    destruct b; cbn [try_collect_from_trusted]; [|apply try_collect_err].
    unfold exact_iter. cbn [ti_hint ti_items]. rewrite ok_prefix_err, first_err_err.
    rewrite app_length, map_length. cbn [length].
    replace (length xs + S (length rest) <? length xs) with false by (symmetry; apply Nat.ltb_ge; lia).
    reflexivity.
  Qed.
End Try.

(* ---- write_trust_iter ------------------------------------------------------------------------ *)
(* write_each stops at the shorter of the announced count and the items *)
Lemma write_each_gen {A} (items : list A) : forall i n,
  write_each i n items
  = (if n <=? length items then WOk else WPanic UnwrapNone,
     combine (seq i (Nat.min n (length items))) (firstn n items)).
Proof.
  induction items as [|x r IH]; intros i n.
  - destruct n; reflexivity.
  - destruct n as [|n]; [reflexivity|]. cbn [write_each length Nat.min firstn seq combine].
    rewrite IH. reflexivity.
Qed.

Lemma write_each_exact {A} (items : list A) i :
  write_each i (length items) items = (WOk, combine (seq i (length items)) items).
Proof. rewrite write_each_gen, Nat.leb_refl, Nat.min_id, firstn_all. reflexivity. Qed.

(* uset calls at consecutive slots are the stores of the trusted collector *)
Lemma apply_writes_fill {A} (items : list A) : forall k buf,
  apply_writes (combine (seq k (length items)) items) buf = fill_from k items buf.
Proof. induction items as [|x r IH]; intros k buf; [reflexivity|]. exact (IH (S k) _). Qed.

Lemma apply_writes_prefix {A} (items : list A) (pre old : list (option A)) :
  length items <= length old ->
  apply_writes (combine (seq (length pre) (length items)) items) (pre ++ old)
  = pre ++ map Some items ++ skipn (length items) old.
Proof. rewrite apply_writes_fill. apply fill_from_prefix. Qed.

Lemma apply_writes_in_order {A} (items : list A) (pre old : list (option A)) :
  length old = length items ->
  apply_writes (combine (seq (length pre) (length items)) items) (pre ++ old) = pre ++ map Some items.
Proof.
  intros Hlen. rewrite apply_writes_prefix, <- Hlen, skipn_all, app_nil_r by lia. reflexivity.
Qed.

Lemma map_pair_seq {A} (v : A) : forall n k, map (fun i => (i, v)) (seq k n) = combine (seq k n) (repeat v n).
Proof. induction n as [|n IH]; intros k; [reflexivity|]. cbn [seq map repeat combine]. rewrite IH. reflexivity. Qed.

Lemma apply_writes_broadcast {A} (v : A) (n : nat) (pre old : list (option A)) :
  length old = n ->
  apply_writes (map (fun i => (i, v)) (seq (length pre) n)) (pre ++ old) = pre ++ repeat (Some v) n.
Proof.
  intros Hlen. rewrite map_pair_seq. rewrite <- (repeat_length v n) at 1.
  rewrite apply_writes_in_order by (rewrite repeat_length; exact Hlen). f_equal.
  clear. induction n as [|n IH]; [reflexivity|]. cbn [repeat map]. rewrite IH. reflexivity.
Qed.

Lemma map_fst_combine_seq {A} (items : list A) i :
  map fst (combine (seq i (length items)) items) = seq i (length items).
Proof.
  revert i; induction items as [|x r IH]; intros i; [reflexivity|].
  cbn [length seq combine map fst]. rewrite IH. reflexivity.
Qed.

(* the complete behaviour under the TrustedLen contract (announced length = number of items) *)
Lemma write_trust_iter_spec {A} (old : list (option A)) (items : list A) :
  let len := length old in
  let r := write_trust_iter len (exact_iter items) in
  (* equal lengths (including the empty buffer against the empty iterator) *)
  (len = length items ->
     fst r = WOk /\ map fst (snd r) = seq 0 len /\ apply_writes (snd r) old = map Some items) /\
  (* singleton broadcast *)
  (forall v, items = [v] -> len <> 0 ->
     fst r = WOk /\ map fst (snd r) = seq 0 len /\ apply_writes (snd r) old = repeat (Some v) len) /\
  (* empty buffer: Ok, nothing to write, whatever the iterator *)
  (len = 0 -> r = (WOk, [])) /\
  (* mismatch: Err and not a single write — the buffer is untouched *)
  (len <> 0 -> len <> length items -> length items <> 1 ->
     r = (WErr, []) /\ apply_writes (snd r) old = old).
Proof.
  cbv zeta. unfold write_trust_iter, exact_iter. cbn [ti_hint ti_items].
  split; [|split; [|split]].
  - intros Hlen. rewrite Hlen.
    destruct (length items =? 0) eqn:E0.
    + apply Nat.eqb_eq in E0. destruct items; [|discriminate]. destruct old; [|discriminate].
      cbn. auto.
    + rewrite Nat.eqb_refl, write_each_exact. cbn [fst snd].
      split; [reflexivity|]. split; [apply map_fst_combine_seq|].
      apply (apply_writes_in_order items [] old). exact Hlen.
  - intros v -> Hne. cbn [length].
    replace (length old =? 0) with false by (symmetry; apply Nat.eqb_neq; exact Hne).
    destruct (length old =? 1) eqn:E1.
    + apply Nat.eqb_eq in E1. rewrite E1. cbn [write_each fst snd map seq repeat].
      destruct old as [|c [|c' old]]; try discriminate. cbn. auto.
    + cbn [Nat.eqb fst snd]. split; [reflexivity|]. split.
      * rewrite map_map. cbn [fst]. apply map_id.
      * apply (apply_writes_broadcast v [] old). reflexivity.
  - intros ->. reflexivity.
  - intros H0 Hne H1.
    replace (length old =? 0) with false by (symmetry; apply Nat.eqb_neq; exact H0).
    replace (length old =? length items) with false by (symmetry; apply Nat.eqb_neq; exact Hne).
    replace (length items =? 1) with false by (symmetry; apply Nat.eqb_neq; exact H1).
    split; reflexivity.
Qed.

(* under the contract write_trust_iter never panics, and is Err exactly on a genuine mismatch *)
Lemma write_trust_iter_status {A} (len : nat) (items : list A) :
  fst (write_trust_iter len (exact_iter items))
  = if orb (len =? 0) (orb (len =? length items) (length items =? 1)) then WOk else WErr.
Proof.
  unfold write_trust_iter, exact_iter. cbn [ti_hint ti_items].
  destruct (len =? 0) eqn:E0; [reflexivity|]. cbn [orb].
  destruct (len =? length items) eqn:E1; cbn [orb].
  - apply Nat.eqb_eq in E1. subst len. rewrite write_each_exact. reflexivity.
  - destruct (length items =? 1) eqn:E2; [|reflexivity].
    apply Nat.eqb_eq in E2. destruct items as [|v [|]]; try discriminate. reflexivity.
Qed.

(* without the contract (announced length wrong): whatever happens, a write never lands outside
   0..len-1, no slot is written twice, and Err still means "nothing written" *)
Lemma write_trust_iter_slots {A} (len : nat) (it : titer A) :
  exists k, k <= len /\ map fst (snd (write_trust_iter len it)) = seq 0 k
  /\ (fst (write_trust_iter len it) = WErr -> k = 0)
  /\ (fst (write_trust_iter len it) = WOk -> k = len).
Proof.
  unfold write_trust_iter.
  destruct (len =? 0) eqn:E0.
  { apply Nat.eqb_eq in E0. exists 0. cbn. repeat split; auto; lia. }
  destruct (len =? ti_hint it) eqn:E1.
  { rewrite write_each_gen. cbn [fst snd]. exists (Nat.min len (length (ti_items it))). split; [lia|]. split.
    - rewrite <- (firstn_length len (ti_items it)). apply map_fst_combine_seq.
    - destruct (Nat.leb_spec len (length (ti_items it))) as [H|H]; (split; [discriminate|]);
        [intros _; lia | discriminate]. }
  destruct (ti_hint it =? 1).
  - destruct (ti_items it) as [|v r].
    + exists 0. cbn. repeat split; auto; try lia; discriminate.
    + exists len. cbn [fst snd]. split; [lia|]. split; [|split; [discriminate|reflexivity]].
      rewrite map_map. cbn [fst]. apply map_id.
  - exists 0. cbn. repeat split; auto; try lia; discriminate.
Qed.

(* ---- Vec1::sort_unstable_by ---- *)
Section SortProofs.
  Context {T : Type} (leb : T -> T -> bool).
  Hypothesis leb_total : forall x y, leb x y = false -> leb y x = true.
  Let le x y := leb x y = true.

  Lemma insert_perm x l : Permutation (insert_sorted leb x l) (x :: l).
  Proof.
    induction l as [|y r IH]; [apply Permutation_refl|]. cbn [insert_sorted].
    destruct (leb x y); [apply Permutation_refl|].
    eapply Permutation_trans; [apply perm_skip; exact IH|apply perm_swap].
  Qed.

  Lemma isort_perm l : Permutation (isort leb l) l.
  Proof.
    induction l as [|x r IH]; [apply Permutation_refl|]. cbn [isort].
    eapply Permutation_trans; [apply insert_perm|apply perm_skip; exact IH].
  Qed.

  Lemma insert_hdrel a x l : le a x -> HdRel le a l -> HdRel le a (insert_sorted leb x l).
  Proof.
    intros Hax Hl. destruct l as [|y r]; cbn [insert_sorted]; [constructor; exact Hax|].
    destruct (leb x y); constructor; [exact Hax|]. inversion Hl; assumption.
  Qed.

  Lemma insert_sorted_sorted x l : Sorted le l -> Sorted le (insert_sorted leb x l).
  Proof.
    induction l as [|y r IH]; intros Hs; cbn [insert_sorted]; [repeat constructor|].
    destruct (leb x y) eqn:E.
    - constructor; [exact Hs|constructor; exact E].
    - inversion Hs as [|? ? Hr Hhd]; subst. constructor; [apply IH; exact Hr|].
      apply insert_hdrel; [apply leb_total; exact E|exact Hhd].
  Qed.

  Lemma isort_sorted l : Sorted le (isort leb l).
  Proof. induction l as [|x r IH]; [constructor|]. cbn [isort]. apply insert_sorted_sorted. exact IH. Qed.

  Lemma sort_unstable_by_spec (xs : list T) :
    sort_unstable_by leb xs = (true, isort leb xs)
    /\ Sorted le (isort leb xs) /\ Permutation (isort leb xs) xs.
  Proof.
    split; [|split; [apply isort_sorted|apply isort_perm]].
    unfold sort_unstable_by. rewrite collect_from_trusted_exact.
    assert (Hlen : length xs = length (isort leb xs)).
    { apply Permutation_length. apply Permutation_sym. apply isort_perm. }
    unfold apply_mut_with. rewrite Hlen, Nat.eqb_refl. f_equal.
    generalize (isort leb xs) Hlen. clear. induction xs as [|x r IH]; intros l Hl.
    - destruct l; [reflexivity|discriminate].
    - destruct l as [|y l]; [discriminate|]. cbn [combine map fst snd]. f_equal. apply IH.
      cbn in Hl. lia.
  Qed.
End SortProofs.
