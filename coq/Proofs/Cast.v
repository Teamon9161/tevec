(* Proofs/Cast.v — lemmas about Model/Cast.v: `ExtLaws`, texts, the IsNone dictionary, vabs (the Cast lattice is
   Proofs/CastLattice.v, the sort comparators Proofs/CastOrder.v).
   Everything is proved for an arbitrary float type F and an arbitrary `Ext F` satisfying `ExtLaws` (facts about
   Rust's float `as`, abs, partial_cmp, Display/FromStr that the correspondence run checks on the real thing). *)
From Coq Require Import ZArith List Bool Lia.
From Tevec Require Import Base.Prelude Model.Cast.
Import ListNotations.
Local Open Scope Z_scope.

(* What is assumed of the external float operations *)

Record ExtLaws {F : Type} (X : Ext F) : Prop := {
  nan_is_nan : feq X (f_nan X) (f_nan X) = false;
  abs_nan : forall f, feq X (fabs X f) (fabs X f) = feq X f f;
  round32_nan : forall f, feq X (round32 X f) (round32 X f) = feq X f f;
  z2f32_num : forall z, feq X (z2f32 X z) (z2f32 X z) = true;
  z2f64_num : forall z, feq X (z2f64 X z) (z2f64 X z) = true;
  (* partial_cmp is defined exactly on the non-NaN values and is a total preorder there *)
  fcmp_some : forall a b, feq X a a = true -> feq X b b = true -> exists c, fcmp X a b = Some c;
  fcmp_refl : forall a, feq X a a = true -> fcmp X a a = Some Eq;
  fcmp_antisym : forall a b c, fcmp X a b = Some c -> fcmp X b a = Some (CompOpp c);
  fcmp_trans : forall a b c x y, fcmp X a b = Some x -> fcmp X b c = Some y -> x <> Gt -> y <> Gt ->
                                 exists z, fcmp X a c = Some z /\ z <> Gt;
  (* text: a number is never printed as "None", and "None" is not a number / date / duration *)
  f2s32_num : forall f, feq X f f = true -> str_eqb (f2s32 X f) s_None = false;
  f2s64_num : forall f, feq X f f = true -> str_eqb (f2s64 X f) s_None = false;
  s2f32_None : s2f32 X s_None = None;
  s2f64_None : s2f64 X s_None = None;
  s2dt_None : s2dt X s_None = None;
  s2td_None : s2td X s_None = None;
}.

Lemma str_eqb_eq (a b : str) : str_eqb a b = true <-> a = b.
Proof.
  revert b; induction a as [|x a IH]; intros [|y b]; cbn; split; intros H; try reflexivity; try discriminate.
  - apply andb_true_iff in H. destruct H as [H1 H2]. apply Z.eqb_eq in H1. apply IH in H2. congruence.
  - injection H as -> ->. rewrite Z.eqb_refl. cbn. apply IH. reflexivity.
Qed.

Lemma str_eqb_refl (a : str) : str_eqb a a = true.
Proof. apply str_eqb_eq. reflexivity. Qed.

Definition digit_head (l : str) : Prop := exists d r, l = d :: r /\ 48 <= d <= 57.

Lemma digit_head_push z acc : digit_head ((48 + z mod 10) :: acc).
Proof.
  exists (48 + z mod 10), acc. split; [reflexivity|]. pose proof (Z.mod_pos_bound z 10 ltac:(lia)). lia.
Qed.

Lemma dec_digits_head k : forall z acc, digit_head acc -> digit_head (dec_digits k z acc).
Proof.
  induction k as [|k IH]; intros z acc H; cbn [dec_digits]; [exact H|].
  destruct (z <? 10); [|apply IH]; apply digit_head_push.
Qed.

Lemma dec_digits_S_head k z : digit_head (dec_digits (S k) z []).
Proof. cbn [dec_digits]. destruct (z <? 10); [|apply dec_digits_head]; apply digit_head_push. Qed.

Lemma digit_head_not_None l : digit_head l -> str_eqb l s_None = false.
Proof.
  intros (d & r & -> & Hd). unfold s_None. cbn [str_eqb].
  replace (d =? 78) with false by (symmetry; apply Z.eqb_neq; lia). reflexivity.
Qed.

Lemma z_to_string_not_None z : str_eqb (z_to_string z) s_None = false.
Proof.
  unfold z_to_string. destruct (z <? 0).
  - reflexivity.
  - apply digit_head_not_None. exact (dec_digits_S_head 79 z).
Qed.

Lemma i64min_is : (i64min =? i64min) = true. Proof. reflexivity. Qed.
Lemma i32min_is : (i32min =? i32min) = true. Proof. reflexivity. Qed.

Section Laws.
  Context {F : Type} (X : Ext F) (L : ExtLaws X).

  (* the laws as the model uses them: `fisnan f` is `negb (feq f f)` *)
  Lemma fisnan_nan : fisnan X (f_nan X) = true.
  Proof. unfold fisnan. rewrite (nan_is_nan X L). reflexivity. Qed.

  Lemma fisnan_abs f : fisnan X (fabs X f) = fisnan X f.
  Proof. unfold fisnan. rewrite (abs_nan X L). reflexivity. Qed.

  Lemma fisnan_round32 f : fisnan X (round32 X f) = fisnan X f.
  Proof. unfold fisnan. rewrite (round32_nan X L). reflexivity. Qed.

  Lemma fisnan_z2f32 z : fisnan X (z2f32 X z) = false.
  Proof. unfold fisnan. rewrite (z2f32_num X L). reflexivity. Qed.

  Lemma fisnan_z2f64 z : fisnan X (z2f64 X z) = false.
  Proof. unfold fisnan. rewrite (z2f64_num X L). reflexivity. Qed.

  Lemma f2s32_not_None f : fisnan X f = false -> str_eqb (f2s32 X f) s_None = false.
  Proof. intros H. apply (f2s32_num X L). apply negb_false_iff. exact H. Qed.

  Lemma f2s64_not_None f : fisnan X f = false -> str_eqb (f2s64 X f) s_None = false.
  Proof. intros H. apply (f2s64_num X L). apply negb_false_iff. exact H. Qed.

  (* the null predicates agree *)

  Lemma not_none_negb t (v : val t) : not_none X t v = negb (is_none X t v).
  Proof.
    destruct t as [b|b]; [destruct b as [[]| | | | |]|destruct v]; try reflexivity;
      cbn [not_none is_none b_not_none b_is_none n_not_none n_is_none]; unfold fisnan; rewrite negb_involutive; reflexivity.
  Qed.

  Lemma to_opt_spec t (v : val t) :
    (is_none X t v = true -> to_opt X t v = None) /\
    (is_none X t v = false -> exists x, to_opt X t v = Some x /\ unwrap t v = Ok x).
  Proof.
    destruct t as [b|b]; cbn [is_none to_opt unwrap base].
    - split; intros H; rewrite H; [reflexivity|]. exists v. auto.
    - destruct v as [x|]; split; intros H; try discriminate; [|reflexivity]. exists x. auto.
  Qed.

  Lemma to_opt_none_iff t (v : val t) : to_opt X t v = None <-> is_none X t v = true.
  Proof.
    destruct t as [b|b]; cbn [is_none to_opt].
    - destruct (b_is_none X b v); split; intros H; try reflexivity; discriminate.
    - destruct v; split; intros H; try reflexivity; discriminate.
  Qed.

  Lemma as_opt_to_opt t (v : val t) : as_opt X t v = to_opt X t v.
  Proof. destruct t as [b|b]; cbn; [reflexivity|destruct v; reflexivity]. Qed.

  Lemma unwrap_to_opt t (v : val t) x : to_opt X t v = Some x -> unwrap t v = Ok x.
  Proof.
    destruct t as [b|b]; cbn [to_opt unwrap].
    - destruct (b_is_none X b v); [discriminate|]. intros H; injection H as ->. reflexivity.
    - intros ->. reflexivity.
  Qed.

  Lemma to_opt_some_nonnull t (v : val t) x :
    canonical X t v = true -> to_opt X t v = Some x -> b_is_none X (base t) x = false.
  Proof.
    destruct t as [b|b]; cbn [to_opt canonical base].
    - intros _. destruct (b_is_none X b v) eqn:E; [discriminate|]. intros H; injection H as <-. exact E.
    - intros Hc ->. apply negb_true_iff. exact Hc.
  Qed.

  (* the null constructor *)

  Lemma none_is_none t w : none X t = Ok w -> is_none X t w = true.
  Proof.
    destruct t as [b|b]; cbn [none is_none].
    - destruct b as [[]| | | | |]; cbn [b_none n_none]; intros H; try discriminate; injection H as <-;
        try apply fisnan_nan; reflexivity.
    - intros H; injection H as <-. reflexivity.
  Qed.

  Lemma none_defined t : can_null t = true <-> exists w, none X t = Ok w.
  Proof.
    destruct t as [b|b]; cbn [none can_null].
    - destruct b as [[]| | | | |]; cbn [b_none n_none b_can_null is_float]; split; intros H; try discriminate;
        try reflexivity; try (eexists; reflexivity); destruct H as [w H]; discriminate.
    - split; [eexists; reflexivity|reflexivity].
  Qed.

  (* wrapping and unwrapping *)

  Lemma from_inner_nonnull t (x : inner t) :
    b_is_none X (base t) x = false ->
    to_opt X t (from_inner X t x) = Some x /\ unwrap t (from_inner X t x) = Ok x /\
    is_none X t (from_inner X t x) = false.
  Proof.
    destruct t as [b|b]; cbn [from_inner to_opt unwrap is_none base]; intros H; rewrite H; auto.
  Qed.

  Lemma from_inner_null t (x : inner t) :
    b_is_none X (base t) x = true -> is_none X t (from_inner X t x) = true.
  Proof. destruct t as [b|b]; cbn [from_inner is_none base]; intros H; rewrite H; auto. Qed.

  Lemma from_opt_to_opt t (v : val t) :
    canonical X t v = true -> is_none X t v = false -> from_opt X t (to_opt X t v) = Ok v.
  Proof.
    destruct t as [b|b]; cbn [is_none to_opt from_opt from_inner canonical].
    - intros _ H; rewrite H. reflexivity.
    - destruct v as [x|]; [|discriminate]. intros Hc _. cbn.
      apply negb_true_iff in Hc. rewrite Hc. reflexivity.
  Qed.

  Lemma from_opt_null t (v : val t) w :
    is_none X t v = true -> from_opt X t (to_opt X t v) = Ok w -> is_none X t w = true.
  Proof.
    intros H. apply to_opt_none_iff in H. rewrite H. cbn [from_opt]. apply none_is_none.
  Qed.

  Lemma into_cast_plain b (v : bval b) : into_cast X false b v = v.
  Proof. reflexivity. Qed.

  Lemma into_cast_opt b (v : bval b) :
    is_none X (Opt b) (into_cast X true b v) = b_is_none X b v /\
    to_opt X (Opt b) (into_cast X true b v) = to_opt X (Plain b) v /\
    into_cast X true b v = from_inner X (Opt b) v.
  Proof. cbn [into_cast is_none to_opt from_inner]. destruct (b_is_none X b v); auto. Qed.

  (* vabs *)

  Lemma n_abs_nullness n (x a : nval n) : n_abs X n x = Ok a -> n_is_none X n a = n_is_none X n x.
  Proof.
    destruct n; cbn [n_abs n_is_none]; intros H; try reflexivity; injection H as <-; apply fisnan_abs.
  Qed.

End Laws.
