(* Proofs/NoLookahead2.v — C06: the vocabulary of the prefix and window-only laws of the index-form kernels:
   the result vector of a call, and the scope in which the effective min_periods of the extrema / rank family
   does not depend on the length of the series. *)
From Coq Require Import Lia List.
From Tevec Require Import Base.Prelude Base.Num Model.Driver Model.Cmp.
Import ListNotations.

Definition out_of {O} (o : outcome O) : list O := match o with Done l => l | _ => [] end.

Definition last_opt {X} (l : list X) : option X := nth_error l (length l - 1).

Lemma last_opt_snoc {X} (l : list X) a : last_opt (l ++ [a]) = Some a.
Proof.
  unfold last_opt. rewrite app_length. cbn [length]. replace (length l + 1 - 1) with (length l) by lia.
  rewrite nth_error_app2 by lia. rewrite Nat.sub_diag. reflexivity.
Qed.

Lemma win_snoc {X} w i (l : list X) a :
  1 <= w -> nth_error l i = Some a -> win w i l = seg (wstart w i) i l ++ [a].
Proof.
  intros Hw Ha. rewrite win_seg. apply seg_snoc; [unfold wstart; lia|exact Ha].
Qed.

(* the effective min_periods of this family does not depend on the series when it is explicit, or when the
   series is at least as long as the window (DESIGN 5.3) *)
Definition cmp_dom (w : nat) (mp : option nat) (len : nat) : Prop :=
  match mp with Some _ => True | None => w <= len end.

Lemma cmp_mp_const {T} w mp (xs : list T) :
  cmp_dom w mp (length xs) -> cmp_mp mp (cmp_window w xs) = cmp_mp mp w.
Proof.
  unfold cmp_dom, cmp_mp, cmp_window. destruct mp; [reflexivity|]. intros H.
  rewrite Nat.min_r by exact H. reflexivity.
Qed.
