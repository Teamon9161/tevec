(* Proofs/Sliding.v — the generic add -> emit -> remove invariant (DESIGN.md 2.2).
   If an abstraction relation `Abs state window` is established by the initial state on the empty
   window, preserved by adding an element at the end and by removing the element at the front, then at
   emit time of EVERY step i of EVERY series the state abstracts exactly the window
   positions max(0,i-w+1)..=i.  "Never drifts, however long the history" is this induction.       *)
From Tevec Require Import Base.Prelude Model.Driver Proofs.Driver Model.Features Proofs.Outcome
     Proofs.Generic.

Lemma win_as_seg {T} w k (xs : list T) : 1 <= w -> win w k xs = seg (k - (w - 1)) (S k) xs.
Proof. intros Hw. rewrite win_seg. unfold wstart. f_equal. lia. Qed.

(* The induction, for any callback over any argument list: all that is asked is that the state
   component of step k adds element k and then drops the element `removed w xs k` names.  Nothing
   is asked of the steps from `lim` on (the index body hands its last step a different start
   index; the state that step leaves is never read).
   Preservation is asked only on `Good` lists, and `Good` only of the windows this run visits: a
   step that is exact only while the window stays in some range (a float accumulator) is covered,
   and `Good := fun _ => True` is the unconditional case.                                        *)
Section SlidingAny.
  Context {T St X O : Type}.
  Variable g : St -> X -> St * O.
  Variable add drop : St -> T -> St.
  Variable s0 : St.
  Variable Abs : St -> list T -> Prop.
  Variable Good : list T -> Prop.
  Hypothesis Abs_init : Abs s0 [].
  Hypothesis Abs_add : forall s l v, Good (l ++ [v]) -> Abs s l -> Abs (add s v) (l ++ [v]).
  Hypothesis Abs_drop : forall s x l, Good (x :: l) -> Abs s (x :: l) -> Abs (drop s x) l.
  Variable w : nat.
  Variable xs : list T.
  Variable args : list X.
  Variable lim : nat.
  Hypothesis args_length : length args = length xs.
  Hypothesis Good_win : forall k, k <= lim -> k < length xs -> Good (win w k xs).
  Hypothesis g_state : forall k a v s,
    k < lim -> nth_error args k = Some a -> nth_error xs k = Some v ->
    fst (g s a) = match removed w xs k with Some x => drop (add s v) x | None => add s v end.

  (* after k steps the state abstracts the last min(k, w-1) elements *)
  Lemma state_after_any k :
    1 <= w -> k <= lim -> k <= length xs ->
    Abs (state_after g s0 (firstn k args)) (seg (k - (w - 1)) k xs).
  Proof.
    intros Hw. induction k as [|k IH]; intros Hk Hl.
    - rewrite Nat.sub_0_l, seg_nil. exact Abs_init.
    - specialize (IH ltac:(lia) ltac:(lia)).
      destruct (nth_error_Some_lt xs k ltac:(lia)) as [v Hv].
      destruct (nth_error_Some_lt args k ltac:(lia)) as [a Ha].
      rewrite (firstn_S_nth _ _ _ Ha), state_after_app. cbn [state_after].
      rewrite (g_state k a v _ ltac:(lia) Ha Hv).
      pose proof (Good_win k ltac:(lia) ltac:(lia)) as HG. rewrite win_as_seg in HG by exact Hw.
      assert (Hadd : Abs (add (state_after g s0 (firstn k args)) v) (seg (k - (w - 1)) (S k) xs)).
      { rewrite (@seg_snoc _ (k - (w - 1)) k xs v) in * by (try lia; exact Hv). apply Abs_add; assumption. }
      unfold removed. destruct (k <? w - 1) eqn:E.
      + apply Nat.ltb_lt in E. replace (S k - (w - 1)) with (k - (w - 1)) by lia. exact Hadd.
      + apply Nat.ltb_ge in E.
        destruct (nth_error_Some_lt xs (k - (w - 1)) ltac:(lia)) as [x Hx]. rewrite Hx.
        rewrite (@seg_cons _ (k - (w - 1)) (S k) xs x) in Hadd, HG by (try lia; exact Hx).
        replace (S k - (w - 1)) with (S (k - (w - 1))) by lia.
        apply Abs_drop; assumption.
  Qed.

  (* output i is computed by step i from a state which, once element i is added, abstracts win w i xs *)
  Theorem sliding_any i a v :
    1 <= w -> i <= lim -> nth_error args i = Some a -> nth_error xs i = Some v ->
    exists s, Abs (add s v) (win w i xs) /\ nth_error (run g s0 args) i = Some (snd (g s a)).
  Proof.
    intros Hw Hi Ha Hv.
    assert (Hl : i < length xs) by (apply nth_error_Some; congruence).
    exists (state_after g s0 (firstn i args)). split; [|apply run_nth; exact Ha].
    pose proof (Good_win i Hi Hl) as HG. rewrite win_as_seg in * by exact Hw.
    rewrite (@seg_snoc _ (i - (w - 1)) i xs v) in * by (try lia; exact Hv).
    apply Abs_add; [exact HG|]. apply state_after_any; lia.
  Qed.
End SlidingAny.

Section Sliding.
  Context {T St O : Type}.
  Variable F : feat T St O.
  Variable Abs : St -> list T -> Prop.
  Hypothesis Abs_init : Abs (f_init F) [].
  Hypothesis Abs_pre : forall s l v, Abs s l -> Abs (f_pre F s v) (l ++ [v]).
  Hypothesis Abs_post : forall s x l, Abs s (x :: l) -> Abs (f_post F s (Some x)) l.
  Hypothesis post_none : forall s, f_post F s None = s.

  Variable w : nat.
  Hypothesis Hw : 1 <= w.
  Variable xs : list T.

  Let args := mapi (fun i v => (removed w xs i, v)) xs.

  Lemma feat_cb_state k a v s :
    k < length xs -> nth_error args k = Some a -> nth_error xs k = Some v ->
    fst (feat_cb F s a)
    = match removed w xs k with Some x => f_post F (f_pre F s v) (Some x) | None => f_pre F s v end.
  Proof.
    intros _ Ha Hv. unfold args in Ha. rewrite nth_error_mapi, Hv in Ha. injection Ha as <-.
    cbn [feat_cb fst snd]. destruct (removed w xs k); [reflexivity|apply post_none].
  Qed.

  Lemma state_after_abs k :
    k <= length xs ->
    Abs (state_after (feat_cb F) (f_init F) (firstn k args)) (seg (k - (w - 1)) k xs).
  Proof using All.
    intros Hk.
    apply (state_after_any (feat_cb F) (f_pre F) (fun s x => f_post F s (Some x)) (f_init F) Abs (fun _ => True)
             Abs_init (fun s l v _ => Abs_pre s l v) (fun s x l _ => Abs_post s x l)
             w xs args (length xs) (mapi_length _ _) (fun _ _ _ => I) feat_cb_state);
      [exact Hw|exact Hk|exact Hk].
  Qed.

  (* the state at emit time of step i abstracts win w i xs *)
  Theorem sliding_emit i v :
    nth_error xs i = Some v ->
    exists s, Abs s (win w i xs) /\
              nth_error (run (feat_cb F) (f_init F) args) i = Some (f_emit F s).
  Proof.
    intros Hv.
    assert (Hi : i <= length xs) by (apply Nat.lt_le_incl, nth_error_Some; congruence).
    assert (Ha : nth_error args i = Some (removed w xs i, v)).
    { unfold args. rewrite nth_error_mapi, Hv. reflexivity. }
    destruct (sliding_any (feat_cb F) (f_pre F) (fun s x => f_post F s (Some x)) (f_init F) Abs (fun _ => True)
                Abs_init (fun s l v _ => Abs_pre s l v) (fun s x l _ => Abs_post s x l)
                w xs args (length xs) (mapi_length _ _) (fun _ _ _ => I) feat_cb_state
                i _ v Hw Hi Ha Hv) as (s & Habs & Hout).
    exists (f_pre F s v). split; [exact Habs|exact Hout].
  Qed.

  (* both driver bodies *)
  Theorem sliding_ts_run body :
    exists out, ts_run F body w xs = Done out /\ length out = length xs /\
      forall i v, nth_error xs i = Some v ->
        exists s, Abs s (win w i xs) /\ nth_error out i = Some (f_emit F s).
  Proof.
    exists (run (feat_cb F) (f_init F) args). split; [|split].
    - apply ts_run_iter. exact Hw.
    - rewrite run_length. unfold args. apply mapi_length.
    - intros i v Hv. apply (sliding_emit i v). exact Hv.
  Qed.
End Sliding.

(* ... so when `emit` reads off the abstracted window a function G of it, the whole output is known *)
Theorem sliding_run {T St O} (F : feat T St O) (Abs : St -> list T -> Prop) (G : list T -> O) :
  Abs (f_init F) [] ->
  (forall s l v, Abs s l -> Abs (f_pre F s v) (l ++ [v])) ->
  (forall s x l, Abs s (x :: l) -> Abs (f_post F s (Some x)) l) ->
  (forall s, f_post F s None = s) ->
  (forall s W, Abs s W -> f_emit F s = G W) ->
  forall body w xs, 1 <= w ->
    ts_run F body w xs = Done (map (fun i => G (win w i xs)) (seq 0 (length xs))).
Proof.
  intros Hinit Hpre Hpost Hnone HG body w xs Hw.
  destruct (sliding_ts_run F Abs Hinit Hpre Hpost Hnone w Hw xs body) as (out & Hrun & Hlen & Hout).
  apply done_map_iff. exists out. split; [exact Hrun|]. split; [exact Hlen|]. intros i Hi.
  destruct (nth_error_Some_lt xs i Hi) as [v Hv]. destruct (Hout i v Hv) as (s & Habs & Ho).
  rewrite Ho, (HG s _ Habs). reflexivity.
Qed.

(* A count field maintained as `if p(v) { n += 1 }` on entry and `if p(v_rm) { n -= 1 }` on exit holds the number
   of window elements satisfying p: a fact about nat, whatever the carrier's arithmetic does to the other fields. *)
Section Counting.
  Context {T St : Type}.
  Variable p : T -> bool.
  Variable cnt : St -> nat.

  Definition counts (s : St) (l : list T) : Prop := cnt s = length (filter p l).

  Lemma counts_add (add : St -> T -> St) :
    (forall s v, cnt (add s v) = cnt s + (if p v then 1 else 0)) ->
    forall s l v, counts s l -> counts (add s v) (l ++ [v]).
  Proof.
    unfold counts. intros Hadd s l v H. rewrite Hadd, H, filter_app, app_length. cbn [filter].
    destruct (p v); reflexivity.
  Qed.

  Lemma counts_drop (drop : St -> T -> St) :
    (forall s x, cnt (drop s x) = cnt s - (if p x then 1 else 0)) ->
    forall s x l, counts s (x :: l) -> counts (drop s x) l.
  Proof.
    unfold counts. intros Hdrop s x l H. rewrite Hdrop, H. cbn [filter].
    destruct (p x); cbn [length]; lia.
  Qed.
End Counting.

Theorem count_tracks {T St O} (F : feat T St O) (p : T -> bool) (cnt : St -> nat) :
  cnt (f_init F) = 0 ->
  (forall s v, cnt (f_pre F s v) = cnt s + (if p v then 1 else 0)) ->
  (forall s x, cnt (f_post F s (Some x)) = cnt s - (if p x then 1 else 0)) ->
  (forall s, f_post F s None = s) ->
  forall body w xs, 1 <= w ->
    exists out, ts_run F body w xs = Done out /\ length out = length xs /\
      forall i v, nth_error xs i = Some v ->
        exists s, cnt s = length (filter p (win w i xs)) /\ nth_error out i = Some (f_emit F s).
Proof.
  intros Hinit Hpre Hpost Hnone body w xs Hw.
  exact (sliding_ts_run F (counts p cnt) Hinit (counts_add p cnt _ Hpre)
           (counts_drop p cnt (fun s x => f_post F s (Some x)) Hpost) Hnone w Hw xs body).
Qed.
