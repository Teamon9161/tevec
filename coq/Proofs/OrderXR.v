(* Proofs/OrderXR.v — the order-statistic models at the proof instance XR = option R (None = null):
   sort_cmp / sort_cmp_rev are the orders "ascending (descending) on values, nulls last"; the sorted
   arrangement of a series is  map Some s ++ repeat None z  for THE sorted arrangement s of its valid
   elements (uniqueness of sorted permutations); floor / ceil facts.                               *)
From Coq Require Import Reals Lra Lia List Sorting Permutation ZArith Bool.
From Tevec Require Import Base.Num Base.XR Spec.Stats Model.SortCmp Proofs.SortCmp.
Import ListNotations.
Local Open Scope R_scope.

Definition Rfloor (x : R) : Z := Int_part x.
Definition Rceil (x : R) : Z := (- Int_part (- x))%Z.
Global Instance NumFloorXR : NumFloor XR :=
  {| nfloorZ := fun a => match a with Some x => Rfloor x | None => 0%Z end;
     nceilZ := fun a => match a with Some x => Rceil x | None => 0%Z end |}.

Lemma Rfloor_spec x : IZR (Rfloor x) <= x < IZR (Rfloor x) + 1.
Proof. unfold Rfloor. destruct (base_Int_part x) as [H1 H2]. lra. Qed.
Lemma Rceil_spec x : IZR (Rceil x) - 1 < x <= IZR (Rceil x).
Proof. unfold Rceil. rewrite opp_IZR. destruct (base_Int_part (- x)) as [H1 H2]. lra. Qed.

Lemma Rfloor_unique x z : IZR z <= x < IZR z + 1 -> Rfloor x = z.
Proof.
  intros [H1 H2]. destruct (Rfloor_spec x) as [H3 H4].
  assert (Ha : (z < Rfloor x + 1)%Z) by (apply lt_IZR; rewrite plus_IZR; lra).
  assert (Hb : (Rfloor x < z + 1)%Z) by (apply lt_IZR; rewrite plus_IZR; lra).
  lia.
Qed.
Lemma Rceil_unique x z : IZR z - 1 < x <= IZR z -> Rceil x = z.
Proof.
  intros [H1 H2]. destruct (Rceil_spec x) as [H3 H4].
  assert (Ha : (z - 1 < Rceil x)%Z) by (apply lt_IZR; rewrite minus_IZR; lra).
  assert (Hb : (Rceil x - 1 < z)%Z) by (apply lt_IZR; rewrite minus_IZR; lra).
  lia.
Qed.
Lemma Rfloor_IZR z : Rfloor (IZR z) = z.
Proof. apply Rfloor_unique. lra. Qed.
Lemma Rceil_IZR z : Rceil (IZR z) = z.
Proof. apply Rceil_unique. lra. Qed.

(* either h is an integer (floor = ceil = h) or ceil = floor + 1 *)
Lemma floor_ceil_cases x :
  (IZR (Rfloor x) = x /\ Rceil x = Rfloor x) \/ (IZR (Rfloor x) < x /\ Rceil x = (Rfloor x + 1)%Z).
Proof.
  destruct (Rfloor_spec x) as [H1 H2].
  destruct (Req_dec (IZR (Rfloor x)) x) as [E|N].
  - left. split; [exact E|]. apply Rceil_unique. lra.
  - right. split; [lra|]. apply Rceil_unique. rewrite plus_IZR. lra.
Qed.

(* mirror: floor (L - x) = L - ceil x, ceil (L - x) = L - floor x for an integer L *)
Lemma Rfloor_mirror (L : Z) x : Rfloor (IZR L - x) = (L - Rceil x)%Z.
Proof. apply Rfloor_unique. rewrite minus_IZR. destruct (Rceil_spec x). lra. Qed.
Lemma Rceil_mirror (L : Z) x : Rceil (IZR L - x) = (L - Rfloor x)%Z.
Proof. apply Rceil_unique. rewrite minus_IZR. destruct (Rfloor_spec x). lra. Qed.

Lemma Rfloor_range x (L : Z) : 0 <= x <= IZR L -> (0 <= Rfloor x <= L)%Z.
Proof.
  intros [H0 HL]. destruct (Rfloor_spec x) as [H1 H2]. split.
  - assert (H : (-1 < Rfloor x)%Z) by (apply lt_IZR; lra). lia.
  - apply le_IZR. lra.
Qed.
Lemma Rceil_range x (L : Z) : 0 <= x <= IZR L -> (0 <= Rceil x <= L)%Z.
Proof.
  intros [H0 HL]. destruct (Rceil_spec x) as [H1 H2]. split.
  - apply le_IZR. lra.
  - assert (H : (Rceil x - 1 < L)%Z) by (apply lt_IZR; rewrite minus_IZR; lra). lia.
Qed.

(* the order of the comparators: values ascending (rev: descending), nulls last *)
Definition xr_le (rev : bool) (a b : XR) : Prop :=
  match a, b with
  | Some x, Some y => if rev then y <= x else x <= y
  | Some _, None => True
  | None, None => True
  | None, Some _ => False
  end.

Lemma sort_cmp_some x y :
  sort_cmp (DT := IsNoneXR) (Some x) (Some y)
  = if Rlt_dec x y then Lt else if Req_EM_T x y then Eq else Gt.
Proof.
  unfold sort_cmp, to_opt, partial_cmp. cbn.
  destruct (Rlt_dec x y); [reflexivity|]. destruct (Req_EM_T x y); [reflexivity|].
  destruct (Rlt_dec y x); [reflexivity|]. lra.
Qed.
Lemma sort_cmp_rev_some x y :
  sort_cmp_rev (DT := IsNoneXR) (Some x) (Some y)
  = if Rlt_dec x y then Gt else if Req_EM_T x y then Eq else Lt.
Proof.
  unfold sort_cmp_rev, to_opt, partial_cmp. cbn.
  destruct (Rlt_dec x y); [reflexivity|]. destruct (Req_EM_T x y); [reflexivity|].
  destruct (Rlt_dec y x); [reflexivity|]. lra.
Qed.

Lemma cle_dir rev a b : cle (cmp_dir (DT := IsNoneXR) rev) a b = true <-> xr_le rev a b.
Proof.
  unfold cle, cmp_dir. destruct a as [x|], b as [y|]; destruct rev; cbn [xr_le];
    try rewrite sort_cmp_some; try rewrite sort_cmp_rev_some;
    try (cbn; intuition congruence).
  - destruct (Rlt_dec x y); [|destruct (Req_EM_T x y)]; split; intros H;
      try reflexivity; try discriminate; try lra.
  - destruct (Rlt_dec x y); [|destruct (Req_EM_T x y)]; split; intros H;
      try reflexivity; try discriminate; try lra.
Qed.

Lemma xr_le_total rev a b : xr_le rev a b \/ xr_le rev b a.
Proof. destruct a, b, rev; cbn; auto; lra. Qed.
Lemma xr_le_trans rev a b c : xr_le rev a b -> xr_le rev b c -> xr_le rev a c.
Proof. destruct a, b, c, rev; cbn; auto; try lra; tauto. Qed.
Lemma xr_le_antisym rev a b : xr_le rev a b -> xr_le rev b a -> a = b.
Proof. destruct a, b, rev; cbn; intros; try tauto; f_equal; lra. Qed.

Lemma cle_dir_total rev a b :
  cle (cmp_dir (DT := IsNoneXR) rev) a b = true \/ cle (cmp_dir (DT := IsNoneXR) rev) b a = true.
Proof. rewrite !cle_dir. apply xr_le_total. Qed.

Section Unique.
  Context {X : Type} (le : X -> X -> Prop).
  Hypothesis le_trans : forall a b c, le a b -> le b c -> le a c.
  Hypothesis le_antisym : forall a b, le a b -> le b a -> a = b.

  Lemma sorted_perm_unique l1 l2 : Sorted le l1 -> Sorted le l2 -> Permutation l1 l2 -> l1 = l2.
  Proof.
    intros H1 H2. apply Sorted_StronglySorted in H1; [|exact le_trans].
    apply Sorted_StronglySorted in H2; [|exact le_trans].
    revert l2 H2. induction H1 as [|a l1 Hs1 IH Hall1]; intros l2 H2 HP.
    - apply Permutation_nil in HP. subst. reflexivity.
    - destruct H2 as [|b l2 Hs2 Hall2].
      + apply Permutation_sym, Permutation_nil in HP. discriminate.
      + assert (a = b) as ->.
        { assert (Hin_b : In b (a :: l1)) by (apply Permutation_in with (b :: l2); [symmetry; exact HP|left; reflexivity]).
          assert (Hin_a : In a (b :: l2)) by (apply Permutation_in with (a :: l1); [exact HP|left; reflexivity]).
          rewrite Forall_forall in Hall1, Hall2.
          destruct Hin_b as [E|Hb]; [exact E|]. destruct Hin_a as [E|Ha]; [symmetry; exact E|].
          apply le_antisym; [apply Hall1; exact Hb|apply Hall2; exact Ha]. }
        f_equal. apply IH; [exact Hs2|]. apply Permutation_cons_inv with b. exact HP.
  Qed.
End Unique.

Definition rle (rev : bool) (x y : R) : Prop := if rev then y <= x else x <= y.
Definition nnull (xs : list XR) : nat := length xs - nv xs.

Lemma nv_le_length xs : (nv xs <= length xs)%nat.
Proof. unfold nv. induction xs as [|[y|] xs IH]; cbn; try fold (valid xs); lia. Qed.

Lemma perm_valid_nulls xs : Permutation xs (map Some (valid xs) ++ repeat None (nnull xs)).
Proof.
  unfold nnull, nv. induction xs as [|[x|] xs IH].
  - reflexivity.
  - cbn [valid flat_map app map length]. fold (valid xs).
    replace (S (length xs) - S (length (valid xs)))%nat with (length xs - length (valid xs))%nat by lia.
    constructor. exact IH.
  - cbn [valid flat_map app length]. fold (valid xs).
    pose proof (nv_le_length xs) as Hle. unfold nv in Hle.
    replace (S (length xs) - length (valid xs))%nat with (S (length xs - length (valid xs))) by lia.
    cbn [repeat]. apply Permutation_cons_app. exact IH.
Qed.

Lemma sorted_canon rev s z : Sorted (rle rev) s -> Sorted (xr_le rev) (map Some s ++ repeat None z).
Proof.
  intros Hs. induction Hs as [|a l Hl IH Hhd].
  - cbn. induction z as [|z IHz]; cbn; [constructor|].
    constructor; [exact IHz|]. destruct z; cbn; constructor. exact I.
  - cbn [map app]. constructor; [exact IH|].
    destruct Hhd as [|b l' Hab]; cbn.
    + destruct z; cbn; constructor. exact I.
    + constructor. unfold rle in Hab. cbn. exact Hab.
Qed.

Lemma sorted_cle_iff rev l :
  Sorted (fun a b => cle (cmp_dir (DT := IsNoneXR) rev) a b = true) l <-> Sorted (xr_le rev) l.
Proof.
  split; intros H; induction H as [|a l Hl IH Hhd]; constructor; try exact IH;
    destruct Hhd; constructor; apply cle_dir; assumption.
Qed.

(* THE theorem about the model of std's sort on a series: for any sorted arrangement s of the valid
   elements, the sorted series is s followed by the nulls *)
Lemma isort_canon rev xs s :
  Sorted (rle rev) s -> Permutation s (valid xs) ->
  isort (cmp_dir (DT := IsNoneXR) rev) xs = map Some s ++ repeat None (nnull xs).
Proof.
  intros Hs HP.
  apply (@sorted_perm_unique XR (xr_le rev)).
  - apply xr_le_trans.
  - apply xr_le_antisym.
  - apply sorted_cle_iff. apply isort_sorted. apply cle_dir_total.
  - apply sorted_canon. exact Hs.
  - rewrite isort_perm. rewrite (perm_valid_nulls xs) at 1.
    apply Permutation_app_tail. apply Permutation_map. symmetry. exact HP.
Qed.

(* descending arrangement = reverse of the ascending one *)
Lemma sorted_rev s : Sorted (rle false) s -> Sorted (rle true) (rev s).
Proof.
  intros Hs. apply Sorted_StronglySorted in Hs; [|intros a b c; unfold rle; lra].
  induction Hs as [|a l Hl IH Hall]; [constructor|].
  cbn [rev]. clear Hl.
  assert (Hall' : Forall (fun x => rle true x a) (rev l)).
  { rewrite Forall_forall in *. intros x Hx. apply in_rev in Hx. unfold rle. apply Hall. exact Hx. }
  revert IH Hall'. generalize (rev l). clear. intros l IH Hall.
  induction IH as [|b l Hl IH Hhd]; cbn.
  - repeat constructor.
  - inversion Hall as [|? ? Hb Hall']; subst. constructor; [apply IH; exact Hall'|].
    destruct Hhd; cbn; constructor; assumption.
Qed.

(* a sorted arrangement exists (so the theorems quantified over s are not vacuous) *)
Lemma sorted_exists rev (l : list R) : exists s, Sorted (rle rev) s /\ Permutation s l.
Proof.
  pose (cmp' := fun x y : R => if rev then (if Rle_dec y x then Lt else Gt) else (if Rle_dec x y then Lt else Gt)).
  exists (isort cmp' l). split; [|apply isort_perm].
  assert (Hiff : forall a b, cle cmp' a b = true <-> rle rev a b).
  { intros a b. unfold cle, cmp', rle. destruct rev.
    - destruct (Rle_dec b a); split; intros; try reflexivity; try assumption; try discriminate. contradiction.
    - destruct (Rle_dec a b); split; intros; try reflexivity; try assumption; try discriminate. contradiction. }
  assert (Hs : Sorted (fun a b => cle cmp' a b = true) (isort cmp' l)).
  { apply isort_sorted. intros a b. rewrite !Hiff. unfold rle. destruct rev; lra. }
  induction Hs as [|a l' Hl IH Hhd]; constructor; [exact IH|].
  destruct Hhd; constructor. apply Hiff. assumption.
Qed.
