(* Proofs/ParseWs.v — C18: white space and the duration scanner.  TimeDelta::parse never consults
   char::is_whitespace: a white-space character is just a character that is neither a digit, a sign nor an
   ASCII letter, so it belongs to no term of the grammar.  Consequences of the characterisation of the
   accepted strings (Proofs/ParseRejects.v): in an accepted string a white-space character can only be the
   head of the degenerate tail, i.e. it is followed by digits only up to the end of the string; a string
   starting with white space is rejected unless digits only follow.  Axiom-free. *)
From Coq Require Import List ZArith Lia Bool ZifyBool.
From Tevec Require Import Model.Parse Spec.DurationC18 Proofs.Parse Proofs.ParseRejects Model.ParseDT.
Import ListNotations.
Local Open Scope Z_scope.

(* the alphabet of the terms: digits, the two signs, ASCII letters *)
Definition term_char (c : Z) : Prop := is_digit c = true \/ c = 43 \/ c = 45 \/ is_alpha c = true.

Lemma ws_not_term_char c : is_ws c = true -> ~ term_char c.
Proof. unfold term_char, is_ws, is_digit, is_alpha. lia. Qed.

Lemma render_term_chars t : wf_term t -> Forall term_char (render_term t).
Proof.
  intros [_ Hd]. unfold render_term. apply Forall_app. split; [|apply Forall_app; split].
  - destruct (t_sign t) as [[|]|]; cbn [sign_str]; [apply Forall_cons; [|apply Forall_nil]..|apply Forall_nil];
      unfold term_char; auto.
  - eapply Forall_impl; [|exact Hd]. intros c Hc. left. exact Hc.
  - eapply Forall_impl; [|apply unit_str_alpha]. intros c Hc. right. right. right. exact Hc.
Qed.

Lemma render_terms_chars ts : Forall wf_term ts -> Forall term_char (render_terms ts).
Proof.
  induction 1 as [|t ts Ht _ IH]; [constructor|].
  change (render_terms (t :: ts)) with (render_term t ++ render_terms ts).
  apply Forall_app. split; [apply render_term_chars; exact Ht|exact IH].
Qed.

(* in an accepted string, a white-space character is followed by digits only up to the end *)
Theorem parse_ws_position : forall s m ns, parse s = POk m ns ->
  forall pre c post, s = pre ++ c :: post -> is_ws c = true -> Forall digit post.
Proof.
  intros s m ns H pre c post Hs Hc.
  destruct (parse_accepts_grammar s m ns H) as (ts & tail & E & Hw & Ht & _).
  pose proof (render_terms_chars ts Hw) as HR.
  pose proof (ws_not_term_char c Hc) as Hn.
  assert (Hnd : is_digit c = true -> False) by (intros Hd; apply Hn; left; exact Hd).
  (* the tail, if it contains c, has it at its head *)
  assert (Htail : forall l, tail = l ++ c :: post -> Forall digit post).
  { intros l El. destruct Ht as [->|(c' & ds & -> & Hds & _)]; [destruct l; discriminate|].
    destruct l as [|c0 l']; cbn [app] in El.
    - injection El as _ <-. exact Hds.
    - injection El as _ ->. apply Forall_app in Hds. destruct Hds as [_ Hds].
      inversion Hds as [|? ? Hcd _]; subst. contradiction (Hnd Hcd). }
  rewrite E in Hs. symmetry in Hs. apply app_eq_app in Hs. destruct Hs as [l [[E1 E2]|[E1 E2]]].
  - exact (Htail l E2).
  - destruct l as [|c0 l']; cbn [app] in E2.
    + apply (Htail []). symmetry. exact E2.
    + injection E2 as <- _. rewrite E1 in HR. apply Forall_app in HR. destruct HR as [_ HR].
      inversion HR as [|? ? Hcc _]; subst. contradiction.
Qed.

(* leading white space is rejected unless nothing but digits follows *)
Theorem parse_leading_ws_rejected : forall c r, is_ws c = true -> ~ Forall digit r -> parse (c :: r) = PErr.
Proof.
  intros c r Hc Hr. pose proof (ws_not_term_char c Hc) as Hn. unfold term_char in Hn.
  apply parse_bad_head_rejected; try exact Hr.
  - destruct (is_digit c); [exfalso; apply Hn; auto|reflexivity].
  - intros ->. apply Hn. auto.
  - intros ->. apply Hn. auto.
Qed.

(* white space between two terms is rejected ("1d 2h"): the space would head the second term *)
Theorem parse_inner_ws_rejected : forall pre c post,
  is_ws c = true -> ~ Forall digit post -> parse (pre ++ c :: post) = PErr.
Proof.
  intros pre c post Hc Hp. destruct (parse_ok_or_err (pre ++ c :: post)) as [[m [ns H]]|H]; [|exact H].
  exfalso. apply Hp. exact (parse_ws_position _ m ns H pre c post eq_refl Hc).
Qed.

Print Assumptions parse_ws_position.
Print Assumptions parse_inner_ws_rejected.
