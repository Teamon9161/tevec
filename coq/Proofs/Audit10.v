(* Proofs/Audit10.v — what the proofs of Props/C10.v parts (14)-(20) share.  The clamp
   `window.min(len)` of the call lists, the slice traces that perform no `uset`, the lazy slice trace followed by
   `iter.write` into a buffer of any length, the outcome shape `complete_or` of the one-series entry points, and
   the trusted-length collector on a run.  Axiom-free.                                                          *)
From Tevec Require Import Base.Prelude Model.Driver Proofs.Driver Model.Kernels Proofs.Kernels
     Model.Create Proofs.Create.

(* ---- the clamp window.min(len): a window larger than the series behaves as window = len ---- *)
Lemma min_min_r w len : Nat.min (Nat.min w len) len = Nat.min w len.
Proof. lia. Qed.

Lemma calls_to_clamp {T} w (xs : list T) : calls_to w xs = calls_to (Nat.min w (length xs)) xs.
Proof. unfold calls_to. rewrite min_min_r. reflexivity. Qed.
Lemma calls_to_idx_clamp {T} w (xs : list T) : calls_to_idx w xs = calls_to_idx (Nat.min w (length xs)) xs.
Proof. unfold calls_to_idx. rewrite min_min_r. reflexivity. Qed.
Lemma slices_to_clamp w len : slices_to w len = slices_to (Nat.min w len) len.
Proof. unfold slices_to. rewrite min_min_r. reflexivity. Qed.

Lemma bad_window_clamp {T} w (xs : list T) : bad_window (Nat.min w (length xs)) xs = bad_window w xs.
Proof.
  unfold bad_window. destruct xs as [|x xs]; [cbn; rewrite !Bool.andb_false_r; reflexivity|].
  destruct w; reflexivity.
Qed.

Lemma bad_window_seq w len : bad_window w (seq 0 len) = (w =? 0) && negb (len =? 0).
Proof. unfold bad_window. rewrite seq_length. reflexivity. Qed.

(* ---- the lazy slice forms perform no uset themselves ---- *)
Lemma writes_of_no_uset (t : list acc) :
  Forall (fun a => match a with AUset _ => False | _ => True end) t -> writes_of t = [].
Proof.
  induction 1 as [|a t Ha _ IH]; [reflexivity|]. unfold writes_of in *. cbn [flat_map]. rewrite IH.
  destruct a; try reflexivity. contradiction.
Qed.

Lemma trace_custom_iter_no_write w len : writes_of (trace_custom_iter w len) = [].
Proof. apply writes_of_no_uset, Forall_map, Forall_forall. intros [st e] _. exact I. Qed.
Lemma trace_custom2_no_write w len : writes_of (trace_custom2 w len) = [].
Proof.
  apply writes_of_no_uset, Forall_flat_map, Forall_forall. intros [st e] _. repeat constructor.
Qed.

(* a trace that writes nothing, followed by `iter.write(&mut out)` *)
Lemma then_write_safe t len len2 :
  Forall (acc_ok len len2) t -> writes_of t = [] ->
  Forall (acc_ok len len2) (t ++ trace_write len) /\ writes_of (t ++ trace_write len) = seq 0 len.
Proof.
  intros Ht Hw. destruct (trace_write_ok len len2) as [H1 H2].
  split; [apply Forall_app; split; assumption|rewrite writes_of_app, Hw, H2; reflexivity].
Qed.

(* the same into a buffer of ANY length lo: the slices are those of the series, the writes those of the buffer *)
Lemma iter_then_write_safe w len lo : 1 <= w ->
  Forall (fun a => match a with AUset i => i < lo | a => acc_ok len len a end) (trace_custom_iter w len ++ trace_write lo) /\
  writes_of (trace_custom_iter w len ++ trace_write lo) = seq 0 lo.
Proof.
  intros Hw. split.
  - apply Forall_app. split.
    + pose proof (trace_custom_iter_ok w len len Hw) as H. unfold trace_custom_iter in *.
      rewrite Forall_map in *. revert H. apply Forall_impl. intros [st e] H. exact H.
    + apply Forall_map, Forall_forall. intros i Hi. apply in_seq in Hi. lia.
  - rewrite writes_of_app, trace_custom_iter_no_write. apply (trace_write_ok lo lo).
Qed.

(* ---- the outcome of a one-series entry point: the panic of the code's check, or a complete result ---- *)
Section OneSeries.
  Context {O : Type}.

  Definition complete_or (k : panic_kind) (rejected : bool) (n : nat) (r : outcome O) : Prop :=
    if rejected then r = Panicked k else exists out, r = Done out /\ length out = n.

  Lemma complete_or_total k (b : bool) n (l : list O) r :
    r = (if b then Panicked k else Done l) -> length l = n -> complete_or k b n r.
  Proof. intros -> Hl. unfold complete_or. destruct b; [reflexivity|]. exists l. split; [reflexivity|exact Hl]. Qed.
End OneSeries.

(* ---- the collected (trusted-length) forms: the announced length IS the number of items ---- *)
Ltac lens := repeat (rewrite combine_length || rewrite app_length || rewrite repeat_length || rewrite map_length
                     || rewrite seq_length); try lia.

Lemma collect_trusted_run {St X O} (g : St -> X -> St * O) s0 (args : list X) hint :
  hint = length args -> collect_trusted hint (run g s0 args) = Done (run g s0 args).
Proof. intros ->. rewrite <- (run_length g s0 args). apply collect_trusted_exact. Qed.

