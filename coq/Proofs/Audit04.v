(* Proofs/Audit04.v — audit of property C04 (notes/C04.md, "Audit matrix").
   (A) the two hypotheses of every two-series entry theorem (`1 <= w`, `length xs = length ys`) are
       replaced by what the code does on ALL inputs: which check fires first, with which panic, in which
       body; window 0; series of unequal length (index body: assert; iterator body: silently the common
       prefix); and the value theorems on every accepted input.
   (B) the pairwise-complete selection, positionally.
   (C) the count of pairwise-complete observations (and hence "null below min_periods") at EVERY numeric
       carrier and every pair of null dictionaries — binary64 included: no law of the arithmetic is used
       (instances of Sliding.counts_add / counts_drop).
   (C') the residual family (index-form driver): the emit is the carrier's NaN below min_periods.                                   *)
From Coq Require Import Reals Lia List.
From Tevec Require Import Base.Prelude Base.Num Base.XR Spec.Stats Spec.Ols Model.Driver Proofs.Driver
     Model.Features Proofs.Outcome Proofs.Sliding Proofs.Generic Model.Binary Model.Reg Proofs.Ols Proofs.Binary
     Proofs.Trend Proofs.Resid.
Import ListNotations.

(* ================================================================================================ *)
(* (A) every input                                                                                    *)
(* ================================================================================================ *)
Definition common (X Y : Type) (xs : list X) (ys : list Y) : nat := Nat.min (length xs) (length ys).
Arguments common {X Y} xs ys.

Lemma combine_common {X Y} (xs : list X) (ys : list Y) :
  combine xs ys = combine (firstn (common xs ys) xs) (firstn (common xs ys) ys).
Proof.
  rewrite <- combine_firstn. symmetry. apply firstn_all2. rewrite combine_length. unfold common. lia.
Qed.

Lemma firstn_common_lengths {X Y} (xs : list X) (ys : list Y) :
  length (firstn (common xs ys) xs) = common xs ys /\ length (firstn (common xs ys) ys) = common xs ys.
Proof. unfold common. rewrite !firstn_length. lia. Qed.

Section AllInputs.
  Context {T1 T2 St O : Type}.
  Variable F : feat (T1 * T2) St O.

  (* which check stops a two-series run, in the order of the code *)
  Definition check2 (body : bool) (w : nat) (xs : list T1) (ys : list T2) : option guard :=
    if body then check2_to w xs ys else check2_default w xs ys.

  (* past the index body's checks the first series is the shorter one *)
  Lemma to_by_check_common (r : outcome O) w (xs : list T1) (ys : list T2) :
    match check2_to w xs ys with
    | Some g => r = Panicked (guard_kind g)
    | None => exists l, r = Done l /\ length l = length xs
    end ->
    match check2_to w xs ys with
    | Some g => r = Panicked (guard_kind g)
    | None => exists l, r = Done l /\ length l = common xs ys
    end.
  Proof.
    intros H. destruct (check2_to w xs ys) eqn:E; [exact H|].
    destruct H as (l & Hl & Hn). exists l. split; [exact Hl|].
    unfold check2_to in E. destruct (length ys <? length xs) eqn:E2; [discriminate|].
    apply Nat.ltb_ge in E2. unfold common. lia.
  Qed.

  Lemma ts_run2_by_check body w xs ys :
    match check2 body w xs ys with
    | Some g => ts_run2 F body w xs ys = Panicked (guard_kind g)
    | None => exists l, ts_run2 F body w xs ys = Done l /\ length l = common xs ys
    end.
  Proof.
    unfold check2, ts_run2. destruct body.
    - apply to_by_check_common, rolling2_apply_to_by_check.
    - apply rolling2_apply_default_by_check.
  Qed.

  (* past the checks, with a positive window, a run on series of any lengths is the run on their common prefix *)
  Lemma ts_run2_common body w xs ys :
    1 <= w -> (body = false \/ length xs <= length ys) ->
    ts_run2 F body w xs ys = ts_run2 F body w (firstn (common xs ys) xs) (firstn (common xs ys) ys).
  Proof.
    intros Hw Hb. destruct (firstn_common_lengths xs ys) as [L1 L2].
    unfold ts_run2. destruct body.
    - destruct Hb as [Hb|Hb]; [discriminate|]. unfold rolling2_apply_to. rewrite L1, L2, Nat.ltb_irrefl.
      rewrite (ltb_false (length ys) (length xs)) by exact Hb.
      rewrite <- combine_common. reflexivity.
    - rewrite !rolling2_apply_default_pos by exact Hw. rewrite <- combine_common. reflexivity.
  Qed.

  (* window 0: the assertion unless the FIRST series is empty (then nothing is evaluated), in both bodies; in the
     index body a shorter second series is reported first — by an assertion as well *)
  Lemma window0_by_check (r : outcome O) body (xs : list T1) (ys : list T2) :
    match check2 body 0 xs ys with
    | Some g => r = Panicked (guard_kind g)
    | None => exists l, r = Done l /\ length l = common xs ys
    end ->
    r = match xs with [] => Done [] | _ :: _ => Panicked AssertFail end.
  Proof.
    intros H. unfold check2, check2_to, check2_default in H.
    destruct xs as [|x xs].
    - cbn [length bad_window Nat.eqb negb andb] in H. replace (length ys <? 0) with false in H by reflexivity.
      destruct body; destruct H as (l & Hl & Hn); unfold common in Hn; cbn [length Nat.min] in Hn;
        destruct l; try discriminate; exact Hl.
    - cbn [bad_window Nat.eqb length negb andb] in H. destruct body; [|exact H].
      destruct (length ys <? S (length xs)); exact H.
  Qed.

  Lemma ts_run2_window0 body xs ys :
    ts_run2 F body 0 xs ys =
    match xs with
    | [] => Done []
    | _ :: _ => Panicked AssertFail
    end.
  Proof. apply (window0_by_check _ body xs ys), ts_run2_by_check. Qed.

End AllInputs.

(* the value theorem of the cross-sum family on every accepted input *)
Lemma csum_entry_any_lengths {O} (emit : @csum XR -> O) (G : list (R * R) -> O) body (w : nat)
      (xs ys : list XR) :
  1 <= w -> (body = false \/ length xs <= length ys) ->
  (forall s W, csum_abs s W -> emit s = G (vpairs W)) ->
  exists out, ts_run2 (csum_feat emit) body w xs ys = Done out /\ length out = common xs ys /\
    forall i, i < common xs ys -> nth_error out i = Some (G (pairs (win w i xs) (win w i ys))).
Proof.
  intros Hw Hb HG. rewrite ts_run2_common by assumption.
  destruct (firstn_common_lengths xs ys) as [L1 L2].
  destruct (csum_entry emit G body w (firstn (common xs ys) xs) (firstn (common xs ys) ys) Hw
              ltac:(congruence) HG) as (out & Hrun & Hl & Hout).
  exists out. split; [exact Hrun|]. split; [rewrite Hl; exact L1|].
  intros i Hi. rewrite (Hout i) by (rewrite L1; exact Hi). rewrite !win_firstn by exact Hi. reflexivity.
Qed.

(* ---- the residual family (rolling2_apply_idx) ---- *)
Section ResidAllInputs.
  Context {A : Type} `{NA : Num A} {T1 : Type} {D1 : IsNone T1 A} {T2 : Type} {D2 : IsNone T2 A}.

  Lemma resid_by_check k body w mp (xs : list T1) (ys : list T2) :
    match check2 body w xs ys with
    | Some g => ts_vregx_resid k body w mp xs ys = Panicked (guard_kind g)
    | None => exists l, ts_vregx_resid k body w mp xs ys = Done l /\ length l = common xs ys
    end.
  Proof.
    unfold check2, ts_vregx_resid. cbv zeta. destruct body.
    - apply to_by_check_common, rolling2_apply_idx_to_by_check.
    - apply rolling2_apply_idx_default_by_check.
  Qed.

  Lemma resid_common k body w mp (xs : list T1) (ys : list T2) :
    1 <= w -> (body = false \/ length xs <= length ys) ->
    ts_vregx_resid k body w mp xs ys =
    ts_vregx_resid k body w mp (firstn (common xs ys) xs) (firstn (common xs ys) ys).
  Proof.
    intros Hw Hb. destruct (firstn_common_lengths xs ys) as [L1 L2].
    unfold ts_vregx_resid. cbv zeta. rewrite <- combine_common. destruct body.
    - destruct Hb as [Hb|Hb]; [discriminate|]. unfold rolling2_apply_idx_to. rewrite L1, L2, Nat.ltb_irrefl.
      rewrite (ltb_false (length ys) (length xs)) by exact Hb.
      rewrite <- combine_common. reflexivity.
    - rewrite !rolling2_apply_idx_default_pos by exact Hw. rewrite <- combine_common. reflexivity.
  Qed.

  Lemma resid_window0 k body mp (xs : list T1) (ys : list T2) :
    ts_vregx_resid k body 0 mp xs ys = match xs with [] => Done [] | _ :: _ => Panicked AssertFail end.
  Proof. apply (window0_by_check _ body xs ys), resid_by_check. Qed.
End ResidAllInputs.

(* ================================================================================================ *)
(* (B) the pairwise-complete selection, positionally                                                  *)
(* ================================================================================================ *)
Lemma vpairs_In a b (l : list (XR * XR)) : In (a, b) (vpairs l) <-> In (Some a, Some b) l.
Proof.
  unfold vpairs. rewrite in_flat_map. split.
  - intros (p & Hp & Hin). destruct p as [[a'|] [b'|]]; cbn in Hin; try contradiction.
    destruct Hin as [E|[]]. injection E as <- <-. exact Hp.
  - intros H. exists (Some a, Some b). split; [exact H|left; reflexivity].
Qed.

(* the number of observations is the number of positions at which BOTH series are non-null; a null in either
   series removes the position from BOTH coordinates *)
Definition both_some (p : XR * XR) : bool :=
  match p with (Some _, Some _) => true | _ => false end.

Lemma vpairs_length (l : list (XR * XR)) : length (vpairs l) = length (filter both_some l).
Proof.
  induction l as [|[[a|] [b|]] l IH]; cbn [vpairs flat_map filter both_some app length] in *;
    try (fold (vpairs l)); try rewrite IH; reflexivity.
Qed.

Lemma vpairs_map_fst (l : list (XR * XR)) :
  map (fun p => Some (fst p)) (vpairs l) = map fst (filter both_some l) /\
  map (fun p => Some (snd p)) (vpairs l) = map snd (filter both_some l).
Proof.
  induction l as [|[[a|] [b|]] l [IH1 IH2]]; cbn [vpairs flat_map filter both_some app map fst snd] in *;
    try (fold (vpairs l)); try rewrite IH1; try rewrite IH2; split; reflexivity.
Qed.

(* ================================================================================================ *)
(* (C) the observation count at every carrier                                                         *)
(* ================================================================================================ *)
Section AnyCarrier.
  Context {A : Type} `{NA : Num A} {T1 : Type} {D1 : IsNone T1 A} {T2 : Type} {D2 : IsNone T2 A}.

  Definition npairs (l : list (T1 * T2)) : nat := length (filter (@both A T1 D1 T2 D2) l).

  Definition cnt_abs (s : @csum A) (l : list (T1 * T2)) : Prop := c_n s = npairs l.

  Lemma cnt_abs_init : cnt_abs csum0 [].
  Proof. reflexivity. Qed.
  Lemma cnt_abs_pre s l v : cnt_abs s l -> cnt_abs (csum_pre s v) (l ++ [v]).
  Proof.
    revert s l v. apply (counts_add (@both A T1 D1 T2 D2) (@c_n A)).
    intros s v. unfold csum_pre. destruct (both v); cbn [csum_add c_n]; lia.
  Qed.
  Lemma cnt_abs_post s x l : cnt_abs s (x :: l) -> cnt_abs (csum_post s (Some x)) l.
  Proof.
    revert s x l. apply (counts_drop (@both A T1 D1 T2 D2) (@c_n A) (fun s x => csum_post s (Some x))).
    intros s x. unfold csum_post. destruct (both x); cbn [csum_sub c_n]; lia.
  Qed.

  Theorem count_tracks_window2 {O} (emit : @csum A -> O) body (w : nat) (xs : list T1) (ys : list T2) :
    1 <= w -> (body = false \/ length xs <= length ys) ->
    exists out, ts_run2 (csum_feat emit) body w xs ys = Done out /\ length out = common xs ys /\
      forall i, i < common xs ys ->
        exists s, nth_error out i = Some (emit s) /\ c_n s = npairs (combine (win w i xs) (win w i ys)).
  Proof.
    intros Hw Hb. rewrite ts_run2_common by assumption.
    destruct (firstn_common_lengths xs ys) as [L1 L2].
    destruct (sliding_ts_run2 (csum_feat emit) cnt_abs body w _ _ cnt_abs_init cnt_abs_pre cnt_abs_post
                (fun s => eq_refl) Hw (eq_trans L1 (eq_sym L2))) as (out & Hrun & Hl & Hout).
    exists out. split; [exact Hrun|]. split; [rewrite Hl; exact L1|]. intros i Hi.
    destruct (Hout i ltac:(rewrite L1; exact Hi)) as (s & Habs & Hnth). exists s. split; [exact Hnth|].
    unfold cnt_abs in Habs. rewrite Habs, !win_firstn by exact Hi. reflexivity.
  Qed.

  (* hence: an output computed by an emit function that is null below mp is null wherever the window holds fewer
     than mp pairwise-complete observations — for cov, corr, regx alpha / beta / (alpha, beta, SSE) *)
  Theorem below_min_periods_null {O} (emit : @csum A -> O) (nul : O) (mp : nat) body (w : nat)
          (xs : list T1) (ys : list T2) :
    (forall s, c_n s < mp -> emit s = nul) ->
    1 <= w -> (body = false \/ length xs <= length ys) ->
    exists out, ts_run2 (csum_feat emit) body w xs ys = Done out /\ length out = common xs ys /\
      forall i, i < common xs ys -> npairs (combine (win w i xs) (win w i ys)) < mp -> nth_error out i = Some nul.
  Proof.
    intros He Hw Hb. destruct (count_tracks_window2 emit body w xs ys Hw Hb) as (out & Hrun & Hl & Hout).
    exists out. split; [exact Hrun|]. split; [exact Hl|]. intros i Hi Hn.
    destruct (Hout i Hi) as (s & Hs & Hc). rewrite Hs. f_equal. apply He. rewrite Hc. exact Hn.
  Qed.

  Lemma csum_emits_below mp (s : @csum A) :
    c_n s < mp ->
    emit_cov mp s = nnan /\ emit_corr mp s = nnan /\ emit_regx_alpha mp s = nnan /\ emit_regx_beta mp s = nnan /\
    emit_regx_all mp s = (nnan, nnan, nnan).
  Proof.
    intros H. unfold emit_cov, emit_corr, emit_regx_alpha, emit_regx_beta, emit_regx_all.
    rewrite (proj2 (Nat.leb_gt _ _) H). repeat split; reflexivity.
  Qed.
End AnyCarrier.

(* at XR the generic count is the length of the list of observations of the specification *)
Lemma npairs_XR (l : list (XR * XR)) : npairs (D1 := IsNoneXR) (D2 := IsNoneXR) l = length (vpairs l).
Proof.
  rewrite vpairs_length. unfold npairs. f_equal. apply filter_ext. intros [[a|] [b|]]; reflexivity.
Qed.

(* the time-trend family: the count of non-null values at every carrier *)
Section TrendAnyCarrier.
  Context {A : Type} `{NA : Num A} {T : Type} {DT : IsNone T A}.

  Definition nvalid (l : list T) : nat := length (filter (fun v => not_none v) l).

  Theorem trend_count_tracks_window (emit : @tr_st A -> A) body (w : nat) (xs : list T) :
    1 <= w ->
    exists out, ts_run (tr_feat emit) body w xs = Done out /\ length out = length xs /\
      forall i, i < length xs ->
        exists s, nth_error out i = Some (emit s) /\ t_n s = nvalid (win w i xs).
  Proof.
    intros Hw.
    destruct (count_tracks (tr_feat emit) (fun v => not_none v) (@t_n A) eq_refl) with (body := body) (w := w) (xs := xs)
      as (out & Hrun & Hl & Hout); try exact Hw; try reflexivity.
    { intros s v. cbn [f_pre tr_feat]. unfold tr_pre. destruct (not_none v); cbn [t_n]; lia. }
    { intros s x. cbn [f_post tr_feat tr_post]. destruct (not_none x); cbn [t_n]; lia. }
    exists out. split; [exact Hrun|]. split; [exact Hl|]. intros i Hi.
    destruct (nth_error xs i) as [v|] eqn:Hv; [|apply nth_error_None in Hv; lia].
    destruct (Hout i v Hv) as (s & Habs & Hnth). exists s. split; [exact Hnth|exact Habs].
  Qed.

  Theorem trend_below_min_periods_null (emit : @tr_st A -> A) (mp : nat) body (w : nat) (xs : list T) :
    (forall s, t_n s < mp -> emit s = nnan) -> 1 <= w ->
    exists out, ts_run (tr_feat emit) body w xs = Done out /\ length out = length xs /\
      forall i, i < length xs -> nvalid (win w i xs) < mp -> nth_error out i = Some nnan.
  Proof.
    intros He Hw. destruct (trend_count_tracks_window emit body w xs Hw) as (out & Hrun & Hl & Hout).
    exists out. split; [exact Hrun|]. split; [exact Hl|]. intros i Hi Hn.
    destruct (Hout i Hi) as (s & Hs & Hc). rewrite Hs. f_equal. apply He. rewrite Hc. exact Hn.
  Qed.

  Lemma trend_emits_below mp (s : @tr_st A) :
    t_n s < mp ->
    emit_reg mp s = nnan /\ emit_tsf mp s = nnan /\ emit_slope mp s = nnan /\ emit_intercept mp s = nnan /\
    emit_resid_mean mp s = nnan.
  Proof.
    intros H. unfold emit_reg, emit_tsf, emit_slope, emit_intercept, emit_resid_mean.
    rewrite (proj2 (Nat.leb_gt _ _) H). repeat split; reflexivity.
  Qed.
End TrendAnyCarrier.

(* ================================================================================================ *)
(* (C') the residual family (rolling2_apply_idx) at every carrier: count and null below min_periods   *)
(* ================================================================================================ *)
Section ResidAnyCarrier.
  Context {A : Type} `{NA : Num A} {T1 : Type} {D1 : IsNone T1 A} {T2 : Type} {D2 : IsNone T2 A}.

  Lemma resid_emit_below k mp zs (s : @csum A) st e : c_n s < mp -> resid_emit (D1 := D1) (D2 := D2) k mp zs s st e = nnan.
  Proof. intros H. unfold resid_emit. rewrite (proj2 (Nat.leb_gt _ _) H). reflexivity. Qed.
End ResidAnyCarrier.
