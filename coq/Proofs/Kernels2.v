(* Proofs/Kernels2.v — C10: the rescanning callbacks of cmp.rs / norm.rs / reg.rs inside the trace model.
   For the traced texts of Model/Kernels.v (vext_cb_tr, varg_cb_tr, vrank_cb_tr, mmnorm_cb_tr, resid_cb_tr):
     (E) erasure: the second component is the model callback of Model/Cmp.v / Norm.v (/ Reg.v under the driver);
     (R) every access of the first component is an unchecked read at an index of start.unwrap_or(0) ..= end,
         for every state, every series and every carrier — no law of the numeric class is used;
     (T) hence the access trace of a whole call (both driver bodies, every window, every min_periods) is in
         bounds, unconditionally, and its writes are the slots 0..len-1 once each whenever the call returns. *)
From Coq Require Import Lia List.
From Tevec Require Import Base.Prelude Base.Num Model.Driver Proofs.Driver Model.Cmp
     Model.Norm Model.Binary Model.Reg Model.Kernels Proofs.Kernels Proofs.IdxRun Proofs.IdxPrefix.
Import ListNotations.

Lemma snd_tbind {X Y} (m : tr X) (f : X -> tr Y) : snd (tbind m f) = bind (snd m) (fun x => snd (f x)).
Proof. unfold tbind. destruct (snd m); reflexivity. Qed.
Lemma snd_tget {T} view (xs : list T) i : snd (tget view xs i) = uget xs i.
Proof. reflexivity. Qed.
Lemma snd_tget2 {T} (zs : list T) i : snd (tget2 zs i) = uget zs i.
Proof. reflexivity. Qed.
Lemma snd_tret {X} (x : X) : snd (tret x) = Ok x.
Proof. reflexivity. Qed.
Lemma snd_tpure {X} (r : res X) : snd (tpure r) = r.
Proof. reflexivity. Qed.

Lemma rw_nil lo hi : reads_within lo hi [].
Proof. constructor. Qed.
Lemma rw_app lo hi t1 t2 : reads_within lo hi t1 -> reads_within lo hi t2 -> reads_within lo hi (t1 ++ t2).
Proof. intros H1 H2. apply Forall_app. split; assumption. Qed.
Lemma rw_tret {X} lo hi (x : X) : reads_within lo hi (fst (tret x)).
Proof. constructor. Qed.
Lemma rw_tpure {X} lo hi (r : res X) : reads_within lo hi (fst (tpure r)).
Proof. constructor. Qed.
Lemma rw_tget {T} view (xs : list T) i lo hi : lo <= i -> i <= hi -> reads_within lo hi (fst (tget view xs i)).
Proof. intros H1 H2. repeat constructor; assumption. Qed.
Lemma rw_tget2 {T} (zs : list T) i lo hi : lo <= i -> i <= hi -> reads_within lo hi (fst (tget2 zs i)).
Proof. intros H1 H2. repeat constructor; assumption. Qed.
Lemma rw_tbind {X Y} lo hi (m : tr X) (f : X -> tr Y) :
  reads_within lo hi (fst m) -> (forall x, reads_within lo hi (fst (f x))) ->
  reads_within lo hi (fst (tbind m f)).
Proof.
  intros H1 H2. unfold tbind. destruct (snd m) as [x|pk]; cbn [fst]; [|exact H1].
  apply rw_app; [exact H1|apply H2].
Qed.
Lemma rw_no_writes lo hi t : reads_within lo hi t -> writes_of t = [].
Proof.
  induction 1 as [|a t Ha _ IH]; [reflexivity|]. destruct a; try contradiction. cbn. exact IH.
Qed.
Lemma rw_acc_ok lo hi len len2 t :
  hi < len -> len <= len2 -> reads_within lo hi t -> Forall (acc_ok len len2) t.
Proof.
  intros Hh Hl H. eapply Forall_impl; [|exact H]. intros a Ha. destruct a as [view i| | |]; try contradiction.
  destruct view as [|view]; cbn; lia.
Qed.

(* ---- the traced checked scan: IdxPrefix.scanf with every read logged ------------------------------------ *)
Section ScanTrace.
  Context {T St : Type}.
  Variable step : nat -> T -> St -> St.
  Variable xs : list T.

  Fixpoint scanf_tr (i cnt : nat) (s : St) : tr St :=
    match cnt with
    | 0 => tret s
    | S c => dot v <- tget 0 xs i; scanf_tr (S i) c (step i v s)
    end.

  Lemma scanf_tr_erase : forall cnt i s, snd (scanf_tr i cnt s) = scanf step xs i cnt s.
  Proof.
    induction cnt as [|c IH]; intros i s; [reflexivity|]. cbn [scanf_tr scanf].
    rewrite snd_tbind, snd_tget. destruct (uget xs i) as [v|pk]; [|reflexivity]. cbn [bind]. apply IH.
  Qed.

  Lemma scanf_tr_reads lo hi : forall cnt i s, lo <= i -> i + cnt <= S hi ->
    reads_within lo hi (fst (scanf_tr i cnt s)).
  Proof.
    induction cnt as [|c IH]; intros i s H1 H2; [apply rw_tret|]. cbn [scanf_tr].
    apply rw_tbind; [apply rw_tget; lia|]. intros v. apply IH; lia.
  Qed.
End ScanTrace.

(* a traced loop whose body reads xs[i] first is a `tbind` of `tget`: equal once the continuations agree on the
   value read (no extensionality needed: `tbind` applies its continuation to that value only) *)
Lemma tbind_tget_ext {T Y} (xs : list T) i (f g : T -> tr Y) :
  (forall v, uget xs i = Ok v -> f v = g v) -> tbind (tget 0 xs i) f = tbind (tget 0 xs i) g.
Proof.
  intros H. unfold tbind, tget. cbn [fst snd]. destruct (uget xs i) as [v|pk]; [|reflexivity].
  rewrite (H v eq_refl). reflexivity.
Qed.

(* ---- cmp.rs ---------------------------------------------------------------------------------------- *)
Section CmpTrace.
  Context {A : Type} {NA : Num A} {T : Type} {DT : IsNone T A}.
  Variable scmp : option A -> option A -> comparison.
  Variable xs : list T.

  Lemma rescan_tr_scanf : forall cnt i m mi,
    rescan_tr scmp xs i cnt m mi = scanf_tr (rescan_step scmp) xs i cnt (m, mi).
  Proof.
    induction cnt as [|c IH]; intros i m mi; [reflexivity|]. cbn [rescan_tr scanf_tr].
    apply tbind_tget_ext. intros v _.
    change (rescan_step scmp i v (m, mi)) with (if takes (scmp (to_opt v) m) then (to_opt v, Some i) else (m, mi)).
    destruct (takes (scmp (to_opt v) m)); apply IH.
  Qed.

  Lemma ext_step_tr_erase s st e v : snd (ext_step_tr scmp xs s st e v) = ext_step scmp xs s st e v.
  Proof.
    unfold ext_step_tr, ext_step. cbv zeta.
    match goal with |- context [opt_lt ?a st] => destruct (opt_lt a st) end.
    - destruct st as [j|]; [|reflexivity]. rewrite snd_tbind, snd_tget.
      destruct (uget xs j) as [v0|pk]; [|reflexivity]. cbn [bind].
      rewrite snd_tbind, rescan_tr_scanf, scanf_tr_erase, <- rescan_scanf.
      match goal with |- context [rescan ?a ?b ?c ?d ?e ?f] => destruct (rescan a b c d e f) end; reflexivity.
    - match goal with |- context [takes ?c] => destruct (takes c) end; reflexivity.
  Qed.
  Lemma ext_step_tr_reads s st e v : start_le st e ->
    reads_within (start_or_0 st) e (fst (ext_step_tr scmp xs s st e v)).
  Proof.
    intros Hs. unfold ext_step_tr. cbv zeta.
    match goal with |- context [opt_lt ?a st] => destruct (opt_lt a st) end.
    - destruct st as [j|]; [|apply rw_tpure]. cbn [start_le start_or_0] in *.
      apply rw_tbind; [apply rw_tget; lia|]. intros v0.
      apply rw_tbind; [rewrite rescan_tr_scanf; apply scanf_tr_reads; lia|]. intros r. apply rw_tret.
    - match goal with |- context [takes ?c] => destruct (takes c) end; apply rw_tret.
  Qed.

  Lemma ext_post_tr_erase s st : snd (ext_post_tr xs s st) = ext_post xs s st.
  Proof.
    unfold ext_post_tr, ext_post. destruct st as [j|]; [|reflexivity].
    rewrite snd_tbind, snd_tget. destruct (uget xs j) as [v0|pk]; [|reflexivity]. cbn [bind].
    destruct (not_none v0); [|reflexivity]. rewrite snd_tbind, snd_tpure.
    destruct (usub (x_n s) 1); reflexivity.
  Qed.
  Lemma ext_post_tr_reads s st e : start_le st e ->
    reads_within (start_or_0 st) e (fst (ext_post_tr xs s st)).
  Proof.
    intros Hs. unfold ext_post_tr. destruct st as [j|]; [|apply rw_tret]. cbn [start_le start_or_0] in *.
    apply rw_tbind; [apply rw_tget; lia|]. intros v0. destruct (not_none v0); [|apply rw_tret].
    apply rw_tbind; [apply rw_tpure|]. intros n'. apply rw_tret.
  Qed.

  Theorem vext_cb_tr_erase mp s a : snd (vext_cb_tr scmp mp xs s a) = vext_cb scmp mp xs s a.
  Proof.
    destruct a as [[st e] v]. unfold vext_cb_tr, vext_cb. rewrite snd_tbind, ext_step_tr_erase.
    destruct (ext_step scmp xs s st e v) as [s1|pk]; [|reflexivity]. cbn [bind].
    rewrite snd_tbind, ext_post_tr_erase. destruct (ext_post xs s1 st); reflexivity.
  Qed.
  Theorem vext_cb_tr_reads mp s st e v : start_le st e ->
    reads_within (start_or_0 st) e (fst (vext_cb_tr scmp mp xs s (st, e, v))).
  Proof.
    intros Hs. unfold vext_cb_tr. apply rw_tbind; [apply ext_step_tr_reads; exact Hs|]. intros s1.
    apply rw_tbind; [apply ext_post_tr_reads; exact Hs|]. intros s2. apply rw_tret.
  Qed.

  Theorem varg_cb_tr_erase mp s a : snd (varg_cb_tr scmp mp xs s a) = varg_cb scmp mp xs s a.
  Proof.
    destruct a as [[st e] v]. unfold varg_cb_tr, varg_cb. rewrite snd_tbind, ext_step_tr_erase.
    destruct (ext_step scmp xs s st e v) as [s1|pk]; [|reflexivity]. cbn [bind].
    rewrite snd_tbind, snd_tpure.
    match goal with |- bind ?r _ = bind ?r _ => destruct r as [o|pk] end; [|reflexivity]. cbn [bind].
    rewrite snd_tbind, ext_post_tr_erase. destruct (ext_post xs s1 st); reflexivity.
  Qed.
  Theorem varg_cb_tr_reads mp s st e v : start_le st e ->
    reads_within (start_or_0 st) e (fst (varg_cb_tr scmp mp xs s (st, e, v))).
  Proof.
    intros Hs. unfold varg_cb_tr. apply rw_tbind; [apply ext_step_tr_reads; exact Hs|]. intros s1.
    apply rw_tbind; [apply rw_tpure|]. intros o.
    apply rw_tbind; [apply ext_post_tr_reads; exact Hs|]. intros s2. apply rw_tret.
  Qed.
End CmpTrace.

Section RankTrace.
  Context {A : Type} {NA : Num A} {T : Type} {DT : IsNone T A} {B : Type} {NB : Num B}.
  Variable xs : list T.

  Lemma rank_loop_tr_scanf x : forall cnt i (rank : B) nrep,
    rank_loop_tr xs x i cnt rank nrep = scanf_tr (rank_step x) xs i cnt (rank, nrep).
  Proof.
    induction cnt as [|c IH]; intros i rank nrep; [reflexivity|]. cbn [rank_loop_tr scanf_tr].
    apply tbind_tget_ext. intros a _. unfold rank_step at 2. cbn [fst snd].
    destruct (not_none a); [|apply IH].
    destruct (nltb (unwrap a) x); [apply IH|]. destruct (neqb (unwrap a) x); apply IH.
  Qed.

  Theorem vrank_cb_tr_erase mp wm1 pct rev (n : nat) a :
    snd (vrank_cb_tr (B := B) mp wm1 pct rev xs n a) = vrank_cb mp wm1 pct rev xs n a.
  Proof.
    destruct a as [[st e] v]. unfold vrank_cb_tr, vrank_cb. rewrite snd_tbind.
    destruct (not_none v).
    - rewrite snd_tbind, rank_loop_tr_scanf, scanf_tr_erase, <- rank_loop_scanf.
      destruct (Cmp.rank_loop xs (unwrap v) _ _ _ _) as [rr|pk]; [|reflexivity]. cbn [bind snd tret].
      rewrite snd_tbind. destruct (wm1 <=? e); [|reflexivity].
      destruct st as [j|]; [|reflexivity]. rewrite snd_tbind, snd_tget.
      destruct (uget xs j) as [v0|pk]; [|reflexivity]. cbn [bind].
      destruct (not_none v0); cbn [snd tpure tret bind]; [|reflexivity].
      destruct (usub (S n) 1); reflexivity.
    - cbn [bind snd tret]. rewrite snd_tbind. destruct (wm1 <=? e); [|reflexivity].
      destruct st as [j|]; [|reflexivity]. rewrite snd_tbind, snd_tget.
      destruct (uget xs j) as [v0|pk]; [|reflexivity]. cbn [bind].
      destruct (not_none v0); cbn [snd tpure tret bind]; [|reflexivity].
      destruct (usub n 1); reflexivity.
  Qed.
  Theorem vrank_cb_tr_reads mp wm1 pct rev (n : nat) st e v : start_le st e ->
    reads_within (start_or_0 st) e (fst (vrank_cb_tr (B := B) mp wm1 pct rev xs n (st, e, v))).
  Proof.
    intros Hs. unfold vrank_cb_tr. apply rw_tbind.
    - destruct (not_none v); [|apply rw_tret]. apply rw_tbind; [|intros rr; apply rw_tret].
      rewrite rank_loop_tr_scanf. apply scanf_tr_reads; destruct st; cbn [start_le start_or_0] in *; lia.
    - intros [[n1 rank] nrep]. apply rw_tbind; [|intros n2; apply rw_tret].
      destruct (wm1 <=? e); [|apply rw_tret]. destruct st as [j|]; [|apply rw_tpure].
      cbn [start_le start_or_0] in *. apply rw_tbind; [apply rw_tget; lia|]. intros v0.
      destruct (not_none v0); [apply rw_tpure|apply rw_tret].
  Qed.
End RankTrace.

Section NormTrace.
  Context {A : Type} {NA : Num A} {T : Type} {DT : IsNone T A}.
  Variables tmin tmax : A.
  Variable xs : list T.

  Lemma scan_max_tr_scanf : forall cnt i mx mxi,
    scan_max_tr xs i cnt mx mxi = scanf_tr scan_max_step xs i cnt (mx, mxi).
  Proof.
    induction cnt as [|c IH]; intros i mx mxi; [reflexivity|]. cbn [scan_max_tr scanf_tr].
    apply tbind_tget_ext. intros v _. unfold scan_max_step at 2. cbn [fst].
    destruct (not_none v); [|apply IH]. destruct (nleb mx (unwrap v)); apply IH.
  Qed.
  Lemma scan_min_tr_scanf : forall cnt i mn mni,
    scan_min_tr xs i cnt mn mni = scanf_tr scan_min_step xs i cnt (mn, mni).
  Proof.
    induction cnt as [|c IH]; intros i mn mni; [reflexivity|]. cbn [scan_min_tr scanf_tr].
    apply tbind_tget_ext. intros v _. unfold scan_min_step at 2. cbn [fst].
    destruct (not_none v); [|apply IH]. destruct (nleb (unwrap v) mn); apply IH.
  Qed.
  Lemma scan_both_tr_scanf : forall cnt i mx mxi mn mni,
    scan_both_tr xs i cnt mx mxi mn mni = scanf_tr scan_both_step xs i cnt (mx, mxi, (mn, mni)).
  Proof.
    induction cnt as [|c IH]; intros i mx mxi mn mni; [reflexivity|]. cbn [scan_both_tr scanf_tr].
    apply tbind_tget_ext. intros v _. unfold scan_both_step at 2, scan_max_step, scan_min_step. cbn [fst snd].
    destruct (not_none v); [|apply IH]. destruct (nleb mx (unwrap v)), (nleb (unwrap v) mn); apply IH.
  Qed.

  Lemma mm_research_tr_erase s st e :
    snd (mm_research_tr tmin tmax xs s st e) = mm_research tmin tmax xs s st e.
  Proof.
    unfold mm_research_tr, mm_research. destruct st as [j|]; [|reflexivity].
    destruct (mm_maxi s <? j), (mm_mini s <? j); try reflexivity; rewrite snd_tbind.
    - rewrite scan_both_tr_scanf, scanf_tr_erase, <- scan_both_scanf. destruct (scan_both _ _ _ _ _ _ _); reflexivity.
    - rewrite scan_max_tr_scanf, scanf_tr_erase, <- scan_max_scanf. destruct (scan_max _ _ _ _ _); reflexivity.
    - rewrite scan_min_tr_scanf, scanf_tr_erase, <- scan_min_scanf. destruct (scan_min _ _ _ _ _); reflexivity.
  Qed.
  Lemma mm_research_tr_reads s st e : start_le st e ->
    reads_within (start_or_0 st) e (fst (mm_research_tr tmin tmax xs s st e)).
  Proof.
    intros Hs. unfold mm_research_tr. destruct st as [j|]; [|apply rw_tret]. cbn [start_le start_or_0] in *.
    destruct (mm_maxi s <? j), (mm_mini s <? j); try apply rw_tret;
      (apply rw_tbind; [|intros r; apply rw_tret]).
    - rewrite scan_both_tr_scanf. apply scanf_tr_reads; lia.
    - rewrite scan_max_tr_scanf. apply scanf_tr_reads; lia.
    - rewrite scan_min_tr_scanf. apply scanf_tr_reads; lia.
  Qed.

  Theorem mmnorm_cb_tr_erase mp s a :
    snd (mmnorm_cb_tr tmin tmax mp xs s a) = mmnorm_cb tmin tmax mp xs s a.
  Proof.
    destruct a as [[st e] v]. unfold mmnorm_cb_tr, mmnorm_cb. rewrite snd_tbind, mm_research_tr_erase.
    destruct (mm_research tmin tmax xs s st e) as [s1|pk]; [|reflexivity]. cbn [bind].
    match goal with |- snd (let '(s2, out) := ?p in _) = _ => destruct p as [s2 out] end.
    rewrite snd_tbind. destruct st as [j|]; [|reflexivity]. rewrite snd_tbind, snd_tget.
    destruct (uget xs j) as [v0|pk]; [|reflexivity]. cbn [bind].
    destruct (not_none v0); [|reflexivity]. rewrite snd_tbind, snd_tpure.
    destruct (usub (mm_n s2) 1); reflexivity.
  Qed.
  Theorem mmnorm_cb_tr_reads mp s st e v : start_le st e ->
    reads_within (start_or_0 st) e (fst (mmnorm_cb_tr tmin tmax mp xs s (st, e, v))).
  Proof.
    intros Hs. unfold mmnorm_cb_tr. apply rw_tbind; [apply mm_research_tr_reads; exact Hs|]. intros s1.
    match goal with |- reads_within _ _ (fst (let '(s2, out) := ?p in _)) => destruct p as [s2 out] end.
    apply rw_tbind; [|intros s3; apply rw_tret].
    destruct st as [j|]; [|apply rw_tret]. cbn [start_le start_or_0] in *.
    apply rw_tbind; [apply rw_tget; lia|]. intros v0. destruct (not_none v0); [|apply rw_tret].
    apply rw_tbind; [apply rw_tpure|]. intros n'. apply rw_tret.
  Qed.
End NormTrace.

(* ---- reg.rs: reads of the checked residual callback (unconditional) ---------------------------------- *)
Section ResidTrace.
  Context {A : Type} {NA : Num A} {T1 : Type} {D1 : IsNone T1 A} {T2 : Type} {D2 : IsNone T2 A}.
  Variable zs : list (T1 * T2).

  Lemma read_pairs_tr_reads lo hi : forall cnt i, lo <= i -> i + cnt <= S hi ->
    reads_within lo hi (fst (read_pairs_tr zs i cnt)).
  Proof.
    induction cnt as [|c IH]; intros i H1 H2; [apply rw_tret|]. cbn [read_pairs_tr].
    apply rw_tbind; [apply rw_tget2; lia|]. intros p.
    apply rw_tbind; [apply IH; lia|]. intros r. apply rw_tret.
  Qed.

  Theorem resid_cb_tr_reads (k : rstat) mp (s : @csum A) st e v : start_le st e ->
    reads_within (start_or_0 st) e (fst (resid_cb_tr k mp zs s (st, e, v))).
  Proof.
    intros Hs. unfold resid_cb_tr. cbv zeta. apply rw_tbind.
    - destruct (mp <=? c_n (csum_pre s v)); [|apply rw_tret].
      apply rw_tbind; [|intros l; apply rw_tret]. apply read_pairs_tr_reads; [lia|].
      destruct st; cbn [start_le start_or_0] in *; lia.
    - intros out. apply rw_tbind; [|intros s2; apply rw_tret].
      destruct st as [j|]; [|apply rw_tret]. cbn [start_le start_or_0] in *.
      apply rw_tbind; [apply rw_tget2; lia|]. intros p. destruct (both p); [|apply rw_tret].
      apply rw_tbind; [apply rw_tpure|]. intros n'. apply rw_tret.
  Qed.
End ResidTrace.

(* ---- the trace of a whole call ------------------------------------------------------------------------- *)
Definition kcalls {T} (body : bool) (w : nat) (xs : list T) : list (nat * (option nat * nat * T)) :=
  mapi (fun i v => (i, (start_of (eff_window body w (length xs)) i, i, v))) xs.

(* both driver bodies hand the callback the positions in order *)
Lemma kcalls_eq {T} (body : bool) w (xs : list T) : 1 <= w ->
  (if body then calls_to_idx w xs else combine (seq 0 (length xs)) (args_iter_idx w xs)) = kcalls body w xs.
Proof.
  intros Hw. unfold kcalls. destruct body; cbn [eff_window].
  - apply calls_to_idx_spec. exact Hw.
  - rewrite args_iter_idx_mapi by exact Hw.
    rewrite (mapi_slot_combine (fun i v => (start_of w i, i, v)) xs), mapi_length. reflexivity.
Qed.

Lemma kernel_trace_unfold {T St O} body two w (cbt : St -> option nat * nat * T -> tr (St * O)) s0 (xs : list T) :
  1 <= w ->
  kernel_trace body two w cbt s0 xs
  = trace_calls cbt (if body then drv_reads two else fun _ => []) body s0 (kcalls body w xs).
Proof.
  intros Hw. unfold kernel_trace. rewrite bad_window_false, <- kcalls_eq by exact Hw. destruct body; reflexivity.
Qed.

Lemma kernel_trace_w0 {T St O} body two (cbt : St -> option nat * nat * T -> tr (St * O)) s0 (xs : list T) :
  kernel_trace body two 0 cbt s0 xs = [].
Proof.
  unfold kernel_trace, bad_window. destruct xs as [|x xs]; [|reflexivity]. cbn. destruct body; reflexivity.
Qed.

Definition call_ok {T} (len : nat) (c : nat * (option nat * nat * T)) : Prop :=
  fst c < len /\ snd (fst (snd c)) < len /\ start_le (fst (fst (snd c))) (snd (fst (snd c))).

Lemma kcalls_ok {T} body w (xs : list T) : Forall (call_ok (length xs)) (kcalls body w xs).
Proof.
  apply Forall_forall. intros c Hc. unfold kcalls in Hc. apply In_mapi in Hc.
  destruct Hc as (i & v & Hv & ->). unfold call_ok. cbn [fst snd].
  assert (i < length xs) by (apply nth_error_Some; congruence).
  repeat split; try assumption. apply start_of_le.
Qed.

Section KernelTraceFacts.
  Context {T St O : Type}.
  Variable cbt : St -> option nat * nat * T -> tr (St * O).
  Hypothesis Hcb : forall s st e v, start_le st e -> reads_within (start_or_0 st) e (fst (cbt s (st, e, v))).

  Lemma trace_calls_ok drv wr len len2 : len <= len2 ->
    (forall e, e < len -> Forall (acc_ok len len2) (drv e)) ->
    forall calls s, Forall (call_ok len) calls -> Forall (acc_ok len len2) (trace_calls cbt drv wr s calls).
  Proof.
    intros Hl Hd. induction calls as [|[slot [[st e] v]] rest IH]; intros s Hc; [constructor|].
    inversion Hc as [|? ? [H1 [H2 H3]] Hc']; subst. cbn [fst snd] in *. cbn [trace_calls fst snd].
    apply Forall_app; split; [apply Hd; exact H2|]. apply Forall_app; split.
    - eapply rw_acc_ok; [exact H2|exact Hl|apply Hcb; exact H3].
    - destruct (snd (cbt s (st, e, v))) as [[s' o]|pk]; [|constructor].
      apply Forall_app; split; [destruct wr; repeat constructor; exact H1|apply IH; exact Hc'].
  Qed.

  (* (T) in bounds, unconditionally: every window (0 and > len included), both bodies, one or two series *)
  Theorem kernel_trace_ok body two w s0 (xs : list T) len2 :
    length xs <= len2 -> Forall (acc_ok (length xs) len2) (kernel_trace body two w cbt s0 xs).
  Proof.
    intros Hl. destruct w as [|w]; [rewrite kernel_trace_w0; constructor|].
    rewrite kernel_trace_unfold by lia. apply trace_calls_ok; [exact Hl| |apply kcalls_ok].
    intros e He. destruct body; [|constructor]. unfold drv_reads.
    destruct two; repeat constructor; cbn; lia.
  Qed.

  Variable cb : St -> option nat * nat * T -> res (St * O).
  Hypothesis Herase : forall s a, snd (cbt s a) = cb s a.

  Lemma trace_calls_writes drv len : (forall e, writes_of (drv e) = []) ->
    forall calls s outs, Forall (call_ok len) calls ->
      run (lift_cb cb) (Ok s) (map snd calls) = map Ok outs ->
      writes_of (trace_calls cbt drv true s calls) = map fst calls.
  Proof.
    intros Hd. induction calls as [|[slot [[st e] v]] rest IH]; intros s outs Hc Hrun; [reflexivity|].
    inversion Hc as [|? ? [H1 [H2 H3]] Hc']; subst. cbn [fst snd] in *.
    cbn [trace_calls map fst snd run lift_cb] in *. rewrite !writes_of_app, Hd.
    rewrite (rw_no_writes _ _ _ (Hcb s st e v H3)). rewrite Herase.
    destruct (cb s (st, e, v)) as [[s' o]|pk].
    - destruct outs as [|o' outs]; [discriminate|]. cbn [map] in Hrun. injection Hrun as _ Hrun.
      rewrite writes_of_app. cbn [app]. change (writes_of [AUset slot]) with [slot]. cbn [app]. f_equal.
      apply (IH s' outs Hc' Hrun).
    - destruct outs; discriminate.
  Qed.

  (* every output slot is written exactly once, in order, whenever the call returns *)
  Theorem kernel_trace_writes two w s0 (xs : list T) out :
    idx_run true w cb s0 xs = Done out ->
    writes_of (kernel_trace true two w cbt s0 xs) = seq 0 (length xs).
  Proof.
    intros Hrun. destruct w as [|w].
    - rewrite kernel_trace_w0. destruct xs as [|x xs]; [reflexivity|].
      unfold idx_run, rolling_apply_idx_to, bad_window in Hrun. cbn in Hrun. discriminate.
    - apply idx_run_Done_iff in Hrun; [|lia]. rewrite kernel_trace_unfold by lia.
      rewrite (trace_calls_writes (drv_reads two) (length xs)) with (outs := out).
      + unfold kcalls. rewrite map_mapi. cbn [fst]. apply mapi_fst_seq.
      + intros e. unfold drv_reads. destruct two; reflexivity.
      + apply kcalls_ok.
      + unfold kcalls. rewrite map_mapi. cbn [snd]. exact Hrun.
  Qed.
End KernelTraceFacts.
