(* Proofs/Mask.v — C05: the null pattern of the rolling moment family is exactly the warm-up mask.
   Corollaries of the closed forms of Proofs/Features.v (carrier XR: None is the null).            *)
From Coq Require Import Reals Lia List.
From Tevec Require Import Base.Prelude Base.Num Base.XR Spec.Stats Model.Driver Model.Features
     Proofs.Outcome Proofs.Features.
Import ListNotations.

Definition is_null (x : XR) : bool := match x with None => true | Some _ => false end.

(* the call returns one output per input, and output i satisfies P i *)
Definition outputs {O} (r : outcome O) (n : nat) (P : nat -> O -> Prop) : Prop :=
  exists out, r = Done out /\ length out = n /\
    forall i, (i < n)%nat -> exists o, nth_error out i = Some o /\ P i o.

(* from "output i = F i" to "output i satisfies P i" *)
Lemma mask_transfer {O} (r : outcome O) (n : nat) (F : nat -> O) (P : nat -> O -> Prop) :
  (exists out, r = Done out /\ length out = n /\ forall i, (i < n)%nat -> nth_error out i = Some (F i)) ->
  (forall i, (i < n)%nat -> P i (F i)) ->
  outputs r n P.
Proof.
  intros (out & H1 & H2 & H3) HP. exists out. split; [exact H1|]. split; [exact H2|].
  intros i Hi. exists (F i). split; [apply H3; exact Hi|apply HP; exact Hi].
Qed.

(* a property of the closed form at every window is a property of every output *)
Lemma runs_outputs {St} (F : feat XR St XR) (out : list R -> XR) (P : nat -> XR -> Prop) body (w : nat) (xs : list XR) :
  (1 <= w)%nat -> runs_as F out ->
  (forall i, (i < length xs)%nat -> P i (out (valid (win w i xs)))) ->
  outputs (ts_run F body w xs) (length xs) P.
Proof. intros Hw HR. apply mask_transfer, done_map_iff, HR, Hw. Qed.

Definition below (k : nat) (V : list R) : bool := (length V <? k)%nat.

Theorem mask_vsum body (w : nat) mp (xs : list XR) :
  (1 <= w)%nat ->
  outputs (ts_run (ts_vsum_f w mp) body w xs) (length xs)
      (fun i o => is_null o = below (mp_eff mp w 0) (valid (win w i xs))).
Proof.
  intros Hw. apply (runs_outputs _ _ _ body w xs Hw (ts_vsum_run w mp)). intros i _.
  generalize (valid (win w i xs)). intros V. unfold sum_out, below.
  rewrite Nat.leb_antisym. destruct (_ <? _)%nat; reflexivity.
Qed.

(* mean: additionally null on a window without valid element *)
Theorem mask_vmean body (w : nat) mp (xs : list XR) :
  (1 <= w)%nat ->
  outputs (ts_run (ts_vmean_f w mp) body w xs) (length xs)
      (fun i o => is_null o = orb (below (mp_eff mp w 0) (valid (win w i xs))) (below 1 (valid (win w i xs)))).
Proof.
  intros Hw. apply (runs_outputs _ _ _ body w xs Hw (ts_vmean_run w mp)). intros i _.
  generalize (valid (win w i xs)). intros V. unfold mean_out, below.
  rewrite Nat.leb_antisym. destruct (_ <? _)%nat eqn:E; [reflexivity|].
  cbn [negb orb]. destruct (length V) as [|n]; reflexivity.
Qed.

(* variance-type statistics: null exactly below max(min_periods', k) valid observations *)
Theorem mask_vvar body (w : nat) mp (xs : list XR) :
  (1 <= w)%nat ->
  outputs (ts_run (ts_vvar_f w mp) body w xs) (length xs)
      (fun i o => is_null o = below (mp_eff mp w 2) (valid (win w i xs))).
Proof.
  intros Hw. apply (runs_outputs _ _ _ body w xs Hw (ts_vvar_run w mp)). intros i _.
  generalize (valid (win w i xs)). intros V. unfold var_out, below.
  rewrite Nat.leb_antisym. destruct (_ <? _)%nat; [reflexivity|].
  cbn [negb]. destruct (Rlt_dec _ _); reflexivity.
Qed.

Theorem mask_vstd body (w : nat) mp (xs : list XR) :
  (1 <= w)%nat ->
  outputs (ts_run (ts_vstd_f w mp) body w xs) (length xs)
      (fun i o => is_null o = below (mp_eff mp w 2) (valid (win w i xs))).
Proof.
  intros Hw. apply (runs_outputs _ _ _ body w xs Hw (ts_vstd_run w mp)). intros i _.
  generalize (valid (win w i xs)). intros V. unfold std_out, below.
  rewrite Nat.leb_antisym. destruct (_ <? _)%nat; [reflexivity|].
  cbn [negb]. destruct (Rlt_dec _ _); reflexivity.
Qed.

Theorem mask_vskew body (w : nat) mp (xs : list XR) :
  (1 <= w)%nat ->
  outputs (ts_run (ts_vskew_f w mp) body w xs) (length xs)
      (fun i o => is_null o = below (mp_eff mp w 3) (valid (win w i xs))).
Proof.
  intros Hw. apply (runs_outputs _ _ _ body w xs Hw (ts_vskew_run w mp)). intros i _.
  generalize (valid (win w i xs)). intros V. unfold skew_out, below.
  rewrite Nat.leb_antisym. destruct (_ <? _)%nat; [reflexivity|].
  cbn [negb]. destruct (Rle_dec _ _); reflexivity.
Qed.

Theorem mask_vkurt body (w : nat) mp (xs : list XR) :
  (1 <= w)%nat ->
  outputs (ts_run (ts_vkurt_f w mp) body w xs) (length xs)
      (fun i o => is_null o = below (mp_eff mp w 4) (valid (win w i xs))).
Proof.
  intros Hw. apply (runs_outputs _ _ _ body w xs Hw (ts_vkurt_run w mp)). intros i _.
  generalize (valid (win w i xs)). intros V. unfold kurt_out, below.
  rewrite Nat.leb_antisym. destruct (_ <? _)%nat; [reflexivity|].
  cbn [negb]. destruct (Rle_dec _ _); reflexivity.
Qed.

(* the effective min_periods: min(mp or w/2, w) raised to the intrinsic minimum k *)
Lemma mp_eff_value mp w k :
  mp_eff mp w k = Nat.max (Nat.min (match mp with Some m => m | None => (w / 2)%nat end) w) k.
Proof. reflexivity. Qed.
