(* Proofs/TransQuantile.v — C08 (null transparency) for vquantile / vmedian at EVERY carrier (no law of the numeric
   class, no order law, axiom-free).  `isort_split` and the index law `QIdxLaw` are also what the every-carrier
   theorems of C12 (Audit12.v) and C10 start from.

   The model of std's sort is a stable insertion sort under sort_cmp / sort_cmp_rev.  Whatever the comparison of two
   non-null values does (no transitivity or totality is assumed), a null compares `Gt` against a non-null, `Eq` against
   a null, and a non-null compares `Lt` against a null.  Hence, for every series,
        isort cmp l = isort cmp (filter not_none l) ++ filter is_none l                       (isort_split)
   — the sorted arrangement of the non-null elements, literally the same term for a series and for the series with
   nulls inserted, followed by the nulls.  `select_nth j` therefore returns the same pivot and a head with the same
   non-null elements whenever the call on the original series succeeds, and the quantile — computed from
   `vmax head` / `vmin head` (null-skipping folds) and `tcast pivot` — is literally the same term.

   The index j = ceil((n-1) q) comes from the carrier's `NumFloor`, about which the class says nothing; for a j that is
   not below the number n of valid elements the shorter series may make `select_nth_unstable_by` panic (j >= len) where
   the longer one does not.  The statements are therefore: (1) every successful result on xs is the result on ys;
   (2) equality outright when the selected index is in range (always the case at binary64 and at option R).        *)
From Coq Require Import List Bool Arith Lia ZArith Permutation.
From Tevec Require Import Base.Prelude Base.Num Model.NullView Model.SortCmp Model.Quantile Proofs.SortCmp Proofs.ViewBase.
Import ListNotations.

(* the sort depends on the comparator only on the elements of the list *)
Lemma insert_ext_in {X} (c1 c2 : X -> X -> comparison) x l :
  (forall b, In b l -> c1 x b = c2 x b) -> insert c1 x l = insert c2 x l.
Proof.
  induction l as [|y r IH]; intros H; [reflexivity|]. cbn [insert]. unfold cle.
  rewrite (H y) by (left; reflexivity). destruct (c2 x y); try reflexivity.
  f_equal. apply IH. intros b Hb. apply H. right. exact Hb.
Qed.
Lemma isort_ext_in {X} (c1 c2 : X -> X -> comparison) l :
  (forall a b, In a l -> In b l -> c1 a b = c2 a b) -> isort c1 l = isort c2 l.
Proof.
  induction l as [|x l IH]; intros H; [reflexivity|]. cbn [isort fold_right].
  fold (isort c1 l) (isort c2 l). rewrite IH by (intros a b Ha Hb; apply H; right; assumption).
  apply insert_ext_in. intros b Hb. apply H; [left; reflexivity|right].
  apply Permutation_in with (isort c2 l); [apply isort_perm|exact Hb].
Qed.

(* the sort puts the nulls last: an abstract comparator with a null predicate (null vs non-null = Gt, null vs null = Eq,
   non-null vs null = Lt — nothing about two non-nulls), on a domain `Dom` (all of T here, the valid indices for argsort) *)
Section AbsSplit.
  Context {X : Type} (cmp : X -> X -> comparison) (nul : X -> bool) (Dom : X -> Prop).
  Hypothesis Hnv : forall x y, Dom x -> Dom y -> nul x = true -> nul y = false -> cmp x y = Gt.
  Hypothesis Hnn : forall x y, Dom x -> Dom y -> nul x = true -> nul y = true -> cmp x y = Eq.
  Hypothesis Hvn : forall x y, Dom x -> Dom y -> nul x = false -> nul y = true -> cmp x y = Lt.

  Lemma insert_null_split_abs x N Z :
    Dom x -> nul x = true -> Forall (fun y => Dom y /\ nul y = false) N -> Forall (fun y => Dom y /\ nul y = true) Z ->
    insert cmp x (N ++ Z) = N ++ x :: Z.
  Proof.
    intros Dx Hx HN HZ. induction HN as [|y N [Dy Hy] _ IH]; cbn [app insert].
    - destruct HZ as [|z Z [Dz Hz] _]; [reflexivity|]. cbn [insert]. unfold cle. rewrite (Hnn _ _ Dx Dz Hx Hz). reflexivity.
    - unfold cle. rewrite (Hnv _ _ Dx Dy Hx Hy). f_equal. exact IH.
  Qed.

  Lemma insert_valid_split_abs x N Z :
    Dom x -> nul x = false -> Forall (fun y => Dom y /\ nul y = true) Z ->
    insert cmp x (N ++ Z) = insert cmp x N ++ Z.
  Proof.
    intros Dx Hx HZ. induction N as [|y N IH]; cbn [app insert].
    - destruct HZ as [|z Z [Dz Hz] _]; [reflexivity|]. cbn [insert]. unfold cle. rewrite (Hvn _ _ Dx Dz Hx Hz). reflexivity.
    - destruct (cle cmp x y); [reflexivity|]. cbn [app]. f_equal. exact IH.
  Qed.

  Theorem isort_split_abs l :
    Forall Dom l -> isort cmp l = isort cmp (filter (fun x => negb (nul x)) l) ++ filter nul l.
  Proof.
    induction l as [|x l IH]; intros HD; [reflexivity|].
    pose proof (Forall_inv HD) as Dx. pose proof (Forall_inv_tail HD) as HD'. specialize (IH HD').
    rewrite Forall_forall in HD'.
    change (isort cmp (x :: l)) with (insert cmp x (isort cmp l)). rewrite IH. cbn [filter].
    destruct (nul x) eqn:Hx; cbn [negb].
    - apply insert_null_split_abs; [exact Dx|exact Hx| |].
      + apply Forall_forall. intros y Hy.
        apply (Permutation_in _ (isort_perm cmp _)) in Hy. apply filter_In in Hy. destruct Hy as [Hy Hn].
        split; [apply HD'; exact Hy|]. destruct (nul y); [discriminate|reflexivity].
      + apply Forall_forall. intros y Hy. apply filter_In in Hy. destruct Hy as [Hy Hn]. split; [apply HD'; exact Hy|exact Hn].
    - change (isort cmp (x :: filter (fun x0 => negb (nul x0)) l))
        with (insert cmp x (isort cmp (filter (fun x0 => negb (nul x0)) l))).
      apply insert_valid_split_abs; [exact Dx|exact Hx|].
      apply Forall_forall. intros y Hy. apply filter_In in Hy. destruct Hy as [Hy Hn]. split; [apply HD'; exact Hy|exact Hn].
  Qed.
End AbsSplit.

Section NullSort.
  Context {A : Type} {NA : Num A} {T : Type} {DT : IsNone T A}.

  Lemma cmp_null_valid rev x y : is_none x = true -> is_none y = false -> cmp_dir rev x y = Gt.
  Proof. intros Hx Hy. destruct rev; cbn [cmp_dir]; unfold sort_cmp, sort_cmp_rev, to_opt; rewrite Hx, Hy; reflexivity. Qed.
  Lemma cmp_null_null rev x y : is_none x = true -> is_none y = true -> cmp_dir rev x y = Eq.
  Proof. intros Hx Hy. destruct rev; cbn [cmp_dir]; unfold sort_cmp, sort_cmp_rev, to_opt; rewrite Hx, Hy; reflexivity. Qed.
  Lemma cmp_valid_null rev x y : is_none x = false -> is_none y = true -> cmp_dir rev x y = Lt.
  Proof. intros Hx Hy. destruct rev; cbn [cmp_dir]; unfold sort_cmp, sort_cmp_rev, to_opt; rewrite Hx, Hy; reflexivity. Qed.

  Definition all_valid (l : list T) : Prop := Forall (fun y => is_none y = false) l.
  Definition all_null (l : list T) : Prop := Forall (fun y => is_none y = true) l.

  Lemma filter_not_none_all_valid l : all_valid (filter not_none l).
  Proof.
    unfold all_valid. apply Forall_forall. intros y Hy. apply filter_In in Hy. destruct Hy as [_ Hy].
    unfold not_none in Hy. destruct (is_none y); [discriminate|reflexivity].
  Qed.
  Lemma filter_is_none_all_null l : all_null (filter is_none l).
  Proof. unfold all_null. apply Forall_forall. intros y Hy. apply filter_In in Hy. exact (proj2 Hy). Qed.

  Lemma isort_all_valid rev l : all_valid l -> all_valid (isort (cmp_dir rev) l).
  Proof.
    unfold all_valid. rewrite !Forall_forall. intros H y Hy. apply H.
    apply Permutation_in with (isort (cmp_dir rev) l); [apply isort_perm|exact Hy].
  Qed.

  (* the sorted series = the sorted non-null elements, then the nulls (no order law needed) *)
  Theorem isort_split rev l :
    isort (cmp_dir rev) l = isort (cmp_dir rev) (filter not_none l) ++ filter is_none l.
  Proof.
    apply (isort_split_abs (cmp_dir rev) is_none (fun _ => True)).
    - intros x y _ _. apply cmp_null_valid.
    - intros x y _ _. apply cmp_null_null.
    - intros x y _ _. apply cmp_valid_null.
    - apply Forall_forall. intros x _. exact I.
  Qed.

  Lemma filter_null_insert_length xs ys :
    NullInsert xs ys -> (length (filter is_none xs) <= length (filter is_none ys))%nat.
  Proof.
    induction 1 as [|x xs ys _ IH|v xs ys Hv _ IH]; [apply le_n| |].
    - cbn [filter]. destruct (is_none x); cbn [length]; lia.
    - cbn [filter]. rewrite Hv. cbn [length]. lia.
  Qed.
  Lemma count_valid_insert xs ys : NullInsert xs ys -> count_valid ys = count_valid xs.
  Proof. intros H. unfold count_valid. rewrite (filter_valid_insert H). reflexivity. Qed.
  Lemma vfirst_insert xs ys : NullInsert xs ys -> vfirst ys = vfirst xs.
  Proof. intros H. unfold vfirst. rewrite !find_hd_filter, (filter_valid_insert H). reflexivity. Qed.

  (* the null-skipping folds see only the non-null elements *)
  Lemma vmax_filter l : vmax l = vmax (filter not_none l).
  Proof.
    unfold vmax. generalize (@None A) as acc. induction l as [|x l IH]; intros acc; [reflexivity|].
    cbn [fold_left filter]. destruct (not_none x) eqn:E; [cbn [fold_left]; rewrite E|]; apply IH.
  Qed.
  Lemma vmin_filter l : vmin l = vmin (filter not_none l).
  Proof.
    unfold vmin. generalize (@None A) as acc. induction l as [|x l IH]; intros acc; [reflexivity|].
    cbn [fold_left filter]. destruct (not_none x) eqn:E; [cbn [fold_left]; rewrite E|]; apply IH.
  Qed.

  Lemma tcast_null v : is_none v = true -> tcast v = nnan.
  Proof. intros H. unfold tcast. rewrite H. reflexivity. Qed.

  Lemma filter_valid_of_null Z : all_null Z -> filter not_none Z = [].
  Proof.
    induction 1 as [|z Z Hz _ IH]; [reflexivity|]. cbn [filter]. rewrite (not_none_null _ Hz). exact IH.
  Qed.

  Context {NF : NumFloor A}.

  (* select_nth on the series with nulls inserted: the same pivot (as a number) and a head with the same non-null
     elements, whenever the selection on the original series succeeds *)
  Lemma select_nth_insert rev j xs ys h m :
    NullInsert xs ys -> select_nth (cmp_dir rev) j xs = Ok (h, m) ->
    exists h' m', select_nth (cmp_dir rev) j ys = Ok (h', m') /\
                  filter not_none h' = filter not_none h /\ tcast m' = tcast m.
  Proof.
    intros HI. unfold select_nth. rewrite (isort_split rev xs), (isort_split rev ys).
    rewrite (filter_valid_insert HI).
    set (S0 := isort (cmp_dir rev) (filter not_none xs)).
    pose proof (filter_is_none_all_null xs) as HZx. pose proof (filter_is_none_all_null ys) as HZy.
    pose proof (filter_null_insert_length _ _ HI) as HL.
    set (Zx := filter is_none xs) in *. set (Zy := filter is_none ys) in *.
    rewrite !nth_error_app, !firstn_app.
    destruct (j <? length S0)%nat eqn:Ej.
    - apply Nat.ltb_lt in Ej. replace (j - length S0)%nat with 0%nat by lia. cbn [firstn]. rewrite !app_nil_r.
      destruct (nth_error S0 j) as [m0|]; [|discriminate]. intros E. injection E as <- <-.
      exists (firstn j S0), m0. repeat split; reflexivity.
    - apply Nat.ltb_ge in Ej. rewrite (firstn_all2 (n := j) S0) by exact Ej.
      destruct (nth_error Zx (j - length S0)) as [mx|] eqn:Ex; [|discriminate]. intros E. injection E as <- <-.
      assert (Hlt : (j - length S0 < length Zy)%nat).
      { assert (j - length S0 < length Zx)%nat by (apply nth_error_Some; rewrite Ex; discriminate). lia. }
      destruct (nth_error Zy (j - length S0)) as [my|] eqn:Ey; [|apply nth_error_None in Ey; lia].
      exists (S0 ++ firstn (j - length S0) Zy), my. split; [reflexivity|]. split.
      + rewrite !filter_app. rewrite (filter_valid_of_null _ (Forall_firstn _ _ _ HZx)).
        rewrite (filter_valid_of_null _ (Forall_firstn _ _ _ HZy)). reflexivity.
      + rewrite !tcast_null; [reflexivity| |].
        * unfold all_null in HZx. rewrite Forall_forall in HZx. apply HZx. eapply nth_error_In; exact Ex.
        * unfold all_null in HZy. rewrite Forall_forall in HZy. apply HZy. eapply nth_error_In; exact Ey.
  Qed.

  (* (1) every carrier, every q (in range, out of range, NaN), every method, every insertion pattern *)
  Theorem vquantile_insert_ok (q : A) (mth : qmethod) xs ys r :
    NullInsert xs ys -> vquantile q mth xs = Ok r -> vquantile q mth ys = Ok r.
  Proof.
    intros HI. unfold vquantile. rewrite (count_valid_insert _ _ HI), (vfirst_insert _ _ HI).
    destruct (negb (nleb nzero q && nleb q none)); [exact (fun H => H)|].
    destruct (count_valid xs =? 0)%nat; [exact (fun H => H)|].
    destruct (count_valid xs =? 1)%nat; [exact (fun H => H)|].
    destruct (nleb q nhalf).
    - set (j := Z.to_nat (nceilZ (nmul (nofnat (count_valid xs - 1)) q))).
      change (@sort_cmp A NA T DT) with (cmp_dir (DT := DT) false).
      destruct (select_nth (cmp_dir false) j xs) as [[h m]|k] eqn:E; cbn [bind]; [|discriminate].
      destruct (select_nth_insert false j xs ys h m HI E) as (h' & m' & E' & Hh & Hm).
      rewrite E'. cbn [bind]. rewrite (vmax_filter h'), Hh, <- (vmax_filter h), Hm. exact (fun H => H).
    - set (j := Z.to_nat (nceilZ (nmul (nofnat (count_valid xs - 1)) (nsub none q)))).
      change (@sort_cmp_rev A NA T DT) with (cmp_dir (DT := DT) true).
      destruct (select_nth (cmp_dir true) j xs) as [[h m]|k] eqn:E; cbn [bind]; [|discriminate].
      destruct (select_nth_insert true j xs ys h m HI E) as (h' & m' & E' & Hh & Hm).
      rewrite E'. cbn [bind]. rewrite (vmin_filter h'), Hh, <- (vmin_filter h), Hm. exact (fun H => H).
  Qed.

  Theorem vmedian_insert_ok xs ys r :
    NullInsert xs ys -> vmedian xs = Ok r -> vmedian ys = Ok r.
  Proof.
    intros HI. unfold vmedian. destruct (vquantile nhalf Linear xs) as [r0|k] eqn:E; cbn [bind]; [|discriminate].
    rewrite (vquantile_insert_ok _ _ _ _ _ HI E). cbn [bind]. exact (fun H => H).
  Qed.

  (* (2) the index handed to select_nth_unstable_by: j = ceil((n-1) q), resp. ceil((n-1) (1-q)) on the mirrored branch *)
  Definition qsel_index (q : A) (n : nat) : nat :=
    if nleb q nhalf then Z.to_nat (nceilZ (nmul (nofnat (n - 1)) q))
    else Z.to_nat (nceilZ (nmul (nofnat (n - 1)) (nsub none q))).

  Lemma count_valid_le_length xs : (count_valid xs <= length xs)%nat.
  Proof. apply filter_length_le. Qed.

  Lemma vfirst_some_of_valid xs : (0 < count_valid xs)%nat -> exists v, vfirst xs = Some v.
  Proof.
    unfold count_valid, vfirst. induction xs as [|x xs IH]; cbn [filter find length]; [lia|].
    destruct (not_none x); [intros _; exists x; reflexivity|exact IH].
  Qed.

  (* the carrier's index law: for q in [0, 1] and n >= 2 valid elements the selected index is below n
     (ceil((n-1) q) <= n-1).  True at option R (Proofs/TransRank.v) and at binary64 (monotone rounding). *)
  Definition QIdxLaw : Prop :=
    forall (q : A) (n : nat), nleb nzero q && nleb q none = true -> (2 <= n)%nat -> (qsel_index q n < n)%nat.
  Definition q_idx_ok (q : A) (n : nat) : Prop :=
    nleb nzero q && nleb q none = true -> (2 <= n)%nat -> (qsel_index q n < n)%nat.

  Lemma vquantile_ok_in_range (q : A) (mth : qmethod) xs :
    q_idx_ok q (count_valid xs) -> exists r, vquantile q mth xs = Ok r.
  Proof.
    intros Hj. unfold vquantile. unfold q_idx_ok, qsel_index in Hj.
    destruct (nleb nzero q && nleb q none); cbn [negb]; [|eexists; reflexivity].
    destruct (count_valid xs =? 0)%nat eqn:E0; [eexists; reflexivity|].
    destruct (count_valid xs =? 1)%nat eqn:E1.
    { apply Nat.eqb_eq in E1. destruct (vfirst_some_of_valid xs) as [v Hv]; [lia|]. rewrite Hv. eexists; reflexivity. }
    apply Nat.eqb_neq in E0. apply Nat.eqb_neq in E1. specialize (Hj eq_refl ltac:(lia)).
    pose proof (count_valid_le_length xs) as HL.
    destruct (nleb q nhalf).
    - set (j := Z.to_nat (nceilZ (nmul (nofnat (count_valid xs - 1)) q))) in *.
      unfold select_nth. destruct (nth_error (isort sort_cmp xs) j) as [m|] eqn:E.
      + cbn [bind]. destruct (negb _); eexists; reflexivity.
      + apply nth_error_None in E. rewrite isort_length in E. lia.
    - set (j := Z.to_nat (nceilZ (nmul (nofnat (count_valid xs - 1)) (nsub none q)))) in *.
      unfold select_nth. destruct (nth_error (isort sort_cmp_rev xs) j) as [m|] eqn:E.
      + cbn [bind]. destruct (negb _); eexists; reflexivity.
      + apply nth_error_None in E. rewrite isort_length in E. lia.
  Qed.

  Theorem vquantile_insert_in_range (q : A) (mth : qmethod) xs ys :
    NullInsert xs ys -> q_idx_ok q (count_valid xs) -> vquantile q mth ys = vquantile q mth xs.
  Proof.
    intros HI Hj. destruct (vquantile_ok_in_range q mth xs Hj) as [r Hr].
    rewrite Hr. apply (vquantile_insert_ok _ _ _ _ _ HI Hr).
  Qed.

  Theorem vmedian_insert_in_range xs ys :
    NullInsert xs ys -> q_idx_ok nhalf (count_valid xs) -> vmedian ys = vmedian xs.
  Proof. intros HI Hj. unfold vmedian. rewrite (vquantile_insert_in_range _ _ _ _ HI Hj). reflexivity. Qed.

  (* for a carrier satisfying the index law: outright equality, every q, every method *)
  Theorem vquantile_insert_law : QIdxLaw -> forall (q : A) (mth : qmethod) xs ys,
    NullInsert xs ys -> vquantile q mth ys = vquantile q mth xs /\ vmedian ys = vmedian xs.
  Proof.
    intros HL q mth xs ys HI. split.
    - apply vquantile_insert_in_range; [exact HI|]. intros H1 H2. apply HL; assumption.
    - apply vmedian_insert_in_range; [exact HI|]. intros H1 H2. apply HL; assumption.
  Qed.
End NullSort.
