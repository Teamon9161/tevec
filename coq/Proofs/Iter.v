(* Proofs/Iter.v — C09, the iterator-state model of Model/Iter.v: on a well-formed state (`wfb`) one call of
   next / next_back removes the first / last of `elems` and keeps well-formedness and the announced length exact; from
   that the raw collector, the adaptors and their pipelines, nth / nth_back / fold / last / count, instruction
   scripts and StepBy. *)
From Tevec Require Import Base.Prelude Model.Iter.
Local Open Scope nat_scope.

(* every model state announces lower bound = upper bound (no unbounded source is a node of its own) *)
Lemma hint_lower_is_upper : forall s, snd (size_hint s) = Some (fst (size_hint s)).
Proof.
  induction s; cbn [size_hint fst snd]; try reflexivity; try assumption.
  - destruct la, lb; cbn [fst snd]; try assumption; try reflexivity.
    rewrite IHs1, IHs2. reflexivity.
  - destruct (n =? 0) eqn:E; [reflexivity|]. cbn [fst snd]. rewrite IHs.
    destruct (fst (size_hint s) <? n) eqn:E2; f_equal;
      [apply Nat.ltb_lt in E2 | apply Nat.ltb_ge in E2]; lia.
  - rewrite IHs. reflexivity.
  - rewrite IHs1, IHs2. reflexivity.
Qed.

Lemma hint_pair s : size_hint s = (fst (size_hint s), Some (fst (size_hint s))).
Proof. rewrite <- hint_lower_is_upper. destruct (size_hint s); reflexivity. Qed.

Lemma size_hint_upper_some : forall s, exists u, snd (size_hint s) = Some u.
Proof. intros s. exists (fst (size_hint s)). apply hint_lower_is_upper. Qed.

(* ---- well-formedness ---------------------------------------------------------------------------
   wfb false s : s may be consumed from the front   (every ITrust below announces the true count)
   wfb true  s : s may be consumed from both ends   (additionally: no FnMut map — its result depends on
                 the order of the calls — and no padded take, which std does not make double-ended)    *)
Fixpoint wfb (b : bool) (s : it) : Prop :=
  match s with
  | IList _ | IRange _ _ | IRepeatN _ _ => True
  | ILin _ _ index len => index <= len
  | IChain _ _ x y | IZip x y => wfb b x /\ wfb b y
  | ITake i _ | ISkip i _ | IEnum i _ | IMap _ i | IBox i => wfb b i
  | IMapS _ _ i => b = false /\ wfb false i
  | IPad _ i _ _ => b = false /\ wfb false i
  | IRev i => wfb true i
  | ITrust i len => len = length (elems i) /\ wfb b i
  end.

Lemma wfb_weaken : forall s, wfb true s -> wfb false s.
Proof.
  induction s; cbn [wfb]; intros H; try tauto; destruct H as [H _]; discriminate.
Qed.

Lemma wfb_any : forall b s, wfb true s -> wfb b s.
Proof. intros [] s H; [exact H | apply wfb_weaken; exact H]. Qed.

Lemma wfb_front b s : wfb b s -> wfb false s.
Proof. destruct b; [apply wfb_weaken | auto]. Qed.

Definition exact (s : it) : Prop :=
  size_hint s = (length (elems s), Some (length (elems s))).

Global Hint Rewrite @app_length @repeat_length @map_length @combine_length @firstn_length @skipn_length
  @seq_length @rev_length @run_length : iter_len.

Lemma wfb_exact : forall s, wfb false s -> exact s.
Proof.
  intros s Hw. unfold exact. rewrite (hint_pair s). enough (H : fst (size_hint s) = length (elems s)) by (rewrite H; reflexivity).
  induction s; cbn [wfb size_hint elems fst] in *; autorewrite with iter_len; try reflexivity.
  - destruct Hw as [Ha Hb]. destruct la, lb; cbn [fst length]; rewrite ?IHs1, ?IHs2 by assumption; lia.
  - destruct (n =? 0) eqn:E; cbn [fst]; [apply Nat.eqb_eq in E | rewrite IHs by exact Hw]; lia.
  - rewrite IHs by exact Hw. reflexivity.
  - destruct Hw as [Ha Hb]. rewrite IHs1, IHs2 by assumption. reflexivity.
  - exact (IHs Hw).
  - exact (IHs (proj2 Hw)).
  - exact (IHs (wfb_weaken _ Hw)).
  - rewrite IHs by exact Hw. lia.
  - cbv zeta. autorewrite with iter_len. lia.
  - exact (proj1 Hw).
  - exact (IHs Hw).
Qed.

(* ---- one call of next / next_back ------------------------------------------------------------- *)
Definition spec (back : bool) (s : it) (o : option val) (s' : it) : Prop :=
  match o with
  | Some x => if back then elems s = elems s' ++ [x] else elems s = x :: elems s'
  | None => elems s = [] /\ elems s' = []
  end.

(* the direction `back` is only allowed on states that are double-ended-well-formed *)
Definition dir_ok (back b : bool) : Prop := back = true -> b = true.

(* one call on s with fuel f, from either end *)
Definition sound_on (f : nat) (s : it) : Prop :=
  forall back b o s', dir_ok back b -> wfb b s -> depth s <= f -> step f back s = (o, s') ->
                      spec back s o s' /\ wfb b s' /\ depth s' = depth s.

Definition sound_at (f : nat) : Prop := forall s, sound_on f s.

(* what `nth k` (back = false) / `nth_back k` (back = true) does to the abstract sequence: D = the k skipped items *)
Definition nth_spec (back : bool) (k : nat) (s : it) (o : option val) (s' : it) : Prop :=
  match o with
  | Some x => exists D, length D = k /\
                        (if back then elems s = elems s' ++ x :: D else elems s = D ++ x :: elems s')
  | None => length (elems s) <= k /\ elems s' = []
  end.

Lemma nth_spec_0 back s o s' : spec back s o s' -> nth_spec back 0 s o s'.
Proof.
  unfold spec, nth_spec. destruct o as [x|].
  - intros H. exists []. split; [reflexivity|]. destruct back; exact H.
  - intros [-> ->]. cbn. auto.
Qed.

Lemma nth_spec_None back k s s' : spec back s None s' -> nth_spec back k s None s'.
Proof. intros [H1 H2]. unfold nth_spec. rewrite H1. cbn. split; [lia | exact H2]. Qed.

Lemma nth_spec_S back k s x1 s1 o s' :
  spec back s (Some x1) s1 -> nth_spec back k s1 o s' -> nth_spec back (S k) s o s'.
Proof.
  unfold spec, nth_spec. intros Hs H. destruct o as [x|].
  - destruct H as (D & HD & HE). destruct back.
    + exists (D ++ [x1]). split; [rewrite app_length; cbn; lia|]. rewrite Hs, HE, <- app_assoc. reflexivity.
    + exists (x1 :: D). split; [cbn; lia|]. rewrite Hs, HE. reflexivity.
  - destruct H as [Hl He]. split; [|exact He]. destruct back; rewrite Hs; rewrite ?app_length; cbn [length]; lia.
Qed.

(* nx is a sound single call on the well-formed states of depth d *)
Definition sound_step (nx : it -> option val * it) (back b : bool) (d : nat) : Prop :=
  forall s o s', wfb b s -> depth s = d -> nx s = (o, s') -> spec back s o s' /\ wfb b s' /\ depth s' = d.

(* Iterator::nth / DoubleEndedIterator::nth_back over any sound single call *)
Lemma nth_by_sound nx back b d : sound_step nx back b d -> forall k s o s',
  wfb b s -> depth s = d -> nth_by nx k s = (o, s') -> nth_spec back k s o s' /\ wfb b s' /\ depth s' = d.
Proof.
  intros Hnx. induction k as [|k IH]; intros s o s' Hw Hd E; cbn [nth_by] in E.
  - destruct (Hnx s o s' Hw Hd E) as (Hs & H). split; [apply nth_spec_0; exact Hs | exact H].
  - destruct (nx s) as [o1 s1] eqn:E1. destruct (Hnx s o1 s1 Hw Hd E1) as (Hs & Hw1 & Hd1).
    destruct o1 as [x1|].
    + destruct (IH s1 o s' Hw1 Hd1 E) as (Hs2 & H). split; [exact (nth_spec_S _ _ _ _ _ _ _ Hs Hs2) | exact H].
    + injection E as <- <-. split; [apply nth_spec_None; exact Hs | auto].
Qed.

Lemma sound_at_step f back b d : sound_at f -> dir_ok back b -> d <= f -> sound_step (step f back) back b d.
Proof. intros Hf Hdir Hd s o s' Hw Hds E. subst d. exact (Hf s back b o s' Hdir Hw Hd E). Qed.

Lemma map_range_front {A} (h : nat -> A) a b : a < b -> map h (seq a (b - a)) = h a :: map h (seq (S a) (b - S a)).
Proof. intros H. replace (b - a) with (S (b - S a)) by lia. reflexivity. Qed.

Lemma map_range_back {A} (h : nat -> A) a b : a < b ->
  map h (seq a (b - a)) = map h (seq a (b - 1 - a)) ++ [h (b - 1)].
Proof.
  intros H. replace (b - a) with (S (b - 1 - a)) by lia. rewrite seq_S, map_app. cbn [map].
  replace (a + (b - 1 - a)) with (b - 1) by lia. reflexivity.
Qed.

Lemma firstn_len_app {A} (l1 l2 : list A) : firstn (length l1) (l1 ++ l2) = l1.
Proof. induction l1 as [|a l1 IH]; [destruct l2; reflexivity|]. cbn. f_equal. exact IH. Qed.
Lemma skipn_len_app {A} (l1 l2 : list A) : skipn (length l1) (l1 ++ l2) = l2.
Proof. induction l1 as [|a l1 IH]; [reflexivity|]. cbn. exact IH. Qed.

Lemma skipn_S_len_app {A} (l1 l2 : list A) x : skipn (S (length l1)) (l1 ++ x :: l2) = l2.
Proof. induction l1 as [|a l1 IH]; [reflexivity|]. cbn [length app]. rewrite skipn_cons. exact IH. Qed.

Lemma firstn_app_le {A} n (l1 l2 : list A) : n <= length l1 -> firstn n (l1 ++ l2) = firstn n l1.
Proof.
  intros H. rewrite firstn_app. replace (n - length l1) with 0 by lia. cbn. apply app_nil_r.
Qed.

Lemma drop_by_back f (Hf : sound_at f) : forall k i,
  wfb true i -> depth i <= f ->
  elems (drop_by (step f true) k i) = firstn (length (elems i) - k) (elems i)
  /\ wfb true (drop_by (step f true) k i) /\ depth (drop_by (step f true) k i) = depth i.
Proof.
  assert (Hdir : dir_ok true true) by (intros _; reflexivity).
  induction k as [|k IH]; intros i Hw Hd; cbn [drop_by].
  - rewrite Nat.sub_0_r, firstn_all. auto.
  - destruct (step f true i) as [o1 i1] eqn:E1. cbn [snd].
    destruct (Hf i true true o1 i1 Hdir Hw Hd E1) as (Hs & Hw1 & Hd1). unfold spec in Hs.
    destruct (IH i1 Hw1 ltac:(lia)) as (He & Hw2 & Hd2). split; [|split; [assumption|lia]].
    rewrite He. destruct o1 as [x1|].
    + rewrite Hs, app_length. cbn [length]. rewrite firstn_app_le by lia. f_equal. lia.
    + destruct Hs as [-> ->]. rewrite !firstn_nil. reflexivity.
Qed.

Lemma combine_app_eq {A B} (l1 l2 : list A) (m1 m2 : list B) :
  length l1 = length m1 -> combine (l1 ++ l2) (m1 ++ m2) = combine l1 m1 ++ combine l2 m2.
Proof.
  revert m1; induction l1 as [|a l1 IH]; intros [|b m1] H; try discriminate; [reflexivity|].
  cbn. f_equal. apply IH. cbn in H. lia.
Qed.

Ltac fin := split; [|split; [cbn [wfb]; tauto | cbn [depth]; lia]]; unfold spec in *; cbn [elems].

Lemma list_sound f l : sound_on (S f) (IList l).
Proof.
  intros back b o s' _ _ _ E. cbn [step] in E.
  destruct back, l as [|y l]; injection E as <- <-; cbn [spec elems wfb depth]; auto.
  split; [|auto]. exact (app_removelast_last (l:=y :: l) VNull ltac:(discriminate)).
Qed.

Lemma range_sound f a b0 : sound_on (S f) (IRange a b0).
Proof.
  intros back b o s' _ _ _ E. cbn [step] in E. destruct (a <? b0) eqn:Eab.
  - apply Nat.ltb_lt in Eab. destruct back; injection E as <- <-; cbn [spec elems wfb depth]; (split; [|auto]).
    + exact (map_range_back _ a b0 Eab).
    + exact (map_range_front _ a b0 Eab).
  - apply Nat.ltb_ge in Eab. injection E as <- <-. cbn [spec elems wfb depth].
    replace (b0 - a) with 0 by lia. cbn. auto.
Qed.

Lemma lin_sound f st sp index len : sound_on (S f) (ILin st sp index len).
Proof.
  intros back b o s' _ Hw _ E. cbn [step] in E. cbn [wfb] in Hw. destruct (len <=? index) eqn:El.
  - apply Nat.leb_le in El. injection E as <- <-. cbn [spec elems wfb depth].
    replace (len - index) with 0 by lia. cbn. auto.
  - apply Nat.leb_gt in El.
    destruct back; injection E as <- <-; cbn [spec elems wfb depth]; (split; [|split; [lia|reflexivity]]).
    + exact (map_range_back _ index len El).
    + exact (map_range_front _ index len El).
Qed.

Lemma repeat_sound f v n : sound_on (S f) (IRepeatN v n).
Proof.
  intros back b o s' _ _ _ E. cbn [step] in E.
  destruct n as [|m]; injection E as <- <-; cbn [spec elems wfb depth]; [cbn; auto|].
  split; [|auto]. destruct back; [symmetry; apply repeat_snoc | reflexivity].
Qed.

(* The arm a chain falls through to once its first part is exhausted is the step of the same chain with that
   part's flag cleared, so the flag-cleared case is proved first and the other one reduces to it. *)
Lemma chain_sound f la lb a b0 : sound_on f a -> sound_on f b0 -> sound_on (S f) (IChain la lb a b0).
Proof.
  intros Ha Hb back b o s' Hdir [Hwa Hwb] Hd E. cbn [depth] in Hd. destruct back.
  - (* next_back: b0 first, then a *)
    assert (Hrest : forall b1 o s', wfb b b1 -> depth b1 = depth b0 -> step (S f) true (IChain la false a b1) = (o, s') ->
              spec true (IChain la false a b1) o s' /\ wfb b s' /\ depth s' = depth (IChain la false a b1)).
    { clear o s' E. intros b1 o s' Hw1 Hd1 E. cbn [step] in E. destruct la.
      - destruct (step f true a) as [oa a'] eqn:Ea. injection E as <- <-.
        destruct (Ha true b oa a' Hdir Hwa ltac:(lia) Ea) as (Hsa & Hwa' & Hda').
        destruct oa as [x|]; fin; rewrite !app_nil_r; [exact Hsa | tauto].
      - injection E as <- <-. fin. cbn. auto. }
    destruct lb; [|exact (Hrest b0 o s' Hwb eq_refl E)].
    cbn [step] in E. destruct (step f true b0) as [ob b'] eqn:Eb.
    destruct (Hb true b ob b' Hdir Hwb ltac:(lia) Eb) as (Hsb & Hwb' & Hdb').
    destruct ob as [y|].
    + injection E as <- <-. fin. rewrite Hsb, app_assoc. reflexivity.
    + destruct Hsb as [Hb1 _]. destruct (Hrest b' o s' Hwb' Hdb' E) as (Hs & Hw' & Hd').
      split; [|split; [exact Hw' | rewrite Hd'; cbn [depth]; lia]].
      unfold spec in *. cbn [elems] in *. rewrite Hb1. exact Hs.
  - (* next: a first, then b0 *)
    assert (Hrest : forall a1 o s', wfb b a1 -> depth a1 = depth a -> step (S f) false (IChain false lb a1 b0) = (o, s') ->
              spec false (IChain false lb a1 b0) o s' /\ wfb b s' /\ depth s' = depth (IChain false lb a1 b0)).
    { clear o s' E. intros a1 o s' Hw1 Hd1 E. cbn [step] in E. destruct lb.
      - destruct (step f false b0) as [ob b'] eqn:Eb. injection E as <- <-.
        destruct (Hb false b ob b' Hdir Hwb ltac:(lia) Eb) as (Hsb & Hwb' & Hdb').
        destruct ob as [y|]; fin; cbn [app]; [exact Hsb | tauto].
      - injection E as <- <-. fin. cbn. auto. }
    destruct la; [|exact (Hrest a o s' Hwa eq_refl E)].
    cbn [step] in E. destruct (step f false a) as [oa a'] eqn:Ea.
    destruct (Ha false b oa a' Hdir Hwa ltac:(lia) Ea) as (Hsa & Hwa' & Hda').
    destruct oa as [x|].
    + injection E as <- <-. fin. rewrite Hsa. reflexivity.
    + destruct Hsa as [Ha1 _]. destruct (Hrest a' o s' Hwa' Hda' E) as (Hs & Hw' & Hd').
      split; [|split; [exact Hw' | rewrite Hd'; cbn [depth]; lia]].
      unfold spec in *. cbn [elems] in *. rewrite Ha1. exact Hs.
Qed.

Lemma take_sound f i n : sound_at f -> sound_on (S f) (ITake i n).
Proof.
  intros IHf back b o s' Hdir Hw Hd E. cbn [step] in E. cbn [wfb] in Hw. cbn [depth] in Hd.
  assert (Hdi : depth i <= f) by lia.
  destruct n as [|m].
  { injection E as <- <-. fin. destruct back; auto. }
  destruct back.
  - assert (b = true) as -> by (apply Hdir; reflexivity).
    destruct (nth_by (step f true) (fst (size_hint i) - S m) i) as [oi i'] eqn:Ei. injection E as <- <-.
    destruct (nth_by_sound _ true true _ (sound_at_step f true true _ IHf Hdir Hdi) _ i oi i' Hw eq_refl Ei)
      as (Hs & Hw' & Hd').
    rewrite (wfb_exact i (wfb_weaken _ Hw)) in Hs. cbn [fst] in Hs. unfold nth_spec in Hs.
    destruct oi as [x|]; fin.
    + (* the skipped items D are exactly those beyond the first S m *)
      destruct Hs as (D & HD & HE). rewrite HE in *. rewrite app_length in HD. cbn [length] in HD.
      rewrite firstn_app.
      rewrite (firstn_all2 (n:=S m)) by lia. rewrite (firstn_all2 (n:=m)) by lia. f_equal.
      replace (S m - length (elems i')) with (S (m - length (elems i'))) by lia. cbn [firstn]. f_equal.
      destruct D as [|d D]; [apply firstn_nil|]. cbn [length] in HD.
      replace (m - length (elems i')) with 0 by lia. reflexivity.
    + destruct Hs as [Hl He]. assert (Hz : length (elems i) = 0) by lia.
      destruct (elems i); [|discriminate]. rewrite He, !firstn_nil. auto.
  - destruct (step f false i) as [oi i'] eqn:Ei. injection E as <- <-.
    destruct (IHf i false b oi i' Hdir Hw Hdi Ei) as (Hs & Hw' & Hd').
    destruct oi as [x|]; fin.
    + rewrite Hs. reflexivity.
    + destruct Hs as [-> ->]. rewrite !firstn_nil. auto.
Qed.

Lemma skip_sound f i n : sound_at f -> sound_on (S f) (ISkip i n).
Proof.
  intros IHf back b o s' Hdir Hw Hd E. cbn [step] in E. cbn [wfb] in Hw. cbn [depth] in Hd.
  assert (Hdi : depth i <= f) by lia.
  destruct back.
  - assert (b = true) as -> by (apply Hdir; reflexivity).
    cbn [size_hint fst] in E. rewrite (wfb_exact i (wfb_weaken _ Hw)) in E. cbn [fst] in E.
    destruct (0 <? length (elems i) - n) eqn:Eg.
    + apply Nat.ltb_lt in Eg.
      destruct (step f true i) as [oi i'] eqn:Ei. injection E as <- <-.
      destruct (IHf i true true oi i' Hdir Hw Hdi Ei) as (Hs & Hw' & Hd').
      destruct oi as [x|]; fin.
      * rewrite Hs in *. rewrite app_length in Eg. cbn [length] in Eg.
        rewrite skipn_app. replace (n - length (elems i')) with 0 by lia. reflexivity.
      * destruct Hs as [Hs _]. rewrite Hs in Eg. cbn in Eg. lia.
    + apply Nat.ltb_ge in Eg. injection E as <- <-. fin.
      rewrite skipn_all2 by lia. auto.
  - destruct (nth_by (step f false) n i) as [oi i'] eqn:Ei. injection E as <- <-.
    destruct (nth_by_sound _ false b _ (sound_at_step f false b _ IHf Hdir Hdi) n i oi i' Hw eq_refl Ei)
      as (Hs & Hw' & Hd').
    unfold nth_spec in Hs. destruct oi as [x|]; fin; cbn [skipn].
    + destruct Hs as (D & HD & HE). rewrite HE, <- HD. apply skipn_len_app.
    + split; [apply skipn_all2|]; apply Hs.
Qed.

(* Zip::next_back first drops the surplus of the longer side from its back, so both sides are cut to the
   common length M before one item is taken from each. *)
Lemma zip_back_sound f a b0 o s' : sound_at f -> wfb true a -> wfb true b0 -> depth a <= f -> depth b0 <= f ->
  step (S f) true (IZip a b0) = (o, s') ->
  spec true (IZip a b0) o s' /\ wfb true s' /\ depth s' = depth (IZip a b0).
Proof.
  intros IHf Hwa Hwb Hda Hdb E. cbn [step] in E.
  assert (Hdir : dir_ok true true) by (intros _; reflexivity).
  rewrite (wfb_exact a (wfb_weaken _ Hwa)), (wfb_exact b0 (wfb_weaken _ Hwb)) in E. cbn [fst] in E.
  set (A := elems a) in *. set (B := elems b0) in *.
  destruct (drop_by_back f IHf (length A - length B) a Hwa Hda) as (Ea1 & Hwa1 & Hda1).
  destruct (drop_by_back f IHf (length B - length A) b0 Hwb Hdb) as (Eb1 & Hwb1 & Hdb1).
  fold A in Ea1. fold B in Eb1.
  set (a1 := drop_by (step f true) (length A - length B) a) in *.
  set (b1 := drop_by (step f true) (length B - length A) b0) in *.
  destruct (step f true a1) as [oa a2] eqn:Ea.
  destruct (step f true b1) as [ob b2] eqn:Eb.
  destruct (IHf a1 true true oa a2 Hdir Hwa1 ltac:(lia) Ea) as (Hsa & Hwa2 & Hda2).
  destruct (IHf b1 true true ob b2 Hdir Hwb1 ltac:(lia) Eb) as (Hsb & Hwb2 & Hdb2).
  unfold spec in Hsa, Hsb.
  set (M := Nat.min (length A) (length B)).
  replace (length A - (length A - length B)) with M in Ea1 by lia.
  replace (length B - (length B - length A)) with M in Eb1 by lia.
  assert (HAB : combine A B = combine (firstn M A) (firstn M B)).
  { rewrite <- combine_firstn. symmetry. apply firstn_all2. rewrite combine_length. lia. }
  assert (La : length (elems a1) = M) by (rewrite Ea1, firstn_length; lia).
  assert (Lb : length (elems b1) = M) by (rewrite Eb1, firstn_length; lia).
  destruct oa as [x|], ob as [y|]; injection E as <- <-;
    (split; [|split; [cbn [wfb]; tauto | cbn [depth]; lia]]); unfold spec; cbn [elems]; fold A; fold B;
    rewrite HAB, <- Ea1, <- Eb1.
  - rewrite Hsa, Hsb in *. rewrite app_length in La, Lb. cbn [length] in La, Lb.
    rewrite combine_app_eq by lia. rewrite map_app. reflexivity.
  - destruct Hsb as [Hb1 Hb2]. rewrite Hsa in La. rewrite Hb1 in Lb. rewrite app_length in La. cbn in La, Lb. lia.
  - destruct Hsa as [Ha1 Ha2]. rewrite Hsb in Lb. rewrite Ha1 in La. rewrite app_length in Lb. cbn in La, Lb. lia.
  - destruct Hsa as [Ha1 Ha2]. rewrite Ha1, Ha2. cbn. auto.
Qed.

Lemma zip_sound f a b0 : sound_at f -> sound_on (S f) (IZip a b0).
Proof.
  intros IHf back b o s' Hdir [Hwa Hwb] Hd E. cbn [depth] in Hd.
  assert (Hda : depth a <= f) by lia. assert (Hdb : depth b0 <= f) by lia.
  destruct back.
  - assert (b = true) as -> by (apply Hdir; reflexivity).
    exact (zip_back_sound f a b0 o s' IHf Hwa Hwb Hda Hdb E).
  - cbn [step] in E. destruct (step f false a) as [oa a'] eqn:Ea.
    destruct (IHf a false b oa a' Hdir Hwa Hda Ea) as (Hsa & Hwa' & Hda').
    destruct oa as [x|].
    + destruct (step f false b0) as [ob b'] eqn:Eb.
      destruct (IHf b0 false b ob b' Hdir Hwb Hdb Eb) as (Hsb & Hwb' & Hdb').
      destruct ob as [y|]; injection E as <- <-; fin.
      * rewrite Hsa, Hsb. reflexivity.
      * destruct Hsb as [-> ->]. rewrite !combine_nil. auto.
    + injection E as <- <-. fin. destruct Hsa as [-> ->]. auto.
Qed.

Lemma map_sound f g i : sound_on f i -> sound_on (S f) (IMap g i).
Proof.
  intros Hi back b o s' Hdir Hw Hd E. cbn [step] in E. cbn [wfb] in Hw. cbn [depth] in Hd.
  destruct (step f back i) as [oi i'] eqn:Ei. injection E as <- <-.
  destruct (Hi back b oi i' Hdir Hw ltac:(lia) Ei) as (Hs & Hw' & Hd').
  destruct oi as [x|]; cbn [option_map]; fin.
  - destruct back; rewrite Hs; [rewrite map_app|]; reflexivity.
  - destruct Hs as [-> ->]. auto.
Qed.

Lemma maps_sound f g st i : sound_on f i -> sound_on (S f) (IMapS g st i).
Proof.
  intros Hi back b o s' Hdir [-> Hw] Hd E. cbn [depth] in Hd.
  assert (back = false) as -> by (destruct back; [discriminate (Hdir eq_refl) | reflexivity]).
  cbn [step] in E. destruct (step f false i) as [oi i'] eqn:Ei.
  destruct (Hi false false oi i' Hdir Hw ltac:(lia) Ei) as (Hs & Hw' & Hd').
  destruct oi as [x|].
  - destruct (g st x) as [st' y] eqn:Eg. injection E as <- <-. fin.
    rewrite Hs. cbn [run]. rewrite Eg. reflexivity.
  - injection E as <- <-. fin. destruct Hs as [-> ->]. auto.
Qed.

Lemma rev_sound f i : sound_on f i -> sound_on (S f) (IRev i).
Proof.
  intros Hi back b o s' _ Hw Hd E. cbn [step] in E. cbn [wfb] in Hw. cbn [depth] in Hd.
  destruct (step f (negb back) i) as [oi i'] eqn:Ei. injection E as <- <-.
  assert (Hdir' : dir_ok (negb back) true) by (intros _; reflexivity).
  destruct (Hi (negb back) true oi i' Hdir' Hw ltac:(lia) Ei) as (Hs & Hw' & Hd').
  destruct oi as [x|]; fin.
  - destruct back; cbn [negb] in Hs; rewrite Hs; [reflexivity | apply rev_app_distr].
  - destruct Hs as [-> ->]. auto.
Qed.

Lemma enum_sound f i k : sound_on f i -> sound_on (S f) (IEnum i k).
Proof.
  intros Hi back b o s' Hdir Hw Hd E. cbn [step] in E. cbn [wfb] in Hw. cbn [depth] in Hd.
  destruct (step f back i) as [oi i'] eqn:Ei.
  destruct (Hi back b oi i' Hdir Hw ltac:(lia) Ei) as (Hs & Hw' & Hd').
  destruct oi as [x|].
  - destruct back; injection E as <- <-; fin.
    + rewrite (wfb_exact i' (wfb_front _ _ Hw')). cbn [fst].
      rewrite Hs, app_length. cbn [length]. rewrite Nat.add_1_r, seq_S.
      rewrite combine_app_eq by (rewrite seq_length; reflexivity). rewrite map_app. reflexivity.
    + rewrite Hs. reflexivity.
  - injection E as <- <-. fin. destruct Hs as [-> ->]. auto.
Qed.

Lemma pad_sound f la i v n : sound_on f i -> sound_on (S f) (IPad la i v n).
Proof.
  intros Hi back b o s' Hdir [-> Hw] Hd E. cbn [depth] in Hd.
  assert (back = false) as -> by (destruct back; [discriminate (Hdir eq_refl) | reflexivity]).
  cbn [step] in E. destruct n as [|m].
  { injection E as <- <-. fin. auto. }
  destruct la.
  - destruct (step f false i) as [oi i'] eqn:Ei.
    destruct (Hi false false oi i' Hdir Hw ltac:(lia) Ei) as (Hs & Hw' & Hd').
    destruct oi as [x|]; injection E as <- <-; fin.
    + rewrite Hs. reflexivity.
    + destruct Hs as [-> _]. cbn. rewrite Nat.sub_0_r, firstn_nil. reflexivity.
  - injection E as <- <-. fin. cbn. rewrite Nat.sub_0_r, firstn_nil. reflexivity.
Qed.

Lemma trust_sound f i len : sound_on f i -> sound_on (S f) (ITrust i len).
Proof.
  intros Hi back b o s' Hdir [Hl Hw] Hd E. cbn [step] in E. cbn [depth] in Hd.
  destruct (step f back i) as [oi i'] eqn:Ei. injection E as <- <-.
  destruct (Hi back b oi i' Hdir Hw ltac:(lia) Ei) as (Hs & Hw' & Hd').
  split; [exact Hs | split; [|cbn [depth]; lia]].
  cbn [wfb]. split; [|exact Hw']. unfold spec in Hs. destruct oi as [x|].
  - destruct back; rewrite Hs in Hl; rewrite ?app_length in Hl; cbn [length] in Hl; lia.
  - destruct Hs as [Hs1 Hs2]. rewrite Hs1 in Hl. rewrite Hs2. exact Hl.
Qed.

Lemma box_sound f i : sound_on f i -> sound_on (S f) (IBox i).
Proof.
  intros Hi back b o s' Hdir Hw Hd E. cbn [step] in E. cbn [wfb] in Hw. cbn [depth] in Hd.
  destruct (step f back i) as [oi i'] eqn:Ei. injection E as <- <-.
  destruct (Hi back b oi i' Hdir Hw ltac:(lia) Ei) as (Hs & Hw' & Hd').
  fin. exact Hs.
Qed.

Lemma step_sound : forall f, sound_at f.
Proof.
  induction f as [|f IHf]; intros s.
  { intros back b o s' _ _ Hd. destruct s; cbn [depth] in Hd; lia. }
  destruct s;
    [ apply list_sound | apply range_sound | apply repeat_sound | apply chain_sound | apply take_sound
    | apply skip_sound | apply zip_sound | apply map_sound | apply maps_sound | apply rev_sound
    | apply enum_sound | apply pad_sound | apply trust_sound | apply lin_sound | apply box_sound ];
    solve [exact IHf | apply IHf].
Qed.

(* ---- next / next_back with the canonical fuel -------------------------------------------------- *)
Lemma nextd_sound back b s o s' :
  dir_ok back b -> wfb b s -> nextd back s = (o, s') ->
  spec back s o s' /\ wfb b s' /\ depth s' = depth s.
Proof.
  intros Hdir Hw E. unfold nextd in E.
  eapply (step_sound (depth s)); eauto.
Qed.


(* what plain safe iteration (call next() until None) yields *)
Inductive yields : it -> list val -> Prop :=
| Y_done s s' : next s = (None, s') -> yields s []
| Y_item s x s' l : next s = (Some x, s') -> yields s' l -> yields s (x :: l).

Lemma yields_fun s l1 : yields s l1 -> forall l2, yields s l2 -> l1 = l2.
Proof.
  induction 1 as [s s' E | s x s' l E Hy IH]; intros l2 H2; inversion H2 as [t t' E2 | t y t' l' E2 Hy2]; subst.
  - reflexivity.
  - rewrite E in E2. discriminate.
  - rewrite E in E2. discriminate.
  - rewrite E in E2. injection E2 as <- <-. f_equal. apply IH. exact Hy2.
Qed.

Lemma dir_front b : dir_ok false b.
Proof. intros H. discriminate. Qed.

Lemma yields_elems_aux : forall n s, wfb false s -> length (elems s) = n -> yields s (elems s).
Proof.
  induction n as [|n IH]; intros s Hw Hl; destruct (next s) as [o s'] eqn:E;
    destruct (nextd_sound false false s o s' (dir_front false) Hw E) as (Hs & Hw' & _); unfold spec in Hs;
    destruct o as [x|].
  - rewrite Hs in Hl. discriminate.
  - destruct Hs as [Hs _]. rewrite Hs. eapply Y_done. exact E.
  - rewrite Hs. eapply Y_item; [exact E|]. apply IH; [exact Hw'|]. rewrite Hs in Hl. cbn in Hl. lia.
  - destruct Hs as [Hs _]. rewrite Hs in Hl. discriminate.
Qed.

Lemma yields_elems s : wfb false s -> yields s (elems s).
Proof. intros Hw. exact (yields_elems_aux _ s Hw eq_refl). Qed.

Lemma yields_is_elems s l : wfb false s -> yields s l -> l = elems s.
Proof. intros Hw Hy. exact (yields_fun s l Hy _ (yields_elems s Hw)). Qed.

Lemma consume_wf b : forall cs s, (forall c, In c cs -> dir_ok c b) -> wfb b s -> wfb b (consume cs s).
Proof.
  induction cs as [|c cs IH]; intros s Hc Hw; [exact Hw|].
  cbn [consume]. destruct (nextd c s) as [o s'] eqn:E. cbn [snd].
  apply IH; [intros c' Hin; apply Hc; right; exact Hin|].
  destruct (nextd_sound c b s o s' (Hc c (or_introl eq_refl)) Hw E) as (_ & Hw' & _). exact Hw'.
Qed.

(* the central statement: after any admissible consumption the announced bounds are the true count *)
Lemma hint_exact_consume b cs s l :
  (forall c, In c cs -> dir_ok c b) -> wfb b s -> yields (consume cs s) l ->
  size_hint (consume cs s) = (length l, Some (length l)).
Proof.
  intros Hc Hw Hy. pose proof (wfb_front _ _ (consume_wf b cs s Hc Hw)) as Hw'.
  rewrite (yields_is_elems _ _ Hw' Hy). apply wfb_exact. exact Hw'.
Qed.

Lemma fronts_ok b k : forall c, In c (repeat false k) -> dir_ok c b.
Proof. intros c Hin. apply repeat_spec in Hin. subst c. apply dir_front. Qed.

Lemma all_dirs_ok cs : forall c : bool, In c cs -> dir_ok c true.
Proof. intros c _ _. reflexivity. Qed.

(* the executable drain agrees with the relation *)
Lemma drain_n_elems : forall k s, wfb false s -> length (elems s) < k -> drain_n k s = elems s.
Proof.
  induction k as [|k IH]; intros s Hw Hl; [lia|].
  cbn [drain_n]. destruct (next s) as [o s'] eqn:E.
  destruct (nextd_sound false false s o s' (dir_front false) Hw E) as (Hs & Hw' & _). unfold spec in Hs.
  destruct o as [x|].
  - rewrite Hs. f_equal. apply IH; [exact Hw'|]. rewrite Hs in Hl. cbn in Hl. lia.
  - destruct Hs as [Hs _]. rewrite Hs. reflexivity.
Qed.

Lemma drain_elems s : wfb false s -> drain s = elems s.
Proof. intros Hw. unfold drain. apply drain_n_elems; [exact Hw | lia]. Qed.

(* ---- the raw collector -------------------------------------------------------------------------- *)
(* the moving pointer stores the items in slot order until the buffer is full *)
Lemma write_all_spec : forall items pre old,
  write_all (pre ++ old) (length pre) items
  = if length items <=? length old then Some (pre ++ map Some items ++ skipn (length items) old) else None.
Proof.
  induction items as [|x r IH]; intros pre old; [reflexivity|]. cbn [write_all length].
  destruct old as [|c old].
  - rewrite app_nil_r, Nat.ltb_irrefl. reflexivity.
  - replace (length pre <? length (pre ++ c :: old)) with true
      by (symmetry; apply Nat.ltb_lt; rewrite app_length; cbn [length]; lia).
    rewrite firstn_len_app, skipn_S_len_app.
    specialize (IH (pre ++ [Some x]) old). rewrite app_length, Nat.add_1_r, <- app_assoc in IH.
    cbn [app length Nat.leb map skipn] in *. rewrite IH. destruct (length r <=? length old); rewrite <- ?app_assoc; reflexivity.
Qed.

Lemma skipn_repeat {A} (v : A) : forall k n, skipn k (repeat v n) = repeat v (n - k).
Proof. induction k as [|k IH]; intros [|n]; try reflexivity. cbn [repeat skipn Nat.sub]. apply IH. Qed.

Lemma all_init_map : forall l, all_init (map Some l) = Some l.
Proof. induction l as [|a l IH]; [reflexivity|]. cbn. rewrite IH. reflexivity. Qed.

Lemma all_init_app_None l rest : all_init (map Some l ++ None :: rest) = None.
Proof. induction l as [|a l IH]; [reflexivity|]. cbn. rewrite IH. reflexivity. Qed.

(* capacity below the number of items: heap overflow; above: never-written slots; equal: the items *)
Lemma collect_items_spec cap items :
  collect_items (Some cap) items
  = if length items <=? cap
    then if cap <=? length items then CDone items
         else CUninit (map Some items ++ repeat None (cap - length items))
    else COverflow cap (length items).
Proof.
  unfold collect_items. pose proof (write_all_spec items [] (repeat None cap)) as H.
  cbn [app length] in H. rewrite H, repeat_length, skipn_repeat.
  destruct (length items <=? cap) eqn:E; [|reflexivity]. apply Nat.leb_le in E.
  destruct (cap <=? length items) eqn:E2.
  - apply Nat.leb_le in E2. replace (cap - length items) with 0 by lia. cbn [repeat].
    rewrite app_nil_r, all_init_map. reflexivity.
  - apply Nat.leb_gt in E2. destruct (cap - length items) as [|k] eqn:Ek; [lia|].
    cbn [repeat]. rewrite all_init_app_None. reflexivity.
Qed.

Lemma collect_items_exact items : collect_items (Some (length items)) items = CDone items.
Proof. rewrite collect_items_spec, !Nat.leb_refl. reflexivity. Qed.

Lemma collect_raw_safe s : wfb false s -> collect_raw s = CDone (elems s).
Proof.
  intros Hw. unfold collect_raw. rewrite (drain_elems s Hw), (wfb_exact s Hw). cbn [snd].
  apply collect_items_exact.
Qed.

(* ---- the adaptors keep well-formedness and (where they claim to) the length ---------------------- *)
Lemma tlen_exact s : wfb false s -> tlen s = Ok (length (elems s)).
Proof. intros Hw. unfold tlen. rewrite (wfb_exact s Hw). reflexivity. Qed.

Lemma nabs_lt len n : len_le_nabs len n = false -> n_abs n < len.
Proof. unfold len_le_nabs, n_abs. intros H. apply Z.leb_gt in H. lia. Qed.

(* the call r returns a state that is well formed for direction b and has n items *)
Definition builds (b : bool) (n : nat) (r : res it) : Prop :=
  exists s', r = Ok s' /\ wfb b s' /\ length (elems s') = n.

Lemma builds_ok b n s : wfb b s -> length (elems s) = n -> builds b n (Ok s).
Proof. intros Hw Hl. exists s. auto. Qed.

Lemma shift_wfb b n v s : wfb b s -> builds b (length (elems s)) (shift n v s).
Proof.
  intros Hw. unfold shift. rewrite (tlen_exact s (wfb_front _ _ Hw)). cbn [bind].
  destruct (len_le_nabs (length (elems s)) n) eqn:Eg.
  { apply builds_ok; [exact I | apply repeat_length]. }
  apply nabs_lt in Eg. destruct (0 <? n)%Z; [|destruct (n <? 0)%Z].
  - rewrite usub_ok by lia. cbn [bind]. apply builds_ok; cbn [wfb elems]; autorewrite with iter_len; repeat split; try assumption; lia.
  - apply builds_ok; cbn [wfb elems]; autorewrite with iter_len; repeat split; try assumption; lia.
  - apply builds_ok; [exact Hw | reflexivity].
Qed.

Lemma lag_nonpos_wf b h na value xs : na < length xs ->
  wfb b (lag_nonpos h na value xs) /\ length (elems (lag_nonpos h na value xs)) = length xs.
Proof. intros Hlt. unfold lag_nonpos. cbn [wfb elems]. autorewrite with iter_len. repeat split; auto; lia. Qed.

Lemma vdiff_wfb b n value xs : builds b (length xs) (vdiff n value xs).
Proof.
  unfold vdiff. cbv zeta. destruct (len_le_nabs (length xs) n) eqn:Eg.
  { apply builds_ok; [exact I | apply repeat_length]. }
  apply nabs_lt in Eg. destruct (0 <? n)%Z.
  - rewrite usub_ok by lia. cbn [bind]. apply builds_ok; cbn [wfb elems]; autorewrite with iter_len; repeat split; auto; lia.
  - apply builds_ok; apply (lag_nonpos_wf b _ _ _ _ Eg).
Qed.

Lemma vpct_change_wfb b n xs : builds b (length xs) (vpct_change n xs).
Proof.
  unfold vpct_change. cbv zeta. destruct (len_le_nabs (length xs) n) eqn:Eg.
  { apply builds_ok; [exact I | apply repeat_length]. }
  apply nabs_lt in Eg. destruct (0 <? n)%Z.
  - rewrite usub_ok by lia. cbn [bind]. apply builds_ok; cbn [wfb elems]; autorewrite with iter_len; repeat split; auto; lia.
  - apply builds_ok; apply (lag_nonpos_wf b _ _ _ _ Eg).
Qed.

Lemma ffill_wf v s : wfb false s -> wfb false (ffill v s) /\ length (elems (ffill v s)) = length (elems s).
Proof. intros Hw. cbn [ffill wfb elems]. rewrite run_length. auto. Qed.

Lemma fill_wf b v s : wfb b s -> wfb b (fill v s) /\ length (elems (fill v s)) = length (elems s).
Proof. intros Hw. cbn [fill wfb elems]. rewrite map_length. auto. Qed.

Lemma vabs_wf b s : wfb b s -> wfb b (vabs s) /\ length (elems (vabs s)) = length (elems s).
Proof. intros Hw. cbn [vabs wfb elems]. rewrite map_length. auto. Qed.

Lemma vclip_wf b lo hi s : wfb b s -> wfb b (vclip lo hi s) /\ length (elems (vclip lo hi s)) = length (elems s).
Proof.
  intros Hw. unfold vclip. destruct (not_none lo), (not_none hi); cbn [wfb elems]; rewrite ?map_length; auto.
Qed.

Lemma bfill_wf v s : wfb true s -> builds true (length (elems s)) (bfill v s).
Proof.
  intros Hw. unfold bfill.
  assert (Hw2 : wfb false (IMapS (fill_f v) VNull (IRev s))) by (cbn [wfb]; auto).
  rewrite (collect_raw_safe _ Hw2). apply builds_ok; [exact I|]. cbn [elems]. autorewrite with iter_len. reflexivity.
Qed.

Lemma vcut_wfb b tmin tmax bins labels right add s s' : wfb b s ->
  vcut tmin tmax bins labels right add s = Some s' -> wfb b s' /\ length (elems s') = length (elems s).
Proof.
  intros Hw. unfold vcut.
  destruct add; [destruct (negb (length labels =? length bins + 1)) | destruct (negb (length labels + 1 =? length bins))];
    intros E; try discriminate; injection E as <-; cbn [wfb elems]; rewrite map_length; auto.
Qed.

Lemma pad_length la i v n : length (elems (IPad la i v n)) = n.
Proof. cbn [elems]. cbv zeta. rewrite app_length, firstn_length, repeat_length. lia. Qed.

Lemma vpartition_wf kth sort xs :
  wfb false (vpartition kth sort xs) /\ length (elems (vpartition kth sort xs)) = kth + 1.
Proof.
  unfold vpartition.
  destruct (andb (count_valid xs =? kth + 1) (negb sort)) eqn:E1.
  { apply andb_true_iff in E1. destruct E1 as [E1 _]. apply Nat.eqb_eq in E1.
    cbn [wfb elems]. unfold count_valid in E1. auto. }
  destruct (count_valid xs <=? kth + 1) eqn:E2.
  { destruct (negb sort); (split; [cbn [wfb]; rewrite pad_length; auto | apply (pad_length true)]). }
  apply Nat.leb_gt in E2. cbn [wfb elems]. rewrite firstn_length.
  unfold count_valid in E2. pose proof (filter_length_le not_none xs). repeat split; lia.
Qed.

Lemma varg_partition_wf kth sort xs :
  wfb false (varg_partition kth sort xs) /\ length (elems (varg_partition kth sort xs)) = kth + 1.
Proof.
  unfold varg_partition.
  destruct (count_valid xs <=? kth + 1) eqn:E2.
  { destruct (negb sort); (split; [cbn [wfb]; rewrite pad_length; auto | apply (pad_length true)]). }
  apply Nat.leb_gt in E2. cbn [wfb elems]. rewrite firstn_length, map_length, seq_length.
  unfold count_valid in E2. pose proof (filter_length_le not_none xs). repeat split; lia.
Qed.

Lemma winsorize_wf xs : wfb true (winsorize xs) /\ length (elems (winsorize xs)) = length xs.
Proof. cbn. rewrite map_length. auto. Qed.

Lemma rolling_wfb w xs : 1 <= w ->
  exists s', rolling_custom_iter w xs = Ok s' /\ wfb true s' /\ length (elems s') = length xs /\
             size_hint s' = (length xs, Some (length xs)).
Proof.
  intros Hw. unfold rolling_custom_iter. rewrite usub_ok by exact Hw. cbn [bind].
  eexists. split; [reflexivity|]. cbn [wfb elems size_hint]. autorewrite with iter_len. repeat split; auto; lia.
Qed.

Lemma rolling_wf w xs : 1 <= w ->
  exists s', rolling_custom_iter w xs = Ok s' /\ wfb false s' /\ length (elems s') = length xs.
Proof.
  intros Hw. destruct (rolling_wfb w xs Hw) as (s' & E & Hs & Hl & _). exists s'. auto using wfb_weaken.
Qed.

Lemma linspace_wf a b n : wfb true (linspace a b n) /\ length (elems (linspace a b n)) = n.
Proof. cbn. rewrite map_length, seq_length. split; lia. Qed.

Lemma range_f_wf a b st : wfb true (range_f a b st).
Proof. cbn. lia. Qed.

Lemma range_i_wf a b st s : range_i a b st = Ok s -> wfb true s.
Proof.
  unfold range_i. destruct (andb (negb (range_empty a b st)) (st =? 0)%Z); [discriminate|].
  intros E. injection E as <-. cbn. lia.
Qed.

(* the count of `range`: nothing when the direction is empty, else ceil((b - a) / step) *)
Lemma range_count_spec a b st : (st <> 0)%Z ->
  (range_empty a b st = true -> range_count a b st = 0) /\
  (range_empty a b st = false ->
     let c := Z.of_nat (range_count a b st) in
     (0 < c /\ Z.abs st * (c - 1) < Z.abs (b - a) <= Z.abs st * c)%Z).
Proof.
  intros Hst. unfold range_count. split; intros He; rewrite He; [reflexivity|].
  replace (st =? 0)%Z with false by (symmetry; apply Z.eqb_neq; exact Hst).
  cbv zeta. unfold range_empty in He.
  assert (Hd : (0 < Z.abs (b - a))%Z).
  { destruct (0 <? st)%Z; [apply Z.leb_gt in He | apply Z.leb_gt in He]; lia. }
  assert (Hs : (0 < Z.abs st)%Z) by lia.
  set (d := Z.abs (b - a)) in *. set (s := Z.abs st) in *.
  pose proof (Z.div_mod (d + s - 1) s ltac:(lia)) as Hdm.
  pose proof (Z.mod_pos_bound (d + s - 1) s Hs) as Hm.
  assert (Hq : (0 < (d + s - 1) / s)%Z) by (apply Z.div_str_pos; lia).
  rewrite Z2Nat.id by lia. nia.
Qed.

Lemma create_safe s : wfb false s -> create s = CDone (elems s).
Proof.
  intros Hw. unfold create. rewrite collect_raw_safe by (cbn [wfb]; exact Hw).
  cbn [elems]. rewrite map_id. reflexivity.
Qed.

(* ---- pipelines of the adaptor grammar ----------------------------------------------------------- *)
Lemma apply_stage_wf g s s' : wfb false s -> apply_stage g s = Ok s' -> wfb false s'.
Proof.
  intros Hw. destruct g; cbn [apply_stage].
  - destruct (shift_wfb false n v s Hw) as (t & E & Ht & _). rewrite E. intros X. injection X as <-. exact Ht.
  - unfold vshift. destruct (shift_wfb false n (match v with Some v => v | None => VNull end) s Hw) as (t & E & Ht & _).
    rewrite E. intros X. injection X as <-. exact Ht.
  - intros X. injection X as <-. apply ffill_wf. exact Hw.
  - intros X. injection X as <-. apply fill_wf. exact Hw.
  - intros X. injection X as <-. apply vclip_wf. exact Hw.
  - intros X. injection X as <-. apply vabs_wf. exact Hw.
  - intros X. injection X as <-. cbn [wfb]. auto.
  - intros X. injection X as <-. cbn [wfb]. auto.
  - intros X. injection X as <-. cbn [wfb]. auto.
  - intros X. injection X as <-. cbn [wfb]. auto.
  - intros X. injection X as <-. cbn [wfb]. auto.
  - rewrite (tlen_exact s Hw). cbn [bind]. intros X. injection X as <-. cbn [wfb]. auto.
  - intros X. injection X as <-. apply consume_wf; [apply fronts_ok | exact Hw].
Qed.

Lemma apply_stages_wf : forall gs s s', wfb false s -> apply_stages gs s = Ok s' -> wfb false s'.
Proof.
  induction gs as [|g gs IH]; intros s s' Hw E; cbn [apply_stages] in E.
  - injection E as <-. exact Hw.
  - destruct (apply_stage g s) as [t|k] eqn:Eg; cbn [bind] in E; [|discriminate].
    apply (IH (IBox t) s'); [|exact E]. cbn [wfb]. exact (apply_stage_wf g s t Hw Eg).
Qed.

Lemma build_source_wf src s : build_source src = Ok s -> wfb false s.
Proof.
  destruct src; cbn [build_source]; intros E.
  - injection E as <-. exact I.
  - injection E as <-. exact I.
  - destruct (bfill_wf value (IList xs) I) as (t & Et & Ht & _). rewrite Et in E. injection E as <-.
    apply wfb_weaken. exact Ht.
  - destruct (vdiff_wfb false n value xs) as (t & Et & Ht & _).
    rewrite Et in E. injection E as <-. exact Ht.
  - destruct w as [|w].
    + cbn in E. discriminate.
    + destruct (rolling_wf (S w) xs) as (t & Et & Ht & _); [lia|]. rewrite Et in E. cbn [bind] in E.
      injection E as <-. cbn [wfb]. exact Ht.
  - injection E as <-. apply wfb_weaken. apply linspace_wf.
  - injection E as <-. exact I.
Qed.

Lemma build_wf src gs s : build src gs = Ok s -> wfb false s.
Proof.
  unfold build. destruct (build_source src) as [t|k] eqn:Es; cbn [bind]; [|discriminate].
  intros E. apply (apply_stages_wf gs (IBox t)); [|exact E]. cbn [wfb]. exact (build_source_wf src t Es).
Qed.

Lemma collect_after_consume b cs s l :
  (forall c, In c cs -> dir_ok c b) -> wfb b s -> yields (consume cs s) l ->
  collect_raw (consume cs s) = CDone l.
Proof.
  intros Hc Hw Hy. pose proof (wfb_front _ _ (consume_wf b cs s Hc Hw)) as Hw'.
  rewrite (yields_is_elems _ _ Hw' Hy). apply collect_raw_safe. exact Hw'.
Qed.

(* ==== nth / nth_back / last / count / instruction scripts / StepBy ================================== *)

Lemma nthd_sound back b : dir_ok back b -> forall k s o s',
  wfb b s -> nthd back k s = (o, s') -> nth_spec back k s o s' /\ wfb b s' /\ depth s' = depth s.
Proof.
  intros Hdir k s o s' Hw E. refine (nth_by_sound (nextd back) back b _ _ k s o s' Hw eq_refl E).
  intros t o1 t1 Hwt <- E1. exact (nextd_sound back b t o1 t1 Hdir Hwt E1).
Qed.

(* k+1 unconditional calls have the same effect on a well-formed state (an exhausted state stays exhausted) *)
Lemma calls_sound back b : dir_ok back b -> forall k s o s',
  wfb b s -> calls back k s = (o, s') -> nth_spec back k s o s' /\ wfb b s'.
Proof.
  intros Hdir. induction k as [|k IH]; intros s o s' Hw E; cbn [calls] in E.
  - destruct (nextd_sound back b s o s' Hdir Hw E) as (Hs & Hw' & _). split; [apply nth_spec_0; exact Hs | exact Hw'].
  - destruct (nextd back s) as [o1 s1] eqn:E1. cbn [snd] in E.
    destruct (nextd_sound back b s o1 s1 Hdir Hw E1) as (Hs & Hw1 & _).
    destruct (IH s1 o s' Hw1 E) as (Hs2 & Hw2). split; [|exact Hw2].
    destruct o1 as [x1|]; [exact (nth_spec_S _ _ _ _ _ _ _ Hs Hs2)|].
    destruct Hs as [Hn1 Hn2]. unfold nth_spec in *. rewrite Hn2 in Hs2. destruct o as [x|].
    + exfalso. destruct Hs2 as (D & _ & HE). destruct back; [destruct (elems s') | destruct D]; discriminate.
    + rewrite Hn1. cbn. split; [lia | apply Hs2].
Qed.

(* the closed form: the k-th item from the front (back), the rest after (before) it *)
Lemma nth_spec_closed back k s o s' : nth_spec back k s o s' ->
  o = nth_error (if back then rev (elems s) else elems s) k /\
  elems s' = (if back then firstn (length (elems s) - S k) (elems s) else skipn (S k) (elems s)).
Proof.
  unfold nth_spec. destruct o as [x|].
  - intros (D & HD & HE). destruct back; rewrite HE; subst k.
    + split.
      * rewrite rev_app_distr. cbn [rev]. rewrite <- app_assoc. cbn [app].
        rewrite nth_error_app2 by (rewrite rev_length; lia). rewrite rev_length, Nat.sub_diag. reflexivity.
      * rewrite app_length. cbn [length].
        replace (length (elems s') + S (length D) - S (length D)) with (length (elems s')) by lia.
        symmetry. apply firstn_len_app.
    + split.
      * rewrite nth_error_app2 by lia. rewrite Nat.sub_diag. reflexivity.
      * symmetry. apply skipn_S_len_app.
  - intros [Hl He]. rewrite He. destruct back.
    + split.
      * symmetry. apply nth_error_None. rewrite rev_length. exact Hl.
      * replace (length (elems s) - S k) with 0 by lia. reflexivity.
    + split.
      * symmetry. apply nth_error_None. exact Hl.
      * symmetry. apply skipn_all2. lia.
Qed.

Lemma nthd_closed back b k s : dir_ok back b -> wfb b s ->
  fst (nthd back k s) = nth_error (if back then rev (elems s) else elems s) k /\
  elems (snd (nthd back k s)) =
    (if back then firstn (length (elems s) - S k) (elems s) else skipn (S k) (elems s)) /\
  wfb b (snd (nthd back k s)).
Proof.
  intros Hdir Hw. destruct (nthd back k s) as [o s'] eqn:E. cbn [fst snd].
  destruct (nthd_sound back b Hdir k s o s' Hw E) as (Hs & Hw' & _).
  destruct (nth_spec_closed back k s o s' Hs) as [H1 H2]. auto.
Qed.

(* nth k = k+1 x next, on EVERY state (no well-formedness): literally, with advance_by's early exit ... *)
Lemma iter_swap {A} (f : A -> A) n x : Nat.iter n f (f x) = f (Nat.iter n f x).
Proof.
  induction n as [|n IH]; [reflexivity|].
  change (f (Nat.iter n f (f x)) = f (f (Nat.iter n f x))). rewrite IH. reflexivity.
Qed.

Lemma iter_fix {A} (f : A -> A) n x : f x = x -> Nat.iter n f x = x.
Proof.
  intros H. induction n as [|n IH]; [reflexivity|].
  change (f (Nat.iter n f x) = x). rewrite IH. exact H.
Qed.

Lemma nthd_iter back : forall k s, nthd back k s = Nat.iter k (and_next back) (nextd back s).
Proof.
  unfold nthd. induction k as [|k IH]; intros s; [reflexivity|].
  cbn [nth_by]. destruct (nextd back s) as [o s1] eqn:E1. destruct o as [x|].
  - rewrite IH. change (Nat.iter (S k) (and_next back) (Some x, s1))
      with (and_next back (Nat.iter k (and_next back) (Some x, s1))).
    rewrite <- iter_swap. reflexivity.
  - symmetry. apply iter_fix. reflexivity.
Qed.

(* ... and without the early exit whenever an item is returned *)
Lemma nthd_some_calls back : forall k s x s', nthd back k s = (Some x, s') -> calls back k s = (Some x, s').
Proof.
  unfold nthd. induction k as [|k IH]; intros s x s' E; cbn [nth_by calls] in *; [exact E|].
  destruct (nextd back s) as [o s1]. cbn [snd]. destruct o as [y|]; [apply IH; exact E | discriminate].
Qed.

(* when nth returns None it stopped at the first None of the k+1 calls *)
Lemma nthd_none_calls back : forall k s s', nthd back k s = (None, s') ->
  exists j, j <= k /\ calls back j s = (None, s').
Proof.
  unfold nthd. induction k as [|k IH]; intros s s' E; cbn [nth_by] in E.
  - exists 0. split; [lia | exact E].
  - destruct (nextd back s) as [o s1] eqn:E1. destruct o as [y|].
    + destruct (IH s1 s' E) as (j & Hj & Hc). exists (S j). split; [lia|]. cbn [calls]. rewrite E1. exact Hc.
    + injection E as <-. exists 0. split; [lia | exact E1].
Qed.

(* ---- instruction scripts ---------------------------------------------------------------------- *)
Lemma exec_sound b c s : dir_ok (instr_back c) b -> wfb b s -> wfb b (snd (exec c s)).
Proof.
  intros Hd Hw. destruct c; cbn [exec instr_back] in *.
  - destruct (next s) as [o s'] eqn:E. destruct (nextd_sound false b s o s' Hd Hw E) as (_ & H & _). exact H.
  - destruct (next_back s) as [o s'] eqn:E. destruct (nextd_sound true b s o s' Hd Hw E) as (_ & H & _). exact H.
  - unfold nth_it. destruct (nthd false k s) as [o s'] eqn:E.
    destruct (nthd_sound false b Hd k s o s' Hw E) as (_ & H & _). exact H.
  - unfold nth_back_it. destruct (nthd true k s) as [o s'] eqn:E.
    destruct (nthd_sound true b Hd k s o s' Hw E) as (_ & H & _). exact H.
Qed.

Lemma run_script_wf b : forall cs s, (forall c, In c cs -> dir_ok (instr_back c) b) -> wfb b s ->
  wfb b (run_script cs s).
Proof.
  induction cs as [|c cs IH]; intros s Hc Hw; [exact Hw|]. cbn [run_script].
  apply IH; [intros c' Hin; apply Hc; right; exact Hin|].
  apply exec_sound; [apply Hc; left; reflexivity | exact Hw].
Qed.

Lemma hint_exact_script_drain b cs s :
  (forall c, In c cs -> dir_ok (instr_back c) b) -> wfb b s ->
  size_hint (run_script cs s) =
    (length (drain (run_script cs s)), Some (length (drain (run_script cs s)))).
Proof.
  intros Hc Hw. pose proof (wfb_front _ _ (run_script_wf b cs s Hc Hw)) as Hw'.
  rewrite (drain_elems _ Hw'). apply wfb_exact. exact Hw'.
Qed.

(* the abstract sequence after a script: each instruction cuts the front or the back *)
Definition cut (c : instr) (l : list val) : list val :=
  match c with
  | INext => skipn 1 l
  | INextBack => firstn (length l - 1) l
  | INth k => skipn (S k) l
  | INthBack k => firstn (length l - S k) l
  end.

Lemma exec_elems b c s : dir_ok (instr_back c) b -> wfb b s -> elems (snd (exec c s)) = cut c (elems s).
Proof.
  intros Hd Hw. destruct c; cbn [exec instr_back cut] in *.
  - exact (proj1 (proj2 (nthd_closed false b 0 s Hd Hw))).
  - exact (proj1 (proj2 (nthd_closed true b 0 s Hd Hw))).
  - exact (proj1 (proj2 (nthd_closed false b k s Hd Hw))).
  - exact (proj1 (proj2 (nthd_closed true b k s Hd Hw))).
Qed.

Lemma run_script_elems b : forall cs s, (forall c, In c cs -> dir_ok (instr_back c) b) -> wfb b s ->
  elems (run_script cs s) = fold_left (fun l c => cut c l) cs (elems s).
Proof.
  induction cs as [|c cs IH]; intros s Hc Hw; [reflexivity|]. cbn [run_script fold_left].
  rewrite IH; [| intros c' Hin; apply Hc; right; exact Hin
               | apply exec_sound; [apply Hc; left; reflexivity | exact Hw]].
  rewrite (exec_elems b c s (Hc c (or_introl eq_refl)) Hw). reflexivity.
Qed.

(* ---- fold / last / count ------------------------------------------------------------------------ *)
Lemma fold_n_sound {A} back b (f : A -> val -> A) : dir_ok back b -> forall fuel s acc,
  wfb b s -> length (elems s) < fuel ->
  fst (fold_n fuel back f acc s) = fold_left f (if back then rev (elems s) else elems s) acc /\
  elems (snd (fold_n fuel back f acc s)) = [] /\ wfb b (snd (fold_n fuel back f acc s)).
Proof.
  intros Hdir. induction fuel as [|fuel IH]; intros s acc Hw Hl; [lia|].
  cbn [fold_n]. destruct (nextd back s) as [o s1] eqn:E1.
  destruct (nextd_sound back b s o s1 Hdir Hw E1) as (Hs & Hw1 & _). unfold spec in Hs.
  destruct o as [x|].
  - assert (Hl1 : length (elems s1) < fuel).
    { destruct back; rewrite Hs in Hl; rewrite ?app_length in Hl; cbn [length] in Hl; lia. }
    destruct (IH s1 (f acc x) Hw1 Hl1) as (H1 & H2 & H3). split; [|auto]. rewrite H1.
    destruct back; rewrite Hs; [rewrite rev_app_distr|]; reflexivity.
  - destruct Hs as [Hs1 Hs2]. cbn [fst snd]. rewrite Hs1. destruct back; cbn; auto.
Qed.

Lemma fold_left_last (l : list val) : forall a,
  fold_left (fun (_ : option val) x => Some x) l a = match rev l with [] => a | x :: _ => Some x end.
Proof.
  induction l as [|y l IH] using rev_ind; intros a; [reflexivity|].
  rewrite fold_left_app, rev_app_distr. reflexivity.
Qed.

Lemma fold_left_count (l : list val) : forall a, fold_left (fun n (_ : val) => S n) l a = a + length l.
Proof. induction l as [|y l IH]; intros a; cbn [fold_left length]; [lia|]. rewrite IH. lia. Qed.

Lemma last_it_sound s : wfb false s ->
  fst (last_it s) = nth_error (rev (elems s)) 0 /\ elems (snd (last_it s)) = [] /\
  size_hint (snd (last_it s)) = (0, Some 0).
Proof.
  intros Hw. unfold last_it, fold_it.
  destruct (fold_n_sound false false (fun (_ : option val) x => Some x) (dir_front false)
              (S (length (elems s))) s None Hw ltac:(lia)) as (H1 & H2 & H3).
  rewrite H1, fold_left_last. split; [destruct (rev (elems s)); reflexivity|]. split; [exact H2|].
  rewrite (wfb_exact _ H3), H2. reflexivity.
Qed.

Lemma count_it_sound s : wfb false s ->
  fst (count_it s) = length (elems s) /\ size_hint s = (fst (count_it s), Some (fst (count_it s))) /\
  size_hint (snd (count_it s)) = (0, Some 0).
Proof.
  intros Hw. unfold count_it, fold_it.
  destruct (fold_n_sound false false (fun n (_ : val) => S n) (dir_front false)
              (S (length (elems s))) s 0 Hw ltac:(lia)) as (H1 & H2 & H3).
  rewrite H1, fold_left_count. cbn [Nat.add]. split; [reflexivity|]. split; [apply wfb_exact; exact Hw|].
  rewrite (wfb_exact _ H3), H2. reflexivity.
Qed.

(* fold visits exactly the items plain iteration yields, in order (rfold: in reverse order) *)
Lemma fold_it_sound {A} back b (f : A -> val -> A) acc s : dir_ok back b -> wfb b s ->
  fst (fold_it back f acc s) = fold_left f (if back then rev (elems s) else elems s) acc /\
  elems (snd (fold_it back f acc s)) = [].
Proof.
  intros Hdir Hw. unfold fold_it.
  destruct (fold_n_sound back b f Hdir (S (length (elems s))) s acc Hw ltac:(lia)) as (H1 & H2 & _). auto.
Qed.

(* ---- Skip::next is nth on the inner iterator ------------------------------------------------------ *)
Lemma nth_by_fuel b : forall k s, wfb b s ->
  nth_by (step (depth s) false) k s = nth_by (nextd false) k s.
Proof.
  induction k as [|k IH]; intros s Hw; cbn [nth_by]; [reflexivity|].
  change (step (depth s) false s) with (nextd false s).
  destruct (nextd false s) as [o s1] eqn:E1.
  destruct (nextd_sound false b s o s1 (dir_front b) Hw E1) as (_ & Hw1 & Hd1).
  destruct o as [x|]; [|reflexivity]. rewrite <- Hd1. apply IH. exact Hw1.
Qed.

(* ---- StepBy over a well-formed state --------------------------------------------------------------- *)
Definition sb_wf (t : stepby) : Prop := wfb false (sb_iter t).

Lemma sb_next_sound t : sb_wf t ->
  fst (sb_next t) = nth_error (elems (sb_iter t)) (if sb_first t then 0 else sb_step1 t) /\
  elems (sb_iter (snd (sb_next t))) = skipn (S (if sb_first t then 0 else sb_step1 t)) (elems (sb_iter t)) /\
  sb_wf (snd (sb_next t)) /\ sb_first (snd (sb_next t)) = false /\ sb_step1 (snd (sb_next t)) = sb_step1 t.
Proof.
  intros Hw. unfold sb_next, nth_it.
  destruct (nthd_closed false false (if sb_first t then 0 else sb_step1 t) (sb_iter t) (dir_front false) Hw)
    as (H1 & H2 & H3).
  destruct (nthd false (if sb_first t then 0 else sb_step1 t) (sb_iter t)) as [o i'].
  cbn [fst snd sb_iter sb_first sb_step1] in *. unfold sb_wf. cbn [sb_iter]. auto.
Qed.

Lemma sb_consume_wf : forall k t, sb_wf t -> sb_wf (sb_consume k t).
Proof.
  induction k as [|k IH]; intros t Hw; [exact Hw|]. cbn [sb_consume]. apply IH.
  exact (proj1 (proj2 (proj2 (sb_next_sound t Hw)))).
Qed.

Lemma sb_drain_n_length : forall fuel t, sb_wf t -> length (elems (sb_iter t)) < fuel ->
  length (sb_drain_n fuel t) = sb_size (sb_first t) (sb_step1 t) (length (elems (sb_iter t))).
Proof.
  induction fuel as [|fuel IH]; intros t Hw Hl; [lia|].
  cbn [sb_drain_n]. destruct (sb_next_sound t Hw) as (H1 & H2 & H3 & H4 & H5).
  destruct (sb_next t) as [o t']. cbn [fst snd] in *.
  set (n := length (elems (sb_iter t))) in *. set (k := if sb_first t then 0 else sb_step1 t) in *.
  destruct o as [x|].
  - assert (Hk : k < n) by (apply nth_error_Some; rewrite <- H1; discriminate).
    cbn [length]. rewrite IH; [| exact H3 | rewrite H2, skipn_length; fold n; lia].
    rewrite H4, H5, H2, skipn_length. fold n. unfold sb_size. subst k. destruct (sb_first t).
    + destruct (Nat.eqb_spec n 0) as [Hz|Hz]; [lia|]. reflexivity.
    + set (c := sb_step1 t + 1) in *.
      replace n with ((n - S (sb_step1 t)) + 1 * c) at 2 by (unfold c; lia).
      rewrite Nat.div_add by (unfold c; lia). lia.
  - symmetry in H1. apply nth_error_None in H1. fold n in H1. cbn [length]. unfold sb_size. subst k.
    destruct (sb_first t).
    + replace n with 0 by lia. reflexivity.
    + symmetry. apply Nat.div_small. lia.
Qed.

Lemma sb_hint_exact t : sb_wf t ->
  sb_size_hint t = (length (sb_drain t), Some (length (sb_drain t))).
Proof.
  intros Hw. unfold sb_size_hint, sb_drain. rewrite (wfb_exact _ Hw). cbn [fst snd option_map].
  rewrite sb_drain_n_length by (auto; lia). reflexivity.
Qed.

Lemma step_by_wf n s t : wfb false s -> step_by n s = Ok t -> sb_wf t.
Proof.
  unfold step_by. intros Hw. destruct (n =? 0); [discriminate|]. intros E. injection E as <-. exact Hw.
Qed.

(* what a StepBy yields: every (step)-th element of what its source yields *)
Lemma every_nth_fuel st : forall f1 f2 l, length l <= f1 -> length l <= f2 ->
  every_nth f1 st l = every_nth f2 st l.
Proof.
  induction f1 as [|f1 IH]; intros f2 l H1 H2.
  - destruct l; [|cbn in H1; lia]. destruct f2; reflexivity.
  - destruct l as [|x r]; [destruct f2; reflexivity|]. destruct f2 as [|f2]; [cbn in H2; lia|].
    cbn [every_nth]. f_equal. cbn [length] in *. apply IH; rewrite skipn_length; lia.
Qed.

Lemma skipn_nth_error {A} : forall k (l : list A) x, nth_error l k = Some x -> skipn k l = x :: skipn (S k) l.
Proof.
  induction k as [|k IH]; intros [|y l] x H; try discriminate.
  - injection H as <-. reflexivity.
  - cbn [nth_error] in H. rewrite skipn_cons. rewrite (IH l x H). reflexivity.
Qed.

Lemma sb_drain_n_elems : forall fuel t, sb_wf t -> length (elems (sb_iter t)) < fuel ->
  sb_drain_n fuel t = sb_elems t.
Proof.
  induction fuel as [|fuel IH]; intros t Hw Hl; [lia|].
  cbn [sb_drain_n]. destruct (sb_next_sound t Hw) as (H1 & H2 & H3 & H4 & H5).
  destruct (sb_next t) as [o t']. cbn [fst snd] in *. unfold sb_elems. cbv zeta.
  set (l := elems (sb_iter t)) in *.
  destruct o as [x|].
  - assert (Hk : (if sb_first t then 0 else sb_step1 t) < length l)
      by (apply nth_error_Some; rewrite <- H1; discriminate).
    rewrite IH; [| exact H3 | rewrite H2, skipn_length; lia].
    unfold sb_elems. cbv zeta. rewrite H4, H5, H2. symmetry in H1.
    destruct (sb_first t).
    + destruct l as [|y r]; [discriminate|]. cbn [nth_error] in H1. injection H1 as ->.
      cbn [length every_nth skipn]. f_equal.
    + rewrite (skipn_nth_error _ _ _ H1).
      destruct (length l) as [|n'] eqn:En; [lia|]. cbn [every_nth]. f_equal.
      apply every_nth_fuel; rewrite !skipn_length; lia.
  - symmetry in H1. apply nth_error_None in H1. destruct (sb_first t).
    + destruct l; [reflexivity | cbn in H1; lia].
    + rewrite skipn_all2 by exact H1. destruct (length l); reflexivity.
Qed.

Lemma sb_drain_elems t : sb_wf t -> sb_drain t = sb_elems t.
Proof. intros Hw. unfold sb_drain. apply sb_drain_n_elems; [exact Hw | lia]. Qed.

(* step_by 1 is the identity on the yielded sequence *)
Lemma every_nth_0 : forall f l, length l <= f -> every_nth f 0 l = l.
Proof.
  induction f as [|f IH]; intros [|x r] H; try reflexivity; [cbn in H; lia|].
  cbn [every_nth skipn]. f_equal. apply IH. cbn in H. lia.
Qed.
