(* Proofs/AggOrder.v — vmin / vmax / vargmin / vargmax and the plain min / max / argmin / argmax, through the folds
   `vext` / `varg` over an arbitrary "better" test.
   With no hypothesis on the comparison: the arg-result indexes a valid element holding the value result.
   For a comparison that is asymmetric and co-transitive on the valid values (a strict weak order: reals
   inside XR, integers, binary64 with +0 / -0): the value result is a least element of the valid values, the
   arg-result is the index IN THE INPUT (nulls counted) of the FIRST occurrence of one.  Axiom-free.        *)
From Coq Require Import Lia List Permutation Bool.
From Tevec Require Import Base.Prelude Base.Num Model.Agg Proofs.AggGeneric.
Import ListNotations.
Set Implicit Arguments.

Lemma fold_left_ext {X S} (f g : S -> X -> S) (l : list X) (s : S) :
  (forall s x, f s x = g s x) -> fold_left f l s = fold_left g l s.
Proof. intros H. revert s. induction l as [|x l IH]; intros s; cbn; [reflexivity|]. rewrite H. apply IH. Qed.

(* plain arg-extrema = the valid ones under the never-null dictionary *)
Lemma parg_is_varg {A} (better : A -> A -> bool) (xs : list A) :
  parg better xs = varg (DT := IsNone_plain) better xs.
Proof.
  unfold parg, varg.
  rewrite (fold_left_ext (parg_step better) (arg_step (DT := IsNone_plain) better)); [reflexivity|].
  intros [[e i] c] x. reflexivity.
Qed.
Lemma vals_plain {A} (xs : list A) : vals (DT := IsNone_plain) xs = xs.
Proof.
  unfold vals, valid_elems. cbn. induction xs as [|x xs IH]; [reflexivity|]. cbn. rewrite IH. reflexivity.
Qed.

Section Snoc.
  Context {X : Type}.
  Lemma nth_error_snoc_last (pre : list X) v : nth_error (pre ++ [v]) (length pre) = Some v.
  Proof. rewrite nth_error_app2, Nat.sub_diag by lia. reflexivity. Qed.
  Lemma nth_error_snoc_keep (pre : list X) v i u : nth_error pre i = Some u -> nth_error (pre ++ [v]) i = Some u.
  Proof. intros H. rewrite nth_error_app1; [exact H|]. apply nth_error_Some. rewrite H. discriminate. Qed.
  Lemma nth_error_snoc_cases (pre : list X) v j w :
    nth_error (pre ++ [v]) j = Some w -> (j < length pre /\ nth_error pre j = Some w) \/ (j = length pre /\ w = v).
  Proof.
    intros H. destruct (Nat.lt_ge_cases j (length pre)) as [L|L].
    - left. split; [exact L|]. rewrite nth_error_app1 in H by exact L. exact H.
    - right. rewrite nth_error_app2 in H by exact L. destruct (j - length pre) as [|k] eqn:E.
      + cbn in H. injection H as <-. split; [lia|reflexivity].
      + cbn in H. destruct k; discriminate.
  Qed.
End Snoc.

Section ArgExt.
  Context {A T : Type} {DT : IsNone T A}.
  Variable better : A -> A -> bool.

  Definition ext_step (acc : option A) (x : T) : option A :=
    match acc with None => Some (unwrap x) | Some e => if better e (unwrap x) then Some (unwrap x) else Some e end.
  Definition vext (xs : list T) : option A := vfold ext_step None xs.
  Definition arg_state (xs : list T) : option A * option nat * nat := fold_left (arg_step better) xs (None, None, 0).

  (* the arg fold carries the value fold in its first component and the length in its last; its index, if
     any, is that of a valid element holding the value *)
  Definition pinv (pre : list T) (st : option A * option nat * nat) : Prop :=
    let '(ext, idx, cur) := st in
    cur = length pre /\ ext = vext pre /\
    match ext, idx with
    | None, None => forall v, In v pre -> not_none v = false
    | Some m, Some i => exists v, nth_error pre i = Some v /\ not_none v = true /\ unwrap v = m
    | _, _ => False
    end.

  Lemma vext_snoc pre v : vext (pre ++ [v]) = if not_none v then ext_step (vext pre) v else vext pre.
  Proof. unfold vext, vfold. rewrite fold_left_app. reflexivity. Qed.

  Lemma pinv_step pre st v : pinv pre st -> pinv (pre ++ [v]) (arg_step better st v).
  Proof.
    destruct st as [[ext idx] cur]. intros (-> & -> & Hm). unfold arg_step, pinv.
    rewrite vext_snoc, app_length, Nat.add_1_r. destruct (not_none v) eqn:Ev.
    - assert (New : exists u, nth_error (pre ++ [v]) (length pre) = Some u /\ not_none u = true /\ unwrap u = unwrap v).
      { exists v. split; [apply nth_error_snoc_last|]. split; [exact Ev|reflexivity]. }
      destruct (vext pre) as [m|], idx as [i|]; try contradiction; cbn [ext_step].
      + destruct (better m (unwrap v)); (split; [reflexivity|]); (split; [reflexivity|]); [exact New|].
        destruct Hm as (u & Hu & Hun). exists u. split; [apply nth_error_snoc_keep, Hu|exact Hun].
      + split; [reflexivity|]. split; [reflexivity|]. exact New.
    - split; [reflexivity|]. split; [reflexivity|].
      destruct (vext pre) as [m|], idx as [i|]; try contradiction.
      + destruct Hm as (u & Hu & Hun). exists u. split; [apply nth_error_snoc_keep, Hu|exact Hun].
      + intros w Hw. apply in_app_or in Hw. destruct Hw as [Hw|[<-|[]]]; [apply Hm, Hw|exact Ev].
  Qed.

  Lemma pinv_state xs : pinv xs (arg_state xs).
  Proof.
    unfold arg_state. induction xs as [|v xs IH] using rev_ind.
    - split; [reflexivity|]. split; [reflexivity|]. intros v [].
    - rewrite fold_left_app. apply pinv_step, IH.
  Qed.

  Lemma no_valid_vals (xs : list T) : (forall v, In v xs -> not_none v = false) -> vals xs = [].
  Proof.
    intros H. destruct (vals xs) as [|a l] eqn:E; [reflexivity|].
    assert (Ha : In a (vals xs)) by (rewrite E; left; reflexivity).
    apply In_vals in Ha. destruct Ha as (v & Hv & Hn & _). rewrite (H v Hv) in Hn. discriminate.
  Qed.

  Theorem varg_points_at_vext (xs : list T) :
    match varg better xs with
    | None => vals xs = [] /\ vext xs = None
    | Some i => exists v, nth_error xs i = Some v /\ not_none v = true /\ vext xs = Some (unwrap v)
    end.
  Proof.
    unfold varg. fold (arg_state xs). pose proof (pinv_state xs) as H.
    destruct (arg_state xs) as [[ext idx] cur]. cbn [fst snd]. destruct H as (_ & He & Hm).
    destruct ext as [m|], idx as [i|]; try contradiction.
    - destruct Hm as (v & Hv & Hn & Hvm). exists v. split; [exact Hv|]. split; [exact Hn|]. rewrite <- He, Hvm. reflexivity.
    - split; [apply no_valid_vals, Hm|symmetry; exact He].
  Qed.
  Corollary varg_none (xs : list T) : vals xs = [] -> varg better xs = None.
  Proof.
    intros V. pose proof (varg_points_at_vext xs) as P. destruct (varg better xs); [|reflexivity].
    destruct P as (v & Hv & Hn & _). assert (H : In (unwrap v) (vals xs)); [|rewrite V in H; destruct H].
    apply In_vals. exists v. split; [eapply nth_error_In, Hv|]. split; [exact Hn|reflexivity].
  Qed.
End ArgExt.

Section ArgExtInst.
  Context {A T : Type} {NA : Num A} {DT : IsNone T A}.
  Lemma vmin_is_vext (xs : list T) : vmin xs = vext (fun e v => nltb v e) xs.
  Proof.
    unfold vmin, vext, vfold. apply fold_left_ext. intros acc v. destruct (not_none v); [|reflexivity].
    unfold ext_step, min_with. destruct acc as [e|]; [|reflexivity]. destruct (nltb (unwrap v) e); reflexivity.
  Qed.
  Lemma vmax_is_vext (xs : list T) : vmax xs = vext (fun e v => nltb e v) xs.
  Proof.
    unfold vmax, vext, vfold. apply fold_left_ext. intros acc v. destruct (not_none v); [|reflexivity].
    unfold ext_step, max_with. destruct acc as [e|]; [|reflexivity]. destruct (nltb e (unwrap v)); reflexivity.
  Qed.
End ArgExtInst.

Record WeakOrder {A} (lt : A -> A -> bool) (ok : A -> Prop) : Prop := {
  wo_asym : forall a b, ok a -> ok b -> lt a b = true -> lt b a = false;
  wo_cotrans : forall a b c, ok a -> ok b -> ok c -> lt a b = true -> lt a c = true \/ lt c b = true }.
Arguments wo_asym {A lt ok} _ {a b}.
Arguments wo_cotrans {A lt ok} _ {a b c}.

(* the converse order, for maxima *)
Lemma wo_flip {A} (lt : A -> A -> bool) ok : WeakOrder lt ok -> WeakOrder (fun a b => lt b a) ok.
Proof.
  intros [Has Hco]. split.
  - intros a b Ha Hb. apply Has; assumption.
  - intros a b c Ha Hb Hc H. destruct (Hco b a c Hb Ha Hc H) as [G|G]; [right|left]; exact G.
Qed.

Section AllOk.
  Context {A : Type} (ok : A -> Prop) {T : Type} {DT : IsNone T A}.
  Definition all_ok (xs : list T) : Prop := forall v, In v xs -> not_none v = true -> ok (unwrap v).

  Lemma all_ok_perm xs ys : Permutation xs ys -> all_ok xs -> all_ok ys.
  Proof. intros HP H v Hv. apply H. eapply Permutation_in; [apply Permutation_sym|]; eassumption. Qed.
  Lemma all_ok_nth xs : all_ok xs -> forall j w, nth_error xs j = Some w -> not_none w = true -> ok (unwrap w).
  Proof. intros H j w Hj. apply H. eapply nth_error_In, Hj. Qed.
  Lemma all_ok_vals xs a : all_ok xs -> In a (vals xs) -> ok a.
  Proof. intros H Ha. apply In_vals in Ha. destruct Ha as (v & Hv & Hn & <-). exact (H v Hv Hn). Qed.
End AllOk.
Arguments all_ok_perm {A ok T DT xs ys} _ _.
Arguments all_ok_nth {A ok T DT xs} _ j {w} _ _.
Arguments all_ok_vals {A ok T DT xs a} _ _.
Lemma all_ok_plain {A} (ok : A -> Prop) (l : list A) : Forall ok l -> all_ok ok (DT := IsNone_plain) l.
Proof. intros H v Hv _. rewrite Forall_forall in H. exact (H v Hv). Qed.

Section FirstExt.
  Context {A T : Type} {DT : IsNone T A}.
  Variable lt : A -> A -> bool.
  Variable ok : A -> Prop.
  Hypothesis W : WeakOrder lt ok.
  Local Notation better := (fun e x : A => lt x e).

  Lemma wo_irrefl a : ok a -> lt a a = false.
  Proof. intros Ha. destruct (lt a a) eqn:E; [|reflexivity]. pose proof (wo_asym W Ha Ha E). congruence. Qed.

  (* m, cached with index i, is not above any valid element of pre and strictly below those before i *)
  Definition ext_at (pre : list T) (m : A) (i : nat) : Prop :=
    (forall j w, nth_error pre j = Some w -> not_none w = true -> lt (unwrap w) m = false) /\
    (forall j w, j < i -> nth_error pre j = Some w -> not_none w = true -> lt m (unwrap w) = true).

  (* the cached extreme stays when the next element is null or not strictly better: ties keep the FIRST *)
  Lemma ext_at_keep pre v m i :
    i < length pre -> (not_none v = true -> lt (unwrap v) m = false) -> ext_at pre m i -> ext_at (pre ++ [v]) m i.
  Proof.
    intros Hi Hv [Hall Hbef]. split.
    - intros j w Hj Hw. destruct (nth_error_snoc_cases _ _ _ Hj) as [[_ Hj']|[_ ->]]; [exact (Hall j w Hj' Hw)|exact (Hv Hw)].
    - intros j w Hlt Hj Hw. destruct (nth_error_snoc_cases _ _ _ Hj) as [[_ Hj']|[-> _]]; [exact (Hbef j w Hlt Hj' Hw)|lia].
  Qed.
  (* the next element takes over when it is strictly below every valid element so far *)
  Lemma ext_at_new pre v :
    ok (unwrap v) -> (forall j w, nth_error pre j = Some w -> not_none w = true -> lt (unwrap v) (unwrap w) = true /\ ok (unwrap w)) ->
    ext_at (pre ++ [v]) (unwrap v) (length pre).
  Proof.
    intros Hv Hpre. split.
    - intros j w Hj Hw. destruct (nth_error_snoc_cases _ _ _ Hj) as [[_ Hj']|[_ ->]]; [|apply wo_irrefl, Hv].
      destruct (Hpre j w Hj' Hw) as [L Hokw]. exact (wo_asym W Hv Hokw L).
    - intros j w Hlt Hj Hw. destruct (nth_error_snoc_cases _ _ _ Hj) as [[_ Hj']|[-> _]]; [apply (Hpre j w Hj' Hw)|lia].
  Qed.

  Definition oinv (pre : list T) (st : option A * option nat * nat) : Prop :=
    match st with (Some m, Some i, _) => ok m /\ ext_at pre m i | _ => True end.

  Lemma oinv_step pre st v :
    all_ok ok (pre ++ [v]) -> pinv better pre st -> oinv pre st -> oinv (pre ++ [v]) (arg_step better st v).
  Proof.
    intros Hok Hp Ho.
    assert (Hokpre : forall j w, nth_error pre j = Some w -> not_none w = true -> ok (unwrap w)).
    { intros j w Hj. apply (all_ok_nth Hok j), nth_error_snoc_keep, Hj. }
    assert (Hokv : not_none v = true -> ok (unwrap v)) by apply (all_ok_nth Hok (length pre)), nth_error_snoc_last.
    destruct st as [[[m|] [i|]] cur]; destruct Hp as (-> & _ & Hm); try contradiction; unfold arg_step.
    - destruct Hm as (u & Hu & _), Ho as [Hokm E].
      assert (Hi : i < length pre) by (apply nth_error_Some; rewrite Hu; discriminate).
      destruct (not_none v) eqn:Ev; [|split; [exact Hokm|apply ext_at_keep; [exact Hi|rewrite Ev; discriminate|exact E]]].
      specialize (Hokv eq_refl). destruct (lt (unwrap v) m) eqn:Eb.
      + (* strictly better than the cached extreme, hence than everything the cached one is not above *)
        split; [exact Hokv|]. apply ext_at_new; [exact Hokv|]. intros j w Hj Hw.
        split; [|exact (Hokpre j w Hj Hw)].
        destruct (wo_cotrans W Hokv Hokm (Hokpre j w Hj Hw) Eb) as [L|L]; [exact L|].
        rewrite (proj1 E j w Hj Hw) in L. discriminate.
      + split; [exact Hokm|]. apply ext_at_keep; [exact Hi|intros _; exact Eb|exact E].
    - destruct (not_none v) eqn:Ev; [|exact I]. specialize (Hokv eq_refl).
      split; [exact Hokv|]. apply ext_at_new; [exact Hokv|]. intros j w Hj Hw.
      rewrite (Hm w (nth_error_In _ _ Hj)) in Hw. discriminate.
  Qed.

  Lemma oinv_state xs : all_ok ok xs -> oinv xs (arg_state better xs).
  Proof.
    unfold arg_state. induction xs as [|v xs IH] using rev_ind; intros Hok; [exact I|].
    rewrite fold_left_app. apply oinv_step; [exact Hok|apply pinv_state|].
    apply IH. intros w Hw. apply Hok, in_or_app. left. exact Hw.
  Qed.

  (* the results are read through any relations the comparison reflects into (<= and < of the carrier) *)
  Variables leP ltP : A -> A -> Prop.
  Hypothesis le_ok : forall a b, ok a -> ok b -> lt b a = false -> leP a b.
  Hypothesis lt_ok : forall a b, ok a -> ok b -> lt a b = true -> ltP a b.

  Theorem varg_first xs : all_ok ok xs ->
    match varg better xs with
    | None => vals xs = []
    | Some i => exists v, nth_error xs i = Some v /\ not_none v = true /\
        (forall j w, nth_error xs j = Some w -> not_none w = true -> leP (unwrap v) (unwrap w)) /\
        (forall j w, j < i -> nth_error xs j = Some w -> not_none w = true -> ltP (unwrap v) (unwrap w))
    end.
  Proof.
    intros Hok. unfold varg. fold (arg_state better xs).
    pose proof (pinv_state better xs) as Hp. pose proof (oinv_state Hok) as Ho.
    destruct (arg_state better xs) as [[[m|] [i|]] cur]; destruct Hp as (_ & _ & Hm); try contradiction; cbn [fst snd].
    - destruct Hm as (v & Hv & Hn & <-), Ho as (Hokv & Hall & Hbef). exists v. split; [exact Hv|]. split; [exact Hn|]. split.
      + intros j w Hj Hw. exact (le_ok Hokv (all_ok_nth Hok j Hj Hw) (Hall j w Hj Hw)).
      + intros j w Hlt Hj Hw. exact (lt_ok Hokv (all_ok_nth Hok j Hj Hw) (Hbef j w Hlt Hj Hw)).
    - apply no_valid_vals, Hm.
  Qed.

  Theorem vext_least xs : all_ok ok xs ->
    match vext better xs with
    | None => vals xs = []
    | Some m => In m (vals xs) /\ forall x, In x (vals xs) -> leP m x
    end.
  Proof.
    intros Hok. pose proof (varg_first Hok) as F. pose proof (varg_points_at_vext better xs) as P.
    destruct (varg better xs) as [i|]; [|destruct P as [V ->]; exact V].
    destruct P as (v & Hv & Hn & ->), F as (v' & Hv' & _ & Hall & _). rewrite Hv in Hv'. injection Hv' as <-. split.
    - apply In_vals. exists v. split; [eapply nth_error_In, Hv|]. split; [exact Hn|reflexivity].
    - intros x Hx. apply In_vals in Hx. destruct Hx as (w & Hw & Hwn & <-).
      apply In_nth_error in Hw. destruct Hw as [j Hj]. exact (Hall j w Hj Hwn).
  Qed.
End FirstExt.
Arguments varg_first {A T DT lt ok} W leP ltP le_ok lt_ok {xs} _.
Arguments vext_least {A T DT lt ok} W leP ltP le_ok lt_ok {xs} _.

(* extremes of two arrangements of the same elements are equivalent: neither is below the other; read through any
   relation R that equivalence implies (equality on a total order, `neqb` on a weak one) *)
Theorem vext_perm {A T} {DT : IsNone T A} (lt : A -> A -> bool) ok (W : WeakOrder lt ok) (R : A -> A -> Prop) :
  (forall a b, ok a -> ok b -> lt a b = false -> lt b a = false -> R a b) ->
  forall xs ys : list T, all_ok ok xs -> Permutation xs ys ->
  match vext (fun e x => lt x e) xs, vext (fun e x => lt x e) ys with
  | None, None => True | Some a, Some b => R a b | _, _ => False end.
Proof.
  intros HR xs ys Hok HP. pose proof (all_ok_perm HP Hok) as Hok'. pose proof (vals_perm HP) as HV.
  pose proof (vext_least W (fun a b => lt b a = false) (fun a b => lt a b = true) (fun _ _ _ _ H => H) (fun _ _ _ _ H => H) Hok) as S1.
  pose proof (vext_least W (fun a b => lt b a = false) (fun a b => lt a b = true) (fun _ _ _ _ H => H) (fun _ _ _ _ H => H) Hok') as S2.
  destruct (vext _ xs) as [a|], (vext _ ys) as [b|]; [| | |exact I].
  - destruct S1 as [I1 L1], S2 as [I2 L2]. apply HR; [exact (all_ok_vals Hok I1)|exact (all_ok_vals Hok' I2)| |].
    + apply L2. eapply Permutation_in; eassumption.
    + apply L1. eapply Permutation_in; [apply Permutation_sym|]; eassumption.
  - rewrite S2 in HV. apply Permutation_sym, Permutation_nil in HV. rewrite HV in S1. destruct S1 as [[] _].
  - rewrite S1 in HV. apply Permutation_nil in HV. rewrite HV in S2. destruct S2 as [[] _].
Qed.
Arguments vext_perm {A T DT lt ok} W R _ {xs ys} _ _.
Lemma opt_eq_cases {A} (o1 o2 : option A) :
  match o1, o2 with None, None => True | Some a, Some b => a = b | _, _ => False end -> o1 = o2.
Proof. destruct o1, o2; intros H; try contradiction; [f_equal; exact H|reflexivity]. Qed.

Section PlainExt.
  Context {A : Type} {NA : Num A}.
  Lemma pmin_is_vext (l : list A) : pmin l = vext (DT := IsNone_plain) (fun e v => nltb v e) l.
  Proof. rewrite <- vmin_is_vext, vmin_is_plain_min, vals_plain. reflexivity. Qed.
  Lemma pmax_is_vext (l : list A) : pmax l = vext (DT := IsNone_plain) (fun e v => nltb e v) l.
  Proof. rewrite <- vmax_is_vext, vmax_is_plain_max, vals_plain. reflexivity. Qed.
End PlainExt.

Section PlainFirstExt.
  Context {A : Type}.
  Variable lt : A -> A -> bool.
  Variable ok : A -> Prop.
  Hypothesis W : WeakOrder lt ok.
  Variables leP ltP : A -> A -> Prop.
  Hypothesis le_ok : forall a b, ok a -> ok b -> lt b a = false -> leP a b.
  Hypothesis lt_ok : forall a b, ok a -> ok b -> lt a b = true -> ltP a b.
  Variable l : list A.
  Hypothesis Hl : Forall ok l.

  Theorem parg_first :
    match parg (fun e x => lt x e) l with
    | None => l = []
    | Some i => exists m, nth_error l i = Some m /\
        (forall j x, nth_error l j = Some x -> leP m x) /\
        (forall j x, j < i -> nth_error l j = Some x -> ltP m x)
    end.
  Proof.
    rewrite parg_is_varg. pose proof (varg_first W leP ltP le_ok lt_ok (all_ok_plain Hl)) as S.
    destruct (varg _ l) as [i|]; [|rewrite vals_plain in S; exact S].
    destruct S as (v & Hv & _ & Hall & Hbef). exists v. split; [exact Hv|]. split.
    - intros j x Hj. exact (Hall j x Hj eq_refl).
    - intros j x Hlt Hj. exact (Hbef j x Hlt Hj eq_refl).
  Qed.
  Theorem pext_least :
    match vext (DT := IsNone_plain) (fun e x => lt x e) l with
    | None => l = []
    | Some m => In m l /\ forall x, In x l -> leP m x
    end.
  Proof. pose proof (vext_least W leP ltP le_ok lt_ok (all_ok_plain Hl)) as S. rewrite vals_plain in S. exact S. Qed.
End PlainFirstExt.
Arguments parg_first {A lt ok} W leP ltP le_ok lt_ok {l} _.
Arguments pext_least {A lt ok} W leP ltP le_ok lt_ok {l} _.
