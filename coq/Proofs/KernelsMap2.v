(* Proofs/KernelsMap2.v — C10: the writes of the checked `vrank` text are a permutation of 0..len-1 (every output
   slot is written exactly once) on the uninitialised-buffer path, and there are none on the `O::full` / `O::empty`
   paths.  Every carrier.                                                                                   *)
From Coq Require Import Lia List Permutation.
From Tevec Require Import Base.Prelude Base.Num Model.Driver Proofs.Driver Model.Cmp Model.Kernels Proofs.Kernels
     Proofs.IdxRun Model.SortCmp Model.Rank Model.KernelsMap Proofs.KernelsMap.
Import ListNotations.

Definition Wr {X} (m : tr X) : list nat := writes_of (fst m).
Lemma Wr_bind {X Y} (m : tr X) (f : X -> tr Y) x : snd m = Ok x -> Wr (tbind m f) = Wr m ++ Wr (f x).
Proof. intros H. unfold Wr, tbind. rewrite H. cbn [fst]. apply writes_of_app. Qed.
Lemma Wr_get {T} view (xs : list T) i : Wr (tget view xs i) = [].
Proof. reflexivity. Qed.
Lemma Wr_pure {X} (r : res X) : Wr (tpure r) = [].
Proof. reflexivity. Qed.
Lemma Wr_ret {X} (x : X) : Wr (tret x) = [].
Proof. reflexivity. Qed.
Lemma Wr_set {X} slot (v : X) out : Wr (tset slot v out) = [slot].
Proof. reflexivity. Qed.

(* positions i, i-1, .., i-rep+1 are the positions i-rep+1 .. i *)
Lemma run_positions i : forall rep, rep <= S i ->
  Permutation (map (fun j => i - j) (seq 0 rep)) (seq (S i - rep) rep).
Proof.
  induction rep as [|r IH]; intros H; [constructor|].
  rewrite seq_S, map_app. cbn [map plus].
  replace (S i - S r) with (i - r) by lia. cbn [seq]. replace (S (i - r)) with (S i - r) by lia.
  eapply Permutation_trans; [apply Permutation_sym, Permutation_cons_append|].
  apply perm_skip. apply IH. lia.
Qed.

Lemma map_nth_seq (p : list nat) : map (fun t => nth t p 0) (seq 0 (length p)) = p.
Proof.
  apply nth_error_ext. intros i. rewrite nth_error_map, nth_error_seq.
  destruct (i <? length p) eqn:E.
  - apply Nat.ltb_lt in E. cbn. symmetry. apply nth_error_nth'. exact E.
  - apply Nat.ltb_ge in E. cbn. symmetry. apply nth_error_None. exact E.
Qed.

Section RankWrites.
  Context {A : Type} {NA : Num A} {T : Type} {DT : IsNone T A} {DX : IsNoneX T A}.
  Variables (pct : bool) (nn : nat) (xs : list T) (p : list nat).
  Let len := length xs.
  Hypothesis Hplen : length p = len.
  Hypothesis Hpr : forall i, In i p -> i < len.
  Notation Pf := (fun t => nth t p 0).

  Lemma get_p_snd t : t < len -> snd (tget 2 p t) = Ok (nth t p 0).
  Proof. intros H. cbn. unfold uget. rewrite (proj1 (p_nth xs p Hplen Hpr t H)). reflexivity. Qed.

  Lemma write_run_tr_writes i (v : A) : i < len -> forall js out, (forall j, In j js -> j <= i) ->
    Wr (write_run_tr p i v js out) = map (fun j => nth (i - j) p 0) js.
  Proof.
    intros Hi. induction js as [|j r IH]; intros out Hjs; cbn [write_run_tr map]; [reflexivity|].
    rewrite (Wr_bind _ _ (i - j)) by (cbn; apply usub_ok, Hjs; left; reflexivity).
    rewrite (Wr_bind _ _ (nth (i - j) p 0)) by (apply get_p_snd; lia).
    rewrite (Wr_bind _ _ (uset (nth (i - j) p 0) v out)) by reflexivity.
    rewrite IH by (intros j' Hj'; apply Hjs; right; exact Hj'). reflexivity.
  Qed.

  Lemma fill_tr_writes (v : A) : forall is out, (forall i, In i is -> i < len) ->
    Wr (fill_tr p v is out) = map (fun i => nth i p 0) is.
  Proof.
    induction is as [|i r IH]; intros out His; cbn [fill_tr map]; [reflexivity|].
    rewrite (Wr_bind _ _ (nth i p 0)) by (apply get_p_snd, His; left; reflexivity).
    rewrite (Wr_bind _ _ (uset (nth i p 0) v out)) by reflexivity.
    rewrite IH by (intros i' Hi'; apply His; right; exact Hi'). reflexivity.
  Qed.

  Lemma run_then_rest i0 rep : rep <= S i0 -> S i0 <= len ->
    Permutation (map (fun j => nth (i0 - j) p 0) (seq 0 rep) ++ map Pf (seq (S i0) (len - S i0)))
                (map Pf (seq (S i0 - rep) (len - (S i0 - rep)))).
  Proof.
    intros H1 H2. replace (len - (S i0 - rep)) with (rep + (len - S i0)) by lia.
    rewrite seq_app, map_app. replace (S i0 - rep + rep) with (S i0) by lia.
    apply Permutation_app_tail.
    change (map (fun j => nth (i0 - j) p 0) (seq 0 rep)) with (map (fun j => Pf ((fun j => i0 - j) j)) (seq 0 rep)).
    rewrite <- (map_map (fun j => i0 - j) Pf). apply Permutation_map. apply run_positions. exact H1.
  Qed.

  (* positions below i + 1 - repeat_num are written when iteration i starts; the rest of the loop and the final
     loop write exactly the remaining positions *)
  Lemma loop_finish_writes : forall m i0 st, S (i0 + m) = len -> 1 <= r_rep st -> r_rep st <= S i0 ->
    Permutation (Wr (rank_loop_tr pct nn xs p (seq i0 m) st) ++
                 Wr (rank_finish_tr pct nn p len (Rank.rank_loop pct nn xs p (seq i0 m) st)))
                (map Pf (seq (S i0 - r_rep st) (len - (S i0 - r_rep st)))).
  Proof.
    induction m as [|m IH]; intros i0 st Hm H1 Hrep.
    - cbn [seq rank_loop_tr Rank.rank_loop rank_finish_tr]. cbv zeta.
      rewrite (Wr_bind _ _ (len - r_rep st)) by (cbn; apply usub_ok; lia).
      rewrite fill_tr_writes by (intros i Hi; apply in_seq in Hi; lia).
      rewrite Wr_ret, Wr_pure. cbn [app].
      replace (S i0 - r_rep st) with (len - r_rep st) by lia.
      replace (len - (len - r_rep st)) with (r_rep st) by lia. apply Permutation_refl.
    - cbn [seq rank_loop_tr Rank.rank_loop].
      destruct (xs_at xs p Hplen Hpr i0 ltac:(lia)) as [v Hv].
      destruct (xs_at xs p Hplen Hpr (S i0) ltac:(lia)) as [v1 Hv1].
      rewrite (Wr_bind _ _ (nth i0 p 0)) by (apply get_p_snd; lia).
      rewrite (Wr_bind _ _ (nth (S i0) p 0)) by (apply get_p_snd; lia).
      rewrite (Wr_bind _ _ v) by (cbn; unfold uget; rewrite Hv; reflexivity).
      rewrite (Wr_bind _ _ v1) by (cbn; unfold uget; rewrite Hv1; reflexivity).
      rewrite !Wr_get. cbn [app]. cbv zeta. unfold get_is_none, get_eq. rewrite Hv, Hv1.
      assert (Hjs : forall j, In j (seq 0 (r_rep st)) -> j <= i0) by (intros j Hj; apply in_seq in Hj; lia).
      destruct (is_none v1).
      + destruct (write_run_tr_spec xs p Hplen Hpr i0
                    (rk_avg pct nn (r_sum st + r_cur st) (r_rep st)) ltac:(lia) (seq 0 (r_rep st)) (r_out st) Hjs)
          as [_ (o & Ho & ->)].
        rewrite (Wr_bind _ _ _ Ho), write_run_tr_writes by (try lia; exact Hjs).
        rewrite Wr_ret, app_nil_r. cbn [rank_finish_tr].
        rewrite fill_tr_writes by (intros i Hi; apply in_seq in Hi; lia).
        apply run_then_rest; lia.
      + destruct (teqb v v1).
        * specialize (IH (S i0) {| r_rep := S (r_rep st); r_cur := S (r_cur st);
                                   r_sum := r_sum st + r_cur st; r_out := r_out st |}
                         ltac:(lia) ltac:(cbn [r_rep]; lia) ltac:(cbn [r_rep]; lia)).
          cbn [r_rep] in IH. exact IH.
        * destruct (r_rep st =? 1) eqn:E1.
          -- apply Nat.eqb_eq in E1.
             rewrite (Wr_bind _ _ (uset (nth i0 p 0) (rk_one pct nn (r_cur st)) (r_out st))) by reflexivity.
             rewrite Wr_set. cbn [app].
             specialize (IH (S i0) {| r_rep := r_rep st; r_cur := S (r_cur st); r_sum := r_sum st;
                                      r_out := uset (nth i0 p 0) (rk_one pct nn (r_cur st)) (r_out st) |}
                            ltac:(lia) ltac:(cbn [r_rep]; lia) ltac:(cbn [r_rep]; lia)).
             cbn [r_rep] in IH. rewrite E1 in *.
             replace (S (S i0) - 1) with (S i0) in IH by lia.
             replace (S i0 - 1) with i0 by lia. replace (len - i0) with (S (len - S i0)) by lia.
             cbn [seq map]. apply perm_skip. exact IH.
          -- destruct (write_run_tr_spec xs p Hplen Hpr i0
                         (rk_avg pct nn (r_sum st + r_cur st) (r_rep st)) ltac:(lia) (seq 0 (r_rep st)) (r_out st) Hjs)
               as [_ (o & Ho & ->)].
             rewrite (Wr_bind _ _ _ Ho), write_run_tr_writes by (try lia; exact Hjs).
             rewrite <- app_assoc.
             match goal with |- Permutation (_ ++ Wr (rank_loop_tr _ _ _ _ _ ?st') ++ _) _ =>
               specialize (IH (S i0) st' ltac:(lia) ltac:(cbn [r_rep]; lia) ltac:(cbn [r_rep]; lia)) end.
             cbn [r_rep] in IH. replace (S (S i0) - 1) with (S i0) in IH by lia.
             eapply Permutation_trans; [apply Permutation_app_head; exact IH|].
             apply run_then_rest; lia.
  Qed.
End RankWrites.

Section RankWritesEntry.
  Context {A : Type} {NA : Num A} {T : Type} {DT : IsNone T A} {DX : IsNoneX T A}.

  (* the uninitialised-buffer path (len >= 2, first sorted element non-null): every slot exactly once *)
  Theorem vrank_tr_writes_perm pct rev (xs : list T) :
    2 <= length xs ->
    get_is_none xs (nth 0 (isort (cmp_idx (cmp_dir rev) xs) (seq 0 (length xs))) 0) = false ->
    Permutation (writes_of (fst (vrank_tr pct rev xs))) (seq 0 (length xs)).
  Proof.
    intros Hlen Hfirst. change (writes_of (fst (vrank_tr pct rev xs))) with (Wr (vrank_tr pct rev xs)).
    unfold vrank_tr. cbv zeta.
    replace (length xs =? 0) with false by (symmetry; apply Nat.eqb_neq; lia).
    replace (length xs =? 1) with false by (symmetry; apply Nat.eqb_neq; lia).
    destruct (idx_sorted_perm rev xs) as (Hperm & Hplen & Hpr).
    set (p := isort (cmp_idx (cmp_dir rev) xs) (seq 0 (length xs))) in *.
    destruct (xs_at xs p Hplen Hpr 0 ltac:(lia)) as [v0 Hv0].
    rewrite (Wr_bind _ _ (nth 0 p 0)) by (apply (get_p_snd xs p Hplen Hpr); lia).
    rewrite (Wr_bind _ _ v0) by (cbn; unfold uget; rewrite Hv0; reflexivity).
    rewrite !Wr_get. cbn [app]. unfold get_is_none in Hfirst. rewrite Hv0 in Hfirst. rewrite Hfirst.
    destruct (rank_loop_tr_spec pct (count_valid xs) xs p Hplen Hpr (length xs - 1) 0
                {| r_rep := 1; r_cur := 1; r_sum := 0; r_out := repeat None (length xs) |}
                ltac:(lia) ltac:(cbn [r_rep]; lia)) as [_ (r & Hr & ->)].
    rewrite (Wr_bind _ _ _ Hr).
    eapply Permutation_trans;
      [apply (loop_finish_writes pct (count_valid xs) xs p Hplen Hpr (length xs - 1) 0); cbn [r_rep]; lia|].
    cbn [r_rep]. replace (1 - 1) with 0 by lia. rewrite Nat.sub_0_r, <- Hplen, map_nth_seq, Hplen. exact Hperm.
  Qed.

  (* the other paths return `O::empty()` / `O::full(len, ..)`: an initialised allocation, no `uset` *)
  Theorem vrank_tr_writes_none pct rev (xs : list T) :
    length xs <= 1 \/ get_is_none xs (nth 0 (isort (cmp_idx (cmp_dir rev) xs) (seq 0 (length xs))) 0) = true ->
    writes_of (fst (vrank_tr pct rev xs)) = [] /\
    (length xs <= 1 \/ vrank pct rev xs = repeat (Some nnan) (length xs)).
  Proof.
    intros H. change (writes_of (fst (vrank_tr pct rev xs))) with (Wr (vrank_tr pct rev xs)).
    unfold vrank_tr, vrank. cbv zeta.
    destruct (length xs =? 0) eqn:E0; [apply Nat.eqb_eq in E0; split; [reflexivity|left; lia]|].
    destruct (length xs =? 1) eqn:E1.
    { apply Nat.eqb_eq in E1. split; [|left; lia]. destruct xs as [|x [|? ?]]; try discriminate. reflexivity. }
    apply Nat.eqb_neq in E0. apply Nat.eqb_neq in E1. destruct H as [H|H]; [lia|].
    destruct (idx_sorted_perm rev xs) as (_ & Hplen & Hpr).
    set (p := isort (cmp_idx (cmp_dir rev) xs) (seq 0 (length xs))) in *.
    destruct (xs_at xs p Hplen Hpr 0 ltac:(lia)) as [v0 Hv0].
    rewrite (Wr_bind _ _ (nth 0 p 0)) by (apply (get_p_snd xs p Hplen Hpr); lia).
    rewrite (Wr_bind _ _ v0) by (cbn; unfold uget; rewrite Hv0; reflexivity).
    rewrite H. unfold get_is_none in H. rewrite Hv0 in H. rewrite H. split; [reflexivity|right; reflexivity].
  Qed.
End RankWritesEntry.
