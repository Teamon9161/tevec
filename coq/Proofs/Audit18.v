(* Proofs/Audit18.v — lemmas behind sections (4)-(8) of Props/C18.v (clause table: notes/C18.md, "Audit matrix").
   The scanner on a WELL-FORMED string is the checked fold over its terms (`run_terms`: `i64::from_str` on the number,
   then the closure of the unit, first failure wins), and that fold succeeds exactly under the range premises of
   C18_wellformed.  Date-time text: whenever strftime(None) returns, parsing the text (rule list, and the format given
   explicitly) returns the instant, at the default unit (ns) for EVERY non-NaT i64; a rendered year never starts with
   'N' (so no %Y-first format renders a text that starts like "NaT").  Statements over Z / lists about Model/Parse.v and Model/ParseDT.v, axiom-free. *)
From Coq Require Import List ZArith Lia Bool.
From Tevec Require Import Base.Prelude Model.Parse Spec.DurationC18 Proofs.Parse.
From Tevec Require Import Spec.CalendarC18 Model.ParseDT Proofs.CalendarC18 Proofs.ParseDT.
From Tevec Require Import Proofs.ParseDT2.
Import ListNotations.
Local Open Scope Z_scope.

(* one step of the scanner on a term: `parse::<i64>()` (range of the number), then the closure of the unit *)
Definition step_term (a : accs) (t : term) : option accs :=
  if in_i64 (tval t) then apply_unit (t_unit t) (tval t) a else None.

Fixpoint run_terms (a : accs) (ts : list term) : option accs :=
  match ts with
  | [] => Some a
  | t :: r => match step_term a t with Some a' => run_terms a' r | None => None end
  end.

Definition run_result (o : option accs) : pres := match o with Some a => finish a | None => PErr end.

Lemma digits_val_lower ds : forall acc, Forall digit ds -> 0 <= acc ->
  acc <= fold_left (fun a c => a * 10 + (c - 48)) ds acc.
Proof.
  induction ds as [|c r IH]; intros acc H Ha; [cbn; lia|].
  inversion H as [|? ? Hc Hr]; subst. cbn [fold_left]. pose proof (digit_range _ Hc).
  specialize (IH (acc * 10 + (c - 48)) Hr ltac:(lia)). lia.
Qed.

(* scanner invariant at a term boundary: the first character c0 of the rendered terms has been consumed and
   `start` indexes it *)
Lemma scan_terms_run : forall ts pre c0 rest a fuel,
  Forall wf_term ts -> render_terms ts = c0 :: rest -> (length rest < fuel)%nat ->
  scan fuel (pre ++ c0 :: rest) rest (S (length pre)) (length pre) a = run_result (run_terms a ts).
Proof.
  induction ts as [|t ts IH]; intros pre c0 rest a fuel Hw E Hf; [discriminate E|].
  inversion Hw as [|? ? Hwt Hws]; subst.
  destruct (number_shape _ Hwt) as (c0' & dr & En & Hd & _).
  pose proof (parse_i64_term t Hwt) as Hn. rewrite En in Hn.
  rewrite render_terms_cons, En in E. injection E as <- <-.
  destruct (scan_one_term (pre ++ (c0' :: dr) ++ unit_str (t_unit t) ++ render_terms ts) pre c0' dr
              (unit_str (t_unit t)) (render_terms ts) a fuel eq_refl Hd (unit_str_alpha _)
              (render_terms_nonalpha ts Hws) (or_introl (unit_str_nonempty _)) Hf) as (f2 & Hf2 & Es).
  etransitivity; [exact Es|]. clear Es.
  rewrite Hn, unit_of_str. cbn [run_terms]. unfold step_term.
  destruct (in_i64 (tval t)); [|reflexivity].
  destruct (apply_unit (t_unit t) (tval t) a) as [a'|]; [|reflexivity].
  destruct ts as [|t2 ts2]; [reflexivity|].
  destruct (render_terms_head t2 ts2 (Forall_inv Hws)) as (c1 & more & E2 & _).
  rewrite E2 in Hf2 |- *. cbn [tl] in Hf2. cbv beta iota zeta.
  rewrite <- (IH (pre ++ (c0' :: dr) ++ unit_str (t_unit t)) c1 more a' f2 Hws E2 Hf2).
  f_equal. rewrite <- !app_assoc. reflexivity.
Qed.

(* the scanner on a well-formed string, completely: no range hypothesis *)
Theorem parse_wellformed_run ts :
  Forall wf_term ts -> parse (render_terms ts) = run_result (run_terms (mk_accs 0 0 0) ts).
Proof.
  intros Hw. destruct ts as [|t ts]; [reflexivity|].
  destruct (render_terms_head t ts (Forall_inv Hw)) as (c1 & more & E & _).
  unfold parse. rewrite E. cbn [length]. rewrite scan_first.
  apply (scan_terms_run (t :: ts) [] c1 more); [exact Hw|exact E|lia].
Qed.

Lemma run_terms_app a ts1 ts2 :
  run_terms a (ts1 ++ ts2) = match run_terms a ts1 with Some a' => run_terms a' ts2 | None => None end.
Proof.
  revert a. induction ts1 as [|t r IH]; intros a; [reflexivity|].
  cbn [app run_terms]. destruct (step_term a t); [apply IH|reflexivity].
Qed.


Theorem strftime_returns u items x :
  dt_format u items x = Ok (if x =? i64_min then nat_str
                            else match fields_of_instant u x with Some f => render items f | None => [] end)
  \/ dt_format u items x = Panic UnwrapNone.
Proof.
  unfold dt_format. destruct (x =? i64_min); [left; reflexivity|].
  destruct (fields_of_instant u x); [left|right]; reflexivity.
Qed.

Lemma fmt_k_1 : fmt_k 1 = fmt_default.
Proof. reflexivity. Qed.

(* whenever strftime(None) returns a text for a non-NaT date-time, both ways of parsing return the instant: no
   hypothesis on the year, the fields or the sub-second part — the default format can express every instant *)
Theorem strftime_default_parse_back u x text :
  unit_code u -> in_i64 x = true -> x <> i64_min ->
  dt_format u fmt_default x = Ok text ->
  parse_with u fmt_default text = Some x /\ dt_parse u text = Some x.
Proof.
  intros Hu Hx Hn H. destruct (dt_format_ok_inv u _ x text Hn H) as (f & Ef & ->). clear H.
  destruct (dt_full_roundtrip u 1 x f Hu ltac:(lia) Hx Hn Ef) as (_ & H2 & H3).
  - discriminate.
  - discriminate.
  - cbn [In]. intros [H|[H|[H|[H|[]]]]]; discriminate H.
  - rewrite fmt_k_1 in *. auto.
Qed.

(* Debug of a date-time = strftime(None) ("NaT" for NaT): so Debug text parses back as well *)
Theorem debug_parse_back u x text :
  unit_code u -> in_i64 x = true -> x <> i64_min -> dt_debug u x = Ok text -> dt_parse u text = Some x.
Proof. intros Hu Hx Hn H. apply (strftime_default_parse_back u x text Hu Hx Hn H). Qed.

(* the default unit: every i64 nanosecond timestamp lies inside chrono's years (1677..2262): its day number
   falls in the 400-year eras that begin in March 1600 and March 2000 *)
Lemma fields_of_instant_nano x : in_i64 x = true -> exists f, fields_of_instant 3 x = Some f.
Proof.
  intros Hx. apply in_i64_iff in Hx. unfold i64_min, i64_max in Hx.
  unfold fields_of_instant. change (per_sec 3) with 1000000000.
  set (days := x / 1000000000 / 86400).
  destruct (civil_from_days days) as [[y m] d] eqn:E.
  pose proof (civil_from_days_year days y m d E) as Hy.
  replace ((cr_min_year <=? y) && (y <=? cr_max_year)) with true; [eauto|].
  unfold cr_min_year, cr_max_year. subst days. Z.div_mod_to_equations; lia.
Qed.

Theorem strftime_nano_total x :
  in_i64 x = true -> x <> i64_min ->
  exists text, dt_format 3 fmt_default x = Ok text /\ dt_parse 3 text = Some x /\ dt_debug 3 x = Ok text.
Proof.
  intros Hx Hn. destruct (fields_of_instant_nano x Hx) as [f Hf].
  pose proof (dt_format_some 3 fmt_default x f Hn Hf) as H.
  exists (render fmt_default f). split; [exact H|]. split; [|exact H].
  apply (strftime_default_parse_back 3 x _ ltac:(unfold unit_code; auto) Hx Hn H).
Qed.

Lemma render_year_head y : exists c r, render_year y = c :: r /\ c <> 78.
Proof.
  unfold render_year. destruct ((0 <=? y) && (y <=? 9999)).
  - destruct (fixed_head 4 y [] ltac:(lia)) as [c [r [E Hc]]]. rewrite app_nil_r in E. exists c, r. split; [exact E|].
    apply digit_range in Hc. lia.
  - eexists _, _. split; [reflexivity|]. destruct (y <? 0); lia.
Qed.

Definition tfields (h m s ns : Z) : dtf := mk_dtf 0 0 0 h m s ns.

Definition acc_in_range (a : accs) : Prop :=
  in_i32 (a_months a) = true /\ in_i64 (a_secs a) = true /\ in_i64 (a_nsecs a) = true.

Definition acc_sum (a : accs) (ts : list term) : accs :=
  mk_accs (a_nsecs a + sumf t_nsecs ts) (a_secs a + sumf t_secs ts) (a_months a + sumf t_months ts).

Lemma step_term_inv a t a' :
  acc_in_range a -> step_term a t = Some a' -> term_in_range t /\ a' = acc_plus a t /\ acc_in_range a'.
Proof.
  unfold step_term. destruct (in_i64 (tval t)) eqn:Ev; [|discriminate].
  unfold term_in_range, acc_plus, t_months, t_secs, t_nsecs, acc_in_range.
  destruct a as [an asx am]; cbn [a_nsecs a_secs a_months]. intros (Hm & Hs & Hn).
  destruct (t_unit t); cbn [apply_unit unit_scale a_nsecs a_secs a_months]; intros H;
    match type of H with option_map _ ?e = _ => destruct e as [v|] eqn:E; [|discriminate] end;
    cbn [option_map] in H; injection H as <-; cbn [a_nsecs a_secs a_months];
    first [apply add_i64_inv in E; destruct E as (-> & E1 & E2)
          |apply add_i32_inv in E; destruct E as (-> & E0 & E1 & E2)];
    rewrite ?Z.mul_1_r, ?Z.add_0_r in *; repeat split; assumption.
Qed.

Lemma step_term_ok a t :
  term_in_range t -> acc_in_range (acc_plus a t) -> step_term a t = Some (acc_plus a t).
Proof.
  intros Ht (Hm & Hs & Hn). unfold step_term. rewrite (proj1 Ht). apply apply_unit_term; assumption.
Qed.

Lemma acc_sum_cons a t l : acc_sum (acc_plus a t) l = acc_sum a (t :: l).
Proof. unfold acc_sum, acc_plus, sumf. cbn [a_nsecs a_secs a_months fold_right]. f_equal; lia. Qed.

Lemma acc_sum_nil a : acc_sum a [] = a.
Proof. destruct a. unfold acc_sum, sumf. cbn. f_equal; lia. Qed.

Lemma acc_in_range_zero : acc_in_range (mk_accs 0 0 0).
Proof. repeat split. Qed.

(* the checked fold succeeds exactly when every term and every running sum is in range, with the sums *)
Lemma run_terms_spec : forall ts a a', acc_in_range a ->
  (run_terms a ts = Some a' <->
   Forall term_in_range ts
   /\ (forall k, (k <= length ts)%nat -> acc_in_range (acc_sum a (firstn k ts)))
   /\ a' = acc_sum a ts).
Proof.
  induction ts as [|t r IH]; intros a a' Ha.
  - cbn [run_terms]. rewrite acc_sum_nil. split.
    + intros [= <-]. split; [constructor|]. split; [|reflexivity].
      intros k _. destruct k; cbn [firstn]; rewrite acc_sum_nil; exact Ha.
    + intros (_ & _ & ->). reflexivity.
  - cbn [run_terms]. split.
    + destruct (step_term a t) as [a1|] eqn:E; [|discriminate]. intros H.
      destruct (step_term_inv a t a1 Ha E) as (Ht & -> & Ha1).
      apply (IH _ _ Ha1) in H. destruct H as (Hr & Hp & ->).
      split; [constructor; assumption|]. split; [|apply acc_sum_cons].
      intros k Hk. destruct k as [|k]; [cbn [firstn]; rewrite acc_sum_nil; exact Ha|].
      cbn [firstn]. rewrite <- acc_sum_cons. apply Hp. cbn [length] in Hk. lia.
    + intros (Hr & Hp & ->). inversion Hr as [|? ? Ht Hr']; subst.
      pose proof (Hp 1%nat ltac:(cbn [length]; lia)) as Ha1. cbn [firstn] in Ha1.
      rewrite <- acc_sum_cons, acc_sum_nil in Ha1.
      rewrite (step_term_ok a t Ht Ha1). apply (IH _ _ Ha1).
      split; [exact Hr'|]. split; [|symmetry; apply acc_sum_cons].
      intros k Hk. rewrite acc_sum_cons. apply (Hp (S k)). cbn [length]. lia.
Qed.

(* the premises of C18_wellformed are exactly the acceptance condition of a well-formed string, and an accepted
   one denotes the sum of its terms *)
Theorem parse_wellformed_ok ts m ns :
  Forall wf_term ts ->
  (parse (render_terms ts) = POk m ns <->
   (Forall term_in_range ts /\ partial_sums_in_range ts /\ total_in_range ts)
   /\ m = sumf t_months ts /\ ns = fixed_ns ts).
Proof.
  intros Hw. rewrite (parse_wellformed_run ts Hw). split.
  - destruct (run_terms (mk_accs 0 0 0) ts) as [a|] eqn:E; [|discriminate]. cbn [run_result].
    apply (run_terms_spec ts _ _ acc_in_range_zero) in E. destruct E as (Hr & Hp & ->).
    intros H. apply finish_spec in H. destruct H as (Ht & Hm & Hn).
    exact (conj (conj Hr (conj Hp Ht)) (conj Hm Hn)).
  - intros ((Hr & Hp & Ht) & -> & ->).
    rewrite (proj2 (run_terms_spec ts _ _ acc_in_range_zero) (conj Hr (conj Hp eq_refl))).
    apply finish_spec. exact (conj Ht (conj eq_refl eq_refl)).
Qed.
