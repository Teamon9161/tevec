(* Proofs/Binary.v — the two-series add-emit-remove closures at the proof instance XR = option R:
   the accumulator holds the cross power sums of the pairwise-complete window (never drifts), and
   the closed forms of ts_vcov, ts_vcorr, ts_vregx_alpha / beta / all are the textbook statistics.  *)
From Coq Require Import Reals Lra Lia List.
From Tevec Require Import Base.Prelude Base.Num Base.XR Spec.Stats Spec.Ols Model.Driver Proofs.Driver
     Model.Features Proofs.Outcome Proofs.Sliding Model.Binary Model.Reg Proofs.Ols.
Import ListNotations.
Local Open Scope R_scope.

(* ---- windows of the zipped series ------------------------------------------------------ *)
Lemma win_combine {X Y} w i (xs : list X) (ys : list Y) :
  win w i (combine xs ys) = combine (win w i xs) (win w i ys).
Proof.
  rewrite !win_seg. apply nth_error_ext. intros j.
  rewrite nth_error_seg, !nth_error_combine, !nth_error_seg.
  destruct (j <? S i - wstart w i); reflexivity.
Qed.

Lemma ts_run2_combine {T1 T2 St O} (F : feat (T1 * T2) St O) body w (xs : list T1) (ys : list T2) :
  length xs = length ys -> ts_run2 F body w xs ys = ts_run F body w (combine xs ys).
Proof.
  intros H. unfold ts_run2, ts_run. destruct body; [|apply rolling2_apply_default_le; lia].
  unfold rolling2_apply_to.
  rewrite (ltb_false (length ys) (length xs)) by lia. reflexivity.
Qed.

(* the sliding invariant for a two-series feature: the window of the zipped series is the zip of the windows *)
Lemma sliding_ts_run2 {T1 T2 St O} (F : feat (T1 * T2) St O) (Abs : St -> list (T1 * T2) -> Prop)
      body (w : nat) (xs : list T1) (ys : list T2) :
  Abs (f_init F) [] -> (forall s l v, Abs s l -> Abs (f_pre F s v) (l ++ [v])) ->
  (forall s x l, Abs s (x :: l) -> Abs (f_post F s (Some x)) l) -> (forall s, f_post F s None = s) ->
  (1 <= w)%nat -> length xs = length ys ->
  exists out, ts_run2 F body w xs ys = Done out /\ length out = length xs /\
    forall i, (i < length xs)%nat ->
      exists s, Abs s (combine (win w i xs) (win w i ys)) /\ nth_error out i = Some (f_emit F s).
Proof.
  intros Hinit Hpre Hpost Hnone Hw Hlen. rewrite ts_run2_combine by exact Hlen.
  destruct (sliding_ts_run F Abs Hinit Hpre Hpost Hnone w Hw (combine xs ys) body) as (out & Hrun & Hl & Hout).
  assert (Hzl : length (combine xs ys) = length xs) by (rewrite combine_length; lia).
  exists out. split; [exact Hrun|]. split; [rewrite Hl; exact Hzl|]. intros i Hi.
  destruct (nth_error_Some_lt (combine xs ys) i ltac:(lia)) as [v Hv].
  destruct (Hout i v Hv) as (s & Habs & Hnth). exists s. rewrite <- win_combine. split; assumption.
Qed.

Lemma vpairs_app l1 l2 : vpairs (l1 ++ l2) = vpairs l1 ++ vpairs l2.
Proof. unfold vpairs. apply flat_map_app. Qed.
Lemma sumP_snoc f P a b : sumP f (P ++ [(a, b)]) = sumP f P + f a b.
Proof. rewrite sumP_app. unfold sumP at 2. cbn. ring. Qed.

Definition csum_abs (s : @csum XR) (l : list (XR * XR)) : Prop :=
  c_n s = length (vpairs l) /\
  c_a s = Some (SA (vpairs l)) /\ c_b s = Some (SB (vpairs l)) /\ c_ab s = Some (SAB (vpairs l)) /\
  c_a2 s = Some (SAA (vpairs l)) /\ c_b2 s = Some (SBB (vpairs l)).

Lemma csum_abs_init : csum_abs csum0 [].
Proof. unfold csum_abs, csum0. cbn. repeat split; reflexivity. Qed.

Lemma csum_abs_pre s l v : csum_abs s l -> csum_abs (csum_pre s v) (l ++ [v]).
Proof.
  intros (Hn & Ha & Hb & Hab & Ha2 & Hb2). unfold csum_abs. rewrite vpairs_app.
  destruct v as [[a|] [b|]]; unfold csum_pre, both, not_none;
    cbn [fst snd is_none IsNoneXR IsNone_float nisnan NumXR xisnan negb andb unwrap vpairs flat_map app].
  - unfold csum_add. cbn [c_n c_a c_b c_ab c_a2 c_b2].
    rewrite Ha, Hb, Hab, Ha2, Hb2, !xmul_some, !xadd_some. unfold SA, SB, SAB, SAA, SBB.
    rewrite !sumP_snoc, app_length, Hn. cbn [length]. repeat split; try reflexivity. lia.
  - rewrite app_nil_r. repeat split; assumption.
  - rewrite app_nil_r. repeat split; assumption.
  - rewrite app_nil_r. repeat split; assumption.
Qed.

Lemma csum_abs_post s x l : csum_abs s (x :: l) -> csum_abs (csum_post s (Some x)) l.
Proof.
  intros (Hn & Ha & Hb & Hab & Ha2 & Hb2). unfold csum_abs.
  destruct x as [[a|] [b|]]; unfold csum_post, both, not_none;
    cbn [fst snd is_none IsNoneXR IsNone_float nisnan NumXR xisnan negb andb unwrap];
    cbn [vpairs flat_map app] in *; fold (vpairs l) in *.
  - unfold csum_sub. cbn [c_n c_a c_b c_ab c_a2 c_b2].
    rewrite Ha, Hb, Hab, Ha2, Hb2, !xmul_some, !xsub_some, Hn. unfold SA, SB, SAB, SAA, SBB.
    rewrite !sumP_cons. cbn [length]. rewrite Nat.sub_succ, Nat.sub_0_r.
    repeat split; try reflexivity; f_equal; ring.
  - repeat split; assumption.
  - repeat split; assumption.
  - repeat split; assumption.
Qed.

(* n -= 1 on usize is executed only with n >= 1 *)
Lemma csum_no_underflow s a b l : csum_abs s ((Some a, Some b) :: l) -> (1 <= c_n s)%nat.
Proof. intros (Hn & _). rewrite Hn. cbn. lia. Qed.

(* every entry point of the family: output i = emit of a state holding exactly the cross power sums of
   the pairwise-complete observations of the window *)
Theorem csum_state_tracks_window {O} (emit : @csum XR -> O) body (w : nat) (xs ys : list XR) :
  (1 <= w)%nat -> length xs = length ys ->
  exists out, ts_run2 (csum_feat emit) body w xs ys = Done out /\ length out = length xs /\
    forall i, (i < length xs)%nat ->
      exists s, csum_abs s (combine (win w i xs) (win w i ys)) /\ nth_error out i = Some (emit s).
Proof.
  intros Hw Hlen.
  apply (sliding_ts_run2 (csum_feat emit) csum_abs body w xs ys
           csum_abs_init csum_abs_pre csum_abs_post (fun _ => eq_refl) Hw Hlen).
Qed.

Theorem csum_run {O} (emit : @csum XR -> O) (G : list (R * R) -> O) body (w : nat) (xs ys : list XR) :
  (1 <= w)%nat -> length xs = length ys ->
  (forall s W, csum_abs s W -> emit s = G (vpairs W)) ->
  ts_run2 (csum_feat emit) body w xs ys
  = Done (map (fun i => G (pairs (win w i xs) (win w i ys))) (seq 0 (length xs))).
Proof.
  intros Hw Hlen HG. rewrite ts_run2_combine by exact Hlen.
  rewrite (sliding_run (csum_feat emit) csum_abs (fun W => G (vpairs W))
             csum_abs_init csum_abs_pre csum_abs_post (fun _ => eq_refl) HG body w _ Hw).
  rewrite combine_length, <- Hlen, Nat.min_id. f_equal. apply map_ext. intros i.
  unfold pairs. rewrite win_combine. reflexivity.
Qed.

Lemma csum_entry {O} (emit : @csum XR -> O) (G : list (R * R) -> O) body (w : nat) (xs ys : list XR) :
  (1 <= w)%nat -> length xs = length ys ->
  (forall s W, csum_abs s W -> emit s = G (vpairs W)) ->
  exists out, ts_run2 (csum_feat emit) body w xs ys = Done out /\ length out = length xs /\
    forall i, (i < length xs)%nat -> nth_error out i = Some (G (pairs (win w i xs) (win w i ys))).
Proof. intros Hw Hlen HG. apply done_map_iff, csum_run; assumption. Qed.

Section ClosedForms.
  Variable s : @csum XR.
  Variable W : list (XR * XR).
  Hypothesis HA : csum_abs s W.
  Let P := vpairs W.
  Let n := length P.

  Lemma cs_n : c_n s = n. Proof. destruct HA as (H & _). exact H. Qed.
  Lemma cs_a : c_a s = Some (SA P). Proof. destruct HA as (_ & H & _). exact H. Qed.
  Lemma cs_b : c_b s = Some (SB P). Proof. destruct HA as (_ & _ & H & _). exact H. Qed.
  Lemma cs_ab : c_ab s = Some (SAB P). Proof. destruct HA as (_ & _ & _ & H & _). exact H. Qed.
  Lemma cs_a2 : c_a2 s = Some (SAA P). Proof. destruct HA as (_ & _ & _ & _ & H & _). exact H. Qed.
  Lemma cs_b2 : c_b2 s = Some (SBB P). Proof. destruct HA as (_ & _ & _ & _ & _ & H). exact H. Qed.

  (* sample covariance *)
  Lemma emit_cov_spec mp :
    (2 <= mp)%nat ->
    emit_cov mp s = if (mp <=? n)%nat then Some (cov_sample P) else None.
  Proof.
    intros Hmp. unfold emit_cov. rewrite cs_n.
    destruct (mp <=? n)%nat eqn:E; [|reflexivity]. apply Nat.leb_le in E.
    assert (Hn0 : INR n <> 0) by (apply not_0_INR; lia).
    assert (Hn1 : INR (n - 1) <> 0) by (apply not_0_INR; lia).
    rewrite cs_a, cs_b, cs_ab, !xofnat, xmul_some, xdiv_some by exact Hn0.
    rewrite xsub_some, xdiv_some by exact Hn1. f_equal.
    unfold cov_sample. rewrite <- codev_from_sums by exact Hn0. unfold nP. fold n.
    rewrite minus_INR by lia. reflexivity.
  Qed.

  Lemma popvar_nil_fst : n = 0%nat -> ~ EPS < popvarR (map fst P) /\ ~ EPS < popvarR (map snd P).
  Proof.
    intros Hn. assert (HP : P = []) by (destruct P; [reflexivity|discriminate]).
    rewrite HP. cbn [map]. unfold popvarR, cmom, devsum, sumR, Rdiv. cbn [map fold_right].
    rewrite Rmult_0_l. pose proof EPS_pos. split; lra.
  Qed.

  (* Pearson correlation with the EPS guard on both variances *)
  Lemma emit_corr_spec mp :
    emit_corr mp s =
    if (mp <=? n)%nat then
      (if Rlt_dec EPS (popvarR (map fst P)) then
         (if Rlt_dec EPS (popvarR (map snd P)) then Some (corrP P) else None)
       else None)
    else None.
  Proof.
    unfold emit_corr. rewrite cs_n. destruct (mp <=? n)%nat; [|reflexivity].
    rewrite cs_a, cs_b, cs_ab, cs_a2, cs_b2, !xofnat.
    destruct (Nat.eq_dec n 0) as [Hn|Hn].
    - destruct (popvar_nil_fst Hn) as [H1 H2]. rewrite Hn. cbn [INR]. rewrite !xdiv_zero.
      cbn. destruct (Rlt_dec EPS (popvarR (map fst P))); [contradiction|reflexivity].
    - assert (Hn0 : INR n <> 0) by (apply not_0_INR; exact Hn).
      rewrite !xdiv_some by exact Hn0. rewrite !powi_some, !xsub_some.
      assert (Eva : SAA P / INR n - (SA P / INR n) ^ 2 = popvarR (map fst P)).
      { rewrite <- popvar_from_sums, psum1_fst, psum2_fst; unfold nR; rewrite map_length; fold n;
          [reflexivity|exact Hn0]. }
      assert (Evb : SBB P / INR n - (SB P / INR n) ^ 2 = popvarR (map snd P)).
      { rewrite <- popvar_from_sums, psum1_snd, psum2_snd; unfold nR; rewrite map_length; fold n;
          [reflexivity|exact Hn0]. }
      rewrite Eva, Evb. change neps with (Some EPS). cbn [nltb NumXR xltb].
      destruct (Rlt_dec EPS (popvarR (map fst P))) as [Ha|Ha]; [|reflexivity].
      destruct (Rlt_dec EPS (popvarR (map snd P))) as [Hb|Hb]; [|reflexivity].
      cbn [andb]. pose proof EPS_pos as He.
      assert (Hpos : 0 < popvarR (map fst P) * popvarR (map snd P)) by (apply Rmult_lt_0_compat; lra).
      rewrite !xmul_some, xdiv_some by (apply pow_nonzero; exact Hn0).
      rewrite xsub_some, xsqrt_some by lra.
      assert (Hs : sqrt (popvarR (map fst P) * popvarR (map snd P)) <> 0).
      { apply Rgt_not_eq, sqrt_lt_R0. exact Hpos. }
      rewrite xdiv_some by exact Hs. f_equal. unfold corrP. f_equal.
      unfold cov_pop. rewrite <- codev_from_sums by exact Hn0. unfold nP. fold n. field. exact Hn0.
  Qed.

  (* regression of a on b *)
  Lemma regx_beta_spec : regx_beta s = ols_x P (fun _ be => be).
  Proof.
    unfold regx_beta. rewrite cs_n, cs_a, cs_b, cs_ab, cs_b2, xofnat, !xmul_some, powi_some, !xsub_some.
    unfold ols_x, ols_beta, detB, nP. fold n. cbn [ndiv NumXR xdiv].
    destruct (Req_EM_T (INR n * SBB P - SB P ^ 2) 0); reflexivity.
  Qed.

  Lemma regx_alpha_beta_spec :
    (regx_alpha s, regx_beta s) =
    if Req_EM_T (detB P) 0 then (None, None) else (Some (ols_alpha P), Some (ols_beta P)).
  Proof.
    unfold regx_alpha. rewrite regx_beta_spec. unfold ols_x. rewrite cs_n, cs_a, cs_b, xofnat.
    destruct (Req_EM_T (detB P) 0) as [E|E]; [reflexivity|].
    rewrite xmul_some, xsub_some.
    pose proof (det_nonzero_n P E) as Hn. unfold nP in Hn. fold n in Hn.
    rewrite xdiv_some by exact Hn. reflexivity.
  Qed.

  Lemma regx_alpha_spec : regx_alpha s = ols_x P (fun al _ => al).
  Proof.
    pose proof regx_alpha_beta_spec as H. unfold ols_x.
    destruct (Req_EM_T (detB P) 0); injection H as H1 H2; exact H1.
  Qed.

  Lemma emit_regx_alpha_spec mp :
    emit_regx_alpha mp s = if (mp <=? n)%nat then ols_x P (fun al _ => al) else None.
  Proof. unfold emit_regx_alpha. rewrite cs_n, regx_alpha_spec. reflexivity. Qed.
  Lemma emit_regx_beta_spec mp :
    emit_regx_beta mp s = if (mp <=? n)%nat then ols_x P (fun _ be => be) else None.
  Proof. unfold emit_regx_beta. rewrite cs_n, regx_beta_spec. reflexivity. Qed.

  Lemma emit_regx_all_spec mp :
    emit_regx_all mp s =
    if (mp <=? n)%nat then
      (if Req_EM_T (detB P) 0 then (None, None, None)
       else (Some (ols_alpha P), Some (ols_beta P), Some (sse (ols_alpha P) (ols_beta P) P)))
    else (None, None, None).
  Proof.
    unfold emit_regx_all. rewrite cs_n. destruct (mp <=? n)%nat; [|reflexivity]. cbv zeta.
    assert (Hal : ((c_a s - regx_beta s * c_b s) / nofnat n)%num = ols_x P (fun al _ => al)).
    { rewrite <- regx_alpha_spec. unfold regx_alpha. rewrite cs_n. reflexivity. }
    rewrite Hal, regx_beta_spec. unfold ols_x. rewrite cs_a, cs_ab, cs_a2.
    destruct (Req_EM_T (detB P) 0) as [E|E]; [reflexivity|].
    rewrite !xmul_some, !xsub_some. rewrite sse_at_ols by exact E. reflexivity.
  Qed.
End ClosedForms.

(* ---- the five entry points: what each returns at a position, as a function of the
   pairwise-complete observations P of the window there ---------------------------------------- *)
Definition cov_out (mp : nat) (P : list (R * R)) : XR :=
  if (mp <=? length P)%nat then Some (cov_sample P) else None.
Definition corr_out (mp : nat) (P : list (R * R)) : XR :=
  if (mp <=? length P)%nat then
    (if Rlt_dec EPS (popvarR (map fst P)) then
       (if Rlt_dec EPS (popvarR (map snd P)) then Some (corrP P) else None)
     else None)
  else None.
Definition regx_alpha_out (mp : nat) (P : list (R * R)) : XR :=
  if (mp <=? length P)%nat then ols_x P (fun al _ => al) else None.
Definition regx_beta_out (mp : nat) (P : list (R * R)) : XR :=
  if (mp <=? length P)%nat then ols_x P (fun _ be => be) else None.
Definition regx_all_out (mp : nat) (P : list (R * R)) : XR * XR * XR :=
  if (mp <=? length P)%nat then
    (if Req_EM_T (detB P) 0 then (None, None, None)
     else (Some (ols_alpha P), Some (ols_beta P), Some (sse (ols_alpha P) (ols_beta P) P)))
  else (None, None, None).

Definition csum_reads {O} (emit : @csum XR -> O) (G : list (R * R) -> O) : Prop :=
  forall s W, csum_abs s W -> emit s = G (vpairs W).

Lemma cov_reads mp : (2 <= mp)%nat -> csum_reads (emit_cov mp) (cov_out mp).
Proof. intros Hmp s W HA. apply emit_cov_spec; assumption. Qed.
Lemma corr_reads mp : csum_reads (emit_corr mp) (corr_out mp).
Proof. intros s W HA. apply emit_corr_spec, HA. Qed.
Lemma regx_alpha_reads mp : csum_reads (emit_regx_alpha mp) (regx_alpha_out mp).
Proof. intros s W HA. apply emit_regx_alpha_spec, HA. Qed.
Lemma regx_beta_reads mp : csum_reads (emit_regx_beta mp) (regx_beta_out mp).
Proof. intros s W HA. apply emit_regx_beta_spec, HA. Qed.
Lemma regx_all_reads mp : csum_reads (emit_regx_all mp) (regx_all_out mp).
Proof. intros s W HA. apply emit_regx_all_spec, HA. Qed.
