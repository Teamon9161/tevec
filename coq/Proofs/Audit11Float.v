(* Proofs/Audit11Float.v — C11 at binary64 (Coq's primitive `float`, NumF64 of Base/F64.v: the execution
   instance the correspondence run evaluates): the order laws (Proofs/CmpOrdFloat.v; +0 / -0 are equivalent, not
   equal) and `<` with a NaN operand.
   Axioms: the stdlib's specification of the primitive floats (FloatAxioms.*_spec). *)
From Coq Require Import Floats Bool.
From Tevec Require Import Base.Num Base.F64 Spec.ExtremaOrd.
From Tevec Require Proofs.CmpOrdFloat Proofs.Audit13.

Definition ordlaws_F64 : OrdLaws float := Proofs.CmpOrdFloat.ordlaws_F64.

Lemma f64_lt_nan_l (a b : float) : nisnan a = true -> nltb a b = false.
Proof.
  cbn [nisnan nltb NumF64]. intros H. apply Proofs.Audit13.f64_is_nan_iff in H.
  rewrite FloatAxioms.ltb_spec, H. reflexivity.
Qed.
Lemma f64_lt_nan_r (a b : float) : nisnan b = true -> nltb a b = false.
Proof.
  cbn [nisnan nltb NumF64]. intros H. apply Proofs.Audit13.f64_is_nan_iff in H.
  rewrite FloatAxioms.ltb_spec, H. unfold SFltb, SFcompare. destruct (Prim2SF a) as [ | [|] | | [|] ? ?]; reflexivity.
Qed.
