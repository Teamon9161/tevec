(* Proofs/Kernels3.v — C10: the index-form kernels never panic inside the callback and never expose an
   unwritten slot, at EVERY carrier: `uget` of Model/Cmp.v is a CHECKED read (out of range = Panic OtherPanic),
   `n -= 1` is `usub` (Panic Underflow), `start.unwrap()` is Panic UnwrapNone; a result `Done out` therefore
   says that none of them happened.  The only invariant needed is the carrier-generic COUNTING invariant
   "the counter equals the number of non-null elements of the positions the state has seen and not yet
   removed" (it uses `not_none` only, never the order).  For the arg-extrema the offset `min_idx - start` needs
   in addition that the comparison is reflexive on the elements of the series (false only for `Some(NaN)` in
   an optional float series, DESIGN 5.4).                                                                 *)
From Coq Require Import ZArith Lia List.
From Tevec Require Import Base.Prelude Base.Num Model.Driver Proofs.Driver Model.Cmp
     Model.Norm Model.Binary Model.Reg Model.Kernels Proofs.Kernels Proofs.IdxRun Proofs.IdxPrefix
     Proofs.Kernels2.
Import ListNotations.

Definition b2n (b : bool) : nat := if b then 1 else 0.

Section Count.
  Context {T : Type}.
  Variable p : T -> bool.
  Definition cntp (l : list T) : nat := length (filter p l).
  Lemma cntp_snoc l v : cntp (l ++ [v]) = cntp l + b2n (p v).
  Proof. unfold cntp. rewrite filter_app, app_length. cbn. destruct (p v); reflexivity. Qed.
  Lemma cntp_cons v l : cntp (v :: l) = b2n (p v) + cntp l.
  Proof. unfold cntp. cbn. destruct (p v); reflexivity. Qed.

  Variable xs : list T.
  Variable W : nat.
  (* valid elements among the positions seen and not yet removed before step k *)
  Definition cnt_at (k : nat) : nat := cntp (seg (k - (W - 1)) k xs).
  Lemma cnt_at_0 : cnt_at 0 = 0.
  Proof. unfold cnt_at. cbn [Nat.sub]. rewrite seg_nil. reflexivity. Qed.
  Lemma cnt_add k v : nth_error xs k = Some v -> cntp (seg (k - (W - 1)) (S k) xs) = cnt_at k + b2n (p v).
  Proof. intros Hv. rewrite (@seg_snoc _ (k - (W - 1)) k xs v) by (try lia; exact Hv). apply cntp_snoc. Qed.
  Lemma cnt_next_none k : start_of W k = None -> cnt_at (S k) = cntp (seg (k - (W - 1)) (S k) xs).
  Proof.
    unfold start_of. destruct (k <? W - 1) eqn:E; [|discriminate]. intros _. apply Nat.ltb_lt in E.
    unfold cnt_at. replace (S k - (W - 1)) with (k - (W - 1)) by lia. reflexivity.
  Qed.
  Lemma cnt_next_some k j v0 : start_of W k = Some j -> nth_error xs j = Some v0 ->
    j <= k /\ cntp (seg (k - (W - 1)) (S k) xs) = b2n (p v0) + cnt_at (S k).
  Proof.
    unfold start_of. destruct (k <? W - 1) eqn:E; [discriminate|]. intros H. injection H as <-.
    apply Nat.ltb_ge in E. intros Hv0. split; [lia|].
    rewrite (@seg_cons _ (k - (W - 1)) (S k) xs v0) by (try lia; exact Hv0). rewrite cntp_cons.
    unfold cnt_at. replace (S k - (W - 1)) with (S (k - (W - 1))) by lia. reflexivity.
  Qed.

  (* the removal at the window start: n counts the non-null elements of positions start..=k, so `n -= 1` (when the
     element leaving is non-null) never underflows and leaves the count for step k+1 *)
  Lemma cnt_dec k n : k < length xs -> n = cntp (seg (k - (W - 1)) (S k) xs) ->
    match start_of W k with
    | None => n = cnt_at (S k)
    | Some j => exists v0, nth_error xs j = Some v0 /\ uget xs j = Ok v0 /\
                  if p v0 then usub n 1 = Ok (cnt_at (S k)) else n = cnt_at (S k)
    end.
  Proof.
    intros Hk ->. destruct (start_of W k) as [j|] eqn:Es; [|symmetry; apply cnt_next_none; exact Es].
    pose proof (start_of_le W k) as Hj. rewrite Es in Hj. cbn [start_le] in Hj.
    destruct (uget_lt xs j) as (v0 & Hv0 & Hu); [lia|]. exists v0. split; [exact Hv0|]. split; [exact Hu|].
    destruct (cnt_next_some k j v0 Es Hv0) as [_ ->].
    destruct (p v0); cbn [b2n plus]; [|reflexivity]. unfold usub. cbn [Nat.leb Nat.sub]. rewrite Nat.sub_0_r. reflexivity.
  Qed.
End Count.

(* ---- the shape of the result of an index-form kernel ------------------------------------------------- *)

(* a complete result, or the documented rejection of window 0 on a non-empty series — never a panic inside
   the callback (OtherPanic = out-of-range read, Underflow, UnwrapNone), never `Uninit` *)
Definition kernel_safe {T O} (w : nat) (xs : list T) (r : outcome O) : Prop :=
  (exists out, r = Done out /\ length out = length xs) \/
  (w = 0 /\ xs <> [] /\ r = Panicked AssertFail).

Theorem idx_run_safe {T St O} body w (cb : St -> option nat * nat * T -> res (St * O)) s0 (xs : list T)
        (Pre : nat -> St -> Prop) :
  Pre 0 s0 ->
  (forall k v s, nth_error xs k = Some v -> Pre k s ->
     exists s' o, cb s (start_of (eff_window body w (length xs)) k, k, v) = Ok (s', o) /\ Pre (S k) s') ->
  kernel_safe w xs (idx_run body w cb s0 xs).
Proof.
  intros H0 Hstep. destruct w as [|w].
  - destruct xs as [|x xs].
    + left. exists []. split; [apply idx_run_empty|reflexivity].
    + right. split; [reflexivity|]. split; [discriminate|]. apply idx_run_window0. discriminate.
  - left. destruct (idx_run_spec cb xs body (S w) Pre (fun _ _ => True) s0) as (outs & H1 & H2 & _);
      [lia|exact H0| |eauto].
    intros k v s Hv HP. destruct (Hstep k v s Hv HP) as (s' & o & E & HP'). eauto.
Qed.

(* the cmp family clamps its window to the length first *)
Lemma cmp_window_eff {T} body w (xs : list T) :
  eff_window body (cmp_window w xs) (length xs) = cmp_window w xs.
Proof. unfold eff_window, cmp_window. destruct body; lia. Qed.
Lemma kernel_safe_cmp {T O} w (xs : list T) (r : outcome O) :
  kernel_safe (cmp_window w xs) xs r -> kernel_safe w xs r.
Proof.
  unfold kernel_safe, cmp_window. intros [H|(H1 & H2 & H3)]; [left; exact H|right].
  split; [|split; assumption]. destruct xs; [contradiction|cbn [length] in H1; lia].
Qed.

(* ---- cmp.rs: extrema ------------------------------------------------------------------------------------ *)
Section CmpSafe.
  Context {A : Type} {NA : Num A} {T : Type} {DT : IsNone T A}.
  Variable scmp : option A -> option A -> comparison.
  Variable xs : list T.
  Variable W : nat.
  Notation cnt := (cnt_at (@not_none T A DT) xs W).

  Lemma ext_step_ok s st e v : start_le st e -> nth_error xs e = Some v ->
    exists s1, ext_step scmp xs s st e v = Ok s1 /\ x_n s1 = x_n s + b2n (not_none v).
  Proof.
    intros Hs Hv. assert (He : e < length xs) by (apply nth_error_Some; congruence).
    unfold ext_step. cbv zeta.
    match goal with |- context [opt_lt (x_idx ?t) st] => set (s1 := t) end.
    assert (Hn : x_n s1 = x_n s + b2n (not_none v)).
    { unfold s1, to_opt, not_none. destruct (is_none v); cbn [negb b2n]; [lia|].
      destruct (x_idx s); cbn [x_n]; lia. }
    destruct (opt_lt (x_idx s1) st) eqn:El.
    - destruct st as [j|]; [|rewrite opt_lt_none in El; discriminate]. cbn [start_le] in Hs.
      destruct (uget_lt xs j) as (v0 & _ & ->); [lia|]. cbn [bind].
      rewrite rescan_scanf. destruct (scanf_ok (rescan_step scmp) xs (S e - j) j (to_opt v0, x_idx s1)) as [r ->]; [lia|]. cbn [bind].
      eexists. split; [reflexivity|exact Hn].
    - match goal with |- context [takes ?c] => destruct (takes c) end;
        (eexists; split; [reflexivity|exact Hn]).
  Qed.

  (* the removal after the emission: `n -= 1` never underflows *)
  Lemma ext_post_ok s1 k v : nth_error xs k = Some v ->
    x_n s1 = cntp (@not_none T A DT) (seg (k - (W - 1)) (S k) xs) ->
    exists s2, ext_post xs s1 (start_of W k) = Ok s2 /\ x_n s2 = cnt (S k).
  Proof.
    intros Hv N1. assert (He : k < length xs) by (apply nth_error_Some; congruence).
    pose proof (cnt_dec (@not_none T A DT) xs W k (x_n s1) He N1) as Hd.
    unfold ext_post. destruct (start_of W k) as [j|]; [|eexists; split; [reflexivity|exact Hd]].
    destruct Hd as (v0 & _ & -> & Hd). cbn [bind].
    destruct (not_none v0); [rewrite Hd|]; eexists; (split; [reflexivity|]); [reflexivity|exact Hd].
  Qed.

  Lemma vext_step mp k v s : nth_error xs k = Some v -> x_n s = cnt k ->
    exists s' o, vext_cb scmp mp xs s (start_of W k, k, v) = Ok (s', o) /\ x_n s' = cnt (S k).
  Proof.
    intros Hv Hn. destruct (ext_step_ok s (start_of W k) k v (start_of_le W k) Hv) as (s1 & E1 & N1).
    unfold vext_cb. rewrite E1. cbn [bind].
    destruct (ext_post_ok s1 k v Hv) as (s2 & E2 & N2).
    { rewrite N1, Hn. symmetry. apply cnt_add. exact Hv. }
    rewrite E2. cbn [bind]. eauto.
  Qed.

  (* arg-extrema: the cached index is never left behind the window start when the comparison is reflexive
     on the elements of the series *)
  Definition scmp_refl_on : Prop :=
    forall i v, nth_error xs i = Some v -> takes (scmp (to_opt v) (to_opt v)) = true.
  Hypothesis Hrefl : scmp_refl_on.

  Lemma rescan_idx : forall c i m mi r, rescan scmp xs i c m mi = Ok r ->
    r = (m, mi) \/ (exists i', snd r = Some i' /\ i <= i').
  Proof.
    induction c as [|c IH]; intros i m mi r H; cbn [rescan] in H; [left; congruence|].
    destruct (uget xs i) as [v|pk]; [|discriminate]. cbn [bind] in H.
    destruct (takes (scmp (to_opt v) m)); apply IH in H.
    - right. destruct H as [->|(i' & H1 & H2)]; [exists i; split; [reflexivity|lia]|exists i'; split; [exact H1|lia]].
    - destruct H as [->|(i' & H1 & H2)]; [left; reflexivity|right; exists i'; split; [exact H1|lia]].
  Qed.

  Lemma ext_step_idx s j e v s1 : j <= e -> ext_step scmp xs s (Some j) e v = Ok s1 ->
    exists i, x_idx s1 = Some i /\ j <= i.
  Proof.
    intros Hj H. unfold ext_step in H. cbv zeta in H.
    match type of H with context [opt_lt (x_idx ?t) (Some j)] => set (sb := t) in H end.
    destruct (opt_lt (x_idx sb) (Some j)) eqn:El.
    - destruct (uget xs j) as [v0|pk] eqn:Eu; [|discriminate]. apply uget_inv in Eu. cbn [bind] in H.
      replace (S e - j) with (S (e - j)) in H by lia. cbn [rescan] in H.
      rewrite (uget_nth _ _ _ Eu) in H. cbn [bind] in H. rewrite (Hrefl j v0 Eu) in H.
      destruct (rescan scmp xs (S j) (e - j) (to_opt v0) (Some j)) as [r|pk] eqn:Er; [|discriminate].
      cbn [bind] in H. injection H as <-. cbn [x_idx]. apply rescan_idx in Er.
      destruct Er as [->|(i' & H1 & H2)]; [exists j; split; [reflexivity|lia]|exists i'; split; [exact H1|lia]].
    - destruct (x_idx sb) as [i|] eqn:Ei; [|discriminate]. cbn [opt_lt] in El. apply Nat.ltb_ge in El.
      match type of H with context [takes ?c] => destruct (takes c) end; injection H as <-; cbn [x_idx].
      + exists e. split; [reflexivity|lia].
      + exists i. split; [exact Ei|lia].
  Qed.

  Lemma varg_step mp k v s : nth_error xs k = Some v -> x_n s = cnt k ->
    exists s' o, varg_cb scmp mp xs s (start_of W k, k, v) = Ok (s', o) /\ x_n s' = cnt (S k).
  Proof.
    intros Hv Hn. destruct (ext_step_ok s (start_of W k) k v (start_of_le W k) Hv) as (s1 & E1 & N1).
    unfold varg_cb. rewrite E1. cbn [bind].
    assert (Hout : exists o, (if (mp <=? x_n s1) && match x_val s1 with Some _ => true | None => false end
                              then match x_idx s1 with
                                   | Some mi => do d <- usub mi match start_of W k with Some st => st | None => 0 end;
                                                Ok (Some (d + 1))
                                   | None => Ok None
                                   end
                              else Ok None) = Ok o).
    { destruct ((mp <=? x_n s1) && _); [|eauto]. destruct (x_idx s1) as [mi|] eqn:Ei; [|eauto].
      destruct (start_of W k) as [j|] eqn:Es.
      - pose proof (start_of_le W k) as Hj. rewrite Es in Hj. cbn [start_le] in Hj.
        destruct (ext_step_idx s j k v s1 Hj E1) as (i & Hi & Hji). rewrite Ei in Hi. injection Hi as ->.
        unfold usub. replace (j <=? i) with true by (symmetry; apply Nat.leb_le; exact Hji). cbn [bind]. eauto.
      - unfold usub. cbn [Nat.leb bind]. eauto. }
    destruct Hout as [o ->]. cbn [bind].
    destruct (ext_post_ok s1 k v Hv) as (s2 & E2 & N2).
    { rewrite N1, Hn. symmetry. apply cnt_add. exact Hv. }
    rewrite E2. cbn [bind]. eauto.
  Qed.
End CmpSafe.

Section CmpEntrySafe.
  Context {A : Type} {NA : Num A} {T : Type} {DT : IsNone T A}.
  Variable scmp : option A -> option A -> comparison.

  Theorem ts_vext_safe body w mp (xs : list T) : kernel_safe w xs (ts_vext scmp body w mp xs).
  Proof.
    apply kernel_safe_cmp. unfold ts_vext.
    apply (idx_run_safe body (cmp_window w xs) _ ext0 xs
             (fun k s => x_n s = cnt_at (@not_none T A DT) xs (cmp_window w xs) k)).
    - rewrite cnt_at_0. reflexivity.
    - intros k v s Hv HP. rewrite cmp_window_eff. apply vext_step; assumption.
  Qed.

  Theorem ts_varg_safe body w mp (xs : list T) :
    scmp_refl_on scmp xs -> kernel_safe w xs (ts_varg scmp body w mp xs).
  Proof.
    intros Hr. apply kernel_safe_cmp. unfold ts_varg.
    apply (idx_run_safe body (cmp_window w xs) _ ext0 xs
             (fun k s => x_n s = cnt_at (@not_none T A DT) xs (cmp_window w xs) k)).
    - rewrite cnt_at_0. reflexivity.
    - intros k v s Hv HP. rewrite cmp_window_eff. apply varg_step; assumption.
  Qed.
End CmpEntrySafe.

(* every non-null element of the series equals itself (every integer, every non-NaN float, every exact real;
   false only for Some(NaN) in an optional float series) *)
Definition self_eq_on {A T} {NA : Num A} {DT : IsNone T A} (xs : list T) : Prop :=
  forall i v, nth_error xs i = Some v -> is_none v = false ->
    nltb (unwrap v) (unwrap v) = false /\ neqb (unwrap v) (unwrap v) = true.

Section ArgEntrySafe.
  Context {A : Type} {NA : Num A} {T : Type} {DT : IsNone T A}.

  Lemma sort_cmp_refl_on (xs : list T) : self_eq_on xs -> scmp_refl_on sort_cmp xs.
  Proof.
    intros H i v Hv. unfold to_opt. destruct (is_none v) eqn:E; [reflexivity|].
    destruct (H i v Hv E) as [H1 H2]. unfold sort_cmp, pcmp. rewrite H1, H2. reflexivity.
  Qed.
  Lemma sort_cmp_rev_refl_on (xs : list T) : self_eq_on xs -> scmp_refl_on sort_cmp_rev xs.
  Proof.
    intros H i v Hv. unfold to_opt. destruct (is_none v) eqn:E; [reflexivity|].
    destruct (H i v Hv E) as [H1 H2]. unfold sort_cmp_rev, pcmp. rewrite H1, H2. reflexivity.
  Qed.

  Theorem ts_vmin_safe body w mp (xs : list T) : kernel_safe w xs (ts_vmin body w mp xs).
  Proof. apply ts_vext_safe. Qed.
  Theorem ts_vmax_safe body w mp (xs : list T) : kernel_safe w xs (ts_vmax body w mp xs).
  Proof. apply ts_vext_safe. Qed.
  Theorem ts_vargmin_safe body w mp (xs : list T) : self_eq_on xs -> kernel_safe w xs (ts_vargmin body w mp xs).
  Proof. intros H. apply ts_varg_safe. apply sort_cmp_refl_on. exact H. Qed.
  Theorem ts_vargmax_safe body w mp (xs : list T) : self_eq_on xs -> kernel_safe w xs (ts_vargmax body w mp xs).
  Proof. intros H. apply ts_varg_safe. apply sort_cmp_rev_refl_on. exact H. Qed.
End ArgEntrySafe.

Lemma self_eq_on_Z {T} {DT : IsNone T Z} (xs : list T) : self_eq_on xs.
Proof. intros i v _ _. cbn. split; [apply Z.ltb_irrefl|apply Z.eqb_refl]. Qed.

(* ---- cmp.rs: ts_vrank -------------------------------------------------------------------------------- *)
Section RankSafe.
  Context {A : Type} {NA : Num A} {T : Type} {DT : IsNone T A} {B : Type} {NB : Num B}.
  Variable xs : list T.
  Variable W : nat.
  Notation cnt := (cnt_at (@not_none T A DT) xs W).

  Lemma rank_head_ok mp pct rev m st k v : start_le st k -> nth_error xs k = Some v ->
    exists h, rank_head (B := B) xs mp pct rev m st k v = Ok h /\ fst h = m + b2n (not_none v).
  Proof.
    intros Hs Hv. assert (He : k < length xs) by (apply nth_error_Some; congruence).
    unfold rank_head. destruct (not_none v); cbn [b2n].
    - rewrite rank_loop_scanf.
      destruct (scanf_ok (rank_step (B := B) (unwrap v)) xs (k - match st with Some j => j | None => 0 end)
                         match st with Some j => j | None => 0 end (none, 1)) as [rr ->].
      { destruct st; cbn [start_le] in Hs; lia. }
      cbn [bind]. eexists. split; [reflexivity|]. cbn [fst]. lia.
    - cbn [bind]. eexists. split; [reflexivity|]. cbn [fst]. lia.
  Qed.

  (* `end >= w_m1` holds exactly when the driver passes Some start: start.unwrap() never panics *)
  Lemma vrank_step mp pct rev k v n : nth_error xs k = Some v -> n = cnt k ->
    exists n' o, vrank_cb (B := B) mp (W - 1) pct rev xs n (start_of W k, k, v) = Ok (n', o) /\ n' = cnt (S k).
  Proof.
    intros Hv Hn. assert (He : k < length xs) by (apply nth_error_Some; congruence).
    rewrite vrank_cb_head.
    destruct (rank_head_ok mp pct rev n (start_of W k) k v (start_of_le W k) Hv) as (h & -> & Hh). cbn [bind].
    assert (N1 : fst h = cntp (@not_none T A DT) (seg (k - (W - 1)) (S k) xs)).
    { rewrite Hh, Hn. symmetry. apply cnt_add. exact Hv. }
    pose proof (cnt_dec (@not_none T A DT) xs W k (fst h) He N1) as Hd.
    assert (Ew : (W - 1 <=? k) = match start_of W k with Some _ => true | None => false end).
    { unfold start_of. destruct (k <? W - 1) eqn:E; [apply Nat.ltb_lt in E; apply Nat.leb_gt; exact E|].
      apply Nat.ltb_ge in E. apply Nat.leb_le. exact E. }
    rewrite Ew. destruct (start_of W k) as [j|]; [|cbn [bind]; eexists _, _; split; [reflexivity|exact Hd]].
    destruct Hd as (v0 & _ & -> & Hd). cbn [bind].
    destruct (not_none v0); [rewrite Hd|]; cbn [bind]; eexists _, _; (split; [reflexivity|]); [reflexivity|exact Hd].
  Qed.
End RankSafe.

Theorem ts_vrank_safe {A T B : Type} {NA : Num A} {DT : IsNone T A} {NB : Num B}
        body w mp pct rev (xs : list T) :
  kernel_safe w xs (ts_vrank (B := B) body w mp pct rev xs).
Proof.
  apply kernel_safe_cmp. unfold ts_vrank.
  apply (idx_run_safe body (cmp_window w xs) _ 0 xs
           (fun k n => n = cnt_at (@not_none T A DT) xs (cmp_window w xs) k)).
  - rewrite cnt_at_0. reflexivity.
  - intros k v n Hv HP. rewrite cmp_window_eff. apply vrank_step; assumption.
Qed.

(* ---- norm.rs: ts_vminmaxnorm -------------------------------------------------------------------------- *)
Section NormSafe.
  Context {A : Type} {NA : Num A} {T : Type} {DT : IsNone T A}.
  Variables tmin tmax : A.
  Variable xs : list T.
  Variable W : nat.
  Notation cnt := (cnt_at (@not_none T A DT) xs W).

  Lemma mm_research_ok s st e : start_le st e -> e <= length xs ->
    exists s1, mm_research tmin tmax xs s st e = Ok s1 /\ mm_n s1 = mm_n s.
  Proof.
    intros Hs He. unfold mm_research. destruct st as [j|]; [|eauto]. cbn [start_le] in Hs.
    destruct (mm_maxi s <? j), (mm_mini s <? j); try (eexists; split; reflexivity).
    - rewrite scan_both_scanf.
      destruct (scanf_ok scan_both_step xs (e - j) j (tmin, mm_maxi s, (tmax, mm_mini s))) as [r ->]; [lia|].
      cbn [bind]. eexists. split; reflexivity.
    - rewrite scan_max_scanf. destruct (scanf_ok scan_max_step xs (e - j) j (tmin, mm_maxi s)) as [r ->]; [lia|].
      cbn [bind]. eexists. split; reflexivity.
    - rewrite scan_min_scanf. destruct (scanf_ok scan_min_step xs (e - j) j (tmax, mm_mini s)) as [r ->]; [lia|].
      cbn [bind]. eexists. split; reflexivity.
  Qed.

  Lemma mm_head_n_eq mp (s1 : @mm A) e v : mm_n (fst (mm_head mp s1 e v)) = mm_n s1 + b2n (not_none v).
  Proof.
    unfold mm_head. destruct (not_none v); cbn [b2n].
    - destruct (nleb (mm_max s1) (unwrap v)), (nleb (unwrap v) (mm_min s1)); cbn [fst mm_n]; lia.
    - cbn [fst]. lia.
  Qed.

  Lemma mmnorm_step mp k v s : nth_error xs k = Some v -> mm_n s = cnt k ->
    exists s' o, mmnorm_cb tmin tmax mp xs s (start_of W k, k, v) = Ok (s', o) /\ mm_n s' = cnt (S k).
  Proof.
    intros Hv Hn. assert (He : k < length xs) by (apply nth_error_Some; congruence).
    rewrite mmnorm_cb_unfold.
    destruct (mm_research_ok s (start_of W k) k (start_of_le W k) ltac:(lia)) as (s1 & -> & N0). cbn [bind].
    cbv zeta. set (h := mm_head mp s1 k v).
    assert (N1 : mm_n (fst h) = cntp (@not_none T A DT) (seg (k - (W - 1)) (S k) xs)).
    { unfold h. rewrite mm_head_n_eq, N0, Hn. symmetry. apply cnt_add. exact Hv. }
    pose proof (cnt_dec (@not_none T A DT) xs W k (mm_n (fst h)) He N1) as Hd.
    destruct (start_of W k) as [j|]; [|cbn [bind]; eexists _, _; split; [reflexivity|exact Hd]].
    destruct Hd as (v0 & _ & -> & Hd). cbn [bind].
    destruct (not_none v0); [rewrite Hd|]; cbn [bind]; eexists _, _; (split; [reflexivity|]); [reflexivity|exact Hd].
  Qed.
End NormSafe.

Theorem ts_vminmaxnorm_safe {A T : Type} {NA : Num A} {DT : IsNone T A} (tmin tmax : A)
        body w mp (xs : list T) :
  kernel_safe w xs (ts_vminmaxnorm tmin tmax body w mp xs).
Proof.
  unfold ts_vminmaxnorm.
  apply (idx_run_safe body w _ (mm0 tmin tmax) xs
           (fun k s => mm_n s = cnt_at (@not_none T A DT) xs (eff_window body w (length xs)) k)).
  - rewrite cnt_at_0. reflexivity.
  - intros k v s Hv HP. apply mmnorm_step; assumption.
Qed.

(* ---- reg.rs: the checked residual callback never panics under the drivers and equals the pure model ---- *)
Lemma idx_run_refine {T St O} body w (cb1 : St -> option nat * nat * T -> res (St * O))
      (cb2 : St -> option nat * nat * T -> St * O) s0 (xs : list T) (Pre : nat -> St -> Prop) :
  1 <= w -> Pre 0 s0 ->
  (forall k v s, nth_error xs k = Some v -> Pre k s ->
     cb1 s (start_of (eff_window body w (length xs)) k, k, v)
     = Ok (cb2 s (start_of (eff_window body w (length xs)) k, k, v)) /\
     Pre (S k) (fst (cb2 s (start_of (eff_window body w (length xs)) k, k, v)))) ->
  idx_run body w cb1 s0 xs = idx_run body w (fun s a => Ok (cb2 s a)) s0 xs.
Proof.
  intros Hw H0 Hstep. rewrite !idx_run_unfold by exact Hw. do 2 f_equal. unfold idx_args.
  set (sf := start_of (eff_window body w (length xs))) in *.
  assert (G : forall l k s, skipn k xs = l -> Pre k s ->
             run (lift_cb cb1) (Ok s) (map (fun p => (sf (fst p), fst p, snd p)) (combine (seq k (length l)) l))
             = run (lift_cb (fun s a => Ok (cb2 s a))) (Ok s)
                   (map (fun p => (sf (fst p), fst p, snd p)) (combine (seq k (length l)) l))).
  { induction l as [|v l IH]; intros k s Hl HP; [reflexivity|].
    destruct (@skipn_cons_nth T k xs v l Hl) as [Hv Hl'].
    destruct (Hstep k v s Hv HP) as [E HP'].
    cbn [length seq combine map run fst snd lift_cb]. rewrite E.
    destruct (cb2 s (sf k, k, v)) as [s' o] eqn:E2. cbn [fst] in HP'. f_equal. apply IH; assumption. }
  unfold mapi. exact (G xs 0 s0 eq_refl H0).
Qed.

Lemma snd_if {X} (c : bool) (a b : tr X) :
  snd (match c return tr X with true => a | false => b end) = if c then snd a else snd b.
Proof. destruct c; reflexivity. Qed.
Lemma if_Ok {X} (c : bool) (a b : X) : (if c then Ok a else Ok b) = Ok (if c then a else b).
Proof. destruct c; reflexivity. Qed.

Section ResidSafe.
  Context {A : Type} {NA : Num A} {T1 : Type} {D1 : IsNone T1 A} {T2 : Type} {D2 : IsNone T2 A}.
  Variable zs : list (T1 * T2).
  Variable W : nat.
  Let bothp : T1 * T2 -> bool := both.
  Notation cnt := (cnt_at bothp zs W).

  Lemma read_pairs_tr_ok : forall c i, i + c <= length zs ->
    snd (read_pairs_tr zs i c) = Ok (seg i (i + c) zs).
  Proof.
    induction c as [|c IH]; intros i H.
    - rewrite Nat.add_0_r, seg_nil. reflexivity.
    - cbn [read_pairs_tr]. rewrite snd_tbind, snd_tget2.
      destruct (uget_lt zs i) as (p & Hp & ->); [lia|]. cbn [bind].
      rewrite snd_tbind, IH by lia. cbn [bind snd tret].
      replace (i + S c) with (S i + c) by lia.
      rewrite (@seg_cons _ i (S i + c) zs p) by (try lia; exact Hp). reflexivity.
  Qed.

  Lemma resid_step (K : rstat) mp k v (s : @csum A) : nth_error zs k = Some v -> c_n s = cnt k ->
    snd (resid_cb_tr K mp zs s (start_of W k, k, v)) = Ok (resid_cb K mp zs s (start_of W k, k, v)) /\
    c_n (fst (resid_cb K mp zs s (start_of W k, k, v))) = cnt (S k).
  Proof.
    intros Hv Hn. assert (He : k < length zs) by (apply nth_error_Some; congruence).
    pose proof (start_of_le W k) as Hj.
    unfold resid_cb_tr, resid_cb, resid_emit, resid_post. cbv zeta. set (s1 := csum_pre s v).
    assert (N1 : c_n s1 = cntp bothp (seg (k - (W - 1)) (S k) zs)).
    { rewrite (cnt_add bothp zs W k v Hv), <- Hn. unfold s1, csum_pre, bothp.
      destruct (both v); cbn [b2n c_n csum_add]; lia. }
    rewrite snd_tbind.
    assert (Hs0 : start_or_0 (start_of W k) <= k) by (destruct (start_of W k); cbn [start_le start_or_0] in *; lia).
    rewrite snd_if, snd_tbind, read_pairs_tr_ok by lia. cbn [bind snd tret].
    replace (start_or_0 (start_of W k) + (S k - start_or_0 (start_of W k))) with (S k) by lia.
    rewrite if_Ok. cbn [bind]. change (start_or_0 (start_of W k)) with match start_of W k with Some j => j | None => 0 end.
    rewrite snd_tbind.
    pose proof (cnt_dec bothp zs W k (c_n s1) He N1) as Hd.
    destruct (start_of W k) as [j|]; [|cbn [snd tret bind]; split; [reflexivity|exact Hd]].
    destruct Hd as (p & Hp & Hu & Hd). rewrite snd_tbind, snd_tget2, Hu. cbn [bind]. rewrite Hp. cbn [csum_post].
    change (bothp p) with (both p) in Hd. destruct (both p).
    - rewrite snd_tbind, snd_tpure. unfold usub in *.
      destruct (1 <=? c_n s1); [injection Hd as Hd|discriminate]. cbn [bind snd tret].
      split; [reflexivity|exact Hd].
    - cbn [snd tret bind]. split; [reflexivity|exact Hd].
  Qed.
End ResidSafe.

Section ResidEntry.
  Context {A : Type} {NA : Num A} {T1 : Type} {D1 : IsNone T1 A} {T2 : Type} {D2 : IsNone T2 A}.

  Lemma resid_run_chk (K : rstat) body w m (zs : list (T1 * T2)) :
    idx_run body w (fun s a => snd (resid_cb_tr K m zs s a)) csum0 zs
    = idx_run body w (fun s a => Ok (resid_cb K m zs s a)) csum0 zs.
  Proof.
    destruct w as [|w].
    - destruct zs as [|z zs']; [rewrite !idx_run_empty; reflexivity|]. rewrite !idx_run_window0 by discriminate. reflexivity.
    - apply (idx_run_refine body (S w) _ (resid_cb K m zs) csum0 zs
               (fun k s => c_n s = cnt_at both zs (eff_window body (S w) (length zs)) k)); [lia|rewrite cnt_at_0; reflexivity|].
      intros k v s Hv HP. apply resid_step; assumption.
  Qed.

  (* every window (0 included), every pair of lengths, both bodies: the checked text (reads through `uget`,
     `n -= 1` through `usub`) returns exactly what the pure model returns — it never panics in the callback *)
  Theorem ts_vregx_resid_chk_eq (K : rstat) body w mp (xs : list T1) (ys : list T2) :
    ts_vregx_resid_chk K body w mp xs ys = ts_vregx_resid K body w mp xs ys.
  Proof.
    unfold ts_vregx_resid_chk, ts_vregx_resid. cbv zeta. rewrite rolling2_apply_idx_default_unfold.
    unfold rolling2_apply_idx_to. rewrite resid_run_chk, idx_run_pure.
    destruct body; cbn [andb].
    - destruct (length ys <? length xs) eqn:E; [reflexivity|]. apply Nat.ltb_ge in E.
      destruct (bad_window w xs) eqn:Hb; [|reflexivity].
      unfold rolling_apply_idx_to. rewrite bad_window_combine_le, Hb by exact E. reflexivity.
    - destruct (bad_window w xs); reflexivity.
  Qed.

  (* the shape of the result: complete, or one of the two documented rejections *)
  Theorem ts_vregx_resid_safe (K : rstat) body w mp (xs : list T1) (ys : list T2) :
    (exists out, ts_vregx_resid K body w mp xs ys = Done out /\
                 length out = Nat.min (length xs) (length ys)) \/
    ts_vregx_resid K body w mp xs ys = Panicked AssertFail.
  Proof.
    unfold ts_vregx_resid. cbv zeta. destruct body.
    - rewrite rolling2_apply_idx_to_total. destruct (length ys <? length xs); [right; reflexivity|].
      destruct (bad_window w xs); [right; reflexivity|]. left. eexists. split; [reflexivity|].
      unfold args_to_idx. rewrite run_length, mapi_length, combine_length. reflexivity.
    - rewrite rolling2_apply_idx_default_total. destruct (bad_window w xs); [right; reflexivity|].
      left. eexists. split; [reflexivity|]. rewrite run_length, mapi_length, combine_length. reflexivity.
  Qed.
End ResidEntry.

Lemma acc_ok_mono len len2 len' len2' a : len <= len' -> len2 <= len2' -> acc_ok len len2 a -> acc_ok len' len2' a.
Proof.
  intros H1 H2. destruct a as [view i|view a b|view a b|i]; cbn; try destruct view; lia.
Qed.

(* each slot is written once whenever the two-phase call is safe; w' is the window the driver runs with (the cmp
   family clamps w to the length first) *)
Lemma safe_done_writes {T St O} two w w' (cbt : St -> option nat * nat * T -> tr (St * O))
      (cb : St -> option nat * nat * T -> res (St * O)) s0 (xs : list T) :
  (forall s st e v, start_le st e -> reads_within (start_or_0 st) e (fst (cbt s (st, e, v)))) ->
  (forall s a, snd (cbt s a) = cb s a) ->
  kernel_safe w xs (idx_run true w' cb s0 xs) -> bad_window w xs = false ->
  writes_of (kernel_trace true two w' cbt s0 xs) = seq 0 (length xs).
Proof.
  intros Hcb He [(out & Hd & _)|(-> & Hx & _)] Hb.
  - apply (kernel_trace_writes cbt Hcb cb He two w' s0 xs out Hd).
  - unfold bad_window in Hb. destruct xs; [contradiction|discriminate].
Qed.
