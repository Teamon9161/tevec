(* Proofs/Composite2.v — C20 for the other element types.
   1. winsorize and vcorr (Pearson and Spearman) are ENCODING INDEPENDENT: for every carrier A (so also bit for bit
      at binary64), every two null dictionaries D1 / D2 and every two series with the same option view
      (C08's `SameView`), the two runs return EQUAL results (winsorize yields an f64 series whatever the input
      type; vcorr an f64).  No law of the numeric class is used.  Built from the C08 encoding lemmas
      (NullOrder.vquantile_same_view / vmedian_same_view / tcast_view, NullView.vmean_var_vals / vcorr_pairs,
      EncRank.vrank_view).
   2. Instances: the canonical Option<f64> rendering `enc_opt xs` of a float series (Some (Some r) valid, None null)
      and an i32 series rendered through its exact f64 values with the never-null dictionary (`cast_i32 zs`).
   3. Hence every f64 theorem of Proofs/Composite.v and Proofs/Spearman.v holds verbatim for Option<f64> and i32
      series (the lifts *_opt, *_i32 are proved in Props/C20.v).                                                                          *)
From Coq Require Import Reals List ZArith Bool.
From Tevec Require Import Base.Prelude.
From Tevec Require Import Base.Num Base.XR Spec.Stats Model.Features Model.NullView Model.SortCmp
     Model.Quantile Model.Rank Model.Composite Proofs.Partition Proofs.ViewBase Proofs.NullView Proofs.NullOrder Proofs.EncRank.
Import ListNotations.

Section Enc.
  Context {A : Type} {NA : Num A} {NF : NumFloor A} {T1 T2 : Type} (D1 : IsNone T1 A) (D2 : IsNone T2 A).

  Lemma map_tcast_view {B} (g : A -> B) xs1 xs2 :
    SameView D1 D2 xs1 xs2 ->
    map (fun v => g (tcast (DT := D1) v)) xs1 = map (fun v => g (tcast (DT := D2) v)) xs2.
  Proof.
    induction 1 as [|a b r1 r2 Hab _ IH]; [reflexivity|]. cbn [map].
    rewrite (NullOrder.tcast_view D1 D2 a b Hab), IH. reflexivity.
  Qed.

  Lemma iter_cast_view xs1 xs2 :
    SameView D1 D2 xs1 xs2 -> iter_cast (DT := D1) xs1 = iter_cast (DT := D2) xs2.
  Proof. exact (map_tcast_view (fun x => x) xs1 xs2). Qed.

  (* winsorize: all three methods, every parameter (also omitted / out of range / NaN) *)
  Theorem winsorize_view (m : wmethod) (p : option A) xs1 xs2 :
    SameView D1 D2 xs1 xs2 -> winsorize (DT := D1) m p xs1 = winsorize (DT := D2) m p xs2.
  Proof.
    intros HS. unfold winsorize. destruct m.
    - rewrite (NullOrder.vquantile_same_view D1 D2 _ Linear xs1 xs2 HS), (iter_cast_view _ _ HS).
      destruct (Quantile.vquantile (DT := D2) _ Linear xs2) as [[mn|]|k]; try reflexivity. cbn [bind].
      rewrite (NullOrder.vquantile_same_view D1 D2 _ Linear xs1 xs2 HS). reflexivity.
    - rewrite (NullOrder.vmedian_same_view D1 D2 xs1 xs2 HS), (iter_cast_view _ _ HS).
      destruct (Quantile.vmedian (DT := D2) xs2) as [median|k]; [|reflexivity]. cbn [bind].
      rewrite (map_tcast_view (fun x => nabs (nsub x median)) _ _ HS). reflexivity.
    - rewrite (vmean_var_vals (D1 := D1) (D2 := D2) (@idA A) xs1 xs2 (vals_same_view HS) 2), (iter_cast_view _ _ HS).
      reflexivity.
  Qed.

  Context (X1 : IsNoneX T1 A) (X2 : IsNoneX T2 A).

  Lemma rank_vec_view xs1 xs2 :
    EqbView D1 D2 X1 X2 -> SameView D1 D2 xs1 xs2 ->
    rank_vec (DT := D1) (DX := X1) xs1 = rank_vec (DT := D2) (DX := X2) xs2.
  Proof. intros HE HS. unfold rank_vec. rewrite (EncRank.vrank_view D1 D2 X1 X2 xs1 xs2 HS HE). reflexivity. Qed.

  (* vcorr: Pearson and Spearman, every min_periods (also omitted: the default len / 2 is the same) *)
  Theorem vcorr_view (mp : option nat) (spearman : bool) xs1 xs2 ys1 ys2 :
    EqbView D1 D2 X1 X2 -> SameView D1 D2 xs1 xs2 -> SameView D1 D2 ys1 ys2 ->
    vcorr (DT := D1) (DX := X1) mp spearman xs1 ys1 = vcorr (DT := D2) (DX := X2) mp spearman xs2 ys2.
  Proof.
    intros HE HX HY. unfold vcorr. rewrite (Forall2_len HX). destruct spearman.
    - rewrite (rank_vec_view _ _ HE HX), (rank_vec_view _ _ HE HY). reflexivity.
    - f_equal. apply vcorr_pairs. apply (vpairs_same_view HX HY).
  Qed.
End Enc.

(* Option<f64>: the canonical rendering of a float series — Some (Some r) valid, None null (no Some(NaN), DESIGN 5.4) *)
Definition enc_opt (xs : list XR) : list (option XR) :=
  map (fun x : XR => match x with Some r => Some (Some r) | None => None end) xs.
(* i32: never null; the series is seen through its exact f64 values *)
Definition cast_i32 (zs : list Z) : list XR := map (fun z => Some (IZR z)) zs.

Definition DOpt : IsNone (option XR) XR := IsNone_option.
Definition DXOpt : IsNoneX (option XR) XR := IsNoneX_option.
Definition DInt : IsNone XR XR := IsNone_never.
Definition DXInt : IsNoneX XR XR := IsNoneX_never.

Lemma enc_opt_view (xs : list XR) : SameView DOpt IsNoneXR (enc_opt xs) xs.
Proof. unfold SameView, enc_opt. induction xs as [|[r|] xs IH]; cbn [map]; constructor; try exact IH; reflexivity. Qed.
Lemma cast_i32_view (zs : list Z) : SameView DInt IsNoneXR (cast_i32 zs) (cast_i32 zs).
Proof. unfold SameView, cast_i32. induction zs as [|z zs IH]; cbn [map]; constructor; try exact IH; reflexivity. Qed.

Lemma eqb_view_opt_xr : EqbView DOpt IsNoneXR DXOpt IsNoneXXR.
Proof. apply EncRank.eqb_view_option_float. Qed.
Lemma eqb_view_int_xr : EqbView DInt IsNoneXR DXInt IsNoneXXR.
Proof.
  intros a1 b1 a2 b2 Ha Hb Na Nb. unfold same_view, to_opt in Ha, Hb.
  cbn [is_none unwrap DInt IsNone_never IsNoneXR IsNone_float] in Ha, Hb, Na, Nb.
  rewrite Na in Ha. rewrite Nb in Hb. injection Ha as ->. injection Hb as ->. reflexivity.
Qed.

(* the transfer equations: the run on the Option<f64> / i32 series IS the run on the f64 series *)
Lemma winsorize_opt m p xs : winsorize (DT := DOpt) m p (enc_opt xs) = winsorize (DT := IsNoneXR) m p xs.
Proof. apply winsorize_view, enc_opt_view. Qed.
Lemma winsorize_i32 m p zs : winsorize (DT := DInt) m p (cast_i32 zs) = winsorize (DT := IsNoneXR) m p (cast_i32 zs).
Proof. apply winsorize_view, cast_i32_view. Qed.
Lemma vcorr_opt mp sp xs ys :
  vcorr (DT := DOpt) (DX := DXOpt) mp sp (enc_opt xs) (enc_opt ys) = vcorr (DT := IsNoneXR) (DX := IsNoneXXR) mp sp xs ys.
Proof. apply vcorr_view; [apply eqb_view_opt_xr|apply enc_opt_view|apply enc_opt_view]. Qed.
Lemma vcorr_i32 mp sp xs ys :
  vcorr (DT := DInt) (DX := DXInt) mp sp (cast_i32 xs) (cast_i32 ys)
  = vcorr (DT := IsNoneXR) (DX := IsNoneXXR) mp sp (cast_i32 xs) (cast_i32 ys).
Proof. apply vcorr_view; [apply eqb_view_int_xr|apply cast_i32_view|apply cast_i32_view]. Qed.
Lemma vrank_opt pct rev xs :
  vrank (DT := DOpt) (DX := DXOpt) pct rev (enc_opt xs) = vrank (DT := IsNoneXR) (DX := IsNoneXXR) pct rev xs.
Proof. apply EncRank.vrank_view; [apply enc_opt_view|apply eqb_view_opt_xr]. Qed.
Lemma vrank_i32 pct rev zs :
  vrank (DT := DInt) (DX := DXInt) pct rev (cast_i32 zs) = vrank (DT := IsNoneXR) (DX := IsNoneXXR) pct rev (cast_i32 zs).
Proof. apply EncRank.vrank_view; [apply cast_i32_view|apply eqb_view_int_xr]. Qed.

(* an integer series has no null: valid (cast) = the values; mapping the values commutes with the renderings *)
Lemma valid_cast_i32 zs : valid (cast_i32 zs) = map IZR zs.
Proof. unfold cast_i32. induction zs as [|z zs IH]; [reflexivity|]. cbn [map valid flat_map app]. fold (valid (map (fun z => Some (IZR z)) zs)). f_equal. exact IH. Qed.
Lemma length_enc_opt xs : length (enc_opt xs) = length xs.
Proof. apply map_length. Qed.
Lemma length_cast_i32 zs : length (cast_i32 zs) = length zs.
Proof. apply map_length. Qed.
Lemma enc_opt_map (f : R -> R) xs : map (option_map (option_map f)) (enc_opt xs) = enc_opt (map (option_map f) xs).
Proof. unfold enc_opt. rewrite !map_map. apply map_ext. intros [r|]; reflexivity. Qed.
Lemma cast_i32_map (f : R -> R) (g : Z -> Z) zs :
  (forall z, IZR (g z) = f (IZR z)) -> cast_i32 (map g zs) = map (option_map f) (cast_i32 zs).
Proof. intros H. unfold cast_i32. rewrite !map_map. apply map_ext. intros z. cbn. rewrite H. reflexivity. Qed.

Lemma enc_opt_nth_null xs i : nth_error (enc_opt xs) i = Some None <-> nth_error xs i = Some None.
Proof.
  unfold enc_opt. rewrite nth_error_map. destruct (nth_error xs i) as [[r|]|]; cbn [option_map]; split; intros H; try discriminate; reflexivity.
Qed.
Lemma enc_opt_nth_valid xs i x : nth_error (enc_opt xs) i = Some (Some (Some x)) -> nth_error xs i = Some (Some x).
Proof.
  unfold enc_opt. rewrite nth_error_map. destruct (nth_error xs i) as [[r|]|]; cbn [option_map]; intros H; try discriminate.
  injection H as ->. reflexivity.
Qed.
