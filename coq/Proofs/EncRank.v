(* Proofs/EncRank.v — C08 (re-encoding) for the rank map and the partitions:
     vrank (Model/Rank.v), vpartition / varg_partition (Model/Partition.v)
   under two arbitrary null dictionaries and inputs with pointwise equal option views, for EVERY carrier
   (no law of the numeric class is used; axiom-free).

   * the argsort step: the index comparators `cmp_idx (cmp_dir rev) xs1` and `cmp_idx (cmp_dir rev) xs2` are the
     same function (sort_cmp / sort_cmp_rev see an element only through `to_opt`), so the two sorted index vectors
     are EQUAL lists of naturals;
   * the run-length loop reads the series through `is_none` (determined by the view) and through `==` (`teqb`,
     the PartialEq of the element type).  `==` is NOT determined by the view for an arbitrary IsNoneX instance, so
     the statement needs the hypothesis `EqbView`: on two non-null elements `==` agrees under the two encodings
     (f64 `==` on non-NaN values vs Option<f64> `==` on two `Some`s).  The loop only ever compares non-null
     elements (invariant: the element at the current sorted position is non-null — it was the `idx1` of the
     previous iteration, which did not break, resp. the head that `vrank` tests before the loop), which is what the
     relational induction over `seq k n` carries;
   * vpartition returns elements of the input type: the results are related (same panic, or SameView lists), i.e.
     their option views are equal; `T::none()` enters through `tnone`, hence the hypothesis `tnone_rel`;
   * varg_partition returns indices: the results are equal.                                                    *)
From Coq Require Import List Bool Arith ZArith.
From Tevec Require Import Base.Prelude Base.Num Model.NullView Model.SortCmp Model.Rank Model.Partition Proofs.ViewBase.
From Tevec Require Proofs.TransQuantile Proofs.NullOrder.
Import ListNotations.

(* `==` of the element type agrees under the two encodings on non-null elements *)
Definition EqbView {A T1 T2 : Type} (D1 : IsNone T1 A) (D2 : IsNone T2 A)
           (X1 : IsNoneX T1 A) (X2 : IsNoneX T2 A) : Prop :=
  forall (a1 b1 : T1) (a2 b2 : T2),
    same_view D1 D2 a1 a2 -> same_view D1 D2 b1 b2 -> is_none a2 = false -> is_none b2 = false ->
    teqb (IsNoneX := X1) a1 b1 = teqb (IsNoneX := X2) a2 b2.

(* `T::none()` under the two encodings: the same panic (integer types), or two nulls *)
Definition tnone_rel {A T1 T2 : Type} (D1 : IsNone T1 A) (D2 : IsNone T2 A)
           (X1 : IsNoneX T1 A) (X2 : IsNoneX T2 A) : Prop :=
  match tnone (IsNoneX := X1), tnone (IsNoneX := X2) with
  | Ok a, Ok b => same_view D1 D2 a b
  | Panic k1, Panic k2 => k1 = k2
  | _, _ => False
  end.

(* results of element type: the same panic, or lists with pointwise equal option views *)
Definition res_view {A T1 T2 : Type} (D1 : IsNone T1 A) (D2 : IsNone T2 A)
           (r1 : res (list T1)) (r2 : res (list T2)) : Prop :=
  match r1, r2 with
  | Ok l1, Ok l2 => SameView D1 D2 l1 l2
  | Panic k1, Panic k2 => k1 = k2
  | _, _ => False
  end.
Definition res_opt_view {A T : Type} {D : IsNone T A} (r : res (list T)) : res (list (option A)) :=
  match r with Ok l => Ok (opt_view l) | Panic k => Panic k end.

Lemma res_view_opt_view {A T1 T2 : Type} (D1 : IsNone T1 A) (D2 : IsNone T2 A) r1 r2 :
  res_view D1 D2 r1 r2 <-> res_opt_view (D := D1) r1 = res_opt_view (D := D2) r2.
Proof.
  destruct r1 as [l1|k1], r2 as [l2|k2]; cbn [res_view res_opt_view]; split; intros H;
    try contradiction; try discriminate; try congruence.
  - f_equal. apply same_view_opt_view. exact H.
  - injection H as H. apply same_view_opt_view. exact H.
Qed.

Section Instances.
  Context {A : Type} {NA : Num A}.

  (* both real `==` compare two non-null elements by their unwrapped values *)
  Definition eqb_unwrap {T} (D : IsNone T A) (X : IsNoneX T A) : Prop :=
    forall a b, is_none a = false -> is_none b = false -> teqb a b = neqb (unwrap a) (unwrap b).
  Lemma eqb_unwrap_float : eqb_unwrap IsNone_float IsNoneX_float.
  Proof. intros a b _ _. reflexivity. Qed.
  Lemma eqb_unwrap_option : eqb_unwrap IsNone_option IsNoneX_option.
  Proof. intros [a|] [b|] Ha Hb; try discriminate; reflexivity. Qed.

  Lemma eqb_view_of_unwrap {T1 T2} (D1 : IsNone T1 A) (D2 : IsNone T2 A) X1 X2 :
    eqb_unwrap D1 X1 -> eqb_unwrap D2 X2 -> EqbView D1 D2 X1 X2.
  Proof.
    intros H1 H2 a1 b1 a2 b2 Ha Hb Na Nb.
    rewrite H1, H2 by (rewrite ?(sv_is_none Ha), ?(sv_is_none Hb); assumption).
    rewrite (sv_unwrap Ha), (sv_unwrap Hb) by (unfold not_none; rewrite ?Na, ?Nb; reflexivity). reflexivity.
  Qed.

  Lemma eqb_view_float_option : EqbView (IsNone_float (A := A)) IsNone_option IsNoneX_float IsNoneX_option.
  Proof. apply eqb_view_of_unwrap; [apply eqb_unwrap_float|apply eqb_unwrap_option]. Qed.
  Lemma eqb_view_option_float : EqbView (IsNone_option (A := A)) IsNone_float IsNoneX_option IsNoneX_float.
  Proof. apply eqb_view_of_unwrap; [apply eqb_unwrap_option|apply eqb_unwrap_float]. Qed.

  (* T::none(): f64::NAN vs None — related as soon as the carrier's NaN test recognises its NaN (true at binary64
     and at option R; the class has no laws, so it is a hypothesis here) *)
  Lemma tnone_rel_float_option :
    nisnan (nnan (A := A)) = true -> tnone_rel (IsNone_float (A := A)) IsNone_option IsNoneX_float IsNoneX_option.
  Proof.
    intros H. unfold tnone_rel. cbn [tnone IsNoneX_float IsNoneX_option]. unfold same_view, to_opt.
    cbn [is_none unwrap IsNone_float IsNone_option]. rewrite H. reflexivity.
  Qed.
  Lemma tnone_rel_option_float :
    nisnan (nnan (A := A)) = true -> tnone_rel (IsNone_option (A := A)) IsNone_float IsNoneX_option IsNoneX_float.
  Proof.
    intros H. unfold tnone_rel. cbn [tnone IsNoneX_float IsNoneX_option]. unfold same_view, to_opt.
    cbn [is_none unwrap IsNone_float IsNone_option]. rewrite H. reflexivity.
  Qed.
End Instances.

Lemma pad_take_rel {X Y} (R : X -> Y -> Prop) k p1 p2 l1 l2 :
  R p1 p2 -> Forall2 R l1 l2 -> Forall2 R (pad_take k p1 l1) (pad_take k p2 l2).
Proof.
  intros Hp HF. unfold pad_take. apply Forall2_firstn. apply Forall2_app; [exact HF|apply Forall2_repeat; exact Hp].
Qed.

Section Enc.
  Context {A : Type} {NA : Num A} {T1 T2 : Type} (D1 : IsNone T1 A) (D2 : IsNone T2 A)
          (X1 : IsNoneX T1 A) (X2 : IsNoneX T2 A).
  Local Notation SV := (same_view D1 D2).

  Lemma cmp_dir_view rev a1 a2 b1 b2 :
    SV a1 a2 -> SV b1 b2 -> cmp_dir (DT := D1) rev a1 b1 = cmp_dir (DT := D2) rev a2 b2.
  Proof.
    intros Ha Hb. destruct rev; cbn [cmp_dir];
      [apply NullOrder.sort_cmp_rev_view|apply NullOrder.sort_cmp_view]; assumption.
  Qed.

  Lemma valid_idx_gen l1 l2 : SameView D1 D2 l1 l2 -> forall s : list nat,
    flat_map (fun p => if not_none (H := D1) (snd p) then [Z.of_nat (fst p)] else []) (combine s l1) =
    flat_map (fun p => if not_none (H := D2) (snd p) then [Z.of_nat (fst p)] else []) (combine s l2).
  Proof.
    induction 1 as [|a b r1 r2 Hab _ IH]; intros s; [destruct s; reflexivity|].
    destruct s as [|i s]; [reflexivity|]. cbn [combine flat_map fst snd].
    rewrite (sv_not_none Hab). f_equal. apply IH.
  Qed.

  Variables (xs1 : list T1) (xs2 : list T2).
  Hypothesis HS : SameView D1 D2 xs1 xs2.

  Lemma nth_view i :
    match nth_error xs1 i, nth_error xs2 i with
    | Some a, Some b => SV a b | None, None => True | _, _ => False end.
  Proof. apply (Forall2_nth HS). Qed.

  (* the index comparators are the same function *)
  Lemma cmp_idx_view rev a b :
    cmp_idx (cmp_dir (DT := D1) rev) xs1 a b = cmp_idx (cmp_dir (DT := D2) rev) xs2 a b.
  Proof.
    unfold cmp_idx. pose proof (nth_view a) as Ha. pose proof (nth_view b) as Hb.
    destruct (nth_error xs1 a), (nth_error xs2 a); try contradiction;
      destruct (nth_error xs1 b), (nth_error xs2 b); try contradiction; try reflexivity.
    apply cmp_dir_view; assumption.
  Qed.

  (* ... so the argsorts are equal index vectors *)
  Lemma argsort_view rev l :
    isort (cmp_idx (cmp_dir (DT := D1) rev) xs1) l = isort (cmp_idx (cmp_dir (DT := D2) rev) xs2) l.
  Proof. apply TransQuantile.isort_ext_in. intros a b _ _. apply cmp_idx_view. Qed.

  Lemma get_is_none_view i : get_is_none (DT := D1) xs1 i = get_is_none (DT := D2) xs2 i.
  Proof.
    unfold get_is_none. pose proof (nth_view i) as H.
    destruct (nth_error xs1 i), (nth_error xs2 i); try contradiction; [|reflexivity]. apply (sv_is_none H).
  Qed.

  Lemma count_valid_view : count_valid (DT := D1) xs1 = count_valid (DT := D2) xs2.
  Proof. apply NullOrder.count_valid_view. exact HS. Qed.

  Section Rank.
    Hypothesis HE : EqbView D1 D2 X1 X2.

    Lemma get_eq_view i j :
      get_is_none (DT := D2) xs2 i = false -> get_is_none (DT := D2) xs2 j = false ->
      get_eq (DX := X1) xs1 i j = get_eq (DX := X2) xs2 i j.
    Proof.
      unfold get_is_none, get_eq. pose proof (nth_view i) as Hi. pose proof (nth_view j) as Hj.
      destruct (nth_error xs1 i), (nth_error xs2 i); try contradiction;
        destruct (nth_error xs1 j), (nth_error xs2 j); try contradiction; try reflexivity; try discriminate.
      intros Ni Nj. apply HE; assumption.
    Qed.

    (* the run-length loop over consecutive sorted positions k, k+1, ...: the element at position k is non-null *)
    Lemma rank_loop_view pct nn p : forall n k st,
      get_is_none (DT := D2) xs2 (nth k p 0%nat) = false ->
      rank_loop (DT := D1) (DX := X1) pct nn xs1 p (seq k n) st =
      rank_loop (DT := D2) (DX := X2) pct nn xs2 p (seq k n) st.
    Proof.
      induction n as [|n IH]; intros k st Hk; [reflexivity|]. cbn [seq rank_loop].
      rewrite get_is_none_view.
      destruct (get_is_none (DT := D2) xs2 (nth (S k) p 0%nat)) eqn:E1; [reflexivity|].
      rewrite (get_eq_view _ _ Hk E1).
      destruct (get_eq (DX := X2) xs2 (nth k p 0%nat) (nth (S k) p 0%nat)); [apply IH; exact E1|].
      destruct (r_rep st =? 1)%nat; apply IH; exact E1.
    Qed.

    Theorem vrank_view pct rev :
      vrank (DT := D1) (DX := X1) pct rev xs1 = vrank (DT := D2) (DX := X2) pct rev xs2.
    Proof.
      unfold vrank. rewrite (Forall2_len HS).
      destruct (length xs2 =? 0)%nat; [reflexivity|].
      destruct (length xs2 =? 1)%nat; [rewrite get_is_none_view; reflexivity|].
      rewrite argsort_view. rewrite get_is_none_view.
      set (p := isort (cmp_idx (cmp_dir (DT := D2) rev) xs2) (seq 0 (length xs2))).
      destruct (get_is_none (DT := D2) xs2 (nth 0 p 0%nat)) eqn:E0; [reflexivity|].
      rewrite count_valid_view. rewrite (rank_loop_view _ _ _ _ _ _ E0). reflexivity.
    Qed.
  End Rank.

  Lemma valid_idx_view : valid_idx (DT := D1) xs1 = valid_idx (DT := D2) xs2.
  Proof. unfold valid_idx. rewrite (Forall2_len HS). apply valid_idx_gen. exact HS. Qed.

  Theorem varg_partition_view k sort rev :
    varg_partition (DT := D1) k sort rev xs1 = varg_partition (DT := D2) k sort rev xs2.
  Proof.
    unfold varg_partition. rewrite count_valid_view, valid_idx_view, (Forall2_len HS).
    rewrite !argsort_view. reflexivity.
  Qed.

  Lemma isort_view rev l1 l2 :
    SameView D1 D2 l1 l2 -> SameView D1 D2 (isort (cmp_dir (DT := D1) rev) l1) (isort (cmp_dir (DT := D2) rev) l2).
  Proof. intros H. apply NullOrder.isort_rel; [|exact H]. intros a1 a2 b1 b2. apply cmp_dir_view. Qed.

  Theorem vpartition_view k sort rev :
    tnone_rel D1 D2 X1 X2 ->
    res_view D1 D2 (vpartition (DT := D1) (DX := X1) k sort rev xs1) (vpartition (DT := D2) (DX := X2) k sort rev xs2).
  Proof.
    intros HT. unfold vpartition. rewrite count_valid_view.
    pose proof (filter_valid_view HS) as HF. pose proof (isort_view rev _ _ HS) as HI.
    destruct ((count_valid (DT := D2) xs2 =? k + 1)%nat && negb sort); [exact HF|].
    destruct (count_valid (DT := D2) xs2 <=? k + 1)%nat.
    - destruct (negb sort).
      + unfold tnone_rel in HT.
        destruct (tnone (IsNoneX := X1)) as [p1|k1], (tnone (IsNoneX := X2)) as [p2|k2]; try contradiction;
          cbn [bind res_view]; [|exact HT].
        apply pad_take_rel; assumption.
      + rewrite (Forall2_len HI).
        destruct (length (isort (cmp_dir (DT := D2) rev) xs2) <? k + 1)%nat.
        * unfold tnone_rel in HT.
          destruct (tnone (IsNoneX := X1)) as [p1|k1], (tnone (IsNoneX := X2)) as [p2|k2]; try contradiction;
            cbn [bind res_view]; [|exact HT].
          apply pad_take_rel; assumption.
        * cbn [res_view]. apply Forall2_firstn. exact HI.
    - cbn [res_view]. destruct sort.
      + apply isort_view. apply Forall2_firstn. exact HI.
      + apply Forall2_firstn. exact HI.
  Qed.
End Enc.
