(* Proofs/Audit07.v — what Props/C07.v needs beside Proofs/Containers.v: the completeness of try_as_slice, freshly
   collected containers, views of an ndarray view (slice, reversed, stepped), Polars slicing as chunks, and the
   MaybeUninit output buffer written in any order.                                                   Axiom-free. *)
From Coq Require Import Permutation.
From Tevec Require Import Base.Prelude Model.Driver Proofs.Driver Model.Containers Proofs.Containers
     Model.Create Model.Collect Proofs.Collect.

Lemma seg_map {A B} (f : A -> B) a b (l : list A) : seg a b (map f l) = map f (seg a b l).
Proof. unfold seg. rewrite skipn_map, firstn_map. reflexivity. Qed.

Lemma seg_out_of_range {A} a b (l : list A) : length l <= a -> seg a b l = [].
Proof. intros H. unfold seg. rewrite skipn_all2 by exact H. apply firstn_nil. Qed.

Lemma ring_try_as_slice_complete {A} (r : ring A) :
  ring_wf0 r -> rhead r + rlen r <= rcap r -> ring_try_as_slice r = Some (ring_to_list r).
Proof.
  intros Hwf H. destruct (ring_try_as_slice r) as [l|] eqn:E.
  - f_equal. apply (ring_try_as_slice_sound r Hwf). exact E.
  - apply (ring_try_as_slice_offered_iff r Hwf) in E. lia.
Qed.

(* a freshly collected deque *)
Lemma ring_of_list_spec {A} (l : list A) :
  ring_wf0 (ring_of_list l) /\ ring_to_list (ring_of_list l) = l /\ ring_try_as_slice (ring_of_list l) = Some l.
Proof.
  assert (Hwf : ring_wf0 (ring_of_list l)) by (unfold ring_wf0, ring_of_list, rcap; cbn; lia).
  assert (Hl : ring_to_list (ring_of_list l) = l).
  { unfold ring_to_list, ring_of_list. cbn [rbuf rhead rlen skipn firstn]. rewrite app_nil_r. apply firstn_all. }
  split; [exact Hwf|]. split; [exact Hl|].
  rewrite (ring_try_as_slice_complete (ring_of_list l) Hwf) by (unfold ring_of_list, rcap; cbn; lia).
  rewrite Hl. reflexivity.
Qed.

Section StridedAudit.
  Context {A : Type}.
  Variable s : strided A.
  Hypothesis Hwf : strided_wf s.

  (* a view s' over the same memory whose position i is position `phi i` of s: slices, the reversed view and
     stepped views are all of this kind *)
  Lemma strided_reindex (s' : strided A) (phi : nat -> nat) :
    sbase s' = sbase s -> (forall i, i < slen s' -> phi i < slen s /\ spos s' i = spos s (phi i)) ->
    strided_wf s' /\
    (forall i, strided_get s' i = if i <? slen s' then strided_get s (phi i) else None) /\
    (forall i, nth_error (strided_to_list s') i = if i <? slen s' then nth_error (strided_to_list s) (phi i) else None).
  Proof.
    intros Hb Hphi. assert (Hwf' : strided_wf s').
    { intros i Hi. destruct (Hphi i Hi) as [Hp ->]. rewrite Hb. apply Hwf, Hp. }
    assert (Hget : forall i, strided_get s' i = if i <? slen s' then strided_get s (phi i) else None).
    { intros i. unfold strided_get. destruct (Nat.ltb_spec i (slen s')) as [Hi|Hi]; [|reflexivity].
      destruct (Hphi i Hi) as [Hp ->]. rewrite Hb, (ltb_true _ _ Hp). reflexivity. }
    split; [exact Hwf'|]. split; [exact Hget|]. intros i.
    rewrite (strided_to_list_nth s' Hwf'), Hget, (strided_to_list_nth s Hwf). reflexivity.
  Qed.

  Lemma spos_nonneg i : i < slen s -> (0 <= spos s i)%Z.
  Proof. intros Hi. specialize (Hwf i Hi). lia. Qed.

  (* slice(a, b) = s![a..b]: same memory, same stride, offset moved by a strides *)
  Lemma strided_slice_reindex a b : a <= b -> b <= slen s ->
    forall i, i < slen (strided_slice s a b) -> a + i < slen s /\ spos (strided_slice s a b) i = spos s (a + i).
  Proof.
    intros Hab Hb i Hi. cbn [strided_slice slen] in Hi. split; [lia|]. unfold strided_slice, spos at 1. cbn [soff sstep].
    rewrite Z2Nat.id by (apply spos_nonneg; lia). unfold spos. lia.
  Qed.

  Lemma strided_slice_len a b : slen (strided_slice s a b) = b - a.
  Proof. reflexivity. Qed.

  Lemma strided_rev_reindex :
    forall i, i < slen (strided_rev s) -> slen s - 1 - i < slen s /\ spos (strided_rev s) i = spos s (slen s - 1 - i).
  Proof.
    intros i Hi. cbn [strided_rev slen] in Hi. split; [lia|]. unfold strided_rev, spos at 1. cbn [soff sstep].
    rewrite Z2Nat.id by (apply spos_nonneg; lia). unfold spos.
    replace (Z.of_nat (slen s - 1 - i)) with (Z.of_nat (slen s - 1) - Z.of_nat i)%Z by lia. lia.
  Qed.

  (* the stepped view s![..;k] has ceil(len / k) elements *)
  Lemma strided_step_reindex k : 1 <= k ->
    forall i, i < slen (strided_step s k) -> i * k < slen s /\ spos (strided_step s k) i = spos s (i * k).
  Proof.
    intros Hk i Hi. cbn [strided_step slen] in Hi. split.
    - pose proof (Nat.mul_div_le (slen s + k - 1) k ltac:(lia)) as H.
      assert (k * (i + 1) <= k * ((slen s + k - 1) / k)) by (apply Nat.mul_le_mono_l; lia). nia.
    - unfold strided_step, spos. cbn [soff sstep]. rewrite Nat2Z.inj_mul. lia.
  Qed.

  (* try_as_slice: offered for the standard layout, and then it is the logical sequence *)
  Lemma strided_try_as_slice_complete :
    (sstep s = 1%Z \/ slen s <= 1) -> strided_try_as_slice s = Some (strided_to_list s).
  Proof.
    intros H. destruct (strided_try_as_slice s) as [l|] eqn:E.
    - f_equal. apply (strided_try_as_slice_sound s Hwf). exact E.
    - unfold strided_try_as_slice in E. destruct (orb _ _) eqn:Eo; [discriminate|].
      apply Bool.orb_false_iff in Eo. destruct Eo as [E1 E2]. apply Z.eqb_neq in E1. apply Nat.leb_gt in E2. lia.
  Qed.
End StridedAudit.

(* an owned array *)
Lemma strided_of_list_spec {A} (l : list A) :
  strided_wf (strided_of_list l) /\ strided_to_list (strided_of_list l) = l
  /\ strided_try_as_slice (strided_of_list l) = Some l.
Proof.
  assert (Hwf : strided_wf (strided_of_list l)).
  { intros i Hi. unfold strided_of_list, spos in *. cbn [soff sstep sbase slen] in *. lia. }
  assert (Hl : strided_to_list (strided_of_list l) = l).
  { rewrite <- (view_seq_list l) at 2. unfold strided_to_list. apply view_seq_ext. intros i Hi.
    unfold strided_of_list, spos. cbn [soff sstep sbase slen]. do 2 f_equal. lia. }
  split; [exact Hwf|]. split; [exact Hl|].
  rewrite (strided_try_as_slice_complete _ Hwf) by (left; reflexivity). rewrite Hl. reflexivity.
Qed.

Lemma chunked_skip_spec {A} (c : chunked A) a : chunked_to_list (chunked_skip c a) = skipn a (chunked_to_list c).
Proof.
  unfold chunked_to_list. revert a. induction c as [|ch rest IH]; intros a; [destruct a; reflexivity|].
  cbn [chunked_skip concat]. destruct (a <? length ch) eqn:E.
  - apply Nat.ltb_lt in E. cbn [concat]. rewrite skipn_app.
    replace (a - length ch) with 0 by lia. reflexivity.
  - apply Nat.ltb_ge in E. rewrite IH, skipn_app. rewrite (skipn_all2 ch) by exact E. reflexivity.
Qed.

Lemma chunked_take_spec {A} (c : chunked A) n : chunked_to_list (chunked_take c n) = firstn n (chunked_to_list c).
Proof.
  unfold chunked_to_list. revert n. induction c as [|ch rest IH]; intros n; [destruct n; reflexivity|].
  cbn [chunked_take concat]. destruct (n <=? length ch) eqn:E.
  - apply Nat.leb_le in E. cbn [concat]. rewrite app_nil_r, firstn_app.
    replace (n - length ch) with 0 by lia. cbn [firstn]. rewrite app_nil_r. reflexivity.
  - apply Nat.leb_gt in E. cbn [concat]. rewrite IH, firstn_app. rewrite (firstn_all2 ch) by lia. reflexivity.
Qed.

Lemma optview_is_to_opt_iter {T I} (to_opt : T -> option I) (l : list T) :
  optview_to_list to_opt l = to_opt_iter_m to_opt l.
Proof. reflexivity. Qed.

(* the MaybeUninit output buffer (Vec / VecDeque / Array1 as OUTPUT; Model/Driver.v set_nth / assume_init):
   uninit(len), uset(i, v), assume_init *)
Lemma set_nth_length {O} i (v : O) buf : length (set_nth i v buf) = length buf.
Proof. rewrite set_nth_update. apply update_length. Qed.

Lemma set_nth_nth {O} i (v : O) buf j :
  nth_error (set_nth i v buf) j = if (j =? i) && (i <? length buf) then Some (Some v) else nth_error buf j.
Proof. rewrite set_nth_update. apply nth_error_update. Qed.

(* an out-of-range store is dropped by the model buffer (it is what C10 forbids) — it never changes a slot *)
Lemma set_nth_out_of_range {O} i (v : O) buf : length buf <= i -> set_nth i v buf = buf.
Proof. rewrite set_nth_update. apply update_oob. Qed.

Lemma assume_init_None_iff {O} (buf : list (option O)) :
  assume_init buf = None <-> exists j, nth_error buf j = Some None.
Proof.
  induction buf as [|c buf IH].
  - cbn. split; [discriminate|]. intros [j H]. destruct j; discriminate.
  - destruct c as [v|]; cbn [assume_init].
    + destruct (assume_init buf) as [l|] eqn:E.
      * split; [discriminate|]. intros [j H]. destruct j as [|j]; [discriminate|].
        cbn in H.
        destruct IH as [_ IH]. specialize (IH (ex_intro _ j H)). discriminate.
      * split; [intros _|reflexivity]. destruct IH as [IH _]. destruct (IH eq_refl) as [j H].
        exists (S j). exact H.
    + split; [intros _; exists 0; reflexivity|reflexivity].
Qed.

Lemma finish_cases {O} (buf : list (option O)) :
  (exists l, finish buf = Done l /\ buf = map Some l) \/ (finish buf = Uninit buf /\ exists j, nth_error buf j = Some None).
Proof.
  unfold finish. destruct (assume_init buf) as [l|] eqn:E.
  - left. exists l. split; [reflexivity|]. apply assume_init_Some_iff. exact E.
  - right. split; [reflexivity|]. apply assume_init_None_iff. exact E.
Qed.

(* ---- stores in ANY order, any number of times (Collect.apply_writes = the uset calls in order) ---- *)
Definition last_write {O} (j : nat) (ws : list (nat * O)) : option O :=
  option_map snd (find (fun w => fst w =? j) (rev ws)).

Lemma apply_writes_snoc {O} (ws : list (nat * O)) w buf :
  apply_writes (ws ++ [w]) buf = set_nth (fst w) (snd w) (apply_writes ws buf).
Proof. unfold apply_writes. rewrite fold_left_app. reflexivity. Qed.

Lemma apply_writes_length {O} (ws : list (nat * O)) buf : length (apply_writes ws buf) = length buf.
Proof.
  induction ws as [|w ws IH] using rev_ind; [reflexivity|]. rewrite apply_writes_snoc, set_nth_length. exact IH.
Qed.

Lemma apply_writes_nth {O} (ws : list (nat * O)) buf j :
  nth_error (apply_writes ws buf) j
  = match last_write j ws with
    | Some v => if j <? length buf then Some (Some v) else None
    | None => nth_error buf j
    end.
Proof.
  induction ws as [|w ws IH] using rev_ind; [reflexivity|].
  rewrite apply_writes_snoc, set_nth_nth, apply_writes_length. unfold last_write in *.
  rewrite rev_app_distr. cbn [rev app find]. rewrite (Nat.eqb_sym j (fst w)).
  destruct (fst w =? j) eqn:E; cbn [andb option_map].
  - apply Nat.eqb_eq in E. subst j. destruct (fst w <? length buf) eqn:E2; [reflexivity|].
    rewrite IH. destruct (option_map snd _); [reflexivity|].
    apply Nat.ltb_ge in E2. apply nth_error_None. exact E2.
  - exact IH.
Qed.

Lemma last_write_In {O} j (ws : list (nat * O)) : In j (map fst ws) -> last_write j ws <> None.
Proof.
  intros Hin H. unfold last_write in H. destruct (find _ (rev ws)) eqn:E; [discriminate|].
  apply in_map_iff in Hin. destruct Hin as (w & Hw & Hi).
  pose proof (find_none _ _ E w ltac:(apply -> in_rev; exact Hi)) as Hf. cbn in Hf.
  apply Nat.eqb_neq in Hf. contradiction.
Qed.

Lemma last_write_not_In {O} j (ws : list (nat * O)) : ~ In j (map fst ws) -> last_write j ws = None.
Proof.
  intros Hn. unfold last_write. destruct (find _ (rev ws)) as [w|] eqn:E; [|reflexivity].
  apply find_some in E. destruct E as [Hi Hf]. apply Nat.eqb_eq in Hf. exfalso. apply Hn.
  apply in_map_iff. exists w. split; [exact Hf|]. apply in_rev. exact Hi.
Qed.

Lemma last_write_mem {O} j (ws : list (nat * O)) v : last_write j ws = Some v -> In (j, v) ws.
Proof.
  unfold last_write. destruct (find _ (rev ws)) as [w|] eqn:E; [|discriminate].
  intros H. injection H as <-. apply find_some in E. destruct E as [Hi Hf]. apply Nat.eqb_eq in Hf.
  apply in_rev in Hi. destruct w as [k x]. cbn in *. subst k. exact Hi.
Qed.

Lemma NoDup_fst_functional {O} (ws : list (nat * O)) j v v' :
  NoDup (map fst ws) -> In (j, v) ws -> In (j, v') ws -> v = v'.
Proof.
  induction ws as [|[k x] ws IH]; intros Hnd H1 H2; [destruct H1|].
  cbn [map fst] in Hnd. inversion Hnd as [|? ? Hnot Hnd']; subst.
  destruct H1 as [H1|H1], H2 as [H2|H2].
  - congruence.
  - injection H1 as -> ->. exfalso. apply Hnot. apply in_map_iff. exists (j, v'). split; [reflexivity|exact H2].
  - injection H2 as -> ->. exfalso. apply Hnot. apply in_map_iff. exists (j, v). split; [reflexivity|exact H1].
  - apply IH; assumption.
Qed.

(* after any stores into a fresh buffer, slot j holds the last value stored there, if any *)
Lemma apply_writes_uninit_nth {O} (ws : list (nat * O)) n j :
  nth_error (apply_writes ws (repeat None n)) j = if j <? n then Some (last_write j ws) else None.
Proof.
  rewrite apply_writes_nth, repeat_length, nth_error_repeat. destruct (last_write j ws), (j <? n); reflexivity.
Qed.

(* every slot stored at least once: the buffer is exposed, complete, and slot j holds the LAST value stored there *)
Lemma writes_cover_all {O} (ws : list (nat * O)) n :
  (forall j, j < n -> In j (map fst ws)) ->
  exists l, finish (apply_writes ws (repeat None n)) = Done l /\ length l = n /\
            forall j, j < n -> nth_error l j = last_write j ws.
Proof.
  intros Hall. pose proof (apply_writes_uninit_nth ws n) as Hnth.
  destruct (finish_cases (apply_writes ws (repeat None n))) as [(l & Hf & Hb)|(_ & j & Hj)].
  - exists l. split; [exact Hf|]. split.
    + rewrite <- (map_length Some l), <- Hb, apply_writes_length. apply repeat_length.
    + intros j Hj. specialize (Hnth j). rewrite Hb, nth_error_map, (ltb_true _ _ Hj) in Hnth.
      destruct (nth_error l j); cbn in Hnth; congruence.
  - exfalso. rewrite Hnth in Hj. destruct (Nat.ltb_spec j n) as [Hlt|]; [|discriminate].
    injection Hj as Hj. exact (last_write_In j ws (Hall j Hlt) Hj).
Qed.

(* every slot exactly once, in any order (a permutation of 0..n-1 — e.g. vrank's uset order): slot j holds THE value
   stored at j *)
Lemma writes_permutation {O} (ws : list (nat * O)) n :
  Permutation (map fst ws) (seq 0 n) ->
  exists l, finish (apply_writes ws (repeat None n)) = Done l /\ length l = n /\
            forall j v, In (j, v) ws -> nth_error l j = Some v.
Proof.
  intros Hp.
  assert (Hnd : NoDup (map fst ws)) by (apply (Permutation_NoDup (Permutation_sym Hp)); apply seq_NoDup).
  assert (Hall : forall j, j < n -> In j (map fst ws)).
  { intros j Hj. apply (Permutation_in _ (Permutation_sym Hp)). apply in_seq. lia. }
  destruct (writes_cover_all ws n Hall) as (l & Hf & Hl & Hs). exists l. split; [exact Hf|]. split; [exact Hl|].
  intros j v Hin.
  assert (Hj : j < n).
  { assert (In j (seq 0 n)) as H by (apply (Permutation_in _ Hp); apply in_map_iff; exists (j, v); split; [reflexivity|exact Hin]).
    apply in_seq in H. lia. }
  specialize (Hs j Hj). destruct (last_write j ws) as [v'|] eqn:E.
  - apply last_write_mem in E. rewrite (NoDup_fst_functional ws j v v' Hnd Hin E). exact Hs.
  - exfalso. apply (last_write_In j ws (Hall j Hj)). exact E.
Qed.

(* a slot that is never stored keeps the buffer from being exposed as initialised *)
Lemma missing_slot_uninit {O} (ws : list (nat * O)) n j :
  j < n -> ~ In j (map fst ws) ->
  finish (apply_writes ws (repeat None n)) = Uninit (apply_writes ws (repeat None n)).
Proof.
  intros Hj Hn. unfold finish.
  rewrite (proj2 (assume_init_None_iff _)); [reflexivity|].
  exists j. rewrite apply_writes_uninit_nth, (ltb_true _ _ Hj), (last_write_not_In j ws Hn). reflexivity.
Qed.

(* slice form: the caller-buffer body (rolling_custom_to; also the Vec / ndarray override of the returned path) and
   the lazy body (rolling_custom_iter collected) agree for every window >= 1 *)
Section Paths.
  Context {T St O : Type}.
  Lemma custom_paths_agree (w : nat) (f : St -> list T -> St * O) (s0 : St) (xs : list T) :
    1 <= w -> rolling_custom_to w f s0 xs = rolling_custom_default w f s0 xs.
  Proof. intros Hw. rewrite rolling_custom_to_eq, rolling_custom_default_eq by exact Hw. reflexivity. Qed.
End Paths.

(* the lazy slice form collected by a trusted-length collector / written through write_trust_iter into a buffer of
   the series' length: the announced length is the number of items, so both give the sequence the iterator yields *)
Lemma lazy_collected_and_written {O} (items : list O) :
  collect_trusted (length items) items = Done items /\
  (let r := write_trust_iter (length items) (exact_iter items) in
   fst r = WOk /\ map fst (snd r) = seq 0 (length items)
   /\ finish (apply_writes (snd r) (repeat None (length items))) = Done items).
Proof.
  split.
  - pose proof (collect_from_trusted_exact BRaw items) as H. exact H.
  - cbv zeta. pose proof (write_trust_iter_spec (repeat None (length items)) items) as H. cbv zeta in H.
    rewrite repeat_length in H. destruct H as (H & _). destruct (H eq_refl) as (H1 & H2 & H3).
    split; [exact H1|]. split; [exact H2|]. rewrite H3. unfold finish. rewrite assume_init_map_Some. reflexivity.
Qed.
