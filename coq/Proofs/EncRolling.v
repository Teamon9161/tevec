(* Proofs/EncRolling.v — C08 for the rolling families: the result does not depend on how nulls are encoded.
   Every carrier, every pair of null dictionaries, both driver bodies, EVERY window (0 included), every
   min_periods.  No law of the numeric class is used, so the statements hold bit for bit at binary64.
     * ts_run_rel  : any two add-emit-remove features whose steps agree on related elements (generalises
       Proofs/Generic.v: encoding_independent to an arbitrary relation, e.g. on pairs of two series);
     * idx_run_rel : the same for the window-index driver (callbacks that read the series through uget);
     * instances: moments, ewm, wma, z-score, trend regressions, cov / corr / regx (two series,
       each series with its own dictionary), rolling extrema / arg-extrema, rank, min-max normalisation,
       regx residual statistics, fractional differencing (slice driver).                                  *)
From Coq Require Import Lia List Bool.
From Tevec Require Import Base.Prelude Base.Num Model.Driver Proofs.Driver Model.Features Model.Cmp Model.Norm
     Model.Binary Model.Reg Model.Fdiff Model.NullView Proofs.Generic Proofs.ViewBase.
Import ListNotations.
Set Implicit Arguments.

Definition opt_rel {X Y} (R : X -> Y -> Prop) (a : option X) (b : option Y) : Prop :=
  match a, b with Some x, Some y => R x y | None, None => True | _, _ => False end.

Section RunRel.
  Context {T1 T2 St O : Type} (R : T1 -> T2 -> Prop) (F1 : feat T1 St O) (F2 : feat T2 St O).
  Hypothesis Hinit : f_init F1 = f_init F2.
  Hypothesis Hemit : forall s, f_emit F1 s = f_emit F2 s.
  Hypothesis Hpre : forall s a b, R a b -> f_pre F1 s a = f_pre F2 s b.
  Hypothesis Hpost0 : forall s, f_post F1 s None = f_post F2 s None.
  Hypothesis Hpost : forall s a b, R a b -> f_post F1 s (Some a) = f_post F2 s (Some b).

  Lemma bad_window_rel w (xs1 : list T1) (xs2 : list T2) :
    Forall2 R xs1 xs2 -> bad_window w xs1 = bad_window w xs2.
  Proof. intros HF. unfold bad_window. rewrite (Forall2_len HF). reflexivity. Qed.

  Theorem ts_run_rel xs1 xs2 w body : Forall2 R xs1 xs2 -> ts_run F1 body w xs1 = ts_run F2 body w xs2.
  Proof.
    intros HF. destruct w as [|w].
    - (* window 0: rejected unless the series is empty *)
      destruct HF as [|a b r1 r2 Hab HF]; [destruct body; reflexivity|].
      unfold ts_run, rolling_apply_to, rolling_apply_default, bad_window. cbn [Nat.eqb length andb negb].
      destruct body; reflexivity.
    - assert (Hw : 1 <= S w) by lia. rewrite !ts_run_iter by exact Hw. f_equal. rewrite Hinit.
      apply (run_rel (fun (a1 : option T1 * T1) (a2 : option T2 * T2) =>
                        R (snd a1) (snd a2) /\ opt_rel R (fst a1) (fst a2))).
      + intros s [rm1 v1] [rm2 v2] [Hv Hrm]. cbn [fst snd] in *. unfold feat_cb. cbn [fst snd].
        rewrite (Hpre s Hv), Hemit. f_equal.
        destruct rm1 as [r1|], rm2 as [r2|]; cbn [opt_rel] in Hrm; try contradiction;
          [apply Hpost; exact Hrm|apply Hpost0].
      + apply (Forall2_mapi R); [exact HF|].
        intros i a b Ha Hb Hab. cbn [fst snd]. split; [exact Hab|].
        unfold removed. destruct (i <? S w - 1); [exact I|].
        pose proof (Forall2_nth_error _ _ _ HF (i - (S w - 1))) as Hn. unfold opt_rel.
        destruct (nth_error xs1 (i - (S w - 1))), (nth_error xs2 (i - (S w - 1))); exact Hn.
  Qed.
End RunRel.

(* one series, two dictionaries *)
Section OneSeries.
  Context {A : Type} {NA : Num A} {T1 T2 : Type} (D1 : IsNone T1 A) (D2 : IsNone T2 A).
  Local Notation SV := (same_view D1 D2).

  Theorem mom_same_view (emit : @mom A -> A) xs1 xs2 w body :
    SameView D1 D2 xs1 xs2 -> ts_run (mom_feat (DT := D1) emit) body w xs1 = ts_run (mom_feat (DT := D2) emit) body w xs2.
  Proof.
    apply (ts_run_rel (R := SV)); try reflexivity; cbn [f_pre f_post mom_feat].
    - intros s a b E. unfold mom_pre. destruct (sv_cases E) as [[-> ->]|(-> & -> & ->)]; reflexivity.
    - intros s a b E. unfold mom_post. destruct (sv_cases E) as [[-> ->]|(-> & -> & ->)]; reflexivity.
  Qed.

  Theorem ewm_same_view w0 mp xs1 xs2 w body :
    SameView D1 D2 xs1 xs2 -> ts_run (ts_vewm_f (DT := D1) w0 mp) body w xs1 = ts_run (ts_vewm_f (DT := D2) w0 mp) body w xs2.
  Proof.
    apply (ts_run_rel (R := SV)); try reflexivity; cbn [f_pre f_post ts_vewm_f].
    - intros s a b E. unfold ewm_pre. destruct (sv_cases E) as [[-> ->]|(-> & -> & ->)]; reflexivity.
    - intros s a b E. unfold ewm_post. destruct (sv_cases E) as [[-> ->]|(-> & -> & ->)]; reflexivity.
  Qed.

  Theorem wma_same_view w0 mp xs1 xs2 w body :
    SameView D1 D2 xs1 xs2 -> ts_run (ts_vwma_f (DT := D1) w0 mp) body w xs1 = ts_run (ts_vwma_f (DT := D2) w0 mp) body w xs2.
  Proof.
    apply (ts_run_rel (R := SV)); try reflexivity; cbn [f_pre f_post ts_vwma_f].
    - intros s a b E. unfold wma_pre. destruct (sv_cases E) as [[-> ->]|(-> & -> & ->)]; reflexivity.
    - intros s a b E. unfold wma_post. destruct (sv_cases E) as [[-> ->]|(-> & -> & ->)]; reflexivity.
  Qed.

  Theorem zscore_same_view mp xs1 xs2 w body :
    SameView D1 D2 xs1 xs2 -> ts_vzscore (DT := D1) body w mp xs1 = ts_vzscore (DT := D2) body w mp xs2.
  Proof.
    unfold ts_vzscore. apply (ts_run_rel (R := SV)); try reflexivity; cbn [f_pre f_post ts_vzscore_f].
    - intros s a b E. unfold zs_pre. destruct (sv_cases E) as [[-> ->]|(-> & -> & ->)]; reflexivity.
    - intros s a b E. unfold zs_post. destruct (sv_cases E) as [[-> ->]|(-> & -> & ->)]; reflexivity.
  Qed.

  (* the five time-trend regressions share the accumulator; `emit` is arbitrary *)
  Theorem trend_same_view (emit : @tr_st A -> A) xs1 xs2 w body :
    SameView D1 D2 xs1 xs2 -> ts_run (tr_feat (DT := D1) emit) body w xs1 = ts_run (tr_feat (DT := D2) emit) body w xs2.
  Proof.
    apply (ts_run_rel (R := SV)); try reflexivity; cbn [f_pre f_post tr_feat].
    - intros s a b E. unfold tr_pre. destruct (sv_cases E) as [[-> ->]|(-> & -> & ->)]; reflexivity.
    - intros s a b E. unfold tr_post. destruct (sv_cases E) as [[-> ->]|(-> & -> & ->)]; reflexivity.
  Qed.
End OneSeries.

(* two series, each with its own pair of dictionaries *)
Section TwoSeries.
  Context {A : Type} {NA : Num A} {T1 T2 U1 U2 : Type}
          (D1 : IsNone T1 A) (D2 : IsNone T2 A) (E1 : IsNone U1 A) (E2 : IsNone U2 A).
  Definition pair_view (p : T1 * T2) (q : U1 * U2) : Prop :=
    same_view D1 E1 (fst p) (fst q) /\ same_view D2 E2 (snd p) (snd q).

  Lemma both_view p q : pair_view p q -> both (D1 := D1) (D2 := D2) p = both (D1 := E1) (D2 := E2) q.
  Proof. intros [Ha Hb]. unfold both. rewrite (sv_not_none Ha), (sv_not_none Hb). reflexivity. Qed.
  Lemma both_unwrap p q : pair_view p q -> both (D1 := E1) (D2 := E2) q = true ->
    unwrap (fst p) = unwrap (fst q) /\ unwrap (snd p) = unwrap (snd q).
  Proof.
    intros [Ha Hb] H. unfold both in H. apply andb_prop in H. destruct H as [H1 H2].
    split; [apply (sv_unwrap Ha H1)|apply (sv_unwrap Hb H2)].
  Qed.

  Lemma csum_pre_view s p q : pair_view p q -> csum_pre (D1 := D1) (D2 := D2) s p = csum_pre (D1 := E1) (D2 := E2) s q.
  Proof.
    intros H. unfold csum_pre. rewrite (both_view H). destruct (both q) eqn:Hq; [|reflexivity].
    destruct (both_unwrap H Hq) as [-> ->]. reflexivity.
  Qed.
  Lemma csum_post_view s p q :
    pair_view p q -> csum_post (D1 := D1) (D2 := D2) s (Some p) = csum_post (D1 := E1) (D2 := E2) s (Some q).
  Proof.
    intros H. unfold csum_post. rewrite (both_view H). destruct (both q) eqn:Hq; [|reflexivity].
    destruct (both_unwrap H Hq) as [-> ->]. reflexivity.
  Qed.

  (* ts_vcov, ts_vcorr, ts_vregx_alpha, ts_vregx_beta, ts_vregx_all: any emit function of the cross sums *)
  Theorem csum_same_view {O} (emit : @csum A -> O) xs ys xs' ys' w body :
    SameView D1 E1 xs xs' -> SameView D2 E2 ys ys' ->
    ts_run2 (csum_feat (D1 := D1) (D2 := D2) emit) body w xs ys =
    ts_run2 (csum_feat (D1 := E1) (D2 := E2) emit) body w xs' ys'.
  Proof.
    intros HX HY. pose proof (Forall2_combine HX HY) as HZ. fold pair_view in HZ.
    assert (Hrun : forall b, ts_run (csum_feat (D1 := D1) (D2 := D2) emit) b w (combine xs ys) =
                             ts_run (csum_feat (D1 := E1) (D2 := E2) emit) b w (combine xs' ys')).
    { intros b. apply (ts_run_rel (R := pair_view)); try reflexivity; [| |exact HZ]; cbn [f_pre f_post csum_feat].
      - intros s p q H. apply csum_pre_view. exact H.
      - intros s p q H. apply csum_post_view. exact H. }
    pose proof (bad_window_rel w HX) as Hbw.
    unfold ts_run2. destruct body.
    - unfold rolling2_apply_to. rewrite (Forall2_len HX), (Forall2_len HY).
      destruct (length ys' <? length xs'); [reflexivity|]. exact (Hrun true).
    - rewrite !rolling2_apply_default_unfold, Hbw. destruct (bad_window w xs'); [reflexivity|]. exact (Hrun false).
  Qed.
End TwoSeries.

Section IdxPlainRel.
  Context {T1 T2 St O : Type} (R : T1 -> T2 -> Prop).
  Variable f1 : St -> option nat * nat * T1 -> St * O.
  Variable f2 : St -> option nat * nat * T2 -> St * O.
  Hypothesis Hf : forall s st e a b, R a b -> f1 s (st, e, a) = f2 s (st, e, b).

  Theorem idx_plain_rel xs1 xs2 w (body : bool) s0 :
    Forall2 R xs1 xs2 ->
    (if body then rolling_apply_idx_to w f1 s0 xs1 else rolling_apply_idx_default w f1 s0 xs1) =
    (if body then rolling_apply_idx_to w f2 s0 xs2 else rolling_apply_idx_default w f2 s0 xs2).
  Proof.
    intros HF. destruct w as [|w].
    - destruct HF as [|a b r1 r2 Hab HF]; [destruct body; reflexivity|].
      unfold rolling_apply_idx_to, rolling_apply_idx_default, bad_window. cbn [Nat.eqb length andb negb].
      destruct body; reflexivity.
    - assert (Hw : 1 <= S w) by lia.
      assert (Hrun : forall w', run f1 s0 (mapi (fun i v => (start_of w' i, i, v)) xs1) =
                                run f2 s0 (mapi (fun i v => (start_of w' i, i, v)) xs2)).
      { intros w'.
        apply (run_rel (fun (a1 : option nat * nat * T1) (a2 : option nat * nat * T2) =>
                          fst a1 = fst a2 /\ R (snd a1) (snd a2))).
        - intros s [[st1 e1] a] [[st2 e2] b] [Hse Hab]. cbn [fst snd] in *. injection Hse as -> ->.
          apply Hf. exact Hab.
        - apply (Forall2_mapi R); [exact HF|]. intros i a b _ _ Hab. cbn [fst snd]. split; [reflexivity|exact Hab]. }
      destruct body.
      + rewrite !rolling_apply_idx_to_eq by exact Hw. unfold args_to_idx. rewrite (Forall2_len HF), Hrun. reflexivity.
      + rewrite !rolling_apply_idx_default_eq by exact Hw. rewrite Hrun. reflexivity.
  Qed.
End IdxPlainRel.

(* callbacks that may panic: `idx_run` is the plain driver on the lifted callback *)
Theorem idx_run_rel {T1 T2 St O} (R : T1 -> T2 -> Prop)
        (cb1 : St -> option nat * nat * T1 -> res (St * O)) (cb2 : St -> option nat * nat * T2 -> res (St * O)) :
  (forall s st e a b, R a b -> cb1 s (st, e, a) = cb2 s (st, e, b)) ->
  forall xs1 xs2 w body s0, Forall2 R xs1 xs2 -> idx_run body w cb1 s0 xs1 = idx_run body w cb2 s0 xs2.
Proof.
  intros Hcb xs1 xs2 w body s0 HF. unfold idx_run. f_equal. apply (idx_plain_rel (R := R)); [|exact HF].
  intros [s|k] st e a b Hab; unfold lift_cb; [rewrite (Hcb s st e a b Hab)|]; reflexivity.
Qed.

(* reading related series through uget: the same panic, or related elements handed to the continuation *)
Lemma bind_uget_rel {T1 T2 X} (R : T1 -> T2 -> Prop) xs1 xs2 i (k1 : T1 -> res X) (k2 : T2 -> res X) :
  Forall2 R xs1 xs2 -> (forall a b, R a b -> k1 a = k2 b) -> bind (uget xs1 i) k1 = bind (uget xs2 i) k2.
Proof.
  intros HF Hk. unfold uget. pose proof (Forall2_nth HF i) as Hn.
  destruct (nth_error xs1 i), (nth_error xs2 i); try contradiction; cbn [bind]; [apply Hk; exact Hn|reflexivity].
Qed.

Section CmpFamily.
  Context {A : Type} {NA : Num A} {T1 T2 : Type} (D1 : IsNone T1 A) (D2 : IsNone T2 A).
  Local Notation SV := (same_view D1 D2).
  Variables (xs1 : list T1) (xs2 : list T2).
  Hypothesis HS : SameView D1 D2 xs1 xs2.
  Variable scmp : option A -> option A -> comparison.

  Lemma rescan_view cnt i m mi : rescan (DT := D1) scmp xs1 i cnt m mi = rescan (DT := D2) scmp xs2 i cnt m mi.
  Proof.
    revert i m mi. induction cnt as [|c IH]; intros i m mi; [reflexivity|]. cbn [rescan].
    apply (bind_uget_rel (R := SV)); [exact HS|]. intros a b Hu.
    unfold same_view in Hu. rewrite Hu. destruct (takes (scmp (to_opt b) m)); apply IH.
  Qed.

  Lemma ext_step_view s st e a b : SV a b -> ext_step (DT := D1) scmp xs1 s st e a = ext_step (DT := D2) scmp xs2 s st e b.
  Proof.
    intros E. unfold ext_step. unfold same_view in E. rewrite E.
    match goal with |- (if ?c then _ else _) = _ => destruct c end; [|reflexivity].
    destruct st as [st|]; [|reflexivity].
    apply (bind_uget_rel (R := SV)); [exact HS|]. intros a0 b0 Hu.
    unfold same_view in Hu. rewrite Hu, rescan_view. reflexivity.
  Qed.

  Lemma ext_post_view s st : ext_post (DT := D1) xs1 s st = ext_post (DT := D2) xs2 s st.
  Proof.
    unfold ext_post. destruct st as [st|]; [|reflexivity].
    apply (bind_uget_rel (R := SV)); [exact HS|]. intros a0 b0 Hu. rewrite (sv_not_none Hu). reflexivity.
  Qed.

  Theorem ts_vext_same_view body w mp : ts_vext (DT := D1) scmp body w mp xs1 = ts_vext (DT := D2) scmp body w mp xs2.
  Proof.
    unfold ts_vext, cmp_window. rewrite (Forall2_len HS). apply (idx_run_rel (R := SV)); [|exact HS].
    intros s st e a b E. unfold vext_cb. rewrite (ext_step_view s st e E).
    destruct (ext_step scmp xs2 s st e b) as [s1|k]; cbn [bind]; [|reflexivity]. rewrite ext_post_view. reflexivity.
  Qed.
  Theorem ts_varg_same_view body w mp : ts_varg (DT := D1) scmp body w mp xs1 = ts_varg (DT := D2) scmp body w mp xs2.
  Proof.
    unfold ts_varg, cmp_window. rewrite (Forall2_len HS). apply (idx_run_rel (R := SV)); [|exact HS].
    intros s st e a b E. unfold varg_cb. rewrite (ext_step_view s st e E).
    destruct (ext_step scmp xs2 s st e b) as [s1|k]; cbn [bind]; [|reflexivity]. rewrite ext_post_view. reflexivity.
  Qed.
End CmpFamily.

Section RankFamily.
  Context {A : Type} {NA : Num A} {T1 T2 : Type} (D1 : IsNone T1 A) (D2 : IsNone T2 A) {B : Type} {NB : Num B}.
  Local Notation SV := (same_view D1 D2).
  Variables (xs1 : list T1) (xs2 : list T2).
  Hypothesis HS : SameView D1 D2 xs1 xs2.

  Lemma rank_loop_view (x : A) cnt i (rank : B) nrep :
    rank_loop (DT := D1) xs1 x i cnt rank nrep = rank_loop (DT := D2) xs2 x i cnt rank nrep.
  Proof.
    revert i rank nrep. induction cnt as [|c IH]; intros i rank nrep; [reflexivity|]. cbn [rank_loop].
    apply (bind_uget_rel (R := SV)); [exact HS|]. intros a b Hu.
    destruct (sv_cases Hu) as [[-> ->]|(-> & -> & ->)]; [apply IH|].
    destruct (nltb (unwrap b) x); [apply IH|]. destruct (neqb (unwrap b) x); apply IH.
  Qed.

  Theorem ts_vrank_same_view body w mp pct rev :
    ts_vrank (DT := D1) (B := B) body w mp pct rev xs1 = ts_vrank (DT := D2) (B := B) body w mp pct rev xs2.
  Proof.
    unfold ts_vrank, cmp_window. rewrite (Forall2_len HS). apply (idx_run_rel (R := SV)); [|exact HS].
    intros n st e a b E. unfold vrank_cb.
    assert (Hfirst :
      (if not_none a then
         do rr <- rank_loop (DT := D1) xs1 (unwrap a) (match st with Some s => s | None => 0 end)
                            (e - match st with Some s => s | None => 0 end) (none : B) 1;
         Ok (S n, fst rr, snd rr)
       else Ok (n, nnan, 1)) =
      (if not_none b then
         do rr <- rank_loop (DT := D2) xs2 (unwrap b) (match st with Some s => s | None => 0 end)
                            (e - match st with Some s => s | None => 0 end) (none : B) 1;
         Ok (S n, fst rr, snd rr)
       else Ok (n, nnan, 1))).
    { destruct (sv_cases E) as [[-> ->]|(-> & -> & ->)]; [reflexivity|]. rewrite rank_loop_view. reflexivity. }
    rewrite Hfirst. clear Hfirst.
    match goal with |- bind ?r _ = bind ?r _ => destruct r as [[[n1 rank] nrep]|k] end; cbn [bind]; [|reflexivity].
    destruct (min (length xs2) w - 1 <=? e); [|reflexivity].
    destruct st as [st|]; [|reflexivity]. f_equal.
    apply (bind_uget_rel (R := SV)); [exact HS|]. intros a0 b0 Hu. rewrite (sv_not_none Hu). reflexivity.
  Qed.
End RankFamily.

Section MinMaxNormFamily.
  Context {A : Type} {NA : Num A} {T1 T2 : Type} (D1 : IsNone T1 A) (D2 : IsNone T2 A).
  Local Notation SV := (same_view D1 D2).
  Variables (xs1 : list T1) (xs2 : list T2).
  Hypothesis HS : SameView D1 D2 xs1 xs2.

  Lemma scan_max_view cnt i mx mxi : scan_max (DT := D1) xs1 i cnt mx mxi = scan_max (DT := D2) xs2 i cnt mx mxi.
  Proof.
    revert i mx mxi. induction cnt as [|c IH]; intros i mx mxi; [reflexivity|]. cbn [scan_max].
    apply (bind_uget_rel (R := SV)); [exact HS|]. intros a b Hu.
    destruct (sv_cases Hu) as [[-> ->]|(-> & -> & ->)]; [apply IH|]. destruct (nleb mx (unwrap b)); apply IH.
  Qed.
  Lemma scan_min_view cnt i mn mni : scan_min (DT := D1) xs1 i cnt mn mni = scan_min (DT := D2) xs2 i cnt mn mni.
  Proof.
    revert i mn mni. induction cnt as [|c IH]; intros i mn mni; [reflexivity|]. cbn [scan_min].
    apply (bind_uget_rel (R := SV)); [exact HS|]. intros a b Hu.
    destruct (sv_cases Hu) as [[-> ->]|(-> & -> & ->)]; [apply IH|]. destruct (nleb (unwrap b) mn); apply IH.
  Qed.
  Lemma scan_both_view cnt i mx mxi mn mni :
    scan_both (DT := D1) xs1 i cnt mx mxi mn mni = scan_both (DT := D2) xs2 i cnt mx mxi mn mni.
  Proof.
    revert i mx mxi mn mni. induction cnt as [|c IH]; intros i mx mxi mn mni; [reflexivity|]. cbn [scan_both].
    apply (bind_uget_rel (R := SV)); [exact HS|]. intros a b Hu.
    destruct (sv_cases Hu) as [[-> ->]|(-> & -> & ->)]; [apply IH|].
    destruct (nleb mx (unwrap b)), (nleb (unwrap b) mn); apply IH.
  Qed.

  Theorem ts_vminmaxnorm_same_view tmin tmax body w mp :
    ts_vminmaxnorm (DT := D1) tmin tmax body w mp xs1 = ts_vminmaxnorm (DT := D2) tmin tmax body w mp xs2.
  Proof.
    unfold ts_vminmaxnorm. apply (idx_run_rel (R := SV)); [|exact HS].
    intros s st e a b E. unfold mmnorm_cb.
    assert (Hr : mm_research (DT := D1) tmin tmax xs1 s st e = mm_research (DT := D2) tmin tmax xs2 s st e).
    { unfold mm_research. destruct st as [st|]; [|reflexivity].
      destruct (mm_maxi s <? st), (mm_mini s <? st);
        [rewrite scan_both_view|rewrite scan_max_view|rewrite scan_min_view|]; reflexivity. }
    rewrite Hr. destruct (mm_research tmin tmax xs2 s st e) as [s1|k]; cbn [bind]; [|reflexivity].
    destruct (sv_cases E) as [[-> ->]|(-> & -> & ->)].
    - cbv iota. destruct st as [st|]; [|reflexivity]. f_equal.
      apply (bind_uget_rel (R := SV)); [exact HS|]. intros a0 b0 Hu. rewrite (sv_not_none Hu). reflexivity.
    - match goal with |- (let '(s2, out) := ?p in _) = _ => destruct p as [s2 out] end.
      destruct st as [st|]; [|reflexivity]. f_equal.
      apply (bind_uget_rel (R := SV)); [exact HS|]. intros a0 b0 Hu. rewrite (sv_not_none Hu). reflexivity.
  Qed.
End MinMaxNormFamily.

Section ResidFamily.
  Context {A : Type} {NA : Num A} {T1 T2 U1 U2 : Type}
          (D1 : IsNone T1 A) (D2 : IsNone T2 A) (E1 : IsNone U1 A) (E2 : IsNone U2 A).
  Local Notation PV := (pair_view D1 D2 E1 E2).

  Lemma resid_of_view al be p q : PV p q -> resid_of (D1 := D1) (D2 := D2) al be p = resid_of (D1 := E1) (D2 := E2) al be q.
  Proof.
    intros H. unfold resid_of. rewrite (both_view H). destruct (both q) eqn:Hq; [|reflexivity].
    destruct (both_unwrap H Hq) as [-> ->]. reflexivity.
  Qed.

  (* ts_vregx_resid_mean / _std / _skew *)
  Theorem resid_same_view k xs ys xs' ys' w mp body :
    SameView D1 E1 xs xs' -> SameView D2 E2 ys ys' ->
    ts_vregx_resid (D1 := D1) (D2 := D2) k body w mp xs ys = ts_vregx_resid (D1 := E1) (D2 := E2) k body w mp xs' ys'.
  Proof.
    intros HX HY. pose proof (Forall2_combine HX HY) as HZ. fold (pair_view D1 D2 E1 E2) in HZ.
    pose proof (bad_window_rel w HX) as Hbw.
    unfold ts_vregx_resid. cbv zeta. rewrite !rolling2_apply_idx_default_unfold, Hbw. unfold rolling2_apply_idx_to.
    rewrite (Forall2_len HX), (Forall2_len HY).
    set (zs := combine xs ys) in *. set (zs' := combine xs' ys') in *.
    assert (Hcb : forall s st e p q, PV p q ->
              resid_cb (D1 := D1) (D2 := D2) k (mp_eff mp w 0) zs s (st, e, p) =
              resid_cb (D1 := E1) (D2 := E2) k (mp_eff mp w 0) zs' s (st, e, q)).
    { intros s st e p q H. unfold resid_cb. rewrite (csum_pre_view s H). f_equal.
      - unfold resid_post. destruct st as [j|]; [|reflexivity].
        pose proof (Forall2_nth_error _ _ _ HZ j) as Hn.
        destruct (nth_error zs j) as [p0|], (nth_error zs' j) as [q0|]; try contradiction; [|reflexivity].
        apply csum_post_view. exact Hn.
      - unfold resid_emit. destruct (mp_eff mp w 0 <=? c_n (csum_pre s q)); [|reflexivity]. cbv zeta.
        f_equal. apply (map_rel (R := PV)); [intros a b Hab; apply resid_of_view; exact Hab|].
        apply Forall2_seg. exact HZ. }
    pose proof (idx_plain_rel (R := PV) _ _ Hcb w body csum0 HZ) as Hrun.
    destruct body; [destruct (length ys' <? length xs'); [reflexivity|]|destruct (bad_window w xs'); [reflexivity|]];
      exact Hrun.
  Qed.
End ResidFamily.

(* the window-slice driver (ts_vfdiff) *)
Lemma exec_rel {St X1 X2 O} (R : X1 -> X2 -> Prop) (g1 : St -> X1 -> St * O) (g2 : St -> X2 -> St * O) :
  (forall s a b, R a b -> g1 s a = g2 s b) ->
  forall c1 c2, Forall2 (fun p q => fst p = fst q /\ R (snd p) (snd q)) c1 c2 ->
  forall s buf, exec g1 s c1 buf = exec g2 s c2 buf.
Proof.
  intros Hg c1 c2 HF. induction HF as [|[i a] [j b] r1 r2 [Hij Hab] _ IH]; intros s buf; [reflexivity|].
  cbn [fst snd] in *. subst j. cbn [exec]. rewrite (Hg s a b Hab). destruct (g2 s b) as [s' o]. apply IH.
Qed.

Section FdiffFamily.
  Context {A : Type} {NA : Num A} {T1 T2 : Type} (D1 : IsNone T1 A) (D2 : IsNone T2 A).
  Local Notation SV := (same_view D1 D2).

  Lemma vdot_view arr1 arr2 coef : SameView D1 D2 arr1 arr2 -> vdot (DT := D1) arr1 coef = vdot (DT := D2) arr2 coef.
  Proof.
    intros HS. unfold vdot.
    apply (fold_left_rel (R := fun (p : T1 * A) (q : T2 * A) => SV (fst p) (fst q) /\ snd p = snd q)).
    - intros s [a c] [b c'] [Hab Hc]. cbn [fst snd] in *. subst c'.
      destruct (sv_cases Hab) as [[-> ->]|(-> & -> & ->)]; reflexivity.
    - revert coef. induction HS as [|a b r1 r2 Hab _ IH]; intros [|c coef]; cbn [combine]; constructor; auto.
  Qed.

  Lemma vfdiff_cb_view d w mp u arr1 arr2 :
    SameView D1 D2 arr1 arr2 -> ts_vfdiff_cb (DT := D1) d w mp u arr1 = ts_vfdiff_cb (DT := D2) d w mp u arr2.
  Proof.
    intros HS. unfold ts_vfdiff_cb.
    assert (HFl : SameView D1 D2 (filter not_none arr1) (filter not_none arr2)).
    { apply (Forall2_filter (R := SV)); [intros a b E; apply (sv_not_none E)|exact HS]. }
    rewrite (Forall2_len HFl), (vdot_view _ HS), (vdot_view _ HFl). reflexivity.
  Qed.

  Theorem vfdiff_same_view d xs1 xs2 w mp body :
    SameView D1 D2 xs1 xs2 -> ts_vfdiff (DT := D1) body d w mp xs1 = ts_vfdiff (DT := D2) body d w mp xs2.
  Proof.
    intros HS. unfold ts_vfdiff, rolling_custom_to, rolling_custom_default. unfold bad_window.
    rewrite (Forall2_len HS). destruct body.
    - destruct ((w =? 0) && negb (length xs2 =? 0)); [reflexivity|]. f_equal.
      apply (exec_rel (SameView D1 D2)); [intros s a b H; apply vfdiff_cb_view; exact H|].
      induction (slices_to w (length xs2)) as [|[slot [st e]] l IH]; cbn [map]; constructor; [|exact IH].
      cbn [fst snd]. split; [reflexivity|apply Forall2_seg; exact HS].
    - destruct (w =? 0); [reflexivity|]. f_equal.
      apply (run_rel (SameView D1 D2)); [intros s a b H; apply vfdiff_cb_view; exact H|].
      induction (slices_iter w (length xs2)) as [|[st e] l IH]; cbn [map]; constructor; [|exact IH].
      apply Forall2_seg. exact HS.
  Qed.
End FdiffFamily.
