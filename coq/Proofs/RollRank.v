(* Proofs/RollRank.v — ts_vrank (Model/Cmp.v) with integer elements and the output arithmetic in XR = option R, as the
   instance of Proofs/RollRankOrd.v at Z: for every series, window, min_periods, pct / rev flag, position and both
   driver bodies the output is the average rank of the current element among the valid elements of its window,
       #{a in V' : a < x} + 1 + #{a in V' : a = x} / 2        (V' = valid window without the current element)
   in the reversed form (n + 1) - that, divided by n = |V'| + 1 with pct; null when x is null or the mask applies. *)
From Coq Require Import ZArith List Lia Bool Reals.
From Tevec Require Import Base.Prelude Base.Num Base.XR Model.Driver Model.Cmp
     Spec.Extrema Spec.ExtremaOrd Proofs.CmpOrd Proofs.Cmp Proofs.RollRankOrd.
Import ListNotations.

(* average rank of x among V' ∪ {x}: ascending, descending, as a fraction of n = |V'| + 1 *)
Definition avg_rank (pct rev : bool) (x : Z) (V' : list Z) : R :=
  let n := S (length V') in
  let asc := (1 + INR (count_lt x V') + INR (count_eq x V') / 2)%R in
  let r := if rev then (INR (n + 1) - asc)%R else asc in
  if pct then (r / INR n)%R else r.

(* count_lt / count_eq / validZ are gcount_lt / gcount_eq / gvalid at Z by unfolding *)
Lemma g_avg_rank_Z pct rev (x : Z) V' : g_avg_rank pct rev x V' = avg_rank pct rev x V'.
Proof. reflexivity. Qed.

Theorem ts_vrank_spec {T : Type} {DT : IsNone T Z} body w mp pct rev (xs : list T) :
  1 <= w -> 1 <= length xs ->
  exists out, ts_vrank (B := XR) body w mp pct rev xs = Done out /\ length out = length xs /\
    forall i, i < length xs ->
      nth_error out i =
      Some (match nth_error (map to_opt xs) i with
            | Some (Some x) =>
                let V' := validZ (seg (wstart w i) i (map to_opt xs)) in
                if cmp_mp mp (cmp_window w xs) <=? S (length V') then Some (avg_rank pct rev x V')
                else None
            | _ => None
            end).
Proof. exact (ts_vrank_ord ordlaws_Z body w mp pct rev xs (valid_not_nan_Z xs)). Qed.
