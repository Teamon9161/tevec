(* Proofs/NullOrder.v — C08 for the order statistics of Model/Quantile.v (vquantile, vmedian, vpercentile_of):
     * re-encoding (SameView): every carrier, every pair of dictionaries — the comparators sort_cmp /
       sort_cmp_rev see an element only through `to_opt`, so the sorted arrangements are pointwise related;
     * null insertion: vpercentile_of for every carrier (the counting fold skips nulls).
   Axiom-free.  (vquantile / vmedian under insertion: Proofs/TransQuantile.v.)                               *)
From Coq Require Import List ZArith.
From Tevec Require Import Base.Prelude Base.Num Model.NullView Model.SortCmp Model.Quantile Proofs.ViewBase.
Import ListNotations.

Section SortRel.
  Context {X1 X2 : Type} (R : X1 -> X2 -> Prop) (cmp1 : X1 -> X1 -> comparison) (cmp2 : X2 -> X2 -> comparison).
  Hypothesis Hcmp : forall a1 a2 b1 b2, R a1 a2 -> R b1 b2 -> cmp1 a1 b1 = cmp2 a2 b2.

  Lemma insert_rel x1 x2 l1 l2 : R x1 x2 -> Forall2 R l1 l2 -> Forall2 R (insert cmp1 x1 l1) (insert cmp2 x2 l2).
  Proof.
    intros Hx HF. induction HF as [|a b r1 r2 Hab HF IH]; cbn [insert]; [repeat constructor; exact Hx|].
    unfold cle. rewrite (Hcmp _ _ _ _ Hx Hab). destruct (cmp2 x2 b).
    - constructor; [exact Hx|constructor; assumption].
    - constructor; [exact Hx|constructor; assumption].
    - constructor; [exact Hab|exact IH].
  Qed.
  Lemma isort_rel l1 l2 : Forall2 R l1 l2 -> Forall2 R (isort cmp1 l1) (isort cmp2 l2).
  Proof.
    induction 1 as [|a b r1 r2 Hab _ IH]; [constructor|]. unfold isort in *. cbn [fold_right].
    apply insert_rel; assumption.
  Qed.
End SortRel.

Section Encoding.
  Context {A : Type} {NA : Num A} {NF : NumFloor A} {T1 T2 : Type} (D1 : IsNone T1 A) (D2 : IsNone T2 A).
  Local Notation SV := (same_view D1 D2).

  Lemma sort_cmp_view a1 a2 b1 b2 : SV a1 a2 -> SV b1 b2 -> sort_cmp (DT := D1) a1 b1 = sort_cmp (DT := D2) a2 b2.
  Proof. intros Ha Hb. unfold sort_cmp. unfold same_view in Ha, Hb. rewrite Ha, Hb. reflexivity. Qed.
  Lemma sort_cmp_rev_view a1 a2 b1 b2 :
    SV a1 a2 -> SV b1 b2 -> sort_cmp_rev (DT := D1) a1 b1 = sort_cmp_rev (DT := D2) a2 b2.
  Proof. intros Ha Hb. unfold sort_cmp_rev. unfold same_view in Ha, Hb. rewrite Ha, Hb. reflexivity. Qed.

  Lemma tcast_view a b : SV a b -> tcast (DT := D1) a = tcast (DT := D2) b.
  Proof. intros E. unfold tcast. unfold same_view, to_opt in E. destruct (is_none a), (is_none b); congruence. Qed.

  Lemma count_valid_view xs1 xs2 : SameView D1 D2 xs1 xs2 -> count_valid (DT := D1) xs1 = count_valid (DT := D2) xs2.
  Proof. intros HS. exact (Forall2_len (filter_valid_view HS)). Qed.
  Lemma vmax_view xs1 xs2 : SameView D1 D2 xs1 xs2 -> vmax (DT := D1) xs1 = vmax (DT := D2) xs2.
  Proof.
    intros HS. unfold vmax. apply (fold_left_rel (R := same_view D1 D2)); [|exact HS].
    intros s a b E. destruct (sv_cases E) as [[-> ->]|(-> & -> & ->)]; reflexivity.
  Qed.
  Lemma vmin_view xs1 xs2 : SameView D1 D2 xs1 xs2 -> vmin (DT := D1) xs1 = vmin (DT := D2) xs2.
  Proof.
    intros HS. unfold vmin. apply (fold_left_rel (R := same_view D1 D2)); [|exact HS].
    intros s a b E. destruct (sv_cases E) as [[-> ->]|(-> & -> & ->)]; reflexivity.
  Qed.

  (* select_nth_unstable_by on the two encodings: related heads and pivots, or the same panic *)
  Lemma select_nth_view cmp1 cmp2 j xs1 xs2 :
    (forall a1 a2 b1 b2, SV a1 a2 -> SV b1 b2 -> cmp1 a1 b1 = cmp2 a2 b2) ->
    SameView D1 D2 xs1 xs2 ->
    match select_nth cmp1 j xs1, select_nth cmp2 j xs2 with
    | Ok (h1, m1), Ok (h2, m2) => SameView D1 D2 h1 h2 /\ SV m1 m2
    | Panic k1, Panic k2 => k1 = k2
    | _, _ => False
    end.
  Proof.
    intros Hc HS. unfold select_nth.
    pose proof (isort_rel _ _ _ Hc _ _ HS) as Hs. pose proof (Forall2_nth Hs j) as Hn.
    destruct (nth_error (isort cmp1 xs1) j), (nth_error (isort cmp2 xs2) j); try contradiction; [|reflexivity].
    split; [apply Forall2_firstn; exact Hs|exact Hn].
  Qed.

  Theorem vquantile_same_view (q : A) (m : qmethod) xs1 xs2 :
    SameView D1 D2 xs1 xs2 -> vquantile (DT := D1) q m xs1 = vquantile (DT := D2) q m xs2.
  Proof.
    intros HS. unfold vquantile. rewrite (count_valid_view _ _ HS).
    destruct (negb (nleb nzero q && nleb q none)); [reflexivity|].
    destruct (count_valid xs2 =? 0)%nat; [reflexivity|].
    destruct (count_valid xs2 =? 1)%nat.
    { pose proof (find_same_view HS) as Hf. unfold vfirst.
      destruct (find not_none xs1), (find not_none xs2); try discriminate Hf; [|reflexivity].
      injection Hf as Hf. rewrite (tcast_view _ _ Hf). reflexivity. }
    destruct (nleb q nhalf).
    - set (j := Z.to_nat (nceilZ (nmul (nofnat (count_valid xs2 - 1)) q))).
      pose proof (select_nth_view _ _ j _ _ sort_cmp_view HS) as Hsel.
      destruct (select_nth sort_cmp j xs1) as [[h1 m1]|k1], (select_nth sort_cmp j xs2) as [[h2 m2]|k2];
        try contradiction; cbn [bind]; [|congruence].
      destruct Hsel as [Hh Hm]. rewrite (vmax_view _ _ Hh), (tcast_view _ _ Hm). reflexivity.
    - set (j := Z.to_nat (nceilZ (nmul (nofnat (count_valid xs2 - 1)) (nsub none q)))).
      pose proof (select_nth_view _ _ j _ _ sort_cmp_rev_view HS) as Hsel.
      destruct (select_nth sort_cmp_rev j xs1) as [[h1 m1]|k1], (select_nth sort_cmp_rev j xs2) as [[h2 m2]|k2];
        try contradiction; cbn [bind]; [|congruence].
      destruct Hsel as [Hh Hm]. rewrite (vmin_view _ _ Hh), (tcast_view _ _ Hm). reflexivity.
  Qed.

  Theorem vmedian_same_view xs1 xs2 :
    SameView D1 D2 xs1 xs2 -> vmedian (DT := D1) xs1 = vmedian (DT := D2) xs2.
  Proof. intros HS. unfold vmedian. rewrite (vquantile_same_view _ _ _ _ HS). reflexivity. Qed.

  Lemma pct_counts_view (sc : A) xs1 xs2 :
    SameView D1 D2 xs1 xs2 -> pct_counts (DT := D1) sc xs1 = pct_counts (DT := D2) sc xs2.
  Proof.
    intros HS. unfold pct_counts. apply (fold_left_rel (R := same_view D1 D2)); [|exact HS].
    intros [[l e] t] a b E. unfold same_view, to_opt in E.
    destruct (is_none a), (is_none b); try discriminate E; [reflexivity|injection E as ->; reflexivity].
  Qed.
  Theorem vpercentile_of_same_view (sc1 : T1) (sc2 : T2) (m : pmethod) xs1 xs2 :
    SV sc1 sc2 -> SameView D1 D2 xs1 xs2 ->
    vpercentile_of (DT := D1) sc1 m xs1 = vpercentile_of (DT := D2) sc2 m xs2.
  Proof.
    intros E HS. unfold vpercentile_of. rewrite (pct_counts_view _ _ _ HS).
    unfold same_view, to_opt in E.
    destruct (is_none sc1), (is_none sc2); try discriminate E; [reflexivity|injection E as ->; reflexivity].
  Qed.
End Encoding.

Section InsertGeneric.
  Context {A : Type} {NA : Num A} {T : Type} {DT : IsNone T A}.

  Lemma pct_counts_insert (sc : A) xs ys : NullInsert xs ys -> pct_counts sc ys = pct_counts sc xs.
  Proof.
    unfold pct_counts. generalize (0, 0, 0)%nat.
    intros c H. revert c. induction H as [|x xs ys _ IH|v xs ys Hv _ IH]; intros c; [reflexivity| |].
    - cbn [fold_left]. apply IH.
    - cbn [fold_left]. destruct c as [[l e] t]. rewrite Hv. apply IH.
  Qed.
  (* every carrier, every dictionary, every score (null or not), every method *)
  Theorem vpercentile_of_insert (sc : T) (m : pmethod) xs ys :
    NullInsert xs ys -> vpercentile_of sc m ys = vpercentile_of sc m xs.
  Proof. intros H. unfold vpercentile_of. rewrite (pct_counts_insert _ _ _ H). reflexivity. Qed.
End InsertGeneric.
