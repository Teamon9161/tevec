(* Proofs/Audit02.v — what Props/C02.v needs beside Proofs/Driver.v: a callback that records its
   arguments, the window and the removed argument at the corners (window = 1, window > len), the
   backend dispatch, the lazy iterator.                                                             *)
From Tevec Require Import Base.Prelude Model.Driver Model.DriverDispatch Proofs.Driver.

(* wrap a callback so that it also keeps (and returns) the list of the arguments it has received *)
Definition logged {St X O} (f : St -> X -> St * O) (sl : St * list X) (a : X) : (St * list X) * (O * list X) :=
  let '(s', o) := f (fst sl) a in ((s', snd sl ++ [a]), (o, snd sl ++ [a])).

Lemma run_logged {St X O} (f : St -> X -> St * O) : forall (args : list X) (s0 : St) (l : list X),
  run (logged f) (s0, l) args
  = combine (run f s0 args) (map (fun k => l ++ firstn (S k) args) (seq 0 (length args))).
Proof.
  induction args as [|a r IH]; intros s0 l; [reflexivity|].
  cbn [run length seq map]. unfold logged at 1. cbn [fst snd].
  destruct (f s0 a) as [s' o] eqn:E. cbn [combine firstn]. f_equal.
  rewrite IH. f_equal. rewrite <- seq_shift, map_map. apply map_ext. intros k.
  cbn [firstn]. rewrite <- app_assoc. reflexivity.
Qed.

Lemma firstn_seq_min k : forall a n, firstn k (seq a n) = seq a (Nat.min k n).
Proof.
  induction k as [|k IH]; intros a n; [reflexivity|]. destruct n as [|n]; [reflexivity|].
  cbn [seq firstn Nat.min]. f_equal. apply IH.
Qed.

Lemma run_stateless {St X O} (h : X -> O) (args : list X) (s : St) :
  run (fun s a => (s, h a)) s args = map h args.
Proof. induction args as [|a r IH]; [reflexivity|]. cbn. f_equal. exact IH. Qed.

Lemma mapi_const_map {X Y} (h : X -> Y) (xs : list X) : mapi (fun _ v => h v) xs = map h xs.
Proof.
  apply nth_error_ext. intros i. rewrite nth_error_mapi, nth_error_map. reflexivity.
Qed.

Lemma win_prefix {X} w i (xs : list X) : S i <= w -> win w i xs = firstn (S i) xs.
Proof.
  intros H. unfold win, wstart. replace (S i - w) with 0 by lia. cbn [skipn]. rewrite Nat.sub_0_r. reflexivity.
Qed.

Lemma win_one {X} i (xs : list X) x : nth_error xs i = Some x -> win 1 i xs = [x].
Proof.
  intros Hx. rewrite win_seg. unfold wstart. replace (S i - 1) with i by lia.
  rewrite (@seg_cons _ i (S i) xs x) by (auto; lia). rewrite seg_nil. reflexivity.
Qed.

Lemma windows_one {X} (xs : list X) : windows 1 xs = map (fun v => [v]) xs.
Proof.
  unfold windows. apply nth_error_ext. intros i. rewrite !nth_error_map, nth_error_seq.
  destruct (i <? length xs) eqn:E.
  - apply Nat.ltb_lt in E. destruct (nth_error_Some_lt xs i E) as [v Hv]. rewrite Hv. cbn.
    f_equal. apply win_one. exact Hv.
  - apply Nat.ltb_ge in E. apply nth_error_None in E. rewrite E. reflexivity.
Qed.

Lemma windows_longer {X} w (xs : list X) :
  length xs <= w -> windows w xs = map (fun i => firstn (S i) xs) (seq 0 (length xs)).
Proof.
  intros H. unfold windows. apply map_ext_in. intros i Hi. apply in_seq in Hi. apply win_prefix. lia.
Qed.

Lemma start_of_one i : start_of 1 i = Some i.
Proof. unfold start_of. cbn [Nat.sub Nat.ltb Nat.leb]. rewrite Nat.sub_0_r. reflexivity. Qed.

Lemma start_of_longer w len i : len < w -> i < len -> start_of w i = None.
Proof. intros Hw Hi. unfold start_of. rewrite ltb_true by lia. reflexivity. Qed.

(* the two-phase body clamps the window to the length: at the last position it reports index 0 *)
Lemma start_of_clamped_longer w len i :
  len <= w -> i < len -> start_of (Nat.min w len) i = if S i =? len then Some 0 else None.
Proof.
  intros Hw Hi. unfold start_of. rewrite Nat.min_r by lia.
  destruct (Nat.eqb_spec (S i) len); [rewrite ltb_false by lia; f_equal; lia | rewrite ltb_true by lia; reflexivity].
Qed.

Section Corners.
  Context {T : Type}.

  Lemma removed_one (xs : list T) i : removed 1 xs i = nth_error xs i.
  Proof. rewrite removed_start_of, start_of_one. reflexivity. Qed.

  Lemma removed_longer w (xs : list T) i : length xs < w -> i < length xs -> removed w xs i = None.
  Proof. intros Hw Hi. rewrite removed_start_of, (start_of_longer w (length xs)) by assumption. reflexivity. Qed.

  Lemma removed_to_longer w (xs : list T) i :
    length xs <= w -> i < length xs ->
    removed_to w xs i = if S i =? length xs then nth_error xs 0 else None.
  Proof.
    intros Hw Hi. unfold removed_to. rewrite removed_start_of, start_of_clamped_longer by assumption.
    destruct (S i =? length xs); reflexivity.
  Qed.
End Corners.

Lemma on_cases {R} (c o : bool) (a b : R) : (if c then a else if o then a else b) = if c || o then a else b.
Proof. destruct c, o; reflexivity. Qed.

(* where the two bodies agree, neither the backend nor the output path matters *)
Lemma on_agree {R} (a b : R) (c1 o1 c2 o2 : bool) :
  a = b -> (if c1 then a else if o1 then a else b) = (if c2 then a else if o2 then a else b).
Proof. intros <-. destruct c1, o1, c2, o2; reflexivity. Qed.

Section Lazy.
  Context {T St O : Type}.

  (* pulling k items runs the callback on the first k windows, in order, and nothing else *)
  Lemma rolling_custom_iter_take_total k w (f : St -> list T -> St * O) s0 xs :
    rolling_custom_iter_take k w f s0 xs =
    if w =? 0 then Panicked Underflow else Done (run f s0 (firstn k (windows w xs))).
  Proof.
    unfold rolling_custom_iter_take. destruct w as [|w]; [reflexivity|]. cbn [Nat.eqb].
    rewrite slices_iter_spec by lia. rewrite map_map. reflexivity.
  Qed.

  (* the first k windows by position: a fact about `windows` under state_after; what k pulls run is
     rolling_custom_iter_take_total *)
  Lemma lazy_state_after k w (f : St -> list T -> St * O) s0 xs :
    state_after f s0 (firstn k (windows w xs))
    = state_after f s0 (map (fun i => win w i xs) (seq 0 (Nat.min k (length xs)))).
  Proof.
    f_equal. unfold windows. rewrite firstn_map. f_equal. rewrite firstn_seq_min. reflexivity.
  Qed.
End Lazy.
