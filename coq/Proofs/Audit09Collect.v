(* Proofs/Audit09Collect.v — C09, from iterator states to the collectors of Model/Collect.v: a well-formed state
   handed over as a trusted iterator (`as_titer`, `as_try_titer`) is `exact_iter` of its items, so the collector
   lemmas of Proofs/Collect.v apply to it (Props/C09.v).                                                     *)
From Tevec Require Import Base.Prelude Model.Iter Proofs.Iter Model.IterAudit.
From Tevec Require Model.Collect Proofs.Collect.
Local Open Scope nat_scope.

Lemma as_titer_exact s : wfb false s -> as_titer s = Model.Collect.exact_iter (elems s).
Proof.
  intros Hw. unfold as_titer, Model.Collect.exact_iter. rewrite (wfb_exact s Hw), (drain_elems s Hw). reflexivity.
Qed.

Lemma res_item_ok l : (forall v, In v l -> v <> VErr) -> map res_item l = map (@inl val unit) l.
Proof.
  induction l as [|v l IH]; intros H; [reflexivity|]. cbn [map]. f_equal.
  - destruct v; try reflexivity. exfalso. apply (H VErr); [left; reflexivity | reflexivity].
  - apply IH. intros u Hu. apply H. right. exact Hu.
Qed.

Lemma as_try_titer_exact s : wfb false s ->
  as_try_titer s = Model.Collect.exact_iter (map res_item (elems s)).
Proof.
  intros Hw. unfold as_try_titer, Model.Collect.exact_iter.
  rewrite (wfb_exact s Hw), (drain_elems s Hw), map_length. reflexivity.
Qed.
