(* Proofs/Driver.v — lemmas about Model/Driver.v.  Stdlib only, axiom-free. *)
From Tevec Require Import Base.Prelude Model.Driver.

(* ---- generic: flat_map of singleton-producing functions over seq --- *)
Lemma flat_map_single {X Y} (h : X -> list Y) (k : X -> Y) (l : list X) :
  (forall x, In x l -> h x = [k x]) -> flat_map h l = map k l.
Proof.
  induction l as [|a l IH]; intros H; [reflexivity|]. cbn [flat_map map].
  rewrite (H a (or_introl eq_refl)). cbn. f_equal. apply IH. intros x Hx. apply H. right. exact Hx.
Qed.

Lemma flat_map_ext_in {X Y} (f g : X -> list Y) (l : list X) :
  (forall x, In x l -> f x = g x) -> flat_map f l = flat_map g l.
Proof.
  induction l as [|a l IH]; intros H; [reflexivity|]. cbn [flat_map].
  rewrite (H a (or_introl eq_refl)). f_equal. apply IH. intros x Hx. apply H. right. exact Hx.
Qed.

Lemma flat_map_map {X Y Z} (f : Y -> list Z) (g : X -> Y) (l : list X) :
  flat_map f (map g l) = flat_map (fun x => f (g x)) l.
Proof. induction l as [|a l IH]; [reflexivity|]. cbn. f_equal. exact IH. Qed.

Lemma seq_shift_n a k n : seq (k + a) n = map (fun x => x + a) (seq k n).
Proof.
  revert k; induction n as [|n IH]; intros k; [reflexivity|]. cbn [seq map]. f_equal.
  change (S (k + a)) with (S k + a). apply IH.
Qed.

Lemma nth_error_Some_lt {T} (xs : list T) i : i < length xs -> exists v, nth_error xs i = Some v.
Proof.
  intros H. destruct (nth_error xs i) eqn:E; [eauto|]. apply nth_error_None in E. lia.
Qed.

Lemma mapi_slot_combine {X Y} (h : nat -> X -> Y) (xs : list X) :
  mapi (fun i v => (i, h i v)) xs = combine (seq 0 (length (mapi h xs))) (mapi h xs).
Proof.
  apply nth_error_ext. intros i.
  rewrite nth_error_mapi, nth_error_combine, nth_error_seq, mapi_length, nth_error_mapi.
  destruct (i <? length xs) eqn:E.
  - destruct (nth_error xs i); reflexivity.
  - apply Nat.ltb_ge in E. apply nth_error_None in E. rewrite E. reflexivity.
Qed.

Lemma map_slot_combine {Y} (k : nat -> Y) (l : list nat) : map (fun i => (i, k i)) l = combine l (map k l).
Proof. induction l as [|a l IH]; [reflexivity|]. cbn. f_equal. exact IH. Qed.

(* The index bodies work in two phases with the window clamped to the length: the positions below
   min w len - 1 (warm-up), then one position per window start.  Together they visit 0 .. len-1 once,
   in order; `h` is what is done at a position. *)
Lemma two_phase {Y} (h p1 p2 : nat -> list Y) w len :
  (w = 0 -> len = 0) ->
  (forall i, i < Nat.min w len - 1 -> p1 i = h i) ->
  (forall st, st + (Nat.min w len - 1) < len -> p2 st = h (st + (Nat.min w len - 1))) ->
  (if Nat.min w len =? 0 then []
   else flat_map p1 (seq 0 (Nat.min w len - 1)) ++ flat_map p2 (seq 0 (len - (Nat.min w len - 1))))
  = flat_map h (seq 0 len).
Proof.
  intros H0 H1 H2. set (m := Nat.min w len - 1) in *.
  destruct (Nat.min w len =? 0) eqn:E.
  { apply Nat.eqb_eq in E. replace len with 0 by lia. reflexivity. }
  apply Nat.eqb_neq in E.
  replace (seq 0 len) with (seq 0 m ++ seq (0 + m) (len - m)) by (rewrite <- seq_app; f_equal; lia).
  rewrite seq_shift_n, flat_map_app, flat_map_map.
  f_equal; apply flat_map_ext_in; intros i Hi; apply in_seq in Hi; [apply H1|apply H2]; lia.
Qed.

Lemma two_phase_map {Y} (k k1 k2 : nat -> Y) w len :
  (w = 0 -> len = 0) ->
  (forall i, i < Nat.min w len - 1 -> k1 i = k i) ->
  (forall st, st + (Nat.min w len - 1) < len -> k2 st = k (st + (Nat.min w len - 1))) ->
  (if Nat.min w len =? 0 then []
   else map k1 (seq 0 (Nat.min w len - 1)) ++ map k2 (seq 0 (len - (Nat.min w len - 1))))
  = map k (seq 0 len).
Proof.
  intros H0 H1 H2.
  rewrite <- (flat_map_single (fun i => [k i]) k), <- (flat_map_single (fun i => [k1 i]) k1),
    <- (flat_map_single (fun i => [k2 i]) k2) by reflexivity.
  apply two_phase; [exact H0| |]; intros i Hi; f_equal; auto.
Qed.

(* ---- the window assertion ------------------------------------------- *)
Lemma bad_window_false {T} w (xs : list T) : 1 <= w -> bad_window w xs = false.
Proof. intros Hw. unfold bad_window. destruct w; [lia|reflexivity]. Qed.

Lemma bad_window_nil {T} w : bad_window w (@nil T) = false.
Proof. apply Bool.andb_false_r. Qed.

Lemma bad_window_true_iff {T} w (xs : list T) : bad_window w xs = true <-> w = 0 /\ xs <> [].
Proof.
  unfold bad_window. destruct w as [|w]; destruct xs as [|x xs]; cbn; split; intros H;
    try discriminate; try (destruct H; congruence); try reflexivity.
  split; [reflexivity|discriminate].
Qed.

Lemma bad_window_cases {T} w (xs : list T) :
  (bad_window w xs = true /\ w = 0 /\ xs <> []) \/ (bad_window w xs = false /\ (1 <= w \/ xs = [])).
Proof.
  destruct (bad_window w xs) eqn:Hb.
  - left. split; [reflexivity|]. apply bad_window_true_iff. exact Hb.
  - right. split; [reflexivity|]. destruct w as [|w]; [|left; lia]. right.
    destruct xs as [|x xs]; [reflexivity|]. discriminate Hb.
Qed.

Lemma bad_window_ok {T} w (xs : list T) : bad_window w xs = false -> w = 0 -> length xs = 0.
Proof. intros Hb ->. destruct xs; [reflexivity|discriminate Hb]. Qed.

(* ---- the removed argument and the window start ---------------------- *)
Definition start_of (w i : nat) : option nat := if i <? w - 1 then None else Some (i - (w - 1)).

Lemma start_of_min_eq w len i :
  i < len -> (w <= len \/ S i < len) -> start_of (Nat.min w len) i = start_of w i.
Proof.
  intros Hi Hc. destruct (Nat.le_gt_cases w len) as [Hle|Hgt].
  - rewrite Nat.min_l by exact Hle. reflexivity.
  - unfold start_of. rewrite !ltb_true by lia. reflexivity.
Qed.

Section RemoveAdd.
  Context {T : Type}.

  (* what the iterator body reports as removed at position i *)
  Definition removed (w : nat) (xs : list T) (i : nat) : option T :=
    if i <? w - 1 then None else nth_error xs (i - (w - 1)).
  (* what the two-phase body reports (window clamped to the length first) *)
  Definition removed_to (w : nat) (xs : list T) (i : nat) : option T :=
    removed (Nat.min w (length xs)) xs i.

  (* the removed element is the one at the window start *)
  Lemma removed_start_of w (xs : list T) i :
    removed w xs i = match start_of w i with Some j => nth_error xs j | None => None end.
  Proof. unfold removed, start_of. destruct (i <? w - 1); reflexivity. Qed.

  (* the two bodies report the same removed element except at the last position when w > len *)
  Lemma removed_to_eq w (xs : list T) i :
    i < length xs -> (w <= length xs \/ S i < length xs) -> removed_to w xs i = removed w xs i.
  Proof.
    intros Hi Hc. unfold removed_to. rewrite !removed_start_of, start_of_min_eq by assumption. reflexivity.
  Qed.

  (* both bodies perform exactly one call per position, in increasing order, carrying x_i *)
  Lemma args_iter_mapi w (xs : list T) : args_iter w xs = mapi (fun i v => (removed w xs i, v)) xs.
  Proof.
    apply nth_error_ext. intros i. unfold args_iter, removed.
    rewrite nth_error_mapi, nth_error_combine, nth_error_app, repeat_length, nth_error_repeat, nth_error_map.
    destruct (nth_error xs i) as [v|] eqn:E; [|destruct (if i <? w - 1 then _ else _); reflexivity].
    assert (Hi : i < length xs) by (apply nth_error_Some; congruence).
    destruct (i <? w - 1); [reflexivity|].
    destruct (nth_error_Some_lt xs (i - (w - 1))) as [u ->]; [lia|]. reflexivity.
  Qed.

  Lemma calls_to_mapi w (xs : list T) :
    bad_window w xs = false -> calls_to w xs = mapi (fun i v => (i, (removed_to w xs i, v))) xs.
  Proof.
    intros Hb. rewrite <- flat_map_positions. apply two_phase; [exact (bad_window_ok _ _ Hb)| |].
    - intros i Hi. unfold removed_to, removed. rewrite ltb_true by exact Hi. reflexivity.
    - intros st Hst. cbv zeta. unfold removed_to, removed. rewrite ltb_false, Nat.add_sub by lia.
      destruct (nth_error_Some_lt xs st) as [u ->]; [lia|]. reflexivity.
  Qed.

  Lemma calls_to_spec w (xs : list T) :
    1 <= w -> calls_to w xs = mapi (fun i v => (i, (removed_to w xs i, v))) xs.
  Proof. intros Hw. apply calls_to_mapi, bad_window_false, Hw. Qed.
End RemoveAdd.

(* ---- output buffer ------------------------------------------------- *)
Lemma set_nth_app {O} (done : list (option O)) c rest (v : O) :
  set_nth (length done) v (done ++ c :: rest) = done ++ Some v :: rest.
Proof. induction done as [|d done IH]; [reflexivity|]. cbn. f_equal. exact IH. Qed.

Lemma assume_init_map_Some {O} (l : list O) : assume_init (map Some l) = Some l.
Proof. induction l as [|a l IH]; [reflexivity|]. cbn. rewrite IH. reflexivity. Qed.

(* assume_init exposes the buffer exactly when every slot was written, and then returns the written values *)
Lemma assume_init_Some_iff {O} (buf : list (option O)) l : assume_init buf = Some l <-> buf = map Some l.
Proof.
  split; [|intros ->; apply assume_init_map_Some].
  revert l. induction buf as [|[v|] buf IH]; cbn; intros l H; [injection H as <-; reflexivity| |discriminate].
  destruct (assume_init buf) as [l'|]; [|discriminate]. injection H as <-. cbn. f_equal. apply IH. reflexivity.
Qed.

Section ExecLemmas.
  Context {St X O : Type}.
  Variable g : St -> X -> St * O.

  (* calls stored in slot order fill the buffer behind what is already there, whatever it held *)
  Lemma exec_prefix (args : list X) : forall s (pre old : list (option O)),
    length args <= length old ->
    exec g s (combine (seq (length pre) (length args)) args) (pre ++ old)
    = pre ++ map Some (run g s args) ++ skipn (length args) old.
  Proof.
    induction args as [|a args IH]; intros s pre old Hlen; [reflexivity|].
    destruct old as [|c old]; [cbn in Hlen; lia|].
    cbn [length seq combine exec run skipn]. destruct (g s a) as [s' o].
    rewrite set_nth_app.
    specialize (IH s' (pre ++ [Some o]) old ltac:(cbn in Hlen; lia)).
    rewrite app_length, Nat.add_1_r, <- !app_assoc in IH. exact IH.
  Qed.

  (* slots 0,1,..,len-1 in order => every slot written exactly once, result = the run in order *)
  Lemma finish_exec_in_order (args : list X) s :
    finish (exec g s (combine (seq 0 (length args)) args) (repeat None (length args)))
    = Done (run g s args).
  Proof.
    pose proof (exec_prefix args s [] (repeat None (length args))) as H. cbn [length app] in H.
    rewrite H, skipn_all2, app_nil_r by (rewrite repeat_length; lia).
    unfold finish. rewrite assume_init_map_Some. reflexivity.
  Qed.

  Lemma finish_exec_mapi {T} (h : nat -> T -> X) (xs : list T) s :
    finish (exec g s (mapi (fun i v => (i, h i v)) xs) (repeat None (length xs))) = Done (run g s (mapi h xs)).
  Proof. rewrite mapi_slot_combine, <- (mapi_length h xs). apply finish_exec_in_order. Qed.
End ExecLemmas.

(* ---- entry points: remove/add form --------------------------------- *)
Section EntryLemmas.
  Context {T St O : Type}.

  Definition args_to (w : nat) (xs : list T) : list (option T * T) :=
    mapi (fun i v => (removed_to w xs i, v)) xs.

  Lemma rolling_apply_default_total w (f : St -> option T * T -> St * O) s0 xs :
    rolling_apply_default w f s0 xs =
    if bad_window w xs then Panicked AssertFail
    else Done (run f s0 (mapi (fun i v => (removed w xs i, v)) xs)).
  Proof. unfold rolling_apply_default. rewrite args_iter_mapi. reflexivity. Qed.

  Lemma rolling_apply_to_total w (f : St -> option T * T -> St * O) s0 xs :
    rolling_apply_to w f s0 xs =
    if bad_window w xs then Panicked AssertFail else Done (run f s0 (args_to w xs)).
  Proof.
    unfold rolling_apply_to. destruct (bad_window w xs) eqn:Hb; [reflexivity|].
    rewrite calls_to_mapi by exact Hb. apply finish_exec_mapi.
  Qed.

  Lemma rolling_apply_to_eq w (f : St -> option T * T -> St * O) s0 xs :
    1 <= w -> rolling_apply_to w f s0 xs = Done (run f s0 (args_to w xs)).
  Proof. intros Hw. rewrite rolling_apply_to_total, bad_window_false by exact Hw. reflexivity. Qed.

  Lemma rolling_apply_default_eq w (f : St -> option T * T -> St * O) s0 xs :
    1 <= w -> rolling_apply_default w f s0 xs
              = Done (run f s0 (mapi (fun i v => (removed w xs i, v)) xs)).
  Proof. intros Hw. rewrite rolling_apply_default_total, bad_window_false by exact Hw. reflexivity. Qed.

  Lemma empty_to w (f : St -> option T * T -> St * O) s0 : rolling_apply_to w f s0 [] = Done [].
  Proof. rewrite rolling_apply_to_total, bad_window_nil. reflexivity. Qed.

  Lemma empty_default w (f : St -> option T * T -> St * O) s0 : rolling_apply_default w f s0 [] = Done [].
  Proof. rewrite rolling_apply_default_total, bad_window_nil. reflexivity. Qed.
End EntryLemmas.

(* ---- window-index form ---------------------------------------------- *)
Section IdxLemmas.
  Context {T St O : Type}.

  Lemma args_iter_idx_eq w (xs : list T) : args_iter_idx w xs = mapi (fun i v => (start_of w i, i, v)) xs.
  Proof.
    unfold args_iter_idx. apply nth_error_ext. intros i.
    rewrite nth_error_map, nth_error_combine, nth_error_seq, nth_error_combine, nth_error_mapi.
    rewrite nth_error_app, repeat_length, nth_error_repeat, nth_error_map, nth_error_seq.
    destruct (i <? length xs) eqn:E.
    - apply Nat.ltb_lt in E. destruct (nth_error_Some_lt xs i E) as [v ->].
      unfold start_of. destruct (i <? w - 1); [reflexivity|]. rewrite ltb_true by lia. reflexivity.
    - apply Nat.ltb_ge in E. apply nth_error_None in E. rewrite E. reflexivity.
  Qed.

  Lemma args_iter_idx_mapi w (xs : list T) :
    1 <= w -> args_iter_idx w xs = mapi (fun i v => (start_of w i, i, v)) xs.
  Proof. intros _. apply args_iter_idx_eq. Qed.

  Lemma calls_to_idx_mapi w (xs : list T) :
    bad_window w xs = false ->
    calls_to_idx w xs = mapi (fun i v => (i, (start_of (Nat.min w (length xs)) i, i, v))) xs.
  Proof.
    intros Hb. rewrite <- flat_map_positions. apply two_phase; [exact (bad_window_ok _ _ Hb)| |].
    - intros i Hi. unfold start_of. rewrite ltb_true by exact Hi. reflexivity.
    - intros st Hst. cbv zeta. unfold start_of. rewrite ltb_false, Nat.add_sub by lia. reflexivity.
  Qed.

  Lemma calls_to_idx_spec w (xs : list T) :
    1 <= w ->
    calls_to_idx w xs = mapi (fun i v => (i, (start_of (Nat.min w (length xs)) i, i, v))) xs.
  Proof. intros Hw. apply calls_to_idx_mapi, bad_window_false, Hw. Qed.

  Definition args_to_idx (w : nat) (xs : list T) : list (option nat * nat * T) :=
    mapi (fun i v => (start_of (Nat.min w (length xs)) i, i, v)) xs.

  Lemma rolling_apply_idx_default_total w (f : St -> option nat * nat * T -> St * O) s0 xs :
    rolling_apply_idx_default w f s0 xs =
    if bad_window w xs then Panicked AssertFail
    else Done (run f s0 (mapi (fun i v => (start_of w i, i, v)) xs)).
  Proof. unfold rolling_apply_idx_default. rewrite args_iter_idx_eq. reflexivity. Qed.

  Lemma rolling_apply_idx_to_total w (f : St -> option nat * nat * T -> St * O) s0 xs :
    rolling_apply_idx_to w f s0 xs =
    if bad_window w xs then Panicked AssertFail else Done (run f s0 (args_to_idx w xs)).
  Proof.
    unfold rolling_apply_idx_to. destruct (bad_window w xs) eqn:Hb; [reflexivity|].
    rewrite calls_to_idx_mapi by exact Hb. apply finish_exec_mapi.
  Qed.

  Lemma rolling_apply_idx_to_eq w (f : St -> option nat * nat * T -> St * O) s0 xs :
    1 <= w -> rolling_apply_idx_to w f s0 xs = Done (run f s0 (args_to_idx w xs)).
  Proof. intros Hw. rewrite rolling_apply_idx_to_total, bad_window_false by exact Hw. reflexivity. Qed.

  Lemma rolling_apply_idx_default_eq w (f : St -> option nat * nat * T -> St * O) s0 xs :
    1 <= w -> rolling_apply_idx_default w f s0 xs
              = Done (run f s0 (mapi (fun i v => (start_of w i, i, v)) xs)).
  Proof. intros Hw. rewrite rolling_apply_idx_default_total, bad_window_false by exact Hw. reflexivity. Qed.

  Lemma empty_idx_to w (f : St -> option nat * nat * T -> St * O) s0 : rolling_apply_idx_to w f s0 [] = Done [].
  Proof. rewrite rolling_apply_idx_to_total, bad_window_nil. reflexivity. Qed.

  Lemma empty_idx_default w (f : St -> option nat * nat * T -> St * O) s0 :
    rolling_apply_idx_default w f s0 [] = Done [].
  Proof. rewrite rolling_apply_idx_default_total, bad_window_nil. reflexivity. Qed.
End IdxLemmas.

(* ---- window-slice form ---------------------------------------------- *)
Lemma slices_iter_spec w len :
  1 <= w -> slices_iter w len = map (fun i => (wstart w i, S i)) (seq 0 len).
Proof.
  intros Hw. unfold slices_iter. apply nth_error_ext. intros i.
  rewrite !nth_error_map, nth_error_combine, !nth_error_seq, nth_error_app, repeat_length,
    nth_error_repeat, nth_error_seq.
  unfold wstart. destruct (i <? len) eqn:E; [|reflexivity]. apply Nat.ltb_lt in E.
  destruct (i <? w - 1) eqn:E2.
  - apply Nat.ltb_lt in E2. cbn -[Nat.sub Nat.add]. f_equal. f_equal; lia.
  - apply Nat.ltb_ge in E2. rewrite ltb_true by lia. cbn -[Nat.sub Nat.add]. f_equal. f_equal; lia.
Qed.

Lemma slices_to_map w len :
  (w = 0 -> len = 0) -> slices_to w len = map (fun i => (i, (wstart w i, S i))) (seq 0 len).
Proof.
  intros H0. apply two_phase_map; [exact H0| |]; intros i Hi; unfold wstart; cbv zeta; f_equal; f_equal; lia.
Qed.

Lemma slices_to_spec w len :
  1 <= w -> slices_to w len = map (fun i => (i, (wstart w i, S i))) (seq 0 len).
Proof. intros Hw. apply slices_to_map. lia. Qed.

Section SliceLemmas.
  Context {T St O : Type}.

  Definition windows (w : nat) (xs : list T) : list (list T) :=
    map (fun i => win w i xs) (seq 0 (length xs)).

  Lemma windows_length w (xs : list T) : length (windows w xs) = length xs.
  Proof. unfold windows. rewrite map_length, seq_length. reflexivity. Qed.

  (* the returned path computes `window - 1` first (underflow for window 0, also on an empty series);
     the caller-buffer path asserts *)
  Lemma rolling_custom_default_total w (f : St -> list T -> St * O) s0 xs :
    rolling_custom_default w f s0 xs =
    if w =? 0 then Panicked Underflow else Done (run f s0 (windows w xs)).
  Proof.
    unfold rolling_custom_default. destruct w as [|w]; [reflexivity|]. cbn [Nat.eqb].
    rewrite slices_iter_spec, map_map by lia. reflexivity.
  Qed.

  Lemma rolling_custom_to_total w (f : St -> list T -> St * O) s0 xs :
    rolling_custom_to w f s0 xs =
    if bad_window w xs then Panicked AssertFail else Done (run f s0 (windows w xs)).
  Proof.
    unfold rolling_custom_to. destruct (bad_window w xs) eqn:Hb; [reflexivity|].
    rewrite slices_to_map, map_map by exact (bad_window_ok _ _ Hb).
    rewrite (map_slot_combine (fun i => win w i xs)). fold (windows w xs).
    rewrite <- (windows_length w xs). apply finish_exec_in_order.
  Qed.

  Lemma rolling_custom_default_eq w (f : St -> list T -> St * O) s0 xs :
    1 <= w -> rolling_custom_default w f s0 xs = Done (run f s0 (windows w xs)).
  Proof. intros Hw. rewrite rolling_custom_default_total. destruct w; [lia|reflexivity]. Qed.

  Lemma rolling_custom_to_eq w (f : St -> list T -> St * O) s0 xs :
    1 <= w -> rolling_custom_to w f s0 xs = Done (run f s0 (windows w xs)).
  Proof. intros Hw. rewrite rolling_custom_to_total, bad_window_false by exact Hw. reflexivity. Qed.

  Lemma empty_custom_to w (f : St -> list T -> St * O) s0 : rolling_custom_to w f s0 [] = Done [].
  Proof. rewrite rolling_custom_to_total, bad_window_nil. reflexivity. Qed.
End SliceLemmas.

(* ---- the two bodies agree for add-emit-remove callbacks ------------- *)
(* two call lists that differ only in a component of the last call which the callback's OUTPUT ignores *)
Lemma run_mapi_last {St T X O} (g : St -> X -> St * O) (h k : nat -> T -> X) s (xs : list T) :
  (forall i v, S i < length xs -> h i v = k i v) ->
  (forall s' i v, snd (g s' (h i v)) = snd (g s' (k i v))) ->
  run g s (mapi h xs) = run g s (mapi k xs).
Proof.
  intros Hpre Hlast. destruct xs as [|x xs'] using rev_ind; [reflexivity|]. clear IHxs'.
  rewrite !mapi_snoc, (mapi_ext h k xs'), !run_app.
  - f_equal. cbn [run]. specialize (Hlast (state_after g s (mapi k xs')) (length xs') x).
    destruct (g _ (h _ _)), (g _ (k _ _)). cbn in Hlast. subst. reflexivity.
  - intros i v Hv. apply Hpre. rewrite app_length. cbn [length].
    assert (i < length xs') by (apply nth_error_Some; congruence). lia.
Qed.

Section BodiesAgree.
  Context {T St O : Type}.
  Variable pre : St -> T -> St.          (* add the new element *)
  Variable emit : St -> O.               (* compute the output  *)
  Variable post : St -> option T -> St.  (* remove the window-start element *)
  Definition aer (s : St) (a : option T * T) : St * O :=
    let s1 := pre s (snd a) in (post s1 (fst a), emit s1).

  (* at EVERY window (0: the same assertion, or the same empty result) *)
  Lemma rolling_apply_bodies_agree_total w s0 (xs : list T) :
    rolling_apply_to w aer s0 xs = rolling_apply_default w aer s0 xs.
  Proof.
    rewrite rolling_apply_to_total, rolling_apply_default_total. destruct (bad_window w xs); [reflexivity|].
    f_equal. apply run_mapi_last; [|reflexivity]. intros i v Hi. f_equal. apply removed_to_eq; lia.
  Qed.

  Lemma rolling_apply_bodies_agree w s0 (xs : list T) :
    1 <= w -> rolling_apply_to w aer s0 xs = rolling_apply_default w aer s0 xs.
  Proof. intros _. apply rolling_apply_bodies_agree_total. Qed.
End BodiesAgree.

(* index form: the callback may read the series at [start, end] only after emitting *)
Section BodiesAgreeIdx.
  Context {T St O : Type}.
  Variable pre : St -> nat -> T -> St.
  Variable emit : St -> O.
  Variable post : St -> option nat -> St.
  Definition aer_idx (s : St) (a : option nat * nat * T) : St * O :=
    let '(st, e, v) := a in let s1 := pre s e v in (post s1 st, emit s1).

  Lemma rolling_apply_idx_bodies_agree_every_window w s0 (xs : list T) :
    rolling_apply_idx_to w aer_idx s0 xs = rolling_apply_idx_default w aer_idx s0 xs.
  Proof.
    rewrite rolling_apply_idx_to_total, rolling_apply_idx_default_total. destruct (bad_window w xs); [reflexivity|].
    f_equal. apply run_mapi_last; [|reflexivity]. intros i v Hi. rewrite start_of_min_eq by lia. reflexivity.
  Qed.
End BodiesAgreeIdx.

(* =========================================================================================== *)
(* the two-series entry points                                                                  *)
(* =========================================================================================== *)
Section TwoLemmas.
  Context {T1 T2 St O : Type}.

  (* the window check of the returned path looks at the FIRST series only; once it passes, the same
     check on the zipped series passes too *)
  Lemma bad_window_combine w (xs : list T1) (ys : list T2) :
    bad_window w xs = false -> bad_window w (combine xs ys) = false.
  Proof.
    unfold bad_window. destruct w as [|w]; [|reflexivity]. destruct xs as [|x xs]; [reflexivity|discriminate].
  Qed.

  Lemma bad_window_combine_le w (xs : list T1) (ys : list T2) :
    length xs <= length ys -> bad_window w (combine xs ys) = bad_window w xs.
  Proof. intros H. unfold bad_window. rewrite combine_length, Nat.min_l by exact H. reflexivity. Qed.

  (* the start iterator of the code counts to len SELF; the zip cuts it at the shorter series *)
  Lemma args_iter_idx2_eq w (xs : list T1) (ys : list T2) :
    args_iter_idx2 w xs ys = args_iter_idx w (combine xs ys).
  Proof.
    unfold args_iter_idx2, args_iter_idx. f_equal. f_equal.
    assert (Hlen : length (combine xs ys) <= length xs) by (rewrite combine_length; lia).
    remember (combine xs ys) as zs eqn:Hz. clear Hz.
    apply nth_error_ext. intros i. rewrite !nth_error_combine.
    destruct (nth_error zs i) as [p|] eqn:E; [|reflexivity].
    assert (Hi : i < length zs) by (apply nth_error_Some; congruence).
    assert (Hi2 : i < length xs) by lia.
    rewrite !nth_error_app, !repeat_length, !nth_error_repeat, !nth_error_map, !nth_error_seq.
    destruct (i <? w - 1); [reflexivity|].
    rewrite !ltb_true by lia. reflexivity.
  Qed.

  (* past the window check the returned paths are the one-series iterator bodies over the zipped series *)
  Lemma rolling2_apply_default_unfold w (f : St -> option (T1 * T2) * (T1 * T2) -> St * O) s0 xs ys :
    rolling2_apply_default w f s0 xs ys =
    if bad_window w xs then Panicked AssertFail else rolling_apply_default w f s0 (combine xs ys).
  Proof.
    unfold rolling2_apply_default, rolling_apply_default. destruct (bad_window w xs) eqn:Hb; [reflexivity|].
    rewrite bad_window_combine by exact Hb. reflexivity.
  Qed.

  Lemma rolling2_apply_idx_default_unfold w (f : St -> option nat * nat * (T1 * T2) -> St * O) s0 xs ys :
    rolling2_apply_idx_default w f s0 xs ys =
    if bad_window w xs then Panicked AssertFail else rolling_apply_idx_default w f s0 (combine xs ys).
  Proof.
    unfold rolling2_apply_idx_default, rolling_apply_idx_default. destruct (bad_window w xs) eqn:Hb; [reflexivity|].
    rewrite bad_window_combine by exact Hb. rewrite args_iter_idx2_eq. reflexivity.
  Qed.

  Lemma rolling2_apply_default_pos w (f : St -> option (T1 * T2) * (T1 * T2) -> St * O) s0 xs ys :
    1 <= w -> rolling2_apply_default w f s0 xs ys = rolling_apply_default w f s0 (combine xs ys).
  Proof. intros Hw. rewrite rolling2_apply_default_unfold, bad_window_false by exact Hw. reflexivity. Qed.

  Lemma rolling2_apply_idx_default_pos w (f : St -> option nat * nat * (T1 * T2) -> St * O) s0 xs ys :
    1 <= w -> rolling2_apply_idx_default w f s0 xs ys = rolling_apply_idx_default w f s0 (combine xs ys).
  Proof. intros Hw. rewrite rolling2_apply_idx_default_unfold, bad_window_false by exact Hw. reflexivity. Qed.

  (* ... and also whenever the second series is not shorter (the two window checks then coincide) *)
  Lemma rolling2_apply_default_le w (f : St -> option (T1 * T2) * (T1 * T2) -> St * O) s0 xs ys :
    length xs <= length ys -> rolling2_apply_default w f s0 xs ys = rolling_apply_default w f s0 (combine xs ys).
  Proof.
    intros Hle. rewrite rolling2_apply_default_unfold. destruct (bad_window w xs) eqn:Hb; [|reflexivity].
    unfold rolling_apply_default. rewrite bad_window_combine_le, Hb by exact Hle. reflexivity.
  Qed.

  Lemma rolling2_apply_idx_default_le w (f : St -> option nat * nat * (T1 * T2) -> St * O) s0 xs ys :
    length xs <= length ys ->
    rolling2_apply_idx_default w f s0 xs ys = rolling_apply_idx_default w f s0 (combine xs ys).
  Proof.
    intros Hle. rewrite rolling2_apply_idx_default_unfold. destruct (bad_window w xs) eqn:Hb; [|reflexivity].
    unfold rolling_apply_idx_default. rewrite bad_window_combine_le, Hb by exact Hle. reflexivity.
  Qed.

  (* window 0 on a non-empty first series: the assertion, WHATEVER the second series (also empty) *)
  Lemma rolling2_apply_default_window0 (f : St -> option (T1 * T2) * (T1 * T2) -> St * O) s0 xs ys :
    xs <> [] -> rolling2_apply_default 0 f s0 xs ys = Panicked AssertFail.
  Proof.
    intros H. unfold rolling2_apply_default. rewrite (proj2 (bad_window_true_iff 0 xs)) by auto. reflexivity.
  Qed.
  Lemma rolling2_apply_idx_default_window0 (f : St -> option nat * nat * (T1 * T2) -> St * O) s0 xs ys :
    xs <> [] -> rolling2_apply_idx_default 0 f s0 xs ys = Panicked AssertFail.
  Proof.
    intros H. unfold rolling2_apply_idx_default. rewrite (proj2 (bad_window_true_iff 0 xs)) by auto. reflexivity.
  Qed.

  (* ---- total characterisations, every window, every pair of lengths ---- *)
  Lemma rolling2_apply_default_total w (f : St -> option (T1 * T2) * (T1 * T2) -> St * O) s0 xs ys :
    rolling2_apply_default w f s0 xs ys =
    if bad_window w xs then Panicked AssertFail
    else Done (run f s0 (mapi (fun i v => (removed w (combine xs ys) i, v)) (combine xs ys))).
  Proof.
    rewrite rolling2_apply_default_unfold. destruct (bad_window w xs) eqn:Hb; [reflexivity|].
    rewrite rolling_apply_default_total, bad_window_combine by exact Hb. reflexivity.
  Qed.

  Lemma rolling2_apply_to_total w (f : St -> option (T1 * T2) * (T1 * T2) -> St * O) s0 xs ys :
    rolling2_apply_to w f s0 xs ys =
    if length ys <? length xs then Panicked AssertFail
    else if bad_window w xs then Panicked AssertFail
    else Done (run f s0 (args_to w (combine xs ys))).
  Proof.
    unfold rolling2_apply_to. destruct (length ys <? length xs) eqn:E; [reflexivity|].
    apply Nat.ltb_ge in E. rewrite rolling_apply_to_total, bad_window_combine_le by exact E. reflexivity.
  Qed.

  Lemma rolling2_apply_idx_default_total w (f : St -> option nat * nat * (T1 * T2) -> St * O) s0 xs ys :
    rolling2_apply_idx_default w f s0 xs ys =
    if bad_window w xs then Panicked AssertFail
    else Done (run f s0 (mapi (fun i v => (start_of w i, i, v)) (combine xs ys))).
  Proof.
    rewrite rolling2_apply_idx_default_unfold. destruct (bad_window w xs) eqn:Hb; [reflexivity|].
    rewrite rolling_apply_idx_default_total, bad_window_combine by exact Hb. reflexivity.
  Qed.

  Lemma rolling2_apply_idx_to_total w (f : St -> option nat * nat * (T1 * T2) -> St * O) s0 xs ys :
    rolling2_apply_idx_to w f s0 xs ys =
    if length ys <? length xs then Panicked AssertFail
    else if bad_window w xs then Panicked AssertFail
    else Done (run f s0 (args_to_idx w (combine xs ys))).
  Proof.
    unfold rolling2_apply_idx_to. destruct (length ys <? length xs) eqn:E; [reflexivity|].
    apply Nat.ltb_ge in E. rewrite rolling_apply_idx_to_total, bad_window_combine_le by exact E. reflexivity.
  Qed.

  Lemma rolling2_custom_default_total w (f : St -> list T1 * list T2 -> St * O) s0 xs ys :
    rolling2_custom_default w f s0 xs ys =
    if length ys <? length xs then Panicked AssertFail
    else if w =? 0 then Panicked Underflow
    else Done (run f s0 (map (fun i => (win w i xs, win w i ys)) (seq 0 (length xs)))).
  Proof.
    unfold rolling2_custom_default. destruct (length ys <? length xs); [reflexivity|].
    destruct w as [|w]; [reflexivity|]. cbn [Nat.eqb].
    rewrite slices_iter_spec by lia. rewrite map_map. do 2 f_equal.
    all: try (apply map_ext; intros i; rewrite !win_seg; reflexivity).
  Qed.

  (* ---- the first failing check, in the order of the code; a run that passes them all returns a fully
          initialised output (never `Uninit`) of the stated length ---- *)
  Lemma rolling2_apply_default_by_check w (f : St -> option (T1 * T2) * (T1 * T2) -> St * O) s0 xs ys :
    match check2_default w xs ys with
    | Some g => rolling2_apply_default w f s0 xs ys = Panicked (guard_kind g)
    | None => exists l, rolling2_apply_default w f s0 xs ys = Done l
                        /\ length l = Nat.min (length xs) (length ys)
    end.
  Proof.
    rewrite rolling2_apply_default_total. unfold check2_default. destruct (bad_window w xs); [reflexivity|].
    eexists. split; [reflexivity|]. rewrite run_length, mapi_length, combine_length. reflexivity.
  Qed.

  Lemma rolling2_apply_idx_default_by_check w (f : St -> option nat * nat * (T1 * T2) -> St * O) s0 xs ys :
    match check2_default w xs ys with
    | Some g => rolling2_apply_idx_default w f s0 xs ys = Panicked (guard_kind g)
    | None => exists l, rolling2_apply_idx_default w f s0 xs ys = Done l
                        /\ length l = Nat.min (length xs) (length ys)
    end.
  Proof.
    rewrite rolling2_apply_idx_default_total. unfold check2_default. destruct (bad_window w xs); [reflexivity|].
    eexists. split; [reflexivity|]. rewrite run_length, mapi_length, combine_length. reflexivity.
  Qed.

  Lemma rolling2_apply_to_by_check w (f : St -> option (T1 * T2) * (T1 * T2) -> St * O) s0 xs ys :
    match check2_to w xs ys with
    | Some g => rolling2_apply_to w f s0 xs ys = Panicked (guard_kind g)
    | None => exists l, rolling2_apply_to w f s0 xs ys = Done l /\ length l = length xs
    end.
  Proof.
    rewrite rolling2_apply_to_total. unfold check2_to. destruct (length ys <? length xs) eqn:E; [reflexivity|].
    destruct (bad_window w xs); [reflexivity|]. apply Nat.ltb_ge in E.
    eexists. split; [reflexivity|]. unfold args_to. rewrite run_length, mapi_length, combine_length. lia.
  Qed.

  Lemma rolling2_apply_idx_to_by_check w (f : St -> option nat * nat * (T1 * T2) -> St * O) s0 xs ys :
    match check2_to w xs ys with
    | Some g => rolling2_apply_idx_to w f s0 xs ys = Panicked (guard_kind g)
    | None => exists l, rolling2_apply_idx_to w f s0 xs ys = Done l /\ length l = length xs
    end.
  Proof.
    rewrite rolling2_apply_idx_to_total. unfold check2_to. destruct (length ys <? length xs) eqn:E; [reflexivity|].
    destruct (bad_window w xs); [reflexivity|]. apply Nat.ltb_ge in E.
    eexists. split; [reflexivity|]. unfold args_to_idx. rewrite run_length, mapi_length, combine_length. lia.
  Qed.

  Lemma rolling2_custom_default_by_check w (f : St -> list T1 * list T2 -> St * O) s0 xs ys :
    match check2_custom w xs ys with
    | Some g => rolling2_custom_default w f s0 xs ys = Panicked (guard_kind g)
    | None => exists l, rolling2_custom_default w f s0 xs ys = Done l /\ length l = length xs
    end.
  Proof.
    rewrite rolling2_custom_default_total. unfold check2_custom. destruct (length ys <? length xs); [reflexivity|].
    destruct (w =? 0); [reflexivity|].
    eexists. split; [reflexivity|]. rewrite run_length, map_length, seq_length. reflexivity.
  Qed.
End TwoLemmas.

(* two series, add-emit-remove callback: the bodies agree at every window whenever the second series is
   not shorter (when it is, the index body asserts and the iterator body stops early) *)
Lemma rolling2_apply_bodies_agree {T1 T2 St O} (pre : St -> T1 * T2 -> St) (emit : St -> O)
      (post : St -> option (T1 * T2) -> St) w s0 (xs : list T1) (ys : list T2) :
  length xs <= length ys ->
  rolling2_apply_to w (aer pre emit post) s0 xs ys = rolling2_apply_default w (aer pre emit post) s0 xs ys.
Proof.
  intros Hle. unfold rolling2_apply_to. rewrite ltb_false, rolling2_apply_default_le by exact Hle.
  apply rolling_apply_bodies_agree_total.
Qed.

Lemma rolling2_apply_idx_bodies_agree_every_window {T1 T2 St O} (pre : St -> nat -> T1 * T2 -> St)
      (emit : St -> O) (post : St -> option nat -> St) w s0 (xs : list T1) (ys : list T2) :
  length xs <= length ys ->
  rolling2_apply_idx_to w (aer_idx pre emit post) s0 xs ys
  = rolling2_apply_idx_default w (aer_idx pre emit post) s0 xs ys.
Proof.
  intros Hle. unfold rolling2_apply_idx_to. rewrite ltb_false, rolling2_apply_idx_default_le by exact Hle.
  apply rolling_apply_idx_bodies_agree_every_window.
Qed.
