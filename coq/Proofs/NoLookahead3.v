(* Proofs/NoLookahead3.v — C06 in exact arithmetic (carrier option R) and for the lagging maps.
   Window-only law: the accumulator families (moments, ewm, wma, cross sums, trend, z-score) through the
   abstraction relations of their states; the index-form callbacks that re-read the series through `uget`
   (ts_vminmaxnorm, ts_vregx_resid_{mean,std,skew}) through their closed forms per window.
   Prefix law of shift / vshift / vdiff / vpct_change for n >= 0 from their positional theorems.
   The bit-for-bit prefix law of the index forms at EVERY carrier is Proofs/IdxPrefix.v.                 *)
From Coq Require Import ZArith Lia List Reals.
From Tevec Require Import Base.Prelude Base.Num Base.XR Spec.Stats Spec.Ols Model.Driver Proofs.Driver
     Model.Features Proofs.Generic Proofs.Sliding Proofs.Features Proofs.NoLookahead Proofs.NoLookahead2
     Model.Cmp Proofs.IdxPrefix Model.Binary Proofs.Binary Model.Reg Proofs.Trend Proofs.Resid
     Model.Norm Proofs.Norm Proofs.MinMax Model.MapOps Spec.MapOps Proofs.MapOps.
Import ListNotations.

(* ---- accumulator families at option R: the abstraction relation determines the state's output ------ *)
Section AbsFunctional.
  Context {T St O : Type}.
  Variable F : feat T St O.
  Variable Abs : St -> list T -> Prop.
  Hypothesis Abs_init : Abs (f_init F) [].
  Hypothesis Abs_pre : forall s l v, Abs s l -> Abs (f_pre F s v) (l ++ [v]).
  Hypothesis Abs_post : forall s x l, Abs s (x :: l) -> Abs (f_post F s (Some x)) l.
  Hypothesis post_none : forall s, f_post F s None = s.
  Hypothesis Abs_fun : forall s s' W, Abs s W -> Abs s' W -> f_emit F s = f_emit F s'.

  Theorem sliding_window_only body (w : nat) : window_only_at w (ts_out F body w).
  Proof.
    intros xs ys i j Hw Hi Hj HW. unfold ts_out.
    destruct (sliding_ts_run F Abs Abs_init Abs_pre Abs_post post_none w Hw xs body) as (o1 & E1 & _ & N1).
    destruct (sliding_ts_run F Abs Abs_init Abs_pre Abs_post post_none w Hw ys body) as (o2 & E2 & _ & N2).
    rewrite E1, E2.
    destruct (nth_error xs i) as [a|] eqn:Ea; [|apply nth_error_None in Ea; lia].
    destruct (nth_error ys j) as [b|] eqn:Eb; [|apply nth_error_None in Eb; lia].
    destruct (N1 i a Ea) as (s1 & A1 & ->). destruct (N2 j b Eb) as (s2 & A2 & ->).
    f_equal. apply (Abs_fun s1 s2 (win w i xs)); [exact A1|rewrite HW; exact A2].
  Qed.
End AbsFunctional.

Lemma mom_abs_fun (s s' : @mom XR) W : mom_abs s W -> mom_abs s' W -> s = s'.
Proof.
  intros (A0 & A1 & A2 & A3 & A4) (B0 & B1 & B2 & B3 & B4). destruct s, s'. cbn in *. congruence.
Qed.

Lemma wma_abs_fun (s s' : @wma_st XR) W : wma_abs s W -> wma_abs s' W -> s = s'.
Proof. intros (A0 & A1 & A2) (B0 & B1 & B2). destruct s, s'. cbn in *. congruence. Qed.

Lemma ewm_abs_fun w (s s' : @ewm_st XR) W : ewm_abs w s W -> ewm_abs w s' W -> s = s'.
Proof. intros (A0 & A1) (B0 & B1). destruct s, s'. cbn in *. congruence. Qed.

Lemma csum_abs_fun (s s' : @csum XR) W : csum_abs s W -> csum_abs s' W -> s = s'.
Proof.
  intros (A0 & A1 & A2 & A3 & A4 & A5) (B0 & B1 & B2 & B3 & B4 & B5). destruct s, s'. cbn in *. congruence.
Qed.

Lemma tr_abs_fun (s s' : @tr_st XR) W : tr_abs s W -> tr_abs s' W -> s = s'.
Proof. intros (A0 & A1 & A2 & A3) (B0 & B1 & B2 & B3). destruct s, s'. cbn in *. congruence. Qed.

Theorem mom_window_only (emit : @mom XR -> XR) body (w : nat) : window_only_at w (ts_out (mom_feat emit) body w).
Proof.
  apply (sliding_window_only (mom_feat emit) mom_abs mom_abs_init mom_abs_pre mom_abs_post).
  - reflexivity.
  - intros s s' W A B. rewrite (mom_abs_fun s s' W A B). reflexivity.
Qed.

Theorem wma_window_only mp body (w : nat) : window_only_at w (ts_out (ts_vwma_f (A := XR) w mp) body w).
Proof.
  apply (sliding_window_only (ts_vwma_f w mp) wma_abs).
  - repeat split; reflexivity.
  - exact wma_abs_pre.
  - exact wma_abs_post.
  - reflexivity.
  - intros s s' W A B. rewrite (wma_abs_fun s s' W A B). reflexivity.
Qed.

Theorem ewm_window_only mp body (w : nat) : window_only_at w (ts_out (ts_vewm_f (A := XR) w mp) body w).
Proof.
  intros xs ys i j Hw.
  apply (sliding_window_only (ts_vewm_f w mp) (ewm_abs w)); try exact Hw.
  - split; reflexivity.
  - exact (ewm_abs_pre w Hw).
  - exact (ewm_abs_post w Hw).
  - reflexivity.
  - intros s s' W A B. rewrite (ewm_abs_fun w s s' W A B). reflexivity.
Qed.

Theorem csum_window_only {O} (emit : @csum XR -> O) body (w : nat) :
  window_only_at w (ts_out (csum_feat emit) body w).
Proof.
  apply (sliding_window_only (csum_feat emit) csum_abs csum_abs_init csum_abs_pre csum_abs_post).
  - reflexivity.
  - intros s s' W A B. rewrite (csum_abs_fun s s' W A B). reflexivity.
Qed.

Theorem trend_window_only (emit : @tr_st XR -> XR) body (w : nat) : window_only_at w (ts_out (tr_feat emit) body w).
Proof.
  apply (sliding_window_only (tr_feat emit) tr_abs tr_abs_init tr_abs_pre tr_abs_post).
  - reflexivity.
  - intros s s' W A B. rewrite (tr_abs_fun s s' W A B). reflexivity.
Qed.

(* ---- ts_vzscore: the emitted value is determined by the window --------------------------------------- *)
Lemma zs_emit_nil mp (s : @zs XR) : zs_abs s [] -> zs_emit mp s = None.
Proof.
  intros (Hn & H1 & H2 & _). unfold zs_emit. destruct (z_cur s) as [x|]; [|reflexivity].
  destruct (mp <=? z_n s); [|reflexivity]. cbv zeta.
  rewrite Hn, H2. unfold nv. cbn [valid flat_map length]. rewrite xofnat. cbn [INR].
  unfold psum. cbn [map fold_right sumR]. rewrite xdiv_zero. reflexivity.
Qed.

Lemma zs_abs_fun mp (s s' : @zs XR) W : zs_abs s W -> zs_abs s' W -> zs_emit mp s = zs_emit mp s'.
Proof.
  intros A B. destruct W as [|a W'] using rev_ind.
  - rewrite (zs_emit_nil mp s A), (zs_emit_nil mp s' B). reflexivity.
  - clear IHW'. destruct A as (A0 & A1 & A2 & A3). destruct B as (B0 & B1 & B2 & B3).
    specialize (A3 W' a eq_refl). specialize (B3 W' a eq_refl).
    destruct s, s'. cbn in *. congruence.
Qed.

Theorem zscore_window_only mp body (w : nat) : window_only_at w (ts_out (ts_vzscore_f (A := XR) w mp) body w).
Proof.
  apply (sliding_window_only (ts_vzscore_f w mp) zs_abs zs_abs_init zs_abs_pre zs_abs_post).
  - reflexivity.
  - intros s s' W A B. apply (zs_abs_fun _ s s' W A B).
Qed.

(* ---- functions whose output i is a closed form of window i on a domain D of series ------------------ *)
Section WindowDeterminedOn.
  Context {T O : Type}.
  Variable f : list T -> outcome O.
  Variable w : nat.
  Variable D : list T -> Prop.
  Variable g : list T -> O.
  Hypothesis Hspec : forall xs, D xs ->
    exists out, f xs = Done out /\ length out = length xs /\
      forall i, i < length xs -> nth_error out i = Some (g (win w i xs)).
  Lemma wdo_window xs ys i j :
    D xs -> D ys -> i < length xs -> j < length ys ->
    win w i xs = win w j ys ->
    nth_error (out_of (f xs)) i = nth_error (out_of (f ys)) j.
  Proof.
    intros Dx Dy Hi Hj Hw.
    destruct (Hspec xs Dx) as (o1 & E1 & L1 & N1).
    destruct (Hspec ys Dy) as (o2 & E2 & L2 & N2).
    rewrite E1, E2. cbn [out_of]. rewrite N1, N2 by assumption. rewrite Hw. reflexivity.
  Qed.
End WindowDeterminedOn.

(* the data lie between the sentinels (binary64: f64::MIN / f64::MAX bound every finite value) *)
Definition bounded (lo hi : R) (xs : list XR) : Prop := forall r, In (Some r) xs -> (lo <= r <= hi)%R.

(* the value emitted at a position, from the window alone: the current element is the window's last *)
Definition g_mmnorm (w : nat) (mp : option nat) (W : list XR) : XR :=
  match last_opt W with
  | Some (Some x) =>
      let V := valid W in
      if mp_eff mp w 0 <=? length V then
        (if Req_EM_T (lmaxR V) (lminR V) then None else Some ((x - lminR V) / (lmaxR V - lminR V))%R)
      else None
  | _ => None
  end.

Lemma mmnorm_wd (lo hi : R) body w mp : 1 <= w ->
  forall xs : list XR, bounded lo hi xs ->
  exists out, ts_vminmaxnorm (Some lo) (Some hi) body w mp xs = Done out /\ length out = length xs /\
    forall i, i < length xs -> nth_error out i = Some (g_mmnorm w mp (win w i xs)).
Proof.
  intros Hw xs Hb. destruct (ts_vminmaxnorm_spec lo hi body w mp xs Hw Hb) as (out & E & L & N).
  exists out. split; [exact E|]. split; [exact L|]. intros i Hi. rewrite (N i Hi). f_equal.
  unfold g_mmnorm.
  destruct (nth_error xs i) as [a|] eqn:Ea; [|apply nth_error_None in Ea; lia].
  rewrite (win_snoc w i xs a Hw Ea), last_opt_snoc. destruct a; reflexivity.
Qed.

Theorem mmnorm_prefix (lo hi : R) body w mp (xs : list XR) k :
  1 <= w -> bounded lo hi xs ->
  out_of (ts_vminmaxnorm (Some lo) (Some hi) body w mp (firstn k xs))
  = firstn k (out_of (ts_vminmaxnorm (Some lo) (Some hi) body w mp xs)).
Proof.
  intros Hw Hb. destruct (ts_vminmaxnorm_spec lo hi body w mp xs Hw Hb) as (out & E & _).
  rewrite (ts_vminmaxnorm_prefix_any _ _ body w mp xs k out Hw E), E. reflexivity.
Qed.

Theorem mmnorm_window_only (lo hi : R) body w mp (xs ys : list XR) i j :
  1 <= w -> bounded lo hi xs -> bounded lo hi ys -> i < length xs -> j < length ys ->
  win w i xs = win w j ys ->
  nth_error (out_of (ts_vminmaxnorm (Some lo) (Some hi) body w mp xs)) i
  = nth_error (out_of (ts_vminmaxnorm (Some lo) (Some hi) body w mp ys)) j.
Proof.
  intros Hw.
  apply (wdo_window (ts_vminmaxnorm (Some lo) (Some hi) body w mp) w (bounded lo hi) (g_mmnorm w mp)
                    (mmnorm_wd lo hi body w mp Hw)).
Qed.

(* ---- ts_vregx_resid_{mean,std,skew}: window over the zipped pair series ----------------------------- *)
Definition resid_z (k : rstat) body w mp (zs : list (XR * XR)) : outcome XR :=
  ts_vregx_resid k body w mp (map fst zs) (map snd zs).
Definition g_resid (k : rstat) (w : nat) (mp : option nat) (W : list (XR * XR)) : XR :=
  resid_stat_x k (mp_eff mp w 0) (vpairs W).

Lemma combine_fst_snd {X Y} (zs : list (X * Y)) : combine (map fst zs) (map snd zs) = zs.
Proof. induction zs as [|[a b] zs IH]; [reflexivity|]. cbn. f_equal. exact IH. Qed.

Lemma resid_wd k body w mp : 1 <= w ->
  forall zs : list (XR * XR),
  exists out, resid_z k body w mp zs = Done out /\ length out = length zs /\
    forall i, i < length zs -> nth_error out i = Some (g_resid k w mp (win w i zs)).
Proof.
  intros Hw zs. unfold resid_z.
  destruct (resid_entry k body w mp (map fst zs) (map snd zs) Hw) as (out & E & L & N);
    [rewrite !map_length; reflexivity|].
  rewrite map_length in L, N.
  exists out. split; [exact E|]. split; [exact L|]. intros i Hi. rewrite (N i Hi). f_equal.
  unfold g_resid, pairs. rewrite <- win_combine, combine_fst_snd. reflexivity.
Qed.

Theorem resid_prefix k body w mp (xs ys : list XR) n :
  1 <= w -> length xs = length ys ->
  out_of (ts_vregx_resid k body w mp (firstn n xs) (firstn n ys))
  = firstn n (out_of (ts_vregx_resid k body w mp xs ys)).
Proof. intros Hw Hlen. apply resid_prefix_any; [exact Hw|lia]. Qed.

Theorem resid_window_only k body w mp (xs ys xs' ys' : list XR) i j :
  1 <= w -> length xs = length ys -> length xs' = length ys' -> i < length xs -> j < length xs' ->
  win w i xs = win w j xs' -> win w i ys = win w j ys' ->
  nth_error (out_of (ts_vregx_resid k body w mp xs ys)) i
  = nth_error (out_of (ts_vregx_resid k body w mp xs' ys')) j.
Proof.
  intros Hw L1 L2 Hi Hj W1 W2.
  pose proof (wdo_window (resid_z k body w mp) w (fun _ => True) (g_resid k w mp)
                         (fun zs _ => resid_wd k body w mp Hw zs) (combine xs ys) (combine xs' ys') i j I I) as H.
  unfold resid_z in H. rewrite !map_fst_combine, !map_snd_combine in H by lia.
  apply H.
  - rewrite combine_length. lia.
  - rewrite combine_length. lia.
  - rewrite !win_combine, W1, W2. reflexivity.
Qed.

(* ---- lagging maps: prefix law from the positional theorems ----------------------------------------- *)
Lemma positional_prefix {T O} (f : list T -> res (list O)) (g : list T -> nat -> O) :
  (forall xs, exists r, f xs = Ok r /\ length r = length xs /\
     forall i, i < length xs -> nth_error r i = Some (g xs i)) ->
  (forall xs k i, i < k -> i < length xs -> g (firstn k xs) i = g xs i) ->
  forall xs k, exists r, f xs = Ok r /\ f (firstn k xs) = Ok (firstn k r).
Proof.
  intros Hpos Hg xs k.
  destruct (Hpos xs) as (r & E & L & N). destruct (Hpos (firstn k xs)) as (r' & E' & L' & N').
  exists r. split; [exact E|]. rewrite E'. f_equal. rewrite firstn_length in L', N'.
  apply nth_error_ext. intros i. rewrite nth_error_firstn.
  destruct (i <? k) eqn:Ek.
  - apply Nat.ltb_lt in Ek. destruct (Nat.lt_ge_cases i (length xs)) as [Hi|Hi].
    + rewrite N' by lia. rewrite N by exact Hi. f_equal. apply Hg; assumption.
    + rewrite (proj2 (nth_error_None r' i)) by lia. rewrite (proj2 (nth_error_None r i)) by lia. reflexivity.
  - apply Nat.ltb_ge in Ek. apply nth_error_None. lia.
Qed.

Lemma nth_firstn_lt {X} (l : list X) k j d : j < k -> nth j (firstn k l) d = nth j l d.
Proof.
  revert k j; induction l as [|a l IH]; intros k j Hj.
  - rewrite firstn_nil. reflexivity.
  - destruct k as [|k]; [lia|]. destruct j as [|j]; [reflexivity|]. cbn [firstn nth]. apply IH. lia.
Qed.

Lemma in_range_firstn {X} (xs : list X) k n i :
  (0 <= n)%Z -> i < k -> i < length xs ->
  in_range (length (firstn k xs)) (src n i) = in_range (length xs) (src n i).
Proof. intros Hn Hk Hi. rewrite firstn_length. unfold in_range, src. lia. Qed.

Lemma shift_at_firstn {X} (n : Z) (v : X) xs k i :
  (0 <= n)%Z -> i < k -> i < length xs -> shift_at n v (firstn k xs) i = shift_at n v xs i.
Proof.
  intros Hn Hk Hi. unfold shift_at. rewrite in_range_firstn by assumption.
  destruct (in_range (length xs) (src n i)) eqn:E; [|reflexivity].
  apply nth_firstn_lt. unfold in_range, src in *. lia.
Qed.

Lemma diff_at_firstn {X} (sub : X -> X -> X) (n : Z) (v : X) xs k i :
  (0 <= n)%Z -> i < k -> i < length xs -> diff_at sub n v (firstn k xs) i = diff_at sub n v xs i.
Proof.
  intros Hn Hk Hi. unfold diff_at. rewrite in_range_firstn by assumption.
  destruct (in_range (length xs) (src n i)) eqn:E; [|reflexivity].
  rewrite !nth_firstn_lt; [reflexivity| |exact Hk]. unfold in_range, src in *. lia.
Qed.

Lemma pct_at_firstn {X I F} (d : NullDict X I) (o : FOps F) (cast : X -> F) (n : Z) xs k i :
  (0 <= n)%Z -> i < k -> i < length xs -> pct_at d o cast n (firstn k xs) i = pct_at d o cast n xs i.
Proof.
  intros Hn Hk Hi. unfold pct_at. rewrite in_range_firstn by assumption.
  destruct (in_range (length xs) (src n i)) eqn:E; [|reflexivity].
  rewrite !nth_error_firstn.
  replace (i <? k) with true by (symmetry; apply Nat.ltb_lt; exact Hk).
  replace (Z.to_nat (src n i) <? k) with true; [reflexivity|].
  symmetry. apply Nat.ltb_lt. unfold in_range, src in *. lia.
Qed.

(* ---- the four lagging maps, n >= 0: evaluating on a prefix yields the prefix -------------------------- *)
Theorem shift_prefix {X} (n : Z) (v : X) (xs : list X) k :
  (0 <= n)%Z -> exists r, shift n v xs = Ok r /\ shift n v (firstn k xs) = Ok (firstn k r).
Proof.
  intros Hn. apply (positional_prefix (shift n v) (shift_at n v)).
  - intros l. exact (shift_positional n v l).
  - intros l k' i Hk Hi. apply shift_at_firstn; assumption.
Qed.

Theorem vshift_prefix {X I} (d : NullDict X I) (n : Z) (value : option X) (v : X) (xs : list X) k :
  (0 <= n)%Z -> or_none d value = Ok v ->
  exists r, vshift d n value xs = Ok r /\ vshift d n value (firstn k xs) = Ok (firstn k r).
Proof.
  intros Hn Hv. apply (positional_prefix (vshift d n value) (shift_at n v)).
  - intros l. exact (vshift_positional d n value l Hv).
  - intros l k' i Hk Hi. apply shift_at_firstn; assumption.
Qed.

Theorem vdiff_prefix {X I} (d : NullDict X I) (sub : X -> X -> X) (n : Z) (value : option X) (v : X)
        (xs : list X) k :
  (0 <= n)%Z -> or_none d value = Ok v ->
  exists r, vdiff d sub n value xs = Ok r /\ vdiff d sub n value (firstn k xs) = Ok (firstn k r).
Proof.
  intros Hn Hv. apply (positional_prefix (vdiff d sub n value) (diff_at sub n v)).
  - intros l. exact (vdiff_positional d sub n value l Hv).
  - intros l k' i Hk Hi. apply diff_at_firstn; assumption.
Qed.

Theorem vpct_change_prefix {X I F} (d : NullDict X I) (o : FOps F) (cast : X -> F) (n : Z) (xs : list X) k :
  (forall v, fisnan o (cast v) = is_none d v) -> fisnan o (fnanv o) = true -> (0 <= n)%Z ->
  exists r, vpct_change d o cast n xs = Ok r /\ vpct_change d o cast n (firstn k xs) = Ok (firstn k r).
Proof.
  intros H1 H2 Hn. apply (positional_prefix (vpct_change d o cast n) (pct_at d o cast n)).
  - intros l. exact (vpct_change_positional d o cast H1 H2 n l).
  - intros l k' i Hk Hi. apply pct_at_firstn; assumption.
Qed.

(* with a negative lag the law fails: output i reads x[i+|n|], which a prefix may not contain *)
Lemma shift_negative_lag_looks_ahead :
  exists r, shift (-1)%Z 0%Z [1; 2; 3]%Z = Ok r /\ shift (-1)%Z 0%Z (firstn 2 [1; 2; 3]%Z) <> Ok (firstn 2 r).
Proof. eexists. split; [reflexivity|]. cbn. discriminate. Qed.
