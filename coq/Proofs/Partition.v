(* Proofs/Partition.v — vpartition / varg_partition at XR: closed forms in terms of THE sorted
   arrangement of the valid elements, and the consequences the property lists.                   *)
From Coq Require Import Reals Lra Lia List Sorting Permutation ZArith Bool.
From Tevec Require Import Base.Prelude Base.Num Base.XR Spec.Stats Model.SortCmp Model.Partition
     Proofs.SortCmp Proofs.OrderXR Proofs.TransQuantile Proofs.Audit12 Proofs.Quantile.
Import ListNotations.

Global Instance IsNoneXXR : IsNoneX XR XR := IsNoneX_float.

(* a sorted list is a fixed point of the sort (antisymmetric order: the arrangement is unique) *)
Lemma isort_sorted_id rev (l : list XR) :
  Sorted (xr_le rev) l -> isort (cmp_dir (DT := IsNoneXR) rev) l = l.
Proof.
  intros Hs. apply (@sorted_perm_unique XR (xr_le rev)).
  - apply xr_le_trans.
  - apply xr_le_antisym.
  - apply sorted_cle_iff. apply isort_sorted. apply cle_dir_total.
  - exact Hs.
  - apply isort_perm.
Qed.

Lemma filter_not_none_valid (xs : list XR) : filter (not_none (H := IsNoneXR)) xs = map Some (valid xs).
Proof. induction xs as [|[x|] xs IH]; cbn; try fold (valid xs); [reflexivity| |exact IH]. f_equal. exact IH. Qed.

(* the sorted non-null elements are THE sorted arrangement of the valid elements *)
Lemma isort_valid_canon rev (xs : list XR) (s : list R) :
  Sorted (rle rev) s -> Permutation s (valid xs) ->
  isort (cmp_dir (DT := IsNoneXR) rev) (filter (not_none (H := IsNoneXR)) xs) = map Some s.
Proof.
  intros Hs HP. apply (@sorted_perm_unique XR (xr_le rev)).
  - apply xr_le_trans.
  - apply xr_le_antisym.
  - apply sorted_cle_iff. apply isort_sorted. apply cle_dir_total.
  - rewrite <- (app_nil_r (map Some s)). apply (sorted_canon rev s 0). exact Hs.
  - rewrite isort_perm, filter_not_none_valid. apply Permutation_map. symmetry. exact HP.
Qed.

Lemma all_null_xr (l : list XR) : all_null (DT := IsNoneXR) l -> l = repeat None (length l).
Proof.
  induction 1 as [|x l Hx _ IH]; [reflexivity|]. cbn [length repeat]. rewrite <- IH.
  destruct x; [discriminate|reflexivity].
Qed.

(* reading a series by position, out of range = null *)
Definition xval (xs : list XR) (i : nat) : XR := nth i xs None.

Lemma map_xval (xs : list XR) (idx : list nat) :
  map (xval xs) idx = map (fun o : option XR => match o with Some v => v | None => None end) (map (nth_error xs) idx).
Proof.
  rewrite map_map. apply map_ext. intros i. unfold xval. destruct (nth_error xs i) eqn:E.
  - apply nth_error_nth. exact E.
  - apply nth_overflow, nth_error_None. exact E.
Qed.
Lemma map_xval_some (xs : list XR) (idx : list nat) (l : list XR) :
  map (nth_error xs) idx = map Some l -> map (xval xs) idx = l.
Proof. intros H. rewrite map_xval, H, map_map. apply map_id. Qed.

Lemma argsort_values (cmp : XR -> XR -> comparison) xs :
  map (xval xs) (isort (cmp_idx cmp xs) (seq 0 (length xs))) = isort cmp xs.
Proof. apply map_xval_some, argsort_values_gen. Qed.

Lemma pad_take_long {X} k1 (pad : X) l :
  (k1 <= length l)%nat -> pad_take k1 pad l = firstn k1 l.
Proof.
  intros H. unfold pad_take. rewrite firstn_app. replace (k1 - length l)%nat with 0%nat by lia.
  cbn [firstn]. apply app_nil_r.
Qed.

Definition part_canon (k : nat) (s : list R) : list XR :=
  map Some (firstn (k + 1) s) ++ repeat None (k + 1 - length s).

Lemma vpartition_spec (k : nat) (sort rev : bool) (xs : list XR) (s : list R) :
  Sorted (rle rev) s -> Permutation s (valid xs) ->
  exists r, vpartition k sort rev xs = Ok r /\
            Permutation r (part_canon k s) /\ (sort = true -> r = part_canon k s).
Proof.
  intros Hs HP.
  destruct (vpartition_form (NA := NumXR) (DT := IsNoneXR) (DX := IsNoneXXR) k sort rev xs eq_refl)
    as (r & Hr & taken & nulls & -> & Hp & Hsort & Hnl & Hln).
  rewrite (isort_valid_canon rev xs s Hs HP), firstn_map in Hp, Hsort.
  rewrite (count_valid_perm xs s HP) in Hln.
  exists (taken ++ nulls). split; [exact Hr|]. rewrite (all_null_xr nulls Hnl), Hln. unfold part_canon. split.
  - apply Permutation_app_tail. exact Hp.
  - intros E. f_equal. destruct (Hsort E) as [Ht|Ht]; [exact Ht|]. rewrite Ht. apply isort_sorted_id.
    rewrite <- (app_nil_r (map Some _)). apply (sorted_canon rev _ 0). apply sorted_firstn. exact Hs.
Qed.

Lemma part_canon_length k s : length (part_canon k s) = (k + 1)%nat.
Proof. unfold part_canon. rewrite app_length, map_length, firstn_length, repeat_length. lia. Qed.

Lemma sorted_split_le rev (s : list R) k a b :
  Sorted (rle rev) s -> In a (firstn k s) -> In b (skipn k s) -> rle rev a b.
Proof.
  intros Hs. apply Sorted_StronglySorted in Hs; [|intros x y z; unfold rle; destruct rev; lra].
  revert k. induction Hs as [|c l Hl IH Hall]; intros k Ha Hb.
  - rewrite firstn_nil in Ha. contradiction.
  - destruct k as [|k]; [contradiction|]. cbn [firstn skipn] in *.
    destruct Ha as [->|Ha].
    + rewrite Forall_forall in Hall. apply Hall. eapply In_skipn. exact Hb.
    + apply (IH k); assumption.
Qed.

Lemma varg_partition_spec (k : nat) (sort rev : bool) (xs : list XR) (s : list R) :
  Sorted (rle rev) s -> Permutation s (valid xs) ->
  exists idx : list nat,
    varg_partition k sort rev xs = map Z.of_nat idx ++ repeat (-1)%Z (k + 1 - length s) /\
    NoDup idx /\ (forall i, In i idx -> i < length xs)%nat /\
    Permutation (map (xval xs) idx) (map Some (firstn (k + 1) s)) /\
    (sort = true -> map (xval xs) idx = map Some (firstn (k + 1) s)).
Proof.
  intros Hs HP. destruct (varg_partition_form k sort rev xs) as (idx & E & Hnd & Hp & Hsort).
  rewrite (isort_valid_canon rev xs s Hs HP), firstn_map in Hp, Hsort.
  rewrite (count_valid_perm xs s HP) in E.
  exists idx. split; [exact E|]. split; [exact Hnd|]. split; [|split].
  - intros i Hi. apply nth_error_Some. intros En.
    assert (Hin : In (nth_error xs i) (map Some (map Some (firstn (k + 1) s)))).
    { apply (Permutation_in _ Hp), in_map, Hi. }
    rewrite En in Hin. apply in_map_iff in Hin. destruct Hin as (? & ? & _). discriminate.
  - rewrite map_xval. apply (Permutation_map (fun o : option XR => match o with Some v => v | None => None end)) in Hp.
    rewrite Hp, map_map. rewrite map_id. reflexivity.
  - intros Es. destruct (Hsort Es) as [Ht|Ht]; apply map_xval_some; rewrite Ht; [reflexivity|].
    f_equal. apply isort_sorted_id.
    rewrite <- (app_nil_r (map Some _)). apply (sorted_canon rev _ 0). apply sorted_firstn. exact Hs.
Qed.
