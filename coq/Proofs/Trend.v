(* Proofs/Trend.v — the time-trend regressions of reg.rs (ts_vreg, ts_vtsf, ts_vreg_slope, ts_vreg_intercept,
   ts_vreg_resid_mean) at XR: the accumulator holds (n, sum x, sum t*x, sum x^2) of the non-null window with
   t = 1..n, and the closed forms are ordinary least squares of the window's values on 1..n.          *)
From Coq Require Import Reals Lra Lia List.
From Tevec Require Import Base.Prelude Base.Num Base.XR Spec.Stats Spec.Ols Model.Driver Proofs.Driver
     Model.Features Proofs.Outcome Proofs.Sliding Proofs.Features Model.Binary Model.Reg Proofs.Ols.
Import ListNotations.
Local Open Scope R_scope.

Definition tr_abs (s : @tr_st XR) (l : list XR) : Prop :=
  t_n s = nv l /\ t_sum s = Some (sumR (valid l)) /\ t_xt s = Some (lwsum (valid l)) /\
  t_xx s = Some (psum 2 (valid l)).

Lemma tr_abs_init : tr_abs tr0 [].
Proof. unfold tr_abs, tr0, nv, psum, lwsum. cbn. repeat split; reflexivity. Qed.

Lemma tr_abs_pre s l v : tr_abs s l -> tr_abs (tr_pre s v) (l ++ [v]).
Proof.
  intros (Hn & Hs & Hx & Hq). unfold tr_pre, not_none.
  destruct v as [r|]; cbn [is_none IsNoneXR IsNone_float nisnan NumXR xisnan negb unwrap].
  - unfold tr_abs, nv. rewrite valid_app. cbn [valid flat_map app t_n t_sum t_xt t_xx].
    rewrite Hs, Hx, Hq, xofnat, !xmul_some, !xadd_some, sumR_app, psum_app, psum_single, app_length, Hn.
    unfold nv. cbn [length sumR fold_right]. split; [lia|]. split; [f_equal; ring|]. split; [|f_equal; ring].
    f_equal. unfold lwsum. rewrite lwsum_from_snoc. cbn [plus]. ring.
  - unfold tr_abs, nv. rewrite valid_app. cbn [valid flat_map app]. rewrite app_nil_r.
    repeat split; assumption.
Qed.

Lemma tr_abs_post s x l : tr_abs s (x :: l) -> tr_abs (tr_post s (Some x)) l.
Proof.
  intros (Hn & Hs & Hx & Hq). unfold tr_post, not_none.
  destruct x as [r|]; cbn [is_none IsNoneXR IsNone_float nisnan NumXR xisnan negb unwrap].
  - unfold tr_abs, nv in *. cbn [valid flat_map app] in *. fold (valid l) in *.
    cbn [t_n t_sum t_xt t_xx]. rewrite Hs, Hx, Hq, xmul_some, !xsub_some, Hn, psum_cons.
    cbn [length sumR fold_right]. fold (sumR (valid l)). rewrite Nat.sub_succ, Nat.sub_0_r.
    split; [reflexivity|]. split; [f_equal; ring|]. split; [|f_equal; ring].
    f_equal. unfold lwsum. cbn [lwsum_from]. rewrite lwsum_from_shift. cbn [INR]. ring.
  - unfold tr_abs, nv in *. cbn [valid flat_map app] in *. fold (valid l) in *.
    repeat split; assumption.
Qed.

Theorem tr_state_tracks_window (emit : @tr_st XR -> XR) body (w : nat) (xs : list XR) :
  (1 <= w)%nat ->
  exists out, ts_run (tr_feat emit) body w xs = Done out /\ length out = length xs /\
    forall i v, nth_error xs i = Some v ->
      exists s, tr_abs s (win w i xs) /\ nth_error out i = Some (emit s).
Proof.
  intros Hw. apply (sliding_ts_run (tr_feat emit) tr_abs); try assumption.
  - exact tr_abs_init.
  - exact tr_abs_pre.
  - exact tr_abs_post.
  - reflexivity.
Qed.

Theorem tr_run (emit : @tr_st XR -> XR) (G : list R -> XR) body (w : nat) (xs : list XR) :
  (1 <= w)%nat ->
  (forall s W, tr_abs s W -> emit s = G (valid W)) ->
  ts_run (tr_feat emit) body w xs = Done (map (fun i => G (valid (win w i xs))) (seq 0 (length xs))).
Proof.
  intros Hw HG.
  apply (sliding_run (tr_feat emit) tr_abs (fun W => G (valid W))
           tr_abs_init tr_abs_pre tr_abs_post (fun _ => eq_refl) HG body w xs Hw).
Qed.

Lemma tr_entry (emit : @tr_st XR -> XR) (G : list R -> XR) body (w : nat) (xs : list XR) :
  (1 <= w)%nat ->
  (forall s W, tr_abs s W -> emit s = G (valid W)) ->
  exists out, ts_run (tr_feat emit) body w xs = Done out /\ length out = length xs /\
    forall i, (i < length xs)%nat -> nth_error out i = Some (G (valid (win w i xs))).
Proof. intros Hw HG. apply done_map_iff, tr_run; assumption. Qed.

Section ClosedForms.
  Variable s : @tr_st XR.
  Variable W : list XR.
  Hypothesis HA : tr_abs s W.
  Let V := valid W.
  Let n := length V.
  Let P := trend_pairs V.

  Lemma tr_n : t_n s = n. Proof. destruct HA as (H & _). exact H. Qed.
  Lemma tr_sum : t_sum s = Some (SA P).
  Proof. destruct HA as (_ & H & _). unfold P, trend_pairs. rewrite trend_SA. exact H. Qed.
  Lemma tr_xt : t_xt s = Some (SAB P).
  Proof. destruct HA as (_ & _ & H & _). unfold P, trend_pairs. rewrite trend_SAB. exact H. Qed.
  Lemma tr_xx : t_xx s = Some (SAA P).
  Proof. destruct HA as (_ & _ & _ & H). unfold P, trend_pairs. rewrite trend_SAA. exact H. Qed.
  Lemma tr_nP : nP P = INR n.
  Proof. unfold P, trend_pairs. rewrite trend_nP. reflexivity. Qed.

  Lemma tr_sum_t_some : tr_sum_t n = Some (SB P).
  Proof.
    unfold tr_sum_t, tr_nn. rewrite xofnat. f_equal.
    replace (n * n + n)%nat with (n * (n + 1))%nat by lia. rewrite half_nn1.
    unfold P. rewrite trend_SB1. reflexivity.
  Qed.
  Lemma tr_sum_tt_some : tr_sum_tt n = Some (nP P * SBB P).
  Proof.
    unfold tr_sum_tt, tr_nn. rewrite xofnat. change (@six XR NumXR) with (Some 6).
    rewrite xdiv_some by lra. f_equal.
    rewrite !mult_INR, !plus_INR, !mult_INR. rewrite tr_nP. unfold P. rewrite trend_SBB1.
    unfold nR. fold n. cbn [INR]. field.
  Qed.
  Lemma tr_divisor_some : tr_divisor n = Some (detB P).
  Proof. unfold tr_divisor. rewrite tr_sum_tt_some, tr_sum_t_some, powi_some, xsub_some. reflexivity. Qed.

  Lemma tr_slope_spec : tr_slope s = ols_x P (fun _ be => be).
  Proof.
    unfold tr_slope. rewrite tr_n, tr_xt, tr_sum, tr_sum_t_some, tr_divisor_some, xofnat, !xmul_some, xsub_some.
    unfold ols_x. cbn [ndiv NumXR xdiv].
    destruct (Req_EM_T (detB P) 0) as [E|E]; [reflexivity|]. f_equal.
    unfold ols_beta. rewrite tr_nP. field. exact E.
  Qed.

  Lemma tr_intercept_spec : tr_intercept s = ols_x P (fun al _ => al).
  Proof.
    unfold tr_intercept. rewrite tr_slope_spec, tr_n, tr_sum, tr_sum_t_some, xofnat. unfold ols_x.
    destruct (Req_EM_T (detB P) 0) as [E|E]; [reflexivity|].
    pose proof (det_nonzero_n P E) as Hn. rewrite tr_nP in Hn.
    cbn [nneg NumXR xlift1]. rewrite xmul_some, xadd_some, xdiv_some by exact Hn. f_equal.
    unfold ols_alpha. rewrite tr_nP. field. exact Hn.
  Qed.

  Lemma emit_slope_spec mp :
    emit_slope mp s = if (mp <=? n)%nat then ols_x P (fun _ be => be) else None.
  Proof. unfold emit_slope. rewrite tr_n, tr_slope_spec. reflexivity. Qed.
  Lemma emit_intercept_spec mp :
    emit_intercept mp s = if (mp <=? n)%nat then ols_x P (fun al _ => al) else None.
  Proof. unfold emit_intercept. rewrite tr_n, tr_intercept_spec. reflexivity. Qed.

  (* fitted value at the last point t = n *)
  Lemma emit_reg_spec mp :
    emit_reg mp s = if (mp <=? n)%nat then ols_x P (fun al be => al + be * nP P) else None.
  Proof.
    unfold emit_reg. rewrite tr_n, tr_slope_spec, tr_intercept_spec, xofnat.
    destruct (mp <=? n)%nat; [|reflexivity]. unfold ols_x.
    destruct (Req_EM_T (detB P) 0) as [E|E]; [reflexivity|].
    rewrite xmul_some, xadd_some, tr_nP. f_equal. ring.
  Qed.
  (* one-step-ahead forecast t = n + 1 *)
  Lemma emit_tsf_spec mp :
    emit_tsf mp s = if (mp <=? n)%nat then ols_x P (fun al be => al + be * (nP P + 1)) else None.
  Proof.
    unfold emit_tsf. rewrite tr_n, tr_slope_spec, tr_intercept_spec, xofnat.
    destruct (mp <=? n)%nat; [|reflexivity]. unfold ols_x.
    destruct (Req_EM_T (detB P) 0) as [E|E]; [reflexivity|].
    rewrite xmul_some, xadd_some, tr_nP, plus_INR. cbn [INR]. f_equal. ring.
  Qed.
  (* mean squared residual *)
  Lemma emit_resid_mean_spec mp :
    emit_resid_mean mp s =
    if (mp <=? n)%nat then ols_x P (fun al be => sse al be P / nP P) else None.
  Proof.
    unfold emit_resid_mean. rewrite tr_n. destruct (mp <=? n)%nat; [|reflexivity]. cbv zeta.
    rewrite tr_slope_spec, tr_intercept_spec, tr_sum, tr_xt, tr_xx, tr_sum_t_some, tr_sum_tt_some, xofnat.
    unfold ols_x. destruct (Req_EM_T (detB P) 0) as [E|E]; [reflexivity|].
    pose proof (det_nonzero_n P E) as Hn. rewrite tr_nP in Hn.
    change (@ntwo XR NumXR) with (Some 2).
    rewrite !xmul_some. rewrite xdiv_some by exact Hn. rewrite !xsub_some, !xadd_some.
    rewrite xdiv_some by exact Hn. f_equal. rewrite sse_expand, tr_nP. field. exact Hn.
  Qed.
End ClosedForms.

(* ---- the five entry points: what each returns at a position, as a function of the non-null
   values V of the window there ------------------------------------------------------------------ *)
Definition trend_out (f : list (R * R) -> R -> R -> R) (mp : nat) (V : list R) : XR :=
  if (mp <=? length V)%nat then ols_x (trend_pairs V) (f (trend_pairs V)) else None.
Definition slope_out := trend_out (fun _ _ be => be).
Definition intercept_out := trend_out (fun _ al _ => al).
Definition reg_out := trend_out (fun P al be => al + be * nP P).
Definition tsf_out := trend_out (fun P al be => al + be * (nP P + 1)).
Definition resid_mean_out := trend_out (fun P al be => sse al be P / nP P).

(* ---- a perfect line over the ranks 1..n ------------------------------------------------------ *)
Definition line (c d : R) (n : nat) : list R := map (fun t => c + d * INR t) (seq 1 n).
Lemma line_length c d n : length (line c d n) = n.
Proof. unfold line. rewrite map_length, seq_length. reflexivity. Qed.

Lemma perfect_line_fit c d n :
  (2 <= n)%nat ->
  let P := trend_pairs (line c d n) in
  detB P <> 0 /\ ols_alpha P = c /\ ols_beta P = d /\ sse (ols_alpha P) (ols_beta P) P = 0.
Proof.
  intros Hn P.
  assert (HD : detB P <> 0).
  { intros E. apply trend_det_zero_iff in E. rewrite line_length in E. lia. }
  assert (HL : Forall (fun p => fst p = c + d * snd p) P) by apply trend_line_from.
  destruct (perfect_fit c d P HD HL) as (Ha & Hb & Hs & _).
  split; [exact HD|]. split; [exact Ha|]. split; [exact Hb|exact Hs].
Qed.

(* any statistic f(alpha, beta) of the trend fit, on a window whose non-null values are a perfect line *)
Lemma perfect_line_stat c d n mp (f : R -> R -> R) :
  (2 <= n)%nat -> (mp <= n)%nat ->
  (if (mp <=? length (line c d n))%nat then ols_x (trend_pairs (line c d n)) f else None) = Some (f c d).
Proof.
  intros Hn Hmp. rewrite line_length.
  replace (mp <=? n)%nat with true by (symmetry; apply Nat.leb_le; exact Hmp).
  destruct (perfect_line_fit c d n Hn) as (HD & Ha & Hb & _). unfold ols_x.
  destruct (Req_EM_T (detB (trend_pairs (line c d n))) 0) as [E|_]; [contradiction|].
  rewrite Ha, Hb. reflexivity.
Qed.
