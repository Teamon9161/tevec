(* Proofs/PolarsOut.v — the Polars staging buffer refines the generic MaybeUninit buffer of
   Model/Driver.v: slot by slot it holds `join` of the generic cell (a never-written slot is null
   instead of uninitialised memory), so every driver that fills a Vec / VecDeque / ndarray buffer
   completely yields the same sequence in a Polars array.  Axiom-free.                             *)
From Tevec Require Import Base.Prelude Model.Driver Proofs.Driver
     Model.Containers Proofs.Containers Model.PolarsOut.

Lemma chunked_single {A} (b : list (option A)) : chunked_to_list [b] = b.
Proof. unfold chunked_to_list. cbn. apply app_nil_r. Qed.

Lemma finish_polars_eq {A} (b : pstage A) : finish_polars b = Done b.
Proof. unfold finish_polars, pstage_assume_init. f_equal. apply (chunked_single b). Qed.

Lemma collected_polars_id {A} (o : outcome (option A)) : collected_polars o = o.
Proof. destruct o; try reflexivity. cbn. unfold chunked_collect. f_equal. apply (chunked_single out). Qed.

(* ---- the staging buffer as an array of slots ------------------------------------------------- *)
Lemma pstage_uset_update {A} i v (b : pstage A) : pstage_uset i v b = update b i v.
Proof. revert i; induction b as [|c b IH]; intros [|i]; cbn; try rewrite IH; reflexivity. Qed.

Lemma pstage_uninit_nth {A} n j : nth_error (@pstage_uninit A n) j = if j <? n then Some None else None.
Proof. apply nth_error_repeat. Qed.

(* ---- refinement of the generic buffer ------------------------------------------------------------ *)
Lemma pstage_uset_join {A} i (v : option A) (buf : list (option (option A))) :
  pstage_uset i v (map join buf) = map join (set_nth i v buf).
Proof. rewrite pstage_uset_update, set_nth_update, map_update. reflexivity. Qed.

Lemma pstage_uninit_join {A} n : @pstage_uninit A n = map join (repeat None n).
Proof. unfold pstage_uninit. induction n as [|n IH]; [reflexivity|]. cbn. rewrite IH. reflexivity. Qed.

Lemma assume_init_join {A} (buf : list (option (option A))) l :
  assume_init buf = Some l -> map join buf = l.
Proof. intros H. apply assume_init_Some_iff in H. subst buf. rewrite map_map. apply map_id. Qed.

Section Refine.
  Context {St X A : Type}.
  Variable g : St -> X -> St * option A.

  Lemma pexec_join (calls : list (nat * X)) : forall s (buf : list (option (option A))),
    pexec g s calls (map join buf) = map join (exec g s calls buf).
  Proof.
    induction calls as [|[slot a] calls IH]; intros s buf; [reflexivity|].
    cbn [pexec exec]. destruct (g s a) as [s' o]. rewrite pstage_uset_join. apply IH.
  Qed.

  Lemma pexec_length (calls : list (nat * X)) : forall s (b : pstage A),
    length (pexec g s calls b) = length b.
  Proof.
    induction calls as [|[slot a] calls IH]; intros s b; [reflexivity|].
    cbn [pexec]. destruct (g s a) as [s' o]. rewrite IH, pstage_uset_update. apply update_length.
  Qed.

  (* the Polars result of any sequence of stores, from the generic outcome of the same stores *)
  Theorem polars_stage_refines s (calls : list (nat * X)) n :
    finish_polars (pexec g s calls (pstage_uninit n))
    = match finish (exec g s calls (repeat None n)) with
      | Done out => Done out
      | Uninit buf => Done (map join buf)        (* a slot never written is null, not garbage *)
      | Panicked k => Panicked k
      end.
  Proof.
    rewrite finish_polars_eq, pstage_uninit_join, pexec_join. unfold finish.
    destruct (assume_init (exec g s calls (repeat None n))) as [l|] eqn:E; [|reflexivity].
    f_equal. apply assume_init_join. exact E.
  Qed.

  Lemma polars_stage_lift s (calls : list (nat * X)) n :
    finish_polars (pexec g s calls (pstage_uninit n)) = lift_uninit (finish (exec g s calls (repeat None n))).
  Proof. rewrite polars_stage_refines. destruct (finish _); reflexivity. Qed.

  Corollary polars_stage_done s (calls : list (nat * X)) n out :
    finish (exec g s calls (repeat None n)) = Done out ->
    finish_polars (pexec g s calls (pstage_uninit n)) = Done out.
  Proof. intros H. rewrite polars_stage_refines, H. reflexivity. Qed.

End Refine.

(* ---- entry points ---------------------------------------------------------------------------- *)
(* The index bodies never leave a slot unwritten, so for every window (0 included), callback and series a
   Polars staging buffer gives what the generic buffer gives. *)
Section EntryPolarsLemmas.
  Context {T St A : Type}.

  Lemma rolling_apply_to_polars_spec w (f : St -> option T * T -> St * option A) s0 (xs : list T) :
    rolling_apply_to_polars w f s0 xs = lift_uninit (rolling_apply_to w f s0 xs).
  Proof.
    unfold rolling_apply_to_polars, rolling_apply_to. destruct (bad_window w xs); [reflexivity|].
    apply polars_stage_lift.
  Qed.

  Lemma rolling_apply_idx_to_polars_spec w (f : St -> option nat * nat * T -> St * option A) s0 (xs : list T) :
    rolling_apply_idx_to_polars w f s0 xs = lift_uninit (rolling_apply_idx_to w f s0 xs).
  Proof.
    unfold rolling_apply_idx_to_polars, rolling_apply_idx_to. destruct (bad_window w xs); [reflexivity|].
    apply polars_stage_lift.
  Qed.

  Lemma rolling_custom_to_polars_spec w (f : St -> list T -> St * option A) s0 (xs : list T) :
    rolling_custom_to_polars w f s0 xs = lift_uninit (rolling_custom_to w f s0 xs).
  Proof.
    unfold rolling_custom_to_polars, rolling_custom_to. destruct (bad_window w xs); [reflexivity|].
    apply polars_stage_lift.
  Qed.

  Lemma rolling_apply_to_polars_eq w (f : St -> option T * T -> St * option A) s0 (xs : list T) :
    rolling_apply_to_polars w f s0 xs = rolling_apply_to w f s0 xs.
  Proof.
    rewrite rolling_apply_to_polars_spec, rolling_apply_to_total. destruct (bad_window w xs); reflexivity.
  Qed.

  Lemma rolling_apply_idx_to_polars_eq w (f : St -> option nat * nat * T -> St * option A) s0 (xs : list T) :
    rolling_apply_idx_to_polars w f s0 xs = rolling_apply_idx_to w f s0 xs.
  Proof.
    rewrite rolling_apply_idx_to_polars_spec, rolling_apply_idx_to_total. destruct (bad_window w xs); reflexivity.
  Qed.

  Lemma rolling_custom_to_polars_eq w (f : St -> list T -> St * option A) s0 (xs : list T) :
    rolling_custom_to_polars w f s0 xs = rolling_custom_to w f s0 xs.
  Proof.
    rewrite rolling_custom_to_polars_spec, rolling_custom_to_total. destruct (bad_window w xs); reflexivity.
  Qed.
End EntryPolarsLemmas.
