(* Proofs/Audit11.v — C11: lemmas behind sections (A1)-(A6) of Props/C11.v (notes/C11.md, "Audit matrix").
     * Number helpers of tea-dtype/src/number.rs (Model/AggNumber.v): n_add / n_prod folds, Kahan step,
       floor / ceil, min_with / max_with incl. NaN operands.
     * iter_traits.rs vfold2 and vcov's accumulator as its callback: the two definitions (`vfold2`, `cov_acc`);
       the theorems about them are proved in Props/C11.v.
     * every weakly ordered carrier (Spec/ExtremaOrd.v: OrdLaws) is an instance of the extrema theorems of
       Proofs/AggOrder.v — no antisymmetry is asked, so binary64 with +0 / -0 is one (Proofs/Audit11Float.v).
     * plain family (AggBasic): min / max of a series with NaN.
     * masked sum / mean and two-series functions: permutation of the pairs, zip truncation.
     * nullness below the thresholds for every carrier; non-canonical input (a valid NaN).
   The carrier-generic statements and the list facts are axiom-free; statements over option R use the stdlib Reals
   axioms only. *)
From Coq Require Import Reals Lra Lia List Permutation Bool ZArith.
From Tevec Require Import Base.Num Base.XR Spec.Stats Spec.Stats2 Spec.ExtremaOrd
     Model.Agg Model.AggNumber Proofs.AggGeneric Proofs.AggOrder Proofs.AggXR Proofs.Agg Proofs.OrderXR.
Import ListNotations.
Set Implicit Arguments.

Section NumberGeneric.
  Context {A : Type} {NA : Num A} {DN : IsNone A A}.

  (* what one call does, on a null and on a non-null `other` (`self` is never looked at) *)
  Lemma n_add_cases (self other : A) (n : nat) :
    (is_none other = true -> n_add self other n = (self, n)) /\
    (is_none other = false -> n_add self other n = (nadd self other, S n)).
  Proof. unfold n_add, not_none. split; intros ->; reflexivity. Qed.
  Lemma n_prod_cases (self other : A) (n : nat) :
    (is_none other = true -> n_prod self other n = (self, n)) /\
    (is_none other = false -> n_prod self other n = (nmul self other, S n)).
  Proof. unfold n_prod, not_none. split; intros ->; reflexivity. Qed.

End NumberGeneric.

(* the folds are stated for the two kinds of dictionaries a Number type has: unwrap is the identity *)
Definition unwrap_id {A} (DN : IsNone A A) : Prop := forall x : A, unwrap x = x.
Lemma unwrap_id_float {A} {NA : Num A} : unwrap_id (@IsNone_float A NA).
Proof. intros x. reflexivity. Qed.
Lemma unwrap_id_plain {A} : unwrap_id (@IsNone_plain A).
Proof. intros x. reflexivity. Qed.

Section NumberFolds.
  Context {A : Type} {NA : Num A} {DN : IsNone A A}.
  Hypothesis Hun : unwrap_id DN.

  Lemma n_fold_gen (op : A -> A -> A) (xs : list A) (s : A) (n0 : nat) :
    fold_left (fun sn v => if not_none v then (op (fst sn) v, S (snd sn)) else (fst sn, snd sn)) xs (s, n0)
    = (fold_left op (vals xs) s, n0 + length (vals xs)).
  Proof.
    revert s n0. induction xs as [|v xs IH]; intros s n0; cbn [fold_left].
    - cbn. f_equal. lia.
    - rewrite vals_cons. destruct (not_none v) eqn:E; cbn [fst snd].
      + rewrite IH. cbn [fold_left length]. rewrite (Hun v). f_equal. lia.
      + apply IH.
  Qed.

  Lemma vals_unwrap_id (xs : list A) : vals xs = filter (fun v => not_none v) xs.
  Proof. unfold vals, valid_elems. rewrite (map_ext _ (fun x => x) Hun), map_id. reflexivity. Qed.

  (* folding n_add over a series: (sum of the non-null elements added to init in order, their number) —
     i.e. exactly what vfold_n / vsum compute (Model/Agg.v) *)
  Theorem n_add_fold_spec (init : A) (xs : list A) :
    n_add_fold init xs = (fold_left nadd (vals xs) init, length (vals xs)).
  Proof.
    unfold n_add_fold.
    rewrite (fold_left_ext (fun sn v => n_add (fst sn) v (snd sn))
               (fun sn v => if not_none v then (nadd (fst sn) v, S (snd sn)) else (fst sn, snd sn))).
    - rewrite n_fold_gen. reflexivity.
    - intros sn v. unfold n_add. reflexivity.
  Qed.
  Theorem n_prod_fold_spec (init : A) (xs : list A) :
    n_prod_fold init xs = (fold_left nmul (vals xs) init, length (vals xs)).
  Proof.
    unfold n_prod_fold.
    rewrite (fold_left_ext (fun sn v => n_prod (fst sn) v (snd sn))
               (fun sn v => if not_none v then (nmul (fst sn) v, S (snd sn)) else (fst sn, snd sn))).
    - rewrite n_fold_gen. reflexivity.
    - intros sn v. unfold n_prod. reflexivity.
  Qed.

  Theorem n_add_fold_is_vfold_n (xs : list A) :
    n_add_fold nzero xs = (snd (vfold_n (fun acc x => nadd acc x) nzero xs), fst (vfold_n (fun acc x => nadd acc x) nzero xs)).
  Proof. rewrite n_add_fold_spec, vfold_n_spec. reflexivity. Qed.

End NumberFolds.

(* integers: the compensation term is always 0 and the running sum is the plain sum *)
Lemma kh_sum_Z (s v c : Z) : kh_sum (NA := AggNumZ) s v c = ((s + (v - c))%Z, 0%Z).
Proof. unfold kh_sum. cbn. f_equal. lia. Qed.
Theorem kh_fold_Z (xs : list Z) : kh_fold (NA := AggNumZ) xs = (sumZ xs, 0%Z).
Proof.
  unfold kh_fold. change (@nzero Z AggNumZ) with 0%Z.
  assert (G : forall l s, fold_left (fun sc v => kh_sum (NA := AggNumZ) (fst sc) v (snd sc)) l (s, 0%Z)
                          = ((s + sumZ l)%Z, 0%Z)).
  { induction l as [|v l IH]; intros s; cbn [fold_left fst snd].
    - cbn. f_equal. lia.
    - rewrite kh_sum_Z, IH. unfold sumZ. cbn [fold_right]. f_equal. lia. }
  rewrite G. reflexivity.
Qed.

Local Open Scope R_scope.
(* option R (exact reals): the compensation is exactly 0 — Kahan summation is the plain sum without rounding *)
Lemma kh_sum_XR (s v c : R) : kh_sum (Some s) (Some v) (Some c) = (Some (s + (v - c)), Some 0).
Proof. unfold kh_sum. cbn. f_equal. f_equal. ring. Qed.
Theorem kh_fold_XR (V : list R) : kh_fold (map Some V) = (Some (sumR V), Some 0).
Proof.
  unfold kh_fold. change (@nzero XR NumXR) with (Some 0).
  assert (G : forall l s, fold_left (fun sc v => kh_sum (fst sc) v (snd sc)) (map Some l) (Some s, Some 0)
                          = (Some (s + sumR l), Some 0)).
  { induction l as [|v l IH]; intros s; cbn [fold_left map fst snd].
    - rewrite sumR_nil. f_equal. f_equal. ring.
    - rewrite kh_sum_XR. replace (s + (v - 0)) with (s + v) by ring. rewrite IH, sumR_cons. f_equal. f_equal. ring. }
  rewrite G. f_equal. f_equal. ring.
Qed.
(* no null test: a NaN operand poisons the sum AND the compensation, for good *)
Lemma kh_sum_XR_nan_v (s c : XR) : kh_sum s None c = (None, None).
Proof. unfold kh_sum. destruct s, c; reflexivity. Qed.
Lemma kh_fold_XR_poisoned (l : list XR) :
  fold_left (fun sc v => kh_sum (fst sc) v (snd sc)) l (None, None) = (None : XR, None : XR).
Proof. induction l as [|v l IH]; [reflexivity|]. cbn [fold_left fst snd]. unfold kh_sum at 2. cbn. exact IH. Qed.

Definition NumRoundXR : NumRound XR :=
  {| nfloor := fun a => match a with Some x => Some (IZR (Rfloor x)) | None => None end;
     nceil := fun a => match a with Some x => Some (IZR (Rceil x)) | None => None end |}.

Theorem number_floor_XR (a : XR) :
  match a with
  | None => number_floor (NR := NumRoundXR) a = None /\ number_ceil (NR := NumRoundXR) a = None
  | Some x => exists f c : Z,
      number_floor (NR := NumRoundXR) a = Some (IZR f) /\ number_ceil (NR := NumRoundXR) a = Some (IZR c) /\
      IZR f <= x < IZR f + 1 /\ IZR c - 1 < x <= IZR c /\ c = (- Rfloor (- x))%Z
  end.
Proof.
  destruct a as [x|]; [|split; reflexivity].
  exists (Rfloor x), (Rceil x). repeat split; try apply Rfloor_spec; try apply Rceil_spec.
Qed.

Section MinMaxWith.
  Context {A : Type} {NA : Num A}.
  (* the result is one of the operands; `other` wins only when strictly better *)
  Lemma min_with_cases (s o : A) :
    (nltb o s = true /\ min_with s o = o) \/ (nltb o s = false /\ min_with s o = s).
  Proof. unfold min_with. destruct (nltb o s); [left|right]; split; reflexivity. Qed.
  Lemma max_with_cases (s o : A) :
    (nltb s o = true /\ max_with s o = o) \/ (nltb s o = false /\ max_with s o = s).
  Proof. unfold max_with. destruct (nltb s o); [left|right]; split; reflexivity. Qed.

  (* a carrier whose `<` is false on NaN (IEEE): a NaN `other` is ignored, a NaN `self` STAYS *)
  Hypothesis lt_nan_l : forall a b, nisnan a = true -> nltb a b = false.
  Hypothesis lt_nan_r : forall a b, nisnan b = true -> nltb a b = false.
  Theorem min_max_with_nan (s o : A) :
    (nisnan o = true -> min_with s o = s /\ max_with s o = s) /\
    (nisnan s = true -> min_with s o = s /\ max_with s o = s).
  Proof.
    unfold min_with, max_with. split; intros H.
    - rewrite (lt_nan_l o s H), (lt_nan_r s o H). split; reflexivity.
    - rewrite (lt_nan_r o s H), (lt_nan_l s o H). split; reflexivity.
  Qed.

  (* on non-NaN operands of a weakly ordered carrier: a lower / upper bound of both *)
  Hypothesis OL : OrdLaws A.
  Theorem min_max_with_ord (s o : A) :
    num_ok s -> num_ok o ->
    nltb s (min_with s o) = false /\ nltb o (min_with s o) = false /\
    nltb (max_with s o) s = false /\ nltb (max_with s o) o = false.
  Proof.
    intros Hs Ho. pose proof (dl_irrefl (dir_lt OL)) as Irr. unfold min_with, max_with.
    destruct (nltb o s) eqn:E1, (nltb s o) eqn:E2.
    - pose proof (ol_asym OL o s Ho Hs E1) as C. congruence.
    - repeat split; first [assumption | apply Irr; assumption].
    - repeat split; first [assumption | apply Irr; assumption].
    - repeat split; first [assumption | apply Irr; assumption].
  Qed.
End MinMaxWith.

Lemma xlt_nan_l (a b : XR) : nisnan a = true -> nltb a b = false.
Proof. destruct a; [discriminate|reflexivity]. Qed.
Lemma xlt_nan_r (a b : XR) : nisnan b = true -> nltb a b = false.
Proof. destruct b; [discriminate|]. destruct a; reflexivity. Qed.

Theorem min_max_with_XR (x y : R) :
  min_with (Some x) (Some y) = Some (Rmin x y) /\ max_with (Some x) (Some y) = Some (Rmax x y).
Proof.
  unfold min_with, max_with. cbn [nltb NumXR xltb]. split.
  - destruct (Rlt_dec y x) as [H|H]; f_equal; [rewrite Rmin_right by lra|rewrite Rmin_left by lra]; reflexivity.
  - destruct (Rlt_dec x y) as [H|H]; f_equal; [rewrite Rmax_right by lra|rewrite Rmax_left by lra]; reflexivity.
Qed.
Theorem min_max_with_Z (x y : Z) :
  min_with (NA := AggNumZ) x y = Z.min x y /\ max_with (NA := AggNumZ) x y = Z.max x y.
Proof. unfold min_with, max_with. cbn [nltb AggNumZ]. split; destruct (Z.ltb_spec y x), (Z.ltb_spec x y); lia. Qed.

Local Close Scope R_scope.

Section Folds2Proofs.
  Context {A A2 T T2 : Type} {DT : IsNone T A} {DT2 : IsNone T2 A2}.

  (* the pairwise-complete observations, as elements *)
  Definition complete_pairs (xs : list T) (ys : list T2) : list (T * T2) :=
    filter (fun p => not_none (fst p) && not_none (snd p)) (combine xs ys).

End Folds2Proofs.

Section CovIsFold2.
  Context {A : Type} {T T2 : Type} {DT : IsNone T A} {DT2 : IsNone T2 A} {F : Type} {NF : Num F}.
  Variable tof : A -> F.
  Definition cov_acc (s : nat * F * F * F) (a : T) (b : T2) : nat * F * F * F :=
    let '(n, sa, sb, sab) := s in
    let va := tof (unwrap a) in let vb := tof (unwrap b) in
    (S n, nadd sa va, nadd sb vb, nadd sab (nmul va vb)).
End CovIsFold2.

(* Proofs/AggOrder.v characterises the extrema under asymmetry + co-transitivity only — no antisymmetry, which
   binary64 does not satisfy (+0 / -0) — so every OrdLaws carrier is an instance, in both directions. *)
Section OrdInst.
  Context {A : Type} {NA : Num A} {T : Type} {DT : IsNone T A}.
  Definition valid_ok (xs : list T) : Prop := all_ok (@num_ok A NA) xs.
End OrdInst.

Lemma ord_weak {A} {NA : Num A} : OrdLaws A -> WeakOrder (@nltb A NA) num_ok.
Proof. intros OL. split; [exact (ol_asym OL)|exact (ol_cotrans OL)]. Qed.
Lemma ord_equiv {A} {NA : Num A} (OL : OrdLaws A) (a b : A) :
  num_ok a -> num_ok b -> nltb a b = false -> nltb b a = false -> neqb a b = true.
Proof. intros Ha Hb H1 H2. rewrite (ol_eqb OL a b Ha Hb), H1, H2. reflexivity. Qed.

From Tevec Require Proofs.CmpOrdInst.

Lemma ordlaws_AggZ : @OrdLaws Z AggNumZ.
Proof.
  destruct (z_weak (@num_ok Z AggNumZ)) as [Has Hco]. split; [exact Has|exact Hco| |]; cbn [nltb neqb nleb AggNumZ]; intros.
  - destruct (Z.eqb_spec a b), (Z.ltb_spec a b), (Z.ltb_spec b a); cbn; try reflexivity; lia.
  - destruct (Z.leb_spec a b), (Z.ltb_spec b a); cbn; try reflexivity; lia.
Qed.
Lemma num_ok_Z (z : Z) : @num_ok Z AggNumZ z.
Proof. reflexivity. Qed.
Lemma valid_ok_Z {T} {DT : IsNone T Z} (xs : list T) : valid_ok (NA := AggNumZ) xs.
Proof. intros v _ _. reflexivity. Qed.
Definition ordlaws_XR : OrdLaws XR := Proofs.CmpOrdInst.ordlaws_XR.

(* AggBasic::min / max on an ARBITRARY float series (NaN is an ordinary value there): a leading NaN is returned,
   a later NaN is skipped *)
Local Open Scope R_scope.
Lemma pfold_nan (better_min : bool) (l : list XR) :
  fold_left (fun acc x => match acc with None => Some x | Some v => Some (if better_min then min_with v x else max_with v x) end)
            l (Some (None : XR)) = Some None.
Proof.
  induction l as [|x l IH]; [reflexivity|]. cbn [fold_left].
  replace (if better_min then min_with None x else max_with None x) with (None : XR); [exact IH|].
  destruct better_min; unfold min_with, max_with; cbn [nltb NumXR xltb]; destruct x; reflexivity.
Qed.
Theorem plain_min_max_with_nan (l : list XR) :
  match l with
  | [] => pmin l = None /\ pmax l = None
  | None :: _ => pmin l = Some None /\ pmax l = Some None
  | Some r :: t => pmin l = Some (Some (fold_left Rmin (valid t) r)) /\ pmax l = Some (Some (fold_left Rmax (valid t) r))
  end.
Proof.
  destruct l as [|[r|] t]; [split; reflexivity| |].
  - unfold pmin, pmax. cbn [fold_left]. split.
    + revert r. induction t as [|x t IH]; intros r; [reflexivity|]. cbn [fold_left].
      destruct x as [y|].
      * rewrite (proj1 (min_max_with_XR r y)). cbn [valid flat_map app fold_left]. apply IH.
      * unfold min_with. cbn [nltb NumXR xltb valid flat_map app]. apply IH.
    + revert r. induction t as [|x t IH]; intros r; [reflexivity|]. cbn [fold_left].
      destruct x as [y|].
      * rewrite (proj2 (min_max_with_XR r y)). cbn [valid flat_map app fold_left]. apply IH.
      * unfold max_with. cbn [nltb NumXR xltb valid flat_map app]. apply IH.
  - unfold pmin, pmax. cbn [fold_left]. split; [apply (pfold_nan true)|apply (pfold_nan false)].
Qed.
Local Close Scope R_scope.

Lemma combine_truncate {X Y} (xs : list X) (ys : list Y) :
  combine xs ys = combine (firstn (Nat.min (length xs) (length ys)) xs) (firstn (Nat.min (length xs) (length ys)) ys).
Proof.
  revert ys. induction xs as [|x xs IH]; intros [|y ys]; cbn [length Nat.min firstn combine]; try reflexivity.
  f_equal. apply IH.
Qed.

Section MaskPerm.
  Context {A : Type} {NA : Num A} {T : Type} {DT : IsNone T A} {U : Type} {DU : IsNone U bool}.
  Lemma mask_filter_perm (xs xs' : list T) (mask mask' : list U) :
    Permutation (combine xs mask) (combine xs' mask') ->
    Permutation (mask_filter xs mask) (mask_filter xs' mask').
  Proof.
    intros HP. rewrite !mask_filter_spec. apply Permutation_map, Permutation_filter, HP.
  Qed.
  Theorem masked_count_perm (xs xs' : list T) (mask mask' : list U) :
    Permutation (combine xs mask) (combine xs' mask') ->
    fst (n_vsum_filter xs mask) = fst (n_vsum_filter xs' mask').
  Proof.
    intros HP. rewrite !n_vsum_filter_spec. cbn [fst]. apply count_valid_perm, (mask_filter_perm xs xs' mask mask' HP).
  Qed.
End MaskPerm.

Theorem masked_perm_float {T} {DT : IsNone T XR} {U} {DU : IsNone U bool} (mp : nat)
    (xs xs' : list T) (mask mask' : list U) :
  canonical idX xs -> canonical idX xs' -> Permutation (combine xs mask) (combine xs' mask') ->
  n_sum_filter xs mask = n_sum_filter xs' mask' /\ vmean_filter idX mp xs mask = vmean_filter idX mp xs' mask'.
Proof.
  intros H H' HP. pose proof (mask_filter_perm xs xs' mask mask' HP) as HM.
  pose proof (canonical_mask_filter mask H) as C. split.
  - rewrite !n_sum_filter_is_vsum. apply vsum_perm_float; assumption.
  - rewrite (vmean_filter_textbook (@sum_hom_float T DT) mp mask H),
            (vmean_filter_textbook (@sum_hom_float T DT) mp mask' H'). cbv zeta.
    pose proof (rvals_perm idX HM) as HR. rewrite (Permutation_length HR), (meanR_perm HR). reflexivity.
Qed.

(* "null when fewer than the required number of valid observations" needs no arithmetic: it is decided by
   the count alone, so it holds for every carrier (binary64 included), every dictionary, every cast — also for
   non-canonical input.  (The converse — non-null when there ARE enough — is carrier specific: option R,
   C11_nullness_*; at binary64 an overflowing sum can produce inf - inf = NaN.)  The one-series theorem asks
   `nisnan nnan = true` of the carrier, the two-series theorem nothing. *)
Section NullBelow.
  Context {A : Type} {NA : Num A} {T : Type} {DT : IsNone T A} {F : Type} {NF : Num F}.
  Variable tof : A -> F.

  Lemma count_valid_le_length (xs : list T) : count_valid xs <= length xs.
  Proof. pose proof (count_valid_plus_none xs). lia. Qed.

  Context {T2 : Type} {DT2 : IsNone T2 A}.
  Definition npairs (xs : list T) (ys : list T2) : nat := length (complete_pairs xs ys).

  Lemma corr_count (xs : list T) (ys : list T2) s :
    fst (fst (fst (fst (fst (fold_left (corr_step tof) (combine xs ys) s)))))
    = fst (fst (fst (fst (fst s)))) + npairs xs ys.
  Proof.
    unfold npairs, complete_pairs. generalize (combine xs ys) as l. intros l. revert s.
    induction l as [|p l IH]; intros s; cbn [fold_left filter]; [cbn; lia|].
    rewrite IH. unfold corr_step. destruct s as [[[[[n sa] s2a] sb] s2b] sab].
    destruct (not_none (fst p) && not_none (snd p)); cbn [fst snd length]; lia.
  Qed.

  Lemma cov_count (xs : list T) (ys : list T2) s :
    fst (fst (fst (fold_left (cov_step tof) (combine xs ys) s))) = fst (fst (fst s)) + npairs xs ys.
  Proof.
    destruct s as [[[n sa] sb] sab]. change (n, sa, sb, sab) with (cov_of (n, sa, sa, sb, sb, sab)).
    rewrite fold_cov_of. pose proof (corr_count xs ys (n, sa, sa, sb, sb, sab)) as C.
    destruct (fold_left (corr_step tof) (combine xs ys) (n, sa, sa, sb, sb, sab)) as [[[[[n' a] a2] b] b2] c]. exact C.
  Qed.

  Theorem null_below_two (mp : nat) (xs : list T) (ys : list T2) :
    npairs xs ys < Nat.max mp 2 -> vcov tof mp xs ys = nnan /\ vcorr_pearson tof mp xs ys = nnan.
  Proof.
    intros H. split.
    - unfold vcov. pose proof (cov_count xs ys (0, nzero, nzero, nzero)) as C.
      destruct (fold_left (cov_step tof) (combine xs ys) (0, nzero, nzero, nzero)) as [[[n sa] sb] sab].
      cbn [fst snd] in C. replace (Nat.max mp 2 <=? n) with false by (symmetry; apply Nat.leb_gt; lia). reflexivity.
    - unfold vcorr_pearson. pose proof (corr_count xs ys (0, nzero, nzero, nzero, nzero, nzero)) as C.
      destruct (fold_left (corr_step tof) (combine xs ys) (0, nzero, nzero, nzero, nzero, nzero))
        as [[[[[n sa] s2a] sb] s2b] sab].
      cbn [fst snd] in C. replace (Nat.max mp 2 <=? n) with false by (symmetry; apply Nat.leb_gt; lia). reflexivity.
  Qed.

  (* skew / kurt test their intermediate result with is_nan *)
  Hypothesis nan_is_nan : @nisnan F NF nnan = true.

  Theorem null_below_single (mp : nat) (xs : list T) :
    (count_valid xs = 0 -> vsum xs = None /\ vmean tof xs = nnan /\ vmin xs = None /\ vmax xs = None /\
                           vargmin xs = None /\ vargmax xs = None /\ vfirst xs = None /\ vlast xs = None) /\
    (count_valid xs < Nat.max mp 2 -> vvar tof mp xs = nnan /\ vstd tof mp xs = nsqrt nnan) /\
    (count_valid xs < Nat.max mp 3 -> vskew tof mp xs = nnan) /\
    (count_valid xs < Nat.max mp 4 -> vkurt tof mp xs = nnan).
  Proof.
    rewrite count_valid_spec. split; [|split; [|split]].
    - intros H0. assert (V0 : vals xs = []) by (destruct (vals xs); [reflexivity|discriminate]).
      unfold vsum, vmean. rewrite vfold_n_spec, V0. cbn [length fst snd Nat.leb].
      split; [reflexivity|]. split; [reflexivity|].
      rewrite vmin_is_plain_min, vmax_is_plain_max, V0. split; [reflexivity|]. split; [reflexivity|].
      split; [apply varg_none, V0|]. split; [apply varg_none, V0|]. split; [apply vfirst_none, V0|apply vlast_none, V0].
    - intros H. assert (E : vvar tof mp xs = nnan).
      { unfold vvar, vmean_var. rewrite vapply_n_spec. cbn [fst snd].
        destruct (length (vals xs) <? mp) eqn:E1; [reflexivity|]. apply Nat.ltb_ge in E1.
        replace (length (vals xs) <? 2) with true by (symmetry; apply Nat.ltb_lt; lia). reflexivity. }
      split; [exact E|]. unfold vstd. rewrite E. reflexivity.
    - intros H. unfold vskew. rewrite vapply_n_spec. cbn [fst snd].
      destruct (fold_left (sk_step tof) (vals xs) (nzero, nzero, nzero)) as [[m1 m2] m3].
      destruct (length (vals xs) <? mp) eqn:E1; [reflexivity|]. apply Nat.ltb_ge in E1.
      replace (3 <=? length (vals xs)) with false by (symmetry; apply Nat.leb_gt; lia).
      rewrite nan_is_nan. reflexivity.
    - intros H. unfold vkurt. rewrite vapply_n_spec. cbn [fst snd].
      destruct (fold_left (ku_step tof) (vals xs) (nzero, nzero, nzero, nzero)) as [[[m1 m2] m3] m4].
      destruct (length (vals xs) <? mp) eqn:E1; [reflexivity|]. apply Nat.ltb_ge in E1.
      replace (4 <=? length (vals xs)) with false by (symmetry; apply Nat.leb_gt; lia).
      rewrite nan_is_nan. reflexivity.
  Qed.
End NullBelow.

(* non-canonical input (DESIGN 5.4 excludes it; this is what the code does there): a VALID element whose value is
   NaN — `Some(NaN)` in an Option<f64> series — is counted as an observation and poisons the arithmetic aggregations *)
Local Open Scope R_scope.
Lemma xfold_add_none (l : list XR) : fold_left (fun acc x : XR => nadd acc x) l None = None.
Proof. induction l as [|x l IH]; [reflexivity|]. cbn [fold_left]. exact IH. Qed.
Lemma xfold_add_poison (l : list XR) (a : XR) : In None l -> fold_left (fun acc x : XR => nadd acc x) l a = None.
Proof.
  revert a. induction l as [|x l IH]; intros a []; cbn [fold_left].
  - subst x. replace (nadd a None) with (None : XR) by (destruct a; reflexivity). apply xfold_add_none.
  - apply IH. assumption.
Qed.
Lemma xfold_mv_none (l : list XR) : fold_left (mv_step idX) l (None, None) = (None, None).
Proof. induction l as [|x l IH]; [reflexivity|]. cbn [fold_left]. exact IH. Qed.
Lemma xfold_mv_poison (l : list XR) (s : XR * XR) : In None l -> fold_left (mv_step idX) l s = (None, None).
Proof.
  revert s. induction l as [|x l IH]; intros s []; cbn [fold_left].
  - subst x. replace (mv_step idX s None) with (None : XR, None : XR).
    + apply xfold_mv_none.
    + unfold mv_step. destruct s as [[a|] [b|]]; reflexivity.
  - apply IH. assumption.
Qed.

Local Close Scope R_scope.
