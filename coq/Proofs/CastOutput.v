(* Proofs/CastOutput.v — C08, output encodings: a rolling / aggregation result (an f64, or an Option<f64> for
   the rolling extrema) cast into the requested output element type f64 / f32 / Option<f64> / Option<i32>
   (tea-dtype/src/cast.rs:25-64, `f64: Cast<U>` / `Option<T::Inner>: Cast<U>` in the rolling signatures) is
   null exactly when the result is null.  Corollary of the C15 cast-lattice theorems (Proofs/CastLattice.v),
   for every value and every float implementation satisfying ExtLaws.  Axiom-free.                       *)
From Coq Require Import ZArith List Bool.
From Tevec Require Import Base.Prelude Model.Cast Proofs.Cast Proofs.CastLattice.
Import ListNotations.

Definition result_tys : list ty := [Plain (N F64); Opt (N F64)].
Definition output_tys : list ty := [Plain (N F64); Plain (N F32); Opt (N F64); Opt (N I32)].

Definition output_encoding_statement : Prop :=
  forall (F : Type) (X : Ext F), ExtLaws X ->
  forall (s t : ty) (v : val s) (w : val t),
    In s result_tys -> In t output_tys -> cast X s t v = Ok w ->
    (is_none X s v = true -> is_none X t w = true) /\
    (canonical X s v = true -> is_none X s v = false -> is_none X t w = false) /\
    (is_none X s v = true -> forall b (E : t = Opt b), eq_rect t val w (Opt b) E = None).

Theorem output_encoding : output_encoding_statement.
Proof.
  intros F X L s t v w Hs Ht Hc.
  assert (Hi : implemented s t = true /\ can_null t = true /\ kf_text_null s t = false /\ parser_pair s t = false
               /\ is_time_ty t = false /\ t <> Opt (N I64)).
  { cbn in Hs, Ht. destruct Hs as [<-|[<-|[]]]; destruct Ht as [<-|[<-|[<-|[<-|[]]]]];
      repeat split; try reflexivity; discriminate. }
  destruct Hi as (Hi & Hcn & Hkf & Hpp & Htm & H64).
  split; [|split].
  - intros Hn. exact (cast_null_preserved X L s t v w Hi Hcn Hkf Hn Hc).
  - intros Hcan Hn. apply (cast_nonnull_preserved X L s t v w Hi Hcn Hkf Hpp Hcan Hn); [| |exact Hc].
    + intros Ht'. rewrite Htm in Ht'. discriminate.
    + intros E. contradiction.
  - intros Hn b E. subst t. cbn [eq_rect]. exact (cast_null_to_option X s b v w Hi Hn Hc).
Qed.

(* the casts involved never panic *)
Theorem output_cast_total :
  forall (F : Type) (X : Ext F) (s t : ty) (v : val s),
    In s result_tys -> In t output_tys -> exists w, cast X s t v = Ok w.
Proof.
  intros F X s t v Hs Ht. cbn in Hs, Ht.
  destruct Hs as [<-|[<-|[]]]; destruct Ht as [<-|[<-|[<-|[<-|[]]]]]; cbn in v |- *;
    try (eexists; reflexivity); try (destruct v; eexists; reflexivity).
Qed.
