(* Proofs/KernelSteps.v — C10: the step-structured kernel trace (Model/KernelSteps.v) IS the kernel trace.
     (F) flattening the steps gives `kernel_trace` back, for every traced callback, window, body;
     (P) step number i is position i: its driver reads are those of position i, its write (if the callback
         returned) is slot i, and its callback accesses are unchecked reads inside the window of position i;
     (N) only the last step can carry a panic, there are at most `length xs` steps, and exactly `length xs`
         without any panic whenever the erased run returns;
     (S) the sorted read numbers of a step are a permutation of the numbers of its reads (nothing lost, no
         read invented by the normalisation), and sorted.                                                 *)
From Coq Require Import ZArith Lia List Permutation Sorted.
From Tevec Require Import Base.Prelude Base.Num Model.Driver Proofs.Driver Model.Cmp
     Model.Reg Model.Kernels Proofs.Kernels Proofs.IdxRun Proofs.IdxPrefix
     Proofs.Kernels2 Model.SortCmp Proofs.SortCmp Model.Rank Model.KernelsMap Proofs.KernelsMap Proofs.KernelsMap2
     Model.KernelSteps.
Import ListNotations.

Section Flatten.
  Context {T St O : Type}.
  Variable cbt : St -> option nat * nat * T -> tr (St * O).
  Variable drv : nat -> list acc.
  Variable wr : bool.

  Lemma steps_calls_flatten : forall calls s,
    flat_map kstep_accs (steps_calls cbt drv wr s calls) = trace_calls cbt drv wr s calls.
  Proof.
    induction calls as [|[slot a] rest IH]; intros s; [reflexivity|].
    cbn [steps_calls trace_calls].
    destruct (snd (cbt s a)) as [[s' o]|pk].
    - cbn [flat_map]. unfold kstep_accs at 1. cbn [ks_drv ks_cb ks_wr]. rewrite IH.
      rewrite <- !app_assoc. reflexivity.
    - cbn [flat_map]. unfold kstep_accs. cbn [ks_drv ks_cb ks_wr]. rewrite !app_nil_r. reflexivity.
  Qed.

  (* only the last step can carry a panic *)
  Lemma steps_calls_panic_last : forall calls s i k,
    nth_error (steps_calls cbt drv wr s calls) i = Some k -> ks_panic k <> None ->
    S i = length (steps_calls cbt drv wr s calls).
  Proof.
    induction calls as [|[slot a] rest IH]; intros s i k Hk Hp.
    - destruct i; discriminate.
    - cbn [steps_calls] in *. destruct (snd (cbt s a)) as [[s' o]|pk].
      + destruct i as [|i].
        * cbn in Hk. injection Hk as <-. cbn in Hp. congruence.
        * cbn [nth_error length] in *. f_equal. exact (IH s' i k Hk Hp).
      + destruct i as [|i]; [reflexivity|]. destruct i; discriminate.
  Qed.

  Lemma steps_calls_length : forall calls s, length (steps_calls cbt drv wr s calls) <= length calls.
  Proof.
    induction calls as [|[slot a] rest IH]; intros s; [apply Nat.le_refl|].
    cbn [steps_calls]. destruct (snd (cbt s a)) as [[s' o]|pk]; cbn [length]; [specialize (IH s')|]; lia.
  Qed.

  (* step i is the i-th call *)
  Lemma steps_calls_nth : forall calls s i k,
    nth_error (steps_calls cbt drv wr s calls) i = Some k ->
    exists slot a s', nth_error calls i = Some (slot, a) /\
      ks_drv k = drv (snd (fst a)) /\ ks_cb k = fst (cbt s' a) /\
      (ks_panic k = None -> ks_wr k = if wr then [AUset slot] else []) /\
      (ks_panic k <> None -> ks_wr k = []).
  Proof.
    induction calls as [|[slot a] rest IH]; intros s i k Hk.
    - destruct i; discriminate.
    - cbn [steps_calls] in Hk. destruct (snd (cbt s a)) as [[s' o]|pk] eqn:E.
      + destruct i as [|i].
        * cbn in Hk. injection Hk as <-. exists slot, a, s. cbn. repeat split; congruence.
        * cbn [nth_error] in *. exact (IH s' i k Hk).
      + destruct i as [|i]; [|destruct i; discriminate].
        cbn in Hk. injection Hk as <-. exists slot, a, s. cbn. repeat split; congruence.
  Qed.

  (* no panic in the erased run: one step per call, none of them carries a panic *)
  Variable cb : St -> option nat * nat * T -> res (St * O).
  Hypothesis Herase : forall s a, snd (cbt s a) = cb s a.

  Lemma steps_calls_complete : forall calls s outs,
    run (lift_cb cb) (Ok s) (map snd calls) = map Ok outs ->
    length (steps_calls cbt drv wr s calls) = length calls /\
    Forall (fun k => ks_panic k = None) (steps_calls cbt drv wr s calls).
  Proof.
    induction calls as [|[slot a] rest IH]; intros s outs Hrun; [split; [reflexivity|constructor]|].
    cbn [steps_calls map snd run lift_cb] in *. rewrite Herase.
    destruct (cb s a) as [[s' o]|pk].
    - destruct outs as [|o' outs]; [discriminate|]. cbn [map] in Hrun. injection Hrun as _ Hrun.
      destruct (IH s' outs Hrun) as [Hl Hf]. split; [cbn [length]; f_equal; exact Hl|].
      constructor; [reflexivity|exact Hf].
    - destruct outs; discriminate.
  Qed.
End Flatten.

Lemma kernel_steps_unfold {T St O} body two w (cbt : St -> option nat * nat * T -> tr (St * O)) s0 (xs : list T) :
  1 <= w ->
  kernel_steps body two w cbt s0 xs
  = steps_calls cbt (if body then drv_reads two else fun _ => []) body s0 (kcalls body w xs).
Proof.
  intros Hw. unfold kernel_steps. rewrite bad_window_false, <- kcalls_eq by exact Hw. destruct body; reflexivity.
Qed.

Lemma kernel_steps_w0 {T St O} body two (cbt : St -> option nat * nat * T -> tr (St * O)) s0 (xs : list T) :
  kernel_steps body two 0 cbt s0 xs = [].
Proof.
  unfold kernel_steps, bad_window. destruct xs as [|x xs]; [|reflexivity]. cbn. destruct body; reflexivity.
Qed.

(* (F) for every traced callback, window (0 and > len included), body, one or two series *)
Theorem kernel_steps_flatten {T St O} body two w (cbt : St -> option nat * nat * T -> tr (St * O)) s0
        (xs : list T) :
  flat_map kstep_accs (kernel_steps body two w cbt s0 xs) = kernel_trace body two w cbt s0 xs.
Proof.
  unfold kernel_steps, kernel_trace. destruct (bad_window w xs); [reflexivity|].
  destruct body; apply steps_calls_flatten.
Qed.

(* (P) step i is position i *)
Theorem kernel_step_shape {T St O} body two w (cbt : St -> option nat * nat * T -> tr (St * O)) s0
        (xs : list T) i k :
  (forall s st e v, start_le st e -> reads_within (start_or_0 st) e (fst (cbt s (st, e, v)))) ->
  1 <= w ->
  nth_error (kernel_steps body two w cbt s0 xs) i = Some k ->
  i < length xs /\
  ks_drv k = (if body then drv_reads two i else []) /\
  (ks_panic k = None -> ks_wr k = if body then [AUset i] else []) /\
  (ks_panic k <> None -> ks_wr k = []) /\
  reads_within (start_or_0 (start_of (eff_window body w (length xs)) i)) i (ks_cb k).
Proof.
  intros Hcb Hw Hk. rewrite kernel_steps_unfold in Hk by exact Hw.
  apply steps_calls_nth in Hk. destruct Hk as (slot & a & s' & Hc & Hd & Hr & Hw1 & Hw2).
  unfold kcalls in Hc. rewrite nth_error_mapi in Hc.
  destruct (nth_error xs i) as [v|] eqn:E; [|discriminate]. cbn in Hc. injection Hc as <- <-.
  assert (Hi : i < length xs) by (apply nth_error_Some; congruence).
  cbn [fst snd] in *. split; [exact Hi|]. split; [rewrite Hd; destruct body; reflexivity|].
  split; [exact Hw1|]. split; [exact Hw2|]. rewrite Hr. apply Hcb. apply start_of_le.
Qed.

(* one-series kernels: the callback reads of step i lie in the window of position i *)
Definition step_in_window (body : bool) (w len i : nat) (k : kstep) : Prop :=
  i < len /\ ks_drv k = (if body then drv_reads false i else []) /\
  (ks_panic k = None -> ks_wr k = if body then [AUset i] else []) /\
  reads_within (start_or_0 (start_of (eff_window body w len) i)) i (ks_cb k).

Lemma kernel_step_in_window {T St O} body w (cbt : St -> option nat * nat * T -> tr (St * O)) s0
      (xs : list T) i k :
  (forall s st e v, start_le st e -> reads_within (start_or_0 st) e (fst (cbt s (st, e, v)))) ->
  nth_error (kernel_steps body false w cbt s0 xs) i = Some k -> step_in_window body w (length xs) i k.
Proof.
  intros Hcb Hk. destruct w as [|w']; [rewrite kernel_steps_w0 in Hk; destruct i; discriminate|].
  eapply kernel_step_shape in Hk; [|exact Hcb|lia].
  destruct Hk as (H1 & H2 & H3 & _ & H5). repeat split; assumption.
Qed.

(* `ins_z` / `sort_z` are Model.SortCmp's insertion sort under Z.compare: (x <=? y)%Z is cle Z.compare x y *)
Lemma sort_z_perm l : Permutation (sort_z l) l.
Proof. exact (isort_perm Z.compare l). Qed.
Lemma sort_z_sorted l : Sorted Z.le (sort_z l).
Proof.
  assert (H : Sorted (fun a b => (a <=? b)%Z = true) (sort_z l)).
  { apply (isort_sorted Z.compare). intros a b. change (cle Z.compare) with Z.leb.
    destruct (Z.leb_spec a b); [left; reflexivity|right; apply Z.leb_le; lia]. }
  induction H as [|a r _ IH Hd]; constructor; [exact IH|].
  destruct Hd as [|b r Hab]; constructor. apply Z.leb_le. exact Hab.
Qed.

(* ---- vrank: the trace cut at its writes ---------------------------------------------------------------- *)
Lemma segs_of_flatten : forall t cur, flat_map wseg_accs (segs_of t cur) = cur ++ t.
Proof.
  induction t as [|a r IH]; intros cur.
  - cbn [segs_of]. destruct cur; [reflexivity|]. cbn. unfold wseg_accs. cbn. rewrite !app_nil_r. reflexivity.
  - destruct a as [v i|v x y|v x y|i]; cbn [segs_of];
      try (rewrite IH, <- app_assoc; reflexivity).
    cbn [flat_map]. rewrite IH. unfold wseg_accs. cbn. rewrite <- app_assoc. reflexivity.
Qed.

Lemma segs_of_writes : forall t cur, seg_writes (segs_of t cur) = writes_of t.
Proof.
  induction t as [|a r IH]; intros cur.
  - cbn [segs_of]. destruct cur; reflexivity.
  - destruct a as [v i|v x y|v x y|i]; cbn [segs_of]; try (rewrite IH; reflexivity).
    unfold seg_writes in *. cbn [flat_map ws_write]. rewrite IH. reflexivity.
Qed.

Lemma writes_of_filter_observable t : writes_of (filter observable t) = writes_of t.
Proof.
  induction t as [|a r IH]; [reflexivity|].
  destruct a as [[|[|[|v]]] i|v x y|v x y|i]; cbn [filter observable]; cbn [writes_of flat_map app] in *;
    rewrite ?IH; try reflexivity; unfold writes_of in *; cbn [flat_map app]; rewrite ?IH; reflexivity.
Qed.

(* every segment but the last ends with a write *)
Lemma segs_of_write_last : forall t cur i s,
  nth_error (segs_of t cur) i = Some s -> ws_write s = None -> S i = length (segs_of t cur).
Proof.
  induction t as [|a r IH]; intros cur i s Hs Hw.
  - cbn [segs_of] in *. destruct cur; [destruct i; discriminate|].
    destruct i as [|i]; [reflexivity|destruct i; discriminate].
  - destruct a as [v j|v x y|v x y|j]; cbn [segs_of] in *; try (eapply IH; eassumption).
    destruct i as [|i]; [cbn in Hs; injection Hs as <-; discriminate|].
    cbn [nth_error length] in *. f_equal. eapply IH; eassumption.
Qed.

Lemma class_rep_le {T} (same : T -> T -> bool) (xs : list T) i : class_rep same xs i <= i.
Proof.
  unfold class_rep. destruct (nth_error xs i) as [x|]; [|apply Nat.le_refl].
  destruct (find _ (seq 0 i)) as [j|] eqn:E; [|apply Nat.le_refl].
  apply find_some in E. destruct E as [E _]. apply in_seq in E. lia.
Qed.

(* the representative holds an element of the same class (for a reflexive `same`) *)
Lemma class_rep_same {T} (same : T -> T -> bool) (xs : list T) i x :
  (forall y, same y y = true) -> nth_error xs i = Some x ->
  exists y, nth_error xs (class_rep same xs i) = Some y /\ same y x = true.
Proof.
  intros Hr Hx. unfold class_rep. rewrite Hx.
  destruct (find _ (seq 0 i)) as [j|] eqn:E; [|exists x; split; [exact Hx|apply Hr]].
  apply find_some in E. destruct E as [_ E]. destruct (nth_error xs j) as [y|]; [|discriminate].
  exists y. split; [reflexivity|exact E].
Qed.

Section VrankSegs.
  Context {A : Type} {NA : Num A} {T : Type} {DT : IsNone T A} {DX : IsNoneX T A}.

  (* nothing observable is added, dropped or reordered by the cut *)
  Theorem vrank_segs_flatten pct rev (xs : list T) :
    flat_map wseg_accs (vrank_segs pct rev xs) = filter observable (fst (vrank_tr pct rev xs)).
  Proof. unfold vrank_segs. rewrite segs_of_flatten. reflexivity. Qed.

  Theorem vrank_segs_writes pct rev (xs : list T) :
    seg_writes (vrank_segs pct rev xs) = writes_of (fst (vrank_tr pct rev xs)).
  Proof. unfold vrank_segs. rewrite segs_of_writes. apply writes_of_filter_observable. Qed.

  (* hence the segments write every slot exactly once on the uninitialised-buffer path *)
  Theorem vrank_segs_each_slot_once pct rev (xs : list T) :
    2 <= length xs ->
    get_is_none xs (nth 0 (isort (cmp_idx (cmp_dir rev) xs) (seq 0 (length xs))) 0) = false ->
    Permutation (seg_writes (vrank_segs pct rev xs)) (seq 0 (length xs)).
  Proof. intros H1 H2. rewrite vrank_segs_writes. apply vrank_tr_writes_perm; assumption. Qed.

  (* every observable access of every segment is in bounds *)
  Theorem vrank_segs_in_bounds pct rev (xs : list T) :
    Forall (fun s => Forall (acc_ok (length xs) (length xs)) (wseg_accs s)) (vrank_segs pct rev xs).
  Proof.
    assert (H : Forall (acc_ok (length xs) (length xs)) (flat_map wseg_accs (vrank_segs pct rev xs))).
    { rewrite vrank_segs_flatten. apply Forall_forall. intros a Ha. apply filter_In in Ha.
      destruct Ha as [Ha _]. pose proof (vrank_tr_in_bounds pct rev xs) as Hb.
      rewrite Forall_forall in Hb. exact (Hb a Ha). }
    apply Forall_forall. intros s Hs. apply Forall_forall. intros a Ha.
    rewrite Forall_forall in H. apply H. apply in_flat_map. exists s. split; assumption.
  Qed.

  Theorem vrank_segs_write_last pct rev (xs : list T) i s :
    nth_error (vrank_segs pct rev xs) i = Some s -> ws_write s = None ->
    S i = length (vrank_segs pct rev xs).
  Proof. apply segs_of_write_last. Qed.
End VrankSegs.

(* ---- window 0 on a non-empty first series (Model/Driver.v follows view.rs) --------------------------------
   Both bodies assert before anything is accessed: the index body `other.len() >= len` and then
   `window > 0 || len == 0`, the iterator body `window > 0 || self.is_empty()` on SELF - so also when the
   second series is empty and the zipped series has no element.  No step, no access.                     *)
Lemma resid_window0_rejected {A : Type} {NA : Num A} {T1 : Type} {D1 : IsNone T1 A}
      {T2 : Type} {D2 : IsNone T2 A} (K : rstat) body mp (xs : list T1) (ys : list T2) :
  xs <> [] ->
  ts_vregx_resid (A := A) (D1 := D1) (D2 := D2) K body 0 mp xs ys = Panicked AssertFail
  /\ steps_ts_vregx_resid (A := A) (D1 := D1) (D2 := D2) K body 0 mp xs ys = [].
Proof.
  intros Hx. split.
  - unfold ts_vregx_resid. cbv zeta. destruct body.
    + rewrite rolling2_apply_idx_to_total. destruct (length ys <? length xs); [reflexivity|].
      replace (bad_window 0 xs) with true by (symmetry; apply bad_window_true_iff; auto). reflexivity.
    + apply rolling2_apply_idx_default_window0. exact Hx.
  - unfold steps_ts_vregx_resid. cbv zeta. destruct (body && (length ys <? length xs)); [reflexivity|].
    apply kernel_steps_w0.
Qed.
