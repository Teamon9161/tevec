(* Proofs/Audit09.v — C09: statements about EVERY model state (no well-formedness:
   len() and shift never panic), is_empty, fused behaviour after exhaustion, and sources whose own size hint
   is inexact (Filter / FilterMap under TrustIter) with the partitions as the code builds them.          *)
From Tevec Require Import Base.Prelude Model.Iter Proofs.Iter Model.IterAudit.
Local Open Scope nat_scope.

Lemma tlen_total s : tlen s = Ok (fst (size_hint s)).
Proof. unfold tlen. rewrite hint_lower_is_upper. reflexivity. Qed.

Lemma tis_empty_total s : tis_empty s = Ok (fst (size_hint s) =? 0).
Proof. unfold tis_empty. rewrite tlen_total. reflexivity. Qed.

(* is_empty answers whether next() would return None *)
Lemma tis_empty_wf b s : wfb b s ->
  tis_empty s = Ok (match elems s with [] => true | _ => false end) /\
  (tis_empty s = Ok true <-> fst (next s) = None).
Proof.
  intros Hw. pose proof (wfb_front _ _ Hw) as Hf.
  rewrite tis_empty_total, (wfb_exact s Hf). cbn [fst].
  destruct (next s) as [o s'] eqn:E.
  destruct (nextd_sound false false s o s' (dir_front false) Hf E) as (Hs & _). unfold spec in Hs.
  cbn [fst]. destruct o as [x|].
  - rewrite Hs. cbn. split; [reflexivity|]. split; discriminate.
  - destruct Hs as [-> _]. cbn. split; [reflexivity|]. split; reflexivity.
Qed.

Lemma shift_total n v s : exists s', shift n v s = Ok s' /\ size_hint s' = size_hint s.
Proof.
  unfold shift. rewrite tlen_total. cbn [bind]. set (len := fst (size_hint s)).
  assert (Hp : size_hint s = (len, Some len)) by apply hint_pair.
  destruct (len_le_nabs len n) eqn:Eg.
  { eexists. split; [reflexivity|]. rewrite Hp. reflexivity. }
  apply nabs_lt in Eg.
  destruct (0 <? n)%Z.
  { rewrite usub_ok by lia. cbn [bind]. eexists. split; [reflexivity|]. rewrite Hp. reflexivity. }
  destruct (n <? 0)%Z.
  { eexists. split; [reflexivity|]. rewrite Hp. reflexivity. }
  eexists. split; reflexivity.
Qed.

Lemma vshift_total n v s : exists s', vshift n v s = Ok s' /\ size_hint s' = size_hint s.
Proof. apply shift_total. Qed.

Lemma rolling_custom_iter_window0 xs : rolling_custom_iter 0 xs = Panic Underflow.
Proof. reflexivity. Qed.

Definition instr_k (c : instr) : nat := match c with INext | INextBack => 0 | INth k | INthBack k => k end.

Lemma cut_nil c : cut c [] = [].
Proof. destruct c; cbn; try reflexivity; destruct k; reflexivity. Qed.

Lemma exec_fst b c s : dir_ok (instr_back c) b -> wfb b s ->
  fst (exec c s) = nth_error (if instr_back c then rev (elems s) else elems s) (instr_k c).
Proof.
  intros Hd Hw. destruct c; cbn [exec instr_back instr_k] in *.
  - exact (proj1 (nthd_closed false b 0 s Hd Hw)).
  - exact (proj1 (nthd_closed true b 0 s Hd Hw)).
  - exact (proj1 (nthd_closed false b k s Hd Hw)).
  - exact (proj1 (nthd_closed true b k s Hd Hw)).
Qed.

(* an instruction that returns None leaves nothing behind *)
Lemma exec_none_exhausts b c s : dir_ok (instr_back c) b -> wfb b s ->
  fst (exec c s) = None -> elems (snd (exec c s)) = [].
Proof.
  intros Hd Hw Hn. rewrite (exec_elems b c s Hd Hw). rewrite (exec_fst b c s Hd Hw) in Hn.
  apply nth_error_None in Hn.
  destruct c; cbn [instr_back instr_k cut] in *; rewrite ?rev_length in Hn.
  - apply skipn_all2. lia.
  - replace (length (elems s) - 1) with 0 by lia. reflexivity.
  - apply skipn_all2. lia.
  - replace (length (elems s) - S k) with 0 by lia. reflexivity.
Qed.

Lemma exhausted_exec b c s : dir_ok (instr_back c) b -> wfb b s -> elems s = [] ->
  fst (exec c s) = None /\ elems (snd (exec c s)) = [] /\ wfb b (snd (exec c s)).
Proof.
  intros Hd Hw He. split; [|split].
  - rewrite (exec_fst b c s Hd Hw), He. destruct (instr_back c); cbn [rev]; destruct (instr_k c); reflexivity.
  - rewrite (exec_elems b c s Hd Hw), He. apply cut_nil.
  - apply exec_sound; assumption.
Qed.

Lemma exhausted_script b : forall cs s, (forall c, In c cs -> dir_ok (instr_back c) b) -> wfb b s ->
  elems s = [] -> elems (run_script cs s) = [] /\ wfb b (run_script cs s).
Proof.
  induction cs as [|c cs IH]; intros s Hc Hw He; [auto|]. cbn [run_script].
  destruct (exhausted_exec b c s (Hc c (or_introl eq_refl)) Hw He) as (_ & He' & Hw').
  apply IH; auto. intros c' Hin. apply Hc. right. exact Hin.
Qed.

Lemma fused b c s cs c' :
  dir_ok (instr_back c) b -> (forall x, In x cs -> dir_ok (instr_back x) b) -> dir_ok (instr_back c') b ->
  wfb b s -> fst (exec c s) = None ->
  fst (exec c' (run_script cs (snd (exec c s)))) = None /\
  size_hint (run_script cs (snd (exec c s))) = (0, Some 0) /\
  drain (run_script cs (snd (exec c s))) = [].
Proof.
  intros Hd Hcs Hd' Hw Hn.
  pose proof (exec_none_exhausts b c s Hd Hw Hn) as He.
  pose proof (exec_sound b c s Hd Hw) as Hw1.
  destruct (exhausted_script b cs _ Hcs Hw1 He) as [He2 Hw2].
  split; [exact (proj1 (exhausted_exec b c' _ Hd' Hw2 He2))|].
  rewrite (wfb_exact _ (wfb_front _ _ Hw2)), (drain_elems _ (wfb_front _ _ Hw2)), He2. auto.
Qed.

Fixpoint f_wf (t : itf) : Prop :=
  match t with
  | FBase i | FFilterMap _ i => wfb false i
  | FPad _ i _ _ | FBox i => f_wf i
  | FTrust i len => len = length (f_elems i) /\ f_wf i
  end.

(* the top of the state announces its length exactly (a bare Filter does not) *)
Fixpoint f_trusted (t : itf) : Prop :=
  match t with
  | FBase _ | FPad _ _ _ _ | FTrust _ _ => True
  | FFilterMap _ _ => False
  | FBox i => f_trusted i
  end.

Definition f_spec (t : itf) (o : option val) (t' : itf) : Prop :=
  match o with
  | Some x => f_elems t = x :: f_elems t'
  | None => f_elems t = [] /\ f_elems t' = []
  end.

Lemma find_map_n_sound g : forall fuel i o i', wfb false i -> length (elems i) < fuel ->
  find_map_n g fuel i = (o, i') ->
  wfb false i' /\
  match o with
  | Some y => flat_map (fun x => opt_list (g x)) (elems i) = y :: flat_map (fun x => opt_list (g x)) (elems i')
  | None => flat_map (fun x => opt_list (g x)) (elems i) = [] /\ elems i' = []
  end.
Proof.
  induction fuel as [|fuel IH]; intros i o i' Hw Hl E; [lia|]. cbn [find_map_n] in E.
  destruct (next i) as [o1 i1] eqn:E1.
  destruct (nextd_sound false false i o1 i1 (dir_front false) Hw E1) as (Hs & Hw1 & _). unfold spec in Hs.
  destruct o1 as [x|].
  - destruct (g x) as [y|] eqn:Eg.
    + injection E as <- <-. split; [exact Hw1|]. rewrite Hs. cbn [flat_map]. rewrite Eg. reflexivity.
    + assert (Hl1 : length (elems i1) < fuel) by (rewrite Hs in Hl; cbn [length] in Hl; lia).
      destruct (IH i1 o i' Hw1 Hl1 E) as [Hw' Hr]. split; [exact Hw'|].
      rewrite Hs. cbn [flat_map]. rewrite Eg. cbn [opt_list app]. exact Hr.
  - injection E as <- <-. destruct Hs as [Hs1 Hs2]. split; [exact Hw1|]. rewrite Hs1. auto.
Qed.

Lemma f_next_sound : forall t o t', f_wf t -> f_next t = (o, t') ->
  f_spec t o t' /\ f_wf t' /\ (f_trusted t -> f_trusted t').
Proof.
  induction t as [i | g i | la t IH v n | t IH len | t IH]; intros o t' Hw E; cbn [f_next] in E.
  - destruct (next i) as [o1 i1] eqn:E1. injection E as <- <-.
    destruct (nextd_sound false false i o1 i1 (dir_front false) Hw E1) as (Hs & Hw1 & _).
    split; [exact Hs | split; [exact Hw1 | auto]].
  - destruct (find_map_n g (S (length (elems i))) i) as [o1 i1] eqn:E1. injection E as <- <-.
    destruct (find_map_n_sound g (S (length (elems i))) i o1 i1 Hw (Nat.lt_succ_diag_r _) E1) as [Hw1 Hr].
    split; [|split; [exact Hw1 | intros []]]. unfold f_spec. cbn [f_elems].
    destruct o1 as [y|]; [exact Hr|]. destruct Hr as [H1 H2]. rewrite H1, H2. auto.
  - destruct n as [|m].
    { injection E as <- <-. split; [|split; [exact Hw | auto]]. unfold f_spec. cbn [f_elems]. cbv zeta. auto. }
    destruct la.
    + cbn [f_wf] in Hw. destruct (IH _ _ Hw (surjective_pairing (f_next t))) as (Hs & Hw1 & _).
      destruct (f_next t) as [o1 t1]. cbn [fst snd] in *. unfold f_spec in Hs.
      destruct o1 as [x|]; injection E as <- <-; (split; [|split; [exact Hw1 | auto]]); unfold f_spec; cbn [f_elems]; cbv zeta.
      * rewrite Hs. cbn [firstn length app Nat.sub]. reflexivity.
      * destruct Hs as [Hs1 Hs2]. rewrite Hs1. cbn [firstn length app]. rewrite firstn_nil.
        cbn [length app]. rewrite !Nat.sub_0_r. reflexivity.
    + injection E as <- <-. split; [|split; [exact Hw | auto]]. unfold f_spec. cbn [f_elems]. cbv zeta.
      rewrite !firstn_nil. cbn [length app]. rewrite !Nat.sub_0_r. reflexivity.
  - destruct Hw as [Hlen Hw]. destruct (IH _ _ Hw (surjective_pairing (f_next t))) as (Hs & Hw1 & _).
    destruct (f_next t) as [o1 t1]. cbn [fst snd] in *. injection E as <- <-. split; [exact Hs|]. split; [|auto].
    cbn [f_wf]. split; [|exact Hw1]. unfold f_spec in Hs. destruct o1 as [x|].
    + rewrite Hlen, Hs. cbn. lia.
    + destruct Hs as [Hs1 Hs2]. rewrite Hlen, Hs1, Hs2. reflexivity.
  - cbn [f_wf] in Hw. destruct (IH _ _ Hw (surjective_pairing (f_next t))) as (Hs & Hw1 & Ht).
    destruct (f_next t) as [o1 t1]. cbn [fst snd] in *. injection E as <- <-.
    split; [exact Hs|]. split; [exact Hw1 | exact Ht].
Qed.

Lemma f_pad_length la t v n : length (f_elems (FPad la t v n)) = n.
Proof. cbn [f_elems]. cbv zeta. rewrite app_length, firstn_length, repeat_length. lia. Qed.

Lemma f_exact : forall t, f_wf t -> f_trusted t ->
  f_size_hint t = (length (f_elems t), Some (length (f_elems t))).
Proof.
  induction t as [i | g i | la t IH v n | t IH len | t IH]; intros Hw Ht.
  - apply wfb_exact. exact Hw.
  - destruct Ht.
  - cbn [f_size_hint]. rewrite f_pad_length. reflexivity.
  - destruct Hw as [-> _]. reflexivity.
  - apply IH; assumption.
Qed.

Lemma f_consume_wf : forall k t, f_wf t -> f_trusted t -> f_wf (f_consume k t) /\ f_trusted (f_consume k t).
Proof.
  induction k as [|k IH]; intros t Hw Ht; [auto|]. cbn [f_consume].
  destruct (f_next t) as [o t'] eqn:E. cbn [snd].
  destruct (f_next_sound t o t' Hw E) as (_ & Hw' & Ht'). apply IH; auto.
Qed.

Lemma f_drain_n_elems : forall fuel t, f_wf t -> length (f_elems t) < fuel -> f_drain_n fuel t = f_elems t.
Proof.
  induction fuel as [|fuel IH]; intros t Hw Hl; [lia|]. cbn [f_drain_n].
  destruct (f_next t) as [o t'] eqn:E. destruct (f_next_sound t o t' Hw E) as (Hs & Hw' & _).
  unfold f_spec in Hs. destruct o as [x|].
  - rewrite Hs. f_equal. apply IH; [exact Hw'|]. rewrite Hs in Hl. cbn [length] in Hl. lia.
  - destruct Hs as [-> _]. reflexivity.
Qed.

Lemma f_drain_elems t : f_wf t -> f_drain t = f_elems t.
Proof. intros Hw. apply f_drain_n_elems; [exact Hw | lia]. Qed.

(* one call removes the first element of the abstract sequence *)
Lemma f_consume_elems : forall k t, f_wf t -> f_elems (f_consume k t) = skipn k (f_elems t).
Proof.
  induction k as [|k IH]; intros t Hw; [reflexivity|]. cbn [f_consume].
  destruct (f_next t) as [o t'] eqn:E. cbn [snd]. destruct (f_next_sound t o t' Hw E) as (Hs & Hw' & _).
  rewrite (IH t' Hw'). unfold f_spec in Hs. destruct o as [x|].
  - rewrite Hs. reflexivity.
  - destruct Hs as [-> ->]. destruct k; reflexivity.
Qed.

(* ---- the partitions as the code builds them vs the idealisation of Model/Iter.v ------------------- *)
Lemma flat_map_keep_valid xs : flat_map (fun x => opt_list (keep_valid x)) xs = filter not_none xs.
Proof.
  induction xs as [|x xs IH]; [reflexivity|]. cbn [flat_map filter]. unfold keep_valid at 1.
  destruct (not_none x); cbn [opt_list app]; rewrite IH; reflexivity.
Qed.

Lemma flat_map_keep_valid_idx (l : list (nat * val)) :
  flat_map (fun x => opt_list (keep_valid_idx x)) (map (fun p => VPair (VZ (Z.of_nat (fst p))) (snd p)) l)
  = map (fun p => VZ (Z.of_nat (fst p))) (filter (fun p => not_none (snd p)) l).
Proof.
  induction l as [|[k v] l IH]; [reflexivity|]. cbn [map flat_map filter fst snd keep_valid_idx].
  destruct (not_none v); cbn [opt_list app map fst]; rewrite IH; reflexivity.
Qed.

Lemma vpartition_f_elems kth sort xs : f_elems (vpartition_f kth sort xs) = elems (vpartition kth sort xs).
Proof.
  unfold vpartition_f, vpartition. cbv zeta.
  destruct (andb (count_valid xs =? kth + 1) (negb sort)).
  { cbn [f_elems elems]. apply flat_map_keep_valid. }
  destruct (count_valid xs <=? kth + 1); [|reflexivity].
  destruct (negb sort); cbn [f_elems elems]; cbv zeta; rewrite ?flat_map_keep_valid; reflexivity.
Qed.

Lemma varg_partition_f_elems kth sort xs :
  f_elems (varg_partition_f kth sort xs) = elems (varg_partition kth sort xs).
Proof.
  unfold varg_partition_f, varg_partition. cbv zeta.
  destruct (count_valid xs <=? kth + 1); [|reflexivity].
  destruct (negb sort); cbn [f_elems elems]; cbv zeta; [|reflexivity].
  rewrite flat_map_keep_valid_idx. reflexivity.
Qed.

Lemma vpartition_f_wf kth sort xs : f_wf (vpartition_f kth sort xs) /\ f_trusted (vpartition_f kth sort xs).
Proof.
  pose proof (vpartition_f_elems kth sort xs) as He. pose proof (proj2 (vpartition_wf kth sort xs)) as Hl.
  rewrite <- He in Hl. revert Hl. unfold vpartition_f. cbv zeta.
  destruct (andb (count_valid xs =? kth + 1) (negb sort)).
  { cbn [f_elems f_wf f_trusted wfb]. intros Hl. auto. }
  destruct (count_valid xs <=? kth + 1).
  { destruct (negb sort); cbn [f_wf f_trusted wfb]; intros Hl; rewrite f_pad_length; auto. }
  cbn [f_elems f_wf f_trusted wfb]. intros Hl. auto.
Qed.

Lemma varg_partition_f_wf kth sort xs :
  f_wf (varg_partition_f kth sort xs) /\ f_trusted (varg_partition_f kth sort xs).
Proof.
  pose proof (varg_partition_f_elems kth sort xs) as He. pose proof (proj2 (varg_partition_wf kth sort xs)) as Hl.
  rewrite <- He in Hl. revert Hl. unfold varg_partition_f. cbv zeta.
  destruct (count_valid xs <=? kth + 1).
  { destruct (negb sort); cbn [f_wf f_trusted wfb]; intros Hl; rewrite f_pad_length; auto. }
  cbn [f_elems f_wf f_trusted wfb]. intros Hl. auto.
Qed.

(* observational exactness of the idealisation: same hint and same remaining items at every point *)
Lemma consume_front_elems : forall k s, wfb false s -> elems (consume (repeat false k) s) = skipn k (elems s).
Proof.
  induction k as [|k IH]; intros s Hw; [reflexivity|]. cbn [repeat consume].
  destruct (nextd false s) as [o s'] eqn:E. cbn [snd].
  destruct (nextd_sound false false s o s' (dir_front false) Hw E) as (Hs & Hw' & _). unfold spec in Hs.
  rewrite (IH s' Hw'). destruct o as [x|].
  - rewrite Hs. reflexivity.
  - destruct Hs as [-> ->]. destruct k; reflexivity.
Qed.

Lemma f_observational k t s : f_wf t -> f_trusted t -> wfb false s -> f_elems t = elems s ->
  f_size_hint (f_consume k t) = size_hint (consume (repeat false k) s) /\
  f_drain (f_consume k t) = drain (consume (repeat false k) s).
Proof.
  intros Hw Ht Hs He. destruct (f_consume_wf k t Hw Ht) as [Hw' Ht'].
  pose proof (consume_wf false (repeat false k) s (fronts_ok false k) Hs) as Hs'.
  rewrite (f_exact _ Hw' Ht'), (wfb_exact _ Hs'), (f_drain_elems _ Hw'), (drain_elems _ Hs').
  rewrite (f_consume_elems k t Hw), (consume_front_elems k s Hs), He. auto.
Qed.

Lemma vpartition_f_observational k kth sort xs :
  f_size_hint (f_consume k (vpartition_f kth sort xs)) = size_hint (consume (repeat false k) (vpartition kth sort xs)) /\
  f_drain (f_consume k (vpartition_f kth sort xs)) = drain (consume (repeat false k) (vpartition kth sort xs)).
Proof.
  destruct (vpartition_f_wf kth sort xs) as [Hw Ht].
  exact (f_observational k _ _ Hw Ht (proj1 (vpartition_wf kth sort xs)) (vpartition_f_elems kth sort xs)).
Qed.

Lemma varg_partition_f_observational k kth sort xs :
  f_size_hint (f_consume k (varg_partition_f kth sort xs))
  = size_hint (consume (repeat false k) (varg_partition kth sort xs)) /\
  f_drain (f_consume k (varg_partition_f kth sort xs)) = drain (consume (repeat false k) (varg_partition kth sort xs)).
Proof.
  destruct (varg_partition_f_wf kth sort xs) as [Hw Ht].
  exact (f_observational k _ _ Hw Ht (proj1 (varg_partition_wf kth sort xs)) (varg_partition_f_elems kth sort xs)).
Qed.
