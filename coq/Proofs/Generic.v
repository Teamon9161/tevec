(* Proofs/Generic.v — facts that hold for EVERY add-emit-remove rolling feature, for every carrier
   (no law of the numeric class is used, so they hold bit for bit at the float instance too):
   output length (C05), prefix law / no look-ahead (C06), independence of the null encoding (C08). *)
From Tevec Require Import Base.Prelude Base.Num Model.Driver Proofs.Driver Model.Features.

Definition ts_out {T St O} (F : feat T St O) (body : bool) (w : nat) (xs : list T) : list O :=
  match ts_run F body w xs with Done l => l | _ => [] end.

Section Generic.
  Context {T St O : Type}.
  Variable F : feat T St O.

  (* the call, totally: the only rejected input is window 0 on a non-empty series (assert!(window > 0 || len == 0)),
     with the same assertion on both bodies; otherwise the run over (removed, new) pairs *)
  Theorem ts_run_eq body (w : nat) (xs : list T) :
    ts_run F body w xs =
    if bad_window w xs then Panicked AssertFail
    else Done (run (feat_cb F) (f_init F) (mapi (fun i v => (removed w xs i, v)) xs)).
  Proof.
    unfold ts_run. destruct body.
    - change (feat_cb F) with (aer (f_pre F) (f_emit F) (f_post F)).
      rewrite rolling_apply_bodies_agree_total. apply rolling_apply_default_total.
    - apply rolling_apply_default_total.
  Qed.

  Lemma ts_run_iter (w : nat) (xs : list T) body :
    1 <= w ->
    ts_run F body w xs = Done (run (feat_cb F) (f_init F) (mapi (fun i v => (removed w xs i, v)) xs)).
  Proof. intros Hw. rewrite ts_run_eq, bad_window_false by exact Hw. reflexivity. Qed.

  (* C05: exactly one output per input element, never a panic, never an unwritten slot *)
  Theorem ts_run_total (w : nat) (xs : list T) body :
    1 <= w -> exists out, ts_run F body w xs = Done out /\ length out = length xs.
  Proof.
    intros Hw. rewrite ts_run_iter by exact Hw. eexists. split; [reflexivity|].
    rewrite run_length. apply mapi_length.
  Qed.

  Theorem ts_run_empty (w : nat) body : ts_run F body w [] = Done [].
  Proof.
    unfold ts_run. destruct body.
    - apply empty_to.
    - apply empty_default.
  Qed.

  Theorem ts_run_window0 body (xs : list T) :
    ts_run F body 0 xs = match xs with [] => Done [] | _ :: _ => Panicked AssertFail end.
  Proof.
    destruct xs as [|x xs]; [apply ts_run_empty|].
    unfold ts_run, rolling_apply_to, rolling_apply_default. cbn [bad_window Nat.eqb length negb andb].
    destruct body; reflexivity.
  Qed.

  Lemma removed_firstn (w : nat) (xs : list T) k i :
    i < k -> removed w (firstn k xs) i = removed w xs i.
  Proof.
    intros Hi. unfold removed. destruct (i <? w - 1); [reflexivity|].
    rewrite nth_error_firstn. rewrite (ltb_true (i - (w - 1)) k) by lia.
    reflexivity.
  Qed.

  (* C06: evaluating on a prefix yields the prefix of the result on the whole series *)
  Theorem ts_out_prefix (w : nat) (xs : list T) body k :
    1 <= w -> ts_out F body w (firstn k xs) = firstn k (ts_out F body w xs).
  Proof.
    intros Hw. unfold ts_out. rewrite !ts_run_iter by exact Hw.
    rewrite <- run_firstn. f_equal. rewrite <- mapi_firstn. apply mapi_ext.
    intros i v Hv. f_equal. apply removed_firstn.
    rewrite nth_error_firstn in Hv. destruct (i <? k) eqn:E; [apply Nat.ltb_lt; exact E|discriminate].
  Qed.
End Generic.

(* ---- C08: the result does not depend on how nulls are encoded ---------------------------- *)
Lemma run_rel {St X1 X2 O} (R : X1 -> X2 -> Prop) (g1 : St -> X1 -> St * O) (g2 : St -> X2 -> St * O) :
  (forall s a1 a2, R a1 a2 -> g1 s a1 = g2 s a2) ->
  forall args1 args2, Forall2 R args1 args2 -> forall s, run g1 s args1 = run g2 s args2.
Proof.
  intros Hg args1 args2 HF. induction HF as [|a1 a2 r1 r2 Ha _ IH]; intros s; [reflexivity|].
  cbn [run]. rewrite (Hg s a1 a2 Ha). destruct (g2 s a2) as [s' o]. f_equal. apply IH.
Qed.

Lemma Forall2_nth_error {X Y} (R : X -> Y -> Prop) l1 l2 :
  Forall2 R l1 l2 ->
  forall i, match nth_error l1 i, nth_error l2 i with
            | Some a, Some b => R a b | None, None => True | _, _ => False end.
Proof.
  intros HF. induction HF as [|a b r1 r2 Hab _ IH]; intros i.
  - destruct i; exact I.
  - destruct i as [|i]; [exact Hab|]. cbn. apply IH.
Qed.

Lemma Forall2_mapi {X1 X2 Y1 Y2} (R : X1 -> X2 -> Prop) (Q : Y1 -> Y2 -> Prop)
      (h1 : nat -> X1 -> Y1) (h2 : nat -> X2 -> Y2) l1 l2 :
  Forall2 R l1 l2 ->
  (forall i a b, nth_error l1 i = Some a -> nth_error l2 i = Some b -> R a b -> Q (h1 i a) (h2 i b)) ->
  Forall2 Q (mapi h1 l1) (mapi h2 l2).
Proof.
  intros HF. revert h1 h2.
  induction HF as [|a b r1 r2 Hab HF IH]; intros h1 h2 Hh; [constructor|].
  rewrite !mapi_cons. constructor.
  - apply (Hh 0 a b); [reflexivity|reflexivity|exact Hab].
  - apply (IH (fun i => h1 (S i)) (fun i => h2 (S i))).
    intros i x y Hx Hy Hxy. apply (Hh (S i)); assumption.
Qed.

(* a feature family indexed by the null dictionary whose add / remove steps see an element only
   through its option view (not_none + unwrap = to_opt) *)
Section Encoding.
  Context {A St O : Type}.
  Variable Fam : forall (T : Type) (D : IsNone T A), feat T St O.
  Variable pre' : St -> option A -> St.
  Variable post' : St -> option (option A) -> St.
  Hypothesis Fam_init : forall T1 D1 T2 D2, f_init (Fam T1 D1) = f_init (Fam T2 D2).
  Hypothesis Fam_emit : forall T1 D1 T2 D2 s, f_emit (Fam T1 D1) s = f_emit (Fam T2 D2) s.
  Hypothesis Fam_pre : forall T D s v, f_pre (Fam T D) s v = pre' s (to_opt v).
  Hypothesis Fam_post : forall T D s rm, f_post (Fam T D) s rm = post' s (option_map to_opt rm).

  Theorem encoding_independent {T1 T2} (D1 : IsNone T1 A) (D2 : IsNone T2 A)
          (xs1 : list T1) (xs2 : list T2) (w : nat) body :
    1 <= w -> Forall2 (fun a b => to_opt a = to_opt b) xs1 xs2 ->
    ts_run (Fam T1 D1) body w xs1 = ts_run (Fam T2 D2) body w xs2.
  Proof.
    intros Hw HF. rewrite !ts_run_iter by exact Hw. f_equal. rewrite (Fam_init T1 D1 T2 D2).
    apply (run_rel (fun (a1 : option T1 * T1) (a2 : option T2 * T2) =>
                      to_opt (snd a1) = to_opt (snd a2) /\
                      option_map to_opt (fst a1) = option_map to_opt (fst a2))).
    - intros s [rm1 v1] [rm2 v2] [Hv Hrm]. cbn [fst snd] in *. unfold feat_cb. cbn [fst snd].
      rewrite !Fam_pre, !Fam_post, Hv, Hrm. rewrite (Fam_emit T1 D1 T2 D2). reflexivity.
    - apply (Forall2_mapi (fun a b => to_opt a = to_opt b)); [exact HF|].
      intros i a b Ha Hb Hab. cbn [fst snd]. split; [exact Hab|].
      unfold removed. destruct (i <? w - 1); [reflexivity|].
      pose proof (Forall2_nth_error _ _ _ HF (i - (w - 1))) as Hn.
      destruct (nth_error xs1 (i - (w - 1))), (nth_error xs2 (i - (w - 1))); cbn;
        try contradiction; [f_equal; exact Hn|reflexivity].
  Qed.
End Encoding.

(* the three accumulator families of features.rs are option-view determined *)
Section EncodingInstances.
  Context {A : Type} `{NA : Num A}.

  Definition mom_pre' (s : @mom A) (o : option A) : mom :=
    match o with Some x => mom_add s x | None => s end.
  Definition mom_post' (s : @mom A) (rm : option (option A)) : mom :=
    match rm with Some (Some x) => mom_sub s x | _ => s end.

  Theorem mom_encoding_independent (emit : @mom A -> A) {T1 T2} (D1 : IsNone T1 A) (D2 : IsNone T2 A)
          (xs1 : list T1) (xs2 : list T2) (w : nat) body :
    1 <= w -> Forall2 (fun a b => to_opt a = to_opt b) xs1 xs2 ->
    ts_run (mom_feat (DT := D1) emit) body w xs1 = ts_run (mom_feat (DT := D2) emit) body w xs2.
  Proof.
    apply (encoding_independent (fun T D => mom_feat (DT := D) emit) mom_pre' mom_post');
      try reflexivity.
    - intros T D s v. cbn [f_pre mom_feat]. unfold mom_pre, to_opt, not_none, mom_pre'.
      destruct (is_none v); reflexivity.
    - intros T D s rm. cbn [f_post mom_feat]. unfold mom_post, to_opt, not_none, mom_post'.
      destruct rm as [v|]; [|reflexivity]. cbn [option_map]. destruct (is_none v); reflexivity.
  Qed.

  Theorem ewm_encoding_independent (w0 : nat) mp {T1 T2} (D1 : IsNone T1 A) (D2 : IsNone T2 A)
          (xs1 : list T1) (xs2 : list T2) (w : nat) body :
    1 <= w -> Forall2 (fun a b => to_opt a = to_opt b) xs1 xs2 ->
    ts_run (ts_vewm_f (DT := D1) w0 mp) body w xs1 = ts_run (ts_vewm_f (DT := D2) w0 mp) body w xs2.
  Proof.
    apply (encoding_independent (fun T D => ts_vewm_f (DT := D) w0 mp)
             (fun s o => match o with
                         | Some x => {| e_n := S (e_n s); e_q := nadd (e_q s) (nsub x (nmul (ewm_alpha w0) (e_q s))) |}
                         | None => s end)
             (fun s rm => match rm with
                          | Some (Some x) => let n' := e_n s - 1 in
                                             {| e_n := n'; e_q := nsub (e_q s) (nmul x (powi (ewm_oma w0) n')) |}
                          | _ => s end));
      try reflexivity.
    - intros T D s v. cbn [f_pre ts_vewm_f]. unfold ewm_pre, to_opt, not_none.
      destruct (is_none v); reflexivity.
    - intros T D s rm. cbn [f_post ts_vewm_f]. unfold ewm_post, to_opt, not_none.
      destruct rm as [v|]; [|reflexivity]. cbn [option_map]. destruct (is_none v); reflexivity.
  Qed.

  Theorem wma_encoding_independent (w0 : nat) mp {T1 T2} (D1 : IsNone T1 A) (D2 : IsNone T2 A)
          (xs1 : list T1) (xs2 : list T2) (w : nat) body :
    1 <= w -> Forall2 (fun a b => to_opt a = to_opt b) xs1 xs2 ->
    ts_run (ts_vwma_f (DT := D1) w0 mp) body w xs1 = ts_run (ts_vwma_f (DT := D2) w0 mp) body w xs2.
  Proof.
    apply (encoding_independent (fun T D => ts_vwma_f (DT := D) w0 mp)
             (fun s o => match o with
                         | Some x => let n' := S (w_n s) in
                                     {| w_n := n'; w_sum := nadd (w_sum s) x; w_xt := nadd (w_xt s) (nmul (nofnat n') x) |}
                         | None => s end)
             (fun s rm => match rm with
                          | Some (Some x) => {| w_n := w_n s - 1; w_xt := nsub (w_xt s) (w_sum s); w_sum := nsub (w_sum s) x |}
                          | _ => s end));
      try reflexivity.
    - intros T D s v. cbn [f_pre ts_vwma_f]. unfold wma_pre, to_opt, not_none.
      destruct (is_none v); reflexivity.
    - intros T D s rm. cbn [f_post ts_vwma_f]. unfold wma_post, to_opt, not_none.
      destruct rm as [v|]; [|reflexivity]. cbn [option_map]. destruct (is_none v); reflexivity.
  Qed.
End EncodingInstances.
