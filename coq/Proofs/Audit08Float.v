(* Proofs/Audit08Float.v — binary64 (Coq's primitive float, instance NumF64 — what the correspondence run evaluates):
   the Vec<Option<f64>> rendering of a Vec<f64> with NaN, against which Props/C08.v instantiates the aggregation
   theorems.  No float axiom: the theorems use no law of the numeric class.                                        *)
From Coq Require Import Floats List.
From Tevec Require Import Base.Num Base.F64 Model.NullView.
Import ListNotations.

Definition opt_of_f64 (x : float) : option float := if PrimFloat.is_nan x then None else Some x.

Lemma f64_float_vs_option (xs : list float) : SameView IsNoneF64 IsNoneOptF64 xs (map opt_of_f64 xs).
Proof.
  unfold SameView. induction xs as [|x xs IH]; [constructor|]. cbn [map]. constructor; [|exact IH].
  unfold same_view, to_opt, opt_of_f64. cbn. destruct (PrimFloat.is_nan x); reflexivity.
Qed.
