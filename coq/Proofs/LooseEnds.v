(* Proofs/LooseEnds.v — three pieces of source that the other files of C19 / C09 / C07 do not reach:
   (1) UninitVec::set (uninit.rs:32-40), the checked single-slot write — Model/Collect.v `uninit_set`;
   (2) MapValidBasic::drop_none (valid_iter.rs) = std Filter with the predicate `not_none` — Model/IterAudit.v;
   (3) the chunked (Polars) view laws at an arbitrary element type.                          Axiom-free. *)
From Coq Require Import Permutation.
From Tevec Require Import Base.Prelude Model.Driver Proofs.Driver Model.Collect Proofs.Collect
     Proofs.Audit07.

(* ================================================================================================= *)
(* (1) UninitVec::set                                                                                 *)
(* ================================================================================================= *)
Section UninitSet.
  Context {A : Type}.

  Lemma uninit_set_in (len idx : nat) (v : A) : idx < len -> uninit_set len idx v = (WOk, [(idx, v)]).
  Proof. intros H. unfold uninit_set. apply Nat.ltb_lt in H. rewrite H. reflexivity. Qed.

  Lemma uninit_set_out (len idx : nat) (v : A) : len <= idx -> uninit_set len idx v = (WErr, []).
  Proof. intros H. unfold uninit_set. apply Nat.ltb_ge in H. rewrite H. reflexivity. Qed.

  (* the guard is `idx < len` and nothing else: status, the uset calls made, the buffer afterwards *)
  Lemma uninit_set_total (buf : list (option A)) (idx : nat) (v : A) :
    let len := length buf in
    (idx < len ->
       uninit_set len idx v = (WOk, [(idx, v)])
       /\ fst (uninit_set_buf buf idx v) = WOk
       /\ length (snd (uninit_set_buf buf idx v)) = len
       /\ forall j, nth_error (snd (uninit_set_buf buf idx v)) j
                    = if j =? idx then Some (Some v) else nth_error buf j)
    /\ (len <= idx ->
          uninit_set len idx v = (WErr, []) /\ uninit_set_buf buf idx v = (WErr, buf))
    /\ (fst (uninit_set len idx v) = WOk <-> idx < len)
    /\ (fst (uninit_set len idx v) <> WOk -> fst (uninit_set len idx v) = WErr)
    /\ (forall w, In w (snd (uninit_set len idx v)) -> w = (idx, v) /\ fst w < len).
  Proof.
    cbv zeta. repeat split.
    - apply uninit_set_in; assumption.
    - unfold uninit_set_buf. rewrite uninit_set_in by assumption. reflexivity.
    - unfold uninit_set_buf. rewrite uninit_set_in by assumption. cbn. apply set_nth_length.
    - intros j. unfold uninit_set_buf. rewrite uninit_set_in by assumption. cbn [fst snd apply_writes fold_left].
      rewrite set_nth_nth. apply Nat.ltb_lt in H. rewrite H, Bool.andb_true_r. reflexivity.
    - apply uninit_set_out; assumption.
    - unfold uninit_set_buf. rewrite uninit_set_out by assumption. reflexivity.
    - unfold uninit_set. destruct (idx <? length buf) eqn:E; [intros _; apply Nat.ltb_lt; exact E|discriminate].
    - intros H. rewrite uninit_set_in by assumption. reflexivity.
    - unfold uninit_set. destruct (idx <? length buf); [intros H; exfalso; apply H; reflexivity|reflexivity].
    - unfold uninit_set in H. destruct (idx <? length buf); cbn in H; [destruct H as [<-|[]]; reflexivity|destruct H].
    - unfold uninit_set in H. destruct (idx <? length buf) eqn:E; cbn in H; [|destruct H].
      destruct H as [<-|[]]. apply Nat.ltb_lt. exact E.
  Qed.

  (* the buffer never changes length; an Err leaves it as it was *)
  Lemma uninit_set_buf_length (buf : list (option A)) idx v : length (snd (uninit_set_buf buf idx v)) = length buf.
  Proof. unfold uninit_set_buf. cbn [snd]. apply apply_writes_length. Qed.

  Lemma uninit_set_buf_err (buf : list (option A)) idx v :
    fst (uninit_set_buf buf idx v) = WErr -> snd (uninit_set_buf buf idx v) = buf.
  Proof.
    unfold uninit_set_buf, uninit_set. destruct (idx <? length buf); cbn; [discriminate|reflexivity].
  Qed.

  (* ---- successive calls: each call is judged on its own index; the accepted ones are the uset calls, in order ---- *)
  Definition set_status (len : nat) (c : nat * A) : wstatus := if fst c <? len then WOk else WErr.

  Lemma uninit_set_seq_length (calls : list (nat * A)) : forall buf,
    length (snd (uninit_set_seq buf calls)) = length buf.
  Proof.
    induction calls as [|c r IH]; intros buf; [reflexivity|].
    cbn [uninit_set_seq snd]. rewrite IH. apply uninit_set_buf_length.
  Qed.

  Lemma uninit_set_seq_closed (calls : list (nat * A)) : forall buf,
    uninit_set_seq buf calls
    = (map (set_status (length buf)) calls,
       apply_writes (filter (fun c => fst c <? length buf) calls) buf).
  Proof.
    induction calls as [|c r IH]; intros buf; [reflexivity|].
    cbn [uninit_set_seq map filter]. rewrite IH. rewrite uninit_set_buf_length.
    unfold uninit_set_buf, uninit_set, set_status. destruct c as [i v]. cbn [fst snd].
    destruct (i <? length buf); reflexivity.
  Qed.

  Lemma filter_all {B} (f : B -> bool) (l : list B) : (forall x, In x l -> f x = true) -> filter f l = l.
  Proof.
    induction l as [|x l IH]; intros H; [reflexivity|]. cbn. rewrite (H x (or_introl eq_refl)).
    f_equal. apply IH. intros y Hy. apply H. right. exact Hy.
  Qed.

  (* every index in range: every call Ok, the buffer is the buffer after those uset calls *)
  Lemma uninit_set_seq_in_range (calls : list (nat * A)) buf :
    (forall c, In c calls -> fst c < length buf) ->
    uninit_set_seq buf calls = (repeat WOk (length calls), apply_writes calls buf).
  Proof.
    intros H. rewrite uninit_set_seq_closed. f_equal.
    - clear -H. induction calls as [|c r IH]; [reflexivity|]. cbn [map length repeat]. f_equal.
      + unfold set_status. specialize (H c (or_introl eq_refl)). apply Nat.ltb_lt in H. rewrite H. reflexivity.
      + apply IH. intros c' Hc. apply H. right. exact Hc.
    - f_equal. apply filter_all. intros c Hc. apply Nat.ltb_lt. apply H. exact Hc.
  Qed.

  (* `len` successive sets at 0, 1, ..., len-1 over ANY previous content: all Ok, the buffer is exposable and is the
     written values *)
  Lemma uninit_set_fill (old : list (option A)) (items : list A) :
    length items = length old ->
    uninit_set_seq old (combine (seq 0 (length old)) items) = (repeat WOk (length old), map Some items)
    /\ assume_init (snd (uninit_set_seq old (combine (seq 0 (length old)) items))) = Some items
    /\ finish (snd (uninit_set_seq old (combine (seq 0 (length old)) items))) = Done items.
  Proof.
    intros Hlen.
    assert (E : uninit_set_seq old (combine (seq 0 (length old)) items) = (repeat WOk (length old), map Some items)).
    { rewrite uninit_set_seq_in_range.
      - rewrite combine_length, seq_length, Hlen, Nat.min_id. f_equal.
        rewrite <- Hlen. apply (apply_writes_in_order items [] old). symmetry. exact Hlen.
      - intros [i v] Hc. apply in_combine_l in Hc. apply in_seq in Hc. cbn [fst]. lia. }
    rewrite E. cbn [snd]. split; [reflexivity|]. unfold finish. rewrite assume_init_map_Some. split; reflexivity.
  Qed.

  (* in ANY order, each slot once, on a fresh buffer: all Ok, a complete output, slot j = the value set at j *)
  Lemma uninit_set_fill_any_order (calls : list (nat * A)) (n : nat) :
    Permutation (map fst calls) (seq 0 n) ->
    fst (uninit_set_seq (repeat None n) calls) = repeat WOk n
    /\ exists l, finish (snd (uninit_set_seq (repeat None n) calls)) = Done l /\ length l = n
                 /\ forall j v, In (j, v) calls -> nth_error l j = Some v.
  Proof.
    intros Hp.
    assert (Hr : forall c, In c calls -> fst c < length (repeat (@None A) n)).
    { intros c Hc. rewrite repeat_length. apply (in_map fst) in Hc.
      apply (Permutation_in _ Hp) in Hc. apply in_seq in Hc. lia. }
    rewrite (uninit_set_seq_in_range calls _ Hr). cbn [fst snd]. split.
    - f_equal. rewrite <- (map_length fst calls), (Permutation_length Hp). apply seq_length.
    - apply writes_permutation. exact Hp.
  Qed.

  (* a slot that no call names keeps the buffer from being exposable, whatever else was set *)
  Lemma uninit_set_missing_slot (calls : list (nat * A)) (n j : nat) :
    j < n -> ~ In j (map fst calls) ->
    assume_init (snd (uninit_set_seq (repeat None n) calls)) = None.
  Proof.
    intros Hj Hn. rewrite uninit_set_seq_closed. cbn [snd]. rewrite repeat_length.
    apply assume_init_None_iff. exists j. rewrite apply_writes_nth.
    rewrite last_write_not_In.
    - rewrite nth_error_repeat. apply Nat.ltb_lt in Hj. rewrite Hj. reflexivity.
    - intros Hin. apply Hn. apply in_map_iff in Hin. destruct Hin as [c [Hc Hf]]. apply filter_In in Hf.
      apply in_map_iff. exists c. split; [exact Hc|apply Hf].
  Qed.
End UninitSet.

(* ================================================================================================= *)
(* (2) MapValidBasic::drop_none = std Filter with the predicate not_none                              *)
(* ================================================================================================= *)
From Tevec Require Import Model.Iter Proofs.Iter Model.IterAudit Proofs.Audit09.

Lemma drop_none_elems s : f_elems (drop_none s) = filter not_none (elems s).
Proof. unfold drop_none. cbn [f_elems]. apply flat_map_keep_valid. Qed.

Lemma drop_none_wf s : wfb false s -> f_wf (drop_none s).
Proof. intros H. exact H. Qed.

(* the inner iterator after one next() of the filter *)
Lemma find_valid_rest : forall fuel i o i', wfb false i -> length (elems i) < fuel ->
  find_map_n keep_valid fuel i = (o, i') -> elems i' = after_first_valid (elems i).
Proof.
  induction fuel as [|fuel IH]; intros i o i' Hw Hl E; [lia|]. cbn [find_map_n] in E.
  destruct (next i) as [o1 i1] eqn:E1.
  destruct (nextd_sound false false i o1 i1 (dir_front false) Hw E1) as (Hs & Hw1 & _). unfold spec in Hs.
  destruct o1 as [x|].
  - rewrite Hs. cbn [after_first_valid]. unfold keep_valid in E. destruct (not_none x).
    + injection E as _ <-. reflexivity.
    + apply (IH i1 o i' Hw1); [|exact E]. rewrite Hs in Hl. cbn [length] in Hl. lia.
  - injection E as _ <-. destruct Hs as [-> ->]. reflexivity.
Qed.

Lemma after_first_valid_suffix xs : exists pre, xs = pre ++ after_first_valid xs.
Proof.
  induction xs as [|x r [pre IH]]; [exists []; reflexivity|]. cbn [after_first_valid].
  destruct (not_none x); [exists [x]; reflexivity|]. exists (x :: pre). cbn [app]. rewrite <- IH. reflexivity.
Qed.

Lemma after_valid_suffix k : forall xs, exists pre, xs = pre ++ after_valid k xs.
Proof.
  induction k as [|k IH]; intros xs; [exists []; reflexivity|]. cbn [after_valid].
  destruct (after_first_valid_suffix xs) as [p1 H1]. destruct (IH (after_first_valid xs)) as [p2 H2].
  exists (p1 ++ p2). rewrite <- app_assoc, <- H2. exact H1.
Qed.

Lemma filter_after_first_valid xs : filter not_none (after_first_valid xs) = tl (filter not_none xs).
Proof.
  induction xs as [|x r IH]; [reflexivity|]. cbn [after_first_valid filter].
  destruct (not_none x); [reflexivity|exact IH].
Qed.

Lemma skipn_tl {A} k (l : list A) : skipn k (tl l) = skipn (S k) l.
Proof. destruct l; [destruct k; reflexivity|reflexivity]. Qed.

Lemma filter_after_valid k : forall xs, filter not_none (after_valid k xs) = skipn k (filter not_none xs).
Proof.
  induction k as [|k IH]; intros xs; [reflexivity|]. cbn [after_valid].
  rewrite IH, filter_after_first_valid. apply skipn_tl.
Qed.

(* the state after k calls of next(): still a bare filter, around the source advanced behind the k-th non-null item *)
Lemma drop_none_consume : forall k s, wfb false s ->
  exists s', f_consume k (drop_none s) = drop_none s' /\ wfb false s'
             /\ elems s' = after_valid k (elems s).
Proof.
  induction k as [|k IH]; intros s Hw; [exists s; auto|].
  cbn [f_consume]. unfold drop_none at 1. cbn [f_next].
  destruct (find_map_n keep_valid (S (length (elems s))) s) as [o s1] eqn:E. cbn [snd].
  destruct (find_map_n_sound keep_valid _ s o s1 Hw (Nat.lt_succ_diag_r _) E) as [Hw1 _].
  pose proof (find_valid_rest _ s o s1 Hw (Nat.lt_succ_diag_r _) E) as Hr.
  destruct (IH s1 Hw1) as (s' & E' & Hw' & He'). exists s'. split; [exact E'|]. split; [exact Hw'|].
  rewrite He', Hr. reflexivity.
Qed.

(* ---- items ---- *)
Lemma drop_none_items s : wfb false s -> f_drain (drop_none s) = filter not_none (elems s).
Proof. intros Hw. rewrite (f_drain_elems _ (drop_none_wf s Hw)). apply drop_none_elems. Qed.

Lemma drop_none_items_consume k s : wfb false s ->
  f_drain (f_consume k (drop_none s)) = skipn k (filter not_none (elems s)).
Proof.
  intros Hw. destruct (drop_none_consume k s Hw) as (s' & -> & Hw' & He).
  rewrite (drop_none_items s' Hw'), He. apply filter_after_valid.
Qed.

(* one call: the first non-null item that is left, or None when there is none (and None ever after) *)
Lemma drop_none_next s : wfb false s ->
  fst (f_next (drop_none s)) = hd_error (filter not_none (elems s))
  /\ f_drain (snd (f_next (drop_none s))) = tl (filter not_none (elems s)).
Proof.
  intros Hw. pose proof (drop_none_items_consume 1 s Hw) as H1. cbn [f_consume] in H1.
  destruct (f_next (drop_none s)) as [o t'] eqn:E. cbn [fst snd] in *.
  destruct (f_next_sound _ o t' (drop_none_wf s Hw) E) as (Hs & _ & _). unfold f_spec in Hs.
  rewrite drop_none_elems in Hs. split.
  - destruct o as [x|]; [rewrite Hs; reflexivity|]. destruct Hs as [-> _]. reflexivity.
  - rewrite H1. destruct (filter not_none (elems s)); reflexivity.
Qed.

(* the filter characterisation spelled out: the yielded items are a subsequence of the source (same order), every one of
   them non-null, and no non-null item of the source is missing *)
Inductive subseq {A} : list A -> list A -> Prop :=
| sub_nil : subseq [] []
| sub_skip x l m : subseq l m -> subseq l (x :: m)
| sub_take x l m : subseq l m -> subseq (x :: l) (x :: m).

Lemma filter_subseq {A} (p : A -> bool) (l : list A) : subseq (filter p l) l.
Proof. induction l as [|x l IH]; [constructor|]. cbn. destruct (p x); constructor; exact IH. Qed.

Lemma subseq_length {A} {l m : list A} : subseq l m -> length l <= length m.
Proof. induction 1; cbn; lia. Qed.

Lemma subseq_all_le_filter {A} (p : A -> bool) (l m : list A) :
  subseq l m -> (forall x, In x l -> p x = true) -> length l <= length (filter p m).
Proof.
  induction 1 as [|y l m Hs IH|y l m Hs IH]; intros Hall; [auto| |]; cbn [filter].
  - specialize (IH Hall). destruct (p y); cbn [length]; lia.
  - rewrite (Hall y (or_introl eq_refl)). cbn [length].
    assert (length l <= length (filter p m)) by (apply IH; intros z Hz; apply Hall; right; exact Hz). lia.
Qed.

(* a subsequence whose items all satisfy p and that is as long as the filter IS the filter: the specification is not the
   implementation restated *)
Lemma subseq_filter_unique {A} (p : A -> bool) (l m : list A) :
  subseq l m -> (forall x, In x l -> p x = true) -> length l = length (filter p m) -> l = filter p m.
Proof.
  induction 1 as [|x l m Hs IH|x l m Hs IH]; intros Hall Hlen; [reflexivity| |].
  - cbn [filter] in *. destruct (p x) eqn:Ex; [|apply IH; assumption].
    exfalso. cbn [length] in Hlen. pose proof (subseq_all_le_filter p l m Hs Hall). lia.
  - cbn [filter] in *. rewrite (Hall x (or_introl eq_refl)) in *. f_equal. apply IH.
    + intros z Hz. apply Hall. right. exact Hz.
    + cbn [length] in Hlen. lia.
Qed.

Lemma drop_none_spec s : wfb false s ->
  subseq (f_drain (drop_none s)) (elems s)
  /\ (forall x, In x (f_drain (drop_none s)) <-> In x (elems s) /\ not_none x = true)
  /\ length (f_drain (drop_none s)) = count_valid (elems s).
Proof.
  intros Hw. rewrite (drop_none_items s Hw). split; [apply filter_subseq|]. split; [|reflexivity].
  intros x. apply filter_In.
Qed.

(* ---- the size hint at every point of the consumption ---- *)
Lemma drop_none_hint k s : wfb false s ->
  f_size_hint (f_consume k (drop_none s)) = (0, Some (length (after_valid k (elems s))))
  /\ (exists pre, elems s = pre ++ after_valid k (elems s))
  /\ length (f_drain (f_consume k (drop_none s))) <= length (after_valid k (elems s))
  /\ (length (f_drain (f_consume k (drop_none s))) = length (after_valid k (elems s))
      <-> forall x, In x (after_valid k (elems s)) -> not_none x = true).
Proof.
  intros Hw. destruct (drop_none_consume k s Hw) as (s' & E & Hw' & He). rewrite E.
  split; [|split; [apply after_valid_suffix|]].
  - unfold drop_none. cbn [f_size_hint]. rewrite (wfb_exact s' Hw'), He. reflexivity.
  - rewrite (drop_none_items s' Hw'), He. set (l := after_valid k (elems s)). clearbody l.
    split; [apply subseq_length, filter_subseq|]. split.
    + intros Hl x Hx. induction l as [|y l IH]; [destruct Hx|]. cbn [filter length] in Hl.
      pose proof (subseq_length (filter_subseq not_none l)) as Hb.
      destruct (not_none y) eqn:Ey; cbn [length] in Hl; [|lia].
      destruct Hx as [<-|Hx]; [exact Ey|]. apply IH; [lia|exact Hx].
    + intros Hall. rewrite filter_all; [reflexivity|exact Hall].
Qed.

(* ---- idempotence (through a collection: the result is not a TrustedLen, so it has to be collected - or wrapped -
        before drop_none can be called again) and identity on a null-free source ---- *)
Lemma filter_idem {A} (p : A -> bool) (l : list A) : filter p (filter p l) = filter p l.
Proof. apply filter_all. intros x Hx. apply filter_In in Hx. apply Hx. Qed.

Lemma drop_none_idempotent s : wfb false s ->
  f_drain (drop_none (IList (f_drain (drop_none s)))) = f_drain (drop_none s).
Proof.
  intros Hw. rewrite (drop_none_items (IList _)) by exact I. cbn [elems].
  rewrite (drop_none_items s Hw). apply filter_idem.
Qed.

Lemma drop_none_null_free s : wfb false s -> (forall x, In x (elems s) -> not_none x = true) ->
  f_drain (drop_none s) = elems s
  /\ forall k, f_drain (f_consume k (drop_none s)) = skipn k (elems s)
               /\ f_size_hint (f_consume k (drop_none s)) = (0, Some (length (skipn k (elems s)))).
Proof.
  intros Hw Hall. assert (Hf : filter not_none (elems s) = elems s) by (apply filter_all; exact Hall).
  split; [rewrite (drop_none_items s Hw); exact Hf|]. intros k.
  pose proof (drop_none_items_consume k s Hw) as Hd. rewrite Hf in Hd. split; [exact Hd|].
  destruct (drop_none_hint k s Hw) as (Hh & [pre Hp] & _ & _). rewrite Hh. do 2 f_equal.
  (* the source is advanced by exactly one item per call *)
  clear -Hall. revert Hall. generalize (elems s) as l. intros l.
  revert l. induction k as [|k IH]; intros l Hall; [reflexivity|]. cbn [after_valid].
  destruct l as [|x l]; cbn [after_first_valid skipn].
  - clear. induction k as [|k IH]; [reflexivity|exact IH].
  - rewrite (Hall x (or_introl eq_refl)). apply IH. intros y Hy. apply Hall. right. exact Hy.
Qed.

(* ================================================================================================= *)
(* (3) the chunked (Polars) accessors at an ARBITRARY element type: naturality in the element          *)
(*     (the string impl `Vec1View<Option<&str>> for &ChunkedArray<StringType>` is observed by          *)
(*     harness-pl c07pl.rs `observe_str` through a rendering str -> f64 of its elements)               *)
(* ================================================================================================= *)
From Coq Require Import Floats.
From Tevec Require Import Model.Containers Proofs.Containers.
From Tevec Require Run.Codec Run.RunC07.

(* the same array with every (non-null) element rendered through f; layout and validity untouched *)
Definition chunked_map {A B} (f : A -> B) (c : chunked A) : chunked B := map (map (option_map f)) c.

Section ChunkedNatural.
  Context {A B : Type} (f : A -> B).

  Lemma chunked_map_to_list (c : chunked A) :
    chunked_to_list (chunked_map f c) = map (option_map f) (chunked_to_list c).
  Proof. unfold chunked_to_list, chunked_map. rewrite concat_map. reflexivity. Qed.

  Lemma chunked_map_len (c : chunked A) : chunked_len (chunked_map f c) = chunked_len c.
  Proof. rewrite !chunked_len_spec, chunked_map_to_list. apply map_length. Qed.

  Lemma chunked_map_get (c : chunked A) i :
    chunked_get (chunked_map f c) i = option_map (option_map f) (chunked_get c i).
  Proof. rewrite !chunked_get_spec, chunked_map_to_list. apply nth_error_map. Qed.

  Lemma chunked_map_slice (c : chunked A) a b :
    chunked_slice (chunked_map f c) a b = map (option_map f) (chunked_slice c a b).
  Proof. unfold chunked_slice. rewrite chunked_map_to_list. apply seg_map. Qed.

  Lemma chunked_map_skip (c : chunked A) : forall a,
    chunked_skip (chunked_map f c) a = chunked_map f (chunked_skip c a).
  Proof.
    induction c as [|ch rest IH]; intros a; [reflexivity|].
    cbn [chunked_map map chunked_skip]. rewrite map_length. destruct (a <? length ch).
    - cbn [map]. rewrite skipn_map. reflexivity.
    - apply IH.
  Qed.

  Lemma chunked_map_take (c : chunked A) : forall n,
    chunked_take (chunked_map f c) n = chunked_map f (chunked_take c n).
  Proof.
    induction c as [|ch rest IH]; intros n; [reflexivity|].
    cbn [chunked_map map chunked_take]. rewrite map_length. destruct (n <=? length ch).
    - cbn [map]. rewrite firstn_map. reflexivity.
    - cbn [map]. f_equal. apply IH.
  Qed.

  (* slicing keeps the chunk layout, also under the rendering *)
  Lemma chunked_map_slice_chunks (c : chunked A) a b :
    chunked_slice_chunks (chunked_map f c) a b = chunked_map f (chunked_slice_chunks c a b).
  Proof. unfold chunked_slice_chunks. rewrite chunked_map_skip, chunked_map_take. reflexivity. Qed.
End ChunkedNatural.

(* ---- the observation of Run/RunC07.v under a rendering of the elements ---- *)
Lemma observe_map {X Y} (g : X -> Y) (c : Y -> list Z) (l : list X) :
  Run.RunC07.observe c (map g l) None = Run.RunC07.observe (fun x => c (g x)) l None.
Proof.
  unfold Run.RunC07.observe. cbv zeta. rewrite map_length. unfold Run.Codec.cells.
  f_equal. f_equal.
  { apply flat_map_ext. intros i. rewrite nth_error_map. destruct (nth_error l i); reflexivity. }
  f_equal. rewrite flat_map_map. f_equal. f_equal. rewrite <- map_rev, flat_map_map. f_equal. f_equal. f_equal.
  apply flat_map_ext. intros a. apply flat_map_ext. intros b. rewrite seg_map, flat_map_map. reflexivity.
Qed.

Lemma observe_ext {X} (c1 c2 : X -> list Z) (l : list X) :
  (forall x, c1 x = c2 x) -> Run.RunC07.observe c1 l None = Run.RunC07.observe c2 l None.
Proof.
  intros H. unfold Run.RunC07.observe. cbv zeta. unfold Run.Codec.cells.
  f_equal. f_equal.
  { apply flat_map_ext. intros i. destruct (nth_error l i); [apply H|reflexivity]. }
  f_equal. rewrite (flat_map_ext _ _ H). f_equal. f_equal. rewrite (flat_map_ext _ _ H). f_equal. f_equal. f_equal.
  apply flat_map_ext. intros a. apply flat_map_ext. intros b. rewrite (flat_map_ext _ _ H). reflexivity.
Qed.

(* what the run computes for an array whose elements were rendered as floats by `enc` IS the observation of the array
   itself, cell encoder `c_float o enc` - for every element type and every rendering *)
Lemma run_chunked_rendered {A} (enc : A -> float) (c : chunked A) :
  Run.RunC07.run_chunked (chunked_map enc c)
  = Run.RunC07.observe (Run.Codec.c_opt (fun x => Run.Codec.c_float (enc x))) (chunked_to_list c) None.
Proof.
  unfold Run.RunC07.run_chunked. rewrite chunked_map_to_list, observe_map.
  apply observe_ext. intros [x|]; reflexivity.
Qed.
