(* Proofs/Mask3.v — C05: length / no-panic / empty-input and the null mask of the index-form and slice-form
   families: ts_vmin, ts_vmax, ts_vargmin, ts_vargmax, ts_vrank at every ordered carrier (OrdLaws as a Section
   hypothesis; a non-null extreme is moreover not NaN) with the integer carrier as the instance at ordlaws_Z (any null
   dictionary, axiom-free), ts_vminmaxnorm, ts_vregx_resid_{mean,std,skew}, ts_fdiff, ts_vfdiff (carrier XR).
   Corollaries of the closed forms of Proofs/CmpOrd.v, RollRankOrd.v, MinMax.v, Resid.v, Fdiff.v.            *)
From Coq Require Import ZArith Reals Lra Lia List Bool.
From Tevec Require Import Base.Prelude Base.Num Base.XR Spec.Stats Spec.Ols Spec.Extrema Model.Driver
     Proofs.Driver Model.Features Model.Cmp Model.Norm Model.Binary Model.Reg Model.Fdiff Proofs.IdxRun
     Spec.ExtremaOrd Proofs.CmpOrd Proofs.Cmp Proofs.RollRankOrd Proofs.RollRank Proofs.Norm Proofs.MinMax Proofs.Ols
     Proofs.Binary Proofs.Resid Proofs.Fdiff Proofs.Fdiff2
     Proofs.Mask Proofs.Mask2.
Import ListNotations.

(* empty series: every index-form entry point returns the empty result, whatever the window (also 0),
   for every carrier and null dictionary — nothing is evaluated, no `window - 1` underflow *)
Section EmptyCmp.
  Context {A : Type} `{NA : Num A} {T : Type} `{DT : IsNone T A}.
  Lemma ts_vmin_empty body w mp : ts_vmin body w mp (@nil T) = Done [].
  Proof. apply idx_run_empty. Qed.
  Lemma ts_vmax_empty body w mp : ts_vmax body w mp (@nil T) = Done [].
  Proof. apply idx_run_empty. Qed.
  Lemma ts_vargmin_empty body w mp : ts_vargmin body w mp (@nil T) = Done [].
  Proof. apply idx_run_empty. Qed.
  Lemma ts_vargmax_empty body w mp : ts_vargmax body w mp (@nil T) = Done [].
  Proof. apply idx_run_empty. Qed.
  Lemma ts_vrank_empty {B : Type} `{NB : Num B} body w mp pct rev :
    ts_vrank (B := B) body w mp pct rev (@nil T) = Done [].
  Proof. apply idx_run_empty. Qed.
  Lemma ts_vminmaxnorm_empty (tmin tmax : A) body w mp :
    ts_vminmaxnorm tmin tmax body w mp (@nil T) = Done [].
  Proof. apply idx_run_empty. Qed.
End EmptyCmp.

Lemma ts_vregx_resid_empty {A : Type} `{NA : Num A} {T1 : Type} {D1 : IsNone T1 A} {T2 : Type}
      {D2 : IsNone T2 A} k body w mp (ys : list T2) :
  ts_vregx_resid k body w mp (@nil T1) ys = Done [].
Proof. destruct body, w; reflexivity. Qed.

(* DESIGN 5.3: the effective min_periods of this family, and when it is the property's  mp or w/2 *)
Lemma cmp_mp_value {T} mp w (xs : list T) :
  cmp_mp mp (cmp_window w xs) = match mp with Some m => m | None => Nat.min (length xs) w / 2 end.
Proof. destruct mp; reflexivity. Qed.
Lemma cmp_mp_stable {T} mp w (xs : list T) :
  (mp <> None \/ w <= length xs) ->
  cmp_mp mp (cmp_window w xs) = match mp with Some m => m | None => w / 2 end.
Proof.
  intros H. destruct mp as [m|]; [reflexivity|]. destruct H as [H|H]; [contradiction|].
  unfold cmp_mp, cmp_window. rewrite Nat.min_r by exact H. reflexivity.
Qed.

(* rolling rank (output in XR): null iff the current element is null or the valid count of the window
   (current element included) is below the effective min_periods *)
Definition null_at {X} (l : list (option X)) (i : nat) : bool :=
  match nth_error l i with Some (Some _) => false | _ => true end.

Section SpecNull.
  Context {A : Type} {NA : Num A}.

  Lemma ext_last_null (ltb : A -> A -> bool) (V : list A) : onull (ext_last ltb V) = (length V <? 1).
  Proof.
    destruct V as [|x r]; [reflexivity|]. cbn [ext_last].
    destruct (ext_last ltb r) as [m|]; [destruct (ltb x m)|]; reflexivity.
  Qed.

  Lemma ext_last_num_ok (ltb : A -> A -> bool) (V : list A) m :
    Forall num_ok V -> ext_last ltb V = Some m -> num_ok m.
  Proof. intros H E. rewrite Forall_forall in H. apply H. apply ext_last_In with ltb. exact E. Qed.

  Lemma glast_pos_some (ltb : A -> A -> bool) (DL : DirLaws ltb) (m : A) (W : list (option A)) :
    num_ok m -> In (Some m) W -> exists j, glast_pos m W = Some j.
  Proof.
    intros Hm. induction W as [|a r IH]; intros Hin; [contradiction|]. cbn [glast_pos].
    destruct (glast_pos m r) as [j|] eqn:E; [exists (S j); reflexivity|].
    destruct Hin as [->|Hin]; [rewrite (dl_eqb_refl DL m Hm); exists 0; reflexivity|].
    destruct (IH Hin) as (j & Hj). congruence.
  Qed.

  (* the gated value form: null iff below min_periods or no valid element; a non-null output is not NaN *)
  Lemma vext_form_mask (ltb : A -> A -> bool) (m : nat) (V : list A) : Forall num_ok V ->
    let o := if m <=? length V then ext_last ltb V else None in
    onull o = orb (length V <? m) (length V <? 1) /\ (forall x, o = Some x -> nisnan x = false).
  Proof.
    intros Hok o. split.
    - unfold o. apply gate_bool. intros _. apply ext_last_null.
    - intros x E. unfold o in E. destruct (m <=? length V); [|discriminate].
      exact (ext_last_num_ok ltb V x Hok E).
  Qed.

  (* the gated offset form *)
  Lemma varg_form_mask (ltb : A -> A -> bool) (DL : DirLaws ltb) (m : nat) (W : list (option A)) : Forall okv W ->
    onull (if m <=? length (gvalid W) then
             match ext_last ltb (gvalid W) with Some u => option_map S (glast_pos u W) | None => None end
           else None)
    = orb (length (gvalid W) <? m) (length (gvalid W) <? 1).
  Proof.
    intros Hok. apply gate_bool. intros _.
    destruct (ext_last ltb (gvalid W)) as [u|] eqn:E.
    - pose proof (ext_last_In _ _ _ E) as Hin.
      assert (Hu : num_ok u) by (apply (ext_last_num_ok ltb (gvalid W)); [apply Forall_okv_gvalid; exact Hok|exact E]).
      destruct (glast_pos_some ltb DL u W Hu (proj1 (In_gvalid u W) Hin)) as (j & ->). cbn [option_map onull].
      destruct (gvalid W); [contradiction|reflexivity].
    - apply ext_last_none in E. rewrite E. reflexivity.
  Qed.
End SpecNull.

Lemma win_okv {A} {NA : Num A} {T} {DT : IsNone T A} (xs : list T) w i :
  valid_not_nan xs -> Forall okv (win w i (map to_opt xs)).
Proof.
  intros H. apply Forall_forall. intros o Ho. rewrite win_seg in Ho. apply In_seg in Ho.
  apply in_map_iff in Ho. destruct Ho as (v & <- & Hv). exact (valid_not_nan_okv xs H v Hv).
Qed.

Section MaskOrdG.
  Context {A : Type} {NA : Num A} {T : Type} {DT : IsNone T A}.
  Hypothesis OL : OrdLaws A.

  Theorem mask_vmin_ord body w mp (xs : list T) :
    valid_not_nan xs -> 1 <= w -> 1 <= length xs ->
    outputs (ts_vmin body w mp xs) (length xs)
      (fun i o => onull o = orb (length (gvalid (win w i (map to_opt xs))) <? cmp_mp mp (cmp_window w xs))
        (length (gvalid (win w i (map to_opt xs))) <? 1) /\
        (forall x, o = Some x -> nisnan x = false)).
  Proof.
    intros Hn Hw Hl.
    apply mask_transfer with (1 := ts_vmin_ord OL body w mp xs Hn Hw Hl).
    intros i Hi. cbv zeta. apply (vext_form_mask nltb). apply Forall_okv_gvalid, win_okv. exact Hn.
  Qed.

  Theorem mask_vmax_ord body w mp (xs : list T) :
    valid_not_nan xs -> 1 <= w -> 1 <= length xs ->
    outputs (ts_vmax body w mp xs) (length xs)
      (fun i o => onull o = orb (length (gvalid (win w i (map to_opt xs))) <? cmp_mp mp (cmp_window w xs))
        (length (gvalid (win w i (map to_opt xs))) <? 1) /\
        (forall x, o = Some x -> nisnan x = false)).
  Proof.
    intros Hn Hw Hl.
    apply mask_transfer with (1 := ts_vmax_ord OL body w mp xs Hn Hw Hl).
    intros i Hi. cbv zeta. apply (vext_form_mask ngtb). apply Forall_okv_gvalid, win_okv. exact Hn.
  Qed.

  Theorem mask_vargmin_ord body w mp (xs : list T) :
    valid_not_nan xs -> 1 <= w -> 1 <= length xs ->
    outputs (ts_vargmin body w mp xs) (length xs)
      (fun i o => onull o = orb (length (gvalid (win w i (map to_opt xs))) <? cmp_mp mp (cmp_window w xs))
        (length (gvalid (win w i (map to_opt xs))) <? 1)).
  Proof.
    intros Hn Hw Hl. apply mask_transfer with (1 := ts_vargmin_ord OL body w mp xs Hn Hw Hl).
    intros i Hi. cbv zeta. apply (varg_form_mask nltb (dir_lt OL)). apply win_okv. exact Hn.
  Qed.

  Theorem mask_vargmax_ord body w mp (xs : list T) :
    valid_not_nan xs -> 1 <= w -> 1 <= length xs ->
    outputs (ts_vargmax body w mp xs) (length xs)
      (fun i o => onull o = orb (length (gvalid (win w i (map to_opt xs))) <? cmp_mp mp (cmp_window w xs))
        (length (gvalid (win w i (map to_opt xs))) <? 1)).
  Proof.
    intros Hn Hw Hl. apply mask_transfer with (1 := ts_vargmax_ord OL body w mp xs Hn Hw Hl).
    intros i Hi. cbv zeta. apply (varg_form_mask ngtb (dir_gt OL)). apply win_okv. exact Hn.
  Qed.

  (* rank arithmetic in option R: null iff the current element is null or the valid count of the window (current
     element included) is below the effective min_periods *)
  Theorem mask_vrank_ord body w mp pct rev (xs : list T) :
    valid_not_nan xs -> 1 <= w -> 1 <= length xs ->
    outputs (ts_vrank (B := XR) body w mp pct rev xs) (length xs)
      (fun i o => is_null o = orb (null_at (map to_opt xs) i)
        (length (gvalid (win w i (map to_opt xs))) <? cmp_mp mp (cmp_window w xs))).
  Proof.
    intros Hn Hw Hl. apply mask_transfer with (1 := ts_vrank_ord OL body w mp pct rev xs Hn Hw Hl).
    intros i Hi. unfold null_at. destruct (nth_error (map to_opt xs) i) as [[x|]|] eqn:Ev; [|reflexivity..].
    cbv zeta. cbn [orb].
    assert (HW : win w i (map to_opt xs) = seg (wstart w i) i (map to_opt xs) ++ [Some x]).
    { rewrite win_seg. apply seg_snoc; [unfold wstart; lia|exact Ev]. }
    rewrite HW, gvalid_app, app_length. cbn [gvalid flat_map app length]. rewrite Nat.add_1_r.
    rewrite is_null_onull, (gate_bool _ _ _ false); [apply orb_false_r|reflexivity].
  Qed.

  (* length / no panic / no unwritten slot for every series (the empty one included), every window >= 1 *)
  Theorem extrema_total_ord body w mp (xs : list T) :
    valid_not_nan xs -> 1 <= w ->
    (exists out, ts_vmin body w mp xs = Done out /\ length out = length xs) /\
    (exists out, ts_vmax body w mp xs = Done out /\ length out = length xs) /\
    (exists out, ts_vargmin body w mp xs = Done out /\ length out = length xs) /\
    (exists out, ts_vargmax body w mp xs = Done out /\ length out = length xs).
  Proof.
    intros Hn Hw. destruct xs as [|x xs'] eqn:Exs.
    - rewrite ts_vmin_empty, ts_vmax_empty, ts_vargmin_empty, ts_vargmax_empty.
      repeat split; exists []; split; reflexivity.
    - rewrite <- Exs in *. assert (Hl : 1 <= length xs) by (rewrite Exs; cbn; lia).
      destruct (ts_vmin_ord OL body w mp xs Hn Hw Hl) as (o1 & A1 & B1 & _).
      destruct (ts_vmax_ord OL body w mp xs Hn Hw Hl) as (o2 & A2 & B2 & _).
      destruct (ts_vargmin_ord OL body w mp xs Hn Hw Hl) as (o3 & A3 & B3 & _).
      destruct (ts_vargmax_ord OL body w mp xs Hn Hw Hl) as (o4 & A4 & B4 & _).
      repeat split; [exists o1|exists o2|exists o3|exists o4]; split; assumption.
  Qed.
End MaskOrdG.

(* the integer carrier, any null dictionary: instances at ordlaws_Z (validZ is gvalid at Z); axiom-free *)
Lemma outputs_weaken {O} (r : outcome O) (n : nat) (P Q : nat -> O -> Prop) :
  outputs r n P -> (forall i o, P i o -> Q i o) -> outputs r n Q.
Proof.
  intros (out & H1 & H2 & H3) HPQ. exists out. split; [exact H1|]. split; [exact H2|].
  intros i Hi. destruct (H3 i Hi) as (o & Ho & HP). exists o. split; [exact Ho|apply HPQ; exact HP].
Qed.

Section MaskCmp.
  Context {T : Type} {DT : IsNone T Z}.

  Theorem mask_vmin body w mp (xs : list T) :
    1 <= w -> 1 <= length xs ->
    outputs (ts_vmin body w mp xs) (length xs)
      (fun i o => onull o = orb (length (validZ (win w i (map to_opt xs))) <? cmp_mp mp (cmp_window w xs))
        (length (validZ (win w i (map to_opt xs))) <? 1)).
  Proof.
    intros Hw Hl. apply outputs_weaken with (1 := mask_vmin_ord ordlaws_Z body w mp xs (valid_not_nan_Z xs) Hw Hl).
    intros i o [H _]. exact H.
  Qed.

  Theorem mask_vmax body w mp (xs : list T) :
    1 <= w -> 1 <= length xs ->
    outputs (ts_vmax body w mp xs) (length xs)
      (fun i o => onull o = orb (length (validZ (win w i (map to_opt xs))) <? cmp_mp mp (cmp_window w xs))
        (length (validZ (win w i (map to_opt xs))) <? 1)).
  Proof.
    intros Hw Hl. apply outputs_weaken with (1 := mask_vmax_ord ordlaws_Z body w mp xs (valid_not_nan_Z xs) Hw Hl).
    intros i o [H _]. exact H.
  Qed.

  Theorem mask_vargmin body w mp (xs : list T) :
    1 <= w -> 1 <= length xs ->
    outputs (ts_vargmin body w mp xs) (length xs)
      (fun i o => onull o = orb (length (validZ (win w i (map to_opt xs))) <? cmp_mp mp (cmp_window w xs))
        (length (validZ (win w i (map to_opt xs))) <? 1)).
  Proof. exact (mask_vargmin_ord ordlaws_Z body w mp xs (valid_not_nan_Z xs)). Qed.

  Theorem mask_vargmax body w mp (xs : list T) :
    1 <= w -> 1 <= length xs ->
    outputs (ts_vargmax body w mp xs) (length xs)
      (fun i o => onull o = orb (length (validZ (win w i (map to_opt xs))) <? cmp_mp mp (cmp_window w xs))
        (length (validZ (win w i (map to_opt xs))) <? 1)).
  Proof. exact (mask_vargmax_ord ordlaws_Z body w mp xs (valid_not_nan_Z xs)). Qed.

  (* length / no panic / no unwritten slot for every series, the empty one included, every window >= 1
     (window > len included: the clamp), both bodies *)
  Theorem extrema_total body w mp (xs : list T) :
    1 <= w ->
    (exists out, ts_vmin body w mp xs = Done out /\ length out = length xs) /\
    (exists out, ts_vmax body w mp xs = Done out /\ length out = length xs) /\
    (exists out, ts_vargmin body w mp xs = Done out /\ length out = length xs) /\
    (exists out, ts_vargmax body w mp xs = Done out /\ length out = length xs).
  Proof. exact (extrema_total_ord ordlaws_Z body w mp xs (valid_not_nan_Z xs)). Qed.

  Theorem mask_vrank body w mp pct rev (xs : list T) :
    1 <= w -> 1 <= length xs ->
    outputs (ts_vrank (B := XR) body w mp pct rev xs) (length xs)
      (fun i o => is_null o = orb (null_at (map to_opt xs) i)
        (length (validZ (win w i (map to_opt xs))) <? cmp_mp mp (cmp_window w xs))).
  Proof. exact (mask_vrank_ord ordlaws_Z body w mp pct rev xs (valid_not_nan_Z xs)). Qed.

  Theorem rank_total body w mp pct rev (xs : list T) :
    1 <= w -> exists out, ts_vrank (B := XR) body w mp pct rev xs = Done out /\ length out = length xs.
  Proof.
    intros Hw. destruct xs as [|x xs'] eqn:Exs.
    - rewrite ts_vrank_empty. exists []. split; reflexivity.
    - rewrite <- Exs. assert (Hl : 1 <= length xs) by (rewrite Exs; cbn; lia).
      destruct (ts_vrank_spec body w mp pct rev xs Hw Hl) as (o & A1 & B1 & _).
      exists o. split; assumption.
  Qed.
End MaskCmp.

(* min-max normalisation: null iff the current element is null, below min_periods, or zero spread
   (greatest = least valid element of the window; includes every window with one valid value) *)
Theorem mask_vminmaxnorm (lo hi : R) body (w : nat) mp (xs : list XR) :
  1 <= w -> (forall r, In (Some r) xs -> (lo <= r <= hi)%R) ->
  outputs (ts_vminmaxnorm (Some lo) (Some hi) body w mp xs) (length xs)
      (fun i o => (is_null o = true <->
        nth_error xs i = Some None \/ length (valid (win w i xs)) < mp_eff mp w 0 \/
        lmaxR (valid (win w i xs)) = lminR (valid (win w i xs)))).
Proof.
  intros Hw Hb. apply mask_transfer with (1 := ts_vminmaxnorm_spec lo hi body w mp xs Hw Hb).
  intros i Hi. destruct (nth_error xs i) as [[x|]|] eqn:Ev.
  - cbv zeta. rewrite is_null_onull.
    rewrite (gate_prop (mp_eff mp w 0) (length (valid (win w i xs))) _
               (lmaxR (valid (win w i xs)) = lminR (valid (win w i xs)))).
    + split; [intros H; right; exact H|intros [H|H]; [discriminate|exact H]].
    + intros _. destruct (Req_EM_T (lmaxR (valid (win w i xs))) (lminR (valid (win w i xs)))) as [H|H];
        cbn [onull].
      * split; [intros _; exact H|reflexivity].
      * split; [discriminate|intros H'; contradiction].
  - cbn [is_null]. split; [intros _; left; reflexivity|reflexivity].
  - apply nth_error_None in Ev. lia.
Qed.

(* residual statistics of the regression on a second series: null iff below min_periods, singular
   normal equations, or (skewness only) fewer than 3 observations *)
Lemma rstat_null k (V : list R) :
  2 <= length V -> (onull (rstat_spec k V) = true <-> k = RSkew /\ length V < 3).
Proof.
  intros H2. destruct k; cbn [rstat_spec].
  - unfold agg_mean_spec. replace (length V =? 0) with false by (symmetry; apply Nat.eqb_neq; lia).
    cbn [onull]. split; [discriminate|intros [E _]; discriminate].
  - unfold agg_std_spec. rewrite (ltb_false (length V) 2) by lia.
    destruct (Rle_dec _ _); cbn [onull]; (split; [discriminate|intros [E _]; discriminate]).
  - unfold agg_skew_spec. destruct (length V <? 3) eqn:E.
    + apply Nat.ltb_lt in E. cbn [onull]. split; [intros _; split; [reflexivity|exact E]|reflexivity].
    + apply Nat.ltb_ge in E. destruct (Rle_dec _ _); cbn [onull];
        (split; [discriminate|intros [_ E']; exfalso; lia]).
Qed.

Theorem mask_vregx_resid k body (w : nat) mp (xs ys : list XR) :
  1 <= w -> length xs = length ys ->
  exists out, ts_vregx_resid k body w mp xs ys = Done out /\ length out = length xs /\
    forall i, i < length xs ->
      let P := pairs (win w i xs) (win w i ys) in
      exists o, nth_error out i = Some o /\
        (is_null o = true <->
         length P < mp_eff mp w 0 \/ detB P = 0%R \/ (k = RSkew /\ length P < 3)).
Proof.
  intros Hw Hlen.
  apply mask_transfer with (1 := resid_entry k body w mp xs ys Hw Hlen)
    (P := fun i o => let P := pairs (win w i xs) (win w i ys) in
            is_null o = true <->
            length P < mp_eff mp w 0 \/ detB P = 0%R \/ (k = RSkew /\ length P < 3)).
  intros i Hi. cbv zeta. set (P := pairs (win w i xs) (win w i ys)). unfold resid_stat_x.
  rewrite is_null_onull. apply gate_prop. intros _.
  destruct (Req_EM_T (detB P) 0) as [D|D].
  - cbn [onull]. split; [intros _; left; exact D|reflexivity].
  - pose proof (det_nonzero_two P D) as H2.
    rewrite rstat_null by (rewrite resids_length; exact H2). rewrite resids_length.
    split; [intros H; right; exact H|intros [H|H]; [contradiction|exact H]].
Qed.

(* plain ts_fdiff on a null-free series: one output per input, none of them null *)
Theorem mask_fdiff body d (w : nat) (rs : list R) :
  1 <= w ->
  outputs (ts_fdiff body (Some d) w (fun x : XR => x) (map Some rs)) (length rs)
      (fun i o => is_null o = false).
Proof.
  intros Hw. apply mask_transfer with (1 := ts_fdiff_spec body d w rs Hw).
  intros i Hi. reflexivity.
Qed.

(* ts_vfdiff: the weighted sum over the valid elements is never null; the only nulls are the mask *)
Theorem mask_vfdiff body d (w : nat) mp (xs : list XR) :
  1 <= w ->
  outputs (ts_vfdiff body (Some d) w mp xs) (length xs)
      (fun i o => is_null o = below (mp_eff mp w 0) (valid (win w i xs))).
Proof.
  intros Hw. apply mask_transfer with (1 := ts_vfdiff_spec body d w mp xs Hw).
  intros i Hi. cbv zeta. unfold below. rewrite is_null_onull, (gate_bool _ _ _ false) by reflexivity.
  apply orb_false_r.
Qed.

(* DESIGN 5.3 corollaries: with an explicit min_periods (any length), or an omitted one and len >= w,
   the threshold of the extrema / rank family is the property's `min_periods or floor(w/2)` *)
Section MaskCmpStable.
  Context {T : Type} {DT : IsNone T Z}.

  Corollary mask_vmin_stable body w mp (xs : list T) :
    1 <= w -> 1 <= length xs -> (mp <> None \/ w <= length xs) ->
    outputs (ts_vmin body w mp xs) (length xs)
      (fun i o => onull o = orb (length (validZ (win w i (map to_opt xs))) <? match mp with Some m => m | None => w / 2 end)
        (length (validZ (win w i (map to_opt xs))) <? 1)).
  Proof. intros Hw Hl Hs. rewrite <- (cmp_mp_stable mp w xs Hs). apply mask_vmin; assumption. Qed.

  Corollary mask_vmax_stable body w mp (xs : list T) :
    1 <= w -> 1 <= length xs -> (mp <> None \/ w <= length xs) ->
    outputs (ts_vmax body w mp xs) (length xs)
      (fun i o => onull o = orb (length (validZ (win w i (map to_opt xs))) <? match mp with Some m => m | None => w / 2 end)
        (length (validZ (win w i (map to_opt xs))) <? 1)).
  Proof. intros Hw Hl Hs. rewrite <- (cmp_mp_stable mp w xs Hs). apply mask_vmax; assumption. Qed.

  Corollary mask_vargmin_stable body w mp (xs : list T) :
    1 <= w -> 1 <= length xs -> (mp <> None \/ w <= length xs) ->
    outputs (ts_vargmin body w mp xs) (length xs)
      (fun i o => onull o = orb (length (validZ (win w i (map to_opt xs))) <? match mp with Some m => m | None => w / 2 end)
        (length (validZ (win w i (map to_opt xs))) <? 1)).
  Proof. intros Hw Hl Hs. rewrite <- (cmp_mp_stable mp w xs Hs). apply mask_vargmin; assumption. Qed.

  Corollary mask_vargmax_stable body w mp (xs : list T) :
    1 <= w -> 1 <= length xs -> (mp <> None \/ w <= length xs) ->
    outputs (ts_vargmax body w mp xs) (length xs)
      (fun i o => onull o = orb (length (validZ (win w i (map to_opt xs))) <? match mp with Some m => m | None => w / 2 end)
        (length (validZ (win w i (map to_opt xs))) <? 1)).
  Proof. intros Hw Hl Hs. rewrite <- (cmp_mp_stable mp w xs Hs). apply mask_vargmax; assumption. Qed.

  Corollary mask_vrank_stable body w mp pct rev (xs : list T) :
    1 <= w -> 1 <= length xs -> (mp <> None \/ w <= length xs) ->
    outputs (ts_vrank (B := XR) body w mp pct rev xs) (length xs)
      (fun i o => is_null o = orb (null_at (map to_opt xs) i)
        (length (validZ (win w i (map to_opt xs))) <? match mp with Some m => m | None => w / 2 end)).
  Proof. intros Hw Hl Hs. rewrite <- (cmp_mp_stable mp w xs Hs). apply mask_vrank; assumption. Qed.
End MaskCmpStable.

(* the empty-series statements of the index-form entry points, collected *)
Lemma index_form_empty (A : Type) (NA : Num A) (T : Type) (DT : IsNone T A) (body : bool) (w : nat)
      (mp : option nat) :
  ts_vmin body w mp (@nil T) = Done [] /\ ts_vmax body w mp (@nil T) = Done [] /\
  ts_vargmin body w mp (@nil T) = Done [] /\ ts_vargmax body w mp (@nil T) = Done [] /\
  (forall (B : Type) (NB : Num B) (pct rev : bool), ts_vrank (B := B) body w mp pct rev (@nil T) = Done []) /\
  (forall tmin tmax : A, ts_vminmaxnorm tmin tmax body w mp (@nil T) = Done []) /\
  (forall (T2 : Type) (D2 : IsNone T2 A) (k : rstat) (ys : list T2),
      ts_vregx_resid k body w mp (@nil T) ys = Done []).
Proof.
  split; [apply ts_vmin_empty|]. split; [apply ts_vmax_empty|]. split; [apply ts_vargmin_empty|].
  split; [apply ts_vargmax_empty|]. split; [intros B NB pct rev; apply ts_vrank_empty|].
  split; [intros tmin tmax; apply ts_vminmaxnorm_empty|]. intros T2 D2 k ys. apply ts_vregx_resid_empty.
Qed.
