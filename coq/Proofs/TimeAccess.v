(* Proofs/TimeAccess.v — laws of the accessors of Model/TimeAccess.v. *)
From Coq Require Import ZArith Bool Lia.
From Tevec Require Import Base.Prelude Model.Time Proofs.Time Model.TimeAccess.
Local Open Scope Z_scope.

Lemma is_not_nat_negb x : is_not_nat x = negb (is_nat x).
Proof. reflexivity. Qed.

Lemma is_not_nat_NaT : is_not_nat NaT = false.
Proof. reflexivity. Qed.

Lemma into_from_opt_i64_collapse : into_opt_i64 (from_opt_i64 (Some NaT)) = None.
Proof. reflexivity. Qed.

(* the raw TryFrom agrees with as_cr on EVERY timestamp of every unit, NaT included: for s / ms / us NaT lies
   outside chrono's date range, for ns the impl tests it *)
Lemma try_from_cr_as_cr u x : try_from_cr u x = as_cr u x.
Proof.
  unfold try_from_cr, as_cr. destruct (is_nat x) eqn:E; [|reflexivity].
  apply is_nat_true in E. subst x. destruct u; reflexivity.
Qed.

(* the nanosecond impl without its own NaT test (Model/TimeAccess.v, try_from_cr_before_fix): NaT is a valid calendar value *)
Lemma try_from_cr_before_fix_nat :
  try_from_cr_before_fix Nano NaT = Some (mkcr (-9223372037) 145224192) /\ as_cr Nano NaT = None.
Proof. split; reflexivity. Qed.
