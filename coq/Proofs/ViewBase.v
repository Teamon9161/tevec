(* Proofs/ViewBase.v — shared by the C08 proof files (and HalfLifeProbes.v, Composite2.v): Forall2 as a relation
   between two runs (fold_left, firstn, combine, nth_error), and the elementary facts about option views:
   the option view of an element determines is_none / not_none and, on a non-null element, unwrap;
   null insertion as a pattern.
   Axiom-free.                                                                                   *)
From Coq Require Import List Bool.
From Tevec Require Import Base.Prelude Base.Num Model.NullView.
Import ListNotations.
Set Implicit Arguments.

Lemma fold_left_rel {St X1 X2} (R : X1 -> X2 -> Prop) (f1 : St -> X1 -> St) (f2 : St -> X2 -> St) :
  (forall s a b, R a b -> f1 s a = f2 s b) ->
  forall l1 l2, Forall2 R l1 l2 -> forall s, fold_left f1 l1 s = fold_left f2 l2 s.
Proof.
  intros Hf l1 l2 HF. induction HF as [|a b r1 r2 Hab _ IH]; intros s; [reflexivity|].
  cbn [fold_left]. rewrite (Hf s a b Hab). apply IH.
Qed.

Lemma Forall2_len {X Y} (R : X -> Y -> Prop) l1 l2 : Forall2 R l1 l2 -> length l1 = length l2.
Proof. induction 1; cbn [length]; congruence. Qed.

Lemma Forall2_firstn {X Y} (R : X -> Y -> Prop) n l1 l2 : Forall2 R l1 l2 -> Forall2 R (firstn n l1) (firstn n l2).
Proof.
  intros HF. revert n. induction HF as [|a b r1 r2 Hab _ IH]; intros [|n]; cbn [firstn]; constructor; auto.
Qed.
Lemma Forall2_skipn {X Y} (R : X -> Y -> Prop) n l1 l2 : Forall2 R l1 l2 -> Forall2 R (skipn n l1) (skipn n l2).
Proof.
  intros HF. revert n. induction HF as [|a b r1 r2 Hab HF IH]; intros [|n]; cbn [skipn]; try constructor; auto.
Qed.
Lemma Forall2_seg {X Y} (R : X -> Y -> Prop) a b l1 l2 : Forall2 R l1 l2 -> Forall2 R (seg a b l1) (seg a b l2).
Proof. intros HF. unfold seg. apply Forall2_firstn, Forall2_skipn, HF. Qed.
Lemma map_rel {X Y Z} (R : X -> Y -> Prop) (f : X -> Z) (g : Y -> Z) l1 l2 :
  (forall a b, R a b -> f a = g b) -> Forall2 R l1 l2 -> map f l1 = map g l2.
Proof. intros H HF. induction HF as [|a b r1 r2 Hab _ IH]; cbn [map]; [reflexivity|]. rewrite (H a b Hab), IH. reflexivity. Qed.
Lemma Forall2_filter {X Y} (R : X -> Y -> Prop) (p : X -> bool) (q : Y -> bool) l1 l2 :
  (forall a b, R a b -> p a = q b) -> Forall2 R l1 l2 -> Forall2 R (filter p l1) (filter q l2).
Proof.
  intros H HF. induction HF as [|a b r1 r2 Hab _ IH]; cbn [filter]; [constructor|]. rewrite (H a b Hab).
  destruct (q b); [constructor; assumption|exact IH].
Qed.

Lemma hd_error_map {X Y} (f : X -> Y) (l : list X) : hd_error (map f l) = option_map f (hd_error l).
Proof. destruct l; reflexivity. Qed.

Lemma Forall2_rev {X Y} (R : X -> Y -> Prop) l1 l2 : Forall2 R l1 l2 -> Forall2 R (rev l1) (rev l2).
Proof.
  induction 1 as [|a b r1 r2 Hab _ IH]; [constructor|]. cbn [rev].
  apply Forall2_app; [exact IH|repeat constructor; exact Hab].
Qed.

Lemma Forall2_combine {X1 X2 Y1 Y2} (R : X1 -> X2 -> Prop) (Q : Y1 -> Y2 -> Prop) xs1 xs2 ys1 ys2 :
  Forall2 R xs1 xs2 -> Forall2 Q ys1 ys2 ->
  Forall2 (fun p q => R (fst p) (fst q) /\ Q (snd p) (snd q)) (combine xs1 ys1) (combine xs2 ys2).
Proof.
  intros HX. revert ys1 ys2. induction HX as [|a b r1 r2 Hab _ IH]; intros ys1 ys2 HY; [constructor|].
  destruct HY as [|c d s1 s2 Hcd HY]; [constructor|]. cbn [combine]. constructor; [split; assumption|].
  apply IH. exact HY.
Qed.

Lemma Forall2_repeat {X Y} (R : X -> Y -> Prop) a b n : R a b -> Forall2 R (repeat a n) (repeat b n).
Proof. intros H. induction n as [|n IH]; cbn [repeat]; constructor; assumption. Qed.

Lemma Forall2_nth {X Y} (R : X -> Y -> Prop) l1 l2 : Forall2 R l1 l2 ->
  forall i, match nth_error l1 i, nth_error l2 i with
            | Some a, Some b => R a b | None, None => True | _, _ => False end.
Proof.
  intros HF. induction HF as [|a b r1 r2 Hab _ IH]; intros [|i]; cbn [nth_error]; [exact I|exact I|exact Hab|apply IH].
Qed.

Lemma find_hd_filter {X} (p : X -> bool) l : find p l = hd_error (filter p l).
Proof. induction l as [|x l IH]; [reflexivity|]. cbn [find filter]. destruct (p x); [reflexivity|exact IH]. Qed.

Section View.
  Context {A T1 T2 : Type} (D1 : IsNone T1 A) (D2 : IsNone T2 A).

  Lemma sv_is_none a b : same_view D1 D2 a b -> is_none a = is_none b.
  Proof. unfold same_view, to_opt. destruct (is_none a), (is_none b); intros E; congruence. Qed.
  Lemma sv_not_none a b : same_view D1 D2 a b -> not_none a = not_none b.
  Proof. intros E. unfold not_none. rewrite (sv_is_none E). reflexivity. Qed.
  Lemma sv_unwrap a b : same_view D1 D2 a b -> not_none b = true -> unwrap a = unwrap b.
  Proof.
    intros E. pose proof (sv_is_none E) as Hn. unfold not_none. unfold same_view, to_opt in E.
    rewrite Hn in E. destruct (is_none b); [discriminate|]. intros _. congruence.
  Qed.

  (* two encodings of one logical value: both null, or both valid with the same content.  Every model step has the
     shape `if not_none v then g (unwrap v) else d`, so this case split closes each re-encoding step. *)
  Lemma sv_cases a b : same_view D1 D2 a b ->
    (not_none a = false /\ not_none b = false) \/ (not_none a = true /\ not_none b = true /\ unwrap a = unwrap b).
  Proof.
    intros E. rewrite (sv_not_none E). destruct (not_none b) eqn:Hb; [right|left]; repeat split.
    apply (sv_unwrap E Hb).
  Qed.

  Lemma filter_valid_view xs1 xs2 :
    SameView D1 D2 xs1 xs2 -> SameView D1 D2 (filter not_none xs1) (filter not_none xs2).
  Proof. apply Forall2_filter. intros a b E. apply (sv_not_none E). Qed.

  (* the option views coincide, and conversely *)
  Lemma same_view_opt_view xs1 xs2 : SameView D1 D2 xs1 xs2 <-> opt_view xs1 = opt_view xs2.
  Proof.
    unfold SameView, opt_view. split.
    - induction 1 as [|a b r1 r2 Hab _ IH]; [reflexivity|]. cbn [map]. rewrite IH. f_equal. exact Hab.
    - revert xs2. induction xs1 as [|a r1 IH]; intros [|b r2] E; try discriminate; [constructor|].
      cbn [map] in E. injection E as E1 E2. constructor; [exact E1|apply IH; exact E2].
  Qed.

  Lemma find_same_view l1 l2 :
    SameView D1 D2 l1 l2 ->
    option_map (to_opt (H := D1)) (find not_none l1) = option_map (to_opt (H := D2)) (find not_none l2).
  Proof.
    induction 1 as [|a b r1 r2 Hab _ IH]; [reflexivity|]. cbn [find]. rewrite (sv_not_none Hab).
    destruct (not_none b); [cbn [option_map]; f_equal; exact Hab|exact IH].
  Qed.
End View.

(* inserted nulls are invisible to whatever reads the non-null elements only *)
Section Insert.
  Context {A T : Type} {D : IsNone T A}.

  Lemma not_none_null (v : T) : is_none v = true -> not_none v = false.
  Proof. intros H. unfold not_none. rewrite H. reflexivity. Qed.

  Lemma filter_valid_insert xs ys : NullInsert xs ys -> filter not_none ys = filter not_none xs.
  Proof.
    induction 1 as [|x xs ys _ IH|v xs ys Hv _ IH]; [reflexivity| |]; cbn [filter].
    - rewrite IH. reflexivity.
    - rewrite (not_none_null _ Hv). exact IH.
  Qed.

  Lemma null_insert_refl xs : NullInsert xs xs.
  Proof. induction xs; constructor; assumption. Qed.

  Lemma insert_pat_insert (nl : T) p xs : is_none nl = true -> NullInsert xs (insert_pat nl p xs).
  Proof.
    intros Hn. revert xs. induction p as [|b p IH]; intros xs; [apply null_insert_refl|].
    destruct b; cbn [insert_pat]; [apply ni_null; [exact Hn|apply IH]|].
    destruct xs as [|x xs]; [apply IH|apply ni_keep, IH].
  Qed.

  (* conversely, where the null is unique every insertion is a pattern insertion *)
  Lemma null_insert_pattern (nl : T) xs ys :
    (forall v, is_none v = true -> v = nl) -> NullInsert xs ys -> exists p, ys = insert_pat nl p xs.
  Proof.
    intros Hu. induction 1 as [|x xs ys _ [p IH]|v xs ys Hv _ [p IH]].
    - exists []. reflexivity.
    - exists (false :: p). cbn [insert_pat]. rewrite IH. reflexivity.
    - exists (true :: p). cbn [insert_pat]. rewrite IH, (Hu v Hv). reflexivity.
  Qed.
End Insert.
