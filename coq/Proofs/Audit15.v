(* Proofs/Audit15.v — the definitions and lemmas behind the theorems (A1)-(A12) of Props/C15.v about the model of
   Model/Cast.v: the inputs that the premises of `cast_nonnull_preserved` exclude, which null casts panic, values (vabs,
   integer `as`), the classes of the pair coverage table (notes/C15.md).
   Arbitrary float type F, arbitrary X : Ext F; `ExtLaws X` only where stated.  Axiom-free.                     *)
From Coq Require Import ZArith List Bool Lia.
From Tevec Require Import Base.Prelude Model.Cast Proofs.Cast Proofs.CastLattice.
Import ListNotations.
Local Open Scope Z_scope.

Section Audit.
  Context {F : Type} (X : Ext F).

  (* (A1): the numeric sources *)
  Definition num_src (s : ty) : bool := match s with Plain (N _) | Opt (N _) => true | _ => false end.

  (* (A4): which null casts into a NULLABLE target panic instead of giving the null (all by design); every other
     implemented pair is total on nulls *)
  Definition null_panics (s t : ty) : bool :=
    match s, t with
    | Opt Bool, Plain DT | Opt Bool, Plain TD | Opt Bool, Plain TM => true      (* "Should not cast option bool to datetime" *)
    | Plain Str, Plain DT | Plain Str, Plain TD => true                          (* the parsers of C18 reject "None" *)
    | Plain Str, Plain (N F32) | Plain Str, Plain (N F64) => true                (* "None".parse::<f64>() fails *)
    | Plain DT, Plain TD | Plain TD, Plain DT => true                            (* unreachable!() *)
    | _, _ => false
    end.

  Lemma null_panics_opt_target (s : ty) (b : bt) : null_panics s (Opt b) = false.
  Proof. destruct s as [[]|[]]; reflexivity. Qed.

  Lemma null_panics_opt_source (a b : bt) :
    implemented (Opt a) (Plain b) = true -> null_panics (Opt a) (Plain b) = bt_eqb a Bool && is_time b.
  Proof. destruct a; try discriminate; destruct b; reflexivity. Qed.

  (* the arms with a plain source, on a null *)
  Lemma cast_num_total a b (v : nval a) : b_can_null b = true -> exists w, cast_num X a (Plain b) v = Ok w.
  Proof. destruct b; try discriminate; intros _; eexists; reflexivity. Qed.

  Lemma cast_str_None_total (L : ExtLaws X) b :
    implemented (Plain Str) (Plain b) = true -> b_can_null b = true ->
    if null_panics (Plain Str) (Plain b) then cast_str X (Plain b) s_None = Panic OtherPanic
    else exists w, cast_str X (Plain b) s_None = Ok w.
  Proof.
    intros Hi Hc. destruct b as [[]| | | | |]; try discriminate Hi; try discriminate Hc; cbn [null_panics cast_str n_parse].
    - rewrite (s2f32_None X L). reflexivity.
    - rewrite (s2f64_None X L). reflexivity.
    - eexists; reflexivity.
    - rewrite (s2dt_None X L). reflexivity.
    - rewrite (s2td_None X L). reflexivity.
  Qed.

  Lemma cast_time_null_total c b (v : bval c) :
    is_time c = true -> implemented (Plain c) (Plain b) = true -> b_can_null b = true -> b_is_none X c v = true ->
    if null_panics (Plain c) (Plain b) then cast_time X c (Plain b) v = Panic OtherPanic
    else exists w, cast_time X c (Plain b) v = Ok w.
  Proof.
    intros Ht Hi Hc Hn. destruct c; try discriminate Ht; destruct b as [[]| | | | |]; try discriminate Hi; try discriminate Hc;
      cbn [null_panics cast_time]; try reflexivity; try (eexists; reflexivity).
    (* float targets: <T>::none() *)
    all: unfold time_to_n; rewrite Hn; eexists; reflexivity.
  Qed.

  (* (A5): vabs, the value and exactly when it panics *)

  Definition is_signed (n : nt) : bool := match n with I32 | I64 | Isize => true | _ => false end.
  Definition is_int (n : nt) : bool := negb (is_float n).

  Lemma int_val (n : nt) (H : is_float n = false) : nval (F := F) n = Z.
  Proof. destruct n; try discriminate H; reflexivity. Qed.

  (* in range, not the minimum: the result is the mathematical |x| and is again in range (no wrap, no sign left) *)
  Theorem n_abs_signed_in_range (n : nt) (x : Z) :
    is_signed n = true -> imin n < x <= imax n ->
    0 <= Z.abs x <= imax n /\
    match n return (nval n -> res (nval n)) -> Prop with
    | I32 | I64 | Isize => fun f => f x = Ok (Z.abs x)
    | _ => fun _ => True
    end (n_abs X n).
  Proof.
    intros Hs Hr. destruct n; try discriminate Hs; cbn [imin imax] in Hr |- *;
      (split; [lia|]); cbn [n_abs imin];
      match goal with |- context [?a =? ?b] => replace (a =? b) with false by (symmetry; apply Z.eqb_neq; lia) end;
      reflexivity.
  Qed.

  Theorem n_abs_panic_iff (x : Z) (f : F) :
    (n_abs X I32 x = Panic Overflow <-> x = imin I32) /\
    (n_abs X I64 x = Panic Overflow <-> x = imin I64) /\
    (n_abs X Isize x = Panic Overflow <-> x = imin Isize) /\
    n_abs X F32 f = Ok (fabs X f) /\ n_abs X F64 f = Ok (fabs X f).
  Proof.
    cbn [n_abs]. repeat split; try (intros ->; reflexivity);
      match goal with |- (if ?c then _ else _) = _ -> _ => destruct c eqn:E; [intros _; apply Z.eqb_eq; exact E|discriminate] end.
  Qed.

  (* the only panic of vabs is the overflow of a signed minimum (debug build) *)
  Lemma n_abs_panics (n : nt) (x : nval n) k : n_abs X n x = Panic k -> k = Overflow /\ is_signed n = true.
  Proof.
    destruct n; cbn [n_abs]; try discriminate; destruct (x =? _); try discriminate;
      intros [= <-]; split; reflexivity.
  Qed.

  (* (A8): integer -> integer `as` (z_to s u is `as_nn s u` for every integer source s, by definition): exact exactly when
         the value is representable in the target; otherwise the result is in range and congruent to the value modulo
         2^bits: never silently "close" *)
  Theorem int_as_exact_iff (s u : nt) (z : Z) :
    match u return nval u -> Prop with
    | F32 | F64 => fun _ => True
    | _ => fun r => (nt_eqb s u = true -> r = z) /\
                    (nt_eqb s u = false ->
                       imin u <= r <= imax u /\ (r = z <-> imin u <= z <= imax u) /\
                       exists k, r = z + k * (imax u - imin u + 1))
    end (z_to X s u z).
  Proof.
    assert (G : forall t, is_float t = false ->
              (imin t <= wrap t z <= imax t) /\ ((imin t <= z <= imax t) -> wrap t z = z) /\
              (exists k, wrap t z = z + k * (imax t - imin t + 1))).
    { intros t Ht. assert (Hlt : imin t < imax t) by (destruct t; try discriminate Ht; reflexivity).
      split; [apply wrap_range; exact Hlt|].
      split; [apply wrap_in_range|].
      unfold wrap. exists (- ((z - imin t) / (imax t - imin t + 1))).
      pose proof (Z.div_mod (z - imin t) (imax t - imin t + 1) ltac:(lia)). lia. }
    destruct u; try exact I; cbn [z_to]; unfold i2i;
      (destruct (nt_eqb s _) eqn:E; (split; [intros H; try discriminate H; reflexivity|intros H; try discriminate H]));
      match goal with |- context [wrap ?t z] =>
        destruct (G t eq_refl) as (G1 & G2 & G3);
        split; [exact G1|split; [split; [intros E2; rewrite E2 in G1; exact G1|exact G2]|exact G3]]
      end.
  Qed.
End Audit.

(* (A12): every implemented pair falls in exactly one row of the coverage table *)
Definition pair_class (s t : ty) : nat :=
  if negb (implemented s t) then 0
  else if negb (can_null t) then 1                                 (* target cannot represent a null: 1c, (7) *)
  else if kf_text_null s t then 2                                   (* known finding class 1 *)
  else if parser_pair s t then 3                                    (* C18 parsers: nullness of the result only compared *)
  else 4.                                                           (* (5) and (6) apply *)

Definition count_class (k : nat) : nat :=
  length (filter (fun p => Nat.eqb (pair_class (fst p) (snd p)) k) (list_prod all_ty all_ty)).
