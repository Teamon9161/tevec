(* Proofs/QuantileMono.v — the linearly interpolated quantile of a sorted list lies between its two
   neighbouring order statistics and is monotone in q (used by C20: Q(q) <= Q(1-q) for q <= 1/2,
   MAD >= 0).                                                                                      *)
From Coq Require Import Reals Lra Lia List Sorting ZArith.
From Tevec Require Import Model.Quantile Proofs.OrderXR Proofs.Quantile.
Import ListNotations.
Local Open Scope R_scope.

Lemma sorted_nth_le (s : list R) : Sorted Rle s ->
  forall i j, (i <= j < length s)%nat -> nth i s 0 <= nth j s 0.
Proof. intros Hs i j Hij. exact (sorted_nth_mono false s i j Hs Hij). Qed.

Definition interp (s : list R) (h : R) : R :=
  let lo := nth (Z.to_nat (Rfloor h)) s 0 in
  let hi := nth (Z.to_nat (Rceil h)) s 0 in
  lo + (hi - lo) * (h - IZR (Rfloor h)).

Lemma quantile_spec_interp s q : quantile_spec s q Linear = interp s (INR (length s - 1) * q).
Proof. reflexivity. Qed.

Section Interp.
  Variable s : list R.
  Hypothesis Hs : Sorted Rle s.
  Hypothesis Hne : s <> [].
  Let L := (length s - 1)%nat.

  Lemma len_pos : (1 <= length s)%nat.
  Proof. destruct s; [contradiction|cbn; lia]. Qed.

  Lemma idx_range h : 0 <= h <= INR L ->
    (Z.to_nat (Rfloor h) <= Z.to_nat (Rceil h) < length s)%nat /\
    INR (Z.to_nat (Rfloor h)) = IZR (Rfloor h) /\ INR (Z.to_nat (Rceil h)) = IZR (Rceil h).
  Proof.
    intros Hh. pose proof len_pos as Hl.
    assert (HL : INR L = IZR (Z.of_nat L)) by apply INR_IZR_INZ.
    rewrite HL in Hh.
    destruct (Rfloor_range h (Z.of_nat L) Hh) as [F0 F1].
    destruct (Rceil_range h (Z.of_nat L) Hh) as [C0 C1].
    assert (FC : (Rfloor h <= Rceil h)%Z).
    { destruct (floor_ceil_cases h) as [[_ E]|[_ E]]; rewrite E; lia. }
    split; [|split; apply INR_Ztonat; assumption].
    unfold L in *. split; [apply Z2Nat.inj_le; lia|].
    apply Nat2Z.inj_lt. rewrite Z2Nat.id by lia. lia.
  Qed.

  Lemma interp_between h : 0 <= h <= INR L ->
    nth (Z.to_nat (Rfloor h)) s 0 <= interp s h <= nth (Z.to_nat (Rceil h)) s 0.
  Proof.
    intros Hh. destruct (idx_range h Hh) as (Hidx & _ & _).
    pose proof (sorted_nth_le s Hs _ _ Hidx) as Hle.
    unfold interp. destruct (Rfloor_spec h) as [F1 F2].
    set (a := nth (Z.to_nat (Rfloor h)) s 0) in *. set (b := nth (Z.to_nat (Rceil h)) s 0) in *.
    set (t := h - IZR (Rfloor h)). assert (0 <= t < 1) by (unfold t; lra).
    split; nra.
  Qed.

  Lemma interp_mono h h' : 0 <= h -> h <= h' -> h' <= INR L -> interp s h <= interp s h'.
  Proof.
    intros H0 Hhh HL.
    assert (Hh : 0 <= h <= INR L) by lra. assert (Hh' : 0 <= h' <= INR L) by lra.
    destruct (idx_range h Hh) as (Hidx & Fi & Ci). destruct (idx_range h' Hh') as (Hidx' & Fi' & Ci').
    destruct (interp_between h Hh) as [_ Hup]. destruct (interp_between h' Hh') as [Hlow' _].
    destruct (Z_le_gt_dec (Rceil h) (Rfloor h')) as [Hcf|Hcf].
    - (* ceil h <= floor h': chain through the order statistics *)
      assert (Hn : (Z.to_nat (Rceil h) <= Z.to_nat (Rfloor h') < length s)%nat).
      { split; [|lia]. apply INR_le. rewrite Ci, Fi'. apply IZR_le. exact Hcf. }
      pose proof (sorted_nth_le s Hs _ _ Hn). lra.
    - (* same cell: floor h = floor h' = i, ceil = i + 1 on both *)
      destruct (Rfloor_spec h) as [A1 A2]. destruct (Rfloor_spec h') as [B1 B2].
      assert (Hff : (Rfloor h <= Rfloor h')%Z).
      { apply Z.lt_succ_r. apply lt_IZR. rewrite succ_IZR. lra. }
      destruct (floor_ceil_cases h) as [[E1 E2]|[E1 E2]]; [lia|].
      assert (Ef : Rfloor h' = Rfloor h) by lia.
      destruct (floor_ceil_cases h') as [[E1' E2']|[E1' E2']].
      { (* h' is an integer: then h' = floor h < h, impossible *) rewrite Ef in E1'. lra. }
      unfold interp. rewrite E2, E2', Ef.
      set (a := nth (Z.to_nat (Rfloor h)) s 0). set (b := nth (Z.to_nat (Rfloor h + 1)) s 0).
      assert (Hab : a <= b).
      { unfold a, b. rewrite <- E2. apply sorted_nth_le; [exact Hs|exact Hidx]. }
      nra.
  Qed.
End Interp.

Lemma INR_pred_le (n : nat) (q : R) : 0 <= q <= 1 -> 0 <= INR n * q <= INR n.
Proof. intros Hq. pose proof (pos_INR n). nra. Qed.

Theorem quantile_mono (s : list R) (q q' : R) :
  Sorted Rle s -> s <> [] -> 0 <= q -> q <= q' -> q' <= 1 ->
  quantile_spec s q Linear <= quantile_spec s q' Linear.
Proof.
  intros Hs Hne H0 Hqq H1. rewrite !quantile_spec_interp.
  pose proof (pos_INR (length s - 1)) as Hn.
  apply interp_mono; try assumption; nra.
Qed.

Theorem quantile_lower_bound (s : list R) (q c : R) :
  Sorted Rle s -> s <> [] -> 0 <= q <= 1 -> (forall x, In x s -> c <= x) -> c <= quantile_spec s q Linear.
Proof.
  intros Hs Hne Hq Hc. rewrite quantile_spec_interp.
  pose proof (INR_pred_le (length s - 1) q Hq) as Hh.
  destruct (interp_between s Hs Hne _ Hh) as [Hlo _].
  destruct (idx_range s Hs Hne _ Hh) as (Hidx & _).
  pose proof (Hc (nth (Z.to_nat (Rfloor (INR (length s - 1) * q))) s 0)) as H.
  assert (Hin : In (nth (Z.to_nat (Rfloor (INR (length s - 1) * q))) s 0) s) by (apply nth_In; lia).
  specialize (H Hin). lra.
Qed.
