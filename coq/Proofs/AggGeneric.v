(* Proofs/AggGeneric.v — facts about the aggregation folds that hold for every carrier and every null
   dictionary: the null-skipping folds are plain folds over the non-null elements; counts; first / last
   valid; any / all; count_value; the masked sums; the valid family is the plain family applied to the non-null
   elements; vcov's accumulator as a projection of vcorr_pearson's (`cov_of`).
   Axiom-free.                                                                                          *)
From Coq Require Import Lia List Permutation Bool.
From Tevec Require Import Base.Prelude Base.Num Model.Agg.
Import ListNotations.
Set Implicit Arguments.

Lemma Permutation_filter {X} (p : X -> bool) l l' : Permutation l l' -> Permutation (filter p l) (filter p l').
Proof.
  induction 1 as [|x l l' _ IH|x y l|l l' l'' _ IH1 _ IH2]; cbn [filter].
  - constructor.
  - destruct (p x); [constructor|]; exact IH.
  - destruct (p x), (p y); try apply Permutation_refl. apply perm_swap.
  - eapply Permutation_trans; eassumption.
Qed.
Lemma count_fold_gen {X} (p : X -> bool) (l : list X) n0 :
  fold_left (fun acc x => if p x then S acc else acc) l n0 = n0 + length (filter p l).
Proof.
  revert n0. induction l as [|x l IH]; intros n0; cbn [fold_left filter]; [cbn; lia|].
  rewrite IH. destruct (p x); cbn [length]; lia.
Qed.

Section Generic.
  Context {A T : Type} {DT : IsNone T A}.

  (* the non-null elements, in order: as elements, and unwrapped *)
  Definition valid_elems (xs : list T) : list T := filter (fun v => not_none v) xs.
  Definition vals (xs : list T) : list A := map unwrap (valid_elems xs).

  Lemma valid_elems_app xs ys : valid_elems (xs ++ ys) = valid_elems xs ++ valid_elems ys.
  Proof. apply filter_app. Qed.
  Lemma vals_app xs ys : vals (xs ++ ys) = vals xs ++ vals ys.
  Proof. unfold vals. rewrite valid_elems_app, map_app. reflexivity. Qed.
  Lemma vals_cons v xs : vals (v :: xs) = if not_none v then unwrap v :: vals xs else vals xs.
  Proof. unfold vals, valid_elems. cbn [filter]. destruct (not_none v); reflexivity. Qed.

  Lemma In_vals a xs : In a (vals xs) <-> exists v, In v xs /\ not_none v = true /\ unwrap v = a.
  Proof.
    unfold vals, valid_elems. rewrite in_map_iff. split.
    - intros (v & Hu & Hv). apply filter_In in Hv. exists v. tauto.
    - intros (v & Hv & Hn & Hu). exists v. split; [exact Hu|]. apply filter_In. split; assumption.
  Qed.

  Lemma valid_elems_perm xs ys : Permutation xs ys -> Permutation (valid_elems xs) (valid_elems ys).
  Proof. apply Permutation_filter. Qed.
  Lemma vals_perm xs ys : Permutation xs ys -> Permutation (vals xs) (vals ys).
  Proof. intros H. unfold vals. apply Permutation_map, valid_elems_perm, H. Qed.

  (* the null-skipping folds of iter_traits.rs *)
  Lemma vfold_spec {U} (f : U -> T -> U) init xs : vfold f init xs = fold_left f (valid_elems xs) init.
  Proof.
    unfold vfold, valid_elems. revert init. induction xs as [|v xs IH]; intros init; [reflexivity|].
    cbn [fold_left filter]. destruct (not_none v); cbn [fold_left]; apply IH.
  Qed.

  (* a callback that sees an element only through `unwrap` folds over vals *)
  Lemma vfold_vals {U} (g : U -> A -> U) init xs :
    vfold (fun acc x => g acc (unwrap x)) init xs = fold_left g (vals xs) init.
  Proof.
    rewrite vfold_spec. unfold vals. revert init.
    induction (valid_elems xs) as [|v l IH]; intros init; [reflexivity|]. cbn [fold_left map]. apply IH.
  Qed.

  Lemma vfold_n_gen {U} (f : U -> A -> U) xs n0 init :
    fold_left (fun na v => if not_none v then (S (fst na), f (snd na) (unwrap v)) else na) xs (n0, init)
    = (n0 + length (vals xs), fold_left f (vals xs) init).
  Proof.
    revert n0 init. induction xs as [|v xs IH]; intros n0 init.
    - cbn. f_equal. lia.
    - cbn [fold_left]. rewrite vals_cons. destruct (not_none v).
      + cbn [fst snd]. rewrite IH. cbn [length fold_left]. f_equal. lia.
      + apply IH.
  Qed.
  Lemma vfold_n_spec {U} (f : U -> A -> U) init xs :
    vfold_n f init xs = (length (vals xs), fold_left f (vals xs) init).
  Proof. unfold vfold_n. rewrite vfold_n_gen. reflexivity. Qed.
  Lemma vapply_n_spec {U} (f : U -> A -> U) init xs :
    vapply_n f init xs = (length (vals xs), fold_left f (vals xs) init).
  Proof. apply vfold_n_spec. Qed.

  Lemma count_valid_spec xs : count_valid xs = length (vals xs).
  Proof. unfold count_valid. rewrite vfold_n_spec. reflexivity. Qed.

  Lemma count_none_spec xs : count_none xs = length (filter (fun v => is_none v) xs).
  Proof. unfold count_none. rewrite count_fold_gen. reflexivity. Qed.

  Lemma count_valid_plus_none xs : count_valid xs + count_none xs = length xs.
  Proof.
    rewrite count_valid_spec, count_none_spec. unfold vals, valid_elems, not_none. rewrite map_length.
    induction xs as [|v xs IH]; [reflexivity|]. cbn [filter length].
    destruct (is_none v); cbn [negb length]; lia.
  Qed.

  Lemma count_valid_perm xs ys : Permutation xs ys -> count_valid xs = count_valid ys.
  Proof. intros H. rewrite !count_valid_spec. apply Permutation_length, vals_perm, H. Qed.
  Lemma count_none_perm xs ys : Permutation xs ys -> count_none xs = count_none ys.
  Proof.
    intros H. pose proof (count_valid_plus_none xs). pose proof (count_valid_plus_none ys).
    pose proof (count_valid_perm H). pose proof (Permutation_length H). lia.
  Qed.

  Lemma vfirst_spec xs : vfirst xs = hd_error (valid_elems xs).
  Proof.
    unfold vfirst, valid_elems. induction xs as [|v xs IH]; [reflexivity|].
    cbn [find filter]. destruct (not_none v); [reflexivity|exact IH].
  Qed.
  Lemma valid_elems_rev xs : valid_elems (rev xs) = rev (valid_elems xs).
  Proof.
    unfold valid_elems. induction xs as [|v xs IH]; [reflexivity|]. cbn [rev filter].
    rewrite filter_app, IH. cbn [filter]. destruct (not_none v); [reflexivity|apply app_nil_r].
  Qed.
  Lemma vlast_spec xs : vlast xs = hd_error (rev (valid_elems xs)).
  Proof. unfold vlast. fold (vfirst (rev xs)). rewrite vfirst_spec, valid_elems_rev. reflexivity. Qed.

  (* positional reading: the first valid element is valid, and everything before it is null *)
  Lemma vfirst_some xs v :
    vfirst xs = Some v <->
    exists pre post, xs = pre ++ v :: post /\ not_none v = true /\ Forall (fun u => is_none u = true) pre.
  Proof.
    unfold vfirst. split.
    - induction xs as [|u xs IH]; [discriminate|]. cbn [find]. destruct (not_none u) eqn:E.
      + intros [= ->]. exists [], xs. repeat split; [exact E|constructor].
      + intros H. destruct (IH H) as (pre & post & -> & Hv & Hpre). exists (u :: pre), post.
        repeat split; [exact Hv|]. constructor; [|exact Hpre].
        unfold not_none in E. destruct (is_none u); [reflexivity|discriminate].
    - intros (pre & post & -> & Hv & Hpre). induction Hpre as [|u pre Hu _ IH]; cbn [app find].
      + rewrite Hv. reflexivity.
      + unfold not_none at 1. rewrite Hu. cbn [negb]. exact IH.
  Qed.
  Lemma vfirst_none xs : vfirst xs = None <-> vals xs = [].
  Proof.
    rewrite vfirst_spec. unfold vals. destruct (valid_elems xs); cbn; split; intros; try discriminate; reflexivity.
  Qed.
  Lemma vlast_some xs v :
    vlast xs = Some v <->
    exists pre post, xs = pre ++ v :: post /\ not_none v = true /\ Forall (fun u => is_none u = true) post.
  Proof.
    unfold vlast. fold (vfirst (rev xs)). rewrite vfirst_some. split.
    - intros (pre & post & Hrev & Hv & Hpre). exists (rev post), (rev pre).
      repeat split; [|exact Hv|apply Forall_rev; exact Hpre].
      rewrite <- (rev_involutive xs), Hrev, rev_app_distr. cbn [rev]. rewrite <- app_assoc. reflexivity.
    - intros (pre & post & -> & Hv & Hpost). exists (rev post), (rev pre).
      repeat split; [|exact Hv|apply Forall_rev; exact Hpost].
      rewrite rev_app_distr. cbn [rev]. rewrite <- app_assoc. reflexivity.
  Qed.
  Lemma vlast_none xs : vlast xs = None <-> vals xs = [].
  Proof.
    rewrite vlast_spec. unfold vals. destruct (valid_elems xs) as [|a l]; cbn [rev map hd_error].
    - split; reflexivity.
    - split; [|discriminate]. destruct (rev l ++ [a]) eqn:E; [|discriminate].
      apply app_eq_nil in E. destruct E; discriminate.
  Qed.
End Generic.

Section CountValue.
  Context {A : Type} {NA : Num A} {T : Type} {DT : IsNone T A}.

  (* plain family: the number of elements equal to the value *)
  Lemma count_value_spec (value : A) xs : count_value value xs = length (filter (fun x => neqb x value) xs).
  Proof. unfold count_value. rewrite count_fold_gen. reflexivity. Qed.

  (* valid family: a non-null value counts the valid elements equal to it, a null value counts the nulls *)
  Lemma vcount_value_spec (value : T) xs :
    vcount_value value xs =
    if not_none value then count_value (unwrap value) (vals xs) else count_none xs.
  Proof.
    unfold vcount_value. destruct (not_none value); [|reflexivity].
    rewrite (vfold_vals (fun acc a => if neqb a (unwrap value) then S acc else acc)), count_value_spec, !count_fold_gen.
    reflexivity.
  Qed.

  Lemma count_value_perm (value : A) xs ys : Permutation xs ys -> count_value value xs = count_value value ys.
  Proof. intros H. rewrite !count_value_spec. apply Permutation_length, Permutation_filter, H. Qed.
  Lemma vcount_value_perm (value : T) xs ys : Permutation xs ys -> vcount_value value xs = vcount_value value ys.
  Proof.
    intros H. rewrite !vcount_value_spec. destruct (not_none value).
    - apply count_value_perm, vals_perm, H.
    - apply count_none_perm, H.
  Qed.
End CountValue.

Section BoolAggProofs.
  Context {TB : Type} {DB : IsNone TB bool}.

  Lemma fold_orb (l : list bool) acc : fold_left orb l acc = acc || existsb (fun b => b) l.
  Proof.
    revert acc. induction l as [|b l IH]; intros acc; cbn [fold_left existsb]; [rewrite orb_false_r; reflexivity|].
    rewrite IH, orb_assoc. reflexivity.
  Qed.
  Lemma fold_andb (l : list bool) acc : fold_left andb l acc = acc && forallb (fun b => b) l.
  Proof.
    revert acc. induction l as [|b l IH]; intros acc; cbn [fold_left forallb]; [rewrite andb_true_r; reflexivity|].
    rewrite IH, andb_assoc. reflexivity.
  Qed.
  Lemma vany_spec xs : vany xs = existsb (fun b => b) (vals xs).
  Proof. unfold vany. rewrite (vfold_vals orb), fold_orb. reflexivity. Qed.
  Lemma vall_spec xs : vall xs = forallb (fun b => b) (vals xs).
  Proof. unfold vall. rewrite (vfold_vals andb), fold_andb. reflexivity. Qed.

  Lemma vany_true xs : vany xs = true <-> exists v, In v xs /\ not_none v = true /\ unwrap v = true.
  Proof.
    rewrite vany_spec, existsb_exists. split.
    - intros (b & Hin & ->). apply In_vals, Hin.
    - intros H. exists true. split; [apply In_vals, H|reflexivity].
  Qed.
  Lemma vall_true xs : vall xs = true <-> forall v, In v xs -> not_none v = true -> unwrap v = true.
  Proof.
    rewrite vall_spec, forallb_forall. split.
    - intros H v Hin Hn. apply H, In_vals. exists v. tauto.
    - intros H b Hin. apply In_vals in Hin. destruct Hin as (v & Hv & Hn & <-). exact (H v Hv Hn).
  Qed.

  Lemma bool_eq_iff (a b : bool) : (a = true <-> b = true) -> a = b.
  Proof. destruct a, b; intuition congruence. Qed.
  Lemma vany_perm xs ys : Permutation xs ys -> vany xs = vany ys.
  Proof.
    intros H. apply bool_eq_iff. rewrite !vany_true. split; intros (v & Hin & R); exists v; split; try exact R.
    - eapply Permutation_in; eassumption.
    - eapply Permutation_in; [apply Permutation_sym|]; eassumption.
  Qed.
  Lemma vall_perm xs ys : Permutation xs ys -> vall xs = vall ys.
  Proof.
    intros H. apply bool_eq_iff. rewrite !vall_true. split; intros Hall v Hin; apply Hall.
    - eapply Permutation_in; [apply Permutation_sym|]; eassumption.
    - eapply Permutation_in; eassumption.
  Qed.
End BoolAggProofs.

(* plain any / all are existsb / forallb by definition; on null-free input the valid family agrees *)
Lemma vany_plain (xs : list bool) : vany (DB := IsNone_plain) xs = any_plain xs.
Proof.
  rewrite vany_spec. unfold vals, valid_elems, any_plain. cbn.
  induction xs as [|x xs IH]; [reflexivity|]. cbn. rewrite IH. reflexivity.
Qed.
Lemma vall_plain (xs : list bool) : vall (DB := IsNone_plain) xs = all_plain xs.
Proof.
  rewrite vall_spec. unfold vals, valid_elems, all_plain. cbn.
  induction xs as [|x xs IH]; [reflexivity|]. cbn. rewrite IH. reflexivity.
Qed.

Section ValidIsPlain.
  Context {A : Type} {NA : Num A} {T : Type} {DT : IsNone T A} {F : Type} {NF : Num F}.
  Variable tof : A -> F.

  Lemma n_sum_fold (xs : list A) n0 a0 :
    fold_left (fun na x => (S (fst na), nadd (snd na) x)) xs (n0, a0)
    = (n0 + length xs, fold_left nadd xs a0).
  Proof.
    revert n0 a0. induction xs as [|x xs IH]; intros n0 a0; cbn [fold_left length fst snd]; [f_equal; lia|].
    rewrite IH. f_equal. lia.
  Qed.
  Lemma n_sum_spec (xs : list A) :
    n_sum xs = (length xs, if 1 <=? length xs then Some (fold_left nadd xs nzero) else None).
  Proof. unfold n_sum. rewrite n_sum_fold. cbn [fst snd plus]. destruct (1 <=? length xs); reflexivity. Qed.

  Theorem vsum_is_plain_sum xs : vsum xs = sum (vals xs).
  Proof.
    unfold vsum, sum. rewrite vfold_n_spec, n_sum_spec. cbn [fst snd]. reflexivity.
  Qed.
  Theorem vmean_is_plain_mean xs :
    vmean tof xs = match mean tof (vals xs) with Some m => m | None => nnan end.
  Proof.
    unfold vmean, mean. rewrite vfold_n_spec, n_sum_spec. cbn [fst snd].
    destruct (1 <=? length (vals xs)); reflexivity.
  Qed.
  Theorem vmax_is_plain_max xs : vmax xs = pmax (vals xs).
  Proof.
    unfold vmax, pmax. apply (vfold_vals (fun acc a => match acc with None => Some a | Some v => Some (max_with v a) end)).
  Qed.
  Theorem vmin_is_plain_min xs : vmin xs = pmin (vals xs).
  Proof.
    unfold vmin, pmin. apply (vfold_vals (fun acc a => match acc with None => Some a | Some v => Some (min_with v a) end)).
  Qed.

  (* masked sum / mean = vsum / vmean of the selected sub-series *)
  Context {U : Type} {DU : IsNone U bool}.
  Theorem n_vsum_filter_spec xs (mask : list U) :
    n_vsum_filter xs mask =
    (count_valid (mask_filter xs mask), fold_left nadd (vals (mask_filter xs mask)) nzero).
  Proof. unfold n_vsum_filter. rewrite vfold_n_spec, count_valid_spec. reflexivity. Qed.
  Theorem n_sum_filter_is_vsum xs (mask : list U) : n_sum_filter xs mask = vsum (mask_filter xs mask).
  Proof. reflexivity. Qed.
  Theorem vmean_filter_is_vmean mp xs (mask : list U) :
    vmean_filter tof mp xs mask =
    if mp <=? count_valid (mask_filter xs mask)
    then (if 1 <=? count_valid (mask_filter xs mask) then vmean tof (mask_filter xs mask)
          else ndiv (tof nzero) (nofnat 0))
    else nnan.
  Proof.
    unfold vmean_filter, vmean, n_vsum_filter. rewrite count_valid_spec, vfold_n_spec. cbn [fst snd].
    destruct (mp <=? length (vals (mask_filter xs mask))); [|reflexivity].
    destruct (1 <=? length (vals (mask_filter xs mask))) eqn:E; [reflexivity|].
    apply Nat.leb_gt in E. destruct (vals (mask_filter xs mask)); [reflexivity|cbn in E; lia].
  Qed.

  (* the selected sub-series: element i is kept iff its flag is present, valid and true *)
  Lemma mask_filter_spec xs (mask : list U) :
    mask_filter xs mask =
    map fst (filter (fun p : T * U => not_none (snd p) && unwrap (snd p)) (combine xs mask)).
  Proof.
    unfold mask_filter. induction (combine xs mask) as [|[v f] l IH]; [reflexivity|].
    cbn [flat_map filter fst snd]. rewrite IH. destruct (not_none f); [destruct (unwrap f)|]; reflexivity.
  Qed.
End ValidIsPlain.

(* vcov's accumulator is vcorr_pearson's without the two sums of squares *)
Section CovOfCorr.
  Context {A T T2 : Type} {DT : IsNone T A} {DT2 : IsNone T2 A} {F : Type} {NF : Num F}.
  Variable tof : A -> F.
  Definition cov_of (s : nat * F * F * F * F * F) : nat * F * F * F :=
    let '(n, sa, _, sb, _, sab) := s in (n, sa, sb, sab).
  Lemma fold_cov_of (l : list (T * T2)) s :
    fold_left (cov_step tof) l (cov_of s) = cov_of (fold_left (corr_step tof) l s).
  Proof.
    revert s. induction l as [|p l IH]; intros s; [reflexivity|]. cbn [fold_left]. rewrite <- IH. f_equal.
    destruct s as [[[[[n sa] s2a] sb] s2b] sab]. unfold cov_step, corr_step, cov_of.
    destruct (not_none (fst p) && not_none (snd p)); reflexivity.
  Qed.
End CovOfCorr.
