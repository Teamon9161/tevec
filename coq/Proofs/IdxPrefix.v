(* Proofs/IdxPrefix.v — C06: the BIT-FOR-BIT prefix law of the window-index drivers (rolling_apply_idx, both
   bodies; Model/Cmp.v : idx_run) for callbacks that re-read the series through `uget`, at EVERY carrier (no law
   of the numeric class is used, so the statements hold at Coq's binary64 `float`, whose evaluation the
   correspondence run compares with the Rust code).
   Generic rule (section RunPrefix / idx_run_prefix_gen): if
     - at every position e before the last one of the prefix both runs pass the same start index and the
       callback of the prefix run (which can only see xs[..k]) returns what the callback of the whole run returns
       ("reads the series only at positions <= e"), and
     - at the last position of the prefix — where the start index may differ: the two-phase body clamps the window
       to the length, and the cmp family clamps it itself — the prefix callback returns the same OUTPUT (its state
       is dropped),
   then   idx_run .. xs = Done out  ->  idx_run .. (firstn k xs) = Done (firstn k out).
   Instances: vext_cb (ts_vmin / ts_vmax), varg_cb (ts_vargmin / ts_vargmax), vrank_cb (ts_vrank), mmnorm_cb
   (ts_vminmaxnorm), resid_cb (ts_vregx_resid_{mean,std,skew}).                                                *)
From Coq Require Import Lia List.
From Tevec Require Import Base.Prelude Base.Num Model.Driver Proofs.Driver Model.Features Model.Cmp
     Proofs.IdxRun Model.Norm Model.Binary Model.Reg Proofs.NoLookahead2.
Import ListNotations.

Lemma collect_Ok_inv {O} (l : list (res O)) out : collect l = Ok out -> l = map Ok out.
Proof.
  revert out; induction l as [|[o|k] l IH]; intros out H; cbn in H.
  - injection H as <-. reflexivity.
  - destruct (collect l) as [l'|k]; [|discriminate]. injection H as <-. cbn. f_equal. apply IH. reflexivity.
  - discriminate.
Qed.

Definition idx_args {T} (body : bool) (w : nat) (xs : list T) : list (option nat * nat * T) :=
  mapi (fun i v => (start_of (eff_window body w (length xs)) i, i, v)) xs.

Lemma idx_run_unfold {T St O} body w (cb : St -> option nat * nat * T -> res (St * O)) s0 (xs : list T) :
  1 <= w -> idx_run body w cb s0 xs = seal (Done (run (lift_cb cb) (Ok s0) (idx_args body w xs))).
Proof.
  intros Hw. unfold idx_run, idx_args. destruct body; cbn [eff_window].
  - rewrite rolling_apply_idx_to_eq by exact Hw. reflexivity.
  - rewrite rolling_apply_idx_default_eq by exact Hw. reflexivity.
Qed.

Lemma idx_run_Done_iff {T St O} body w (cb : St -> option nat * nat * T -> res (St * O)) s0 (xs : list T) out :
  1 <= w ->
  (idx_run body w cb s0 xs = Done out <-> run (lift_cb cb) (Ok s0) (idx_args body w xs) = map Ok out).
Proof.
  intros Hw. rewrite idx_run_unfold by exact Hw. cbn [seal]. split.
  - destruct (collect (run (lift_cb cb) (Ok s0) (idx_args body w xs))) as [l'|pk] eqn:E; [|discriminate].
    intros H. injection H as <-. apply collect_Ok_inv. exact E.
  - intros ->. rewrite collect_map_Ok. reflexivity.
Qed.

Lemma idx_run_Done_length {T St O} body w (cb : St -> option nat * nat * T -> res (St * O)) s0 (xs : list T) out :
  1 <= w -> idx_run body w cb s0 xs = Done out -> length out = length xs.
Proof.
  intros Hw H. apply idx_run_Done_iff in H; [|exact Hw].
  apply (f_equal (@length _)) in H. rewrite run_length, map_length in H. unfold idx_args in H.
  rewrite mapi_length in H. symmetry. exact H.
Qed.

Lemma lift_out_Ok {St X O} (cb : St -> X -> res (St * O)) s a o :
  snd (lift_cb cb (Ok s) a) = Ok o -> exists s', cb s a = Ok (s', o).
Proof.
  cbn. destruct (cb s a) as [[s' o']|pk]; cbn; intros H; [|discriminate].
  injection H as ->. exists s'. reflexivity.
Qed.

Section RunPrefix.
  Context {T St O : Type}.
  Variables cb1 cb2 : St -> option nat * nat * T -> res (St * O).   (* prefix run / whole run *)
  Variable xs : list T.
  Variable k : nat.
  Variables sf1 sf2 : nat -> option nat.                             (* the start index passed at position e *)
  Variable Inv : nat -> St -> Prop.                                  (* about the state BEFORE position e *)
  Variable s0 : St.
  Let n := Nat.min k (length xs).
  Hypothesis Inv0 : Inv 0 s0.
  Hypothesis Hinner : forall e v s, S e < n -> nth_error xs e = Some v -> Inv e s ->
    sf1 e = sf2 e /\ cb1 s (sf2 e, e, v) = cb2 s (sf2 e, e, v) /\
    (forall s' o, cb2 s (sf2 e, e, v) = Ok (s', o) -> Inv (S e) s').
  Hypothesis Hlast : forall e v s s2 o, S e = n -> nth_error xs e = Some v -> Inv e s ->
    cb2 s (sf2 e, e, v) = Ok (s2, o) -> exists s1, cb1 s (sf1 e, e, v) = Ok (s1, o).

  Let A1 := mapi (fun i v => (sf1 i, i, v)) (firstn k xs).
  Let A2 := mapi (fun i v => (sf2 i, i, v)) xs.
  Variable out : list O.
  Hypothesis Hrun : run (lift_cb cb2) (Ok s0) A2 = map Ok out.

  Lemma rp_out_len : length out = length xs.
  Proof.
    pose proof (f_equal (@length _) Hrun) as H. rewrite run_length, map_length in H. unfold A2 in H.
    rewrite mapi_length in H. symmetry. exact H.
  Qed.

  Lemma rp_A1_nth e v : e < n -> nth_error xs e = Some v -> nth_error A1 e = Some (sf1 e, e, v).
  Proof.
    intros He Hv. unfold A1. rewrite nth_error_mapi, nth_error_firstn.
    replace (e <? k) with true by (symmetry; apply Nat.ltb_lt; unfold n in He; lia). rewrite Hv. reflexivity.
  Qed.
  Lemma rp_A2_nth e v : nth_error xs e = Some v -> nth_error A2 e = Some (sf2 e, e, v).
  Proof. intros Hv. unfold A2. rewrite nth_error_mapi, Hv. reflexivity. Qed.

  (* the whole run succeeded at position e and produced out[e] *)
  Lemma rp_whole_step e v s :
    nth_error xs e = Some v -> state_after (lift_cb cb2) (Ok s0) (firstn e A2) = Ok s ->
    exists s' o, cb2 s (sf2 e, e, v) = Ok (s', o) /\ nth_error out e = Some o.
  Proof.
    intros Hv Hs.
    pose proof (run_nth (lift_cb cb2) (Ok s0) A2 e (rp_A2_nth e v Hv)) as H.
    rewrite Hrun, Hs, nth_error_map in H.
    destruct (nth_error out e) as [o|] eqn:Eo; [|discriminate]. cbn [option_map] in H.
    injection H as H. symmetry in H. destruct (lift_out_Ok cb2 s _ o H) as [s' Hs']. eauto.
  Qed.

  Lemma rp_steps : forall e, e < n -> exists s,
      state_after (lift_cb cb2) (Ok s0) (firstn e A2) = Ok s /\
      state_after (lift_cb cb1) (Ok s0) (firstn e A1) = Ok s /\ Inv e s /\
      run (lift_cb cb1) (Ok s0) (firstn e A1) = map Ok (firstn e out).
  Proof.
    induction e as [|e IH]; intros He.
    - exists s0. repeat split; try reflexivity. exact Inv0.
    - destruct IH as (s & H2 & H1 & HI & HR); [lia|].
      destruct (nth_error_Some_lt xs e) as [v Hv]; [unfold n in He; lia|].
      destruct (rp_whole_step e v s Hv H2) as (s' & o & Hcb & Ho).
      destruct (Hinner e v s He Hv HI) as (Esf & Ecb & HI').
      pose proof (rp_A1_nth e v ltac:(lia) Hv) as Ha1. rewrite Esf in Ha1.
      pose proof (rp_A2_nth e v Hv) as Ha2.
      exists s'. rewrite (firstn_S_nth _ _ _ Ha1), (firstn_S_nth _ _ _ Ha2), (firstn_S_nth _ _ _ Ho).
      rewrite !state_after_app, run_app, H1, H2, HR, map_app.
      cbn [state_after run lift_cb fst map]. rewrite Ecb, Hcb. cbn [fst].
      repeat split; try reflexivity. apply (HI' s' o). exact Hcb.
  Qed.

  Theorem run_prefix_gen : run (lift_cb cb1) (Ok s0) A1 = map Ok (firstn k out).
  Proof.
    pose proof rp_out_len as HL.
    destruct (Nat.eq_dec n 0) as [En|Hn0].
    - unfold n in En. assert (E : firstn k xs = [] /\ firstn k out = []).
      { destruct k as [|k']; [split; reflexivity|]. destruct xs as [|x xs']; [|cbn in En; lia].
        destruct out; [split; reflexivity|discriminate]. }
      destruct E as [E1 E2]. unfold A1. rewrite E1, E2. reflexivity.
    - assert (En : n = S (n - 1)) by lia. set (m := n - 1) in *.
      destruct (rp_steps m) as (s & H2 & H1 & HI & HR); [lia|].
      destruct (nth_error_Some_lt xs m) as [v Hv]; [unfold n in En; lia|].
      destruct (rp_whole_step m v s Hv H2) as (s' & o & Hcb & Ho).
      destruct (Hlast m v s s' o (eq_sym En) Hv HI Hcb) as (s1 & Hcb1).
      pose proof (rp_A1_nth m v ltac:(lia) Hv) as Ha1.
      assert (EA : firstn (S m) A1 = A1).
      { apply firstn_all2. unfold A1. rewrite mapi_length, firstn_length. unfold n in En. lia. }
      assert (EO : firstn (S m) out = firstn k out).
      { unfold n in En. destruct (Nat.le_gt_cases k (length xs)) as [Hk|Hk].
        - replace k with (S m) by lia. reflexivity.
        - rewrite !firstn_all2 by lia. reflexivity. }
      rewrite <- EA, <- EO, (firstn_S_nth _ _ _ Ha1), (firstn_S_nth _ _ _ Ho).
      rewrite run_app, H1, HR, map_app. cbn [run lift_cb map]. rewrite Hcb1. reflexivity.
  Qed.
End RunPrefix.

(* both driver bodies, two callbacks and two driver windows (the cmp family clamps its window to the length, so
   the prefix run and the whole run may be driven with different windows and different callback parameters) *)
Theorem idx_run_prefix_gen {T St O} (cb1 cb2 : St -> option nat * nat * T -> res (St * O))
        (xs : list T) (k : nat) (body : bool) (w1 w2 : nat) (Inv : nat -> St -> Prop) (s0 : St) (out : list O) :
  1 <= w1 -> 1 <= w2 ->
  let n := Nat.min k (length xs) in
  let sf1 := start_of (eff_window body w1 n) in
  let sf2 := start_of (eff_window body w2 (length xs)) in
  Inv 0 s0 ->
  (forall e v s, S e < n -> nth_error xs e = Some v -> Inv e s ->
     sf1 e = sf2 e /\ cb1 s (sf2 e, e, v) = cb2 s (sf2 e, e, v) /\
     (forall s' o, cb2 s (sf2 e, e, v) = Ok (s', o) -> Inv (S e) s')) ->
  (forall e v s s2 o, S e = n -> nth_error xs e = Some v -> Inv e s ->
     cb2 s (sf2 e, e, v) = Ok (s2, o) -> exists s1, cb1 s (sf1 e, e, v) = Ok (s1, o)) ->
  idx_run body w2 cb2 s0 xs = Done out -> idx_run body w1 cb1 s0 (firstn k xs) = Done (firstn k out).
Proof.
  intros Hw1 Hw2 n sf1 sf2 H0 Hin Hl Hrun.
  apply idx_run_Done_iff in Hrun; [|exact Hw2]. apply idx_run_Done_iff; [exact Hw1|].
  unfold idx_args in *. rewrite firstn_length. fold n. fold sf1. fold sf2 in Hrun.
  exact (run_prefix_gen cb1 cb2 xs k sf1 sf2 Inv s0 H0 Hin Hl out Hrun).
Qed.

(* the start indices of a prefix run and of the whole run: equal everywhere when the driver window fits into the
   prefix (or the cut is not a proper one); otherwise ("warm-up cut") every position of the prefix has start None
   in the whole run, and so has the prefix run except at its last position, where the start is Some 0 *)
Lemma start_of_fit W n len e : W <= n -> n <= len -> start_of (Nat.min W n) e = start_of (Nat.min W len) e.
Proof. intros H1 H2. rewrite !Nat.min_l by lia. reflexivity. Qed.

Lemma start_of_none W e : S e < W -> start_of W e = None.
Proof. intros H. unfold start_of. replace (e <? W - 1) with true by (symmetry; apply Nat.ltb_lt; lia). reflexivity. Qed.
Lemma start_of_last n : 1 <= n -> start_of n (n - 1) = Some 0.
Proof.
  intros H. unfold start_of. replace (n - 1 <? n - 1) with false by (symmetry; apply Nat.ltb_ge; lia).
  rewrite Nat.sub_diag. reflexivity.
Qed.

(* what a start index handed over by a driver satisfies *)
Definition start_le (st : option nat) (e : nat) : Prop := match st with Some j => j <= e | None => True end.
Lemma start_of_le W e : start_le (start_of W e) e.
Proof. unfold start_of, start_le. destruct (e <? W - 1); [exact I|lia]. Qed.

(* ---- the rule in the shape the families need ---------------------------------------------------------- *)
(* c1 / c2: the callback of the prefix run / of the whole run as functions of the series they may read.
   Either the two runs are driven alike (window fits into the prefix) and the callbacks agree, or the cut is a
   warm-up cut, where an invariant of the warm-up states must give the agreement of the OUTPUT of the last call
   (start Some 0 in the prefix run, None in the whole run). *)
Theorem family_prefix {T St O} (c1 c2 : list T -> St -> option nat * nat * T -> res (St * O))
        (xs : list T) (k : nat) (body : bool) (w1 w2 : nat) (Inv : nat -> St -> Prop) (s0 : St) (out : list O) :
  1 <= w1 -> 1 <= w2 ->
  let n := Nat.min k (length xs) in
  let W1 := eff_window body w1 n in
  let W2 := eff_window body w2 (length xs) in
  (forall s st e v, e < k -> start_le st e -> c1 (firstn k xs) s (st, e, v) = c1 xs s (st, e, v)) ->
  ((W1 = W2 /\ forall s st e v, e < n -> c1 xs s (st, e, v) = c2 xs s (st, e, v))
   \/
   (W1 = n /\ n < W2 /\ Inv 0 s0 /\
    (forall e v s, S e < n -> nth_error xs e = Some v -> Inv e s ->
       c1 xs s (None, e, v) = c2 xs s (None, e, v) /\
       (forall s' o, c2 xs s (None, e, v) = Ok (s', o) -> Inv (S e) s')) /\
    (forall e v s s2 o, S e = n -> nth_error xs e = Some v -> Inv e s ->
       c2 xs s (None, e, v) = Ok (s2, o) -> exists s1, c1 xs s (Some 0, e, v) = Ok (s1, o)))) ->
  idx_run body w2 (c2 xs) s0 xs = Done out ->
  idx_run body w1 (c1 (firstn k xs)) s0 (firstn k xs) = Done (firstn k out).
Proof.
  intros Hw1 Hw2 n W1 W2 Hloc Hcase Hrun.
  assert (Hnk : n <= k) by (unfold n; lia).
  destruct Hcase as [[EW Hag]|(EW & HW2 & H0 & Hin & Hl)].
  - apply (idx_run_prefix_gen (c1 (firstn k xs)) (c2 xs) xs k body w1 w2 (fun _ _ => True) s0 out Hw1 Hw2);
      [exact I| | |exact Hrun]; fold n; fold W1; fold W2; rewrite EW.
    + intros e v s He Hv _. split; [reflexivity|]. split; [|intros; exact I].
      rewrite Hloc by (try apply start_of_le; lia). apply Hag. lia.
    + intros e v s s2 o He Hv _ Hc. exists s2.
      rewrite Hloc by (try apply start_of_le; lia). rewrite Hag by lia. exact Hc.
  - apply (idx_run_prefix_gen (c1 (firstn k xs)) (c2 xs) xs k body w1 w2 Inv s0 out Hw1 Hw2);
      [exact H0| | |exact Hrun]; fold n; fold W1; fold W2; rewrite EW.
    + intros e v s He Hv HI. rewrite !start_of_none by lia. split; [reflexivity|].
      rewrite Hloc by (try exact I; lia). apply Hin; assumption.
    + intros e v s s2 o He Hv HI. rewrite (start_of_none W2) by lia.
      assert (E1 : start_of n e = Some 0) by (replace e with (n - 1) by lia; apply start_of_last; lia).
      rewrite E1. intros Hc.
      rewrite Hloc by (cbn [start_le]; lia). apply (Hl e v s s2 o He Hv HI Hc).
Qed.

Lemma uget_lt {T} (xs : list T) i : i < length xs -> exists v, nth_error xs i = Some v /\ uget xs i = Ok v.
Proof. intros H. destruct (nth_error_Some_lt xs i H) as [v Hv]. exists v. split; [exact Hv|apply uget_nth; exact Hv]. Qed.
Lemma uget_inv {T} (xs : list T) i v : uget xs i = Ok v -> nth_error xs i = Some v.
Proof. unfold uget. destruct (nth_error xs i); intros H; [injection H as ->; reflexivity|discriminate]. Qed.

Lemma uget_firstn {T} (xs : list T) k i : i < k -> uget (firstn k xs) i = uget xs i.
Proof.
  intros H. unfold uget. rewrite nth_error_firstn.
  replace (i <? k) with true by (symmetry; apply Nat.ltb_lt; exact H). reflexivity.
Qed.

Lemma opt_lt_none a : opt_lt a None = false.
Proof. destruct a; reflexivity. Qed.

(* ---- checked scans -------------------------------------------------------------------------------------
   The rescanning loops of cmp.rs / norm.rs (rescan, rank_loop, scan_max, scan_min, scan_both) are left folds over
   the positions i .. i+cnt-1, each read through `uget`: what they have in common is proved for `scanf`. *)
Section Scan.
  Context {T St : Type}.
  Variable step : nat -> T -> St -> St.

  Fixpoint scanf (xs : list T) (i cnt : nat) (s : St) : res St :=
    match cnt with
    | 0 => Ok s
    | S c => do v <- uget xs i; scanf xs (S i) c (step i v s)
    end.

  Lemma scanf_firstn xs k : forall cnt i s, i + cnt <= k -> scanf (firstn k xs) i cnt s = scanf xs i cnt s.
  Proof.
    induction cnt as [|c IH]; intros i s H; [reflexivity|]. cbn [scanf].
    rewrite uget_firstn by lia. destruct (uget xs i) as [v|pk]; [|reflexivity]. cbn [bind]. apply IH. lia.
  Qed.

  Lemma scanf_ok xs : forall cnt i s, i + cnt <= length xs -> exists r, scanf xs i cnt s = Ok r.
  Proof.
    induction cnt as [|c IH]; intros i s H; [eexists; reflexivity|]. cbn [scanf].
    destruct (uget_lt xs i) as (v & _ & ->); [lia|]. cbn [bind]. apply IH. lia.
  Qed.
End Scan.

Section CmpLocal.
  Context {A : Type} {NA : Num A} {T : Type} {DT : IsNone T A}.
  Variable scmp : option A -> option A -> comparison.
  Variable xs : list T.
  Variable k : nat.

  Definition rescan_step (i : nat) (v : T) (s : option A * option nat) : option A * option nat :=
    if takes (scmp (to_opt v) (fst s)) then (to_opt v, Some i) else s.

  Lemma rescan_scanf (l : list T) : forall cnt i m mi,
    rescan scmp l i cnt m mi = scanf rescan_step l i cnt (m, mi).
  Proof.
    induction cnt as [|c IH]; intros i m mi; [reflexivity|]. cbn [rescan scanf].
    destruct (uget l i) as [v|pk]; [|reflexivity]. cbn [bind].
    change (rescan_step i v (m, mi)) with (if takes (scmp (to_opt v) m) then (to_opt v, Some i) else (m, mi)).
    destruct (takes (scmp (to_opt v) m)); apply IH.
  Qed.

  Lemma ext_step_firstn s st e v : e < k -> start_le st e ->
    ext_step scmp (firstn k xs) s st e v = ext_step scmp xs s st e v.
  Proof.
    intros He Hs. destruct st as [j|]; [|reflexivity]. cbn [start_le] in Hs.
    unfold ext_step. cbv zeta. rewrite uget_firstn by lia.
    destruct (opt_lt _ _); [|reflexivity]. destruct (uget xs j) as [v0|pk]; [|reflexivity]. cbn [bind].
    rewrite !rescan_scanf, scanf_firstn by lia. reflexivity.
  Qed.

  Lemma ext_post_firstn s st e : e < k -> start_le st e ->
    ext_post (firstn k xs) s st = ext_post xs s st.
  Proof.
    intros He Hs. destruct st as [j|]; [|reflexivity]. cbn [start_le] in Hs.
    unfold ext_post. rewrite uget_firstn by lia. reflexivity.
  Qed.

  (* the shape of the two callbacks of this family: ext_step, an output computed from the new state and
     start.unwrap_or(0), then ext_post *)
  Definition ext_cb {O} (outf : @ext A -> nat -> res O) (l : list T) (s : @ext A) (a : option nat * nat * T)
    : res (@ext A * O) :=
    let '(st, e, v) := a in
    do s1 <- ext_step scmp l s st e v;
    do out <- outf s1 (match st with Some j => j | None => 0 end);
    do s2 <- ext_post l s1 st;
    Ok (s2, out).

  Definition vext_out (mp : nat) (s1 : @ext A) (_ : nat) : res (option A) :=
    Ok (if mp <=? x_n s1 then x_val s1 else None).
  Definition varg_out (mp : nat) (s1 : @ext A) (st0 : nat) : res (option nat) :=
    if (mp <=? x_n s1) && (match x_val s1 with Some _ => true | None => false end) then
      match x_idx s1 with
      | Some mi => do d <- usub mi st0; Ok (Some (d + 1))
      | None => Ok None
      end
    else Ok None.

  Lemma vext_cb_ext mp l s a : vext_cb scmp mp l s a = ext_cb (vext_out mp) l s a.
  Proof.
    destruct a as [[st e] v]. unfold vext_cb, ext_cb. destruct (ext_step scmp l s st e v); reflexivity.
  Qed.
  Lemma varg_cb_ext mp l s a : varg_cb scmp mp l s a = ext_cb (varg_out mp) l s a.
  Proof. destruct a as [[st e] v]. reflexivity. Qed.

  Lemma ext_cb_firstn {O} (outf : @ext A -> nat -> res O) s st e v : e < k -> start_le st e ->
    ext_cb outf (firstn k xs) s (st, e, v) = ext_cb outf xs s (st, e, v).
  Proof.
    intros He Hs. unfold ext_cb. rewrite ext_step_firstn by assumption.
    destruct (ext_step scmp xs s st e v) as [s1|pk]; [|reflexivity]. cbn [bind].
    rewrite (ext_post_firstn s1 st e) by assumption. reflexivity.
  Qed.
End CmpLocal.

Section RankLocal.
  Context {A : Type} {NA : Num A} {T : Type} {DT : IsNone T A} {B : Type} {NB : Num B}.
  Variable xs : list T.
  Variable k : nat.

  Definition rank_step (x : A) (i : nat) (a : T) (s : B * nat) : B * nat :=
    if not_none a then
      if nltb (unwrap a) x then (fst s + none, snd s)%num
      else if neqb (unwrap a) x then (fst s, S (snd s)) else s
    else s.

  Lemma rank_loop_scanf (l : list T) x : forall cnt i (rank : B) nrep,
    rank_loop l x i cnt rank nrep = scanf (rank_step x) l i cnt (rank, nrep).
  Proof.
    induction cnt as [|c IH]; intros i rank nrep; [reflexivity|]. cbn [rank_loop scanf].
    destruct (uget l i) as [a|pk]; [|reflexivity]. cbn [bind]. unfold rank_step at 2. cbn [fst snd].
    destruct (not_none a); [|apply IH].
    destruct (nltb (unwrap a) x); [apply IH|]. destruct (neqb (unwrap a) x); apply IH.
  Qed.

  Lemma vrank_cb_firstn mp wm1 pct rev (s : nat) st e v : e < k -> start_le st e ->
    vrank_cb (B := B) mp wm1 pct rev (firstn k xs) s (st, e, v) = vrank_cb mp wm1 pct rev xs s (st, e, v).
  Proof.
    intros He Hs. unfold vrank_cb.
    rewrite !rank_loop_scanf, scanf_firstn by (destruct st; cbn [start_le] in Hs; lia).
    destruct st as [j|]; [|reflexivity]. cbn [start_le] in Hs. rewrite uget_firstn by lia. reflexivity.
  Qed.
End RankLocal.

Section NormLocal.
  Context {A : Type} {NA : Num A} {T : Type} {DT : IsNone T A}.
  Variables tmin tmax : A.
  Variable xs : list T.
  Variable k : nat.

  Definition scan_max_step (i : nat) (v : T) (s : A * nat) : A * nat :=
    if not_none v then if nleb (fst s) (unwrap v) then (unwrap v, i) else s else s.
  Definition scan_min_step (i : nat) (v : T) (s : A * nat) : A * nat :=
    if not_none v then if nleb (unwrap v) (fst s) then (unwrap v, i) else s else s.
  Definition scan_both_step (i : nat) (v : T) (s : A * nat * (A * nat)) : A * nat * (A * nat) :=
    (scan_max_step i v (fst s), scan_min_step i v (snd s)).

  Lemma scan_max_scanf (l : list T) : forall cnt i mx mxi,
    scan_max l i cnt mx mxi = scanf scan_max_step l i cnt (mx, mxi).
  Proof.
    induction cnt as [|c IH]; intros i mx mxi; [reflexivity|]. cbn [scan_max scanf].
    destruct (uget l i) as [v|pk]; [|reflexivity]. cbn [bind]. unfold scan_max_step at 2. cbn [fst].
    destruct (not_none v); [|apply IH]. destruct (nleb mx (unwrap v)); apply IH.
  Qed.
  Lemma scan_min_scanf (l : list T) : forall cnt i mn mni,
    scan_min l i cnt mn mni = scanf scan_min_step l i cnt (mn, mni).
  Proof.
    induction cnt as [|c IH]; intros i mn mni; [reflexivity|]. cbn [scan_min scanf].
    destruct (uget l i) as [v|pk]; [|reflexivity]. cbn [bind]. unfold scan_min_step at 2. cbn [fst].
    destruct (not_none v); [|apply IH]. destruct (nleb (unwrap v) mn); apply IH.
  Qed.
  Lemma scan_both_scanf (l : list T) : forall cnt i mx mxi mn mni,
    scan_both l i cnt mx mxi mn mni = scanf scan_both_step l i cnt (mx, mxi, (mn, mni)).
  Proof.
    induction cnt as [|c IH]; intros i mx mxi mn mni; [reflexivity|]. cbn [scan_both scanf].
    destruct (uget l i) as [v|pk]; [|reflexivity]. cbn [bind].
    unfold scan_both_step at 2, scan_max_step, scan_min_step. cbn [fst snd].
    destruct (not_none v); [|apply IH]. destruct (nleb mx (unwrap v)), (nleb (unwrap v) mn); apply IH.
  Qed.

  Lemma mm_research_firstn s st e : e < k -> start_le st e ->
    mm_research tmin tmax (firstn k xs) s st e = mm_research tmin tmax xs s st e.
  Proof.
    intros He Hs. destruct st as [j|]; [|reflexivity]. cbn [start_le] in Hs. unfold mm_research.
    rewrite !scan_max_scanf, !scan_min_scanf, !scan_both_scanf, !scanf_firstn by lia. reflexivity.
  Qed.

  Lemma mmnorm_cb_firstn mp s st e v : e < k -> start_le st e ->
    mmnorm_cb tmin tmax mp (firstn k xs) s (st, e, v) = mmnorm_cb tmin tmax mp xs s (st, e, v).
  Proof.
    intros He Hs. unfold mmnorm_cb. rewrite mm_research_firstn by assumption.
    destruct st as [j|]; [|reflexivity]. cbn [start_le] in Hs. rewrite uget_firstn by lia. reflexivity.
  Qed.
End NormLocal.

(* ---- warm-up cuts: the states reached while every start index was None -------------------------------- *)
(* `cnt_ok xs m`: the counter m is at least 1 when the first element of the series is non-null — what the
   post step of a call with start = Some 0 needs (n -= 1 on usize) *)
Definition cnt_ok {T A} {DT : IsNone T A} (xs : list T) (m : nat) : Prop :=
  forall v0, nth_error xs 0 = Some v0 -> not_none v0 = true -> 1 <= m.

Lemma uget_0_ok {T} (xs : list T) e v : nth_error xs e = Some v -> exists v0, nth_error xs 0 = Some v0.
Proof. intros H. destruct xs as [|x xs']; [destruct e; discriminate|]. exists x. reflexivity. Qed.

Section ExtWarm.
  Context {A : Type} {NA : Num A} {T : Type} {DT : IsNone T A}.
  Variable scmp : option A -> option A -> comparison.
  Hypothesis scmp_nn : takes (scmp None None) = true.
  Variable xs : list T.

  Definition inv_ext (e : nat) (s : @ext A) : Prop :=
    (e = 0 -> s = ext0) /\ (1 <= e -> x_idx s <> None /\ cnt_ok xs (x_n s)).

  (* the closure's first statements: count the new element, adopt it when nothing is cached *)
  Definition bump (s : @ext A) (e : nat) (v : T) : @ext A :=
    match to_opt v with
    | Some _ => match x_idx s with
                | None => {| x_val := to_opt v; x_idx := Some e; x_n := S (x_n s) |}
                | Some _ => {| x_val := x_val s; x_idx := x_idx s; x_n := S (x_n s) |}
                end
    | None => s
    end.
  Definition step_none (s : @ext A) (e : nat) (v : T) : @ext A :=
    if takes (scmp (to_opt v) (x_val (bump s e v)))
    then {| x_val := to_opt v; x_idx := Some e; x_n := x_n (bump s e v) |} else bump s e v.

  Lemma ext_step_none s e v : ext_step scmp xs s None e v = Ok (step_none s e v).
  Proof.
    unfold ext_step, step_none, bump. cbv zeta. rewrite opt_lt_none. match goal with |- context [takes ?c] => destruct (takes c) end; reflexivity.
  Qed.

  Lemma ext_step_some0 s e v : inv_ext e s -> nth_error xs e = Some v ->
    ext_step scmp xs s (Some 0) e v = Ok (step_none s e v).
  Proof.
    intros [I0 I1] Hv. unfold ext_step, step_none, bump. cbv zeta.
    destruct (to_opt v) as [a|] eqn:Ev.
    - destruct (x_idx s) as [j|] eqn:Ej; cbn [x_idx x_val x_n opt_lt].
      + replace (j <? 0) with false by (symmetry; apply Nat.ltb_ge; lia). match goal with |- context [takes ?c] => destruct (takes c) end; reflexivity.
      + replace (e <? 0) with false by (symmetry; apply Nat.ltb_ge; lia). match goal with |- context [takes ?c] => destruct (takes c) end; reflexivity.
    - destruct (x_idx s) as [j|] eqn:Ej; cbn [opt_lt].
      + replace (j <? 0) with false by (symmetry; apply Nat.ltb_ge; lia). match goal with |- context [takes ?c] => destruct (takes c) end; reflexivity.
      + destruct e as [|e]; [|exfalso; destruct (I1 ltac:(lia)) as [H _]; apply H; reflexivity].
        rewrite (I0 eq_refl) in *. cbn [x_val x_idx x_n ext0 Nat.sub rescan]. unfold uget. rewrite Hv. cbn [bind].
        rewrite Ev, scmp_nn. reflexivity.
  Qed.

  Lemma bump_n s e v : x_n s <= x_n (bump s e v) /\ (not_none v = true -> 1 <= x_n (bump s e v)).
  Proof.
    unfold bump, to_opt, not_none. destruct (is_none v); cbn [negb].
    - split; [lia|discriminate].
    - destruct (x_idx s); cbn [x_n]; split; lia.
  Qed.
  Lemma step_none_n s e v : x_n (step_none s e v) = x_n (bump s e v).
  Proof. unfold step_none. match goal with |- context [takes ?c] => destruct (takes c) end; reflexivity. Qed.

  Lemma inv_ext_step s e v : inv_ext e s -> nth_error xs e = Some v -> inv_ext (S e) (step_none s e v).
  Proof.
    intros [I0 I1] Hv. split; [discriminate|]. intros _. split.
    - unfold step_none. match goal with |- context [takes ?c] => destruct (takes c) eqn:Et end; [discriminate|]. unfold bump in *.
      destruct (to_opt v) as [a|] eqn:Ev.
      + destruct (x_idx s) eqn:Ej; cbn [x_idx]; discriminate.
      + destruct e as [|e]; [|apply I1; lia].
        rewrite (I0 eq_refl) in Et. cbn [x_val ext0] in Et. rewrite scmp_nn in Et. discriminate.
    - rewrite step_none_n. intros v0 H0 Hn0. destruct (bump_n s e v) as [B1 B2].
      destruct e as [|e].
      + rewrite Hv in H0. injection H0 as <-. apply B2. exact Hn0.
      + destruct (I1 ltac:(lia)) as [_ Hc]. specialize (Hc v0 H0 Hn0). lia.
  Qed.

  Lemma ext_post_some0 (s1 : @ext A) e v : nth_error xs e = Some v -> cnt_ok xs (x_n s1) ->
    exists s', ext_post xs s1 (Some 0) = Ok s'.
  Proof.
    intros Hv Hc. destruct (uget_0_ok xs e v Hv) as [v0 H0]. unfold ext_post, uget. rewrite H0. cbn [bind].
    destruct (not_none v0) eqn:En; [|eauto]. specialize (Hc v0 H0 En). unfold usub.
    replace (1 <=? x_n s1) with true by (symmetry; apply Nat.leb_le; exact Hc). cbn [bind]. eauto.
  Qed.

  (* what family_prefix asks for in a warm-up cut; start None and Some 0 give the output function the same 0 *)
  Lemma ext_warm_inner {O} (outf : @ext A -> nat -> res O) e v s : nth_error xs e = Some v -> inv_ext e s ->
    forall s' o, ext_cb scmp outf xs s (None, e, v) = Ok (s', o) -> inv_ext (S e) s'.
  Proof.
    intros Hv HI s' o H. unfold ext_cb in H. rewrite ext_step_none in H. cbn [bind ext_post] in H.
    destruct (outf _ _) as [oo|pk] in H; [|discriminate]. cbn [bind] in H.
    injection H as <- _. apply inv_ext_step; assumption.
  Qed.
  Lemma ext_warm_last {O} (outf : @ext A -> nat -> res O) e v s s2 o : nth_error xs e = Some v -> inv_ext e s ->
    ext_cb scmp outf xs s (None, e, v) = Ok (s2, o) -> exists s1, ext_cb scmp outf xs s (Some 0, e, v) = Ok (s1, o).
  Proof.
    intros Hv HI H. unfold ext_cb in *. rewrite ext_step_none in H. rewrite (ext_step_some0 s e v HI Hv).
    cbn [bind ext_post] in H. cbn [bind].
    destruct (outf _ _) as [oo|pk] in H |- *; [|discriminate]. cbn [bind] in *.
    injection H as _ <-.
    destruct (ext_post_some0 (step_none s e v) e v Hv) as [s' Hs'].
    { destruct (inv_ext_step s e v HI Hv) as [_ H1]. apply H1. lia. }
    rewrite Hs'. cbn [bind]. eauto.
  Qed.

  Lemma inv_ext_0 : inv_ext 0 ext0.
  Proof. split; [reflexivity|intros H; inversion H]. Qed.
End ExtWarm.

Section RankWarm.
  Context {A : Type} {NA : Num A} {T : Type} {DT : IsNone T A} {B : Type} {NB : Num B}.
  Variable xs : list T.

  Definition inv_cnt (e : nat) (m : nat) : Prop := 1 <= e -> cnt_ok xs m.

  (* the part of the closure before the removal: (new count, output) *)
  Definition rank_head (mp : nat) (pct rev : bool) (m : nat) (st : option nat) (e : nat) (v : T) : res (nat * B) :=
    do r <- (if not_none v then
               let from := match st with Some j => j | None => 0 end in
               do rr <- rank_loop xs (unwrap v) from (e - from) none 1;
               Ok (S m, fst rr, snd rr)
             else Ok (m, nnan, 1));
    let '(n1, rank, nrep) := r in Ok (n1, rank_out mp pct rev n1 rank nrep).

  Lemma vrank_cb_head mp wm1 pct rev m st e v :
    vrank_cb mp wm1 pct rev xs m (st, e, v) =
    do h <- rank_head mp pct rev m st e v;
    do n2 <- (if wm1 <=? e then
                match st with
                | None => Panic UnwrapNone
                | Some j => do v0 <- uget xs j; if not_none v0 then usub (fst h) 1 else Ok (fst h)
                end
              else Ok (fst h));
    Ok (n2, snd h).
  Proof.
    unfold vrank_cb, rank_head.
    destruct (not_none v); cbn [bind].
    - destruct (rank_loop _ _ _ _ _ _) as [rr|pk]; reflexivity.
    - reflexivity.
  Qed.

  Lemma rank_head_start mp pct rev m e v :
    rank_head mp pct rev m (Some 0) e v = rank_head mp pct rev m None e v.
  Proof. reflexivity. Qed.

  Lemma rank_head_n mp pct rev m st e v h :
    rank_head mp pct rev m st e v = Ok h -> m <= fst h /\ (not_none v = true -> 1 <= fst h).
  Proof.
    unfold rank_head. destruct (not_none v); cbn [bind].
    - destruct (rank_loop _ _ _ _ _ _) as [rr|pk]; cbn [bind]; [|discriminate].
      intros H. injection H as <-. cbn [fst]. split; lia.
    - intros H. injection H as <-. cbn [fst]. split; [lia|discriminate].
  Qed.

  Lemma inv_cnt_step mp pct rev m e v h : inv_cnt e m -> nth_error xs e = Some v ->
    rank_head mp pct rev m None e v = Ok h -> inv_cnt (S e) (fst h).
  Proof.
    intros HI Hv Hh _ v0 H0 Hn0. destruct (rank_head_n _ _ _ _ _ _ _ _ Hh) as [B1 B2].
    destruct e as [|e].
    - rewrite Hv in H0. injection H0 as <-. apply B2. exact Hn0.
    - specialize (HI ltac:(lia) v0 H0 Hn0). lia.
  Qed.

  (* inner positions of a warm-up cut: e is below both thresholds, so neither run removes anything *)
  Lemma vrank_warm_inner mp wa wb pct rev e v m : S e <= wa -> S e <= wb ->
    nth_error xs e = Some v -> inv_cnt e m ->
    vrank_cb (B := B) mp wa pct rev xs m (None, e, v) = vrank_cb mp wb pct rev xs m (None, e, v) /\
    forall s' o, vrank_cb (B := B) mp wb pct rev xs m (None, e, v) = Ok (s', o) -> inv_cnt (S e) s'.
  Proof.
    intros Ha Hb Hv HI. rewrite !vrank_cb_head.
    replace (wa <=? e) with false by (symmetry; apply Nat.leb_gt; lia).
    replace (wb <=? e) with false by (symmetry; apply Nat.leb_gt; lia).
    split; [reflexivity|]. intros s' o H.
    destruct (rank_head mp pct rev m None e v) as [h|pk] eqn:Eh; [|discriminate]. cbn [bind] in H.
    injection H as <- _. apply (inv_cnt_step mp pct rev m e v h HI Hv Eh).
  Qed.

  Lemma vrank_warm_last mp wb pct rev e v m s2 o : S e <= wb ->
    nth_error xs e = Some v -> inv_cnt e m ->
    vrank_cb (B := B) mp wb pct rev xs m (None, e, v) = Ok (s2, o) ->
    exists s1, vrank_cb (B := B) mp e pct rev xs m (Some 0, e, v) = Ok (s1, o).
  Proof.
    intros Hb Hv HI H. rewrite vrank_cb_head in *. rewrite rank_head_start.
    replace (wb <=? e) with false in H by (symmetry; apply Nat.leb_gt; lia).
    rewrite Nat.leb_refl.
    destruct (rank_head mp pct rev m None e v) as [h|pk] eqn:Eh; [|discriminate]. cbn [bind] in *.
    injection H as _ <-.
    destruct (uget_0_ok xs e v Hv) as [v0 H0]. unfold uget. rewrite H0. cbn [bind].
    destruct (not_none v0) eqn:En; [|cbn [bind]; eauto].
    pose proof (inv_cnt_step mp pct rev m e v h HI Hv Eh ltac:(lia) v0 H0 En) as Hc. unfold usub.
    replace (1 <=? fst h) with true by (symmetry; apply Nat.leb_le; exact Hc). cbn [bind]. eauto.
  Qed.

  Lemma inv_cnt_0 : inv_cnt 0 0.
  Proof. intros H. lia. Qed.
End RankWarm.

Section NormWarm.
  Context {A : Type} {NA : Num A} {T : Type} {DT : IsNone T A}.
  Variables tmin tmax : A.
  Variable xs : list T.
  Local Open Scope num_scope.

  Definition inv_mm (e : nat) (s : @mm A) : Prop := (1 <= e)%nat -> cnt_ok xs (mm_n s).

  (* the update by the current element and the output: no read of the series *)
  Definition mm_head (mp : nat) (s1 : @mm A) (e : nat) (v : T) : @mm A * A :=
    if not_none v then
      let x := unwrap v in
      let n := S (mm_n s1) in
      let '(mx, mxi) := if nleb (mm_max s1) x then (x, e) else (mm_max s1, mm_maxi s1) in
      let '(mn, mni) := if nleb x (mm_min s1) then (x, e) else (mm_min s1, mm_mini s1) in
      ({| mm_max := mx; mm_maxi := mxi; mm_min := mn; mm_mini := mni; mm_n := n |},
       if (mp <=? n)%nat && negb (neqb mx mn) then (x - mn) / (mx - mn) else nnan)
    else (s1, nnan).

  Lemma mm_head_n mp s1 e v : (mm_n s1 <= mm_n (fst (mm_head mp s1 e v)))%nat /\
                              (not_none v = true -> (1 <= mm_n (fst (mm_head mp s1 e v)))%nat).
  Proof.
    unfold mm_head. destruct (not_none v).
    - destruct (nleb (mm_max s1) (unwrap v)), (nleb (unwrap v) (mm_min s1)); cbn [fst mm_n]; split; lia.
    - cbn [fst]. split; [lia|discriminate].
  Qed.

  (* the closure after the re-search, then mm_head, then the count of the removed element *)
  Lemma mmnorm_cb_unfold mp s st e v :
    mmnorm_cb tmin tmax mp xs s (st, e, v) =
    do s1 <- mm_research tmin tmax xs s st e;
    let h := mm_head mp s1 e v in
    do s3 <- (match st with
              | None => Ok (fst h)
              | Some j =>
                  do v0 <- uget xs j;
                  if not_none v0 then
                    do n' <- usub (mm_n (fst h)) 1;
                    Ok {| mm_max := mm_max (fst h); mm_maxi := mm_maxi (fst h); mm_min := mm_min (fst h);
                          mm_mini := mm_mini (fst h); mm_n := n' |}
                  else Ok (fst h)
              end);
    Ok (s3, snd h).
  Proof.
    unfold mmnorm_cb. destruct (mm_research tmin tmax xs s st e) as [s1|pk]; [|reflexivity]. cbn [bind].
    unfold mm_head. destruct (not_none v); [|reflexivity].
    destruct (nleb (mm_max s1) (unwrap v)), (nleb (unwrap v) (mm_min s1)); reflexivity.
  Qed.

  Lemma mmnorm_cb_none mp s e v :
    mmnorm_cb tmin tmax mp xs s (None, e, v) = Ok (mm_head mp s e v).
  Proof. rewrite mmnorm_cb_unfold. unfold mm_research. cbn [bind]. destruct (mm_head mp s e v); reflexivity. Qed.

  Lemma mm_research_some0 s e : mm_research tmin tmax xs s (Some 0) e = Ok s.
  Proof.
    unfold mm_research.
    replace (mm_maxi s <? 0)%nat with false by (symmetry; apply Nat.ltb_ge; lia).
    replace (mm_mini s <? 0)%nat with false by (symmetry; apply Nat.ltb_ge; lia). reflexivity.
  Qed.

  Lemma inv_mm_step mp s e v : inv_mm e s -> nth_error xs e = Some v -> inv_mm (S e) (fst (mm_head mp s e v)).
  Proof.
    intros HI Hv _ v0 H0 Hn0. destruct (mm_head_n mp s e v) as [B1 B2]. destruct e as [|e].
    - rewrite Hv in H0. injection H0 as <-. apply B2. exact Hn0.
    - specialize (HI ltac:(lia) v0 H0 Hn0). lia.
  Qed.

  Lemma mmnorm_warm_inner mp e v s : nth_error xs e = Some v -> inv_mm e s ->
    forall s' o, mmnorm_cb tmin tmax mp xs s (None, e, v) = Ok (s', o) -> inv_mm (S e) s'.
  Proof.
    intros Hv HI s' o H. rewrite mmnorm_cb_none in H. injection H as H.
    replace s' with (fst (mm_head mp s e v)) by (rewrite H; reflexivity). apply inv_mm_step; assumption.
  Qed.

  Lemma mmnorm_cb_some0 mp s e v :
    mmnorm_cb tmin tmax mp xs s (Some 0, e, v) =
    let h := mm_head mp s e v in
    do s3 <- (do v0 <- uget xs 0;
              if not_none v0 then
                do n' <- usub (mm_n (fst h)) 1;
                Ok {| mm_max := mm_max (fst h); mm_maxi := mm_maxi (fst h); mm_min := mm_min (fst h);
                      mm_mini := mm_mini (fst h); mm_n := n' |}
              else Ok (fst h));
    Ok (s3, snd h).
  Proof. rewrite mmnorm_cb_unfold, mm_research_some0. reflexivity. Qed.

  Lemma mmnorm_warm_last mp e v s s2 o : nth_error xs e = Some v -> inv_mm e s ->
    mmnorm_cb tmin tmax mp xs s (None, e, v) = Ok (s2, o) ->
    exists s1, mmnorm_cb tmin tmax mp xs s (Some 0, e, v) = Ok (s1, o).
  Proof.
    intros Hv HI H. rewrite mmnorm_cb_none in H. injection H as H.
    pose proof (inv_mm_step mp s e v HI Hv) as HI'.
    rewrite mmnorm_cb_some0. cbv zeta. rewrite H in *. cbn [fst snd] in *.
    destruct (uget_0_ok xs e v Hv) as [v0 H0]. unfold uget. rewrite H0. cbn [bind].
    destruct (not_none v0) eqn:En; [|cbn [bind]; eauto].
    pose proof (HI' ltac:(lia) v0 H0 En) as Hc. unfold usub.
    replace (1 <=? mm_n s2)%nat with true by (symmetry; apply Nat.leb_le; exact Hc). cbn [bind]. eauto.
  Qed.

  Lemma inv_mm_0 : inv_mm 0 (mm0 tmin tmax).
  Proof. intros H. lia. Qed.
End NormWarm.

(* ---- the prefix law of the entry points, every carrier ------------------------------------------------ *)
Lemma firstn_out_nil {X O} (xs : list X) (out : list O) k :
  length out = length xs -> Nat.min k (length xs) = 0 -> firstn k xs = [] /\ firstn k out = [].
Proof.
  intros HL H0. destruct k as [|k']; [split; reflexivity|].
  destruct xs as [|x xs']; [|cbn in H0; lia]. destruct out; [split; reflexivity|discriminate].
Qed.

(* an empty prefix: both runs are the run on no input *)
Lemma idx_run_prefix_nil {T St O} body w1 w2 (c1 c2 : St -> option nat * nat * T -> res (St * O)) s0
      (xs : list T) k (out : list O) :
  (xs <> [] -> 1 <= w2) -> Nat.min k (length xs) = 0 ->
  idx_run body w2 c2 s0 xs = Done out -> idx_run body w1 c1 s0 (firstn k xs) = Done (firstn k out).
Proof.
  intros Hw En H.
  assert (HL : length out = length xs).
  { destruct xs as [|x xs']; [rewrite idx_run_empty in H; injection H as <-; reflexivity|].
    eapply idx_run_Done_length; [|exact H]. apply Hw. discriminate. }
  destruct (firstn_out_nil xs out k HL En) as [E1 E2]. rewrite E1, E2. apply idx_run_empty.
Qed.

Ltac cmp_cases n w len :=
  destruct (Nat.le_gt_cases w n) as [Hfit|Hwarm];
  [|destruct (Nat.eq_dec n len) as [Hall|Hcut]].

Section CmpPrefix.
  Context {A : Type} {NA : Num A} {T : Type} {DT : IsNone T A} {O : Type}.
  Variable scmp : option A -> option A -> comparison.
  Hypothesis scmp_nn : takes (scmp None None) = true.
  Variable c : nat -> list T -> @ext A -> option nat * nat * T -> res (@ext A * O).
  Variable outf : nat -> @ext A -> nat -> res O.
  Hypothesis Hc : forall mp l s a, c mp l s a = ext_cb scmp (outf mp) l s a.

  Theorem ext_family_prefix body w mp (xs : list T) k out :
    1 <= w -> cmp_dom w mp (Nat.min k (length xs)) -> cmp_dom w mp (length xs) ->
    idx_run body (cmp_window w xs) (c (cmp_mp mp (cmp_window w xs)) xs) ext0 xs = Done out ->
    idx_run body (cmp_window w (firstn k xs)) (c (cmp_mp mp (cmp_window w (firstn k xs))) (firstn k xs)) ext0
            (firstn k xs) = Done (firstn k out).
  Proof.
    intros Hw D1 D2 H.
    rewrite (cmp_mp_const w mp xs D2) in H.
    rewrite (cmp_mp_const w mp (firstn k xs)) by (rewrite firstn_length; exact D1).
    unfold cmp_window in *. rewrite firstn_length. set (n := Nat.min k (length xs)) in *.
    set (m := cmp_mp mp w) in *.
    destruct (Nat.eq_dec n 0) as [En|En].
    - eapply idx_run_prefix_nil; [|exact En|exact H]. destruct xs; [contradiction|cbn [length]; lia].
    - assert (Hlen : n <= length xs) by (unfold n; lia).
      apply (family_prefix (c m) (c m) xs k body (Nat.min n w) (Nat.min (length xs) w)
                           (inv_ext xs) ext0 out); try lia; try exact H; fold n.
      + intros s st e v He Hs. rewrite !Hc. apply ext_cb_firstn; assumption.
      + cmp_cases n w (length xs).
        * left. split; [unfold eff_window; destruct body; lia|reflexivity].
        * left. split; [rewrite Hall; reflexivity|reflexivity].
        * right. split; [unfold eff_window; destruct body; lia|].
          split; [unfold eff_window; destruct body; lia|]. split; [exact (inv_ext_0 xs)|]. split.
          -- intros e v s He Hv HI. split; [reflexivity|]. rewrite Hc.
             apply (ext_warm_inner scmp scmp_nn xs (outf m) e v s Hv HI).
          -- intros e v s s2 o He Hv HI. rewrite !Hc. apply (ext_warm_last scmp scmp_nn xs (outf m) e v s s2 o Hv HI).
  Qed.
End CmpPrefix.

Section ExtPrefix.
  Context {A : Type} {NA : Num A} {T : Type} {DT : IsNone T A}.
  Variable scmp : option A -> option A -> comparison.
  Hypothesis scmp_nn : takes (scmp None None) = true.

  Theorem ts_vext_prefix body w mp (xs : list T) k out :
    1 <= w -> cmp_dom w mp (Nat.min k (length xs)) -> cmp_dom w mp (length xs) ->
    ts_vext scmp body w mp xs = Done out -> ts_vext scmp body w mp (firstn k xs) = Done (firstn k out).
  Proof. exact (ext_family_prefix scmp scmp_nn (vext_cb scmp) vext_out (vext_cb_ext scmp) body w mp xs k out). Qed.

  Theorem ts_varg_prefix body w mp (xs : list T) k out :
    1 <= w -> cmp_dom w mp (Nat.min k (length xs)) -> cmp_dom w mp (length xs) ->
    ts_varg scmp body w mp xs = Done out -> ts_varg scmp body w mp (firstn k xs) = Done (firstn k out).
  Proof. exact (ext_family_prefix scmp scmp_nn (varg_cb scmp) varg_out (varg_cb_ext scmp) body w mp xs k out). Qed.
End ExtPrefix.

Section EntryPrefix.
  Context {A : Type} {NA : Num A} {T : Type} {DT : IsNone T A}.

  Theorem ts_vmin_prefix_any body w mp (xs : list T) k out :
    1 <= w -> cmp_dom w mp (Nat.min k (length xs)) -> cmp_dom w mp (length xs) ->
    ts_vmin body w mp xs = Done out -> ts_vmin body w mp (firstn k xs) = Done (firstn k out).
  Proof. apply ts_vext_prefix. reflexivity. Qed.
  Theorem ts_vmax_prefix_any body w mp (xs : list T) k out :
    1 <= w -> cmp_dom w mp (Nat.min k (length xs)) -> cmp_dom w mp (length xs) ->
    ts_vmax body w mp xs = Done out -> ts_vmax body w mp (firstn k xs) = Done (firstn k out).
  Proof. apply ts_vext_prefix. reflexivity. Qed.
  Theorem ts_vargmin_prefix_any body w mp (xs : list T) k out :
    1 <= w -> cmp_dom w mp (Nat.min k (length xs)) -> cmp_dom w mp (length xs) ->
    ts_vargmin body w mp xs = Done out -> ts_vargmin body w mp (firstn k xs) = Done (firstn k out).
  Proof. apply ts_varg_prefix. reflexivity. Qed.
  Theorem ts_vargmax_prefix_any body w mp (xs : list T) k out :
    1 <= w -> cmp_dom w mp (Nat.min k (length xs)) -> cmp_dom w mp (length xs) ->
    ts_vargmax body w mp xs = Done out -> ts_vargmax body w mp (firstn k xs) = Done (firstn k out).
  Proof. apply ts_varg_prefix. reflexivity. Qed.

  Theorem ts_vrank_prefix_any {B : Type} {NB : Num B} body w mp pct rev (xs : list T) k (out : list B) :
    1 <= w -> cmp_dom w mp (Nat.min k (length xs)) -> cmp_dom w mp (length xs) ->
    ts_vrank body w mp pct rev xs = Done out -> ts_vrank body w mp pct rev (firstn k xs) = Done (firstn k out).
  Proof.
    intros Hw D1 D2 H. unfold ts_vrank in *.
    rewrite (cmp_mp_const w mp xs D2) in H.
    rewrite (cmp_mp_const w mp (firstn k xs)) by (rewrite firstn_length; exact D1).
    unfold cmp_window in *. rewrite firstn_length. set (n := Nat.min k (length xs)) in *.
    set (m := cmp_mp mp w) in *.
    destruct (Nat.eq_dec n 0) as [En|En].
    - eapply idx_run_prefix_nil; [|exact En|exact H]. destruct xs; [contradiction|cbn [length]; lia].
    - assert (Hlen : n <= length xs) by (unfold n; lia).
      apply (family_prefix (vrank_cb m (Nat.min n w - 1) pct rev)
                           (vrank_cb m (Nat.min (length xs) w - 1) pct rev) xs k body
                           (Nat.min n w) (Nat.min (length xs) w) (inv_cnt xs) 0 out); try lia; try exact H; fold n.
      + intros s st e v He Hs. apply vrank_cb_firstn; assumption.
      + cmp_cases n w (length xs).
        * left. split; [unfold eff_window; destruct body; lia|].
          intros s st e v He. replace (Nat.min n w) with (Nat.min (length xs) w) by lia. reflexivity.
        * left. split; [rewrite Hall; reflexivity|]. intros s st e v He. rewrite Hall. reflexivity.
        * right. split; [unfold eff_window; destruct body; lia|].
          split; [unfold eff_window; destruct body; lia|]. split; [apply inv_cnt_0|]. split.
          -- intros e v s He Hv HI. apply vrank_warm_inner; try assumption; lia.
          -- intros e v s s2 o He Hv HI Hc. replace (Nat.min n w - 1) with e by lia.
             apply (vrank_warm_last xs m (Nat.min (length xs) w - 1) pct rev e v s s2 o); try assumption; lia.
  Qed.

  Theorem ts_vminmaxnorm_prefix_any (tmin tmax : A) body w mp (xs : list T) k out :
    1 <= w ->
    ts_vminmaxnorm tmin tmax body w mp xs = Done out ->
    ts_vminmaxnorm tmin tmax body w mp (firstn k xs) = Done (firstn k out).
  Proof.
    intros Hw H. unfold ts_vminmaxnorm in *. set (n := Nat.min k (length xs)). set (m := mp_eff mp w 0) in *.
    destruct (Nat.eq_dec n 0) as [En|En].
    - exact (idx_run_prefix_nil body w w _ _ _ xs k out (fun _ => Hw) En H).
    - assert (Hlen : n <= length xs) by (unfold n; lia).
      apply (family_prefix (mmnorm_cb tmin tmax m) (mmnorm_cb tmin tmax m) xs k body w w
                           (inv_mm xs) (mm0 tmin tmax) out); try lia; try exact H; fold n.
      + intros s st e v He Hs. apply mmnorm_cb_firstn; assumption.
      + destruct body; [|left; split; reflexivity]. cbn [eff_window].
        cmp_cases n w (length xs).
        * left. split; [lia|reflexivity].
        * left. split; [rewrite Hall; reflexivity|reflexivity].
        * right. split; [lia|]. split; [lia|]. split; [apply inv_mm_0|]. split.
          -- intros e v s He Hv HI. split; [reflexivity|]. apply (mmnorm_warm_inner tmin tmax xs m e v s Hv HI).
          -- intros e v s s2 o He Hv HI Hc. apply (mmnorm_warm_last tmin tmax xs m e v s s2 o Hv HI Hc).
  Qed.
End EntryPrefix.

(* ---- the residual statistics: a pure callback over the zipped series ---------------------------------- *)
Lemma run_lift_pure {St X O} (cb : St -> X -> St * O) args : forall s0,
  run (lift_cb (fun s a => Ok (cb s a))) (Ok s0) args = map Ok (run cb s0 args).
Proof.
  induction args as [|a r IH]; intros s0; [reflexivity|]. cbn [run lift_cb].
  destruct (cb s0 a) as [s' o]. cbn [map]. rewrite IH. reflexivity.
Qed.

Lemma idx_run_pure {T St O} body w (cb : St -> option nat * nat * T -> St * O) s0 (zs : list T) :
  idx_run body w (fun s a => Ok (cb s a)) s0 zs
  = if body then rolling_apply_idx_to w cb s0 zs else rolling_apply_idx_default w cb s0 zs.
Proof.
  destruct w as [|w]; [destruct zs, body; reflexivity|]. assert (Hw : 1 <= S w) by lia.
  rewrite idx_run_unfold by exact Hw. rewrite run_lift_pure. cbn [seal]. rewrite collect_map_Ok.
  unfold idx_args. destruct body; cbn [eff_window].
  - rewrite rolling_apply_idx_to_eq by exact Hw. reflexivity.
  - rewrite rolling_apply_idx_default_eq by exact Hw. reflexivity.
Qed.

Section ResidPrefix.
  Context {A : Type} {NA : Num A} {T1 : Type} {D1 : IsNone T1 A} {T2 : Type} {D2 : IsNone T2 A}.

  Lemma resid_cb_firstn (k : rstat) mp (zs : list (T1 * T2)) n s st e v : e < n -> start_le st e ->
    resid_cb k mp (firstn n zs) s (st, e, v) = resid_cb k mp zs s (st, e, v).
  Proof.
    intros He Hs. unfold resid_cb, resid_post, resid_emit. rewrite seg_firstn by lia. f_equal.
    destruct st as [j|]; [|reflexivity]. cbn [start_le] in Hs. rewrite nth_error_firstn.
    replace (j <? n) with true by (symmetry; apply Nat.ltb_lt; lia). reflexivity.
  Qed.

  Lemma resid_as_idx_run (k : rstat) body w mp (xs : list T1) (ys : list T2) :
    1 <= w -> length xs <= length ys ->
    ts_vregx_resid k body w mp xs ys
    = idx_run body w (fun s a => Ok (resid_cb k (mp_eff mp w 0) (combine xs ys) s a)) csum0 (combine xs ys).
  Proof.
    intros Hw Hl. rewrite idx_run_pure.
    unfold ts_vregx_resid. cbv zeta. rewrite rolling2_apply_idx_default_pos by exact Hw. unfold rolling2_apply_idx_to.
    replace (length ys <? length xs) with false by (symmetry; apply Nat.ltb_ge; lia). reflexivity.
  Qed.

  Theorem resid_prefix_any (k : rstat) body w mp (xs : list T1) (ys : list T2) n :
    1 <= w -> length xs <= length ys ->
    out_of (ts_vregx_resid k body w mp (firstn n xs) (firstn n ys))
    = firstn n (out_of (ts_vregx_resid k body w mp xs ys)).
  Proof.
    intros Hw Hl.
    rewrite !resid_as_idx_run by (try exact Hw; rewrite ?firstn_length; lia).
    rewrite <- combine_firstn. set (zs := combine xs ys). set (m := mp_eff mp w 0).
    set (c := fun (l : list (T1 * T2)) s a => Ok (resid_cb k m l s a)).
    change (out_of (idx_run body w (c (firstn n zs)) csum0 (firstn n zs))
            = firstn n (out_of (idx_run body w (c zs) csum0 zs))).
    assert (Hwhole : exists out, idx_run body w (c zs) csum0 zs = Done out).
    { unfold c. rewrite idx_run_pure. destruct body.
      - rewrite rolling_apply_idx_to_eq by exact Hw. eauto.
      - rewrite rolling_apply_idx_default_eq by exact Hw. eauto. }
    destruct Hwhole as [out Hout]. rewrite Hout. cbn [out_of].
    set (n' := Nat.min n (length zs)).
    destruct (Nat.eq_dec n' 0) as [En|En].
    { rewrite (idx_run_prefix_nil body w w _ (c zs) csum0 zs n out (fun _ => Hw) En Hout). reflexivity. }
    assert (Hlen : n' <= length zs) by (unfold n'; lia).
    rewrite (family_prefix c c zs n body w w (fun _ _ => True) csum0 out); try lia; try exact Hout;
      [reflexivity| |]; fold n'.
    - intros s st e v He Hs. unfold c. rewrite resid_cb_firstn by assumption. reflexivity.
    - destruct body; [|left; split; reflexivity]. cbn [eff_window].
      cmp_cases n' w (length zs).
      + left. split; [lia|reflexivity].
      + left. split; [rewrite Hall; reflexivity|reflexivity].
      + right. split; [lia|]. split; [lia|]. split; [exact I|]. split.
        * intros e v s He Hv _. split; [reflexivity|intros; exact I].
        * intros e v s s2 o He Hv _ Hc. unfold c, resid_cb in *. injection Hc as _ <-. eexists. reflexivity.
  Qed.
End ResidPrefix.
