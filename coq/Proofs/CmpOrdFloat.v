(* Proofs/CmpOrdFloat.v — the order laws of Spec/ExtremaOrd.v hold for Coq's primitive binary64 `float`
   (Base/F64.v: NumF64) restricted to its non-NaN values, from the standard library's specification of the
   primitive comparisons (Floats.FloatAxioms: eqb_spec, ltb_spec, leb_spec relate PrimFloat.eqb/ltb/leb to
   SpecFloat.SFcompare on Prim2SF).  Hence the generic theorems of Proofs/CmpOrd.v / RollRankOrd.v apply to the
   float instance the correspondence runs execute (f64 with NaN as the null, Option<f64>): Props/C03.v (7), (A11).
   neqb is NOT Leibniz equality here (+0 == -0): OrdLaws holds, OrdStrict does not — which is why the generic
   specification says "the LAST among equivalent extremes".
   Assumptions (Print Assumptions at the end): the primitive float/int63 constants and the three FloatAxioms
   above — axioms of the STANDARD LIBRARY about primitive floats, nothing else; see notes/C03.md.           *)
From Coq Require Import ZArith List Lia Bool Floats.
From Tevec Require Import Base.Prelude Base.Num Base.XR Base.F64 Model.Driver Model.Cmp Spec.ExtremaOrd Proofs.CmpOrd
     Proofs.RollRankOrd.
Import ListNotations.

(* SFcompare on non-NaN spec floats is a lexicographic comparison of integer triples *)
Definition sf_key (f : spec_float) : Z * Z * Z :=
  match f with
  | S754_nan => (3, 0, 0)
  | S754_infinity true => (-2, 0, 0)
  | S754_infinity false => (2, 0, 0)
  | S754_zero _ => (0, 0, 0)
  | S754_finite true m e => (-1, - e, Zneg m)
  | S754_finite false m e => (1, e, Zpos m)
  end%Z.

Definition lexcmp (k1 k2 : Z * Z * Z) : comparison :=
  let '(a1, b1, c1) := k1 in
  let '(a2, b2, c2) := k2 in
  match (a1 ?= a2)%Z with
  | Eq => match (b1 ?= b2)%Z with Eq => (c1 ?= c2)%Z | c => c end
  | c => c
  end.
Definition lexlt (k1 k2 : Z * Z * Z) : Prop :=
  let '(a1, b1, c1) := k1 in
  let '(a2, b2, c2) := k2 in
  (a1 < a2 \/ (a1 = a2 /\ (b1 < b2 \/ (b1 = b2 /\ c1 < c2))))%Z.

Lemma lexcmp_spec k1 k2 :
  match lexcmp k1 k2 with Lt => lexlt k1 k2 | Eq => k1 = k2 | Gt => lexlt k2 k1 end.
Proof.
  destruct k1 as [[a1 b1] c1], k2 as [[a2 b2] c2]. unfold lexcmp, lexlt.
  destruct (Z.compare_spec a1 a2); [|lia|lia].
  destruct (Z.compare_spec b1 b2); [|lia|lia].
  destruct (Z.compare_spec c1 c2); [subst; reflexivity|lia|lia].
Qed.

Lemma lexlt_asym k1 k2 : lexlt k1 k2 -> ~ lexlt k2 k1.
Proof. destruct k1 as [[a1 b1] c1], k2 as [[a2 b2] c2]. unfold lexlt. lia. Qed.
Lemma lexlt_irrefl k : ~ lexlt k k.
Proof. destruct k as [[a b] c]. unfold lexlt. lia. Qed.
Lemma lexlt_cotrans k1 k2 k3 : lexlt k1 k2 -> lexlt k1 k3 \/ lexlt k3 k2.
Proof. destruct k1 as [[a1 b1] c1], k2 as [[a2 b2] c2], k3 as [[a3 b3] c3]. unfold lexlt. lia. Qed.

Lemma lexcmp_lt k1 k2 : lexcmp k1 k2 = Lt <-> lexlt k1 k2.
Proof.
  pose proof (lexcmp_spec k1 k2) as H. split.
  - intros E. rewrite E in H. exact H.
  - intros L. destruct (lexcmp k1 k2); [subst; exfalso; exact (lexlt_irrefl _ L)|reflexivity|
                                         exfalso; exact (lexlt_asym _ _ L H)].
Qed.

Lemma SFcompare_key f1 f2 : f1 <> S754_nan -> f2 <> S754_nan ->
  SFcompare f1 f2 = Some (lexcmp (sf_key f1) (sf_key f2)).
Proof.
  intros H1 H2.
  destruct f1 as [s1|s1| |s1 m1 e1], f2 as [s2|s2| |s2 m2 e2]; try congruence;
    try destruct s1; try destruct s2; try reflexivity.
  (* left: both finite and negative (both positive is closed by conversion) *)
  cbn [SFcompare sf_key lexcmp]. change (-1 ?= -1)%Z with Eq. cbv iota.
  rewrite Z.compare_opp, (Z.compare_antisym e1 e2).
  destruct (e1 ?= e2)%Z; reflexivity.
Qed.

Lemma f64_ok_not_nan (a : float) : num_ok a -> Prim2SF a <> S754_nan.
Proof.
  unfold num_ok. cbn [nisnan NumF64]. unfold is_nan. rewrite FloatAxioms.eqb_spec. intros H E. rewrite E in H. discriminate.
Qed.

Definition fkey (a : float) : Z * Z * Z := sf_key (Prim2SF a).

Lemma f64_ltb_key (a b : float) : num_ok a -> num_ok b -> (nltb a b = true <-> lexlt (fkey a) (fkey b)).
Proof.
  intros Ha Hb. cbn [nltb NumF64]. rewrite FloatAxioms.ltb_spec. unfold SFltb.
  rewrite (SFcompare_key _ _ (f64_ok_not_nan a Ha) (f64_ok_not_nan b Hb)). fold (fkey a) (fkey b).
  rewrite <- lexcmp_lt. destruct (lexcmp (fkey a) (fkey b)); split; intros H; try reflexivity; discriminate.
Qed.
Lemma f64_ltb_false (a b : float) : num_ok a -> num_ok b -> (nltb a b = false <-> ~ lexlt (fkey a) (fkey b)).
Proof.
  intros Ha Hb. rewrite <- (f64_ltb_key a b Ha Hb). destruct (nltb a b); split; intros H; congruence.
Qed.

Lemma ordlaws_F64 : OrdLaws float.
Proof.
  split.
  - intros a b Ha Hb H. apply (f64_ltb_key a b Ha Hb) in H. apply (f64_ltb_false b a Hb Ha).
    apply lexlt_asym. exact H.
  - intros a b c Ha Hb Hc H. apply (f64_ltb_key a b Ha Hb) in H.
    destruct (lexlt_cotrans _ _ (fkey c) H) as [H'|H'];
      [left; apply (f64_ltb_key a c Ha Hc)|right; apply (f64_ltb_key c b Hc Hb)]; exact H'.
  - intros a b Ha Hb. cbn [neqb nltb NumF64]. rewrite FloatAxioms.eqb_spec, !FloatAxioms.ltb_spec. unfold SFeqb, SFltb.
    rewrite (SFcompare_key _ _ (f64_ok_not_nan a Ha) (f64_ok_not_nan b Hb)),
            (SFcompare_key _ _ (f64_ok_not_nan b Hb) (f64_ok_not_nan a Ha)).
    fold (fkey a) (fkey b).
    pose proof (lexcmp_spec (fkey a) (fkey b)) as H1. pose proof (lexcmp_spec (fkey b) (fkey a)) as H2.
    destruct (lexcmp (fkey a) (fkey b)), (lexcmp (fkey b) (fkey a)); try reflexivity; exfalso;
      try (rewrite H1 in H2; exact (lexlt_irrefl _ H2)); try (rewrite H2 in H1; exact (lexlt_irrefl _ H1));
      try exact (lexlt_asym _ _ H1 H2).
  - intros a b Ha Hb. cbn [nleb nltb NumF64]. rewrite FloatAxioms.leb_spec, FloatAxioms.ltb_spec. unfold SFleb, SFltb.
    rewrite (SFcompare_key _ _ (f64_ok_not_nan a Ha) (f64_ok_not_nan b Hb)),
            (SFcompare_key _ _ (f64_ok_not_nan b Hb) (f64_ok_not_nan a Ha)).
    fold (fkey a) (fkey b).
    pose proof (lexcmp_spec (fkey a) (fkey b)) as H1. pose proof (lexcmp_spec (fkey b) (fkey a)) as H2.
    destruct (lexcmp (fkey a) (fkey b)), (lexcmp (fkey b) (fkey a)); try reflexivity; exfalso;
      try (rewrite H1 in H2; exact (lexlt_irrefl _ H2)); try (rewrite H2 in H1; exact (lexlt_irrefl _ H1));
      try exact (lexlt_asym _ _ H1 H2).
Qed.

(* +0 and -0 are equal for neqb and different terms: the float order is a weak order only *)
Lemma f64_not_strict : ~ OrdStrict float.
Proof.
  intros H. assert (E : (0%float = (-0)%float)) by (apply H; reflexivity).
  assert (E2 : (1 / 0 <? 0)%float = (1 / -0 <? 0)%float) by (rewrite <- E; reflexivity).
  vm_compute in E2. discriminate.
Qed.

(* non-vacuity: the float model on a window with +0 / -0 ties, a NaN and an expiring extreme agrees with the
   generic specification evaluated on the same data *)
Example f64_example_min :
  ts_vmin (DT := IsNoneF64) true 2 (Some 0) [0%float; (-0)%float; nan; 3%float; 2%float] =
  Done (map (fun i => gmin (gvalid (win 2 i (map (to_opt (H := IsNoneF64)) [0%float; (-0)%float; nan; 3%float; 2%float]))))
            (seq 0 5)).
Proof. vm_compute. reflexivity. Qed.

(* the premise cannot be dropped: with Some(NaN) elements the NaN fall-back of sort_cmp never "takes", the rescan
   leaves the stale index in place and ts_vargmin computes `min_idx - start` below zero (model; DESIGN 5.4 puts
   such series outside the property) *)
Example f64_some_nan_is_outside :
  ts_vargmin (DT := IsNoneOptF64) true 2 (Some 0) [Some nan; Some nan; Some nan] = Panicked Underflow /\
  ~ valid_not_nan (DT := IsNoneOptF64) [Some nan; Some nan; Some nan].
Proof.
  split; [vm_compute; reflexivity|].
  intros H. specialize (H (Some nan) (or_introl eq_refl) eq_refl). vm_compute in H. discriminate.
Qed.

Print Assumptions ordlaws_F64.
