(* Proofs/Audit16.v — convert.rs into_unit on the 4 x 4 unit pairs as ONE closed form (no `finer` hypothesis), and what
   follows from it alone: the rejected inputs exactly (which panic, when), NaT comes out only if NaT went in.
   Sections (8)-(13) of Props/C16.v (clause table: notes/C16.md, "Audit matrix") are proved on top of this.  Axiom-free. *)
From Coq Require Import ZArith List Bool Lia.
From Tevec Require Import Base.Prelude Model.Time Proofs.Time.
Local Open Scope Z_scope.

Lemma unit_trichotomy u t :
  (u = t /\ finer u t = false /\ finer t u = false)
  \/ (u <> t /\ finer u t = true /\ finer t u = false)
  \/ (u <> t /\ finer u t = false /\ finer t u = true).
Proof.
  destruct u, t;
    first [ left; repeat split; solve [reflexivity]
          | right; left; repeat split; solve [reflexivity | discriminate]
          | right; right; repeat split; solve [reflexivity | discriminate] ].
Qed.

Lemma unit_eqb_eq u t : unit_eqb u t = true <-> u = t.
Proof. destruct u, t; split; intros H; try reflexivity; discriminate H. Qed.

Lemma finer_neq u t : finer u t = true -> unit_eqb u t = false.
Proof. destruct u, t; intros H; try reflexivity; discriminate H. Qed.

Lemma not_finer_coarser u t : unit_eqb u t = false -> finer u t = false -> finer t u = true.
Proof. destruct u, t; intros H1 H2; try reflexivity; discriminate. Qed.

Lemma finer_not_nano u t : finer u t = true -> unit_eqb u Nano = false.
Proof. destruct u, t; intros H; try reflexivity; discriminate H. Qed.

Lemma finer_trans u t s : finer u t = true -> finer t s = true -> finer u s = true /\ ratio u s = ratio u t * ratio t s.
Proof. destruct u, t, s; intros H1 H2; try discriminate H1; try discriminate H2; split; reflexivity. Qed.

Lemma ratio_cases u t : finer u t = true -> ratio u t = 1000 \/ ratio u t = 1000000 \/ ratio u t = 1000000000.
Proof. destruct u, t; intros H; try discriminate H; vm_compute; auto. Qed.

Lemma date_in_range_iff d : date_in_range d = true <-> cr_min_day <= d <= cr_max_day.
Proof. unfold date_in_range. rewrite andb_true_iff, !Z.leb_le. tauto. Qed.

(* the specification of a unit change, for every pair: identity / NaT / checked multiplication / floor division *)
Definition conv_spec (u t : tunit) (x : Z) : res Z :=
  if unit_eqb u t then Ok x
  else if is_nat x then Ok NaT
  else if finer u t then chk64 (x * ratio u t)
  else Ok (x / ratio t u).

Theorem into_unit_closed_form u t x : into_unit u t x = conv_spec u t x.
Proof. destruct u, t; reflexivity. Qed.

Lemma into_unit_same u x : into_unit u u x = Ok x.
Proof. destruct u; reflexivity. Qed.

(* t coarser than u: floor (x / ratio), the instant truncated toward the past; t finer: the checked product *)
Lemma into_unit_coarsen u t x :
  finer t u = true -> x <> NaT -> into_unit u t x = Ok (x / ratio t u).
Proof.
  intros Hf Hx. apply is_nat_false in Hx. rewrite into_unit_closed_form. unfold conv_spec. rewrite Hx.
  destruct u, t; try discriminate Hf; reflexivity.
Qed.
Lemma into_unit_refine u t x :
  finer u t = true -> x <> NaT -> into_unit u t x = chk64 (x * ratio u t).
Proof.
  intros Hf Hx. apply is_nat_false in Hx. rewrite into_unit_closed_form. unfold conv_spec.
  rewrite (finer_neq _ _ Hf), Hx, Hf. reflexivity.
Qed.

(* the rejected inputs, exactly: the only panic is the debug-build multiplication overflow of a refining conversion *)
Theorem into_unit_panics_iff u t x k :
  into_unit u t x = Panic k <->
  (k = Overflow /\ finer u t = true /\ x <> NaT /\ in_i64 (x * ratio u t) = false).
Proof.
  rewrite into_unit_closed_form. unfold conv_spec, chk64. split.
  - destruct (unit_eqb u t); [discriminate|]. destruct (is_nat x) eqn:En; [discriminate|].
    destruct (finer u t); [|discriminate]. destruct (in_i64 _) eqn:Ei; [discriminate|].
    intros [= <-]. apply is_nat_false in En. auto.
  - intros (-> & Hf & Hx & Hi). apply is_nat_false in Hx.
    rewrite (finer_neq _ _ Hf), Hx, Hf, Hi. reflexivity.
Qed.

(* a valid date-time never becomes NaT by a unit change: NaT comes out only if NaT went in *)
Theorem into_unit_nat_iff u t x : in_i64 x = true -> (into_unit u t x = Ok NaT <-> x = NaT).
Proof.
  intros Hi. split; [|intros ->; apply into_unit_nat].
  apply in_i64_iff in Hi. rewrite into_unit_closed_form. unfold conv_spec.
  destruct (unit_eqb u t) eqn:Eu; [intros [= ->]; reflexivity|].
  destruct (is_nat x) eqn:En; [intros _; apply is_nat_true; exact En|].
  apply is_nat_false in En. intros H. exfalso. unfold NaT, i64_min, i64_max in *.
  destruct (finer u t) eqn:Ef.
  - apply chk64_inv in H. destruct H as [H _]. destruct (ratio_cases _ _ Ef) as [R|[R|R]]; rewrite R in H; lia.
  - pose proof (not_finer_coarser _ _ Eu Ef) as Ef'. injection H as H.
    destruct (ratio_cases _ _ Ef') as [R|[R|R]]; rewrite R in H; Z.div_mod_to_equations; lia.
Qed.

Lemma coarsened_not_nat u t x : finer t u = true -> in_i64 x = true -> x / ratio t u <> NaT.
Proof.
  intros Hf Hi. apply in_i64_iff in Hi. unfold NaT, i64_min, i64_max in *.
  destruct (ratio_cases _ _ Hf) as [R|[R|R]]; rewrite R; Z.div_mod_to_equations; lia.
Qed.
