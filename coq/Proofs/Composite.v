(* Proofs/Composite.v — C20: winsorize = map (clip lo hi) with the documented bounds, lo <= hi inside the
   quantifier of the property.  Carrier XR = option R (None = null).                                *)
From Coq Require Import Reals Lra Lia List Sorting Permutation ZArith Bool.
From Tevec Require Import Base.Prelude Spec.MapOps Proofs.MapOps.
From Tevec Require Import Base.Num Base.XR Spec.Stats Model.SortCmp Model.Quantile Model.Composite Proofs.OrderXR Proofs.Quantile Proofs.QuantileMono Proofs.AggXR Proofs.Agg Proofs.Spearman.
Import ListNotations.
Local Open Scope R_scope.

(* the order of the two tests is vclip's *)
Definition clipR (lo hi x : R) : R :=
  if Rlt_dec x lo then lo else if Rlt_dec hi x then hi else x.

Lemma clipR_inside lo hi x : lo <= x <= hi -> clipR lo hi x = x.
Proof. intros H. unfold clipR. destruct (Rlt_dec x lo); [lra|]. destruct (Rlt_dec hi x); [lra|reflexivity]. Qed.
Lemma clipR_below lo hi x : x < lo -> clipR lo hi x = lo.
Proof. intros H. unfold clipR. destruct (Rlt_dec x lo); [reflexivity|lra]. Qed.
Lemma clipR_above lo hi x : lo <= hi -> hi < x -> clipR lo hi x = hi.
Proof. intros Hlh H. unfold clipR. destruct (Rlt_dec x lo); [lra|]. destruct (Rlt_dec hi x); [reflexivity|lra]. Qed.
Lemma clipR_range lo hi x : lo <= hi -> lo <= clipR lo hi x <= hi.
Proof. intros H. unfold clipR. destruct (Rlt_dec x lo); [lra|]. destruct (Rlt_dec hi x); lra. Qed.
Lemma clipR_mono lo hi x y : lo <= hi -> x <= y -> clipR lo hi x <= clipR lo hi y.
Proof.
  intros Hlh Hxy. unfold clipR.
  destruct (Rlt_dec x lo), (Rlt_dec y lo); try lra; destruct (Rlt_dec hi x), (Rlt_dec hi y); lra.
Qed.
Lemma clipR_idem lo hi x : lo <= hi -> clipR lo hi (clipR lo hi x) = clipR lo hi x.
Proof. intros H. apply clipR_inside. apply clipR_range. exact H. Qed.
(* the value moves to the NEARER bound: the distance to the result is the distance to the interval *)
Lemma clipR_nearest lo hi x : lo <= hi ->
  forall y, lo <= y <= hi -> Rabs (x - clipR lo hi x) <= Rabs (x - y).
Proof.
  intros Hlh y Hy. unfold clipR.
  destruct (Rlt_dec x lo); [|destruct (Rlt_dec hi x)].
  - rewrite !Rabs_left1 by lra. lra.
  - rewrite !Rabs_right by lra. lra.
  - replace (x - x) with 0 by ring. rewrite Rabs_R0. apply Rabs_pos.
Qed.

Definition clip_series (lo hi : R) (xs : list XR) : list XR := map (option_map (clipR lo hi)) xs.

Lemma clip_f64_xr (lo hi : XR) (xs : list XR) :
  clip_f64 lo hi xs =
  Ok (match lo, hi with
      | Some l, Some h => clip_series l h xs
      | _, _ => map (clip_elem (fdict (A := XR)) (fun v => v) nltb lo hi) xs
      end).
Proof.
  unfold clip_f64. rewrite (vclip_spec (fdict (A := XR)) (fun v => v) nltb (unwrap_ok_float _ _)).
  f_equal. destruct lo as [l|], hi as [h|]; try reflexivity.
  unfold clip_series. apply map_ext. intros [x|]; [|reflexivity].
  unfold clip_elem, clipR. cbn.
  destruct (Rlt_dec x l); [reflexivity|]. destruct (Rlt_dec h x); reflexivity.
Qed.

Lemma clip_f64_null_bounds (xs : list XR) : clip_f64 None None xs = Ok xs.
Proof.
  rewrite clip_f64_xr. f_equal. rewrite <- (map_id xs) at 2. apply map_ext. intros [x|]; reflexivity.
Qed.

Lemma iter_cast_xr (xs : list XR) : iter_cast (DT := IsNoneXR) xs = xs.
Proof. unfold iter_cast. rewrite <- (map_id xs) at 2. apply map_ext. intros [x|]; reflexivity. Qed.

Definition absdev (c : R) (xs : list XR) : list XR := map (option_map (fun x => Rabs (x - c))) xs.
Lemma valid_absdev c xs : valid (absdev c xs) = map (fun x => Rabs (x - c)) (valid xs).
Proof. apply valid_map. Qed.

Lemma valid_nil_all_null (xs : list XR) : valid xs = [] -> forall x, In x xs -> x = None.
Proof.
  induction xs as [|[y|] xs IH]; cbn; [tauto|discriminate|]. fold (valid xs).
  intros H x [<-|Hx]; [reflexivity|apply IH; assumption].
Qed.

Lemma perm_map_nonempty {X Y} (f : X -> Y) (s l : list X) (s' : list Y) :
  Permutation s l -> s <> [] -> Permutation s' (map f l) -> s' <> [].
Proof.
  intros HP Hne HP' ->. apply Permutation_nil, map_eq_nil in HP'. subst l.
  apply Permutation_sym, Permutation_nil in HP. contradiction.
Qed.

(* bounds centre -/+ k spread: a NaN multiplier makes both bounds NaN, and vclip ignores a NaN bound *)
Lemma clip_f64_centre_spread (c d : R) (k : XR) (xs : list XR) :
  clip_f64 (nsub (Some c) (nmul k (Some d))) (nadd (Some c) (nmul k (Some d))) xs
  = Ok (match k with Some k => clip_series (c - k * d) (c + k * d) xs | None => xs end).
Proof.
  destruct k as [k|]; [rewrite xmul_some, xsub_some, xadd_some; apply clip_f64_xr|apply clip_f64_null_bounds].
Qed.

Section Winsorize.
  Variable xs : list XR.
  Local Notation V := (valid xs).

  Theorem winsorize_quantile (q : R) (s : list R) :
    0 <= q <= 1 -> Sorted Rle s -> Permutation s V -> s <> [] ->
    winsorize (DT := IsNoneXR) WQuantile (Some (Some q)) xs
    = Ok (Some (clip_series (quantile_spec s q Linear) (quantile_spec s (1 - q) Linear) xs)).
  Proof.
    intros Hq Hs HP Hne. unfold winsorize.
    rewrite (vquantile_spec xs q Linear s Hq Hs HP Hne). cbn [bind].
    change (@none XR NumXR) with (Some 1). rewrite xsub_some.
    rewrite (vquantile_spec xs (1 - q) Linear s) by (try assumption; lra). cbn [bind].
    rewrite iter_cast_xr, clip_f64_xr. reflexivity.
  Qed.

  Theorem winsorize_quantile_all_null (q : R) :
    0 <= q <= 1 -> V = [] -> winsorize (DT := IsNoneXR) WQuantile (Some (Some q)) xs = Ok (Some xs).
  Proof.
    intros Hq Hv. unfold winsorize.
    rewrite (vquantile_all_null xs q Linear Hq Hv). cbn [bind].
    change (@none XR NumXR) with (Some 1). rewrite xsub_some.
    rewrite (vquantile_all_null xs (1 - q) Linear) by (try assumption; lra). cbn [bind].
    rewrite iter_cast_xr, clip_f64_null_bounds. reflexivity.
  Qed.

  Theorem winsorize_quantile_bad_q (q : R) :
    ~ (0 <= q <= 1) -> winsorize (DT := IsNoneXR) WQuantile (Some (Some q)) xs = Ok None.
  Proof. intros Hq. unfold winsorize. rewrite (vquantile_bad_q xs q Linear Hq). reflexivity. Qed.

  (* a NaN parameter: Err (the range test `0 <= q && q <= 1` is false on NaN) *)
  Theorem winsorize_quantile_nan : winsorize (DT := IsNoneXR) WQuantile (Some None) xs = Ok None.
  Proof. reflexivity. Qed.

  Theorem winsorize_median (k : XR) (s s' : list R) :
    Sorted Rle s -> Permutation s V -> s <> [] ->
    let med := quantile_spec s (1 / 2) Linear in
    Sorted Rle s' -> Permutation s' (map (fun x => Rabs (x - med)) V) ->
    let mad := quantile_spec s' (1 / 2) Linear in
    winsorize (DT := IsNoneXR) WMedian (Some k) xs
    = Ok (Some (match k with Some k => clip_series (med - k * mad) (med + k * mad) xs | None => xs end)).
  Proof.
    intros Hs HP Hne med Hs' HP' mad. unfold winsorize.
    rewrite (vmedian_spec xs s Hs HP Hne). cbn [bind]. fold med.
    change (nisnan (Some med)) with false. cbn [negb].
    assert (Hdev : map (fun v : XR => nabs (nsub (tcast (DT := IsNoneXR) v) (Some med))) xs = absdev med xs).
    { unfold absdev. apply map_ext. intros [x|]; reflexivity. }
    rewrite Hdev.
    assert (HP'' : Permutation s' (valid (absdev med xs))) by (rewrite valid_absdev; exact HP').
    change (@DF XR NumXR) with IsNoneXR.
    rewrite (vmedian_spec (absdev med xs) s' Hs' HP'' (perm_map_nonempty _ s V s' HP Hne HP')). cbn [bind]. fold mad.
    rewrite iter_cast_xr, clip_f64_centre_spread. reflexivity.
  Qed.

  Theorem winsorize_median_all_null (k : XR) :
    V = [] -> winsorize (DT := IsNoneXR) WMedian (Some k) xs = Ok (Some xs).
  Proof.
    intros Hv. unfold winsorize, vmedian. rewrite nhalf_xr.
    rewrite (vquantile_all_null xs (1 / 2) Linear) by (try assumption; lra). cbn [bind].
    change (nisnan (@None R)) with true. cbn [negb]. rewrite iter_cast_xr. reflexivity.
  Qed.

  Lemma samplevar_ge_popvar (l : list R) : (2 <= length l)%nat -> popvarR l <= samplevarR l.
  Proof.
    intros Hn. unfold popvarR, cmom, samplevarR, nR.
    pose proof (devsum2_nonneg (meanR l) l) as HD.
    assert (H2 : 2 <= INR (length l)) by (apply (le_INR 2); exact Hn).
    set (D := devsum 2 (meanR l) l) in *. set (n := INR (length l)) in *.
    unfold Rdiv. apply Rmult_le_compat_l; [exact HD|].
    apply Rinv_le_contravar; lra.
  Qed.

  Theorem winsorize_sigma (k : XR) :
    winsorize (DT := IsNoneXR) WSigma (Some k) xs
    = Ok (Some (if (length V <? 2)%nat then xs
                else if Rle_dec (popvarR V) EPS then xs
                else match k with
                     | Some k => clip_series (meanR V - k * sqrt (samplevarR V)) (meanR V + k * sqrt (samplevarR V)) xs
                     | None => xs
                     end)).
  Proof.
    unfold winsorize.
    change (@idA XR) with (fun x : XR => x).
    rewrite (vmean_var_textbook 2 (canonical_float xs)).
    unfold nvalid. rewrite rvals_float.
    destruct (length V <? 2)%nat eqn:E2.
    { cbn [fst snd]. change (nisnan (@None R)) with true. cbn [negb andb]. rewrite iter_cast_xr. reflexivity. }
    apply Nat.ltb_ge in E2.
    replace (length V =? 0)%nat with false by (symmetry; apply Nat.eqb_neq; lia).
    destruct (Rle_dec (popvarR V) EPS) as [Hp|Hp]; cbn [fst snd].
    { change (nisnan (Some (meanR V))) with false. change (nisnan (Some 0)) with false. cbn [negb andb].
      change (@neps XR NumXR) with (Some EPS). rewrite xltb_false by (pose proof EPS_pos; lra).
      rewrite iter_cast_xr. reflexivity. }
    pose proof (samplevar_ge_popvar V E2) as Hsv. pose proof EPS_pos as He.
    change (nisnan (Some (meanR V))) with false. change (nisnan (Some (samplevarR V))) with false. cbn [negb andb].
    change (@neps XR NumXR) with (Some EPS). rewrite xltb_true by lra.
    rewrite xsqrt_some by lra. rewrite iter_cast_xr, clip_f64_centre_spread. reflexivity.
  Qed.

  Corollary winsorize_sigma_nan : winsorize (DT := IsNoneXR) WSigma (Some None) xs = Ok (Some xs).
  Proof.
    rewrite winsorize_sigma. destruct (length V <? 2)%nat; [reflexivity|]. destruct (Rle_dec (popvarR V) EPS); reflexivity.
  Qed.
End Winsorize.

Theorem quantile_bounds_ordered (s : list R) (q : R) :
  Sorted Rle s -> s <> [] -> 0 <= q <= 1 / 2 ->
  quantile_spec s q Linear <= quantile_spec s (1 - q) Linear.
Proof. intros Hs Hne Hq. apply quantile_mono; try assumption; lra. Qed.

(* s, s' as in winsorize_median: arrangements of the valid data and of its deviations from a centre *)
Theorem mad_nonneg (s s' l : list R) (c : R) :
  Permutation s l -> s <> [] -> Sorted Rle s' -> Permutation s' (map (fun x => Rabs (x - c)) l) ->
  0 <= quantile_spec s' (1 / 2) Linear.
Proof.
  intros HP Hne Hs' HP'.
  apply quantile_lower_bound; [exact Hs'|exact (perm_map_nonempty _ s l s' HP Hne HP')|lra|].
  intros x Hx. apply (Permutation_in _ HP') in Hx. apply in_map_iff in Hx.
  destruct Hx as (y & <- & _). apply Rabs_pos.
Qed.

Theorem median_bounds_ordered (med mad k : R) : 0 <= mad -> 0 <= k -> med - k * mad <= med + k * mad.
Proof. intros. nra. Qed.
Theorem sigma_bounds_ordered (mean var k : R) : 0 <= k -> mean - k * sqrt var <= mean + k * sqrt var.
Proof. intros. pose proof (sqrt_pos var). nra. Qed.

(* what "acts as clipping to one interval" means *)
Theorem clip_series_laws (lo hi : R) (xs : list XR) :
  lo <= hi ->
  length (clip_series lo hi xs) = length xs /\
  (forall i, nth_error xs i = Some None -> nth_error (clip_series lo hi xs) i = Some None) /\
  (forall i x, nth_error xs i = Some (Some x) ->
     exists y, nth_error (clip_series lo hi xs) i = Some (Some y) /\
       (lo <= x <= hi -> y = x) /\ (x < lo -> y = lo) /\ (hi < x -> y = hi) /\ lo <= y <= hi /\
       (forall z, lo <= z <= hi -> Rabs (x - y) <= Rabs (x - z))) /\
  (forall i j x x' y y', nth_error xs i = Some (Some x) -> nth_error xs j = Some (Some x') ->
     nth_error (clip_series lo hi xs) i = Some (Some y) -> nth_error (clip_series lo hi xs) j = Some (Some y') ->
     x <= x' -> y <= y').
Proof.
  intros Hlh. unfold clip_series. split; [apply map_length|]. split; [|split].
  - intros i Hi. rewrite nth_error_map, Hi. reflexivity.
  - intros i x Hi. exists (clipR lo hi x). rewrite nth_error_map, Hi. split; [reflexivity|].
    split; [apply clipR_inside|]. split; [apply clipR_below|]. split; [apply clipR_above; exact Hlh|].
    split; [apply clipR_range; exact Hlh|apply clipR_nearest; exact Hlh].
  - intros i j x x' y y' Hi Hj Hy Hy' Hxx.
    rewrite nth_error_map, Hi in Hy. rewrite nth_error_map, Hj in Hy'. cbn in Hy, Hy'.
    injection Hy as <-. injection Hy' as <-. apply clipR_mono; assumption.
Qed.

Definition wdefault (m : wmethod) : R := match m with WQuantile => 1 / 100 | _ => 3 end.
Theorem winsorize_default (m : wmethod) (xs : list XR) :
  winsorize (DT := IsNoneXR) m None xs = winsorize (DT := IsNoneXR) m (Some (Some (wdefault m))) xs.
Proof.
  assert (H1 : lit_001 (A := XR) = Some (1 / 100)).
  { unfold lit_001. change (@none XR NumXR) with (Some 1). change (@nofZ XR NumXR 100%Z) with (Some 100).
    rewrite xdiv_some by lra. reflexivity. }
  destruct m; unfold winsorize, wdefault; rewrite ?H1; reflexivity.
Qed.

(* what the bounds of a method are, as far as their order goes: the q and 1-q quantiles of one sorted non-empty list, or
   a centre -/+ p times a non-negative spread *)
Definition wbounds (m : wmethod) (p lo hi : R) : Prop :=
  match m with
  | WQuantile => exists s, Sorted Rle s /\ s <> [] /\ lo = quantile_spec s p Linear /\ hi = quantile_spec s (1 - p) Linear
  | _ => exists c d, 0 <= d /\ lo = c - p * d /\ hi = c + p * d
  end.

(* every method, every real parameter the Quantile method does not reject: the input, or one clip_series with the
   method's bounds — whatever their order *)
Theorem winsorize_bounds (m : wmethod) (p : R) (xs : list XR) :
  (m = WQuantile -> 0 <= p <= 1) ->
  winsorize (DT := IsNoneXR) m (Some (Some p)) xs = Ok (Some xs) \/
  exists lo hi, wbounds m p lo hi /\ winsorize (DT := IsNoneXR) m (Some (Some p)) xs = Ok (Some (clip_series lo hi xs)).
Proof.
  intros Hq.
  destruct (sorted_exists false (valid xs)) as (s & Hs & HP).
  destruct (list_eq_dec Req_EM_T (valid xs) []) as [Hv|Hv].
  { left. destruct m.
    - apply winsorize_quantile_all_null; [apply Hq; reflexivity|exact Hv].
    - apply winsorize_median_all_null. exact Hv.
    - rewrite winsorize_sigma, Hv. reflexivity. }
  assert (Hne : s <> []) by (intros ->; apply Permutation_nil in HP; contradiction).
  destruct m.
  - right. do 2 eexists. split; [|apply (winsorize_quantile xs p s); try assumption; apply Hq; reflexivity].
    exists s. split; [exact Hs|]. split; [exact Hne|]. split; reflexivity.
  - set (med := quantile_spec s (1 / 2) Linear).
    destruct (sorted_exists false (map (fun x => Rabs (x - med)) (valid xs))) as (s' & Hs' & HP').
    right. do 2 eexists. split; [|apply (winsorize_median xs (Some p) s s'); assumption].
    exists med, (quantile_spec s' (1 / 2) Linear).
    split; [apply (mad_nonneg s s' (valid xs) med); assumption|split; reflexivity].
  - rewrite winsorize_sigma.
    destruct (length (valid xs) <? 2)%nat; [left; reflexivity|].
    destruct (Rle_dec (popvarR (valid xs)) EPS); [left; reflexivity|].
    right. do 2 eexists. split; [|reflexivity].
    exists (meanR (valid xs)), (sqrt (samplevarR (valid xs))). split; [apply sqrt_pos|split; reflexivity].
Qed.

Corollary winsorize_input_or_clip (m : wmethod) (p : R) (xs : list XR) :
  (m = WQuantile -> 0 <= p <= 1) ->
  exists r, winsorize (DT := IsNoneXR) m (Some (Some p)) xs = Ok (Some r) /\
            (r = xs \/ exists lo hi, r = clip_series lo hi xs).
Proof.
  intros Hq. destruct (winsorize_bounds m p xs Hq) as [E|(lo & hi & _ & E)]; eexists; (split; [exact E|]).
  - left. reflexivity.
  - right. exists lo, hi. reflexivity.
Qed.

(* inside the quantifier of the property the bounds are ordered: winsorize IS one clip *)
Definition wparam_in_scope (m : wmethod) (p : R) : Prop :=
  match m with WQuantile => 0 <= p <= 1 / 2 | _ => 0 <= p end.

Lemma wbounds_ordered (m : wmethod) (p lo hi : R) : wparam_in_scope m p -> wbounds m p lo hi -> lo <= hi.
Proof.
  intros Hp Hb. destruct m; cbn in Hp, Hb.
  - destruct Hb as (s & Hs & Hne & -> & ->). apply quantile_bounds_ordered; assumption.
  - destruct Hb as (c & d & Hd & -> & ->). apply median_bounds_ordered; assumption.
  - destruct Hb as (c & d & Hd & -> & ->). apply median_bounds_ordered; assumption.
Qed.

Theorem winsorize_acts_as_clip (m : wmethod) (p : R) (xs : list XR) :
  wparam_in_scope m p ->
  exists r, winsorize (DT := IsNoneXR) m (Some (Some p)) xs = Ok (Some r) /\
            (r = xs \/ exists lo hi, lo <= hi /\ r = clip_series lo hi xs).
Proof.
  intros Hp. destruct (winsorize_bounds m p xs) as [E|(lo & hi & Hb & E)].
  - intros ->. cbn in Hp. lra.
  - exists xs. split; [exact E|left; reflexivity].
  - eexists. split; [exact E|]. right. exists lo, hi. split; [exact (wbounds_ordered m p lo hi Hp Hb)|reflexivity].
Qed.
