(* Proofs/Norm.v — tea-rolling/src/norm.rs at the proof instance XR = option R (float-like nulls):
   ts_vzscore = (x - mean) / sample-std of the valid window, null when x is null, below min_periods, or the
   population variance is <= EPS ("zero spread"); and the list extremes lmaxR / lminR with the closed form of
   ts_vminmaxnorm's emit (for Proofs/MinMax.v).                                                      *)
From Coq Require Import Reals Lra Lia List.
From Tevec Require Import Base.Prelude Base.Num Base.XR Spec.Stats Model.Driver Proofs.Driver
     Model.Features Proofs.Sliding Proofs.Features Model.Norm.
Import ListNotations.
Local Open Scope R_scope.

Definition enc_cur (v : XR) : option XR := match v with Some r => Some (Some r) | None => None end.

Definition zs_abs (s : @zs XR) (l : list XR) : Prop :=
  z_n s = nv l /\ z_s1 s = Some (psum 1 (valid l)) /\ z_s2 s = Some (psum 2 (valid l)) /\
  (forall l' v, l = l' ++ [v] -> z_cur s = enc_cur v).

Lemma zs_abs_init : zs_abs zs0 [].
Proof.
  unfold zs_abs, zs0, nv, psum. cbn. repeat split; try reflexivity.
  intros l' v H. destruct l'; discriminate.
Qed.

Lemma zs_abs_pre s l v : zs_abs s l -> zs_abs (zs_pre s v) (l ++ [v]).
Proof.
  intros (Hn & H1 & H2 & _). unfold zs_pre, not_none.
  destruct v as [r|]; cbn [is_none IsNoneXR IsNone_float nisnan NumXR xisnan negb unwrap].
  - unfold zs_abs, nv. rewrite valid_app. cbn [valid flat_map app z_n z_s1 z_s2 z_cur].
    rewrite H1, H2, !xmul_some, !xadd_some, !psum_app, !psum_single, app_length, Hn.
    unfold nv. cbn [length]. repeat split; try (f_equal; ring); try lia.
    intros l' v' E. apply app_inj_tail in E. destruct E as [_ <-]. reflexivity.
  - unfold zs_abs, nv. rewrite valid_app. cbn [valid flat_map app z_n z_s1 z_s2 z_cur]. rewrite app_nil_r.
    repeat split; try assumption.
    intros l' v' E. apply app_inj_tail in E. destruct E as [_ <-]. reflexivity.
Qed.

Lemma zs_abs_post s x l : zs_abs s (x :: l) -> zs_abs (zs_post s (Some x)) l.
Proof.
  intros (Hn & H1 & H2 & Hc). unfold zs_post, not_none.
  assert (Hc' : forall t, forall l' v, l = l' ++ [v] -> z_cur t = z_cur s -> z_cur t = enc_cur v).
  { intros t l' v E Et. rewrite Et. apply (Hc (x :: l')). rewrite E. reflexivity. }
  destruct x as [r|]; cbn [is_none IsNoneXR IsNone_float nisnan NumXR xisnan negb unwrap].
  - unfold zs_abs, nv in *. cbn [valid flat_map app] in *. fold (valid l) in *.
    cbn [z_n z_s1 z_s2 z_cur].
    rewrite H1, H2, !xmul_some, !xsub_some, !psum_cons, Hn. cbn [length].
    repeat split; try (f_equal; ring); try lia.
    intros l' v E. apply (Hc' s l' v E). reflexivity.
  - unfold zs_abs, nv in *. cbn [valid flat_map app] in *. fold (valid l) in *.
    repeat split; try assumption. intros l' v E. apply (Hc' s l' v E). reflexivity.
Qed.

(* a one-element list has zero population variance *)
Lemma popvar_single a : popvarR [a] = 0.
Proof. unfold popvarR, cmom, devsum, meanR, sumR, nR. cbn. field. Qed.

Lemma zs_emit_spec mp s W l' v :
  zs_abs s W -> W = l' ++ [v] ->
  zs_emit mp s =
  match v with
  | None => None
  | Some x =>
      let V := valid W in
      if (mp <=? length V)%nat then
        (if Rlt_dec EPS (popvarR V) then Some ((x - meanR V) / samplestdR V) else None)
      else None
  end.
Proof.
  intros (Hn & H1 & H2 & Hc) HW. unfold zs_emit. rewrite (Hc l' v HW).
  destruct v as [x|]; [|reflexivity]. cbn [enc_cur]. cbv zeta.
  set (V := valid W). set (n := length V).
  assert (Hnv : z_n s = n) by exact Hn. rewrite Hnv.
  destruct (mp <=? n)%nat; [|reflexivity].
  assert (Hx : In x V).
  { unfold V. rewrite HW, valid_app. apply in_or_app. right. left. reflexivity. }
  assert (Hn1 : (1 <= n)%nat) by (unfold n; destruct V; [contradiction|cbn; lia]).
  assert (HnR : INR n <> 0) by (apply not_0_INR; lia).
  rewrite H1, H2, xofnat. fold V. rewrite !xdiv_some by exact HnR. rewrite powi_some, xsub_some.
  pose proof (popvar_identity W) as HPI. fold V in HPI. fold n in HPI. rewrite HPI by lia.
  change neps with (Some EPS). cbn [nltb NumXR xltb].
  destruct (Rlt_dec EPS (popvarR V)) as [Hgt|Hle]; [|reflexivity].
  assert (Hn2 : (2 <= n)%nat).
  { destruct (Nat.eq_dec n 1) as [E1|]; [|lia]. exfalso.
    unfold n in E1. destruct V as [|a [|b V']]; try discriminate.
    rewrite popvar_single in Hgt. pose proof EPS_pos. lra. }
  rewrite xofnat, xmul_some, xdiv_some by (apply not_0_INR; lia).
  pose proof (sample_from_pop W) as HSP. fold V in HSP. fold n in HSP. rewrite HSP by lia.
  pose proof (samplevar_nonneg W) as Hnn. fold V in Hnn. fold n in Hnn. specialize (Hnn Hn2).
  rewrite xsqrt_some by exact Hnn. rewrite xsub_some.
  assert (Hpos : 0 < samplevarR V).
  { rewrite <- HSP by lia.
    pose proof EPS_pos. apply Rmult_lt_0_compat; [apply Rmult_lt_0_compat; [lra|apply lt_0_INR; lia]|].
    apply Rinv_0_lt_compat. apply lt_0_INR. lia. }
  rewrite xdiv_some; [unfold samplestdR, meanR, nR; rewrite psum_1; reflexivity|]. unfold samplestdR.
  pose proof (sqrt_lt_R0 _ Hpos). lra.
Qed.

Theorem ts_vzscore_spec body (w : nat) (mp : option nat) (xs : list XR) :
  (1 <= w)%nat ->
  exists out, ts_vzscore body w mp xs = Done out /\ length out = length xs /\
    forall i, (i < length xs)%nat ->
      nth_error out i =
      Some (match nth_error xs i with
            | Some (Some x) =>
                let V := valid (win w i xs) in
                if (mp_eff mp w 0 <=? length V)%nat then
                  (if Rlt_dec EPS (popvarR V) then Some ((x - meanR V) / samplestdR V) else None)
                else None
            | _ => None
            end).
Proof.
  intros Hw.
  destruct (sliding_ts_run (ts_vzscore_f w mp) zs_abs zs_abs_init zs_abs_pre zs_abs_post
              (fun s => eq_refl) w Hw xs body) as (out & H1 & H2 & H3).
  exists out. split; [exact H1|]. split; [exact H2|]. intros i Hi.
  destruct (nth_error xs i) as [v|] eqn:Hv; [|apply nth_error_None in Hv; lia].
  destruct (H3 i v Hv) as (s & Habs & Hout). rewrite Hout. f_equal.
  (* the window ends with the current element *)
  assert (HW : win w i xs = seg (wstart w i) i xs ++ [v]).
  { rewrite win_seg. apply seg_snoc; [unfold wstart; lia|exact Hv]. }
  cbn [f_emit ts_vzscore_f]. rewrite (zs_emit_spec (mp_eff mp w 0) s _ _ v Habs HW).
  destruct v; reflexivity.
Qed.

(* greatest / least element of a non-empty list of reals (0 on the empty list) *)
Definition lmaxR (l : list R) : R := match l with [] => 0 | a :: r => fold_left Rmax r a end.
Definition lminR (l : list R) : R := match l with [] => 0 | a :: r => fold_left Rmin r a end.

(* once the cached maximum and minimum are those of the valid window, the value emitted for a valid current
   element x is (x - min) / (max - min), null when max = min or below min_periods *)
Lemma mmnorm_emit_closed (mp n : nat) (x mx mn : R) :
  (if (mp <=? n)%nat && negb (neqb (Some mx) (Some mn))
   then ndiv (nsub (Some x) (Some mn)) (nsub (Some mx) (Some mn)) else nnan) =
  if (mp <=? n)%nat then (if Req_EM_T mx mn then None else Some ((x - mn) / (mx - mn))) else None.
Proof.
  destruct (mp <=? n)%nat; [|reflexivity]. cbn [andb neqb NumXR xeqb].
  destruct (Req_EM_T mx mn) as [E|E]; [reflexivity|]. cbn [negb].
  rewrite !xsub_some, xdiv_some by lra. reflexivity.
Qed.
