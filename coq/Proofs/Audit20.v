(* Proofs/Audit20.v — C20 clause by clause (notes/C20.md, "Audit matrix").
   winsorize at EVERY carrier (so also Coq's binary64 `float`), every dictionary, method and parameter (omitted, NaN,
   out of range): the unconditional shape of the result; one value per input; nulls stay null; a value is
   bit-identical to the cast input or sits on one of two bounds.  winsorize at option R for the parameters OUTSIDE
   the quantifier (q in (1/2, 1], k < 0, NaN): what the code does there, and that the bounds are reversed there.
   The Pearson arm of vcorr; clipping at an ordered carrier; the Sigma method with fewer than two valid elements.
   (The half_life theorems for any oracle and every carrier are in Proofs/HalfLifeProbes.v.)                *)
From Coq Require Import Reals Lra List Sorting Permutation ZArith Bool.
From Tevec Require Import Base.Prelude Model.MapOps Spec.MapOps Proofs.MapOps.
From Tevec Require Import Base.Num Base.XR Spec.Stats Spec.Stats2 Model.SortCmp Model.Quantile
     Model.Agg Model.Composite Proofs.OrderXR Proofs.Quantile Proofs.QuantileMono Proofs.Partition
     Proofs.AggGeneric Proofs.AggXR Proofs.Agg Proofs.Composite.
Import ListNotations.

Section Shape.
  Context {A : Type} {NA : Num A} {NF : NumFloor A} {T : Type} {DT : IsNone T A}.

  (* vclip's element function on the f64 iterator: `>` / `<` of the carrier, NaN bounds are null bounds *)
  Definition clipA (lo hi : A) (x : A) : A := clip_elem (fdict (A := A)) (fun v => v) nltb lo hi x.

  Lemma clip_f64_map (lo hi : A) (ys : list A) : clip_f64 lo hi ys = Ok (map (clipA lo hi) ys).
  Proof. unfold clip_f64. apply (vclip_spec (fdict (A := A)) (fun v => v) nltb (unwrap_ok_float _ _)). Qed.

  Lemma clipA_null (lo hi x : A) : nisnan x = true -> clipA lo hi x = x.
  Proof. apply (clip_elem_null (fdict (A := A))). Qed.

  (* which branch of vclip's element function is taken, with the tests that were made *)
  Lemma clipA_spec (lo hi x : A) :
    nisnan x = false ->
    (nisnan lo = false /\ nltb x lo = true /\ clipA lo hi x = lo) \/
    ((nisnan lo = true \/ nltb x lo = false) /\ nisnan hi = false /\ nltb hi x = true /\ clipA lo hi x = hi) \/
    ((nisnan lo = true \/ nltb x lo = false) /\ (nisnan hi = true \/ nltb hi x = false) /\ clipA lo hi x = x).
  Proof.
    intros Hx. unfold clipA, clip_elem, fdict. cbn [MapOps.is_none dict_float]. rewrite Hx.
    destruct (nisnan lo) eqn:Hl; cbn [negb andb].
    - destruct (nisnan hi) eqn:Hh; cbn [negb andb]; [right; right; auto|].
      destruct (nltb hi x) eqn:E; [right; left; auto|right; right; auto].
    - destruct (nltb x lo) eqn:E1; [left; auto|].
      destruct (nisnan hi) eqn:Hh; cbn [negb andb]; [right; right; auto|].
      destruct (nltb hi x) eqn:E; [right; left; auto|right; right; auto].
  Qed.

  Lemma clipA_cases (lo hi x : A) :
    nisnan (clipA lo hi x) = nisnan x /\
    (clipA lo hi x = x \/
     (nisnan x = false /\ ((nisnan lo = false /\ nltb x lo = true /\ clipA lo hi x = lo) \/
                           (nisnan hi = false /\ nltb hi x = true /\ clipA lo hi x = hi)))).
  Proof.
    split; [apply (clip_elem_nullness (fdict (A := A)) (fun v => v) nltb lo hi x)|].
    destruct (nisnan x) eqn:Hx; [left; apply clipA_null; exact Hx|].
    destruct (clipA_spec lo hi x Hx) as [H|[(_ & H)|(_ & _ & H)]]; [right; split; [reflexivity|left; exact H]| |left; exact H].
    right. split; [reflexivity|right; exact H].
  Qed.

  Lemma clipA_inside (lo hi x : A) :
    (nisnan lo = false -> nltb x lo = false) -> (nisnan hi = false -> nltb hi x = false) -> clipA lo hi x = x.
  Proof.
    intros H1 H2. apply (clip_elem_fixed (fdict (A := A))). intros _. split; assumption.
  Qed.

  (* THE SHAPE: every method, every parameter (omitted, NaN, out of range), every series, every dictionary.
     `Panic` is the propagated panic of the order-statistic selection (excluded at option R below, by the
     correspondence at binary64); `Ok None` = the Err of vquantile, Quantile method only. *)
  Theorem winsorize_shape (m : wmethod) (p : option A) (xs : list T) :
    (exists k, winsorize m p xs = Panic k) \/
    (m = WQuantile /\ winsorize m p xs = Ok None) \/
    winsorize m p xs = Ok (Some (iter_cast xs)) \/
    (exists lo hi, winsorize m p xs = Ok (Some (map (clipA lo hi) (iter_cast xs)))).
  Proof.
    destruct m; unfold winsorize.
    - destruct (vquantile _ Linear xs) as [[mn|]|k]; cbn [bind];
        [|right; left; split; reflexivity|left; eexists; reflexivity].
      destruct (vquantile _ Linear xs) as [[mx|]|k]; cbn [bind];
        [|right; left; split; reflexivity|left; eexists; reflexivity].
      rewrite clip_f64_map. cbn [bind]. right; right; right. do 2 eexists. reflexivity.
    - destruct (vmedian xs) as [median|k]; cbn [bind]; [|left; eexists; reflexivity].
      destruct (negb (nisnan median)); [|right; right; left; reflexivity].
      destruct (vmedian _) as [mad|k]; cbn [bind]; [|left; eexists; reflexivity].
      rewrite clip_f64_map. cbn [bind]. right; right; right. do 2 eexists. reflexivity.
    - destruct (_ && _); [|right; right; left; reflexivity].
      rewrite clip_f64_map. cbn [bind]. right; right; right. do 2 eexists. reflexivity.
  Qed.

  (* WHENEVER winsorize returns a series it is the cast input or one clipped copy of it ... *)
  Lemma winsorize_ok_form (m : wmethod) (p : option A) (xs : list T) (r : list A) :
    winsorize m p xs = Ok (Some r) ->
    r = iter_cast xs \/ exists lo hi, r = map (clipA lo hi) (iter_cast xs).
  Proof.
    intros Hr.
    destruct (winsorize_shape m p xs) as [(k & E)|[(_ & E)|[E|(lo & hi & E)]]]; rewrite E in Hr; try discriminate;
      injection Hr as <-; [left; reflexivity|right; exists lo, hi; reflexivity].
  Qed.

  (* ... and where the carrier's NaN tests as NaN the cast input is a clipped copy too: a NaN bound is no bound *)
  Lemma winsorize_clip_form (m : wmethod) (p : option A) (xs : list T) (r : list A) :
    nisnan (nnan : A) = true -> winsorize m p xs = Ok (Some r) ->
    exists lo hi, r = map (clipA lo hi) (iter_cast xs).
  Proof.
    intros Hnan Hr. destruct (winsorize_ok_form m p xs r Hr) as [->|H]; [|exact H].
    exists nnan, nnan. rewrite <- (map_id (iter_cast xs)) at 1. apply map_ext.
    intros x. symmetry. apply clipA_inside; intros H; congruence.
  Qed.

  Lemma clipped_nth (lo hi : A) (xs : list T) (i : nat) (x : T) :
    nth_error xs i = Some x -> nth_error (map (clipA lo hi) (iter_cast xs)) i = Some (clipA lo hi (tcast x)).
  Proof. intros Hi. unfold iter_cast. rewrite !nth_error_map, Hi. reflexivity. Qed.

  Lemma clipped_returns (lo hi : A) (xs : list T) :
    forall i x, nth_error xs i = Some x ->
      exists y, nth_error (map (clipA lo hi) (iter_cast xs)) i = Some y /\ nisnan y = nisnan (tcast x) /\
        (y = tcast x \/ (nisnan (tcast x) = false /\ ((nltb (tcast x) lo = true /\ y = lo) \/ (nltb hi (tcast x) = true /\ y = hi)))).
  Proof.
    intros i x Hi. exists (clipA lo hi (tcast x)). split; [exact (clipped_nth lo hi xs i x Hi)|].
    destruct (clipA_cases lo hi (tcast x)) as [Hn Hc]. split; [exact Hn|].
    destruct Hc as [Hc|(Hx & [(_ & Hc & Hy)|(_ & Hc & Hy)])]; [left; exact Hc|right|right]; (split; [exact Hx|]); auto.
  Qed.

  (* hence, WHENEVER winsorize returns a series (no scope hypothesis at all): one value per input, in the input's
     order; the null pattern of the cast input is kept; there are two bounds such that every output is the cast input
     itself or — for a non-null input only — one of the two bounds *)
  Theorem winsorize_returns (m : wmethod) (p : option A) (xs : list T) (r : list A) :
    winsorize m p xs = Ok (Some r) ->
    length r = length xs /\
    exists lo hi, forall i x, nth_error xs i = Some x ->
      exists y, nth_error r i = Some y /\ nisnan y = nisnan (tcast x) /\
        (y = tcast x \/ (nisnan (tcast x) = false /\ ((nltb (tcast x) lo = true /\ y = lo) \/ (nltb hi (tcast x) = true /\ y = hi)))).
  Proof.
    intros Hr. destruct (winsorize_ok_form m p xs r Hr) as [->|(lo & hi & ->)].
    - split; [apply map_length|]. exists nnan, nnan. intros i x Hi.
      exists (tcast x). unfold iter_cast. rewrite nth_error_map, Hi. split; [reflexivity|]. split; [reflexivity|left; reflexivity].
    - split; [unfold iter_cast; rewrite !map_length; reflexivity|]. exists lo, hi. apply clipped_returns.
  Qed.

  Corollary winsorize_keeps_nulls (m : wmethod) (p : option A) (xs : list T) (r : list A) :
    nisnan (nnan : A) = true ->
    winsorize m p xs = Ok (Some r) ->
    forall i x, nth_error xs i = Some x -> is_none x = true -> nth_error r i = Some nnan.
  Proof.
    intros Hnan Hr i x Hi Hx. destruct (winsorize_returns m p xs r Hr) as (_ & lo & hi & H).
    destruct (H i x Hi) as (y & Hy & _ & Hc). rewrite Hy. f_equal.
    assert (Ec : tcast x = nnan) by (unfold tcast; rewrite Hx; reflexivity).
    rewrite Ec in Hc. destruct Hc as [Hc|(Hc & _)]; [exact Hc|congruence].
  Qed.
End Shape.

Local Open Scope R_scope.

Lemma clipR_reversed (lo hi x : R) : hi <= lo -> clipR lo hi x = if Rlt_dec x lo then lo else hi.
Proof.
  intros H. unfold clipR. destruct (Rlt_dec x lo); [reflexivity|].
  destruct (Rlt_dec hi x); [reflexivity|lra].
Qed.
Lemma clip_series_reversed (lo hi : R) (xs : list XR) :
  hi <= lo -> clip_series lo hi xs = map (option_map (fun x => if Rlt_dec x lo then lo else hi)) xs.
Proof.
  intros H. unfold clip_series. apply map_ext. intros [x|]; [|reflexivity]. cbn. rewrite clipR_reversed by exact H. reflexivity.
Qed.

(* the Median method with a NaN multiplier: the series unchanged, never an Err, never a panic *)
Theorem winsorize_median_nan (xs : list XR) : winsorize (DT := IsNoneXR) WMedian (Some None) xs = Ok (Some xs).
Proof.
  destruct (sorted_exists false (valid xs)) as (s & Hs & HP).
  destruct (list_eq_dec Req_EM_T (valid xs) []) as [Hv|Hv]; [apply winsorize_median_all_null; exact Hv|].
  assert (Hne : s <> []) by (intros ->; apply Permutation_nil in HP; contradiction).
  destruct (sorted_exists false (map (fun x => Rabs (x - quantile_spec s (1 / 2) Linear)) (valid xs))) as (s' & Hs' & HP').
  exact (winsorize_median xs None s s' Hs HP Hne Hs' HP').
Qed.

Theorem quantile_bounds_reversed (s : list R) (q : R) :
  Sorted Rle s -> s <> [] -> 1 / 2 <= q <= 1 ->
  quantile_spec s (1 - q) Linear <= quantile_spec s q Linear.
Proof. intros Hs Hne Hq. apply quantile_mono; try assumption; lra. Qed.
Theorem median_bounds_reversed (med mad k : R) : 0 <= mad -> k <= 0 -> med + k * mad <= med - k * mad.
Proof. intros. nra. Qed.
Theorem sigma_bounds_reversed (mean var k : R) : k <= 0 -> mean + k * sqrt var <= mean - k * sqrt var.
Proof. intros. pose proof (sqrt_pos var). nra. Qed.

Definition weff (m : wmethod) (p : option XR) : XR := match p with Some v => v | None => Some (wdefault m) end.
Lemma winsorize_weff (m : wmethod) (p : option XR) (xs : list XR) :
  winsorize (DT := IsNoneXR) m p xs = winsorize (DT := IsNoneXR) m (Some (weff m p)) xs.
Proof. destruct p as [v|]; [reflexivity|apply winsorize_default]. Qed.

(* EVERY method, EVERY parameter (omitted, NaN, any real), every series: never a panic; an Err exactly for the
   Quantile method with q NaN or outside [0, 1]; otherwise the input or ONE clip_series (bounds possibly reversed) *)
Theorem winsorize_total_xr (m : wmethod) (p : option XR) (xs : list XR) :
  let rejected := m = WQuantile /\ (weff m p = None \/ exists q, weff m p = Some q /\ ~ 0 <= q <= 1) in
  (rejected /\ winsorize (DT := IsNoneXR) m p xs = Ok None) \/
  (~ rejected /\ exists r, winsorize (DT := IsNoneXR) m p xs = Ok (Some r) /\
                           (r = xs \/ exists lo hi, r = clip_series lo hi xs)).
Proof.
  cbv zeta. rewrite winsorize_weff. set (e := weff m p). clearbody e.
  destruct e as [q|].
  - destruct m; try (right; split; [intros (E & _); discriminate|apply winsorize_input_or_clip; discriminate]).
    assert (Hq : 0 <= q <= 1 \/ ~ 0 <= q <= 1) by (destruct (Rle_dec 0 q), (Rle_dec q 1); lra).
    destruct Hq as [Hq|Hq].
    + right. split; [|apply winsorize_input_or_clip; intros _; exact Hq].
      intros (_ & [E|(q' & E & Hq')]); [discriminate|]. injection E as <-. exact (Hq' Hq).
    + left. split; [split; [reflexivity|right; exists q; split; [reflexivity|exact Hq]]|].
      apply winsorize_quantile_bad_q. exact Hq.
  - destruct m.
    + left. split; [split; [reflexivity|left; reflexivity]|reflexivity].
    + right. split; [intros (E & _); discriminate|]. exists xs. split; [apply winsorize_median_nan|left; reflexivity].
    + right. split; [intros (E & _); discriminate|]. exists xs. split; [apply winsorize_sigma_nan|left; reflexivity].
Qed.

(* the parameters just outside the quantifier: q in (1/2, 1], k < 0.  There the bounds are reversed *)
Definition wparam_reversed (m : wmethod) (p : R) : Prop :=
  match m with WQuantile => 1 / 2 < p <= 1 | _ => p < 0 end.

Lemma wbounds_reversed (m : wmethod) (p lo hi : R) : wparam_reversed m p -> wbounds m p lo hi -> hi <= lo.
Proof.
  intros Hp Hb. destruct m; cbn in Hp, Hb.
  - destruct Hb as (s & Hs & Hne & -> & ->). apply quantile_bounds_reversed; try assumption. lra.
  - destruct Hb as (c & d & Hd & -> & ->). apply median_bounds_reversed; [exact Hd|lra].
  - destruct Hb as (c & d & Hd & -> & ->). apply median_bounds_reversed; [exact Hd|lra].
Qed.

(* the computations behind C20_winsorize_scope_needed: at q = 1 and at k = -1 the series [1; 2; 3] is clipped with
   the reversed bounds (3, 1) *)
Lemma sorted_123 : Sorted Rle [1; 2; 3] /\ Permutation [1; 2; 3] (valid [Some 1; Some 2; Some 3]).
Proof. split; [repeat constructor; lra|reflexivity]. Qed.

Lemma q123_1 : quantile_spec [1; 2; 3] 1 Linear = 3.
Proof.
  unfold quantile_spec. cbn [length Nat.sub INR]. replace ((1 + 1) * 1) with (IZR 2) by lra.
  rewrite Rfloor_IZR, Rceil_IZR. change (Z.to_nat 2) with 2%nat. cbn [nth]. lra.
Qed.
Lemma q123_0 : quantile_spec [1; 2; 3] (1 - 1) Linear = 1.
Proof.
  unfold quantile_spec. cbn [length Nat.sub INR]. replace ((1 + 1) * (1 - 1)) with (IZR 0) by lra.
  rewrite Rfloor_IZR, Rceil_IZR. change (Z.to_nat 0) with 0%nat. cbn [nth]. lra.
Qed.
Lemma clip_31_123 : clip_series 3 1 [Some 1; Some 2; Some 3] = [Some 3; Some 3; Some 1].
Proof.
  unfold clip_series, clipR. cbn [map option_map].
  destruct (Rlt_dec 1 3); [|lra]. destruct (Rlt_dec 2 3); [|lra]. destruct (Rlt_dec 3 3); [lra|].
  destruct (Rlt_dec 1 3); [|lra]. reflexivity.
Qed.

Lemma q_half_3 (a b c : R) : quantile_spec [a; b; c] (1 / 2) Linear = b.
Proof.
  unfold quantile_spec. cbn [length Nat.sub INR]. replace ((1 + 1) * (1 / 2)) with (IZR 1) by lra.
  rewrite Rfloor_IZR, Rceil_IZR. change (Z.to_nat 1) with 1%nat. cbn [nth]. lra.
Qed.

Local Close Scope R_scope.

(* the Pearson arm of vcorr (tevec/src/agg.rs:44) *)
Section PearsonArm.
  Context {A : Type} {NA : Num A} {T : Type} {DT : IsNone T A} {DX : IsNoneX T A}.

  (* every carrier, every dictionary: the Pearson arm IS vcorr_pearson on the two series as they are, with
     min_periods defaulting to HALF THE LENGTH OF THE FIRST series; it never reports an uninitialised slot *)
  Theorem vcorr_pearson_arm (mp : option nat) (xs ys : list T) :
    vcorr (DT := DT) (DX := DX) mp false xs ys
    = Some (vcorr_pearson (DT := DT) (DT2 := DT) (@idA A) (mp_default mp (length xs)) xs ys).
  Proof. reflexivity. Qed.
End PearsonArm.

Local Open Scope R_scope.
(* option R: Pearson's r (C11) of the pairwise-complete pairs, null below max(min_periods, 2) pairs or on a spread at or
   below the EPS floor *)
Theorem vcorr_pearson_arm_textbook (mp : option nat) (xs ys : list XR) :
  let P := rpairs (DT := IsNoneXR) (DT2 := IsNoneXR) (fun x : XR => x) xs ys in
  vcorr (DT := IsNoneXR) (DX := IsNoneXXR) mp false xs ys
  = Some (if (length P <? Nat.max (mp_default mp (length xs)) 2)%nat then None
          else if Rlt_dec EPS (popvarR (xs_of P)) then
                 (if Rlt_dec EPS (popvarR (ys_of P)) then Some (corrR P) else None)
               else None).
Proof.
  intros P. rewrite vcorr_pearson_arm. f_equal.
  apply (vcorr_textbook (mp_default mp (length xs)) (canonical_float xs) (canonical_float ys)).
Qed.

(* clipping at an ORDERED carrier (Spec/ExtremaOrd.v: `nltb` a strict weak order on the non-NaN elements — proved for
   binary64 in Proofs/CmpOrdFloat.v) *)
From Tevec Require Import Spec.ExtremaOrd.
Local Close Scope R_scope.

Section ClipOrdered.
  Context {A : Type} {NA : Num A}.
  Hypothesis OL : OrdLaws A.

  Local Notation le a b := (nltb b a = false).

  Lemma ol_irrefl a : num_ok a -> nltb a a = false.
  Proof. intros Ha. destruct (nltb a a) eqn:E; [|reflexivity]. pose proof (ol_asym OL a a Ha Ha E). congruence. Qed.
  Lemma ol_le_trans a b c : num_ok a -> num_ok b -> num_ok c -> le a b -> le b c -> le a c.
  Proof.
    intros Ha Hb Hc H1 H2. destruct (nltb c a) eqn:E; [|reflexivity].
    destruct (ol_cotrans OL c a b Hc Ha Hb E) as [H|H]; congruence.
  Qed.
  Lemma ol_lt_le a b : num_ok a -> num_ok b -> nltb a b = true -> le a b.
  Proof. intros Ha Hb H. apply (ol_asym OL); assumption. Qed.
  Lemma ol_lt_le_trans a b c : num_ok a -> num_ok b -> num_ok c -> nltb a b = true -> le b c -> nltb a c = true.
  Proof. intros Ha Hb Hc H1 H2. destruct (ol_cotrans OL a b c Ha Hb Hc H1) as [H|H]; [exact H|congruence]. Qed.
  Lemma ol_le_lt_trans a b c : num_ok a -> num_ok b -> num_ok c -> le a b -> nltb b c = true -> nltb a c = true.
  Proof. intros Ha Hb Hc H1 H2. destruct (ol_cotrans OL b c a Hb Hc Ha H2) as [H|H]; [congruence|exact H]. Qed.

  Lemma clipA_ok (lo hi x : A) : num_ok x -> num_ok (clipA lo hi x).
  Proof. intros Hx. unfold num_ok. rewrite (proj1 (clipA_cases lo hi x)). exact Hx. Qed.

  (* the first hypothesis: the bounds are not reversed (a NaN bound is no bound) *)
  Theorem clipA_contained (lo hi x : A) :
    (nisnan lo = false -> nisnan hi = false -> le lo hi) -> num_ok x ->
    (nisnan lo = false -> le lo (clipA lo hi x)) /\ (nisnan hi = false -> le (clipA lo hi x) hi).
  Proof.
    intros Hlh Hx.
    destruct (clipA_spec lo hi x Hx) as [(Hl & Hc & ->)|[(Hlo & Hh & Hc & ->)|(Hlo & Hhi & ->)]].
    - split; [intros _; apply ol_irrefl; exact Hl|intros Hh; apply Hlh; assumption].
    - split; [intros Hl; apply Hlh; assumption|intros _; apply ol_irrefl; exact Hh].
    - split; [intros Hl; destruct Hlo; congruence|intros Hh; destruct Hhi; congruence].
  Qed.

  Theorem clipA_monotone (lo hi x y : A) :
    (nisnan lo = false -> nisnan hi = false -> le lo hi) -> num_ok x -> num_ok y ->
    le x y -> le (clipA lo hi x) (clipA lo hi y).
  Proof.
    intros Hlh Hx Hy Hxy.
    destruct (clipA_spec lo hi x Hx) as [(Hl & Hc & ->)|[(Hlo & Hh & Hc & ->)|(Hlo & Hhi & ->)]].
    - (* x below lo *)
      destruct (clipA_spec lo hi y Hy) as [(_ & _ & ->)|[(_ & Hh' & _ & ->)|(Hlo' & _ & ->)]].
      + apply ol_irrefl; exact Hl.
      + apply Hlh; assumption.
      + destruct Hlo'; congruence.
    - (* x above hi: so is y *)
      assert (Hhy : nltb hi y = true) by (apply (ol_lt_le_trans hi x y); assumption).
      destruct (clipA_spec lo hi y Hy) as [(Hl' & Hc' & ->)|[(_ & _ & _ & ->)|(_ & Hhi' & ->)]].
      + exfalso. assert (H : nltb hi lo = true) by (apply (ol_lt_le_trans hi y lo); try assumption; apply ol_lt_le; assumption).
        rewrite (Hlh Hl' Hh) in H. discriminate.
      + apply ol_irrefl; exact Hh.
      + destruct Hhi'; congruence.
    - (* x inside *)
      destruct (clipA_spec lo hi y Hy) as [(Hl' & Hc' & ->)|[(_ & Hh' & _ & ->)|(_ & _ & ->)]].
      + exfalso. destruct Hlo as [Hlo|Hlo]; [congruence|].
        assert (H : nltb x lo = true) by (apply (ol_le_lt_trans x y lo); assumption). congruence.
      + destruct Hhi as [Hhi|Hhi]; [congruence|exact Hhi].
      + exact Hxy.
  Qed.

  Theorem clipA_idempotent (lo hi x : A) :
    (nisnan lo = false -> nisnan hi = false -> le lo hi) -> clipA lo hi (clipA lo hi x) = clipA lo hi x.
  Proof.
    intros Hlh. destruct (nisnan x) eqn:Hx.
    { rewrite (clipA_null lo hi x Hx). apply clipA_null. exact Hx. }
    destruct (clipA_contained lo hi x Hlh Hx) as [H1 H2]. apply clipA_inside; assumption.
  Qed.
End ClipOrdered.

(* a clipped series at an ordered carrier: when the two bounds are not reversed, positions keep their order:
   x_i <= x_j  ->  r_i <= r_j  on the non-null positions.  (That the bounds winsorize uses ARE ordered inside the
   quantifier is a statement about rounding at binary64 — proved at option R, compared by the run.) *)
Section ClippedOrdered.
  Context {A : Type} {NA : Num A} {T : Type} {DT : IsNone T A}.
  Hypothesis OL : OrdLaws A.

  Lemma clipped_ordered (lo hi : A) (xs : list T) :
    (nisnan lo = false -> nisnan hi = false -> nltb hi lo = false) ->
    forall i j x x', nth_error xs i = Some x -> nth_error xs j = Some x' ->
      nisnan (tcast x) = false -> nisnan (tcast x') = false -> nltb (tcast x') (tcast x) = false ->
      exists y y', nth_error (map (clipA lo hi) (iter_cast xs)) i = Some y /\
                   nth_error (map (clipA lo hi) (iter_cast xs)) j = Some y' /\ nltb y' y = false /\
                   (nisnan lo = false -> nltb y lo = false) /\ (nisnan hi = false -> nltb hi y = false).
  Proof.
    intros Hlh i j x x' Hi Hj Hx Hx' Hle. exists (clipA lo hi (tcast x)), (clipA lo hi (tcast x')).
    split; [exact (clipped_nth lo hi xs i x Hi)|]. split; [exact (clipped_nth lo hi xs j x' Hj)|].
    split; [apply (clipA_monotone OL); assumption|apply (clipA_contained OL); assumption].
  Qed.
End ClippedOrdered.

(* the Sigma method with fewer than two valid elements: winsorize calls vmean_var(2), so that case is answered by the
   `n < min_periods` test; the later `n < 2 -> (m1, NaN)` line of vmean_var (tea-core/src/agg.rs:340) is never reached
   from winsorize.  Every carrier. *)
Section SigmaShort.
  Context {A : Type} {NA : Num A} {NF : NumFloor A} {T : Type} {DT : IsNone T A}.

  Lemma vmean_var_mp2_short (xs : list T) :
    length (vals xs) < 2 -> Agg.vmean_var (@idA A) 2 xs = (nnan, nnan).
  Proof.
    intros H. unfold Agg.vmean_var. rewrite vapply_n_spec. cbn [fst snd].
    replace (length (vals xs) <? 2) with true by (symmetry; apply Nat.ltb_lt; exact H). reflexivity.
  Qed.

  Theorem winsorize_sigma_short (p : option A) (xs : list T) :
    nisnan (nnan : A) = true -> length (vals xs) < 2 ->
    winsorize WSigma p xs = Ok (Some (iter_cast xs)).
  Proof.
    intros Hnan H. unfold winsorize. rewrite (vmean_var_mp2_short xs H). cbn [fst snd]. rewrite Hnan. reflexivity.
  Qed.
End SigmaShort.
