(* Proofs/CmpOrdInst.v — the order laws of Spec/ExtremaOrd.v hold for the exact-real carrier XR = option R
   restricted to its non-NaN elements (Some _), so the generic theorems of Proofs/CmpOrd.v / RollRankOrd.v are
   non-vacuous a second time (the integer carrier: Proofs/Cmp.v); at XR the generic extreme is the least /
   greatest real of the window.  Stdlib Reals axioms only.                                                *)
From Coq Require Import List Bool Reals Lra.
From Tevec Require Import Base.Prelude Base.Num Base.XR Spec.ExtremaOrd Proofs.CmpOrd.
Import ListNotations.

(* any carrier: the float-like dictionary (NaN IS the null) satisfies the premise on the series *)
Lemma valid_not_nan_floatlike {A} {NA : Num A} (xs : list A) : valid_not_nan (DT := IsNone_float) xs.
Proof. intros v _ H. exact H. Qed.

(* for a carrier with Leibniz neqb the extreme is characterised completely *)
Lemma ext_last_iff {A} {NA : Num A} (ltb : A -> A -> bool) (l : list A) (m : A) :
  DirLaws ltb -> OrdStrict A -> Forall num_ok l ->
  (ext_last ltb l = Some m <-> In m l /\ forall a, In a l -> ltb a m = false).
Proof.
  intros DL HS Hok. split.
  - intros E. apply (ext_last_sound ltb DL l Hok m E).
  - intros [H1 H2]. apply (ext_last_spec ltb DL l m HS Hok H1 H2).
Qed.

Lemma num_ok_XR (a : XR) : num_ok a <-> exists r, a = Some r.
Proof.
  unfold num_ok. cbn. destruct a as [r|]; cbn; split; intros H; try discriminate; try reflexivity.
  - exists r. reflexivity.
  - destruct H as [r H]. discriminate.
Qed.

Lemma xltb_iff (x y : R) : nltb (Some x) (Some y) = true <-> (x < y)%R.
Proof. cbn. destruct (Rlt_dec x y); split; intros H; try reflexivity; try assumption; try discriminate; contradiction. Qed.
Lemma xltb_false_iff (x y : R) : nltb (Some x) (Some y) = false <-> (y <= x)%R.
Proof. cbn. destruct (Rlt_dec x y); split; intros H; try reflexivity; try discriminate; lra. Qed.

Lemma ordlaws_XR : OrdLaws XR.
Proof.
  split.
  - intros [x|] [y|] Ha Hb; try discriminate. intros H. apply xltb_iff in H. apply xltb_false_iff. lra.
  - intros [x|] [y|] [z|] Ha Hb Hc; try discriminate. intros H. apply xltb_iff in H.
    destruct (Rlt_dec x z) as [Hxz|Hxz]; [left; apply xltb_iff; exact Hxz|right; apply xltb_iff; lra].
  - intros [x|] [y|] Ha Hb; try discriminate. cbn.
    destruct (Req_EM_T x y), (Rlt_dec x y), (Rlt_dec y x); cbn; try reflexivity; exfalso; lra.
  - intros [x|] [y|] Ha Hb; try discriminate. cbn.
    destruct (Rle_dec x y), (Rlt_dec y x); cbn; try reflexivity; exfalso; lra.
Qed.
Lemma ordstrict_XR : OrdStrict XR.
Proof.
  intros [x|] [y|] Ha Hb; try discriminate. cbn. destruct (Req_EM_T x y); [intros _; f_equal; assumption|discriminate].
Qed.

(* the generic extreme at XR is the least / greatest real of the list *)
Lemma gmin_XR (V : list XR) (m : R) : Forall num_ok V ->
  (gmin V = Some (Some m) <-> In (Some m) V /\ forall r, In (Some r) V -> (m <= r)%R).
Proof.
  intros Hok. unfold gmin.
  rewrite (ext_last_iff nltb V (Some m) (dir_lt ordlaws_XR) ordstrict_XR Hok). split; intros [H1 H2]; (split; [exact H1|]).
  - intros r Hr. apply xltb_false_iff. apply H2. exact Hr.
  - intros a Ha. rewrite Forall_forall in Hok. pose proof (Hok a Ha) as Hoka.
    destruct a as [r|]; [|discriminate]. apply xltb_false_iff. apply H2. exact Ha.
Qed.
Lemma gmax_XR (V : list XR) (m : R) : Forall num_ok V ->
  (gmax V = Some (Some m) <-> In (Some m) V /\ forall r, In (Some r) V -> (r <= m)%R).
Proof.
  intros Hok. unfold gmax.
  rewrite (ext_last_iff ngtb V (Some m) (dir_gt ordlaws_XR) ordstrict_XR Hok). split; intros [H1 H2]; (split; [exact H1|]).
  - intros r Hr. apply xltb_false_iff. apply (H2 (Some r)). exact Hr.
  - intros a Ha. rewrite Forall_forall in Hok. pose proof (Hok a Ha) as Hoka.
    destruct a as [r|]; [|discriminate]. unfold ngtb. apply xltb_false_iff. apply H2. exact Ha.
Qed.

(* the counts at XR are the counts of smaller / equal reals *)
Lemma gcount_lt_XR (x : R) (l : list R) :
  gcount_lt (Some x) (map Some l) = length (filter (fun a => if Rlt_dec a x then true else false) l).
Proof.
  unfold gcount_lt. induction l as [|a l IH]; [reflexivity|]. cbn [map filter].
  change (nltb (Some a) (Some x)) with (if Rlt_dec a x then true else false).
  destruct (Rlt_dec a x); cbn [length]; rewrite IH; reflexivity.
Qed.
Lemma gcount_eq_XR (x : R) (l : list R) :
  gcount_eq (Some x) (map Some l) = length (filter (fun a => if Req_EM_T a x then true else false) l).
Proof.
  unfold gcount_eq. induction l as [|a l IH]; [reflexivity|]. cbn [map filter].
  change (neqb (Some a) (Some x)) with (if Req_EM_T a x then true else false).
  destruct (Req_EM_T a x); cbn [length]; rewrite IH; reflexivity.
Qed.
