(* Proofs/HalfLife.v — half_life over an abstract oracle, what holds before the two loops are analysed
   (Proofs/HalfLifeProbes.v does that): the search only evaluates the oracle at lags >= 1; the arm of
   the bisection that the repair replaced.                                                          *)
From Coq Require Import Lia.
From Tevec Require Import Base.Prelude Model.HalfLife.

Lemma pow2_gt i : i < 2 ^ i.
Proof. apply Nat.pow_gt_lin_r. lia. Qed.
Lemma pow2_pos i : 1 <= 2 ^ i.
Proof. pose proof (Nat.pow_nonzero 2 i). lia. Qed.

Lemma usub_le n last : last <= n -> usub n last = Ok (n - last).
Proof. intros H. unfold usub. rewrite (proj2 (Nat.leb_le last n) H). reflexivity. Qed.

Lemma mid_between n last : 1 < n - last -> last < (n + last) / 2 < n.
Proof.
  intros H. pose proof (Nat.div_mod (n + last) 2 ltac:(lia)) as Hd.
  pose proof (Nat.mod_upper_bound (n + last) 2 ltac:(lia)). lia.
Qed.

(* the search only probes lags >= 1: powers of two, and midpoints above a lower end >= 0 *)
Section Ext.
  Variables a1 a2 : nat -> bool.
  Variable len : nat.
  Hypothesis Hext : forall k, 1 <= k -> a1 k = a2 k.

  Lemma doubling_ext fuel : forall n last i, doubling a1 len fuel n last i = doubling a2 len fuel n last i.
  Proof.
    induction fuel as [|fuel IH]; intros n last i; [reflexivity|].
    cbn [doubling]. rewrite (Hext _ (pow2_pos i)). destruct (n <? len); [|reflexivity].
    destruct (a2 (2 ^ i)); [apply IH|reflexivity].
  Qed.

  Lemma bisect_ext fuel : forall n last, bisect a1 fuel n last = bisect a2 fuel n last.
  Proof.
    induction fuel as [|fuel IH]; intros n last; [reflexivity|].
    cbn [bisect]. destruct (usub n last) as [d|k] eqn:Hu; [|reflexivity].
    destruct (1 <? d) eqn:Hd; [|reflexivity].
    assert (Hmid : 1 <= (n + last) / 2).
    { unfold usub in Hu. destruct (last <=? n); [|discriminate]. injection Hu as <-.
      apply Nat.ltb_lt in Hd. pose proof (mid_between n last Hd). lia. }
    rewrite (Hext _ Hmid). destruct (a2 ((n + last) / 2)); apply IH.
  Qed.

  Theorem half_life_ext : half_life a1 len = half_life a2 len.
  Proof.
    unfold half_life. destruct (len =? 0); [reflexivity|].
    rewrite doubling_ext. destruct (doubling a2 len (S (S len)) 0 0 0) as [[n last]|]; [|reflexivity].
    apply bisect_ext.
  Qed.
End Ext.

(* before the repair the `above` arm assigned (last_n, n) := (life, last_n): the next `n - last_n`
   underflowed.  Model of that arm and a witness: *)
Fixpoint bisect_old (above : nat -> bool) (fuel n last_n : nat) : option (res nat) :=
  match fuel with
  | O => None
  | S fuel' =>
      match usub n last_n with
      | Panic k => Some (Panic k)
      | Ok d => if 1 <? d then
                  let life := (n + last_n) / 2 in
                  if above life then bisect_old above fuel' last_n life else bisect_old above fuel' life last_n
                else Some (Ok n)
      end
  end.
Lemma half_life_old_refuted :
  exists above n last, last < n /\ bisect_old above 10 n last = Some (Panic Underflow).
Proof. exists (fun k => k <? 7), 8, 4. split; [lia|reflexivity]. Qed.
