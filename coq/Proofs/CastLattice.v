(* Proofs/CastLattice.v — the Cast lattice of Model/Cast.v: nullness is preserved, casts compose through Option,
   the integer part of `as` is concrete.
   `cast s t` dispatches on the source to seven arm functions.  The four arms with a plain source (cast_num,
   cast_bool, cast_str, cast_time) are analysed once each, for a plain target, with the numeric type codes left
   variables; an Option on either side is reduced to them by the composition theorems.                     *)
From Coq Require Import ZArith List Bool Lia.
From Tevec Require Import Base.Prelude Model.Cast Proofs.Cast.
Import ListNotations.
Local Open Scope Z_scope.

Section Lattice.
  Context {F : Type} (X : Ext F) (L : ExtLaws X).

  (* nullness of the results of the float conversions *)
  Lemma f_to_float_nan s t (f : F) (Ht : is_float t = true) :
    n_is_none X t (f_to X s t f) = fisnan X f.
  Proof.
    destruct t; try discriminate; cbn [f_to n_is_none]; [|reflexivity].
    destruct s; try reflexivity. apply (fisnan_round32 X L).
  Qed.

  Lemma z_to_float_num s t (z : Z) (Ht : is_float t = true) : n_is_none X t (z_to X s t z) = false.
  Proof.
    destruct t; try discriminate; cbn [z_to n_is_none]; [apply (fisnan_z2f32 X L)|apply (fisnan_z2f64 X L)].
  Qed.

  Lemma as_nn_nullness s t (v : nval s) (Ht : is_float t = true) :
    n_is_none X t (as_nn X s t v) = n_is_none X s v.
  Proof.
    destruct s; cbn [as_nn n_is_none]; try apply f_to_float_nan; try apply z_to_float_num; assumption.
  Qed.

  Lemma is_none_i64min_dt : b_is_none X DT i64min = true. Proof. reflexivity. Qed.

  (* the i64 through which a numeric source reaches the time types (i64::MIN is their null) *)
  Definition src_i64 (s : ty) : @val F s -> option Z :=
    match s return @val F s -> option Z with
    | Plain (N a) => fun v => Some (as_nn X a I64 v)
    | Opt (N a) => fun o => option_map (as_nn X a I64) o
    | _ => fun _ => None
    end.
  Definition is_time_ty (t : ty) : bool := match t with Plain DT | Plain TD | Plain TM => true | _ => false end.
  (* a TimeDelta whose microseconds fit an i64 *)
  Definition td_src_ok (s : ty) : @val F s -> bool :=
    match s return @val F s -> bool with
    | Plain TD => fun d => match td_micros d with Some _ => true | None => false end
    | _ => fun _ => true
    end.

  (* String -> DateTime / TimeDelta are the parsers of property C18 (a parsed date may even be i64::MIN) *)
  Definition parser_pair (s t : ty) : bool :=
    match s, t with Plain Str, Plain DT | Plain Str, Plain TD => true | _, _ => false end.

  Lemma is_time_ty_plain b : is_time_ty (Plain b) = is_time b.
  Proof. destruct b; reflexivity. Qed.

  (* arm cast_num: a numeric source, plain target.  The result is null when the source is, and on the time
     types also when the i64 it passes through is their sentinel.  A null float is printed as text other than
     "None": that pair must be excluded, but only for a null source. *)

  Lemma n_to_string_not_None a (v : nval a) : n_is_none X a v = false -> str_eqb (n_to_string X a v) s_None = false.
  Proof.
    destruct a; cbn [n_to_string n_is_none]; intros H; try apply z_to_string_not_None;
      [apply (f2s32_not_None X L)|apply (f2s64_not_None X L)]; exact H.
  Qed.

  Lemma td_of_i64_null z : (fst (td_of_i64 z) =? i32min) = (z =? i64min).
  Proof. unfold td_of_i64. destruct (z =? i64min); reflexivity. Qed.

  Lemma cast_num_time_nullness a b (v : nval a) (w : bval b) :
    is_time b = true -> cast_num X a (Plain b) v = Ok w ->
    b_is_none X b w = n_is_none X a v || (as_nn X a I64 v =? i64min).
  Proof.
    intros Ht Hw. destruct b; try discriminate Ht; injection Hw as <-; cbn [b_is_none];
      unfold n_to_dt, n_to_td; destruct (n_is_none X a v); try reflexivity. apply td_of_i64_null.
  Qed.

  Lemma cast_num_time_null_iff a b (v : nval a) (w : bval b) :
    is_time_ty (Plain b) = true -> n_is_none X a v = false -> cast_num X a (Plain b) v = Ok w ->
    (b_is_none X b w = true <-> Some (as_nn X a I64 v) = Some i64min).
  Proof.
    intros Ht Hn Hw. rewrite is_time_ty_plain in Ht. rewrite (cast_num_time_nullness a b v w Ht Hw), Hn.
    cbn [orb]. rewrite Z.eqb_eq. split; [intros ->; reflexivity|intros [= ->]; reflexivity].
  Qed.

  Lemma cast_num_nullness a b (v : nval a) (w : bval b) :
    b_can_null b = true -> (n_is_none X a v = true -> kf_text_null (Plain (N a)) (Plain b) = false) ->
    cast_num X a (Plain b) v = Ok w ->
    b_is_none X b w = n_is_none X a v || (is_time b && (as_nn X a I64 v =? i64min)).
  Proof.
    intros Hc Hk Hw. destruct (is_time b) eqn:Et; [exact (cast_num_time_nullness a b v w Et Hw)|].
    rewrite orb_false_r. destruct b as [u| | | | |]; try discriminate Hc; try discriminate Et; injection Hw as <-.
    - apply as_nn_nullness. exact Hc.
    - destruct (n_is_none X a v) eqn:E; [|apply n_to_string_not_None; exact E].
      exfalso. destruct a; try discriminate E; discriminate (Hk eq_refl).
  Qed.

  Lemma cast_num_nonnull a b (v : nval a) (w : bval b) :
    b_can_null b = true -> n_is_none X a v = false ->
    (is_time_ty (Plain b) = true -> Some (as_nn X a I64 v) <> Some i64min) ->
    cast_num X a (Plain b) v = Ok w -> b_is_none X b w = false.
  Proof.
    intros Hc Hn Hsen Hw. rewrite (cast_num_nullness a b v w Hc); [|intros E; congruence|exact Hw].
    rewrite Hn, <- is_time_ty_plain. destruct (is_time_ty (Plain b)); [|reflexivity].
    apply Z.eqb_neq. intros E. apply Hsen; [reflexivity|rewrite E; reflexivity].
  Qed.

  (* arm cast_bool: never a null *)
  Lemma cast_bool_nonnull b (x : bool) (w : bval b) :
    b_can_null b = true -> cast_bool X (Plain b) x = Ok w -> b_is_none X b w = false.
  Proof.
    intros Hc Hw. destruct b as [u| | | | |]; try discriminate Hc; try discriminate Hw; injection Hw as <-.
    - unfold bool_to_n. cbn [b_is_none]. rewrite as_nn_nullness by exact Hc. reflexivity.
    - destruct x; reflexivity.
  Qed.

  (* arm cast_str: outside the float targets ("NaN" parses to a null float) only String itself can hold a null;
     the parsers of C18 are excluded, except on the text "None", which they reject *)
  Lemma cast_str_nullness b (v : str) (w : bval b) :
    b_can_null b = true -> kf_text_null (Plain Str) (Plain b) = false ->
    (parser_pair (Plain Str) (Plain b) = true -> v = s_None) ->
    cast_str X (Plain b) v = Ok w -> b_is_none X b w = str_eqb v s_None.
  Proof.
    intros Hc Hk Hp Hw. destruct b as [u| | | | |]; try discriminate Hc; try discriminate Hw.
    - destruct u; try discriminate Hc; discriminate Hk.
    - injection Hw as <-. reflexivity.
    - rewrite (Hp eq_refl) in Hw. cbn [cast_str] in Hw. rewrite (s2dt_None X L) in Hw. discriminate Hw.
    - rewrite (Hp eq_refl) in Hw. cbn [cast_str] in Hw. rewrite (s2td_None X L) in Hw. discriminate Hw.
  Qed.

  (* arm cast_time: a null source gives <T>::none(), the same type is the identity *)
  Lemma time_to_n_float b u (v : bval b) (w : nval u) :
    is_float u = true -> time_to_n X b u v = Ok w -> n_is_none X u w = b_is_none X b v.
  Proof.
    intros Hu. unfold time_to_n. destruct (b_is_none X b v) eqn:E; intros H.
    - exact (none_is_none X L (Plain (N u)) w H).
    - destruct (time_to_i64 b v) as [z|k]; cbn [bind] in H; [|discriminate]. injection H as <-.
      exact (as_nn_nullness I64 u z Hu).
  Qed.

  Lemma cast_time_nullness c b (v : bval c) (w : bval b) :
    is_time c = true -> b_can_null b = true -> kf_text_null (Plain c) (Plain b) = false ->
    cast_time X c (Plain b) v = Ok w -> b_is_none X b w = b_is_none X c v.
  Proof.
    intros Ht Hc Hk Hw. destruct b as [u| | | | |]; try discriminate Hc.
    (* a time type: only the identity returns *)
    3-5: destruct c; try discriminate Ht; try discriminate Hw; injection Hw as <-; reflexivity.
    - destruct u; try discriminate Hc; exact (time_to_n_float c _ v w eq_refl Hw).
    - destruct c; try discriminate Ht; try discriminate Hw; discriminate Hk.
  Qed.

  (* casts compose through Option on either side *)

  Theorem cast_opt_opt (a b : bt) (o : option (bval a)) :
    implemented (Opt a) (Opt b) = true ->
    cast X (Opt a) (Opt b) o =
    match o with None => Ok None | Some v => do w <- cast X (Plain a) (Plain b) v; Ok (Some w) end.
  Proof.
    intros Hi. destruct a as [n| | | | |], b as [u| | | | |]; try discriminate Hi; destruct o; reflexivity.
  Qed.

  (* Option<T> -> U.  None gives U::none(), except that Option<bool> -> time type is refused outright *)
  Lemma cast_opt_plain (a b : bt) (o : option (bval a)) :
    implemented (Opt a) (Plain b) = true ->
    cast X (Opt a) (Plain b) o =
    match o with
    | Some v => cast X (Plain a) (Plain b) v
    | None => if bt_eqb a Bool && is_time b then Panic OtherPanic else none X (Plain b)
    end.
  Proof.
    intros Hi. destruct a as [n| | | | |], b as [u| | | | |]; try discriminate Hi; destruct o; reflexivity.
  Qed.

  (* T -> Option<U> is T -> U re-wrapped, null first.  TimeDelta -> Option<i64> differs on a non-null duration
     whose microseconds overflow: None, where TimeDelta -> i64 gives the i64::MIN sentinel *)
  Lemma cast_time_opt c b (v : bval c) :
    is_time c = true -> implemented (Plain c) (Opt b) = true ->
    (b_is_none X c v = false -> b = N I64 -> td_src_ok (Plain c) v = true) ->
    cast_time X c (Opt b) v = if b_is_none X c v then Ok None else do w <- cast_time X c (Plain b) v; Ok (Some w).
  Proof.
    intros Ht Hi Hx. destruct b as [u| | | | |]; [destruct u; try reflexivity|reflexivity|..];
      destruct c; try discriminate Ht; try discriminate Hi; cbn [cast_time time_to_opt_i64 time_to_i64 b_is_none bind].
    all: try (destruct (v =? i64min); reflexivity).
    - destruct (fst v =? i32min) eqn:E; [reflexivity|]. specialize (Hx E eq_refl). cbn [td_src_ok] in Hx.
      destruct (negb (fst v =? 0)); [reflexivity|]. destruct (td_micros v); [reflexivity|discriminate Hx].
    - destruct (fst v =? i32min); reflexivity.
  Qed.

  Theorem cast_plain_opt (a b : bt) (v : bval a) :
    implemented (Plain a) (Opt b) = true ->
    (b_is_none X a v = false -> b = N I64 -> td_src_ok (Plain a) v = true) ->
    cast X (Plain a) (Opt b) v =
    if b_is_none X a v then Ok None else do w <- cast X (Plain a) (Plain b) v; Ok (Some w).
  Proof.
    intros Hi Hx. destruct a as [n| | | | |]; try exact (cast_time_opt _ b v eq_refl Hi Hx);
      destruct b as [u| | | | |]; try discriminate Hi; cbn [cast cast_num cast_bool cast_str b_is_none].
    (* cast_num; cast_bool, never null; cast_str tests for "None" before it parses *)
    1-2: destruct (n_is_none X n v); reflexivity.
    1-2: reflexivity.
    - destruct (str_eqb v s_None); [reflexivity|]. destruct (n_parse X u v); reflexivity.
    - destruct (str_eqb v s_None); [reflexivity|]. destruct (bool_parse v); reflexivity.
    - destruct (str_eqb v s_None); reflexivity.
  Qed.

  (* null |-> null *)

  Lemma cast_null_to_opt (s : ty) (b : bt) (v : val s) :
    implemented s (Opt b) = true -> is_none X s v = true -> cast X s (Opt b) v = Ok None.
  Proof.
    intros Hi Hn. destruct s as [a|a]; cbn [is_none] in Hn.
    - rewrite cast_plain_opt, Hn; [reflexivity|exact Hi|]. intros E. congruence.
    - destruct v; [discriminate Hn|]. apply (cast_opt_opt a b None Hi).
  Qed.

  Lemma cast_null_to_option (s : ty) (b : bt) (v : val s) (w : val (Opt b)) :
    implemented s (Opt b) = true -> is_none X s v = true -> cast X s (Opt b) v = Ok w -> w = None.
  Proof. intros Hi Hn Hw. rewrite (cast_null_to_opt s b v Hi Hn) in Hw. injection Hw as <-. reflexivity. Qed.

  Theorem cast_null_preserved (s t : ty) (v : val s) (w : val t) :
    implemented s t = true -> can_null t = true -> kf_text_null s t = false ->
    is_none X s v = true -> cast X s t v = Ok w -> is_none X t w = true.
  Proof.
    intros Hi Hc Hk Hn Hw. destruct t as [b|b]; [|rewrite (cast_null_to_option s b v w Hi Hn Hw); reflexivity].
    destruct s as [a|a]; cbn [is_none can_null] in *.
    - destruct a as [n| | | | |]; cbn [cast b_is_none] in Hw, Hn.
      4-6: rewrite (cast_time_nullness _ b v w eq_refl Hc Hk Hw); exact Hn.
      + rewrite (cast_num_nullness n b v w Hc (fun _ => Hk) Hw), Hn. reflexivity.
      + discriminate Hn.
      + rewrite (cast_str_nullness b v w Hc Hk (fun _ => proj1 (str_eqb_eq v s_None) Hn) Hw). exact Hn.
    - destruct v; [discriminate Hn|]. rewrite (cast_opt_plain a b None Hi) in Hw.
      destruct (bt_eqb a Bool && is_time b); [discriminate Hw|]. exact (none_is_none X L (Plain b) w Hw).
  Qed.

  (* non-null |-> non-null *)

  Lemma bind_Some_nonnull b (r : res (bval b)) (w : option (bval b)) :
    (do x <- r; Ok (Some x)) = Ok w -> is_none X (Opt b) w = false.
  Proof. destruct r; cbn [bind]; intros H; [injection H as <-; reflexivity|discriminate H]. Qed.

  Theorem cast_nonnull_preserved (s t : ty) (v : val s) (w : val t) :
    implemented s t = true -> can_null t = true -> kf_text_null s t = false -> parser_pair s t = false ->
    canonical X s v = true -> is_none X s v = false ->
    (is_time_ty t = true -> src_i64 s v <> Some i64min) ->
    (t = Opt (N I64) -> td_src_ok s v = true) ->
    cast X s t v = Ok w -> is_none X t w = false.
  Proof.
    intros Hi Hc Hk Hp Hcan Hn Hsen Htd Hw. destruct s as [a|a], t as [b|b]; cbn [is_none can_null canonical] in *.
    - destruct a as [n| | | | |]; cbn [cast b_is_none] in Hw, Hn.
      4-6: rewrite (cast_time_nullness _ b v w eq_refl Hc Hk Hw); exact Hn.
      + exact (cast_num_nonnull n b v w Hc Hn Hsen Hw).
      + exact (cast_bool_nonnull b v w Hc Hw).
      + rewrite (cast_str_nullness b v w Hc Hk) by (exact Hw || congruence). exact Hn.
    - rewrite cast_plain_opt, Hn in Hw; [exact (bind_Some_nonnull b _ w Hw)|exact Hi|].
      intros _ E. apply Htd. rewrite E. reflexivity.
    - destruct v as [x|]; [|discriminate Hn]. apply negb_true_iff in Hcan. rewrite (cast_opt_plain a b (Some x) Hi) in Hw.
      destruct a as [n| | | | |]; try discriminate Hi.
      + exact (cast_num_nonnull n b x w Hc Hcan Hsen Hw).
      + exact (cast_bool_nonnull b x w Hc Hw).
    - destruct v as [x|]; [|discriminate Hn]. rewrite (cast_opt_opt a b (Some x) Hi) in Hw.
      exact (bind_Some_nonnull b _ w Hw).
  Qed.

  (* the integer part of `as` is concrete: wrapping, and the identity inside the target range *)
  Lemma wrap_in_range t z : imin t <= z <= imax t -> wrap t z = z.
  Proof.
    intros H. unfold wrap. rewrite Z.mod_small by lia. lia.
  Qed.

  Lemma wrap_range t z : imin t < imax t -> imin t <= wrap t z <= imax t.
  Proof.
    intros Hlt. unfold wrap. pose proof (Z.mod_pos_bound (z - imin t) (imax t - imin t + 1) ltac:(lia)). lia.
  Qed.

  Lemma f2i_range t f : is_float t = false -> imin t <= f2i X t f <= imax t.
  Proof.
    intros H. unfold f2i, clamp. destruct t; try discriminate H; destruct (ftrunc X f); cbn [imin imax]; lia.
  Qed.
End Lattice.
