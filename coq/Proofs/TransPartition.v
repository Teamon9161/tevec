(* Proofs/TransPartition.v — C08 (null transparency) for vpartition (Model/Partition.v) at EVERY carrier, axiom-free.

   vpartition returns the kth + 1 first elements of the sorted series, padded with `T::none()`.  Read through the
   option view (null = NaN = None), the result is a function of the NON-NULL elements of the series only
   (`vpartition_by_valid`): by `isort_split` (Proofs/TransQuantile.v) the sorted series is the sorted non-null
   elements followed by the nulls, and a null taken from the series and a null taken from the padding have the same
   view.  Hence inserting nulls into a series does not change the option view of its partition.
   Hypothesis: `T::none()` returns a null (`tnone = Ok pad`, `is_none pad = true`) — without it (the integer types
   panic in `T::none()`) a short series panics where a longer one, needing no padding, does not.
   (varg_partition returns positions: it is positional, not transparent, and nothing is claimed for it.)        *)
From Coq Require Import List Bool Arith Lia ZArith.
From Tevec Require Import Base.Prelude Base.Num Model.NullView Model.SortCmp Model.Partition
     Proofs.SortCmp Proofs.ViewBase Proofs.TransQuantile Proofs.EncRank.
From Tevec Require Proofs.Audit12.
Import ListNotations.

Section TransPartition.
  Context {A : Type} {NA : Num A} {T : Type} {DT : IsNone T A} {DX : IsNoneX T A}.

  Lemma view_all_null Z : all_null Z -> opt_view Z = repeat None (length Z).
  Proof.
    induction 1 as [|z Z Hz _ IH]; [reflexivity|]. cbn [opt_view map length repeat]. unfold to_opt at 1. rewrite Hz.
    f_equal. exact IH.
  Qed.
  Lemma view_app (l1 l2 : list T) : opt_view (l1 ++ l2) = opt_view l1 ++ opt_view l2.
  Proof. apply map_app. Qed.
  Lemma view_repeat_null pad m : is_none pad = true -> opt_view (repeat pad m) = repeat (@None A) m.
  Proof.
    intros H. rewrite view_all_null by (apply Forall_forall; intros z Hz; apply repeat_spec in Hz; subst z; exact H).
    rewrite repeat_length. reflexivity.
  Qed.

  (* the option view of the partition, as a function of the non-null elements V of the series *)
  Definition part_of_valid (kth : nat) (sort rev : bool) (pad : T) (V : list T) : list (option A) :=
    let n := length V in
    let S0 := isort (cmp_dir rev) V in
    if (n =? kth + 1)%nat && negb sort then opt_view V else
    if (n <=? kth + 1)%nat then
      if negb sort then opt_view (pad_take (kth + 1) pad V)
      else opt_view S0 ++ repeat None (kth + 1 - n)
    else opt_view (if sort then isort (cmp_dir rev) (firstn (kth + 1) S0) else firstn (kth + 1) S0).

  Theorem vpartition_by_valid kth sort rev pad xs :
    tnone = Ok pad -> is_none pad = true ->
    res_opt_view (vpartition kth sort rev xs) = Ok (part_of_valid kth sort rev pad (filter not_none xs)).
  Proof.
    intros HT HP. unfold vpartition, part_of_valid, count_valid.
    set (V := filter not_none xs). set (n := length V).
    destruct ((n =? kth + 1)%nat && negb sort); [reflexivity|].
    rewrite (isort_split rev xs). fold V.
    set (S0 := isort (cmp_dir rev) V). set (Z := filter is_none xs).
    assert (HS0 : length S0 = n) by (unfold S0; rewrite isort_length; reflexivity).
    pose proof (filter_is_none_all_null xs) as HZ. fold Z in HZ.
    destruct (n <=? kth + 1)%nat eqn:En.
    - apply Nat.leb_le in En. destruct (negb sort).
      + rewrite HT. reflexivity.
      + destruct (length (S0 ++ Z) <? kth + 1)%nat eqn:El.
        * apply Nat.ltb_lt in El. rewrite HT. cbn [bind res_opt_view]. f_equal.
          rewrite Audit12.pad_take_short by lia. rewrite app_length in El |- *.
          rewrite !view_app, (view_all_null _ HZ), (view_repeat_null _ _ HP), <- app_assoc, <- repeat_app.
          do 2 f_equal. lia.
        * apply Nat.ltb_ge in El. cbn [res_opt_view]. f_equal. rewrite app_length in El.
          rewrite firstn_app, (firstn_all2 (n := kth + 1) S0) by lia.
          rewrite view_app. f_equal. rewrite (view_all_null _ (Forall_firstn _ _ _ HZ)), firstn_length.
          f_equal. lia.
    - apply Nat.leb_gt in En. cbn [res_opt_view]. f_equal.
      rewrite firstn_app. replace (kth + 1 - length S0)%nat with 0%nat by lia. cbn [firstn]. rewrite app_nil_r.
      reflexivity.
  Qed.

  (* inserting nulls does not change the option view of the partition: every kth / sort / rev, every pattern *)
  Theorem vpartition_insert kth sort rev pad xs ys :
    tnone = Ok pad -> is_none pad = true -> NullInsert xs ys ->
    res_opt_view (vpartition kth sort rev ys) = res_opt_view (vpartition kth sort rev xs).
  Proof.
    intros HT HP HI. rewrite !(vpartition_by_valid _ _ _ pad) by assumption.
    rewrite (filter_valid_insert HI). reflexivity.
  Qed.
End TransPartition.
